(** C01 - Results do not depend on the container format (theorem side).
    The model of the shared glue is Model/Format.v: the five containers [check_format] accepts,
    their denotation [den], and [to_csr] = what [sparse.csr_matrix(x)] produces.
    Items 1-4: conversion to CSR (denotation, canonical form) and the BFS / get_dag kernels of Model/Bfs.v.
    Items 5-7: the kernel models (Model/Topology.v, Diffusion.v, Vote.v, PageRank.v) depend only on what the stored
    matrix denotes - not on the order of a row, on split weights, or on the container (Proofs/EquivarianceProofs.v).
    That no call modifies its arguments: section 8 (frame theorem of the alias analysis + the pinned facts of
    Gen/ArgMut.v) and run-time snapshots; that each estimator really starts with [check_format]: harness only.
    This file contains statements of the property, each proved right under it - by [exact] of a lemma of Proofs/, by a
    script over such lemmas, or (witnesses, and the obligations over Gen/ArgMut.v) by evaluation - and followed by its
    [Print Assumptions]; and non-vacuity examples. *)
From Coq Require Import Permutation Sorted.
From SKN Require Import Base.Util Model.Bfs Model.Format Proofs.BfsProofs Proofs.FormatProofs.

(** 1. Conversion to CSR keeps the matrix: for every accepted container (Dense, Coo with duplicates in
    any order, Csc, Lil, Csr with unsorted rows / duplicates) the stored CSR entries, duplicates
    summed, are the denotation of the input - everywhere, also outside the shape (both sides 0). *)
Theorem to_csr_denotation (c : container) :
  wf_shape c -> forall i j, (entry (snd (to_csr c)) i j == den c i j)%Q.
Proof. exact (FormatProofs.to_csr_denotation c). Qed.
Print Assumptions to_csr_denotation.

Theorem to_csr_shape (c : container) :
  fst (to_csr c) = c_ncol c /\ length (snd (to_csr c)) = c_nrow c.
Proof. exact (FormatProofs.to_csr_shape c). Qed.
Print Assumptions to_csr_shape.

(** 2. For every container but CSR the result is in canonical format: each row strictly increasing in
    the column index, hence without duplicates.  ([canonical] = the invariants SciPy's own CSC / LIL
    classes maintain; it is [True] for Dense and Coo.) *)
Theorem to_csr_sorted (c : container) :
  is_csr c = false -> canonical c -> rows_sorted (snd (to_csr c)).
Proof. exact (FormatProofs.to_csr_sorted c). Qed.
Print Assumptions to_csr_sorted.

(** 3. Canonical form: two non-CSR containers of equal shape with pointwise equal denotations convert
    to the same CSR matrix - same column lists, [==] values - once stored zeros are dropped. *)
Theorem to_csr_canonical (c1 c2 : container) :
  is_csr c1 = false -> is_csr c2 = false ->
  wf_shape c1 -> wf_shape c2 -> canonical c1 -> canonical c2 ->
  c_nrow c1 = c_nrow c2 -> c_ncol c1 = c_ncol c2 ->
  (forall i j, (den c1 i j == den c2 i j)%Q) ->
  fst (to_csr c1) = fst (to_csr c2) /\
  rows_eq (eliminate_zeros (snd (to_csr c1))) (eliminate_zeros (snd (to_csr c2))).
Proof. exact (FormatProofs.to_csr_canonical c1 c2). Qed.
Print Assumptions to_csr_canonical.

(** ... and [eliminate_zeros] cannot be left out: COO duplicates that cancel stay stored (so [nnz],
    and the pattern a structural kernel walks, may differ from the dense array of equal value). *)
Theorem to_csr_canonical_needs_eliminate_zeros :
  exists c1 c2,
    is_csr c1 = false /\ is_csr c2 = false /\ wf_shape c1 /\ wf_shape c2 /\
    c_nrow c1 = c_nrow c2 /\ c_ncol c1 = c_ncol c2 /\
    (forall i j, (den c1 i j == den c2 i j)%Q) /\
    map (map fst) (snd (to_csr c1)) <> map (map fst) (snd (to_csr c2)).
Proof.
  exists (Coo 1 1 [(0, 0, 1%Q); (0, 0, (-1)%Q)]), (Dense [[0%Q]]).
  repeat split; try discriminate.
  - repeat constructor.
  - repeat constructor.
  - intros [|i] [|j]; try reflexivity; simpl; unfold nthq; try destruct i; try destruct j; reflexivity.
Qed.
Print Assumptions to_csr_canonical_needs_eliminate_zeros.

(** CSR with shuffled indices (what [A[idx][:, idx]] or [A.dot(B)] produce): the denotation and the
    pattern (as edge sets) are those of the sorted matrix. *)
Theorem csr_shuffle_invariant (rows rows' : wrows) :
  Forall2 (@Permutation (nat * Q)) rows rows' ->
  (forall i j, (entry rows i j == entry rows' i j)%Q) /\
  same_rows (pattern rows) (pattern rows').
Proof.
  intros H. split.
  - intros i j. unfold entry. apply entry_row_Permutation.
    apply (Forall2_nth_elim (@Permutation (nat * Q))); [constructor|exact H].
  - split.
    + rewrite !pattern_length. clear -H. induction H; simpl; auto.
    + intros u v. rewrite !row_pattern.
      assert (HP : Permutation (nth u rows []) (nth u rows' []))
        by (apply (Forall2_nth_elim (@Permutation (nat * Q))); [constructor|exact H]).
      split; apply Permutation_in; apply Permutation_map; apply perm_filter;
        [exact HP | apply Permutation_sym; exact HP].
Qed.
Print Assumptions csr_shuffle_invariant.

(** 4. Unsorted indices and duplicates cannot change hop distances or DAG edges: two graphs whose
    rows have the same elements ([same_rows g g' := length g = length g' /\
    forall u v, In v (row g u) <-> In v (row g' u)]) give the same [bfs] result for every source
    mask, and [get_dag] keeps the same edge sets for every order vector. *)
Theorem bfs_row_order_irrelevant (g g' : graph) :
  same_rows g g' ->
  (forall src, bfs g src = bfs g' src) /\
  (forall order, same_rows (get_dag g order) (get_dag g' order)).
Proof. exact (FormatProofs.bfs_row_order_irrelevant g g'). Qed.
Print Assumptions bfs_row_order_irrelevant.

(** Non-vacuity: one 2x3 matrix in four containers (COO unordered with a duplicate that is summed);
    hypotheses hold; all convert to the same CSR; a shuffled CSR with a duplicate index gives the
    same distances. *)
Example c01_nonvacuous :
  let d := Dense [[0; 2; 0]; [3; 0; 1]]%Q in
  let c := Coo 2 3 [(1, 2, 1%Q); (0, 1, 1%Q); (1, 0, 3%Q); (0, 1, 1%Q)] in
  let s := Csc 2 [[(1, 3%Q)]; [(0, 2%Q)]; [(1, 1%Q)]] in
  let l := Lil 3 [[(1, 2%Q)]; [(0, 3%Q); (2, 1%Q)]] in
  (wf_shape d /\ wf_shape c /\ wf_shape s /\ wf_shape l /\ canonical s /\ canonical l) /\
  to_csr d = (3, [[(1, 2%Q)]; [(0, 3%Q); (2, 1%Q)]]) /\
  to_csr c = to_csr d /\ to_csr s = to_csr d /\ to_csr l = to_csr d /\
  same_rows [[1; 2]; [2]; []] [[2; 1; 2]; [2]; []] /\
  bfs [[2; 1; 2]; [2]; []] [true; false; false] = Some [0; 1; 1]%Z /\
  bfs [[1; 2]; [2]; []] [true; false; false] = Some [0; 1; 1]%Z.
Proof.
  cbv zeta. split; [|split; [|split; [|split; [|split; [|split; [|split]]]]]]; try (vm_compute; reflexivity).
  - cbv [wf_shape canonical wf_rows rows_sorted row_sorted dense_ncol]. simpl.
    repeat split; repeat constructor; simpl; intuition lia.
  - split; [reflexivity|]. intros [|[|[|u]]] v; simpl; try tauto; destruct u; simpl; tauto.
Qed.

(* -------------------------------------------------------------------------------------------------- *)
(** * Corollaries for the REAL kernel models (Proofs/EquivarianceProofs.v): the kernel depends only on what the
    stored matrix DENOTES - not on the order of the stored indices of a row, not on how a weight is split over
    repeated positions, not on the container it came from.  Structural kernels (item 5) through their exactness
    theorems (C11); the order of the stored entries for the diffusion and vote kernels (item 6) by a simulation between
    rows that are permutations of each other; equal denotations (item 7) through the denotation of the sparse product.
    The model modules are only Required
    (their names clash): statements use qualified names such as [Topology.compute_core], [Diffusion.matvec]. *)
From SKN Require Model.Topology Model.Diffusion Proofs.DiffusionProofs Model.Vote Proofs.VoteProofs Model.PageRank Proofs.PageRankProofs Proofs.EquivarianceProofs.
Set Warnings "-notation-overridden".

(** 5. Structural kernels of Model/Topology.v and the order of the stored indices (through the exactness
    theorems of C11).  count_triangles depends on the edge SET only: rows with the same elements - any order,
    repeated indices - give the same count (and the same clustering coefficient follows). *)
Theorem count_triangles_row_order_irrelevant (g g' : graph) :
  same_rows g g' -> Topology.count_triangles g = Topology.count_triangles g'.
Proof.
  intros H. rewrite !TopologyProofs.count_triangles_exact, !EquivarianceProofs.EqT.triangles_spec_cliques, <- (proj1 H).
  apply EquivarianceProofs.EqT.cliques_spec_same. exact H.
Qed.
Print Assumptions count_triangles_row_order_irrelevant.

(** compute_core and count_cliques require duplicate-free rows (a repeated index is counted twice in the
    degree); on such rows, stored in any order, they return the same labels / counts - although the MinHeap
    pops, and the ListingBox re-orders, differently. *)
Theorem core_row_order_irrelevant (g g' : graph) :
  length g = length g' -> (forall u, Permutation (row g u) (row g' u)) ->
  (forall u, NoDup (row g u)) -> (forall u v, In v (row g u) -> In u (row g v)) ->
  Topology.compute_core g' = Topology.compute_core g.
Proof. exact (EquivarianceProofs.EqT.core_row_order_irrelevant g g'). Qed.
Print Assumptions core_row_order_irrelevant.

Theorem count_cliques_row_order_irrelevant (g g' : graph) (k : nat) (argsort argsort' : list nat) :
  length g = length g' -> (forall u, Permutation (row g u) (row g' u)) ->
  (forall u, NoDup (row g u)) -> (forall u v, In v (row g u) -> In u (row g v)) ->
  NoDup argsort -> length argsort = length g -> NoDup argsort' -> length argsort' = length g -> 2 <= k ->
  Topology.count_cliques g' k argsort' = Topology.count_cliques g k argsort.
Proof. exact (fun HLen HP Hnd Hsym => EquivarianceProofs.EqT.count_cliques_row_order_irrelevant g g' HLen HP Hnd Hsym k argsort argsort'). Qed.
Print Assumptions count_cliques_row_order_irrelevant.

(** Non-vacuity: the same graph with shuffled rows (and, for the triangle count, a repeated index). *)
Example c01_nonvacuous_topology :
  let g := [[1; 2]; [0; 2]; [0; 1; 3]; [2; 4]; [3]] in
  let g' := [[2; 1]; [0; 2]; [3; 0; 1]; [4; 2]; [3]] in
  let g'' := [[2; 1; 2]; [0; 2]; [3; 0; 1; 3]; [4; 2]; [3]] in
  length g = length g' /\ (forall u, Permutation (row g u) (row g' u)) /\ same_rows g g'' /\
  Topology.count_triangles g'' = 1 /\ Topology.count_triangles g = 1 /\
  Topology.compute_core g' = Some [2; 2; 2; 1; 1]%Z /\ Topology.compute_core g = Some [2; 2; 2; 1; 1]%Z /\
  Topology.count_cliques g' 3 [4; 3; 0; 1; 2] = Ok 1.
Proof.
  cbv zeta. split; [reflexivity|]. split; [|split].
  - intros u. do 5 (destruct u as [|u]; [unfold row; simpl;
      first [apply Permutation_refl | apply perm_swap
            | apply (Permutation_cons_app [3] []); apply Permutation_refl
            | apply Permutation_sym; apply (Permutation_cons_app [0; 1] []); apply Permutation_refl]|]).
    destruct u; apply Permutation_refl.
  - split; [reflexivity|].
    intros u v. do 5 (destruct u as [|u]; [unfold row; simpl; tauto|]). destruct u; simpl; tauto.
  - repeat split; vm_compute; reflexivity.
Qed.

(** 6. Heat diffusion, Dirichlet (Model/Diffusion.v) and the vote kernel (Model/Vote.v): the order of the stored
    entries of a row is invisible. *)

(** The order of the stored entries of a row (unsorted indices) is invisible to the reducing product,
    to the normalisation (up to [==] on the weights), and hence to both iterations and both [fit]s. *)
Theorem diffusion_matvec_row_order_irrelevant (rows rows' : list Diffusion.wrow) (v : list Q) :
  Forall2 (@Permutation (nat * Q)) rows rows' -> Diffusion.matvec rows v = Diffusion.matvec rows' v.
Proof. exact (fun H => EquivarianceProofs.EqC.matvec_rows_sim rows rows' v (EquivarianceProofs.EqC.rows_sim_of_Permutation rows rows' H)). Qed.
Print Assumptions diffusion_matvec_row_order_irrelevant.

Theorem diffusion_normalize_row_order (rows rows' : list Diffusion.wrow) :
  Forall2 (@Permutation (nat * Q)) rows rows' ->
  Forall2 (fun r r' : list (nat * Q) =>
             exists m, Permutation r m /\
                       Forall2 (fun e e' : nat * Q => fst e = fst e' /\ (snd e == snd e')%Q) m r')
          (Diffusion.normalize rows) (Diffusion.normalize rows').
Proof. exact (fun H => EquivarianceProofs.EqC.normalize_rows_sim rows rows' (EquivarianceProofs.EqC.rows_sim_of_Permutation rows rows' H)). Qed.
Print Assumptions diffusion_normalize_row_order.

Theorem dirichlet_core_row_order_irrelevant (n_iter : nat) (rows rows' : list Diffusion.wrow)
        (border : list bool) (temps : list Q) :
  Forall2 (@Permutation (nat * Q)) rows rows' ->
  Diffusion.dirichlet_core n_iter rows border temps = Diffusion.dirichlet_core n_iter rows' border temps.
Proof. exact (fun H => EquivarianceProofs.EqC.dirichlet_core_rows_sim n_iter rows rows' border temps (EquivarianceProofs.EqC.rows_sim_of_Permutation rows rows' H)). Qed.
Print Assumptions dirichlet_core_row_order_irrelevant.

Theorem diffusion_core_row_order_irrelevant (n_iter : nat) (alpha : Q) (rows rows' : list Diffusion.wrow)
        (temps : list Q) :
  Forall2 (@Permutation (nat * Q)) rows rows' ->
  Diffusion.diffusion_core n_iter alpha rows temps = Diffusion.diffusion_core n_iter alpha rows' temps.
Proof. exact (EquivarianceProofs.EqC.diffusion_core_row_order_irrelevant n_iter alpha rows rows' temps). Qed.
Print Assumptions diffusion_core_row_order_irrelevant.

(** Whole [fit], every input form (square or bipartite, any form of seeds, errors included). *)
Theorem dirichlet_fit_row_order_irrelevant (n_iter : nat) (m m' : Diffusion.wmat)
        (values values_row values_col : option Diffusion.seedsrc) (init : option Q) (force_bipartite : bool) :
  Diffusion.w_ncol m = Diffusion.w_ncol m' ->
  Forall2 (@Permutation (nat * Q)) (Diffusion.w_rows m) (Diffusion.w_rows m') ->
  Diffusion.dirichlet_fit n_iter m values values_row values_col init force_bipartite
  = Diffusion.dirichlet_fit n_iter m' values values_row values_col init force_bipartite.
Proof.
  exact (fun HC H => EquivarianceProofs.EqC.fit_row_order_irrelevant m m' HC H (Diffusion.dirichlet_core n_iter) n_iter
    values values_row values_col init force_bipartite
    (fun adj adj' border temps G => EquivarianceProofs.EqC.dirichlet_core_rows_sim n_iter adj adj' border temps
       (EquivarianceProofs.EqC.rows_sim_of_Permutation adj adj' G))).
Qed.
Print Assumptions dirichlet_fit_row_order_irrelevant.

Theorem diffusion_fit_row_order_irrelevant (n_iter : nat) (alpha : Q) (m m' : Diffusion.wmat)
        (values values_row values_col : option Diffusion.seedsrc) (init : option Q) (force_bipartite : bool) :
  Diffusion.w_ncol m = Diffusion.w_ncol m' ->
  Forall2 (@Permutation (nat * Q)) (Diffusion.w_rows m) (Diffusion.w_rows m') ->
  Diffusion.diffusion_fit n_iter alpha m values values_row values_col init force_bipartite
  = Diffusion.diffusion_fit n_iter alpha m' values values_row values_col init force_bipartite.
Proof.
  exact (fun HC H => EquivarianceProofs.EqC.fit_row_order_irrelevant m m' HC H
    (fun adj _ temps => Diffusion.diffusion_core n_iter alpha adj temps) n_iter values values_row values_col init
    force_bipartite
    (fun adj adj' _ temps G => EquivarianceProofs.EqC.diffusion_core_row_order_irrelevant n_iter alpha adj adj' temps G)).
Qed.
Print Assumptions diffusion_fit_row_order_irrelevant.

(** Non-vacuity of item 6 (module EqC of Proofs/EquivarianceProofs.v): the weighted graph of C14 (path with a chord,
    4 nodes, seeds 0 and 3 at nodes 0 and 3) with rows 1 and 2 listed in another order and the entry (1,0) = 2 split
    into 1/2 + 3/2, stored in two different orders.  The rows are permutations of each other and differ as lists, so
    do the transposes (hence the operators of Diffusion.fit); both fits return the same on the two. *)
Example partC_row_order_nonvacuous :
  let rows : list Diffusion.wrow :=
    [ [(1, 2%Q)]; [(0, (1 # 2)%Q); (2, 1%Q); (0, (3 # 2)%Q); (3, 1%Q)]; [(1, 1%Q); (3, 3%Q)]; [(1, 1%Q); (2, 3%Q)] ] in
  let rows' : list Diffusion.wrow :=
    [ [(1, 2%Q)]; [(3, 1%Q); (0, (3 # 2)%Q); (0, (1 # 2)%Q); (2, 1%Q)]; [(3, 3%Q); (1, 1%Q)]; [(1, 1%Q); (2, 3%Q)] ] in
  Forall2 (@Permutation (nat * Q)) rows rows' /\ rows <> rows' /\
  Diffusion.w_rows (Diffusion.transpose {| Diffusion.w_ncol := 4; Diffusion.w_rows := rows |})
    <> Diffusion.w_rows (Diffusion.transpose {| Diffusion.w_ncol := 4; Diffusion.w_rows := rows' |}) /\
  Diffusion.diffusion_fit 3 (1 # 2)%Q {| Diffusion.w_ncol := 4; Diffusion.w_rows := rows' |}
    (Some (Diffusion.SArray [0; -1; -1; 3]%Q)) None None None false
  = Diffusion.diffusion_fit 3 (1 # 2)%Q {| Diffusion.w_ncol := 4; Diffusion.w_rows := rows |}
      (Some (Diffusion.SArray [0; -1; -1; 3]%Q)) None None None false /\
  Diffusion.dirichlet_fit 3 {| Diffusion.w_ncol := 4; Diffusion.w_rows := rows' |}
    (Some (Diffusion.SArray [0; -1; -1; 3]%Q)) None None None true
  = Diffusion.dirichlet_fit 3 {| Diffusion.w_ncol := 4; Diffusion.w_rows := rows |}
      (Some (Diffusion.SArray [0; -1; -1; 3]%Q)) None None None true /\
  exists out, Diffusion.dirichlet_fit 3 {| Diffusion.w_ncol := 4; Diffusion.w_rows := rows |}
                (Some (Diffusion.SArray [0; -1; -1; 3]%Q)) None None None true = Diffusion.Ok out.
Proof.
  cbv zeta. split; [|split; [|split; [|split; [|split]]]].
  - constructor; [apply Permutation_refl|]. constructor; [|constructor; [apply perm_swap|constructor; [apply Permutation_refl|constructor]]].
    apply Permutation_sym.
    apply perm_trans with (l' := [(0, (3 # 2)%Q); (0, (1 # 2)%Q); (2, 1%Q); (3, 1%Q)]).
    + apply (Permutation_cons_append [(0, (3 # 2)%Q); (0, (1 # 2)%Q); (2, 1%Q)] (3, 1%Q)).
    + apply perm_trans with (l' := [(0, (1 # 2)%Q); (0, (3 # 2)%Q); (2, 1%Q); (3, 1%Q)]); [apply perm_swap|].
      apply perm_skip. apply perm_swap.
  - intros E. inversion E.
  - vm_compute. intros E. inversion E.
  - vm_compute. reflexivity.
  - vm_compute. reflexivity.
  - eexists. vm_compute. reflexivity.
Qed.

(** The vote kernel (classification/vote.pyx, model Model/Vote.v on flat CSR arrays).  For a kernel that
    clears votes_neigh for every node and reads the weight at the edge position ([clr] = [wpos] = true,
    e.g. [Vote.repaired_kernel]), the labels after one sweep do not depend on the order in which each row stores its
    (neighbour, weight) pairs: the arg-max breaks ties by label VALUE (std::set order and strict [>]: the
    smallest label wins), not by position in the row, and the vote counters are only compared.
    Same [indptr], same array lengths; each direction transports a run without out-of-bounds access. *)
Theorem vote_row_order_irrelevant (kv : Vote.kvariant) (indptr indices indices' : list nat)
        (data data' : list Q) (labels : list Z) (index : list nat) (labels' : list Z) :
  Vote.clr kv = true -> Vote.wpos kv = true ->
  length indices = length indices' -> length data = length data' ->
  (forall i, In i index ->
     Permutation (Vote.nbrs_weighted indptr indices data i) (Vote.nbrs_weighted indptr indices' data' i)) ->
  (Vote.vote_update kv indptr indices data labels index = Vote.VOk labels' <->
   Vote.vote_update kv indptr indices' data' labels index = Vote.VOk labels').
Proof.
  intros Hc Hw HLi HLd HP. split.
  - exact (EquivarianceProofs.EqC_Vote.vote_update_transfer kv Hc Hw indptr indices indices' data data' HLi HLd
             labels index labels' HP).
  - apply (EquivarianceProofs.EqC_Vote.vote_update_transfer kv Hc Hw indptr indices' indices data' data
             (eq_sym HLi) (eq_sym HLd)).
    intros i Hi. apply Permutation_sym. apply HP. exact Hi.
Qed.
Print Assumptions vote_row_order_irrelevant.

(** Non-vacuity, with a tie: node 0 has neighbours 2 (label 1) and 3 (label 0) with equal weights, node 1
    has neighbours 2 and 3 with weights 1 and 5; the rows of nodes 0 and 1 are stored in both orders.
    [Vote.repaired_kernel] returns the same labels (node 0: tie, smallest label 0 wins in both orders). *)
Example vote_row_order_nonvacuous :
  let indptr := [0; 2; 4; 4; 4] in
  let labels := [-1; -1; 1; 0]%Z in
  let indices := [2; 3; 2; 3] in   let data := [1; 1; 1; 5]%Q in
  let indices' := [3; 2; 3; 2] in  let data' := [1; 1; 5; 1]%Q in
  (forall i, In i [0; 1] ->
     Permutation (Vote.nbrs_weighted indptr indices data i) (Vote.nbrs_weighted indptr indices' data' i)) /\
  Vote.vote_update Vote.repaired_kernel indptr indices data labels [0; 1] = Vote.VOk [0; 0; 1; 0]%Z /\
  Vote.vote_update Vote.repaired_kernel indptr indices' data' labels [0; 1] = Vote.VOk [0; 0; 1; 0]%Z.
Proof.
  cbv zeta. split; [|split; vm_compute; reflexivity].
  intros i [E|[E|[]]]; subst i; vm_compute; apply perm_swap.
Qed.

(** The hypotheses [clr] / [wpos] are needed: [Vote.legacy_kernel] (votes_neigh never cleared,
    weight read at the neighbour's node index) pairs the labels of the second node with the weights
    gathered for the first one, so the stored order of row 0 changes the label of node 1. *)
Example vote_row_order_matters_legacy :
  let indptr := [0; 2; 4; 4; 4] in
  let labels := [-1; -1; 0; 1]%Z in
  let data := [1; 1; 1; 5]%Q in
  (forall i, In i [0; 1] ->
     Permutation (Vote.nbrs_weighted indptr [2; 3; 2; 3] data i)
                 (Vote.nbrs_weighted indptr [3; 2; 2; 3] data i)) /\
  Vote.vote_update Vote.legacy_kernel indptr [2; 3; 2; 3] data labels [0; 1] = Vote.VOk [1; 1; 0; 1]%Z /\
  Vote.vote_update Vote.legacy_kernel indptr [3; 2; 2; 3] data labels [0; 1] = Vote.VOk [1; 0; 0; 1]%Z.
Proof.
  cbv zeta. split; [|split; vm_compute; reflexivity].
  intros i [E|[E|[]]]; subst i; vm_compute; [apply perm_swap|apply Permutation_refl].
Qed.

(** 7. A kernel depends only on the DENOTATION of what is stored.  The sparse product every iterative
    algorithm is built from ([matvec]: accumulate value * x[column] over the stored entries of the row, in
    stored order) gives the same result, entry by entry, on two stored matrices with pointwise equal
    denotations - whatever the order of the stored entries, repeated positions (summed), explicit zeros. *)
Theorem matvec_depends_on_denotation (n : nat) (a a' : wrows) (x : list Q) :
  wf_rows n a -> wf_rows n a' -> length a = length a' ->
  (forall i j, (entry a i j == entry a' i j)%Q) ->
  Forall2 Qeq (matvec a x) (matvec a' x).
Proof. exact (EquivarianceProofs.matvec_depends_on_denotation n a a' x). Qed.
Print Assumptions matvec_depends_on_denotation.

(** ... hence on the CSR matrices check_format builds from any two accepted containers of the same matrix. *)
Theorem matvec_container_independent (c1 c2 : container) (x : list Q) :
  wf_shape c1 -> wf_shape c2 -> c_nrow c1 = c_nrow c2 -> c_ncol c1 = c_ncol c2 ->
  (forall i j, (den c1 i j == den c2 i j)%Q) ->
  wf_wmat (to_csr c1) -> wf_wmat (to_csr c2) ->
  Forall2 Qeq (matvec (snd (to_csr c1)) x) (matvec (snd (to_csr c2)) x).
Proof.
  intros Hs1 Hs2 Hr Hc Hden Hw1 Hw2. unfold wf_wmat in Hw1, Hw2.
  rewrite (proj1 (to_csr_shape c1)) in Hw1. rewrite (proj1 (to_csr_shape c2)), <- Hc in Hw2.
  apply (matvec_depends_on_denotation (c_ncol c1)); try assumption.
  - rewrite (proj2 (to_csr_shape c1)), (proj2 (to_csr_shape c2)). exact Hr.
  - intros i j. rewrite (to_csr_denotation c1 Hs1 i j), (to_csr_denotation c2 Hs2 i j). apply Hden.
Qed.
Print Assumptions matvec_container_independent.

(** A REAL kernel end to end: the iteration of Dirichlet.fit (Model/Diffusion.v: row normalisation with the
    pseudo-inverse of the row norms, product, clamping of the seeds; the model stores reduced fractions) on
    two stored matrices with non-negative weights ([Diffusion.wf_rows n]: column indices < n, weights >= 0)
    and equal denotations returns literally the same values after every number of iterations.  (Non-negativity
    is needed: the row NORM sums |value| over the stored entries, so (j, 1), (j, -1) and nothing stored differ.) *)
Theorem dirichlet_depends_on_denotation (n k : nat) (rows rows' : wrows) (border : list bool) (temps : list Q) :
  Diffusion.wf_rows n rows -> Diffusion.wf_rows n rows' -> length rows = length rows' ->
  (forall i j, (entry rows i j == entry rows' i j)%Q) ->
  Diffusion.dirichlet_core k rows border temps = Diffusion.dirichlet_core k rows' border temps.
Proof. exact (EquivarianceProofs.EqDen.dirichlet_depends_on_denotation n k rows rows' border temps). Qed.
Print Assumptions dirichlet_depends_on_denotation.

Theorem dirichlet_container_independent (n k : nat) (c1 c2 : container) (border : list bool) (temps : list Q) :
  wf_shape c1 -> wf_shape c2 -> c_nrow c1 = c_nrow c2 ->
  (forall i j, (den c1 i j == den c2 i j)%Q) ->
  Diffusion.wf_rows n (snd (to_csr c1)) -> Diffusion.wf_rows n (snd (to_csr c2)) ->
  Diffusion.dirichlet_core k (snd (to_csr c1)) border temps =
  Diffusion.dirichlet_core k (snd (to_csr c2)) border temps.
Proof.
  intros Hs1 Hs2 Hr Hden Hw1 Hw2. apply (dirichlet_depends_on_denotation n); try assumption.
  - exact (eq_trans (proj2 (to_csr_shape c1)) (eq_trans Hr (eq_sym (proj2 (to_csr_shape c2))))).
  - intros i j. rewrite (to_csr_denotation c1 Hs1 i j), (to_csr_denotation c2 Hs2 i j). apply Hden.
Qed.
Print Assumptions dirichlet_container_independent.

(** Non-vacuity: the path 0 - 1 - 2 with weights 2 and 1 as a dense array, as COO triples in arbitrary order
    with the weight 2 split over two triples, and as CSR with unsorted rows and a split entry: hypotheses hold,
    denotations agree, the stored rows differ, the Dirichlet iterates are equal and not trivial. *)
Example c01_nonvacuous_denotation :
  let d := Dense [[0; 2; 0]; [2; 0; 1]; [0; 1; 0]]%Q in
  let c := Coo 3 3 [(2, 1, 1%Q); (0, 1, 1%Q); (1, 0, 2%Q); (1, 2, 1%Q); (0, 1, 1%Q)] in
  let s := Csr 3 [[(1, 2%Q)]; [(2, 1%Q); (0, 1%Q); (0, 1%Q)]; [(1, 1%Q)]] in
  let border := [true; false; true] in
  let temps := [1; 0; 3]%Q in
  (wf_shape d /\ wf_shape c /\ wf_shape s) /\
  (Diffusion.wf_rows 3 (snd (to_csr d)) /\ Diffusion.wf_rows 3 (snd (to_csr c)) /\
   Diffusion.wf_rows 3 (snd (to_csr s))) /\
  (forall i j, (den d i j == den s i j)%Q) /\
  snd (to_csr s) <> snd (to_csr d) /\
  Diffusion.dirichlet_core 2 (snd (to_csr d)) border temps = [1; 5 # 3; 3]%Q /\
  Diffusion.dirichlet_core 2 (snd (to_csr c)) border temps = [1; 5 # 3; 3]%Q /\
  Diffusion.dirichlet_core 2 (snd (to_csr s)) border temps = [1; 5 # 3; 3]%Q.
Proof.
  cbv zeta. split; [|split; [|split; [|split]]].
  - cbv [wf_shape wf_rows dense_ncol]. simpl. repeat split; repeat constructor; simpl; lia.
  - split; [|split]; intros r e Hr He; vm_compute in Hr;
      repeat (destruct Hr as [<-|Hr]; [vm_compute in He;
        repeat (destruct He as [<-|He]; [split; [simpl; lia|unfold Qle; simpl; lia]|]); contradiction|]);
      contradiction.
  - intros i j.
    do 3 (destruct i as [|i]; [do 3 (destruct j as [|j]; [vm_compute; reflexivity|]);
                               destruct j; vm_compute; reflexivity|]).
    destruct i, j; vm_compute; reflexivity.
  - vm_compute. discriminate.
  - repeat split; vm_compute; reflexivity.
Qed.

(** PageRank (Model/PageRank.v).  For two stored graphs with column indices in range and non-negative weights
    ([PageRankProofs.good_graph]) whose rows have pointwise equal denotations ([PageRank.entry r j] = sum of the stored weights of
    row r at column j), RandomSurferOperator._matvec, the whole power iteration (solver 'piteration': every iterate,
    the early exit included) and the Horner solver ('RH') return literally the same vectors. *)
Theorem pagerank_operator_depends_on_denotation (g g' : PageRank.wgraph) (alpha : Q) (y x : list Q) :
  PageRankProofs.good_graph g -> PageRankProofs.good_graph g' -> length g = length g' ->
  (forall i j, (PageRank.entry (PageRank.wrow_of g i) j == PageRank.entry (PageRank.wrow_of g' i) j)%Q) ->
  PageRank.surfer_matvec g alpha y x = PageRank.surfer_matvec g' alpha y x.
Proof. exact (fun Hg Hg' HL Hd => EquivarianceProofs.EqDenPR.surfer_matvec_den g g' Hg Hg' HL Hd alpha y x). Qed.
Print Assumptions pagerank_operator_depends_on_denotation.

Theorem piteration_depends_on_denotation (g g' : PageRank.wgraph) (alpha : Q) (y : list Q) (n_iter : nat) (tol : Q) :
  PageRankProofs.good_graph g -> PageRankProofs.good_graph g' -> length g = length g' ->
  (forall i j, (PageRank.entry (PageRank.wrow_of g i) j == PageRank.entry (PageRank.wrow_of g' i) j)%Q) ->
  PageRank.piteration g alpha y n_iter tol = PageRank.piteration g' alpha y n_iter tol.
Proof.
  intros Hg Hg' HL Hd. apply EquivarianceProofs.EqDenPR.piteration_loop_ext. intros x.
  exact (EquivarianceProofs.EqDenPR.surfer_matvec_den g g' Hg Hg' HL Hd alpha y x).
Qed.
Print Assumptions piteration_depends_on_denotation.

Theorem rh_depends_on_denotation (g g' : PageRank.wgraph) (alpha : Q) (y : list Q) (n_iter : nat) :
  PageRankProofs.good_graph g -> PageRankProofs.good_graph g' -> length g = length g' ->
  (forall i j, (PageRank.entry (PageRank.wrow_of g i) j == PageRank.entry (PageRank.wrow_of g' i) j)%Q) ->
  PageRank.rh g alpha y n_iter = PageRank.rh g' alpha y n_iter.
Proof. exact (fun Hg Hg' HL Hd => EquivarianceProofs.EqDenPR.rh_den g g' Hg Hg' HL Hd alpha y n_iter). Qed.
Print Assumptions rh_depends_on_denotation.

(** Non-vacuity: a graph with a sink in canonical form, and with unsorted rows and a weight split over two stored
    entries; three power-iteration steps give the same non-trivial vector. *)
Example c01_nonvacuous_pagerank_denotation :
  let g : PageRank.wgraph := [[(1, 2%Q); (2, 1%Q)]; [(2, 3%Q)]; []] in
  let g' : PageRank.wgraph := [[(2, 1%Q); (1, 1%Q); (1, 1%Q)]; [(2, 1%Q); (2, 2%Q)]; []] in
  let y := [1 # 2; 1 # 4; 1 # 4]%Q in
  PageRankProofs.good_graph g /\ PageRankProofs.good_graph g' /\ g <> g' /\
  (forall i j, (PageRank.entry (PageRank.wrow_of g i) j == PageRank.entry (PageRank.wrow_of g' i) j)%Q) /\
  PageRank.piteration g (1 # 2) y 3 0 = PageRank.piteration g' (1 # 2) y 3 0 /\
  PageRank.piteration g (1 # 2) y 3 0 <> y.
Proof.
  cbv zeta. split; [split; reflexivity|]. split; [split; reflexivity|]. split; [discriminate|]. split.
  - intros i j.
    do 3 (destruct i as [|i]; [do 3 (destruct j as [|j]; [vm_compute; reflexivity|]);
                               destruct j; vm_compute; reflexivity|]).
    destruct i, j; vm_compute; reflexivity.
  - split; vm_compute; [reflexivity|discriminate].
Qed.

(* -------------------------------------------------------------------------------------------------- *)
(** * 8. "No call modifies anything the caller passed in" - the static analysis.

    Model/ArgFrame.v: a tiny imperative language over a heap of arrays (locations -> list Z; a variable is a VIEW =
    location + offset) with alias [x := y], slice view [x := y[off:]], fresh copy, pure computation into a fresh
    buffer, in-place write [x[i] := e], branch, and call (inlined: the body runs in a new frame whose formals are bound
    to the views of the actuals; the result is bound to the view of the returned variable), and the may-alias /
    may-mutate analysis [may_mutate] (per variable the set of PARAMETERS whose buffer it may share; strong updates on
    names, joins at branches, calls analysed in the abstract frame built from the alias sets of the actuals).
    harness/translators/argmut.py runs that analysis (same abstract domain, plus summaries / fixed points for Python's
    loops, attributes, classes and Cython kernels - rules and trusted base in its header) over every function of
    /repo's working tree and writes Gen/ArgMut.v; the obligations at the end pin its output. *)
From Coq Require String.
From SKN Require Model.ArgFrame Proofs.ArgFrameProofs Gen.ArgMut.
Set Warnings "-notation-overridden".

(** FRAME.  For every program, every entry environment (parameters bound to locations of the heap; two parameters may
    share a location) and every heap: if the analysis reports that no parameter may be mutated, a terminating run
    leaves EVERY array of the entry heap unchanged. *)
Theorem arg_frame_all (p : ArgFrame.prog) (e0 : ArgFrame.env) (h0 : ArgFrame.heap) (e' : ArgFrame.env) (h' : ArgFrame.heap) :
  ArgFrame.wf_entry e0 h0 ->
  ArgFrame.exec_prog p (e0, h0) = Some (e', h') ->
  ArgFrame.may_mutate e0 p = [] ->
  forall l, l < length h0 -> nth_error h' l = nth_error h0 l.
Proof. exact (ArgFrameProofs.frame_all p e0 h0 e' h'). Qed.
Print Assumptions arg_frame_all.

(** ... and per location / per parameter: an array of the entry heap is unchanged as soon as no parameter bound to it
    at entry is in the reported set (the report is exact about WHICH arguments may be written). *)
Theorem arg_frame_loc (p : ArgFrame.prog) (e0 : ArgFrame.env) (h0 : ArgFrame.heap) (e' : ArgFrame.env) (h' : ArgFrame.heap)
        (l : ArgFrame.loc) :
  ArgFrame.wf_entry e0 h0 ->
  ArgFrame.exec_prog p (e0, h0) = Some (e', h') ->
  l < length h0 ->
  (forall q o, ArgFrame.lookup q e0 = Some (l, o) -> ~ In q (ArgFrame.may_mutate e0 p)) ->
  nth_error h' l = nth_error h0 l.
Proof. exact (ArgFrameProofs.frame_loc p e0 h0 e' h' l). Qed.
Print Assumptions arg_frame_loc.

Theorem arg_frame_param (p : ArgFrame.prog) (e0 : ArgFrame.env) (h0 : ArgFrame.heap) (e' : ArgFrame.env) (h' : ArgFrame.heap)
        (x : ArgFrame.var) (l : ArgFrame.loc) (o : nat) :
  ArgFrame.wf_entry e0 h0 -> ArgFrame.exec_prog p (e0, h0) = Some (e', h') ->
  ArgFrame.lookup x e0 = Some (l, o) ->
  (forall q o', ArgFrame.lookup q e0 = Some (l, o') -> ~ In q (ArgFrame.may_mutate e0 p)) ->
  nth_error h' l = nth_error h0 l.
Proof.
  intros Hwf Hex Hx Hun.
  exact (ArgFrameProofs.frame_loc p e0 h0 e' h' l Hwf Hex (Hwf x l o Hx) Hun).
Qed.
Print Assumptions arg_frame_param.

(** MONOTONICITY.  The analysis is monotone in the abstract environment and in the accumulator, and replacing aliases /
    views by fresh copies ([more_copies]: any number of [x := y] / [x := y[off:]] turned into [x := copy y], also inside
    branches and call bodies) can only SHRINK the reported set. *)
Theorem arg_analysis_monotone (p : ArgFrame.prog) (a a' : ArgFrame.aenv) (m m' : list ArgFrame.var) :
  (forall x, incl (ArgFrame.aget x a) (ArgFrame.aget x a')) -> incl m m' ->
  (forall x, incl (ArgFrame.aget x (fst (ArgFrame.an_prog p a m))) (ArgFrame.aget x (fst (ArgFrame.an_prog p a' m')))) /\
  incl (snd (ArgFrame.an_prog p a m)) (snd (ArgFrame.an_prog p a' m')).
Proof. exact (proj2 ArgFrameProofs.an_mono p a a' m m'). Qed.
Print Assumptions arg_analysis_monotone.

Theorem arg_more_copies_shrinks (e0 : ArgFrame.env) (p p' : ArgFrame.prog) :
  ArgFrame.more_copies p p' -> incl (ArgFrame.may_mutate e0 p') (ArgFrame.may_mutate e0 p).
Proof. exact (ArgFrameProofs.more_copies_shrinks e0 p p'). Qed.
Print Assumptions arg_more_copies_shrinks.

(** A program without any in-place write (also inside branches and call bodies) is reported clean. *)
Theorem arg_no_write_clean (e0 : ArgFrame.env) (p : ArgFrame.prog) :
  ArgFrameProofs.no_write_prog p -> ArgFrame.may_mutate e0 p = [].
Proof. exact (proj2 ArgFrameProofs.no_write_acc p (ArgFrame.entry_aenv e0) []). Qed.
Print Assumptions arg_no_write_clean.

(** WITNESSES that the analysis is not over-cautious: four programs of Model/ArgFrame.v ([prog_asarray], [prog_slice],
    [prog_helper], [prog_kernel]; parameter 0 bound to the array [1; 2; 3] at location 0).  The analysis flags them AND
    the execution really changes the caller's array:
    - get_values:  [values = np.asarray(values); values[0] *= 2]           (write through an asarray alias);
    - a slice:     [tail = position[1:]; tail[0] += 5]                     (basic slicing is a view);
    - check_format on a CSR input: [adj = check(adjacency); adj[1] = 0] where [check] returns its own parameter;
    - a Cython kernel that fills its memoryview, called on an alias of the argument. *)
Theorem arg_asarray_alias_refuted :
  ArgFrame.may_mutate ArgFrame.entry0 ArgFrame.prog_asarray = [0] /\
  exists e' h', ArgFrame.exec_prog ArgFrame.prog_asarray (ArgFrame.entry0, ArgFrame.heap0) = Some (e', h') /\
                nth_error h' 0 <> nth_error ArgFrame.heap0 0.
Proof.
  split; [reflexivity|].
  eexists. eexists. split; [reflexivity|].
  simpl. discriminate.
Qed.
Print Assumptions arg_asarray_alias_refuted.

Theorem arg_slice_view_refuted :
  ArgFrame.may_mutate ArgFrame.entry0 ArgFrame.prog_slice = [0] /\
  exists e' h', ArgFrame.exec_prog ArgFrame.prog_slice (ArgFrame.entry0, ArgFrame.heap0) = Some (e', h') /\
                nth_error h' 0 <> nth_error ArgFrame.heap0 0.
Proof.
  split; [reflexivity|].
  eexists. eexists. split; [reflexivity|].
  simpl. discriminate.
Qed.
Print Assumptions arg_slice_view_refuted.

Theorem arg_passthrough_helper_refuted :
  ArgFrame.may_mutate ArgFrame.entry0 ArgFrame.prog_helper = [0] /\
  exists e' h', ArgFrame.exec_prog ArgFrame.prog_helper (ArgFrame.entry0, ArgFrame.heap0) = Some (e', h') /\
                nth_error h' 0 <> nth_error ArgFrame.heap0 0.
Proof.
  split; [reflexivity|].
  eexists. eexists. split; [reflexivity|].
  simpl. discriminate.
Qed.
Print Assumptions arg_passthrough_helper_refuted.

Theorem arg_kernel_write_refuted :
  ArgFrame.may_mutate ArgFrame.entry0 ArgFrame.prog_kernel = [0] /\
  exists e' h', ArgFrame.exec_prog ArgFrame.prog_kernel (ArgFrame.entry0, ArgFrame.heap0) = Some (e', h') /\
                nth_error h' 0 <> nth_error ArgFrame.heap0 0.
Proof.
  split; [reflexivity|].
  eexists. eexists. split; [reflexivity|].
  simpl. discriminate.
Qed.
Print Assumptions arg_kernel_write_refuted.

(** ... and the variants with one [copy] ([prog_asarray_fixed], [prog_slice_fixed], [prog_helper_fixed]:
    [values.astype(float)], [position.copy()], a helper that returns [sparse.csr_matrix(dense)]) are reported clean and leave the array as it was (non-vacuity of the frame theorem). *)
Theorem arg_repaired_variants_clean :
  ArgFrame.may_mutate ArgFrame.entry0 ArgFrame.prog_asarray_fixed = [] /\
  ArgFrame.may_mutate ArgFrame.entry0 ArgFrame.prog_slice_fixed = [] /\
  ArgFrame.may_mutate ArgFrame.entry0 ArgFrame.prog_helper_fixed = [] /\
  (exists e' h', ArgFrame.exec_prog ArgFrame.prog_asarray_fixed (ArgFrame.entry0, ArgFrame.heap0) = Some (e', h') /\
                 nth_error h' 0 = nth_error ArgFrame.heap0 0) /\
  (exists e' h', ArgFrame.exec_prog ArgFrame.prog_slice_fixed (ArgFrame.entry0, ArgFrame.heap0) = Some (e', h') /\
                 nth_error h' 0 = nth_error ArgFrame.heap0 0) /\
  (exists e' h', ArgFrame.exec_prog ArgFrame.prog_helper_fixed (ArgFrame.entry0, ArgFrame.heap0) = Some (e', h') /\
                 nth_error h' 0 = nth_error ArgFrame.heap0 0).
Proof.
  split; [reflexivity|].
  split; [reflexivity|].
  split; [reflexivity|].
  split; [|split].
  - eexists. eexists. split; reflexivity.
  - eexists. eexists. split; reflexivity.
  - eexists. eexists. split; reflexivity.
Qed.
Print Assumptions arg_repaired_variants_clean.

Example arg_frame_nonvacuous :
  ArgFrame.wf_entry ArgFrame.entry0 ArgFrame.heap0 /\
  ArgFrame.more_copies ArgFrame.prog_asarray ArgFrame.prog_asarray_fixed /\
  incl (ArgFrame.may_mutate ArgFrame.entry0 ArgFrame.prog_asarray_fixed) (ArgFrame.may_mutate ArgFrame.entry0 ArgFrame.prog_asarray) /\
  ~ incl (ArgFrame.may_mutate ArgFrame.entry0 ArgFrame.prog_asarray) (ArgFrame.may_mutate ArgFrame.entry0 ArgFrame.prog_asarray_fixed).
Proof.
  split; [exact ArgFrameProofs.wf_entry0|]. split; [exact ArgFrameProofs.asarray_fixed_more_copies|].
  exact ArgFrameProofs.asarray_report_strict.
Qed.

(** OBLIGATIONS on the facts re-extracted from /repo at every run (Gen/ArgMut.v).  Each entry = (public function,
    parameter, "file:function" whose body writes through an alias of that parameter); the alias path and the very
    statements, with their line numbers, are in Gen/ArgMut.v.  The theorem pins the (function, parameter, writer) triples
    of [ArgMut.arg_mutations]; the comment before each group of entries says why those writes do not reach a caller-owned
    array.  A source edit that lets ANY public entry point ([ArgMut.n_public_entry_points] of them, at least 600 by
    [arg_scan_coverage] below: functions, methods of public classes - each class with the methods it inherits - and
    Cython kernels) write into a caller's object through a new (function, parameter, writer) makes [reflexivity] fail. *)
Import String.StringSyntax.
Local Open Scope string_scope.

Theorem arg_mutations_reviewed :
  map (fun e : String.string * String.string * String.string * String.string => let '(f, p, w, _) := e in (f, p, w)) ArgMut.arg_mutations =
  [
   (* in/out buffers of compiled kernels (Cython memoryviews filled by contract: labels, cluster weights, scores / fluid).  Internal
      modules, not exported by any package __init__; NO Python-level caller reaches them with a caller-owned array - every call
      site passes a fresh .astype(..) / np.zeros(..) / .copy() (otherwise an entry for that caller would be listed here);
      count_cliques_from_dag is a cdef function (not callable from Python), box its own ListingBox. *)
   ("classification.vote.vote_update", "labels", "sknetwork/classification/vote.pyx:vote_update");
   ("clustering.leiden_core.optimize_refine_core", "cluster_weights", "sknetwork/clustering/leiden_core.pyx:optimize_refine_core");
   ("clustering.leiden_core.optimize_refine_core", "in_cluster_weights", "sknetwork/clustering/leiden_core.pyx:optimize_refine_core");
   ("clustering.leiden_core.optimize_refine_core", "labels_refined", "sknetwork/clustering/leiden_core.pyx:optimize_refine_core");
   ("clustering.leiden_core.optimize_refine_core", "out_cluster_weights", "sknetwork/clustering/leiden_core.pyx:optimize_refine_core");
   ("clustering.louvain_core.optimize_core", "cluster_weights", "sknetwork/clustering/louvain_core.pyx:optimize_core");
   ("clustering.louvain_core.optimize_core", "in_cluster_weights", "sknetwork/clustering/louvain_core.pyx:optimize_core");
   ("clustering.louvain_core.optimize_core", "labels", "sknetwork/clustering/louvain_core.pyx:optimize_core");
   ("clustering.louvain_core.optimize_core", "out_cluster_weights", "sknetwork/clustering/louvain_core.pyx:optimize_core");
   (* GNN: layer / optimizer OBJECTS handed to GNNClassifier are its trainable state by design (fit re-initialises the weights,
      check_loss replaces the activation of the last layer by the matching loss, the optimizers rebind layer.weight / layer.bias);
      these are attribute REBINDINGS on objects, no array the caller passed is written, and objects of this kind are not in the
      property's list (matrices, label / weight / value arrays and dicts, feature matrices, initial positions). *)
   ("gnn.gnn_classifier.GNNClassifier.__init__", "layers", "sknetwork/gnn/gnn_classifier.py:GNNClassifier.fit");
   ("gnn.gnn_classifier.GNNClassifier.__init__", "layers", "sknetwork/gnn/utils.py:check_loss");
   ("gnn.gnn_classifier.GNNClassifier.__init__", "optimizer", "sknetwork/gnn/gnn_classifier.py:GNNClassifier.fit");
   ("gnn.optimizer.ADAM.step", "gnn", "sknetwork/gnn/optimizer.py:ADAM.step");
   ("gnn.optimizer.GD.step", "gnn", "sknetwork/gnn/optimizer.py:GD.step");
   ("gnn.utils.check_loss", "layer", "sknetwork/gnn/utils.py:check_loss");
   (* get_dendrogram(tree, dendrogram, index, depth, size, copy_tree): the documented contract - "copy_tree: if True, ensure the
      passed tree remains unchanged", i.e. by default the work list `tree` is consumed; dendrogram / index / size are the accumulators
      "for recursive use" (index is an int: += rebinds).  Not exported by sknetwork.hierarchy; its only callers (LouvainHierarchy,
      LouvainIteration) pass a tree they have just built.  The harness checks that copy_tree=True really protects the tree. *)
   ("hierarchy.postprocess.get_dendrogram", "dendrogram", "sknetwork/hierarchy/postprocess.py:get_dendrogram");
   ("hierarchy.postprocess.get_dendrogram", "index", "sknetwork/hierarchy/postprocess.py:get_dendrogram");
   ("hierarchy.postprocess.get_dendrogram", "size", "sknetwork/hierarchy/postprocess.py:get_dendrogram");
   ("hierarchy.postprocess.get_dendrogram", "tree", "sknetwork/hierarchy/postprocess.py:get_dendrogram");
   (* compiled kernels, as above *)
   ("linalg.diteration.diffusion", "fluid", "sknetwork/linalg/diteration.pyx:diffusion");
   ("linalg.diteration.diffusion", "scores", "sknetwork/linalg/diteration.pyx:diffusion");
   ("topology.cliques.count_cliques_from_dag", "box", "sknetwork/topology/cliques.pyx:count_cliques_from_dag");
   ("topology.weisfeiler_lehman_core.weisfeiler_lehman_coloring", "labels", "sknetwork/topology/weisfeiler_lehman_core.pyx:weisfeiler_lehman_coloring");
   (* svg_dendrogram_top / _left(..., width, height, ...): image width / height in pixels - numbers by contract (visualize_dendrogram passes
      its float parameters): `width *= scale`, `height += 2 * margin` rebind the local name.  Not annotated, hence listed. *)
   ("visualization.dendrograms.svg_dendrogram_left", "height", "sknetwork/visualization/dendrograms.py:svg_dendrogram_left");
   ("visualization.dendrograms.svg_dendrogram_left", "width", "sknetwork/visualization/dendrograms.py:svg_dendrogram_left");
   ("visualization.dendrograms.svg_dendrogram_top", "height", "sknetwork/visualization/dendrograms.py:svg_dendrogram_top");
   ("visualization.dendrograms.svg_dendrogram_top", "width", "sknetwork/visualization/dendrograms.py:svg_dendrogram_top");
   (* svg_text(pos, ...) shifts its own 2-vector `pos` by the text margin (helper, not exported by sknetwork.visualization); every caller
      passes a row of the freshly built array returned by rescale() (np.vstack(..).T) - no entry for visualize_graph / visualize_bigraph. *)
   ("visualization.graphs.svg_text", "pos", "sknetwork/visualization/graphs.py:svg_text")
  ].
Proof. reflexivity. Qed.
Print Assumptions arg_mutations_reviewed.

(** The same analysis when an argument may have ANY type, not only the documented (annotated) ones: one more writer,
    get_norms (linalg/normalizer.py), which copies a csr_matrix, converts an ndarray, leaves a LinearOperator alone, and
    for anything else - a SciPy sparse matrix that is not CSR - rebinds [.data] of the object it was given
    ([input_matrix.data = np.abs(input_matrix.data)], [** 2] for p = 2).  get_norms / normalize document "numpy array or
    sparse CSR matrix or LinearOperator", and so do the callers listed here (csr_matrix, or csr_matrix / LinearOperator);
    inside sknetwork a non-CSR matrix only reaches normalize as a fresh [adjacency.T] / [input_matrix.T] object, whose
    [.data] attribute is not the caller's.  Outside the property's quantifier (scope rule A3 of DESIGN.md: documented input types);
    pinned so that a new route to it is seen. *)
Theorem arg_mutations_undocumented_types_reviewed :
  map (fun e : String.string * String.string * String.string * String.string => let '(f, p, w, _) := e in (f, p, w)) ArgMut.arg_mutations_undocumented_types =
  [
   ("classification.knn.NNClassifier.fit", "input_matrix", "sknetwork/linalg/normalizer.py:get_norms");
   ("classification.knn.NNClassifier.fit_predict<BaseClassifier>", "args", "sknetwork/linalg/normalizer.py:get_norms");
   ("classification.knn.NNClassifier.fit_predict<BaseClassifier>", "kwargs", "sknetwork/linalg/normalizer.py:get_norms");
   ("classification.knn.NNClassifier.fit_predict_proba<BaseClassifier>", "args", "sknetwork/linalg/normalizer.py:get_norms");
   ("classification.knn.NNClassifier.fit_predict_proba<BaseClassifier>", "kwargs", "sknetwork/linalg/normalizer.py:get_norms");
   ("classification.knn.NNClassifier.fit_transform<BaseClassifier>", "args", "sknetwork/linalg/normalizer.py:get_norms");
   ("classification.knn.NNClassifier.fit_transform<BaseClassifier>", "kwargs", "sknetwork/linalg/normalizer.py:get_norms");
   ("embedding.louvain_embedding.LouvainEmbedding.fit", "input_matrix", "sknetwork/linalg/normalizer.py:get_norms");
   ("embedding.louvain_embedding.LouvainEmbedding.fit_transform<BaseEmbedding>", "args", "sknetwork/linalg/normalizer.py:get_norms");
   ("embedding.louvain_embedding.LouvainEmbedding.fit_transform<BaseEmbedding>", "kwargs", "sknetwork/linalg/normalizer.py:get_norms");
   ("embedding.svd.PCA.__init__", "solver", "sknetwork/linalg/normalizer.py:get_norms");
   ("linalg.normalizer.get_norms", "matrix", "sknetwork/linalg/normalizer.py:get_norms");
   ("linalg.normalizer.normalize", "matrix", "sknetwork/linalg/normalizer.py:get_norms");
   ("linalg.ppr_solver.RandomSurferOperator.__init__", "adjacency", "sknetwork/linalg/normalizer.py:get_norms");
   ("linalg.ppr_solver.get_pagerank", "adjacency", "sknetwork/linalg/normalizer.py:get_norms");
   ("utils.tfidf.get_tfidf", "count_matrix", "sknetwork/linalg/normalizer.py:get_norms")
  ].
Proof. reflexivity. Qed.
Print Assumptions arg_mutations_undocumented_types_reviewed.

(** The scan is not vacuous: it covers the whole tree. *)
Theorem arg_scan_coverage :
  Nat.leb 800 ArgMut.n_functions_scanned = true /\ Nat.leb 600 ArgMut.n_public_entry_points = true.
Proof. split; reflexivity. Qed.
Print Assumptions arg_scan_coverage.
