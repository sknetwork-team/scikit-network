(** C09 — Spectral and SVD embeddings satisfy the equations that define them.

    WHAT IS PROVED HERE AND WHAT IS NOT.  ARPACK (eigsh / svds) is an oracle.  The theorems below are of
    three kinds:

    (A) PROOF-OF-WRAPPER (for all inputs, over Q, axiom-free): IF the solver's raw answer satisfies the
        eigen / singular equation of the operator scikit-network hands to it, THEN what the estimator
        returns (after index selection, skipping the first pair, the D^{-1/2} back-transform, 1 - mu,
        diagonal weightings, singular-value scalings, normalisation) satisfies the equation of the
        DOCUMENTED matrix (regularised transition matrix P = D^-1 (A + reg 11^T/n), Laplacian D - A,
        weighted matrix D1^-a1 (A + reg 11^T/n) D2^-a2, centred matrix A - 1 mean^T), predict
        reproduces fit, normalised rows have norm 1, RandomProjection and LouvainEmbedding equal their
        closed forms.  Square roots and real powers are oracle FUNCTIONS [Q -> Q] constrained only by
        the algebraic contract the proof needs (s * s = d;  s^(1-a) * s^a = s), so no real numbers
        and no axioms are involved in (A) and (B).
    (B) PER-RUN CERTIFIED RESIDUALS: [eig_residual_check] / [svd_residual_check] are executable; their
        soundness theorems say that a [true] answer bounds the residual of the documented matrix exactly.
        The harness converts the implementation's float outputs exactly to rationals and evaluates the
        checks inside Coq.  That ARPACK returned the EXTREME pairs in the documented order is NOT proved:
        it is tested against a dense NumPy decomposition (harness/props/c09.py).
    (C) SOURCE LEVEL (last section): the expressions LouvainEmbedding.fit assigns to embedding_ / embedding_col_,
        translated from the source on every run (Gen/NpLouvainEmbedding.v), equal the closed form of (A6); these three
        theorems are over R and depend on the axioms of Coq's Reals.
    Each statement is proved right under it ([exact] of a lemma of Proofs/, or a script over such lemmas; the refutation
    [gsvd_predict_zero_singular_refuted] on explicit matrices by evaluation) and followed by its [Print Assumptions];
    non-vacuity examples stand between (B) and (C). *)
From SKN Require Import Base.Util Base.QMat Model.Embedding Proofs.EmbeddingProofs.
From Coq Require Import QArith Qabs Morphisms Sorted.
Local Open Scope Q_scope.

(** (A1) Spectral, decomposition = 'rw'.  [sv], [sV] are LanczosEig's eigenvalues / eigenvectors of the
    operator [spectral_operator] (= N (D + reg - A - reg 11^T/n) N with N = diag(1/sqrt(d_i + reg))),
    [argsort] is np.argsort(sv).  For the k-th RETURNED pair (j = argsort[1:][k]): the eigenvalue is
    1 - mu_j and (eigenvalue, eigenvector column) is an eigenpair of the regularised transition matrix. *)
Theorem spectral_backtransform (sqrt_o : Q -> Q) (n : nat) (A : mat) (reg : Q) (sv : vec) (sV : mat)
        (argsort : list nat) (k : nat) :
  (0 < n)%nat -> wf_mat n n A -> 0 <= reg -> length sV = n ->
  (forall i, (i < n)%nat -> let d := nthq (lap_weights A) i + reg in sqrt_o d * sqrt_o d == d /\ ~ d == 0) ->
  (k < length (tl argsort))%nat ->
  let j := nth k (tl argsort) 0%nat in
  spectral_operator sqrt_o true A reg (col j sV) =v vscale (nthq sv j) (col j sV) ->
  let evals := fst (spectral_core sqrt_o true A reg sv sV argsort) in
  let evecs := snd (spectral_core sqrt_o true A reg sv sV argsort) in
  nthq evals k == 1 - nthq sv j /\
  mat_vec (transition (reg_adj n A reg)) (col k evecs) =v vscale (nthq evals k) (col k evecs).
Proof.
  intros Hn HA Hreg HV Hsqrt Hk j Hop. rewrite spectral_core_rw. cbn [fst snd]. cbv zeta.
  assert (E1 : nthq (map (fun m => 1 - m) (map (nthq sv) (tl argsort))) k == 1 - nthq sv j).
  { rewrite map_map, (nthq_map_gen (fun x => 1 - nthq sv x) (tl argsort) 0%nat) by exact Hk. reflexivity. }
  split; [exact E1|].
  rewrite E1, col_row_scale, col_take_cols by (rewrite ?take_cols_length, ?(norm_diag_length n A reg HA); lia).
  apply (rw_backtransform n A reg Hn HA Hreg sqrt_o Hsqrt); [rewrite col_length; exact HV | exact Hop].
Qed.
Print Assumptions spectral_backtransform.

(** (A1') decomposition = 'laplacian': the operator handed to the solver IS L = D' - A' of the regularised
    adjacency A' = A + reg 11^T/n (D' its degrees), so the returned pairs are eigenpairs of L directly. *)
Theorem spectral_laplacian_direct (sqrt_o : Q -> Q) (n : nat) (A : mat) (reg : Q) (sv : vec) (sV : mat)
        (argsort : list nat) (k : nat) :
  (0 < n)%nat -> wf_mat n n A -> 0 <= reg -> length sV = n ->
  (k < length (tl argsort))%nat ->
  let j := nth k (tl argsort) 0%nat in
  spectral_operator sqrt_o false A reg (col j sV) =v vscale (nthq sv j) (col j sV) ->
  let evals := fst (spectral_core sqrt_o false A reg sv sV argsort) in
  let evecs := snd (spectral_core sqrt_o false A reg sv sV argsort) in
  nthq evals k = nthq sv j /\
  laplacian_apply (reg_adj n A reg) (col k evecs) =v vscale (nthq evals k) (col k evecs).
Proof.
  intros Hn HA Hreg HV Hk j Hop. rewrite spectral_core_laplacian. cbn [fst snd]. cbv zeta.
  assert (E1 : nthq (map (nthq sv) (tl argsort)) k = nthq sv j)
    by (apply (nthq_map_gen (nthq sv) (tl argsort) 0%nat); exact Hk).
  split; [exact E1|]. rewrite E1, col_take_cols by exact Hk. fold j.
  rewrite <- (lap_operator_is_laplacian n A reg Hn HA Hreg [] (col j sV)) by (rewrite col_length; exact HV). exact Hop.
Qed.
Print Assumptions spectral_laplacian_direct.

(** (A1'') documented ordering, given np.argsort's contract: increasing for the Laplacian, decreasing for
    the transition matrix, and the skipped pair is the extreme one. *)
Theorem spectral_order (sqrt_o : Q -> Q) (A : mat) (reg : Q) (sv : vec) (sV : mat) (argsort : list nat) :
  StronglySorted Qle (map (nthq sv) argsort) ->
  Sorted Qle (fst (spectral_core sqrt_o false A reg sv sV argsort)) /\
  Sorted (fun a b => b <= a) (fst (spectral_core sqrt_o true A reg sv sV argsort)) /\
  (forall x, In x (fst (spectral_core sqrt_o false A reg sv sV argsort)) -> nthq sv (hd 0%nat argsort) <= x) /\
  (forall x, In x (fst (spectral_core sqrt_o true A reg sv sV argsort)) -> x <= 1 - nthq sv (hd 0%nat argsort)).
Proof. exact (EmbeddingProofs.spectral_order sqrt_o A reg sv sV argsort). Qed.
Print Assumptions spectral_order.

(** (A2) GSVD / SVD: the operator handed to the solver is D1^-a1 (A + reg 11^T/n_col) D2^-a2 with
    D1, D2 the row / column sums of the regularised matrix ([prow], [pcol] = power oracles). *)
Theorem gsvd_operator_is_weighted_matrix (prow pcol : Q -> Q) (nrow ncol : nat) (A : mat) (reg : Q) (v : vec) :
  wf_mat nrow ncol A ->
  let W := gsvd_weights nrow ncol A reg in
  slr_matvec (gsvd_operator prow pcol nrow ncol A reg) v =v
  vmul (gsvd_diag prow (fst W)) (mat_vec (reg_adj ncol A reg) (vmul (gsvd_diag pcol (snd W)) v)).
Proof.
  intros HA W. apply (gsvd_weighted_matvec nrow ncol); [exact HA|].
  rewrite gsvd_diag_length. apply gsvd_weights_row_length, HA.
Qed.
Print Assumptions gsvd_operator_is_weighted_matrix.

(** (A2') the embedding is formed from the selected triples as documented:
    embedding_row = D1^-a1 U Sigma^(1-fs), embedding_col = D2^-a2 V Sigma^fs (before normalisation). *)
Theorem gsvd_embedding_def (prow pcol psl psr : Q -> Q) (nrow ncol : nat) (A : mat) (reg : Q)
        (sU : mat) (sS : vec) (sV : mat) (index : list nat) (k : nat) :
  wf_mat nrow ncol A -> length sU = nrow -> length sV = ncol -> (k < length index)%nat ->
  let j := nth k index 0%nat in
  let W := gsvd_weights nrow ncol A reg in
  let '(sv, Ul, Vr, emb_row, emb_col) := gsvd_core prow pcol psl psr nrow ncol A reg sU sS sV index in
  nthq sv k = nthq sS j /\ col k Ul = col j sU /\ col k Vr = col j sV /\
  (forall i, (i < nrow)%nat ->
     mget emb_row i k == pinv (prow (nthq (fst W) i)) * mget sU i j * psl (nthq sS j)) /\
  (forall i, (i < ncol)%nat ->
     mget emb_col i k == pinv (pcol (nthq (snd W) i)) * mget sV i j * psr (nthq sS j)).
Proof.
  intros HA HU HV Hk j W. pose proof (gsvd_weights_row_length nrow ncol A reg HA) as HWr.
  pose proof (gsvd_weights_col_length nrow ncol A reg HA) as HWc.
  repeat split; try (apply col_take_cols; exact Hk).
  - apply (nthq_map_gen (nthq sS) index 0%nat). exact Hk.
  - intros i Hi. apply gsvd_emb_entry; unfold W; lia.
  - intros i Hi. apply gsvd_emb_entry; unfold W; lia.
Qed.
Print Assumptions gsvd_embedding_def.

(** (A2'') predict on row i of the fitted matrix reproduces embedding_row_[i], with or without
    normalisation, given M v_j = sigma_j u_j for the selected triples and sigma_j^fs <> 0. *)
Theorem gsvd_predict_reproduces_fit (prow pcol psl psr norm_o : Q -> Q) (normalized : bool) (nrow ncol : nat)
        (A : mat) (reg : Q) (sU : mat) (sS : vec) (sV : mat) (index : list nat) (i : nat) :
  wf_mat nrow ncol A -> length sU = nrow -> (i < nrow)%nat ->
  Proper (Qeq ==> Qeq) norm_o ->
  (forall k, (k < length index)%nat -> let j := nth k index 0%nat in
     slr_matvec (gsvd_operator prow pcol nrow ncol A reg) (col j sV) =v vscale (nthq sS j) (col j sU) /\
     psl (nthq sS j) * psr (nthq sS j) == nthq sS j /\ ~ psr (nthq sS j) == 0) ->
  let '(sv, Ul, Vr, emb_row, emb_col) :=
      gsvd_fit prow pcol psl psr norm_o normalized nrow ncol A reg sU sS sV index in
  gsvd_predict_row prow pcol psr norm_o normalized ncol reg (snd (gsvd_weights nrow ncol A reg)) sv Vr (nth i A [])
  =v nth i emb_row [].
Proof.
  intros HA HU Hi HP Hsolver. apply (normalize_if_row norm_o normalized _ _ i HP);
    [|exact (gsvd_predict_core prow pcol psl psr nrow ncol A reg HA sU sS sV index HU Hsolver i norm_o Hi)].
  unfold gsvd_emb_row. rewrite gsvd_emb_rows; rewrite ?(gsvd_weights_row_length nrow ncol A reg HA); lia.
Qed.
Print Assumptions gsvd_predict_reproduces_fit.

(** Zero singular value: the hypothesis [~ psr (sigma_j) == 0] above is necessary.
    With n_components above the rank of the weighted matrix, a returned singular value is 0; GSVD.predict
    divides by sigma^fs (NaN / garbage in floats, 0 in Q) and cannot reproduce the fitted row. *)
Theorem gsvd_predict_zero_singular_refuted :
  exists (A sU sV : mat) (sS : vec) (index : list nat) (psl psr : Q -> Q),
    let one := fun _ : Q => 1 in
    wf_mat 3 3 A /\ length sU = 3%nat /\
    (forall k, (k < length index)%nat -> let j := nth k index 0%nat in
       slr_matvec (gsvd_operator one one 3 3 A 0) (col j sV) =v vscale (nthq sS j) (col j sU) /\
       psl (nthq sS j) * psr (nthq sS j) == nthq sS j) /\
    ~ (gsvd_predict_row one one psr (fun q => q) false 3 0 (snd (gsvd_weights 3 3 A 0))
                        (gsvd_sv sS index) (take_cols index sV) (nth 0 A [])
       =v nth 0 (gsvd_emb_row one psl 3 3 A 0 sU sS index) []).
Proof.
  exists [[3; 0; 0]; [4; 0; 0]; [0; 0; 0]], [[3 # 5; 4 # 5]; [4 # 5; -(3 # 5)]; [0; 0]],
         [[1; 0]; [0; 1]; [0; 0]], [5; 0], [0%nat; 1%nat], (fun _ => 1), (fun q => q).
  cbv zeta. split; [split; [reflexivity | repeat constructor]|]. split; [reflexivity|]. split.
  - intros k Hk. do 2 (destruct k as [|k]; [vm_compute; split; [repeat (constructor; try reflexivity) | reflexivity]|]).
    cbn in Hk. lia.
  - intros H. apply (veq_nthq _ _ 1%nat) in H. vm_compute in H. discriminate.
Qed.
Print Assumptions gsvd_predict_zero_singular_refuted.

(** (A3) PCA: the SparseLR operator (and its transpose, which svds also calls) is the centred matrix
    A - 1 mean^T, mean_j = column mean. *)
Theorem pca_centering (nrow ncol : nat) (A : mat) : wf_mat nrow ncol A ->
  (forall v, slr_matvec (pca_operator nrow ncol A) v =v mat_vec (centered nrow ncol A) v) /\
  (forall u, slr_matvec (slr_transpose ncol (pca_operator nrow ncol A)) u =v
             mat_vec (transpose_n ncol (centered nrow ncol A)) u) /\
  (forall i j, (i < nrow)%nat -> (j < ncol)%nat ->
     mget (centered nrow ncol A) i j == mget A i j - sumq (col j A) / qn nrow).
Proof.
  intros HA.
  exact (conj (fun v => EmbeddingProofs.pca_centering nrow ncol A v HA)
           (conj (fun u => pca_centering_transpose nrow ncol A u HA) (centered_entry nrow ncol A HA))).
Qed.
Print Assumptions pca_centering.

(** (A3') PCA.predict (fit normalises both embeddings when asked and stores mean_col_; predict(x) =
    (x V - mean_col V) / sigma) reproduces the fitted row, given the singular equation of the centred operator
    and sigma_k <> 0.  For the variant in which fit leaves the singular vectors untouched and weights_col_ is None
    ([pca_fit_legacy], [pca_predict_row_legacy]) Proofs/EmbeddingProofs.v proves [legacy_pca_normalized_refuted]
    (with normalized = True a non-null row does not get squared norm 1) and [legacy_pca_predict_refuted] (predict
    returns TypeError for every vector). *)
Theorem pca_predict_reproduces_fit (norm_o : Q -> Q) (normalized : bool) (nrow ncol : nat) (A : mat)
        (sU : mat) (sS : vec) (sV : mat) (i : nat) :
  wf_mat nrow ncol A -> wf_mat nrow (length sS) sU -> length sV = ncol -> (i < nrow)%nat ->
  Proper (Qeq ==> Qeq) norm_o ->
  (forall k, (k < length sS)%nat ->
     slr_matvec (pca_operator nrow ncol A) (col k sV) =v vscale (nthq sS k) (col k sU) /\ ~ nthq sS k == 0) ->
  let '(emb_row, emb_col, sv) := pca_fit norm_o normalized sU sS sV in
  pca_predict_row norm_o normalized (pca_mean_col nrow ncol A) sv sV (nth i A []) =v nth i emb_row [].
Proof.
  intros HA HU HV Hi HP Hsolver. unfold pca_fit. pose proof HA as [HL HF]. pose proof HU as [HUL HUF].
  apply (normalize_if_row norm_o normalized _ sU i HP); [lia|].
  apply veq_nth; [rewrite map_length, seq_length, (wf_mat_row nrow (length sS) sU i HU Hi); reflexivity|].
  intros k Hk. rewrite map_length, seq_length in Hk. rewrite nthq_seq_map by exact Hk.
  destruct (Hsolver k Hk) as [Hop Hnz].
  rewrite !qdot_dot, (pca_y_means nrow ncol A HL), <- (centered_matvec_nth nrow ncol A _ i HA Hi).
  rewrite <- (veq_nthq _ _ i (EmbeddingProofs.pca_centering nrow ncol A (col k sV) HA)), (veq_nthq _ _ i Hop).
  rewrite nthq_vscale, nthq_col by (rewrite ?col_length; lia). unfold mget. field. exact Hnz.
Qed.
Print Assumptions pca_predict_reproduces_fit.

(** (A4) normalize(p = 2) (used by Spectral, GSVD, SVD, PCA, RandomProjection): every non-null row gets
    squared norm 1 (null rows stay null). *)
Theorem normalized_unit_norm (norm_o : Q -> Q) (E : mat) (i : nat) :
  (i < length E)%nat ->
  (let s := sqnorm (nth i E []) in norm_o s * norm_o s == s) ->
  ~ Forall (fun x => x == 0) (nth i E []) ->
  sqnorm (nth i (normalize2 norm_o E) []) == 1.
Proof.
  intros Hi Hs Hnz. unfold normalize2. rewrite (nth_map_gen (normalize_row2 norm_o) E [] []) by exact Hi.
  apply normalize_row2_unit; assumption.
Qed.
Print Assumptions normalized_unit_norm.

(** (A5) RandomProjection: column j of the embedding is (I + alpha M + ... + (alpha M)^K) g_j with M the
    regularised adjacency or its transition matrix and g_j column j of the (orthonormalised) random matrix. *)
Theorem random_projection_closed_form (random_walk : bool) (n k : nat) (A : mat) (reg alpha : Q) (K : nat) (G : mat) (j : nat) :
  (0 < n)%nat -> wf_mat n n A -> 0 <= reg -> wf_mat n k G -> (j < k)%nat ->
  col j (random_projection_core random_walk n k A reg alpha K G) =v
  rp_spec (rp_matrix random_walk n A reg) alpha K (col j G).
Proof. exact (random_projection_closed_form_cols random_walk n k A reg alpha K G j). Qed.
Print Assumptions random_projection_closed_form.

(** (A6) LouvainEmbedding: entry (i, c) is the share of row i's weight carried by the nodes of cluster c. *)
Theorem louvain_embedding_def (A : mat) (labels : list Z) (i c : nat) :
  (i < length A)%nat -> (c < n_labels labels)%nat -> length (nth i A []) = length labels ->
  mget (louvain_embedding A labels) i c ==
  pinv (sumq (map Qabs (nth i A []))) * cluster_weight (nth i A []) labels c.
Proof.
  intros Hi Hc Hl. unfold mget, louvain_embedding.
  rewrite (nth_map_gen (fun r => map (fun c0 => qdot (normalize_row1 r) (indicator c0 labels)) (seq 0 (n_labels labels))) A [] [])
    by exact Hi.
  rewrite nthq_seq_map by exact Hc. unfold normalize_row1.
  rewrite qdot_dot, dot_vscale_l, dot_indicator by exact Hl. rewrite norm1_abs. reflexivity.
Qed.
Print Assumptions louvain_embedding_def.

(** (B) Residual validators: a [true] answer certifies the residual bound exactly. *)
Theorem eig_residual_sound (M : mat) (lam : Q) (v : vec) (eps : Q) : 0 <= eps ->
  eig_residual_check M lam v eps = true ->
  wf_mat (length v) (length v) M /\
  linf (vsub (mat_vec M v) (vscale lam v)) <= eps /\
  forall i, (i < length v)%nat -> Qabs (dot (nth i M []) v - lam * nthq v i) <= eps.
Proof. exact (EmbeddingProofs.eig_residual_sound M lam v eps). Qed.
Print Assumptions eig_residual_sound.

Theorem svd_residual_sound (M : mat) (u : vec) (sigma : Q) (v : vec) (eps : Q) : 0 <= eps ->
  svd_residual_check M u sigma v eps = true ->
  wf_mat (length u) (length v) M /\
  linf (vsub (mat_vec M v) (vscale sigma u)) <= eps /\
  linf (vsub (mat_vec (transpose_n (length v) M) u) (vscale sigma v)) <= eps /\
  (forall i, (i < length u)%nat -> Qabs (dot (nth i M []) v - sigma * nthq u i) <= eps) /\
  (forall j, (j < length v)%nat -> Qabs (dot (col j M) u - sigma * nthq v j) <= eps).
Proof. exact (EmbeddingProofs.svd_residual_sound M u sigma v eps). Qed.
Print Assumptions svd_residual_sound.

(** Non-vacuity.  The 4-cycle with weights 2 (degrees 4, sqrt oracle = 2): the solver pair
    (mu = 1, u = (1, 0, -1, 0)) meets every hypothesis of [spectral_backtransform]; the model returns the
    eigenvalue 0 of P with the vector u / 2, and the validator accepts it. *)
Definition c4 : mat := [[0; 2; 0; 2]; [2; 0; 2; 0]; [0; 2; 0; 2]; [2; 0; 2; 0]].
Definition c4_sV : mat := [[1; 1]; [1; 0]; [1; -(1)]; [1; 0]].
Example c09_nonvacuous_spectral :
  wf_mat 4 4 c4 /\
  (forall i, (i < 4)%nat -> let d := nthq (lap_weights c4) i + 0 in (fun _ => 2) d * (fun _ => 2) d == d /\ ~ d == 0) /\
  spectral_operator (fun _ => 2) true c4 0 (col 1 c4_sV) =v vscale 1 (col 1 c4_sV) /\
  spectral_core (fun _ => 2) true c4 0 [0; 1] c4_sV [0%nat; 1%nat] = ([1 - 1], [[/ 2 * 1]; [/ 2 * 0]; [/ 2 * -(1)]; [/ 2 * 0]]) /\
  eig_residual_check (transition (reg_adj 4 c4 0)) 0 [1 # 2; 0; -(1 # 2); 0] (1 # 1000) = true.
Proof.
  split; [split; [reflexivity | repeat constructor]|].
  split.
  { intros i Hi. do 4 (destruct i as [|i]; [vm_compute; split; [reflexivity | discriminate]|]). lia. }
  split; [vm_compute; repeat (constructor; try reflexivity)|].
  split; reflexivity.
Qed.

(** A 2 x 2 diagonal matrix with its exact singular triples (SVD: prow = pcol = 1; fs = 0: psl = id, psr = 1):
    the hypotheses of [gsvd_predict_reproduces_fit] hold and predict returns the fitted rows. *)
Example c09_nonvacuous_gsvd :
  let A := [[2; 0]; [0; 1]] in let I2 := [[1; 0]; [0; 1]] in
  let one := fun _ : Q => 1 in let id := fun q : Q => q in
  (forall k, (k < 2)%nat -> let j := nth k [0%nat; 1%nat] 0%nat in
     slr_matvec (gsvd_operator one one 2 2 A 0) (col j I2) =v vscale (nthq [2; 1] j) (col j I2) /\
     id (nthq [2; 1] j) * one (nthq [2; 1] j) == nthq [2; 1] j /\ ~ one (nthq [2; 1] j) == 0) /\
  map (map Qred) (gsvd_emb_row one id 2 2 A 0 I2 [2; 1] [0%nat; 1%nat]) = [[2; 0]; [0; 1]] /\
  map Qred (gsvd_predict_row one one one id false 2 0 (snd (gsvd_weights 2 2 A 0)) [2; 1] I2 [2; 0]) = [2; 0] /\
  svd_residual_check A [1; 0] 2 [1; 0] 0 = true.
Proof.
  cbv zeta. split.
  { intros k Hk. do 2 (destruct k as [|k]; [vm_compute; split; [repeat (constructor; try reflexivity) | split; [reflexivity | discriminate]]|]). lia. }
  repeat split; reflexivity.
Qed.

(* =========================================================================================== *)
(** * LouvainEmbedding's closed form as REGENERATED FROM sknetwork/embedding/louvain_embedding.py

    [src_louvain_embedding] / [src_louvain_embedding_col] (Gen/NpLouvainEmbedding.v) are the values that
    LouvainEmbedding.fit assigns to [embedding_] and [embedding_col_] (after reindex_labels), translated on every run by
    harness/translators/npvec.py into the array language of Model/NpVec.v.  Over R, for EVERY matrix (index function) and
    every label vector they equal the closed form: entry (i, c) is the share of the weight of row i (resp. column j) that
    goes to cluster c; on a non-negative matrix with labels in range every row is a probability vector (or null). *)
From SKN Require Import Model.NpExpr Model.NpVec Gen.NpLouvainEmbedding Proofs.NpVecProofs Proofs.NpModularityProofs
                        Proofs.NpSecondaryProofs Proofs.NpLouvainEmbeddingProofs.
From Coq Require Import Reals Lra.
Local Open Scope R_scope.

Theorem source_louvain_embedding_closed_form (n1 n2 : nat) (B : nat -> nat -> R) (l : list Z) :
  List.length l = n2 ->
  exists f, rvdenote (env_le n1 n2 B l) src_louvain_embedding = Some (WM n1 (nlab l) f) /\
            forall i c, f i c = le_closed n2 B l i c.
Proof.
  intros <-. eexists. split.
  - unfold env_le, src_louvain_embedding. rv_eval. reflexivity.
  - intros i c. as_lsum. unfold le_closed, NpModularityProofs.ind, lab. rewrite <- lsum_scale. apply lsum_ext. intros j _. ring.
Qed.
Print Assumptions source_louvain_embedding_closed_form.

Theorem source_louvain_embedding_col_closed_form (n1 n2 : nat) (B : nat -> nat -> R) (l : list Z) :
  List.length l = n1 ->
  exists f, rvdenote (env_le_col n1 n2 B l) src_louvain_embedding_col = Some (WM n2 (nlab l) f) /\
            forall j c, f j c = le_closed n1 (fun j i => B i j) l j c.
Proof.
  intros <-. eexists. split.
  - unfold env_le_col, src_louvain_embedding_col. rv_eval. reflexivity.
  - intros j c. as_lsum. unfold le_closed, NpModularityProofs.ind, lab. rewrite <- lsum_scale. apply lsum_ext. intros i _. ring.
Qed.
Print Assumptions source_louvain_embedding_col_closed_form.

Theorem source_louvain_embedding_rows (n1 n2 : nat) (B : nat -> nat -> R) (l : list Z) (i : nat) :
  labels_ok n2 l -> nonneg_rect n1 n2 B -> (i < n1)%nat ->
  (forall c, (c < nlab l)%nat -> 0 <= le_closed n2 B l i c) /\
  (0 < lsum (seq 0 n2) (B i) -> lsum (seq 0 (nlab l)) (le_closed n2 B l i) = 1).
Proof.
  intros Hok HB Hi.
  assert (Hrow : forall j, In j (seq 0 n2) -> 0 <= B i j) by (intros j Hj; apply in_seq0 in Hj; apply HB; assumption).
  unfold le_closed. rewrite (lsum_abs _ _ Hrow). split.
  - intros c _. apply Rmult_le_pos; [apply pinv_nonneg, lsum_nonneg, Hrow | exact (mass_nonneg n1 n2 B l i c HB Hi)].
  - intros Hpos. rewrite lsum_scale.
    change (pinvT Rdiv 0 1 Reqb (lsum (seq 0 n2) (B i)) * lsum (seq 0 (nlab l)) (mass n2 B l i) = 1).
    rewrite (mass_total n2 (nlab l) B l i Hok (le_n _)). apply pinv_pos. exact Hpos.
Qed.
Print Assumptions source_louvain_embedding_rows.
