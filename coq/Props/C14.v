(** C14 — Heat diffusion obeys the maximum principle and tends to the harmonic solution.
    Statements of the property, each proved right under it ([exact] of a lemma of Proofs/, or a short script over such
    lemmas) and followed by its [Print Assumptions]; non-vacuity examples on explicit graphs.
    Items 1-6: Model/Diffusion.v (sknetwork/regression/diffusion.py and the helpers it calls), over Q: bounds of
    Diffusion.fit and Dirichlet.fit, seeds, uniqueness of the harmonic function, convergence of Dirichlet to it.
    Last section, over R: the same bounds for the terms generated from diffusion.py (Gen/NpDiffusion.v, array language of
    Model/NpVec.v, semantics [rvdenote] of Proofs/NpVecProofs.v; lemmas in Proofs/NpVecProofs.v). *)
From SKN Require Import Base.Util Model.Diffusion Proofs.DiffusionProofs.
From Coq Require Import Qabs Lqa.
Close Scope Q_scope.
Open Scope nat_scope.

(** 1. A convex combination of values in [lo, hi] lies in [lo, hi]. *)
Theorem convex_bounds (p v : list Q) (lo hi : Q) :
  length p = length v ->
  (forall x, In x p -> (0 <= x)%Q) ->
  (sumq p == 1)%Q ->
  (forall x, In x v -> (lo <= x <= hi)%Q) ->
  (lo <= sumq (map2 Qmult p v) <= hi)%Q.
Proof. exact (DiffusionProofs.convex_bounds p v lo hi). Qed.
Print Assumptions convex_bounds.

(** 2. Diffusion.fit, as coded (normalised TRANSPOSED adjacency, identity on its null rows, damping
    (1-a) I + a P): for every input matrix with non-negative weights (sinks and sources allowed, square or
    bipartite), every n_iter, every damping factor in [0,1], every form of seeds and every init within the
    seed range, all returned values (values_, values_row_, values_col_) lie between the smallest and the
    largest seed temperature.  No hypothesis on sinks is needed: the coded operator is stochastic. *)
Theorem diffusion_bounds n_iter alpha m values values_row values_col init force_bipartite adj seeds bip out :
  nonneg_rows (w_rows m) -> (0 <= alpha <= 1)%Q ->
  get_adjacency_values m force_bipartite values values_row values_col = Ok (adj, seeds, bip) ->
  (forall t, init = Some t -> (seed_min seeds <= t <= seed_max seeds)%Q) ->
  diffusion_fit n_iter alpha m values values_row values_col init force_bipartite = Ok out ->
  out_in (seed_min seeds) (seed_max seeds) out.
Proof.
  exact (fun Hnn Ha G Hi F =>
    proj1 (diffusion_fit_bounds n_iter alpha m values values_row values_col init force_bipartite adj seeds bip out
             _ _ Hnn Ha G (seed_min_max_bound seeds) Hi F)).
Qed.
Print Assumptions diffusion_bounds.

(** The same for any interval [lo, hi] containing the seeds (and init). *)
Theorem diffusion_bounds_interval n_iter alpha m values values_row values_col init force_bipartite adj seeds bip out lo hi :
  nonneg_rows (w_rows m) -> (0 <= alpha <= 1)%Q ->
  get_adjacency_values m force_bipartite values values_row values_col = Ok (adj, seeds, bip) ->
  (forall x, In x seeds -> (0 <= x)%Q -> (lo <= x <= hi)%Q) ->
  (forall t, init = Some t -> (lo <= t <= hi)%Q) ->
  diffusion_fit n_iter alpha m values values_row values_col init force_bipartite = Ok out ->
  out_in lo hi out /\ length (stacked out) = length adj.
Proof. exact (diffusion_fit_bounds n_iter alpha m values values_row values_col init force_bipartite adj seeds bip out lo hi). Qed.
Print Assumptions diffusion_bounds_interval.

(** 3. Dirichlet.fit: same interval, provided every node that is NOT a seed has positive out-weight in the
    adjacency the algorithm works on ([no_free_sink]; weaker than "every node has an outgoing edge"). *)
Theorem dirichlet_bounds n_iter m values values_row values_col init force_bipartite adj seeds bip out :
  wf_wmat m ->
  get_adjacency_values m force_bipartite values values_row values_col = Ok (adj, seeds, bip) ->
  no_free_sink adj (map is_seed seeds) ->
  (forall t, init = Some t -> (seed_min seeds <= t <= seed_max seeds)%Q) ->
  dirichlet_fit n_iter m values values_row values_col init force_bipartite = Ok out ->
  out_in (seed_min seeds) (seed_max seeds) out.
Proof.
  exact (fun W G NS Hi F =>
    proj1 (dirichlet_fit_bounds n_iter m values values_row values_col init force_bipartite adj seeds bip out
             _ _ W G NS (seed_min_max_bound seeds) Hi F)).
Qed.
Print Assumptions dirichlet_bounds.

(** The hypothesis on sinks is necessary for Dirichlet (a free sink drops to 0, below the seeds). *)
Theorem dirichlet_bounds_needs_no_sink :
  exists m values out,
    wf_wmat m /\ dirichlet_fit 1 m (Some values) None None None false = Ok out /\ ~ out_in 2 2 out.
Proof. exact DiffusionProofs.dirichlet_bounds_needs_no_sink. Qed.
Print Assumptions dirichlet_bounds_needs_no_sink.

(** Dirichlet returns every seed temperature unchanged (syntactic equality, temperature 0 included),
    for every graph, with or without sinks. [stacked out] is values_ (or values_row_ ++ values_col_). *)
Theorem dirichlet_seeds_unchanged n_iter m values values_row values_col init force_bipartite adj seeds bip out i :
  get_adjacency_values m force_bipartite values values_row values_col = Ok (adj, seeds, bip) ->
  dirichlet_fit n_iter m values values_row values_col init force_bipartite = Ok out ->
  i < length seeds -> (0 <= nthq seeds i)%Q ->
  nthq (stacked out) i = nthq seeds i.
Proof.
  intros G F Hi Hs. destruct (dirichlet_fit_inv _ _ _ _ _ _ _ _ _ _ _ G F) as [temps [IT ->]].
  destruct (gav_spec _ _ _ _ _ _ _ _ G) as [L _].
  destruct (init_temperatures_nth _ _ _ _ i IT Hi) as [_ [_ [Eb Et]]].
  apply is_seed_iff in Hs.
  rewrite stacked_split_vars. rewrite dirichlet_core_seeds.
  - apply Et. exact Hs.
  - lia.
  - rewrite Eb. exact Hs.
Qed.
Print Assumptions dirichlet_seeds_unchanged.

(** 4. Array, list and dict forms of the same seeds give the same initial temperatures and the same
    boundary; every entry >= 0 (0 included: the code tests [seeds >= 0]) is a seed with its own value. *)
Theorem seeds_honoured n v d init :
  length v = n -> dict_represents n d v ->
  exists dv,
    get_values n (Some (SArray v)) (-1)%Q = Ok v /\
    get_values n (Some (SList v)) (-1)%Q = Ok v /\
    get_values n (Some (SDict d)) (-1)%Q = Ok dv /\
    init_temperatures dv init = init_temperatures v init /\
    forall temps border i,
      init_temperatures v init = Ok (temps, border) -> i < n -> (0 <= nthq v i)%Q ->
      nthb border i = true /\ nthq temps i = nthq v i.
Proof. exact (seeds_honoured_lemma n v d init). Qed.
Print Assumptions seeds_honoured.

(** 5. Uniqueness of the harmonic extension: on a connected graph (explicit path predicate over edges
    of positive weight) with a non-empty boundary, two functions that equal the seeds on the boundary and
    the weighted mean of their neighbours elsewhere are equal.  Symmetry of the graph is not needed:
    it suffices that every node reaches the boundary ([harmonic_unique_reach], the second theorem). *)
Theorem harmonic_unique adj border temps f g :
  wf_rows (length adj) adj -> connected adj ->
  (exists s, s < length adj /\ nthb border s = true) ->
  harmonic adj border temps f -> harmonic adj border temps g ->
  forall i, i < length adj -> (nthq f i == nthq g i)%Q.
Proof.
  exact (fun W C S => DiffusionProofs.harmonic_unique_reach adj border temps f g W (connected_reaches adj border C S)).
Qed.
Print Assumptions harmonic_unique.

Theorem harmonic_unique_reach adj border temps f g :
  wf_rows (length adj) adj -> reaches_border adj border ->
  harmonic adj border temps f -> harmonic adj border temps g ->
  forall i, i < length adj -> (nthq f i == nthq g i)%Q.
Proof. exact (DiffusionProofs.harmonic_unique_reach adj border temps f g). Qed.
Print Assumptions harmonic_unique_reach.

(** 6. One Dirichlet step does not increase the sup-distance to a harmonic function, hence the distance
    of the returned values to the harmonic solution is at most that of the initial temperatures. *)
Theorem dirichlet_nonexpansive adj border temps h v d :
  wf_rows (length adj) adj -> no_free_sink adj border ->
  harmonic adj border temps h ->
  dist_le (length adj) v h d ->
  dist_le (length adj) (dirichlet_step (normalize adj) border temps v) h d.
Proof. exact (dirichlet_step_nonexpansive adj border temps h v d). Qed.
Print Assumptions dirichlet_nonexpansive.

Theorem dirichlet_distance_monotone k adj border temps h d :
  wf_rows (length adj) adj -> no_free_sink adj border ->
  harmonic adj border temps h ->
  dist_le (length adj) temps h d ->
  dist_le (length adj) (dirichlet_core k adj border temps) h d.
Proof.
  intros W NS H D0. unfold dirichlet_core.
  apply (iterate_inv (fun v => dist_le (length adj) v h d)); [|exact D0].
  intros x Hx. apply dirichlet_step_nonexpansive; assumption.
Qed.
Print Assumptions dirichlet_distance_monotone.

(** The limit: on a connected graph with a non-empty seed set ([dirichlet_converges]), and more generally on a
    graph in which every node reaches the boundary along edges of positive weight ([dirichlet_converges_reach]),
    the values computed by Dirichlet converge, as n_iter grows, to the harmonic function h (unique by
    [harmonic_unique]): for every eps > 0 there is N such that for every n_iter >= N all values are within eps
    of h.  The existence of h is a hypothesis; the harness computes h by exact rational elimination and
    establishes [harmonic] for each tested case through [harmonic_check_sound], stated after these two: the
    executable test [harmonic_checkb] (length, seed values on the boundary, weighted mean elsewhere) implies
    [harmonic]. *)
Theorem dirichlet_converges adj border temps h :
  wf_rows (length adj) adj -> connected adj ->
  (exists s, s < length adj /\ nthb border s = true) ->
  harmonic adj border temps h ->
  forall eps, (0 < eps)%Q -> exists N, forall k, N <= k ->
    dist_le (length adj) (dirichlet_core k adj border temps) h eps.
Proof.
  exact (fun W C S => dirichlet_converges_lemma adj border temps h W (connected_reaches adj border C S)).
Qed.
Print Assumptions dirichlet_converges.

Theorem dirichlet_converges_reach adj border temps h :
  wf_rows (length adj) adj -> reaches_border adj border ->
  harmonic adj border temps h ->
  forall eps, (0 < eps)%Q -> exists N, forall k, N <= k ->
    dist_le (length adj) (dirichlet_core k adj border temps) h eps.
Proof. exact (dirichlet_converges_lemma adj border temps h). Qed.
Print Assumptions dirichlet_converges_reach.

Theorem harmonic_check_sound adj border temps f :
  harmonic_checkb adj border temps f = true -> harmonic adj border temps f.
Proof.
  unfold harmonic_checkb. intros H. apply andb_true_iff in H. destruct H as [HL HF].
  apply Nat.eqb_eq in HL. split; [exact HL|].
  intros i Hi. rewrite forallb_forall in HF. specialize (HF i ltac:(apply in_seq; lia)).
  destruct (nthb border i); apply Qeq_bool_eq in HF; exact HF.
Qed.
Print Assumptions harmonic_check_sound.

(** Non-vacuity: a weighted undirected path-with-chord on 4 nodes, seeds at nodes 0 (temperature 0) and 3
    (temperature 3): the hypotheses of the theorems hold, both models run, the Dirichlet iterates stay in
    [0, 3], and the harmonic solution (0, 7/5, 13/5, 3) is accepted by the executable checker. *)
Definition ex_adj : list wrow :=
  [ [(1, 2%Q)];
    [(0, 2%Q); (2, 1%Q); (3, 1%Q)];
    [(1, 1%Q); (3, 3%Q)];
    [(1, 1%Q); (2, 3%Q)] ].
Definition ex_m : wmat := {| w_ncol := 4; w_rows := ex_adj |}.
Definition ex_seeds : list Q := [0; -1; -1; 3]%Q.

Example c14_nonvacuous :
  wf_wmat ex_m /\ symmetric_adj ex_adj /\
  get_adjacency_values ex_m false (Some (SDict [(3, 3%Q); (0, 0%Q)])) None None = Ok (ex_adj, ex_seeds, false) /\
  no_free_sink ex_adj (map is_seed ex_seeds) /\
  seed_min ex_seeds = 0%Q /\ seed_max ex_seeds = 3%Q /\
  dirichlet_fit 2 ex_m (Some (SList ex_seeds)) None None None false
    = Ok ([0; (45 # 32); (81 # 32); 3]%Q, None) /\
  diffusion_fit 1 (1 # 2)%Q ex_m (Some (SArray ex_seeds)) None None None false
    = Ok ([(3 # 4); (21 # 16); (33 # 16); (9 # 4)]%Q, None) /\
  harmonic_checkb ex_adj (map is_seed ex_seeds) ex_seeds [0; (7 # 5); (13 # 5); 3]%Q = true.
Proof.
  split; [|split; [|split; [|split]]].
  - intros r e Hr He. simpl in Hr.
    repeat (destruct Hr as [Hr|Hr]; [subst r; simpl in He;
      repeat (destruct He as [He|He]; [subst e; simpl; split; [lia|lra]|]); contradiction|]).
    contradiction.
  - intros i j w H.
    destruct i as [|[|[|[|i]]]]; simpl in H;
      repeat (destruct H as [H|H]; [inversion H; subst; simpl; tauto|]); try contradiction.
    destruct i; contradiction.
  - vm_compute. reflexivity.
  - intros i Hi B. destruct i as [|[|[|[|i]]]]; simpl in Hi; try lia; simpl in B; try discriminate;
      vm_compute; reflexivity.
  - repeat split; vm_compute; reflexivity.
Qed.

(** The example graph is connected (every node is adjacent to node 1) and (0, 7/5, 13/5, 3) is harmonic on
    it, so [harmonic_unique] and [dirichlet_converges] apply to it with a non-empty boundary. *)
Example c14_connected_harmonic :
  connected ex_adj /\
  (exists s, s < length ex_adj /\ nthb (map is_seed ex_seeds) s = true) /\
  harmonic ex_adj (map is_seed ex_seeds) ex_seeds [0; (7 # 5); (13 # 5); 3]%Q.
Proof.
  split; [|split].
  - assert (E : forall a b w, In (b, w) (wrow_of ex_adj a) -> (0 < w)%Q -> path ex_adj a b)
      by (intros a b w H1 H2; apply (path_step ex_adj a b b); [exists w; split; assumption|apply path_refl]).
    intros i j Hi Hj. simpl in Hi, Hj. apply (path_trans ex_adj i 1 j).
    + destruct i as [|[|[|[|i]]]]; try lia.
      * apply (E 0 1 2%Q); [simpl; tauto|lra].
      * apply path_refl.
      * apply (E 2 1 1%Q); [simpl; tauto|lra].
      * apply (E 3 1 1%Q); [simpl; tauto|lra].
    + destruct j as [|[|[|[|j]]]]; try lia.
      * apply (E 1 0 2%Q); [simpl; tauto|lra].
      * apply path_refl.
      * apply (E 1 2 1%Q); [simpl; tauto|lra].
      * apply (E 1 3 1%Q); [simpl; tauto|lra].
  - exists 0. split; [simpl; lia|vm_compute; reflexivity].
  - apply harmonic_check_sound. vm_compute. reflexivity.
Qed.

(* =========================================================================================== *)
(** * The same clauses about the terms REGENERATED FROM sknetwork/regression/diffusion.py

    [src_dirichlet_fit] / [src_diffusion_fit] (Gen/NpDiffusion.v) are the numeric cores of Dirichlet.fit and Diffusion.fit
    (with init_temperatures inlined), translated on every run by harness/translators/npvec.py into the array language
    of Model/NpVec.v; [rvdenote] (Proofs/NpVecProofs.v) is that language's NumPy / SciPy semantics over R.  The theorems evaluate the source
    terms on ARBITRARY non-negative adjacency matrices (as index functions), seed vectors, [init] and iteration counts. *)
From SKN Require Import Model.NpExpr Model.NpVec Gen.NpDiffusion Proofs.NpVecProofs.
From Coq Require Import Reals Lra.
Local Open Scope R_scope.

(** Dirichlet: on a graph where every node has an outgoing edge, every value lies between the smallest and the largest
    initial temperature, for any number of iterations, and the seeds keep their temperatures. *)
Theorem source_dirichlet_bounds_and_clamp (n : nat) (A : nat -> nat -> R) (s : nat -> R) (init : vvalue R) (k : nat)
        (alpha lo hi : R) :
  nonneg_mat n A -> (forall i, (i < n)%nat -> 0 < rsum n (A i)) -> init_ok init ->
  (forall i, (i < n)%nat -> lo <= temp0 n s init i <= hi) ->
  exists f, rvdenote (env_fit n A s init k alpha) src_dirichlet_fit = Some (WV n f) /\
            (forall i, (i < n)%nat -> lo <= f i <= hi) /\
            (forall i, (i < n)%nat -> 0 <= s i -> f i = s i).
Proof. exact (NpVecProofs.source_dirichlet_bounds_and_clamp n A s init k alpha lo hi). Qed.
Print Assumptions source_dirichlet_bounds_and_clamp.

(** Diffusion: the same interval, for every damping factor in [0,1], with no condition on sinks (the coded operator
    (1 - a) I + a (normalize(A^T) + diag(null rows)) is row-stochastic). *)
Theorem source_diffusion_bounds (n : nat) (A : nat -> nat -> R) (s : nat -> R) (init : vvalue R) (k : nat)
        (alpha lo hi : R) :
  nonneg_mat n A -> 0 <= alpha <= 1 -> init_ok init ->
  (forall i, (i < n)%nat -> lo <= temp0 n s init i <= hi) ->
  exists f, rvdenote (env_fit n A s init k alpha) src_diffusion_fit = Some (WV n f) /\
            (forall i, (i < n)%nat -> lo <= f i <= hi).
Proof. exact (NpVecProofs.source_diffusion_bounds n A s init k alpha lo hi). Qed.
Print Assumptions source_diffusion_bounds.

(** With init=None the initial temperatures lie between the smallest and the largest SEED temperature. *)
Theorem source_seed_mean_in_range (n : nat) (s : nat -> R) (lo hi : R) :
  (exists i, (i < n)%nat /\ 0 <= s i) -> (forall i, (i < n)%nat -> 0 <= s i -> lo <= s i <= hi) ->
  forall i, (i < n)%nat -> lo <= temp0 n s WNone i <= hi.
Proof. exact (NpVecProofs.seed_mean_in_range n s lo hi). Qed.
Print Assumptions source_seed_mean_in_range.

(** The hypotheses are met by a concrete weighted 2-node graph with one seed. *)
Example c14_nonvacuous_source :
  nonneg_mat 2 (fun i j => if Nat.eqb i j then 0 else 2) /\
  (forall i, (i < 2)%nat -> 0 < rsum 2 ((fun i j => if Nat.eqb i j then 0 else 2) i)) /\
  init_ok (@WNone R) /\ (exists i, (i < 2)%nat /\ 0 <= (fun i => if Nat.eqb i 0 then 3 else -1) i).
Proof.
  split; [|split; [|split]].
  - intros i j _ _. destruct (Nat.eqb i j); lra.
  - intros [|[|i]] Hi; try lia; unfold rsum, vsum, Gnn.g_sum; cbn; lra.
  - left. reflexivity.
  - exists 0%nat. split; [lia | cbn; lra].
Qed.
