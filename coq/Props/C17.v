(** C17 — Every fit terminates and stays within its buffers (theorem side).
    Statements of the property, each proved right under it ([exact] of a lemma of Proofs/, or a script over such lemmas;
    the [*_refuted] witnesses and the obligation over Gen/ParisSrc.v by evaluation) and followed by its
    [Print Assumptions]; non-vacuity examples after section 7, in sections 8 and 9, and at the end.

    Sections 1-7 (triangles, vote, minheap / core, get_distances, diteration / push, Propagation.fit, optimize_core):
    Model/Safety.v (flat arrays, every access checked: [OOB]; every while loop / recursion with explicit fuel:
    [OutOfFuel]), Model/Vote.v ([vote_update], out-of-bounds = [VOOB site]), Model/Bfs.v (exhausted fuel = [None]
    for [bfs], [Err Bfs.OutOfFuel] for [get_distances]).
    Section 8 (optimize_core terminates) and 11 (Leiden.fit terminates): Model/Louvain.v, Model/Modularity.v
    (out of fuel = [MErr MOutOfFuel]).  Section 9 (weisfeiler_lehman_core, betweenness, leiden_core, push, paris):
    Model/Safety2.v (conventions of Model/Safety.v) and, for 9.6, Model/Paris.v (out of fuel = [None]; KeyError /
    IndexError = [Err _]).  Section 10: the tie rule of paris.pyx as generated in Gen/ParisSrc.v.
    A statement named *_safe says the model never returns [OOB]; one named *_terminates says it never returns
    [OutOfFuel] with the stated fuel (often in the stronger form [exists r, ... = KOk r]).
    Input contract: [csr_pat_wf n indptr indices] / [csr_wf n indptr indices data] (what scipy guarantees
    for a canonical n x n CSR matrix) plus the per-kernel contracts written in each statement. *)
From SKN Require Import Base.Util Model.Bfs Model.Vote Model.Safety Proofs.SafetyProofs.

(** * 1. triangles.pyx *)

Theorem count_triangles_safe n indptr indices :
  csr_pat_wf n indptr indices -> count_triangles_flat indptr indices <> OOB.
Proof. exact (fun H => kok_not_oob _ (count_triangles_flat_ok n indptr indices H)). Qed.
Print Assumptions count_triangles_safe.

Theorem count_triangles_terminates n indptr indices :
  csr_pat_wf n indptr indices -> count_triangles_flat indptr indices <> OutOfFuel.
Proof. exact (fun H => kok_not_fuel _ (count_triangles_flat_ok n indptr indices H)). Qed.
Print Assumptions count_triangles_terminates.

(** count_local_triangles_from_dag for one node (the unit of work of the prange branch) *)
Theorem count_local_triangles_safe_terminates n indptr indices node :
  csr_pat_wf n indptr indices -> node < n ->
  count_local_triangles_flat node indptr indices <> OOB /\
  count_local_triangles_flat node indptr indices <> OutOfFuel.
Proof.
  exact (fun H Hn => conj (kok_not_oob _ (count_local_ok n indptr indices H node Hn))
                          (kok_not_fuel _ (count_local_ok n indptr indices H node Hn))).
Qed.
Print Assumptions count_local_triangles_safe_terminates.

(** the while loop ends within (row length of node + row length of neighbor) iterations *)
Theorem count_local_triangles_while_bound n indptr indices node neighbor acc :
  csr_pat_wf n indptr indices -> node < n -> neighbor < n ->
  exists r, tri_while (row_len indptr node + row_len indptr neighbor) indptr indices node neighbor
                      (ip indptr node) (ip indptr neighbor) acc = KOk r.
Proof.
  exact (fun H Hn Hb => tri_while_ok n indptr indices H node neighbor Hn Hb _ _ _ acc (le_n _)).
Qed.
Print Assumptions count_local_triangles_while_bound.

(** * 2. vote.pyx ([repaired_kernel] of Model/Vote.v) *)

(** Contract of the caller (Propagation.fit): labels has one entry per node, index_remain lists nodes.
    [labels >= -1] is not needed. The kernel has no while loop (the model needs no fuel): the call
    returns the new label vector. *)
Theorem vote_update_safe n indptr indices (data : list Q) labels index s :
  csr_wf n indptr indices data -> length labels = n -> (forall i, In i index -> i < n) ->
  vote_update repaired_kernel indptr indices data labels index <> VOOB s.
Proof.
  intros Hwf Hl Hi. destruct (vote_update_safe_ok n indptr indices data labels index Hwf Hl Hi)
    as (l' & -> & _). discriminate.
Qed.
Print Assumptions vote_update_safe.

Theorem vote_update_terminates n indptr indices (data : list Q) labels index :
  csr_wf n indptr indices data -> length labels = n -> (forall i, In i index -> i < n) ->
  exists labels', vote_update repaired_kernel indptr indices data labels index = VOk labels' /\
                  length labels' = n.
Proof. exact (vote_update_safe_ok n indptr indices data labels index). Qed.
Print Assumptions vote_update_terminates.

(** [legacy_kernel] (weight read at data[neighbour node], votes sized n):
    a well-formed input with nnz < n reads [data] out of bounds, one with a seed label >= n reads
    [votes] out of bounds; [repaired_kernel] is fine on both. *)
Theorem vote_legacy_oob_refuted :
  (csr_wf 3 leg1_indptr leg1_indices leg1_data /\ length leg1_labels = 3 /\
   (forall i, In i leg1_index -> i < 3) /\ length leg1_indices < 3 /\
   vote_update legacy_kernel leg1_indptr leg1_indices leg1_data leg1_labels leg1_index = VOOB At_data /\
   exists l, vote_update repaired_kernel leg1_indptr leg1_indices leg1_data leg1_labels leg1_index = VOk l) /\
  (csr_wf 2 leg2_indptr leg2_indices leg2_data /\ length leg2_labels = 2 /\
   (forall i, In i leg2_index -> i < 2) /\ In 5%Z leg2_labels /\
   vote_update legacy_kernel leg2_indptr leg2_indices leg2_data leg2_labels leg2_index = VOOB At_votes /\
   exists l, vote_update repaired_kernel leg2_indptr leg2_indices leg2_data leg2_labels leg2_index = VOk l).
Proof.
  split.
  - split; [apply csr_wf_b_sound; reflexivity|]. split; [reflexivity|].
    split; [intros i [<-|[]]; lia|]. split; [simpl; lia|]. split; [vm_compute; reflexivity|].
    eexists. vm_compute. reflexivity.
  - split; [apply csr_wf_b_sound; reflexivity|]. split; [reflexivity|].
    split; [intros i [<-|[]]; lia|]. split; [simpl; auto|]. split; [vm_compute; reflexivity|].
    eexists. vm_compute. reflexivity.
Qed.
Print Assumptions vote_legacy_oob_refuted.

(** * 3. minheap.pyx / core.pyx

    [hinv n h]: both vectors have SIZE n (resize(n)), size <= n, every stored entry < n. It holds after
    __cinit__ and is preserved by every operation, none of which goes out of bounds. *)
Theorem minheap_init_inv n : hinv n (cheap_resize n).
Proof. exact (hinv_resize n). Qed.
Print Assumptions minheap_init_inv.

(** insert_key: fewer than n keys present, key < n (distinctness is not needed for memory safety) *)
Theorem minheap_insert_key_safe_terminates n h k scores :
  hinv n h -> length scores = n -> c_size h < n -> k < n ->
  exists h', cinsert_key h k scores = KOk h' /\ hinv n h' /\ c_size h' = S (c_size h).
Proof. exact (fun Hh Hs => cinsert_key_ok n scores Hs _ h k (conj Hh eq_refl)). Qed.
Print Assumptions minheap_insert_key_safe_terminates.

Theorem minheap_decrease_key_safe_terminates n h i scores :
  hinv n h -> length scores = n -> i < n ->
  exists h', cdecrease_key h i scores = KOk h' /\ hinv n h' /\ c_size h' = c_size h.
Proof. exact (fun Hh Hs => cdecrease_key_ok n scores Hs _ h i (conj Hh eq_refl)). Qed.
Print Assumptions minheap_decrease_key_safe_terminates.

(** min_heapify: [size - i] units of fuel (one per call) suffice — the recursion descends *)
Theorem minheap_min_heapify_safe_terminates n scores :
  length scores = n ->
  forall fuel h i, hinv n h -> i < c_size h -> c_size h - i <= fuel ->
    exists h', cmin_heapify fuel h i scores = KOk h' /\ hinv n h' /\ c_size h' = c_size h.
Proof. exact (fun Hs fuel h i Hh => cmin_heapify_ok n scores Hs _ fuel h i (conj Hh eq_refl)). Qed.
Print Assumptions minheap_min_heapify_safe_terminates.

(** pop_min on a non-empty heap (inner min_heapify fuel: the new heap size) *)
Theorem minheap_pop_min_safe_terminates n h scores :
  hinv n h -> length scores = n -> 1 <= c_size h ->
  exists r h', cpop_min h scores = KOk (r, h') /\ hinv n h' /\ c_size h' = c_size h - 1 /\ r < n.
Proof.
  intros Hh Hs H1.
  destruct (cpop_min_ok n scores Hs _ h (conj Hh eq_refl) H1) as (r & h' & E & [Hh' Hsz] & Hr).
  exists r, h'. auto.
Qed.
Print Assumptions minheap_pop_min_safe_terminates.

Theorem compute_core_safe n indptr indices :
  csr_pat_wf n indptr indices -> ccompute_core cheap_resize indptr indices <> OOB.
Proof. intros H. destruct (ccompute_core_ok n indptr indices H) as (l & -> & _). discriminate. Qed.
Print Assumptions compute_core_safe.

Theorem compute_core_terminates n indptr indices :
  csr_pat_wf n indptr indices -> ccompute_core cheap_resize indptr indices <> OutOfFuel.
Proof. intros H. destruct (ccompute_core_ok n indptr indices H) as (l & -> & _). discriminate. Qed.
Print Assumptions compute_core_terminates.

(** compute_core performs exactly n pops and fills a label vector of length n *)
Theorem compute_core_n_pops n indptr indices :
  csr_pat_wf n indptr indices ->
  exists labels, ccompute_core cheap_resize indptr indices = KOk (labels, n) /\ length labels = n.
Proof. exact (ccompute_core_ok n indptr indices). Qed.
Print Assumptions compute_core_n_pops.

(** [cheap_reserve] (__cinit__ with [reserve(n)]: SIZE 0, capacity n): the first insert_key writes val[0] with size 0;
    compute_core goes out of bounds on every well-formed graph with at least one node. *)
Theorem minheap_reserve_legacy_refuted n k scores : cinsert_key (cheap_reserve n) k scores = OOB.
Proof. exact eq_refl. Qed.
Print Assumptions minheap_reserve_legacy_refuted.

Theorem compute_core_reserve_legacy_refuted n indptr indices :
  csr_pat_wf n indptr indices -> 1 <= n -> ccompute_core cheap_reserve indptr indices = OOB.
Proof.
  intros (Hlen & _) Hn. unfold ccompute_core.
  replace (length indptr - 1) with (S (n - 1)) by lia.
  reflexivity.
Qed.
Print Assumptions compute_core_reserve_legacy_refuted.

(** * 4. get_distances (Model/Bfs.v): the [while 1] loop ends within n + 1 rounds *)
Theorem get_distances_terminates (g : graph) (src : list bool) :
  length src = length g -> bfs g src <> None.
Proof. exact (bfs_never_out_of_fuel g src). Qed.
Print Assumptions get_distances_terminates.

Theorem get_distances_never_out_of_fuel m0 source source_row source_col tf fb :
  get_distances m0 source source_row source_col tf fb <> Err Bfs.OutOfFuel.
Proof. exact (SafetyProofs.get_distances_never_out_of_fuel m0 source source_row source_col tf fb). Qed.
Print Assumptions get_distances_never_out_of_fuel.

(** * 5. diteration.pyx / push.pyx *)

Theorem diteration_safe n indptr indices (data scores fluid : list Q) damping n_iter tol :
  csr_wf n indptr indices data -> length scores = n -> length fluid = n ->
  diteration indptr indices data scores fluid damping n_iter tol <> OOB.
Proof.
  intros H1 H2 H3.
  destruct (diteration_ok n indptr indices data scores fluid damping n_iter tol H1 H2 H3)
    as (st & s & -> & _). discriminate.
Qed.
Print Assumptions diteration_safe.

(** the outer loop is a [for] over range(n_iter): the call returns after at most n_iter sweeps *)
Theorem diteration_terminates n indptr indices (data scores fluid : list Q) damping n_iter tol :
  csr_wf n indptr indices data -> length scores = n -> length fluid = n ->
  exists st s, diteration indptr indices data scores fluid damping n_iter tol = KOk (st, s) /\
               s <= n_iter.
Proof. exact (diteration_ok n indptr indices data scores fluid damping n_iter tol). Qed.
Print Assumptions diteration_terminates.

(** push_pagerank: in bounds for EVERY fuel. Contract: both CSR patterns well-formed, degrees and seeds
    of length n, the argsort answer lists node indices. (Termination of the work-list loop within 2n pops is proved in section 9.4: push_terminates.) *)
Theorem push_pagerank_safe fuel n degrees indptr indices rev_indptr rev_indices (seeds : list Q)
        damping tol argsort :
  csr_pat_wf n indptr indices -> csr_pat_wf n rev_indptr rev_indices ->
  length degrees = n -> length seeds = n ->
  (forall r, Forall (fun v => v < n) (argsort r)) ->
  push_pagerank fuel n degrees indptr indices rev_indptr rev_indices seeds damping tol argsort <> OOB.
Proof.
  intros Hwf Hrev Hdg Hsd Harg. unfold push_pagerank.
  assert (HT : forall l : list Q, Forall (fun _ => True) l) by (intros l; apply Forall_forall; auto).
  destruct (push_init_ok (fun _ => True) (fun _ => True) n rev_indptr rev_indices degrees seeds damping
              Hrev Hdg Hsd (HT _) (fun _ _ _ => I) (fun _ _ _ _ => I) (seq 0 n) (repeat 0%Q n))
    as (res & H1 & Hl1 & _); [|apply repeat_length|apply HT|].
  { intros v Hv. apply in_seq in Hv. lia. }
  rewrite H1. cbn [kbind].
  apply (push_loop_safe n); auto. apply repeat_length.
Qed.
Print Assumptions push_pagerank_safe.

(** * 6. Propagation.fit *)

(** finite n_iter = m: at most m sweeps (fuel m), no out-of-bounds access *)
Theorem propagation_fit_finite_safe_terminates n indptr indices (data : list Q) index labels0 m :
  csr_wf n indptr indices data -> length labels0 = n -> (forall i, In i index -> i < n) ->
  exists labels t, propagation_fit m (Some m) indptr indices data index labels0 = KOk (labels, t) /\
                   t <= m.
Proof.
  intros Hwf Hl Hidx. unfold propagation_fit.
  apply (prop_loop_finite (fun l => length l = n)); [|exact Hl|lia|lia].
  intros l Hlen. unfold sweep. apply (vote_update_safe_ok n); auto.
Qed.
Print Assumptions propagation_fit_finite_safe_terminates.

(** default n_iter (= inf): a valid weighted directed graph with two seeds on which the sweep of the
    CURRENT kernel alternates between two labellings, so that the loop exhausts every fuel. *)
Theorem propagation_oscillation_refuted :
  csr_wf 5 osc_indptr osc_indices osc_data /\ length osc_labels0 = 5 /\
  (forall i, In i osc_index -> i < 5) /\
  osc_S osc_labels0 = VOk osc_l1 /\
  osc_S osc_l1 = VOk osc_l2 /\ osc_S osc_l2 = VOk osc_l1 /\ osc_l2 <> osc_l1 /\
  forall fuel, propagation_fit fuel None osc_indptr osc_indices osc_data osc_index osc_labels0 = OutOfFuel.
Proof.
  split; [apply csr_wf_b_sound; reflexivity|]. split; [reflexivity|].
  split; [intros i Hi; simpl in Hi; lia|].
  split; [exact osc_S0|]. split; [exact osc_S1|]. split; [exact osc_S2|].
  split; [discriminate|].
  intros fuel. unfold propagation_fit. fold osc_S.
  rewrite (prop_loop_moves _ osc_index _ _ (map (fun _ => 0%Z) osc_index) osc_S0 eq_refl).
  destruct fuel as [|f]; [reflexivity|].
  rewrite (prop_loop_moves _ osc_index _ _ (take osc_labels0 osc_index) osc_S1 eq_refl).
  destruct f as [|f]; [reflexivity|].
  apply (prop_loop_two_cycle osc_S osc_index osc_l1 osc_l2 osc_S1 osc_S2); reflexivity.
Qed.
Print Assumptions propagation_oscillation_refuted.

(** * 7. louvain_core.pyx: optimize_core — accesses in range for EVERY fuel.
    Contract of the caller (Louvain._optimize): labels are node indices, all per-node / per-cluster arrays
    have n entries. (Termination of [while not stop] for tol > 0 is proved in section 8: optimize_core_flat_terminates.) *)
Theorem optimize_core_safe fuel n labels indices indptr
        (data out_weights in_weights out_cluster_weights in_cluster_weights cluster_weights self_loops : list Q)
        res tol :
  csr_wf n indptr indices data -> length labels = n -> Forall (fun l => l < n) labels ->
  length out_weights = n -> length in_weights = n -> length out_cluster_weights = n ->
  length in_cluster_weights = n -> length cluster_weights = n -> length self_loops = n ->
  optimize_core fuel labels indices indptr data out_weights in_weights out_cluster_weights
                in_cluster_weights cluster_weights self_loops res tol <> OOB.
Proof.
  intros Hwf HL HF How Hiw Hocw Hicw Hcw Hsl. unfold optimize_core. rewrite HL.
  apply (lv_loop_safe n); auto. unfold linv; cbn [l_labels l_ocw l_icw l_cw]. auto.
Qed.
Print Assumptions optimize_core_safe.

(** * Non-vacuity of sections 1-7 *)

(** DAG of the triangle {0,1,2} with a pendant edge 2 -> 3: well-formed, one triangle *)
Example tri_example :
  csr_pat_wf 4 [0; 2; 3; 4; 4] [1; 2; 2; 3] /\
  count_triangles_flat [0; 2; 3; 4; 4] [1; 2; 2; 3] = KOk 1.
Proof. split; [apply csr_pat_wf_b_sound; reflexivity | vm_compute; reflexivity]. Qed.

(** undirected triangle {0,1,2} plus the edge 2 - 3: core numbers 2,2,2,1 after 4 pops;
    the heap of [cheap_reserve] goes out of bounds on the same input *)
Example core_example :
  csr_pat_wf 4 [0; 2; 4; 7; 8] [1; 2; 0; 2; 0; 1; 3; 2] /\
  ccompute_core cheap_resize [0; 2; 4; 7; 8] [1; 2; 0; 2; 0; 1; 3; 2] = KOk ([2; 2; 2; 1]%Z, 4) /\
  ccompute_core cheap_reserve [0; 2; 4; 7; 8] [1; 2; 0; 2; 0; 1; 3; 2] = OOB.
Proof.
  split; [apply csr_pat_wf_b_sound; reflexivity|]. split; vm_compute; reflexivity.
Qed.

(** a too small fuel is reported as OutOfFuel, not as a result: the distinction is not vacuous *)
Example fuel_example :
  ccore_loop 1 [0; 1; 2] [1; 0] [1; 1]%Z
             {| c_val := [0; 1]; c_pos := [0; 1]; c_size := 2; c_cap := 2 |} 0%Z [0; 0]%Z 0 = OutOfFuel /\
  rd [1; 2; 3] 3 = @OOB nat.
Proof. split; vm_compute; reflexivity. Qed.

(** the oscillating input with n_iter = 7 returns after exactly 7 sweeps *)
Example propagation_example :
  propagation_fit 7 (Some 7) osc_indptr osc_indices osc_data osc_index osc_labels0
  = KOk ([0; 1; 0; 1; 0]%Z, 7).
Proof. vm_compute. reflexivity. Qed.

Example diteration_example :
  csr_wf 4 [0; 2; 4; 7; 8] [1; 2; 0; 2; 0; 1; 3; 2] [1; 1; 1; 1; 1; 1; 1; 1]%Q /\
  exists st, diteration [0; 2; 4; 7; 8] [1; 2; 0; 2; 0; 1; 3; 2] [1; 1; 1; 1; 1; 1; 1; 1]%Q
                        [0; 0; 0; 0]%Q [1; 0; 0; 0]%Q (1 # 2)%Q 3 0%Q = KOk (st, 1).
Proof. split; [apply csr_wf_b_sound; reflexivity | eexists; vm_compute; reflexivity]. Qed.

(** optimize_core on the triangle {0,1,2} plus the edge 2 - 3 (weights normalised to total 1):
    two passes, labels [1,1,3,3], increase 9/32 = 0.28125 — the value the compiled kernel returns *)
Example optimize_core_example :
  match optimize_core 5 [0; 1; 2; 3] [1; 2; 0; 2; 0; 1; 3; 2] [0; 2; 4; 7; 8]
              [1 # 8; 1 # 8; 1 # 8; 1 # 8; 1 # 8; 1 # 8; 1 # 8; 1 # 8]%Q
              [2 # 8; 2 # 8; 3 # 8; 1 # 8]%Q [2 # 8; 2 # 8; 3 # 8; 1 # 8]%Q
              [2 # 8; 2 # 8; 3 # 8; 1 # 8]%Q [2 # 8; 2 # 8; 3 # 8; 1 # 8]%Q
              [0; 0; 0; 0]%Q [0; 0; 0; 0]%Q 1%Q (1 # 1000)%Q with
  | KOk (labels, increase, passes) =>
      labels = [1; 1; 3; 3] /\ Qeq_bool increase (9 # 32)%Q = true /\ passes = 2
  | _ => False
  end.
Proof. vm_compute. auto. Qed.

(** * 8. louvain_core.pyx: optimize_core terminates for tol > 0 (Proofs/LouvainFlatTermination.v)

    The flat model SIMULATES the exact-rational model of Model/Louvain.v (the one Props/C06.v is about):
    same labels, same decisions, arrays equal as rationals. [csr_graph n indptr indices data] is the
    weighted graph denoted by the CSR arrays; [objective] is the quantity the kernel optimises,
    sum_ij (A_ij - res * out_i * in_j) delta(l_i, l_j); [csum g labels w c] = sum of w over the nodes labelled c.
    Contract of the caller (Louvain._optimize / Leiden._optimize): the adjacency is symmetric (A + A^T),
    self_loops is its diagonal, labels < n, out/in_cluster_weights are the per-label sums of the node
    weights, cluster_weights is zero. *)
From SKN Require Import Model.Modularity Model.Louvain Proofs.ModularityProofs Proofs.LouvainProofs Proofs.LouvainTermination Proofs.LouvainFlatTermination.

(** Whenever the pass loop of Model/Louvain.v returns within [fuel] passes, so does the flat kernel, with
    the same labels and the same total increase. *)
Theorem optimize_core_flat_refines fuel n labels indices indptr
        (data out_weights in_weights out_cluster_weights in_cluster_weights cluster_weights self_loops : list Q)
        res tol st' inc' :
  csr_wf n indptr indices data ->
  length labels = n -> Forall (fun l => l < n) labels ->
  length out_weights = n -> length in_weights = n -> length out_cluster_weights = n ->
  length in_cluster_weights = n -> length cluster_weights = n -> length self_loops = n ->
  opt_loop fuel (csr_graph n indptr indices data) out_weights in_weights self_loops res tol
           {| k_labels := labels; k_out_cw := out_cluster_weights; k_in_cw := in_cluster_weights;
              k_cw := cluster_weights; k_inc_pass := 0%Q; k_margin := marg0 |} 0%Q = Some (st', inc') ->
  exists increase passes,
    optimize_core fuel labels indices indptr data out_weights in_weights out_cluster_weights
                  in_cluster_weights cluster_weights self_loops res tol
    = KOk (k_labels st', increase, passes) /\ (increase == inc')%Q.
Proof.
  exact (LouvainFlatTermination.optimize_core_flat_refines fuel n labels indices indptr data out_weights
           in_weights out_cluster_weights in_cluster_weights cluster_weights self_loops res tol st' inc').
Qed.
Print Assumptions optimize_core_flat_refines.

(** tol > 0, B any upper bound of the objective (e.g. [objective_bound], or 1 after _pre_processing of a
    non-negative matrix with resolution >= 0, Props/C06.v): [pass_fuel B q0 tol] = ceil((B - q0) / tol) + 1
    passes suffice — the kernel returns (neither OutOfFuel nor OOB). *)
Theorem optimize_core_flat_terminates fuel n labels indices indptr
        (data out_weights in_weights out_cluster_weights in_cluster_weights cluster_weights self_loops : list Q)
        res tol B :
  csr_wf n indptr indices data ->
  let g := csr_graph n indptr indices data in
  wsymmetric g ->
  (forall i, i < n -> (nthq self_loops i == entry g i i)%Q) ->
  length labels = n -> Forall (fun l => l < n) labels ->
  length out_weights = n -> length in_weights = n -> length out_cluster_weights = n ->
  length in_cluster_weights = n -> length cluster_weights = n -> length self_loops = n ->
  (forall c, c < n -> (nthq out_cluster_weights c == csum g labels out_weights c)%Q) ->
  (forall c, c < n -> (nthq in_cluster_weights c == csum g labels in_weights c)%Q) ->
  (forall c, c < n -> (nthq cluster_weights c == 0)%Q) ->
  (0 < tol)%Q -> (forall l, (objective g out_weights in_weights res l <= B)%Q) ->
  pass_fuel B (objective g out_weights in_weights res labels) tol <= fuel ->
  exists labels' increase passes,
    optimize_core fuel labels indices indptr data out_weights in_weights out_cluster_weights
                  in_cluster_weights cluster_weights self_loops res tol
    = KOk (labels', increase, passes).
Proof.
  exact (optimize_core_flat_terminates_ok fuel n labels indices indptr data out_weights in_weights
           out_cluster_weights in_cluster_weights cluster_weights self_loops res tol B).
Qed.
Print Assumptions optimize_core_flat_terminates.

(** Louvain._optimize's call (labels = arange(n), cluster weights = copies of the node weights,
    cluster_weights = zeros(n)) with the fuel computed from the inputs. *)
Theorem optimize_core_flat_louvain_terminates fuel n indices indptr
        (data out_weights in_weights self_loops : list Q) res tol :
  csr_wf n indptr indices data ->
  let g := csr_graph n indptr indices data in
  wsymmetric g ->
  (forall i, i < n -> (nthq self_loops i == entry g i i)%Q) ->
  length out_weights = n -> length in_weights = n -> length self_loops = n ->
  (0 < tol)%Q ->
  pass_fuel (objective_bound g out_weights in_weights res)
            (objective g out_weights in_weights res (seq 0 n)) tol <= fuel ->
  optimize_core fuel (seq 0 n) indices indptr data out_weights in_weights out_weights in_weights
                (repeat 0%Q n) self_loops res tol <> OutOfFuel.
Proof.
  exact (optimize_core_flat_louvain_terminates_ok fuel n indices indptr data out_weights in_weights
           self_loops res tol).
Qed.
Print Assumptions optimize_core_flat_louvain_terminates.

(** Non-vacuity: the input of [optimize_core_example] meets the contract; with tol = 1/100 the computed
    fuel is 111 passes (130 with the bound B = 1). *)
Example optimize_core_terminates_example :
  let indptr := [0; 2; 4; 7; 8] in
  let indices := [1; 2; 0; 2; 0; 1; 3; 2] in
  let data := [1 # 8; 1 # 8; 1 # 8; 1 # 8; 1 # 8; 1 # 8; 1 # 8; 1 # 8]%Q in
  let w := [2 # 8; 2 # 8; 3 # 8; 1 # 8]%Q in
  let g := csr_graph 4 indptr indices data in
  csr_wf 4 indptr indices data /\ wsymmetric g /\
  (forall i, i < 4 -> (nthq (repeat 0%Q 4) i == entry g i i)%Q) /\
  pass_fuel (objective_bound g w w 1%Q) (objective g w w 1%Q (seq 0 4)) (1 # 100)%Q = 111 /\
  pass_fuel 1%Q (objective g w w 1%Q (seq 0 4)) (1 # 100)%Q = 130 /\
  exists increase, optimize_core 111 (seq 0 4) indices indptr data w w w w (repeat 0%Q 4) (repeat 0%Q 4)
                                 1%Q (1 # 100)%Q = KOk ([1; 1; 3; 3], increase, 2).
Proof.
  cbv zeta. split; [apply csr_wf_b_sound; reflexivity|].
  split; [apply wsymmetricb_ok; vm_compute; reflexivity|].
  split.
  - intros i Hi. do 4 (destruct i as [|i]; [vm_compute; reflexivity|]). lia.
  - split; [vm_compute; reflexivity|]. split; [vm_compute; reflexivity|].
    eexists. vm_compute. reflexivity.
Qed.

(** * 9. Further kernels: weisfeiler_lehman_core, betweenness, leiden_core, push (termination), paris
    (Model/Safety2.v, Proofs/Safety2Proofs.v): conventions of Model/Safety.v — every
    access through [rd] / [wr] ([OOB] outside the buffer), every [while] loop fuelled ([OutOfFuel]). *)
From SKN Require Import Model.Safety2 Proofs.Safety2Proofs.
Set Warnings "-notation-overridden".

(** ** 9.1 weisfeiler_lehman_core.pyx: weisfeiler_lehman_coloring

    [sort] stands for std::sort ([sort_contract]: same length, every element an element of the input — any
    permutation qualifies). Contract of the callers (color_weisfeiler_lehman, are_isomorphic): [labels] has
    n entries which index [powers] (zeros, or the output of a previous call), [powers] has >= n entries,
    and [max_iter <= n], so max_iter = 0 on a graph without nodes. In bounds for EVERY fuel. *)
Theorem wl_kernel_safe fuel sort n indptr indices labels (powers : list Q) max_iter :
  csr_pat_wf n indptr indices -> length labels = n -> n <= length powers ->
  Forall (fun l => l < length powers) labels -> sort_contract sort -> (max_iter = 0 \/ 1 <= n) ->
  wl_kernel fuel sort indptr indices labels powers max_iter <> OOB.
Proof.
  intros Hwf HL Hp HF Hsort Hn. unfold wl_kernel. pose proof Hwf as (Hlen & _).
  replace (length indptr - 1) with n by lia.
  destruct (wl_loop_ok n (length powers) indptr indices powers Hwf eq_refl Hp sort wl_eps max_iter Hsort Hn
              fuel 0 labels true (conj HL HF) ltac:(lia)) as [[E _]|(l' & c & it & E & _)]; rewrite E; discriminate.
Qed.
Print Assumptions wl_kernel_safe.

(** the [while iteration < max_iter and has_changed] loop runs at most max_iter rounds (fuel max_iter) and
    hands back n labels that still index [powers] (so the next call of are_isomorphic is in contract) *)
Theorem wl_kernel_terminates sort n indptr indices labels (powers : list Q) max_iter :
  csr_pat_wf n indptr indices -> length labels = n -> n <= length powers ->
  Forall (fun l => l < length powers) labels -> sort_contract sort -> (max_iter = 0 \/ 1 <= n) ->
  exists labels' changed rounds,
    wl_kernel max_iter sort indptr indices labels powers max_iter = KOk (labels', changed, rounds) /\
    rounds <= max_iter /\ length labels' = n /\ Forall (fun l => l < length powers) labels'.
Proof.
  intros Hwf HL Hp HF Hsort Hn. unfold wl_kernel. pose proof Hwf as (Hlen & _).
  replace (length indptr - 1) with n by lia.
  destruct (wl_loop_ok n (length powers) indptr indices powers Hwf eq_refl Hp sort wl_eps max_iter Hsort Hn
              max_iter 0 labels true (conj HL HF) ltac:(lia)) as [[_ Hlt]|H]; [lia|exact H].
Qed.
Print Assumptions wl_kernel_terminates.

(** Outside that contract (not reachable through the public functions, which clamp max_iter to n): the
    kernel called on a graph without nodes with max_iter >= 1 reads [new_labels[0]] of an empty vector. *)
Theorem wl_kernel_no_node_direct_call_refuted fuel sort max_iter :
  sort_contract sort -> wl_kernel (S fuel) sort [0] [] [] [] (S max_iter) = OOB.
Proof.
  intros Hsort. unfold wl_kernel. cbn [length Nat.sub wl_loop Nat.ltb Nat.leb andb].
  unfold wl_round. cbn [seq wl_collect kbind].
  destruct (Hsort []) as [Hl _]. destruct (sort []) as [|x t]; [reflexivity|discriminate].
Qed.
Print Assumptions wl_kernel_no_node_direct_call_refuted.

(** ** 9.2 betweenness.pyx: Betweenness.fit (Brandes)

    [br_sources f (seq 0 n) n indptr indices scores []] is the loop over all sources with BFS fuel f per
    source. For EVERY f no access to indptr / indices / dists / sigma / preds / delta / scores is out of
    range, the queue is read only when non-empty and the stack popped only when non-empty. *)
Theorem brandes_safe bfs_fuel n indptr indices scores :
  csr_pat_wf n indptr indices -> length scores = n ->
  br_sources bfs_fuel (seq 0 n) n indptr indices scores [] <> OOB.
Proof.
  intros Hwf Hsc.
  destruct (br_sources_ok n indptr indices Hwf bfs_fuel n (seq 0 n) scores [])
    as [[E _] | (s' & l' & E & _)]; auto; try (rewrite E; discriminate).
  - intros s Hs. apply in_seq in Hs. lia.
  - apply seq_length.
Qed.
Print Assumptions brandes_safe.

(** [brandes_flat] gives every BFS n units of fuel. It returns; the log holds one pair per source:
    (pops of the BFS queue, pops of the [seen] stack): at most n (each node is enqueued at most once), and
    the back-propagation pops every seen node exactly once. *)
Theorem brandes_terminates n indptr indices :
  csr_pat_wf n indptr indices ->
  exists scores log, brandes_flat indptr indices = KOk (scores, log) /\ length scores = n /\
                     length log = n /\ Forall (fun pq => fst pq <= n /\ snd pq = fst pq) log.
Proof.
  intros Hwf. unfold brandes_flat. pose proof Hwf as (Hlen & _).
  replace (length indptr - 1) with n by lia.
  destruct (br_sources_ok n indptr indices Hwf n n (seq 0 n) (repeat 0%Q n) []) as [[_ Hlt] | H];
    [intros s Hs; apply in_seq in Hs; lia | apply repeat_length | constructor | apply seq_length | lia | exact H].
Qed.
Print Assumptions brandes_terminates.

(** ** 9.3 leiden_core.pyx: optimize_refine_core — in bounds for EVERY fuel and EVERY stream [rnd] of
    rand() values. Contract of Leiden._optimize_refine: labels, labels_refined and the per-node arrays have
    n entries, the three cluster arrays m entries, refined labels < m (there m = n). *)
Theorem leiden_refine_safe fuel rnd n m labels labels_refined indices indptr
        (data out_weights in_weights out_cluster_weights in_cluster_weights cluster_weights self_loops : list Q)
        res :
  csr_wf n indptr indices data -> length labels = n -> length labels_refined = n ->
  Forall (fun l => l < m) labels_refined ->
  length out_weights = n -> length in_weights = n -> length out_cluster_weights = m ->
  length in_cluster_weights = m -> length cluster_weights = m -> length self_loops = n ->
  optimize_refine_core fuel rnd labels labels_refined indices indptr data out_weights in_weights
                       out_cluster_weights in_cluster_weights cluster_weights self_loops res <> OOB.
Proof.
  intros Hwf HL HLR HF How Hiw Hocw Hicw Hcw Hsl. unfold optimize_refine_core. rewrite HL.
  apply (ld_loop_safe n m); auto. unfold rinv; cbn [r_lr r_ocw r_icw r_cw]. auto.
Qed.
Print Assumptions leiden_refine_safe.

(** ** 9.4 push.pyx: the work-list loop of push_pagerank terminates (section 5 proves it in bounds for every fuel)

    [residuals] is never reset and every increment is >= 0, so residuals only grow; a node is pushed only
    when its residual crosses tol upwards ([residuals[neighbor] > tol > tmp]) and it stays above afterwards:
    after the n entries of the argsort answer every node enters the queue at most once. [push_fuel n = 2 n]
    pops suffice. Contract: 0 <= damping <= 1, seeds >= -1 (the caller passes a probability vector), the
    argsort answer lists at most n node indices. *)
Theorem push_terminates fuel n degrees indptr indices rev_indptr rev_indices (seeds : list Q)
        damping tol argsort :
  csr_pat_wf n indptr indices -> csr_pat_wf n rev_indptr rev_indices ->
  length degrees = n -> length seeds = n ->
  (0 <= damping)%Q -> (damping <= 1)%Q -> Forall (fun s => (- (1) <= s)%Q) seeds ->
  (forall r, Forall (fun v => v < n) (argsort r)) -> (forall r, length (argsort r) <= length r) ->
  push_fuel n <= fuel ->
  exists scores,
    push_pagerank fuel n degrees indptr indices rev_indptr rev_indices seeds damping tol argsort = KOk scores /\
    length scores = n.
Proof.
  intros Hwf Hrev Hdg Hsd Hd0 Hd1 Hseeds Harg Hargl Hf. unfold push_pagerank.
  destruct (push_init_nn n rev_indptr rev_indices degrees seeds damping Hrev Hdg Hsd Hd0 Hd1 Hseeds)
    as (res & H1 & Hl1 & Hn1).
  rewrite H1. cbn [kbind].
  apply (push_loop_terminates n indptr indices degrees damping tol Hwf Hdg Hd1); auto.
  - apply repeat_length.
  - pose proof (Hargl res). pose proof (lows_le_length tol res). unfold push_fuel in Hf. lia.
Qed.
Print Assumptions push_terminates.

(** ** 9.5 leiden_core.pyx: the [while increase] loop of optimize_refine_core terminates (exact arithmetic)

    [objective g out_weights in_weights res lr] = sum_ij (A_ij - res out_i in_j) delta(lr_i, lr_j), g the
    graph denoted by the CSR arrays. Contract of Leiden._optimize_refine: the adjacency is symmetric
    (A + A^T), self_loops its diagonal, the cluster arrays are the per-refined-label sums of the node
    weights, cluster_weights is zero, and no refined cluster straddles two clusters of [labels]
    (labels_refined = arange(n) there). Under that invariant — which every move preserves — every accepted
    move ([delta_local > 0]) strictly increases the objective, so a pass that sets [increase] does; the
    objective takes at most m^n values: m^n + 1 passes suffice for EVERY stream [rnd] of rand() values.
    Like [optimize_core] with tol = 0 this is about exact rationals (in float32 a gain can be rounding
    noise); the bound is only meant as a statement. *)
Theorem leiden_refine_terminates fuel rnd n m labels labels_refined indices indptr
        (data out_weights in_weights out_cluster_weights in_cluster_weights cluster_weights self_loops : list Q)
        res :
  csr_wf n indptr indices data ->
  let g := csr_graph n indptr indices data in
  wsymmetric g ->
  (forall i, i < n -> (nthq self_loops i == entry g i i)%Q) ->
  length labels = n -> length labels_refined = n -> Forall (fun l => l < m) labels_refined ->
  length out_weights = n -> length in_weights = n -> length out_cluster_weights = m ->
  length in_cluster_weights = m -> length cluster_weights = m -> length self_loops = n ->
  (forall c, c < m -> (nthq out_cluster_weights c == csum g labels_refined out_weights c)%Q) ->
  (forall c, c < m -> (nthq in_cluster_weights c == csum g labels_refined in_weights c)%Q) ->
  (forall c, c < m -> (nthq cluster_weights c == 0)%Q) ->
  (forall x y, x < n -> y < n -> lab labels_refined x = lab labels_refined y -> lab labels x = lab labels y) ->
  S (m ^ n) <= fuel ->
  exists lr' passes,
    optimize_refine_core fuel rnd labels labels_refined indices indptr data out_weights in_weights
                         out_cluster_weights in_cluster_weights cluster_weights self_loops res
    = KOk (lr', passes) /\
    passes <= S (m ^ n) /\ length lr' = n /\ Forall (fun l => l < m) lr' /\
    (forall x y, x < n -> y < n -> lab lr' x = lab lr' y -> lab labels x = lab labels y) /\
    (objective g out_weights in_weights res labels_refined <= objective g out_weights in_weights res lr')%Q.
Proof.
  intros Hcsr g Hsym Hdiag HL HLR HF How Hiw Hocw Hicw Hcw Hsl Co Ci Cz Href Hf.
  unfold optimize_refine_core. rewrite HL.
  apply (ld_loop_terminates_pow n m indptr indices data out_weights in_weights self_loops labels res rnd
           Hcsr HL How Hiw Hsl Hsym Hdiag); [|exact Hf].
  constructor; cbn [r_lr r_ocw r_icw r_cw]; auto. unfold rinv; cbn [r_lr r_ocw r_icw r_cw]. auto.
Qed.
Print Assumptions leiden_refine_terminates.

(** leiden_core.pyx carries its own generator ([Safety2.leiden_draw]: state 1 on entry,
    draw*1103515245+12345 modulo 2^32, value draw >> 16): the instance of the theorem above for that stream - this is the
    term the correspondence run evaluates against the compiled kernel. *)
Theorem leiden_refine_terminates_coded_generator fuel n m labels labels_refined indices indptr
        (data out_weights in_weights out_cluster_weights in_cluster_weights cluster_weights self_loops : list Q)
        res :
  csr_wf n indptr indices data ->
  let g := csr_graph n indptr indices data in
  wsymmetric g ->
  (forall i, i < n -> (nthq self_loops i == entry g i i)%Q) ->
  length labels = n -> length labels_refined = n -> Forall (fun l => l < m) labels_refined ->
  length out_weights = n -> length in_weights = n -> length out_cluster_weights = m ->
  length in_cluster_weights = m -> length cluster_weights = m -> length self_loops = n ->
  (forall c, c < m -> (nthq out_cluster_weights c == csum g labels_refined out_weights c)%Q) ->
  (forall c, c < m -> (nthq in_cluster_weights c == csum g labels_refined in_weights c)%Q) ->
  (forall c, c < m -> (nthq cluster_weights c == 0)%Q) ->
  (forall x y, x < n -> y < n -> lab labels_refined x = lab labels_refined y -> lab labels x = lab labels y) ->
  S (m ^ n) <= fuel ->
  exists lr' passes,
    optimize_refine_core fuel Safety2.leiden_draw labels labels_refined indices indptr data out_weights in_weights
                         out_cluster_weights in_cluster_weights cluster_weights self_loops res
    = KOk (lr', passes) /\
    passes <= S (m ^ n) /\ length lr' = n /\ Forall (fun l => l < m) lr' /\
    (forall x y, x < n -> y < n -> lab lr' x = lab lr' y -> lab labels x = lab labels y) /\
    (objective g out_weights in_weights res labels_refined <= objective g out_weights in_weights res lr')%Q.
Proof.
  exact (leiden_refine_terminates fuel Safety2.leiden_draw n m labels labels_refined indices indptr data out_weights
           in_weights out_cluster_weights in_cluster_weights cluster_weights self_loops res).
Qed.
Print Assumptions leiden_refine_terminates_coded_generator.

(** the call made by Leiden._optimize_refine (labels_refined = arange(n), cluster weights = node weights,
    cluster_weights = zeros(n)): returns, and the result refines [labels] *)
Theorem leiden_refine_call_terminates fuel rnd n labels indices indptr
        (data out_weights in_weights self_loops : list Q) res :
  csr_wf n indptr indices data ->
  let g := csr_graph n indptr indices data in
  wsymmetric g ->
  (forall i, i < n -> (nthq self_loops i == entry g i i)%Q) ->
  length labels = n -> length out_weights = n -> length in_weights = n -> length self_loops = n ->
  S (n ^ n) <= fuel ->
  exists lr' passes,
    optimize_refine_core fuel rnd labels (seq 0 n) indices indptr data out_weights in_weights
                         out_weights in_weights (repeat 0%Q n) self_loops res = KOk (lr', passes) /\
    passes <= S (n ^ n) /\
    (forall x y, x < n -> y < n -> lab lr' x = lab lr' y -> lab labels x = lab labels y).
Proof.
  intros Hcsr g Hsym Hdiag HL How Hiw Hsl Hf.
  assert (Hg : length g = n) by apply csr_graph_length.
  destruct (leiden_refine_terminates fuel rnd n n labels (seq 0 n) indices indptr data out_weights in_weights
              out_weights in_weights (repeat 0%Q n) self_loops res Hcsr Hsym Hdiag HL)
    as (lr' & p & E & Hp & _ & _ & Hr & _); auto.
  - apply seq_length.
  - apply Forall_forall. intros x Hx. apply in_seq in Hx. lia.
  - apply repeat_length.
  - intros c Hc. pose proof (csum_singletons g out_weights c) as Hs. rewrite Hg in Hs. apply Hs. exact Hc.
  - intros c Hc. pose proof (csum_singletons g in_weights c) as Hs. rewrite Hg in Hs. apply Hs. exact Hc.
  - intros c Hc. rewrite nthq_repeat by exact Hc. reflexivity.
  - intros x y Hx Hy. rewrite !lab_seq by assumption. intros ->. reflexivity.
  - exists lr', p. auto.
Qed.
Print Assumptions leiden_refine_call_terminates.

(** ** Non-vacuity of section 9 *)

(** the identity satisfies the contract asked of std::sort *)
Example sort_contract_id : sort_contract (fun l => l).
Proof. intros l. split; [reflexivity | auto]. Qed.

(** the path 0 - 2 - 1 (centre 2) with powers [1, 2, 4] and the identity as sort (on this input the tuples
    are produced in sorted order): two rounds, colours [0, 0, 1] — what color_weisfeiler_lehman returns;
    with max_iter = 1 the loop stops after one round; a fuel below max_iter is reported as OutOfFuel *)
Example wl_example :
  csr_pat_wf 3 [0; 1; 2; 4] [2; 2; 0; 1] /\
  wl_kernel 3 (fun l => l) [0; 1; 2; 4] [2; 2; 0; 1] [0; 0; 0] [1; 2; 4]%Q 3 = KOk ([0; 0; 1], false, 2) /\
  wl_kernel 1 (fun l => l) [0; 1; 2; 4] [2; 2; 0; 1] [0; 0; 0] [1; 2; 4]%Q 1 = KOk ([0; 0; 1], true, 1) /\
  wl_kernel 1 (fun l => l) [0; 1; 2; 4] [2; 2; 0; 1] [0; 0; 0] [1; 2; 4]%Q 3 = OutOfFuel.
Proof. split; [apply csr_pat_wf_b_sound; reflexivity|]. repeat split; vm_compute; reflexivity. Qed.

(** path 0 - 1 - 2: node 1 lies on the two shortest paths 0 -> 2 and 2 -> 0 (score 2 before the halving);
    every BFS pops the three nodes; with BFS fuel 2 the model reports OutOfFuel *)
Example brandes_example :
  csr_pat_wf 3 [0; 1; 3; 4] [1; 0; 2; 1] /\
  brandes_flat [0; 1; 3; 4] [1; 0; 2; 1] = KOk ([0; 2; 0]%Q, [(3, 3); (3, 3); (3, 3)]) /\
  br_sources 2 (seq 0 3) 3 [0; 1; 3; 4] [1; 0; 2; 1] (repeat 0%Q 3) [] = OutOfFuel.
Proof. split; [apply csr_pat_wf_b_sound; reflexivity|]. split; vm_compute; reflexivity. Qed.

(** the refinement kernel on the triangle {0,1,2} plus the edge 2 - 3 of [optimize_core_example], coarse
    labels [0,0,1,1] (so that nodes 0, 1 may only join each other, and 2, 3 each other), rand() = 0, 1, 2, ...:
    two passes; the contract of [leiden_refine_call_terminates] holds *)
Example leiden_refine_example :
  let indptr := [0; 2; 4; 7; 8] in
  let indices := [1; 2; 0; 2; 0; 1; 3; 2] in
  let data := [1 # 8; 1 # 8; 1 # 8; 1 # 8; 1 # 8; 1 # 8; 1 # 8; 1 # 8]%Q in
  let w := [2 # 8; 2 # 8; 3 # 8; 1 # 8]%Q in
  let g := csr_graph 4 indptr indices data in
  csr_wf 4 indptr indices data /\ wsymmetric g /\
  (forall i, i < 4 -> (nthq (repeat 0%Q 4) i == entry g i i)%Q) /\
  optimize_refine_core 5 (fun k => k) [0; 0; 1; 1] (seq 0 4) indices indptr data w w w w (repeat 0%Q 4)
                       (repeat 0%Q 4) 1%Q = KOk ([1; 1; 3; 3], 2) /\
  optimize_refine_core 1 (fun k => k) [0; 0; 1; 1] (seq 0 4) indices indptr data w w w w (repeat 0%Q 4)
                       (repeat 0%Q 4) 1%Q = OutOfFuel.
Proof.
  cbv zeta. split; [apply csr_wf_b_sound; reflexivity|].
  split; [apply wsymmetricb_ok; vm_compute; reflexivity|].
  split.
  - intros i Hi. do 4 (destruct i as [|i]; [vm_compute; reflexivity|]). lia.
  - split; vm_compute; reflexivity.
Qed.

(** push_pagerank on the directed 3-cycle with damping 1/2, tol 1/10, uniform seeds: 3 pops (nobody is
    pushed again); fuel 2 is reported as OutOfFuel; [push_fuel 3 = 6] *)
Example push_example :
  csr_pat_wf 3 [0; 1; 2; 3] [1; 2; 0] /\ csr_pat_wf 3 [0; 1; 2; 3] [2; 0; 1] /\ push_fuel 3 = 6 /\
  (exists scores, push_pagerank 3 3 [1; 1; 1] [0; 1; 2; 3] [1; 2; 0] [0; 1; 2; 3] [2; 0; 1]
                                [1 # 3; 1 # 3; 1 # 3]%Q (1 # 2)%Q (1 # 10)%Q (fun _ => [0; 1; 2]) = KOk scores) /\
  push_pagerank 2 3 [1; 1; 1] [0; 1; 2; 3] [1; 2; 0] [0; 1; 2; 3] [2; 0; 1]
                [1 # 3; 1 # 3; 1 # 3]%Q (1 # 2)%Q (1 # 10)%Q (fun _ => [0; 1; 2]) = OutOfFuel.
Proof.
  split; [apply csr_pat_wf_b_sound; reflexivity|]. split; [apply csr_pat_wf_b_sound; reflexivity|].
  split; [reflexivity|]. split; [eexists; vm_compute; reflexivity | vm_compute; reflexivity].
Qed.

(** ** 9.6 paris.pyx (dict-based: Model/Paris.v, Proofs/ParisTotal.v)

    There are no raw buffers: "staying within its buffers" means that no dict lookup raises KeyError
    ([Err KeyError] in the model: [neighbors[node]], [cluster_sizes[node]], the [pop]s of [merge]), that the
    [chain] vector is only read / popped when non-empty and [connected_components[-1]] exists
    ([Err IndexError]), and that the two nested [while] loops end ([None] = out of fuel;
    [paris_fuel n = 3 n + 2] steps of the nearest-neighbour chain). On every admissible input (symmetric
    positive weights, positive node weights, n >= 1; exact arithmetic) the model returns a dendrogram. *)
From SKN Require Import Model.Cuts Model.Paris Proofs.ParisReducible Proofs.ParisTotal.
Set Warnings "-notation-overridden".

Theorem paris_safe (hinf : Q) (n : nat) (G : Paris.entries) (wout win : list Q) :
  1 <= n -> graph_ok n G -> weights_ok n wout -> weights_ok n win ->
  exists D m t, paris_core Paris.exact false hinf n G wout win = Some (Cuts.Ok (D, m, t)).
Proof. exact (ParisTotal.paris_total hinf n G wout win). Qed.
Print Assumptions paris_safe.

(** the chain loop itself: ends normally within 3 n + 2 steps with at least one component recorded
    (so that [connected_components[size - 1]] is a valid read) *)
Theorem paris_chain_terminates (n : nat) (G : Paris.entries) (wout win : list Q) :
  1 <= n -> graph_ok n G -> weights_ok n wout -> weights_ok n win ->
  exists st, paris_run Paris.exact false (paris_fuel n) (paris_init (ag_init Paris.exact n G wout win))
             = Some (Cuts.Ok st) /\ p_comps st <> [].
Proof. exact (ParisTotal.paris_run_total n G wout win). Qed.
Print Assumptions paris_chain_terminates.

Example paris_safe_example : 1 <= 6 /\ graph_ok 6 ex_G /\ weights_ok 6 ex_w /\ paris_fuel 6 = 20.
Proof.
  destruct paris_total_example_hyps as (A & B & C).
  split; [exact A|]. split; [exact B|]. split; [exact C|reflexivity].
Qed.


(** * 10. Paris: the tie rule of the nearest-neighbour scan, extracted from paris.pyx on every run.
    [paris_safe] and [paris_chain_terminates] (section 9.6; Proofs/ParisTotal.v: [paris_total], [paris_run_total]) are
    proved for the EXACT smallest-index tie rule ([elif sim == max_sim:
    nearest_neighbor = min(neighbor, nearest_neighbor)]): a tolerance-based tie is not transitive and depends
    on the scan order, and the chain can then cycle forever. The obligation below breaks if the source's tie
    test is anything else; the termination statement carries the source fact as a visible premise. *)
From SKN Require Import Proofs.ParisC17 Gen.ParisSrc.

Theorem paris_source_tie_exact : paris_src_tie_exact = true.
Proof. reflexivity. Qed.
Print Assumptions paris_source_tie_exact.

Theorem paris_terminates_for_source (n : nat) (G : entries) (wout win : list Q) :
  paris_src_tie_exact = true ->
  1 <= n -> graph_ok n G -> weights_ok n wout -> weights_ok n win ->
  exists st, paris_run exact paris_src_clamp (paris_fuel n) (paris_init (ag_init exact n G wout win)) = Some (Ok st)
             /\ p_comps st <> [].
Proof. exact (ParisC17.paris_terminates_for_source n G wout win). Qed.
Print Assumptions paris_terminates_for_source.


(** * 11. Leiden.fit (leiden.py): the outer [while not stop] loop terminates (Proofs/LeidenProofs.v).
    Sections 9.3 / 9.5 are about the refinement kernel; here the kernel's answer is an oracle [refine] and the
    statement holds for EVERY oracle meeting [refine_contract] (one refined label per node, refined clusters
    are connected subsets of coarse clusters). The node-count argument of Louvain.fit (the aggregate has
    strictly fewer nodes) fails for Leiden — the graph is aggregated by the REFINED partition — so the
    condition is tol_aggregation > 0: an aggregation that does not stop the loop has increase >
    tol_aggregation, the increase is the gain of the objective of the coarse partition on the original
    nodes, and the objective is bounded. Fuels computed from the arguments of fit (exact arithmetic):
      [leiden_kfuel] = ceil((B - Q0) / tol_optimization) + 1 passes per call of optimize_core,
      [leiden_fuel]  = ceil((B - Q0) / tol_aggregation) + 1 aggregations,
    B = sum_ij |A_ij - resolution * out_i * in_j| on the pre-processed input, Q0 = objective(singletons).
    The only error fit can return is ValueError (empty / invalid input). *)
From SKN Require Import Proofs.LeidenProofs.
Set Warnings "-notation-overridden".

Theorem leiden_fit_never_out_of_fuel (refine : nat -> Modularity.wgraph -> list nat -> list nat)
        (fuel kfuel : nat) (kind : Louvain.modkind) (res tol_opt tol_agg : Q) (n_agg : Z)
        (sort_clusters : bool) (m : Modularity.wmat) (fb : bool) (index : option (list nat)) :
  LouvainProofs.refine_contract refine ->
  (0 < tol_opt)%Q -> (0 < tol_agg)%Q ->
  (leiden_kfuel kind res tol_opt m fb index <= kfuel)%nat ->
  (leiden_fuel kind res tol_agg m fb index <= fuel)%nat ->
  Louvain.leiden_fit fuel kfuel kind res tol_opt tol_agg n_agg sort_clusters refine m fb index
  <> Modularity.MErr Modularity.MOutOfFuel.
Proof.
  exact (leiden_fit_never_out_of_fuel_pf refine fuel kfuel kind res tol_opt tol_agg n_agg sort_clusters m fb index).
Qed.
Print Assumptions leiden_fit_never_out_of_fuel.

(** tol_aggregation <= 0 is covered only when n_aggregations >= 1 (the test [count == n_aggregations]) ... *)
Theorem leiden_fit_n_aggregations_never_out_of_fuel_loop
        (refine : nat -> Modularity.wgraph -> list nat -> list nat)
        (fuel kfuel : nat) (kind : Louvain.modkind) (res tol_opt tol_agg : Q) (n_agg : Z)
        (m : Modularity.wmat) (fb : bool) (index : option (list nat)) (p : Louvain.prep) :
  LouvainProofs.refine_contract refine ->
  Louvain.pre_processing kind m fb index = Modularity.MOk p ->
  (0 < tol_opt)%Q -> (1 <= n_agg)%Z ->
  (leiden_kfuel kind res tol_opt m fb index <= kfuel)%nat ->
  (Z.to_nat n_agg <= fuel)%nat ->
  exists r, Louvain.leiden_loop fuel kfuel res tol_opt tol_agg n_agg refine
              (Louvain.p_adj p) (Louvain.p_out p) (Louvain.p_in p)
              (seq 0 (length (Louvain.p_adj p))) (seq 0 (length (Louvain.p_adj p))) 0 [] Louvain.marg0
            = Modularity.MOk r.
Proof. exact (leiden_loop_fit_terminates_n_agg refine fuel kfuel kind res tol_opt tol_agg n_agg m fb index p). Qed.
Print Assumptions leiden_fit_n_aggregations_never_out_of_fuel_loop.

(** ... or, in EXACT arithmetic only, by the finiteness of the set of objective values (n^n + 1
    aggregations, n the number of nodes). PARTIAL: exact-rational model; in float32 an accepted gain can be
    rounding noise (DESIGN.md D32). *)
Theorem leiden_fit_tol_aggregation_0_terminates_partial
        (refine : nat -> Modularity.wgraph -> list nat -> list nat)
        (fuel kfuel : nat) (kind : Louvain.modkind) (res tol_opt tol_agg : Q) (n_agg : Z)
        (m : Modularity.wmat) (fb : bool) (index : option (list nat)) (p : Louvain.prep) :
  LouvainProofs.refine_contract refine ->
  Louvain.pre_processing kind m fb index = Modularity.MOk p ->
  (0 < tol_opt)%Q -> (0 <= tol_agg)%Q ->
  (leiden_kfuel kind res tol_opt m fb index <= kfuel)%nat ->
  (S (length (Louvain.p_adj p) ^ length (Louvain.p_adj p)) <= fuel)%nat ->
  exists r, Louvain.leiden_loop fuel kfuel res tol_opt tol_agg n_agg refine
              (Louvain.p_adj p) (Louvain.p_out p) (Louvain.p_in p)
              (seq 0 (length (Louvain.p_adj p))) (seq 0 (length (Louvain.p_adj p))) 0 [] Louvain.marg0
            = Modularity.MOk r.
Proof. exact (leiden_loop_fit_terminates_tol0_partial refine fuel kfuel kind res tol_opt tol_agg n_agg m fb index p). Qed.
Print Assumptions leiden_fit_tol_aggregation_0_terminates_partial.

(** Non-vacuity: the contract is met by the oracle that refines nothing; on the 5-node house graph with
    tol_optimization = tol_aggregation = 1/100 both computed fuels are 120 and fit returns with them. *)
Example leiden_fit_fuel_example :
  let house := {| Modularity.w_ncol := 5;
                  Modularity.w_rows := [[(1%nat, 1%Q); (4%nat, 1%Q)]; [(0%nat, 1%Q); (2%nat, 1%Q); (4%nat, 1%Q)];
                                        [(1%nat, 1%Q); (3%nat, 1%Q)]; [(2%nat, 1%Q); (4%nat, 1%Q)];
                                        [(0%nat, 1%Q); (1%nat, 1%Q); (3%nat, 1%Q)]] |} in
  LouvainProofs.refine_contract (fun _ g _ => seq 0 (length g)) /\
  leiden_kfuel Louvain.Dugue 1%Q (1 # 100)%Q house false None = 120%nat /\
  leiden_fuel Louvain.Dugue 1%Q (1 # 100)%Q house false None = 120%nat /\
  exists log mg, Louvain.leiden_fit 120 120 Louvain.Dugue 1%Q (1 # 100)%Q (1 # 100)%Q (-1)%Z true
                   (fun _ g _ => seq 0 (length g)) house false None
                 = Modularity.MOk ([0; 0; 1; 1; 0]%nat, log, mg).
Proof.
  intros house. split.
  - intros count g labels Hwf Hlen. split; [apply seq_length|]. split.
    + intros x y Hx Hy E. rewrite !LouvainProofs.lab_seq in E by assumption. subst y. reflexivity.
    + apply LouvainProofs.cc_inv_singletons.
  - split; [vm_compute; reflexivity|]. split; [vm_compute; reflexivity|].
    eexists. eexists. vm_compute. reflexivity.
Qed.
