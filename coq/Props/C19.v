(** C19 — GNN layers compute the documented message passing and consistent gradients.
    Statements of the property, each proved right under it ([exact] of a lemma of Proofs/, or a script over such lemmas;
    the [*_refuted] witnesses of Part I and the source terms of the activations in Part III by evaluation) and followed
    by its [Print Assumptions]; non-vacuity examples.
    Part I (Model/Gnn.v over Q, list, nat: forward pass, sampler, predictions, probabilities) must be closed under the
    global context.  Parts II-IV (over R, Coquelicot) may depend on the standard library's classical axioms for the
    reals: II derivatives of the model's activations and losses; III the same for the terms generated from
    activation.py / loss.py (Gen/NpGnn.v); then the non-vacuity examples of Parts I and II; IV the Convolution
    embedding generated from layer.py (Gen/NpConv.v) and its equivariance. *)
From SKN Require Import Base.Util Model.Gnn Model.NpExpr Gen.NpGnn Proofs.GnnProofs Proofs.GnnCalculus Proofs.NpExprProofs.
Set Warnings "-notation-overridden,-ambiguous-paths".
From Coq Require Import QArith Reals Morphisms Lra.
From Coquelicot Require Import Coquelicot.
Local Open Scope nat_scope.

(* =========================================================================================== *)
(** * Part I — exact rational arithmetic *)

(** Pre-activation signal of Convolution.forward = (N(A) + [self] I) X W + b, entry by entry, for
    left / right / both normalisation (and no normalisation), dense or sparse features, with and without
    self embeddings and bias. N(A) is D^+ A, A D^+, (D^1/2)^+ A (D^1/2)^+ with D the OUT-weights. *)
Theorem forward_embedding_formula (sqrtf : Q -> Q) (L : layer) (A : smat) (F : feats) (i k : nat) :
  wf_smat (length A) A ->
  (l_norm L = NBoth -> Proper (Qeq ==> Qeq) sqrtf) ->
  i < length A -> k < l_out L ->
  (dentry (embedding sqrtf L A F) i k ==
   mmul (f_ncol F) (mmul (length A) (nbar sqrtf (l_norm L) (l_self L) A) (fentry F)) (dentry (l_weight L)) i k
   + (if l_use_bias L then nthq (l_bias L) k else 0))%Q.
Proof. exact (embedding_formula sqrtf L A F i k). Qed.
Print Assumptions forward_embedding_formula.

(** forward = activation(N(A) X W + b), row by row. *)
Theorem forward_formula (sqrtf expf : Q -> Q) (L : layer) (A : smat) (F : feats) :
  wf_smat (length A) A ->
  (l_norm L = NBoth -> Proper (Qeq ==> Qeq) sqrtf) ->
  (uses_exp (l_act L) = true -> Proper (Qeq ==> Qeq) expf) ->
  length (forward sqrtf expf L A F) = length A /\
  forall i, i < length A ->
    Forall2 Qeq (nth i (forward sqrtf expf L A F) [])
                (act_row expf (l_act L) (map (spec_embedding sqrtf L A F i) (seq 0 (l_out L)))).
Proof. exact (GnnProofs.forward_formula sqrtf expf L A F). Qed.
Print Assumptions forward_formula.

(** Under the contract s*s = d of the square-root oracle, normalisation 'both' ([NBoth]) is D^-1/2 A D^-1/2. *)
Theorem forward_formula_both_contract (sqrtf : Q -> Q) (A : smat) (i j : nat) :
  (forall d, 0 < d -> 0 < sqrtf d /\ sqrtf d * sqrtf d == d)%Q ->
  (0 < deg A i)%Q -> (0 < deg A j)%Q ->
  (nspec sqrtf NBoth A i j * (sqrtf (deg A i) * sqrtf (deg A j)) == sentry A i j)%Q /\
  (nspec sqrtf NBoth A i j * nspec sqrtf NBoth A i j * (deg A i * deg A j) == sentry A i j * sentry A i j)%Q.
Proof. exact (both_is_symmetric_normalisation sqrtf A i j). Qed.
Print Assumptions forward_formula_both_contract.

(** Renumbering the nodes (node j becomes p j; q is the inverse of p) permutes the rows of the output. *)
Theorem forward_equivariant (sqrtf expf : Q -> Q) (L : layer) (A : smat) (F : feats) (p q : list nat) :
  wf_smat (length A) A -> f_nrow F = length A -> inverse_on (length A) p q ->
  forward sqrtf expf L (perm_adj p q A) (perm_feats q F) = perm_rows q (forward sqrtf expf L A F).
Proof. exact (GnnProofs.forward_equivariant sqrtf expf L A F p q). Qed.
Print Assumptions forward_equivariant.

(** UniformNeighborSampler: for every choice stream on which the sampler returns, every sampled row is a
    subset of the row of size at most sample_size (and at most the degree), with unit weights. *)
Theorem sampler_subset (sample_size : nat) (A : smat) (choices : list (list nat)) (A' : smat) :
  sample_rows sample_size A choices = Ok A' ->
  Forall2 (fun r r' : srow =>
             length r' <= sample_size /\ length r' <= length r /\
             forall e, In e r' -> snd e = 1%Q /\ exists e0, In e0 r /\ fst e0 = fst e) A A'.
Proof.
  intros H. apply (Forall2_impl (sampled_of sample_size)); [apply sampled_of_subset | exact (GnnProofs.sampler_subset _ _ _ _ H)].
Qed.
Print Assumptions sampler_subset.

(** _compute_predictions: one label per node, below the output dimension (a single channel counts as the two
    classes 0/1); with several channels the label is an arg-max of the row. *)
Theorem predictions_in_range (output : dmat) (o : nat) :
  1 <= o -> (forall row, In row output -> length row = o) ->
  length (compute_predictions output) = length output /\
  (forall y, In y (compute_predictions output) -> y < Nat.max o 2) /\
  (forall row, In row output -> 2 <= o ->
     predict_row row < o /\ forall x, In x row -> (x <= nthq row (predict_row row))%Q).
Proof. exact (GnnProofs.predictions_in_range output o). Qed.
Print Assumptions predictions_in_range.

(** Softmax / cross-entropy output layer: probability rows sum to 1 (for a positive exp oracle). *)
Theorem probability_rows_sum_1 (sqrtf expf : Q -> Q) (L : layer) (A : smat) (F : feats) :
  (l_act L = Softmax \/ l_act L = CrossEntropyLoss) -> 1 <= l_out L -> (forall x, 0 < expf x)%Q ->
  forall row, In row (forward sqrtf expf L A F) -> length row = l_out L /\ (sumq row == 1)%Q.
Proof. exact (probability_rows sqrtf expf L A F). Qed.
Print Assumptions probability_rows_sum_1.

(** ... which is necessary: a multi-channel BinaryCrossEntropy output layer (independent sigmoids) has rows
    that do not sum to 1. *)
Theorem probability_rows_bce_multi_refuted :
  exists (expf : Q -> Q) (L : layer) (A : smat) (F : feats),
    (forall x, 0 < expf x)%Q /\ l_act L = BinaryCrossEntropyLoss /\ l_out L = 3 /\
    exists row, In row (forward (fun x => x) expf L A F) /\ ~ (sumq row == 1)%Q.
Proof.
  exists (fun _ => 1%Q),
         {| l_norm := NLeft; l_self := true; l_use_bias := false; l_act := BinaryCrossEntropyLoss; l_out := 3;
            l_weight := [0%Q; 0%Q; 0%Q] :: nil; l_bias := nil |},
         (nil :: nil), (Dense 1 ((0%Q :: nil) :: nil)).
  split; [intros; reflexivity|]. split; [reflexivity|]. split; [reflexivity|].
  eexists. split; [left; reflexivity|]. vm_compute. discriminate.
Qed.
Print Assumptions probability_rows_bce_multi_refuted.

(** predict_proba returns the output unchanged when there are at least two channels ... *)
Theorem predict_proba_multi (output : dmat) (o : nat) :
  2 <= o -> (forall row, In row output -> length row = o) -> predict_proba output = output.
Proof.
  intros Ho Hrows. destruct output as [|row rest]; [reflexivity|].
  specialize (Hrows row (or_introl eq_refl)). destruct row as [|x [|y t]]; cbn in Hrows; try lia; reflexivity.
Qed.
Print Assumptions predict_proba_multi.

(** ... and for a single channel the two columns (1 - p, p): probability rows summing to 1. *)
Theorem predict_proba_single (output : dmat) :
  (forall row, In row output -> length row = 1) ->
  length (predict_proba output) = length output /\
  forall i, i < length output ->
    exists p, nth i output [] = (p :: nil) /\ nth i (predict_proba output) [] = [(1 - p)%Q; p] /\
              (sumq (nth i (predict_proba output) []) == 1)%Q.
Proof. exact (GnnProofs.predict_proba_single output). Qed.
Print Assumptions predict_proba_single.

(** [predict_proba_legacy]: np.vstack called with two positional arguments; it raises TypeError on a single-channel output. *)
Theorem predict_proba_single_legacy_refuted :
  exists output : dmat,
    (forall row, In row output -> length row = 1) /\ output <> [] /\
    predict_proba_legacy output = Err TypeError.
Proof.
  exists [(1 # 4)%Q :: nil; (3 # 4)%Q :: nil]. split; [|split].
  - intros row [H|[H|[]]]; subst row; reflexivity.
  - discriminate.
  - reflexivity.
Qed.
Print Assumptions predict_proba_single_legacy_refuted.

(* =========================================================================================== *)
(** * Part II — derivatives over R *)
Local Open Scope R_scope.

(** ReLu.gradient(signal, direction) = d/d signal (relu(signal) * direction), away from the kink. *)
Theorem relu_grad (x dir : R) :
  x <> 0 -> is_derive (fun t => r_relu t * dir) x (r_relu_gradient x dir).
Proof. exact (GnnCalculus.relu_grad x dir). Qed.
Print Assumptions relu_grad.

Theorem sigmoid_grad (x dir : R) :
  is_derive (fun t => r_sigmoid t * dir) x (r_sigmoid_gradient x dir).
Proof. exact (GnnCalculus.sigmoid_grad x dir). Qed.
Print Assumptions sigmoid_grad.

Theorem softmax_rows_sum_1 (x : list R) : x <> nil -> r_sum (r_softmax_row x) = 1.
Proof. exact (GnnCalculus.softmax_rows_sum_1 x). Qed.
Print Assumptions softmax_rows_sum_1.

(** Softmax.gradient = Jacobian-transpose product: component k is d/d signal_k <softmax(signal), direction>. *)
Theorem softmax_jvp (x d : list R) (k : nat) :
  (k < length x)%nat -> length d = length x ->
  is_derive (fun t => r_dot (r_softmax_row (upd x k t)) d) (nth k x 0) (nth k (r_softmax_gradient x d) 0).
Proof. exact (GnnCalculus.softmax_jvp x d k). Qed.
Print Assumptions softmax_jvp.

(** CrossEntropy.loss_gradient = n * d(mean loss)/d signal[i][k], away from the clipping threshold eps. *)
Theorem ce_grad (eps : R) (S : list (list R)) (labels : list nat) (i k : nat) :
  length labels = length S -> (i < length S)%nat ->
  (k < length (nth i S nil))%nat -> (nth i labels 0%nat < length (nth i S nil))%nat ->
  eps < nth (nth i labels 0%nat) (r_softmax_row (nth i S nil)) 0 < 1 - eps ->
  is_derive (fun t => r_mean_loss (r_ce_loss_row eps) (upd S i (upd (nth i S nil) k t)) labels)
            (nth k (nth i S nil) 0)
            (nth k (r_ce_gradient (nth i S nil) (nth i labels 0%nat)) 0 / INR (length labels)).
Proof. exact (GnnCalculus.ce_grad eps S labels i k). Qed.
Print Assumptions ce_grad.

(** BinaryCrossEntropy.loss_gradient = n * d(mean loss)/d signal[i][0] for ONE output channel, labels in {0,1}. *)
Theorem bce_grad_single (eps x : R) (S : list (list R)) (labels : list nat) (i : nat) :
  length labels = length S -> (i < length S)%nat -> nth i S nil = (x :: nil) ->
  (nth i labels 0 = 0 \/ nth i labels 0 = 1)%nat ->
  eps < r_sigmoid x < 1 - eps ->
  is_derive (fun t => r_mean_loss (r_bce_loss_row eps) (upd S i (t :: nil)) labels) x
            (nth 0 (r_bce_gradient (nth i S nil) (nth i labels 0%nat)) 0 / INR (length labels)).
Proof. exact (GnnCalculus.bce_grad_single eps x S labels i). Qed.
Print Assumptions bce_grad_single.

(** BinaryCrossEntropy.loss_gradient = n * d(mean loss)/d signal[i][k] for SEVERAL output channels
    (one-hot form), away from the clipping threshold. *)
Theorem bce_grad_multi (eps : R) (S : list (list R)) (labels : list nat) (i k : nat) :
  length labels = length S -> (i < length S)%nat ->
  (2 <= length (nth i S nil))%nat -> (k < length (nth i S nil))%nat ->
  (nth i labels 0%nat < length (nth i S nil))%nat ->
  eps < r_sigmoid (nth k (nth i S nil) 0) < 1 - eps ->
  is_derive (fun t => r_mean_loss (r_bce_loss_row eps) (upd S i (upd (nth i S nil) k t)) labels)
            (nth k (nth i S nil) 0)
            (nth k (r_bce_gradient (nth i S nil) (nth i labels 0%nat)) 0 / INR (length labels)).
Proof. exact (GnnCalculus.bce_grad_multi eps S labels i k). Qed.
Print Assumptions bce_grad_multi.

(** [r_bce_gradient_legacy] = [(probs.T - labels).T] (DESIGN.md D18): with several channels it is NOT the derivative. *)
Theorem bce_grad_multi_legacy_refuted (eps : R) :
  0 < eps < 1 / 2 ->
  exists (x : list R) (y k : nat),
    (2 <= length x)%nat /\ (k < length x)%nat /\ (y < length x)%nat /\
    nth k (r_bce_gradient_legacy x y) 0 <> nth k (r_bce_gradient x y) 0 /\
    ~ is_derive (fun t => r_bce_loss_row eps (upd x k t) y) (nth k x 0) (nth k (r_bce_gradient_legacy x y) 0).
Proof. exact (GnnCalculus.bce_grad_multi_legacy_refuted eps). Qed.
Print Assumptions bce_grad_multi_legacy_refuted.

(* =========================================================================================== *)
(** * Part III — the same statements about the terms REGENERATED FROM THE PYTHON SOURCE

    [src_*] (Gen/NpGnn.v) are the bodies of the static methods of sknetwork/gnn/activation.py and loss.py translated
    on every run into the array-expression language of Model/NpExpr.v; [rdenote] (Proofs/NpExprProofs.v, with [ent]
    and the environments [env_*]) is the instance over R of that language's NumPy semantics [denote].  Each theorem evaluates the source terms on ARBITRARY input arrays and states the property about the
    result: the denotation of the gradient method is the derivative of (the denotation of) the output / loss method.  The four
    activation theorems are derived here (the terms evaluated, for the softmax gradient by a lemma of
    Proofs/NpExprProofs.v; then Proofs/GnnCalculus.v); the three loss theorems are lemmas of Proofs/NpExprProofs.v. *)
Local Open Scope R_scope.

Theorem source_relu_gradient_is_derivative (S D : list (list R)) (n k i j : nat) :
  ent S i j <> 0 ->
  exists fo fg,
    rdenote (env_s S n k) src_relu_output = Some (VM n k fo) /\
    rdenote (env_sd S D n k) src_relu_gradient = Some (VM n k fg) /\
    fo i j = r_relu (ent S i j) /\
    is_derive (fun t => r_relu t * ent D i j) (ent S i j) (fg i j).
Proof.
  intros Hx. eexists _, _. split; [np_eval; reflexivity|]. split; [np_eval; reflexivity|]. cbn beta.
  rewrite !rlit_0. split; [reflexivity|]. apply GnnCalculus.relu_grad. exact Hx.
Qed.
Print Assumptions source_relu_gradient_is_derivative.

Theorem source_sigmoid_gradient_is_derivative (S D : list (list R)) (n k i j : nat) :
  exists fo fg,
    rdenote (env_s S n k) src_sigmoid_output = Some (VM n k fo) /\
    rdenote (env_sd S D n k) src_sigmoid_gradient = Some (VM n k fg) /\
    fo i j = r_sigmoid (ent S i j) /\
    is_derive (fun t => r_sigmoid t * ent D i j) (ent S i j) (fg i j).
Proof.
  eexists _, _. split; [np_eval; reflexivity|]. split; [np_eval; reflexivity|]. cbn beta.
  rewrite rlit_1. split; [reflexivity|]. apply GnnCalculus.sigmoid_grad.
Qed.
Print Assumptions source_sigmoid_gradient_is_derivative.

(** Softmax.output: every row is the softmax of the signal row and sums to 1. *)
Theorem source_softmax_output_rows (S : list (list R)) (n k : nat) :
  rect n k S -> (0 < k)%nat ->
  exists fo, rdenote (env_s S n k) src_softmax_output = Some (VM n k fo) /\
    forall i, (i < n)%nat ->
      (forall j, (j < k)%nat -> fo i j = nth j (r_softmax_row (nth i S nil)) 0) /\
      r_sum (r_softmax_row (nth i S nil)) = 1.
Proof.
  intros HS Hk. eexists. split; [np_eval; reflexivity|]. intros i Hi. cbn beta.
  split; [intros j Hj; rewrite (softmax_ent S n k) by assumption; reflexivity|].
  apply GnnCalculus.softmax_rows_sum_1. pose proof (rect_row n k S i HS Hi) as Hl.
  destruct (nth i S nil); cbn in Hl; [lia | discriminate].
Qed.
Print Assumptions source_softmax_output_rows.

(** Softmax.gradient(signal, direction)[i][j] = d/d signal[i][j] <softmax(signal[i]), direction[i]>. *)
Theorem source_softmax_gradient_is_jvp (S D : list (list R)) (n k i j : nat) :
  rect n k S -> rect n k D -> (i < n)%nat -> (j < k)%nat ->
  exists fg, rdenote (env_sd S D n k) src_softmax_gradient = Some (VM n k fg) /\
    is_derive (fun t => r_dot (r_softmax_row (upd (nth i S nil) j t)) (nth i D nil)) (ent S i j) (fg i j).
Proof.
  intros HS HD Hi Hj. destruct (src_softmax_gradient_denotes S D n k HS HD) as [fg [Hg Hfg]].
  exists fg. split; [exact Hg|]. rewrite Hfg by assumption.
  pose proof (rect_row n k S i HS Hi) as Hl. pose proof (rect_row n k D i HD Hi) as Hd.
  apply GnnCalculus.softmax_jvp; lia.
Qed.
Print Assumptions source_softmax_gradient_is_jvp.

(** CrossEntropy: loss_gradient(signal, labels)[i][j] / n = d loss(signal, labels) / d signal[i][j], where BOTH sides are
    denotations of the source terms (the loss is re-evaluated on the perturbed signal), away from the clip at 1e-10. *)
Theorem source_ce_loss_gradient_is_derivative (S : list (list R)) (labels : list nat) (n k i j : nat) :
  rect n k S -> List.length labels = n -> labels_below k labels = true -> (i < n)%nat -> (j < k)%nat ->
  rlit 1 (-10) < nth (nth i labels 0%nat) (r_softmax_row (nth i S nil)) 0 < 1 - rlit 1 (-10) ->
  exists g L,
    rdenote (env_sl S labels n k) src_ce_loss_gradient = Some (VM n k g) /\
    (forall t, rdenote (env_sl (upd S i (upd (nth i S nil) j t)) labels n k) src_ce_loss = Some (VS (L t))) /\
    is_derive L (ent S i j) (g i j / INR n).
Proof. exact (NpExprProofs.source_ce_loss_gradient_is_derivative S labels n k i j). Qed.
Print Assumptions source_ce_loss_gradient_is_derivative.

(** BinaryCrossEntropy, one output channel, labels in {0,1}, away from the clip at 1e-15. *)
Theorem source_bce_loss_gradient_single_is_derivative (S : list (list R)) (labels : list nat) (n i : nat) (x : R) :
  rect n 1 S -> List.length labels = n -> (i < n)%nat -> nth i S nil = (x :: nil) ->
  (nth i labels 0 = 0 \/ nth i labels 0 = 1)%nat ->
  rlit 1 (-15) < r_sigmoid x < 1 - rlit 1 (-15) ->
  exists g L,
    rdenote (env_sl S labels n 1) src_bce_loss_gradient = Some (VM n 1 g) /\
    (forall t, rdenote (env_sl (upd S i (t :: nil)) labels n 1) src_bce_loss = Some (VS (L t))) /\
    is_derive L x (g i 0%nat / INR n).
Proof. exact (NpExprProofs.source_bce_loss_gradient_single_is_derivative S labels n i x). Qed.
Print Assumptions source_bce_loss_gradient_single_is_derivative.

(** BinaryCrossEntropy, several output channels (one-hot form). *)
Theorem source_bce_loss_gradient_multi_is_derivative (S : list (list R)) (labels : list nat) (n k i j : nat) :
  rect n k S -> List.length labels = n -> labels_below k labels = true -> (2 <= k)%nat ->
  (i < n)%nat -> (j < k)%nat ->
  rlit 1 (-15) < r_sigmoid (ent S i j) < 1 - rlit 1 (-15) ->
  exists g L,
    rdenote (env_sl S labels n k) src_bce_loss_gradient = Some (VM n k g) /\
    (forall t, rdenote (env_sl (upd S i (upd (nth i S nil) j t)) labels n k) src_bce_loss = Some (VS (L t))) /\
    is_derive L (ent S i j) (g i j / INR n).
Proof. exact (NpExprProofs.source_bce_loss_gradient_multi_is_derivative S labels n k i j). Qed.
Print Assumptions source_bce_loss_gradient_multi_is_derivative.

(** The hypotheses of the source theorems are met by a concrete 1 x 2 signal. *)
Example c19_nonvacuous_source :
  rect 1 2 ((0 :: 0 :: nil) :: nil) /\ labels_below 2 (0%nat :: nil) = true /\
  rlit 1 (-10) < nth 0 (r_softmax_row (0 :: 0 :: nil)) 0 < 1 - rlit 1 (-10).
Proof.
  split. { split; [reflexivity|]. intros [|i] Hi; [reflexivity|lia]. }
  split; [reflexivity|].
  unfold rlit, r_softmax_row, g_softmax_row, g_sum. cbn [map fold_right nth].
  rewrite exp_0. assert (H : 0 < powerRZ 10 (-10) < 1/4) by (cbn; change (Pos.to_nat 10) with 10%nat; cbn [pow]; lra).
  lra.
Qed.

(* =========================================================================================== *)
(** * Non-vacuity of Parts I and II *)
Local Open Scope nat_scope.

Definition ex_A : smat := [[(1, 1%Q); (2, 2%Q)]; []; [(0, 1%Q); (2, 1%Q)]].
Definition ex_F : feats := Sparse 2 [((0, 1%Q) :: nil); ((1, 3%Q) :: nil); [(0, 5%Q); (1, 6%Q)]].
Definition ex_L : layer :=
  {| l_norm := NRight; l_self := true; l_use_bias := true; l_act := Relu; l_out := 2;
     l_weight := [[1%Q; (-1)%Q]; [(1 # 2)%Q; 1%Q]]; l_bias := [(1 # 4)%Q; (-3)%Q] |}.
Definition idq (x : Q) : Q := x.

(** The hypotheses of forward_formula / forward_equivariant are met by a concrete weighted digraph with a
    zero-degree node and a self loop, sparse features and a non-trivial renumbering, and the model computes. *)
Example c19_nonvacuous_forward :
  wf_smat (length ex_A) ex_A /\ f_nrow ex_F = length ex_A /\ inverse_on (length ex_A) [2; 0; 1] [1; 2; 0] /\
  map (map Qred) (forward idq idq ex_L ex_A ex_F) = [[(37 # 4)%Q; 0%Q]; [(7 # 4)%Q; 0%Q]; [(151 # 12)%Q; 0%Q]] /\
  map (map Qred) (forward idq idq ex_L (perm_adj [2; 0; 1] [1; 2; 0] ex_A) (perm_feats [1; 2; 0] ex_F))
  = [[(7 # 4)%Q; 0%Q]; [(151 # 12)%Q; 0%Q]; [(37 # 4)%Q; 0%Q]].
Proof.
  split; [apply wf_smatb_ok; reflexivity|]. split; [reflexivity|].
  split; [apply inverse_onb_ok; reflexivity|]. split; vm_compute; reflexivity.
Qed.

(** The sampler returns on a concrete stream, and the result is a strict subset. *)
Example c19_nonvacuous_sampler :
  sample_rows 1 ex_A [[1; 0]; []; (0 :: nil)] = Ok [((2, 1%Q) :: nil); []; ((0, 1%Q) :: nil)].
Proof. reflexivity. Qed.

(** Predictions on a concrete output. *)
Example c19_nonvacuous_predictions :
  compute_predictions [[(1 # 4)%Q; (1 # 2)%Q; (1 # 4)%Q]; [(1 # 2)%Q; (1 # 2)%Q; 0%Q]] = [1; 0] /\
  compute_predictions [((3 # 4)%Q :: nil); ((1 # 2)%Q :: nil)] = [1; 0].
Proof. split; reflexivity. Qed.

(** The hypotheses of ce_grad / bce_grad_single / bce_grad_multi are met at signal 0 with eps = 1/4. *)
Example c19_nonvacuous_losses :
  (1 / 4 < nth 1 (r_softmax_row [0; 0]) 0 < 1 - 1 / 4)%R /\ (1 / 4 < r_sigmoid 0 < 1 - 1 / 4)%R /\
  (1 / 4 < r_sigmoid (nth 0 (nth 0 ([0; 0; 0]%R :: nil) nil) 0%R) < 1 - 1 / 4)%R.
Proof.
  assert (r_sigmoid 0 = 1 / 2)%R as Hs by (unfold r_sigmoid, g_sigmoid; rewrite Rminus_0_r, exp_0; lra).
  cbn [nth]. rewrite Hs. split; [|lra].
  unfold r_softmax_row, g_softmax_row. cbn [map g_sum fold_right nth]. rewrite exp_0. lra.
Qed.

(* =========================================================================================== *)
(** * Part IV — the layer itself, REGENERATED FROM sknetwork/gnn/layer.py

    [src_conv_embedding_{left,right,both,none}] (Gen/NpConv.v) are the pre-activation embedding of Convolution.forward for
    the four normalisation branches (self_embeddings and use_bias read from the environment), translated on every run by
    harness/translators/npvec.py into the array language of Model/NpVec.v.  Over R, for EVERY adjacency, feature and weight
    matrix and bias (index functions), every normalisation and both options:
        embedding[i][c] = sum_k (sum_j Nbar_ij X_jk) W_kc (+ b_c).
    The layer output is the activation of this embedding (Part III covers the activations' own source terms).
    [src_of nm] (Proofs/NpConvProofs.v) selects the term of normalisation [nm]; [rvdenote] (Proofs/NpVecProofs.v) is the
    semantics over R. *)
From SKN Require Import Model.NpVec Gen.NpConv Proofs.NpVecProofs Proofs.NpConvProofs.
Local Open Scope R_scope.

Theorem source_conv_embedding (nm : cnorm) (se ub : bool) (n d o : nat) (A X W : nat -> nat -> R) (b : nat -> R) :
  exists f, rvdenote (env_conv n d o A X W b se ub) (src_of nm) = Some (WM n o f) /\
            forall i c, (i < n)%nat -> f i c = conv_spec nm se ub n d A X W b i c.
Proof. exact (NpConvProofs.source_conv_embedding nm se ub n d o A X W b). Qed.
Print Assumptions source_conv_embedding.

(** Equivariance of the generated embedding (counterpart of [forward_equivariant] of Part I): for EVERY permutation p
    of the n nodes ([perm_on n p], Proofs/NpEquivariance.v), the embedding computed from the renumbered graph (A' i j = A (p i) (p j)) and the renumbered feature rows
    (X' i = X (p i)) has at row i the row p i of the embedding of the original data, for every normalisation and both options. *)
From SKN Require Import Proofs.NpEquivariance.
Theorem source_conv_renumbering (nm : cnorm) (se ub : bool) (n d o : nat) (p : nat -> nat) (A X W : nat -> nat -> R) (b : nat -> R) :
  perm_on n p ->
  exists f' f,
    rvdenote (env_conv n d o (pmat p A) (fun i k => X (p i) k) W b se ub) (src_of nm) = Some (WM n o f') /\
    rvdenote (env_conv n d o A X W b se ub) (src_of nm) = Some (WM n o f) /\
    forall i c, (i < n)%nat -> f' i c = f (p i) c.
Proof. exact (NpEquivariance.source_conv_renumbering nm se ub n d o p A X W b). Qed.
Print Assumptions source_conv_renumbering.
