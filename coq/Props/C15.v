(** C15 — Linear operators and conversion utilities equal their dense definitions.
    Statements of the property, each proved right under it ([exact] of a lemma of Proofs/, a script
    over such lemmas, or evaluation for the [legacy_*_refuted] witnesses and the generated terms) and followed by its
    [Print Assumptions]; non-vacuity examples.
    Parts: all operators; SparseLR; Normalizer; Laplacian; CoNeighbor; Polynome; utilities; non-vacuity; last, over R,
    the Normalizer terms generated from operators.py (Gen/NpNormalizer.v, array language of Model/NpVec.v), evaluated
    and identified with the dense matrix [ndense] (Proofs/NpNormalizerProofs.v).
    Vocabulary (Model/Operators.v, Base/QMat.v): [dense s] is the dense matrix of a sparse matrix (stored values
    summed per coordinate); [=v] / [=m] are pointwise [Qeq] on vectors / matrices; [se_dense], [ce_dense], [pe_dense],
    [ne_dense], [le_dense] build the dense matrix an operator EXPRESSION denotes from first principles
    (madd, mat_mul, transpose_n ...), [slr_eval] etc. run the methods as coded.
    [slr_is v r c D] (resp. [cn_is]; both defined in Proofs/OperatorsProofs.v) reads: the SparseLR (CoNeighbor) value v is well formed, has shape r x c and
    its sparse part plus low-rank terms (its two factors) denote D. *)
From SKN Require Import Base.Util Base.QMat Model.Operators Proofs.OperatorsProofs.
From Coq Require Import QArith Qabs Permutation.

(* ------------------------------------------------------------------------------------------- *)
(** * All operators: operator.dot(x) and the 2-D branch of _matvec equal the dense matrix times x / X, for every
      well-formed expression — transposed or not, after any chain of the algebraic operations.  (The [legacy_*] variants of Model/Operators.v
      model five defects (DESIGN.md D8, D11, D26); each is refuted by a [legacy_*_refuted] theorem below.  Operand
      mutation by CoNeighbor's operations (DESIGN.md D26) is aliasing, outside a pure model: each theorem speaks about
      the value an operation returns.) *)
Theorem operator_denotes (sqrtf : Q -> Q) (o : op_expr) (x : list Q) :
  Proper (Qeq ==> Qeq) sqrtf -> op_wf o -> length x = snd (op_shape o) ->
  exists y, op_apply sqrtf o x = Ok y /\ y =v mat_vec (op_dense sqrtf o) x.
Proof.
  intros Hs. destruct o as [e | e | e | e | e]; simpl; intros HW Hx.
  - apply sparselr_dot_denotes; assumption.
  - apply normalizer_dot_denotes; assumption.
  - apply laplacian_dot_denotes; assumption.
  - apply OperatorsProofs.coneighbor_dot_denotes; assumption.
  - apply polynome_dot_denotes; assumption.
Qed.
Print Assumptions operator_denotes.

Theorem operator_matmat_denotes (sqrtf : Q -> Q) (k : nat) (o : op_expr) (X : list (list Q)) :
  Proper (Qeq ==> Qeq) sqrtf -> op_wf o -> wf_mat (snd (op_shape o)) k X ->
  op_apply_mat sqrtf k o X =m mat_mul k (op_dense sqrtf o) X.
Proof.
  intros Hs. destruct o as [e | e | e | e | e]; simpl; intros HW WX.
  - apply OperatorsProofs.sparselr_matmat_denotes; assumption.
  - apply normalizer_expr_matmat_denotes; assumption.
  - apply laplacian_expr_matmat_denotes; assumption.
  - apply coneighbor_expr_matmat_denotes; assumption.
  - apply polynome_expr_matmat_denotes; assumption.
Qed.
Print Assumptions operator_matmat_denotes.

(* ------------------------------------------------------------------------------------------- *)
(** * SparseLR *)
Theorem sparselr_denotes (e : slr_expr) (x : list Q) : se_wf e -> length x = snd (se_shape e) ->
  exists y, lo_dot (slr_shape (slr_eval e)) (slr_matvec (slr_eval e)) x = Ok y /\ y =v mat_vec (se_dense e) x.
Proof. exact (sparselr_dot_denotes e x). Qed.
Print Assumptions sparselr_denotes.

Theorem sparselr_matmat_denotes (k : nat) (e : slr_expr) (X : list (list Q)) :
  se_wf e -> wf_mat (snd (se_shape e)) k X -> slr_matmat k (slr_eval e) X =m mat_mul k (se_dense e) X.
Proof. exact (OperatorsProofs.sparselr_matmat_denotes k e X). Qed.
Print Assumptions sparselr_matmat_denotes.

(** every expression evaluates to a well-formed SparseLR of the expected shape denoting [se_dense e]
    (so the constructor's shape check on the low-rank tuples never fails) *)
Theorem sparselr_expr_denotes (e : slr_expr) :
  se_wf e -> slr_is (slr_eval e) (fst (se_shape e)) (snd (se_shape e)) (se_dense e).
Proof. exact (se_denotes e). Qed.
Print Assumptions sparselr_expr_denotes.

(** one theorem per algebraic operation (value level) *)
Theorem sparselr_matvec_denotes (v : slr) (x : list Q) :
  slr_wfv v -> length x = s_ncol (sl_sp v) -> slr_matvec v x =v mat_vec (slr_dense v) x.
Proof. exact (slr_matvec_denotes v x). Qed.
Print Assumptions sparselr_matvec_denotes.
Theorem sparselr_neg_denotes v r c D : slr_is v r c D -> slr_is (slr_neg v) r c (mneg D).
Proof. exact (slr_neg_is v r c D). Qed.
Print Assumptions sparselr_neg_denotes.
Theorem sparselr_add_denotes v w r c D D' : slr_is v r c D -> slr_is w r c D' -> slr_is (slr_add v w) r c (madd D D').
Proof. exact (slr_add_is v w r c D D'). Qed.
Print Assumptions sparselr_add_denotes.
Theorem sparselr_add_csr_denotes v s r c D :
  slr_is v r c D -> swf s -> s_nrow s = r -> s_ncol s = c -> slr_is (slr_add_csr v s) r c (madd D (dense s)).
Proof. exact (slr_add_csr_is v s r c D). Qed.
Print Assumptions sparselr_add_csr_denotes.
Theorem sparselr_sub_denotes v w r c D D' : slr_is v r c D -> slr_is w r c D' -> slr_is (slr_sub v w) r c (msub D D').
Proof. exact (slr_sub_is v w r c D D'). Qed.
Print Assumptions sparselr_sub_denotes.
Theorem sparselr_sub_csr_denotes v s r c D :
  slr_is v r c D -> swf s -> s_nrow s = r -> s_ncol s = c -> slr_is (slr_sub_csr v s) r c (msub D (dense s)).
Proof. exact (slr_sub_csr_is v s r c D). Qed.
Print Assumptions sparselr_sub_csr_denotes.
Theorem sparselr_mul_denotes q v r c D : slr_is v r c D -> slr_is (slr_mul q v) r c (mscale q D).
Proof. exact (slr_mul_is q v r c D). Qed.
Print Assumptions sparselr_mul_denotes.
Theorem sparselr_left_sparse_dot_denotes M v r c D :
  slr_is v r c D -> swf M -> s_ncol M = r -> slr_is (slr_left M v) (s_nrow M) c (mat_mul c (dense M) D).
Proof. exact (slr_left_is M v r c D). Qed.
Print Assumptions sparselr_left_sparse_dot_denotes.
Theorem sparselr_right_sparse_dot_denotes v M r c D :
  slr_is v r c D -> swf M -> s_nrow M = c -> slr_is (slr_right v M) r (s_ncol M) (mat_mul (s_ncol M) D (dense M)).
Proof. exact (slr_right_is v M r c D). Qed.
Print Assumptions sparselr_right_sparse_dot_denotes.
Theorem sparselr_transpose_denotes v r c D : slr_is v r c D -> slr_is (slr_transpose v) c r (transpose_n c D).
Proof. exact (slr_transpose_is v r c D). Qed.
Print Assumptions sparselr_transpose_denotes.
Theorem sparselr_astype_denotes v r c D : slr_is v r c D -> slr_is (slr_astype v) r c D.
Proof. exact (slr_astype_is v r c D). Qed.
Print Assumptions sparselr_astype_denotes.
Theorem sparselr_sum_denotes v r c D : slr_is v r c D ->
  slr_sum0 v =v col_sums c D /\ slr_sum1 v =v row_sums D /\ slr_sum v == total D.
Proof. exact (fun H => conj (slr_sum0_denotes v r c D H) (conj (slr_sum1_denotes v r c D H) (slr_sum_denotes v r c D H))). Qed.
Print Assumptions sparselr_sum_denotes.
Theorem regularizer_denotes s alpha : swf s ->
  slr_is (regularizer s alpha) (s_nrow s) (s_ncol s) (madd (dense s) (mconst (s_nrow s) (s_ncol s) (alpha / qnat (s_ncol s)))).
Proof. exact (regularizer_is s alpha). Qed.
Print Assumptions regularizer_denotes.
(** normalize(SparseLR) and directed2undirected(SparseLR) *)
Theorem sparselr_normalize_denotes v r c D :
  slr_is v r c D -> slr_is (slr_normalize v) r c (row_scale (map pinv (row_sums D)) D).
Proof. exact (slr_normalize_is v r c D). Qed.
Print Assumptions sparselr_normalize_denotes.
Theorem sparselr_directed2undirected_denotes v n D : slr_is v n n D -> slr_is (slr_d2u v) n n (madd D (transpose_n n D)).
Proof. exact (slr_d2u_is v n D). Qed.
Print Assumptions sparselr_directed2undirected_denotes.

(* ------------------------------------------------------------------------------------------- *)
(** * Normalizer: D^+ (A + reg/n 11^T), D = diag of the row sums of the regularised matrix *)
Theorem normalizer_denotes a reg x : swf a -> (0 < s_ncol a)%nat -> (0 <= reg)%Q -> length x = s_ncol a ->
  nz_matvec (mk_normalizer a reg) x =v mat_vec (normalizer_dense a reg) x.
Proof. exact (normalizer_matvec_denotes a reg x). Qed.
Print Assumptions normalizer_denotes.
Theorem normalizer_matmat_denotes k a reg X : swf a -> (0 < s_ncol a)%nat -> (0 <= reg)%Q -> wf_mat (s_ncol a) k X ->
  nz_matmat k (mk_normalizer a reg) X =m mat_mul k (normalizer_dense a reg) X.
Proof. exact (OperatorsProofs.normalizer_matmat_denotes k a reg X). Qed.
Print Assumptions normalizer_matmat_denotes.
(** operator.T (SciPy's transposed wrapper around _rmatvec) is the transposed dense matrix *)
Theorem normalizer_transpose_denotes a reg x : swf a -> (0 < s_ncol a)%nat -> (0 <= reg)%Q -> length x = s_nrow a ->
  nz_rmatvec (mk_normalizer a reg) x =v mat_vec (transpose_n (s_ncol a) (normalizer_dense a reg)) x.
Proof. exact (normalizer_rmatvec_denotes a reg x). Qed.
Print Assumptions normalizer_transpose_denotes.
Theorem normalizer_transpose_matmat_denotes k a reg X : swf a -> (0 < s_ncol a)%nat -> (0 <= reg)%Q -> wf_mat (s_nrow a) k X ->
  nz_rmatmat k (mk_normalizer a reg) X =m mat_mul k (transpose_n (s_ncol a) (normalizer_dense a reg)) X.
Proof. exact (normalizer_rmatmat_denotes k a reg X). Qed.
Print Assumptions normalizer_transpose_matmat_denotes.
(** any number of transpositions: shape checks pass, result = dense . x *)
Theorem normalizer_expr_denotes e x : ne_wf e -> length x = snd (ne_shape e) ->
  exists y, lo_dot (ne_shape e) (ne_matvec e) x = Ok y /\ y =v mat_vec (ne_dense e) x.
Proof. exact (normalizer_dot_denotes e x). Qed.
Print Assumptions normalizer_expr_denotes.
(** [legacy_nz_transpose] (_transpose returns self; DESIGN.md D8) is not the transposed matrix *)
Theorem legacy_normalizer_transpose_refuted :
  exists a x, swf a /\ (0 < s_ncol a)%nat /\ length x = s_nrow a /\
    ~ (nz_matvec (legacy_nz_transpose (mk_normalizer a 0)) x =v mat_vec (transpose_n (s_ncol a) (normalizer_dense a 0)) x).
Proof.
  exists {| s_ncol := 3; s_rows := [[(1%nat, 1%Q); (2%nat, 1%Q)]; [(0%nat, 1%Q)]; [(0%nat, 1%Q)]] |}, [1; 2; 3]%Q.
  split; [repeat constructor|]. split; [simpl; lia|]. split; [reflexivity|].
  intros H. apply (veq_nthq _ _ 0) in H. vm_compute in H. discriminate.
Qed.
Print Assumptions legacy_normalizer_transpose_refuted.

(* ------------------------------------------------------------------------------------------- *)
(** * Laplacian: L = diag(R 1) - R for the regularised adjacency R = A + reg/n 11^T; normalised: N L N with
      N = diag(sqrt(R 1))^+ ; [sqrtf] is any function compatible with [Qeq] *)
Theorem laplacian_denotes sqrtf a reg norm x :
  Proper (Qeq ==> Qeq) sqrtf -> swf a -> s_nrow a = s_ncol a -> (0 < s_nrow a)%nat -> (0 <= reg)%Q -> length x = s_nrow a ->
  lp_matvec (mk_laplacian sqrtf a reg norm) x =v mat_vec (laplacian_dense sqrtf a reg norm) x.
Proof. intros. apply (le_matvec_denotes sqrtf (LBase a reg norm)); simpl; auto. Qed.
Print Assumptions laplacian_denotes.
Theorem laplacian_matmat_denotes sqrtf k a reg norm X :
  Proper (Qeq ==> Qeq) sqrtf -> swf a -> s_nrow a = s_ncol a -> (0 < s_nrow a)%nat -> (0 <= reg)%Q -> wf_mat (s_nrow a) k X ->
  lp_matmat k (mk_laplacian sqrtf a reg norm) X =m mat_mul k (laplacian_dense sqrtf a reg norm) X.
Proof. intros. apply (laplacian_expr_matmat_denotes sqrtf k (LBase a reg norm)); simpl; auto. Qed.
Print Assumptions laplacian_matmat_denotes.
(** _transpose (a copy with the sparse part transposed) is the transposed dense matrix, for directed graphs too *)
Theorem laplacian_transpose_denotes sqrtf a reg norm x :
  Proper (Qeq ==> Qeq) sqrtf -> swf a -> s_nrow a = s_ncol a -> (0 < s_nrow a)%nat -> (0 <= reg)%Q -> length x = s_nrow a ->
  lp_matvec (lp_transpose (mk_laplacian sqrtf a reg norm)) x
  =v mat_vec (transpose_n (s_nrow a) (laplacian_dense sqrtf a reg norm)) x.
Proof. intros. apply (le_matvec_denotes sqrtf (LT (LBase a reg norm))); simpl; auto. Qed.
Print Assumptions laplacian_transpose_denotes.
(** any chain of transpositions / astype *)
Theorem laplacian_expr_denotes sqrtf e x : Proper (Qeq ==> Qeq) sqrtf -> le_wf e -> length x = le_n e ->
  exists y, lo_dot (lp_n (lp_eval sqrtf e), lp_n (lp_eval sqrtf e)) (lp_matvec (lp_eval sqrtf e)) x = Ok y /\
            y =v mat_vec (le_dense sqrtf e) x.
Proof. exact (laplacian_dot_denotes sqrtf e x). Qed.
Print Assumptions laplacian_expr_denotes.
(** [legacy_lp_transpose] (_transpose returns self) is wrong for a directed graph *)
Theorem legacy_laplacian_transpose_refuted :
  exists a x, swf a /\ s_nrow a = s_ncol a /\ length x = s_nrow a /\
    ~ (lp_matvec (legacy_lp_transpose (mk_laplacian (fun q => q) a 0 false)) x
       =v mat_vec (transpose_n (s_nrow a) (laplacian_dense (fun q => q) a 0 false)) x).
Proof.
  exists {| s_ncol := 3; s_rows := [[(1%nat, 1%Q)]; [(2%nat, 1%Q)]; []] |}, [1; 2; 3]%Q.
  split; [repeat constructor|]. split; [reflexivity|]. split; [reflexivity|].
  intros H. apply (veq_nthq _ _ 0) in H. vm_compute in H. discriminate.
Qed.
Print Assumptions legacy_laplacian_transpose_refuted.

(* ------------------------------------------------------------------------------------------- *)
(** * CoNeighbor: A F^+ A^T *)
Theorem coneighbor_denotes a nrm : swf a -> snonneg a ->
  cn_is (mk_coneighbor a nrm) (s_nrow a) (s_nrow a) (coneighbor_dense a nrm).
Proof. exact (coneighbor_base_is a nrm). Qed.
Print Assumptions coneighbor_denotes.
Theorem coneighbor_matvec_denotes v x : cn_wfv v -> length x = cn_ncol v -> cn_matvec v x =v mat_vec (cn_dense v) x.
Proof. exact (OperatorsProofs.coneighbor_matvec_denotes v x). Qed.
Print Assumptions coneighbor_matvec_denotes.
Theorem coneighbor_neg_denotes v r c D : cn_is v r c D -> cn_is (cn_neg v) r c (mneg D).
Proof. exact (cn_neg_is v r c D). Qed.
Print Assumptions coneighbor_neg_denotes.
Theorem coneighbor_mul_denotes q v r c D : cn_is v r c D -> cn_is (cn_mul q v) r c (mscale q D).
Proof. exact (cn_mul_is q v r c D). Qed.
Print Assumptions coneighbor_mul_denotes.
Theorem coneighbor_left_sparse_dot_denotes M v r c D :
  cn_is v r c D -> swf M -> s_ncol M = r -> cn_is (cn_left M v) (s_nrow M) c (mat_mul c (dense M) D).
Proof. exact (cn_left_is M v r c D). Qed.
Print Assumptions coneighbor_left_sparse_dot_denotes.
Theorem coneighbor_right_sparse_dot_denotes v M r c D :
  cn_is v r c D -> swf M -> s_nrow M = c -> cn_is (cn_right v M) r (s_ncol M) (mat_mul (s_ncol M) D (dense M)).
Proof. exact (cn_right_is v M r c D). Qed.
Print Assumptions coneighbor_right_sparse_dot_denotes.
Theorem coneighbor_transpose_denotes v r c D : cn_is v r c D -> cn_is (cn_transpose v) c r (transpose_n c D).
Proof. exact (cn_transpose_is v r c D). Qed.
Print Assumptions coneighbor_transpose_denotes.
(** operator.dot(x) passes LinearOperator's shape checks (the recorded shape follows the factors) and equals dense . x,
    for square and non-square factors, normalized or not *)
Theorem coneighbor_dot_denotes e x : ce_wf e -> length x = snd (ce_shape e) ->
  exists y, cn_dot (cn_eval e) x = Ok y /\ y =v mat_vec (ce_dense e) x.
Proof. exact (OperatorsProofs.coneighbor_dot_denotes e x). Qed.
Print Assumptions coneighbor_dot_denotes.
(** [legacy_cn_left] (DESIGN.md D26) never updates the recorded shape: after a 2 x 3 left factor the product raises *)
Theorem legacy_coneighbor_sparse_dot_shape_refuted :
  exists M a x, swf M /\ swf a /\ snonneg a /\ s_ncol M = s_nrow a /\ length x = s_nrow a /\
    legacy_cn_dot (legacy_cn_left M (legacy_mk_coneighbor a true)) x = Err.
Proof.
  exists {| s_ncol := 3; s_rows := [[(0%nat, 1%Q)]; [(1%nat, 1%Q); (2%nat, 1%Q)]] |},
         {| s_ncol := 3; s_rows := [[(0%nat, 1%Q); (2%nat, 1%Q)]; [(1%nat, 1%Q)]; [(0%nat, 1%Q); (1%nat, 1%Q)]] |}, [1; 1; 1]%Q.
  repeat split; try (repeat constructor; unfold Qle; simpl; lia).
Qed.
Print Assumptions legacy_coneighbor_sparse_dot_shape_refuted.
(** [legacy_cn_mul]: with normalized=False, backward *= c also scales forward (a view on the same buffer): -op = op *)
Theorem legacy_coneighbor_shared_scaling_refuted :
  exists a x y, swf a /\ snonneg a /\ length x = s_nrow a /\
    legacy_cn_dot (legacy_cn_mul (-(1)) (legacy_mk_coneighbor a false)) x = Ok y /\
    ~ (y =v mat_vec (ce_dense (CNeg (CBase a false))) x).
Proof.
  exists {| s_ncol := 1; s_rows := [[(0%nat, 2%Q)]] |}, [1%Q], [4%Q].
  split; [repeat constructor; unfold Qle; simpl; lia|]. split; [repeat constructor; unfold Qle; simpl; lia|].
  split; [reflexivity|]. split; [vm_compute; reflexivity|].
  intros H. apply (veq_nthq _ _ 0) in H. vm_compute in H. discriminate.
Qed.
Print Assumptions legacy_coneighbor_shared_scaling_refuted.

(* ------------------------------------------------------------------------------------------- *)
(** * Polynome *)
Theorem horner_eq_power_sum n A f cs x :
  wf_mat n n A -> (forall y, length y = n -> f y =v mat_vec A y) -> cs <> [] -> length x = n ->
  horner f cs x =v vsum n (map (fun k => vscale (nthq cs k) (mat_vec (mat_pow n A k) x)) (seq 0 (length cs))).
Proof. exact (OperatorsProofs.horner_eq_power_sum n A f cs x). Qed.
Print Assumptions horner_eq_power_sum.
Theorem polynome_denotes e x : pe_wf e -> length x = pe_n e ->
  exists y, lo_dot (s_nrow (pl_mat (pl_eval e)), s_ncol (pl_mat (pl_eval e))) (pl_matvec (pl_eval e)) x = Ok y /\
            y =v mat_vec (pe_dense e) x.
Proof. exact (polynome_dot_denotes e x). Qed.
Print Assumptions polynome_denotes.
Theorem polynome_matmat_denotes k e X : pe_wf e -> wf_mat (pe_n e) k X ->
  pl_matmat k (pl_eval e) X =m mat_mul k (pe_dense e) X.
Proof. exact (polynome_expr_matmat_denotes k e X). Qed.
Print Assumptions polynome_matmat_denotes.

(* ------------------------------------------------------------------------------------------- *)
(** * Utilities *)
Theorem pseudo_inverse_keeps_zero w :
  dense (sdiag_pinv w) =m diag (map pinv w) /\
  (forall i, nthq w i == 0 -> nthq (map pinv w) i == 0)%Q /\
  (forall i, (i < length w)%nat -> ~ (nthq w i == 0)%Q -> (nthq (map pinv w) i * nthq w i == 1)%Q).
Proof. exact (OperatorsProofs.pseudo_inverse_keeps_zero w). Qed.
Print Assumptions pseudo_inverse_keeps_zero.
Theorem get_norms_def sqrtf s : Proper (Qeq ==> Qeq) sqrtf -> swf s ->
  snorms1 s =v map srow_norm1 (s_rows s) /\ snorms2 sqrtf s =v map (fun row => sqrtf (srow_norm2sq row)) (s_rows s).
Proof. exact (fun Hs W => conj (get_norms1_def s W) (get_norms2_def sqrtf s Hs W)). Qed.
Print Assumptions get_norms_def.
Theorem normalize_def s : swf s -> dense (snormalize s) =m row_scale (map pinv (map srow_norm1 (s_rows s))) (dense s).
Proof.
  intros W. unfold snormalize. rewrite dense_smul_sdiag_pinv by (unfold snorms1; vlen).
  apply row_scale_proper; [|reflexivity]. apply map_pinv_instance. apply get_norms1_def; exact W.
Qed.
Print Assumptions normalize_def.
Theorem normalize_rows_sum_1_or_0 s i : swf s -> (i < s_nrow s)%nat ->
  let row := nth i (s_rows s) [] in
  let row' := nth i (s_rows (snormalize s)) [] in
  ((srow_norm1 row == 0)%Q /\ row' = []) \/ (srow_norm1 row' == 1)%Q.
Proof.
  intros W Hi row row'.
  destruct (scaled_row_cases _ srow_norm1 s i (get_norms1_def s W) Hi) as [H|(E & Ei & R)]; [left; exact H | right].
  unfold row', snormalize. rewrite R, srow_norm1_scale.
  rewrite Qabs_pos by (apply Qinv_le_0_compat; rewrite Ei; apply srow_norm1_nonneg).
  rewrite <- Ei, Qmult_comm. apply Qmult_inv_r, E.
Qed.
Print Assumptions normalize_rows_sum_1_or_0.
Theorem normalize2_rows_sum_1_or_0 sqrtf s i : Proper (Qeq ==> Qeq) sqrtf -> swf s -> (i < s_nrow s)%nat ->
  let row := nth i (s_rows s) [] in
  let row' := nth i (s_rows (snormalize2 sqrtf s)) [] in
  (sqrtf (srow_norm2sq row) * sqrtf (srow_norm2sq row) == srow_norm2sq row)%Q ->
  ((sqrtf (srow_norm2sq row) == 0)%Q /\ row' = []) \/ (srow_norm2sq row' == 1)%Q.
Proof.
  intros Hs W Hi row row' Hsq.
  destruct (scaled_row_cases _ (fun r => sqrtf (srow_norm2sq r)) s i (get_norms2_def sqrtf s Hs W) Hi) as [H|(E & Ei & R)];
    [left; exact H | right].
  cbv beta in Ei. subst row row'. unfold snormalize2. rewrite R, srow_norm2sq_scale, <- Hsq, <- Ei. field. exact E.
Qed.
Print Assumptions normalize2_rows_sum_1_or_0.
Theorem laplacian_def a : swf a -> s_nrow a = s_ncol a ->
  dense (get_laplacian a) =m msub (diag (row_sums (dense a))) (dense a).
Proof. intros W Hsq. apply (laplacian_sparse_wf a W Hsq). Qed.
Print Assumptions laplacian_def.
Theorem membership_def labels n_labels m : get_membership labels n_labels = Ok m ->
  s_nrow m = length labels /\ swf m /\
  (forall i j, (i < length labels)%nat -> (j < s_ncol m)%nat ->
     (mget (dense m) i j == if Z.eqb (nth i labels 0%Z) (Z.of_nat j) then 1 else 0)%Q) /\
  from_membership m = Ok (map (fun l => if Z.ltb l 0 then (-1)%Z else l) labels).
Proof. exact (OperatorsProofs.membership_def labels n_labels m). Qed.
Print Assumptions membership_def.
Theorem membership_total labels : labels <> [] -> exists m, get_membership labels None = Ok m.
Proof.
  intros H. unfold get_membership. destruct labels as [|l0 labels]; [contradiction|].
  set (L := l0 :: labels) in *. cbv beta iota. rewrite (proj2 (forallb_forall _ _)); [eexists; reflexivity|].
  intros l Hl. apply Z.ltb_lt. unfold membership_ncol.
  pose proof (zmax_ge l L Hl). pose proof (zmax_lower L). rewrite Z2Nat.id by lia. lia.
Qed.
Print Assumptions membership_total.
Theorem neighbors_def s i j : (j < s_ncol s)%nat ->
  get_neighbors s i false = map fst (nth i (s_rows s) []) /\
  (In i (get_neighbors s j true) <-> (i < s_nrow s)%nat /\ In j (get_neighbors s i false)) /\
  get_degrees s false = map (@length (nat * Q)) (s_rows s) /\
  nth j (get_degrees s true) 0%nat = sumn (map (fun r => length (filter (fun e => Nat.eqb (fst e) j) r)) (s_rows s)).
Proof.
  intros Hj. split; [reflexivity|]. split; [apply neighbors_transpose_def; exact Hj|].
  split; [reflexivity | apply degrees_transpose_def; exact Hj].
Qed.
Print Assumptions neighbors_def.
Theorem weights_def s : swf s ->
  get_weights s false =v row_sums (dense s) /\ get_weights s true =v col_sums (s_ncol s) (dense s).
Proof.
  intros W. unfold get_weights. split.
  - rewrite smv_dense by (auto; vlen). apply (mat_vec_vones _ _ _ (dense_wf s)).
  - rewrite smv_dense by (auto using swf_stranspose; vlen). rewrite dense_stranspose, stranspose_ncol.
    rewrite <- (dense_length s). apply mat_vec_transpose_vones.
Qed.
Print Assumptions weights_def.
Theorem directed2undirected_def a : swf a -> s_nrow a = s_ncol a ->
  dense (directed2undirected a true) =m madd (dense a) (transpose_n (s_ncol a) (dense a)) /\
  (forall i j, (i < s_nrow a)%nat -> (j < s_nrow a)%nat ->
     (mget (dense (directed2undirected a false)) i j
      == if Qeq_bool (mget (dense a) i j + mget (dense a) j i) 0 then 0 else 1)%Q).
Proof.
  intros W Hsq.
  assert (E : dense (sadd a (stranspose a)) =m madd (dense a) (transpose_n (s_ncol a) (dense a))).
  { rewrite dense_sadd by (rewrite stranspose_ncol; lia). rewrite dense_stranspose. reflexivity. }
  split; [exact E|]. intros i j Hi Hj. change (directed2undirected a false) with (sbool (sadd a (stranspose a))).
  rewrite mget_sbool by (rewrite ?sadd_nrow, ?sadd_ncol by (rewrite stranspose_nrow; lia); lia).
  pose proof (dense_wf a) as WA. rewrite <- Hsq in WA, E.
  rewrite E, (mget_madd (s_nrow a) (s_nrow a)), (mget_transpose (s_nrow a) (s_nrow a)) by auto with wf. reflexivity.
Qed.
Print Assumptions directed2undirected_def.
Theorem bipartite_block_def b : swf b ->
  dense (bipartite2undirected b)
  =m block (mzero (s_nrow b) (s_nrow b)) (dense b) (transpose_n (s_ncol b) (dense b)) (mzero (s_ncol b) (s_ncol b)) /\
  dense (bipartite2directed b)
  =m block (mzero (s_nrow b) (s_nrow b)) (dense b) (mzero (s_ncol b) (s_nrow b)) (mzero (s_ncol b) (s_ncol b)).
Proof.
  intros W. split.
  - rewrite <- dense_stranspose. apply bip_dense; [apply stranspose_nrow | apply swf_stranspose].
  - unfold bipartite2directed. rewrite bip_dense by (try apply repeat_length; apply Forall_forall; intros r Hr; rewrite (repeat_spec _ _ _ Hr); constructor).
    apply block_proper; try reflexivity. unfold dense; simpl. rewrite map_repeat. apply Forall2_repeat, dense_row_nil.
Qed.
Print Assumptions bipartite_block_def.
Theorem tfidf_def lnf c : swf c ->
  dense (get_tfidf lnf c) =m col_scale (dense (snormalize c)) (tfidf_idf lnf c) /\
  (forall j, (j < s_ncol c)%nat ->
     nthq (tfidf_idf lnf c) j =
     let f := nth j (get_degrees (spos c) true) 0%nat in if Nat.ltb 0 f then lnf (qnat (s_nrow c) / qnat f)%Q else 0%Q).
Proof.
  intros W. pose proof (tfidf_idf_length lnf c) as HL. split.
  - unfold get_tfidf. assert (Wn : swf (snormalize c)) by (apply swf_smul; exact W).
    rewrite dense_smul by (auto; rewrite sdiag_nrow, HL; reflexivity).
    rewrite dense_sdiag, sdiag_ncol. apply (mat_mul_diag_r (s_nrow (snormalize c))).
    pose proof (dense_wf (snormalize c)) as WD. rewrite HL. exact WD.
  - intros j Hj. unfold tfidf_idf.
    rewrite (nthq_map_gen _ (get_degrees (spos c) true) 0%nat) by (rewrite degrees_transpose_length; exact Hj). reflexivity.
Qed.
Print Assumptions tfidf_def.
(** top_k returns min(k, n) distinct indices whose scores are >= every non-returned score (sorted decreasingly if
    asked), for every answer of argsort / argpartition meeting their contracts *)
Theorem top_k_def (argsort : list Q -> list nat) (argpartition : list Q -> nat -> list nat) scores k sort idx :
  (forall l, Permutation (argsort l) (seq 0 (length l))) ->
  (forall l a b, (a <= b)%nat -> (b < length l)%nat ->
     (nthq l (nth a (argsort l) 0%nat) <= nthq l (nth b (argsort l) 0%nat))%Q) ->
  (forall l k, (k < length l)%nat -> Permutation (argpartition l k) (seq 0 (length l))) ->
  (forall l k a b, (k < length l)%nat -> (a < k)%nat -> (k <= b)%nat -> (b < length l)%nat ->
     (nthq l (nth a (argpartition l k) 0%nat) <= nthq l (nth b (argpartition l k) 0%nat))%Q) ->
  top_k argsort argpartition scores k sort = Ok idx ->
  length idx = Nat.min k (length scores) /\ NoDup idx /\ (forall i, In i idx -> (i < length scores)%nat) /\
  (forall i j, In i idx -> (j < length scores)%nat -> ~ In j idx -> (nthq scores j <= nthq scores i)%Q) /\
  (sort = true -> forall a b, (a <= b)%nat -> (b < length idx)%nat ->
                  (nthq scores (nth b idx 0%nat) <= nthq scores (nth a idx 0%nat))%Q).
Proof.
  intros Hap Has Hpp Hps H. destruct (top_k_spec _ _ Hap Has Hpp Hps _ _ _ _ H) as [(H1 & H2 & H3 & H4) H5].
  repeat split; assumption.
Qed.
Print Assumptions top_k_def.
(** it always returns *)
Theorem top_k_returns argsort argpartition scores k sort : exists idx, top_k argsort argpartition scores k sort = Ok idx.
Proof. unfold top_k. destruct (Nat.leb (length scores) k), sort; eexists; reflexivity. Qed.
Print Assumptions top_k_returns.
(** [legacy_top_k] (DESIGN.md D11) raises for sort = False, k >= len(scores) *)
Theorem legacy_top_k_unsorted_refuted :
  exists scores k, (length scores <= k)%nat /\ forall argsort argpartition, legacy_top_k argsort argpartition scores k false = Err.
Proof. exists [1; 3; 2]%Q, 3%nat. split; [simpl; lia | reflexivity]. Qed.
Print Assumptions legacy_top_k_unsorted_refuted.

(* ------------------------------------------------------------------------------------------- *)
(** * Non-vacuity: a concrete expression meets the hypotheses and the model computes on it *)
Example c15_nonvacuous :
  let a := {| s_ncol := 3; s_rows := [[(1%nat, 1%Q); (2%nat, 2%Q)]; []; [(0%nat, 1 # 2)]] |} in
  let o := OSlr (ST (SAdd (SReg a 1) (SMul 2 (SBase a [([1; 0; 1], [0; 1; 1])%Q])))) in
  op_wf o /\
  exists y, op_apply (fun q => q) o [1; 2; 3]%Q = Ok y /\ y =v [13 # 2; 13; 16]%Q.
Proof.
  split; [|eexists; split; [vm_compute; reflexivity | repeat constructor]].
  simpl. repeat split; repeat constructor.
Qed.
(** a non-square left factor, a scaling of CoNeighbor(normalized=False), transpositions of Normalizer and of a
    directed Laplacian: the sites the legacy code got wrong *)
Example c15_nonvacuous_repaired_sites :
  let a := {| s_ncol := 2; s_rows := [[(0%nat, 1%Q)]; [(0%nat, 1%Q); (1%nat, 1%Q)]] |} in
  let M := {| s_ncol := 2; s_rows := [[(0%nat, 1%Q)]; [(1%nat, 2%Q)]; [(0%nat, 1%Q); (1%nat, 1%Q)]] |} in
  let d := {| s_ncol := 2; s_rows := [[(1%nat, 1%Q)]; []] |} in
  op_wf (OCn (CT (CLeft M (CNeg (CBase a false))))) /\ op_wf (ONorm (NT (NBase M 1))) /\ op_wf (OLap (LT (LBase d 0 false))) /\
  (exists y, op_apply (fun q => q) (OCn (CT (CLeft M (CNeg (CBase a false))))) [1; 2; 3]%Q = Ok y) /\
  (exists y, op_apply (fun q => q) (ONorm (NT (NBase M 1))) [1; 2; 3]%Q = Ok y) /\
  (exists y, op_apply (fun q => q) (OLap (LT (LBase d 0 false))) [1; 2]%Q = Ok y /\ y =v [1; -(1)]%Q).
Proof.
  repeat split; try (simpl; repeat split; repeat constructor; unfold Qle; simpl; lia);
    try (eexists; vm_compute; reflexivity).
  eexists; split; [vm_compute; reflexivity | repeat constructor].
Qed.

(* =========================================================================================== *)
(** * Normalizer as REGENERATED FROM sknetwork/linalg/operators.py

    [src_normalizer_*] (Gen/NpNormalizer.v) are Normalizer(adjacency, regularization)._matvec / _rmatvec (constructor and
    method composed) for a 1-D and for a 2-D operand, translated on every run by harness/translators/npvec.py into the
    array language of Model/NpVec.v.  Over R, for EVERY matrix (index function), every regularization >= 0 and every
    operand, each of the four terms denotes the product with the dense matrix
    N_ij = pinv(sum_j' A_ij' + reg) * (A_ij + reg / n_col), resp. with its transpose. *)
From SKN Require Import Model.NpExpr Model.NpVec Gen.NpNormalizer Proofs.NpVecProofs Proofs.NpNormalizerProofs.
From Coq Require Import Reals Lra.
Local Open Scope R_scope.

Theorem source_normalizer_matvec_1d (n k : nat) (A : nat -> nat -> R) (reg : R) (x : nat -> R) :
  0 <= reg ->
  exists f, rvdenote (env_nv n k A reg k x) src_normalizer_matvec_1d = Some (WV n f) /\
            forall i, (i < n)%nat -> f i = lsum (seq 0 k) (fun j => ndense k A reg i j * x j).
Proof.
  (* evaluated up to the test [self.regularization > 0], then in each branch; the branch without the regularising term
     has [reg = 0], where that term is null (the same in the three theorems below) *)
  intros Hr. unfold env_nv, src_normalizer_matvec_1d. rv_eval.
  destruct (Rleb reg 0) eqn:E; rv_eval; eexists; (split; [reflexivity|]).
  all: intros i Hi; as_lsum; rewrite <- (ndense_row n k A reg x i Hi); apply lsum_ext; intros i' _; unfold wnorm, Rdiv.
  - apply Rleb_true in E. replace reg with 0 by lra. ring.
  - ring.
Qed.
Print Assumptions source_normalizer_matvec_1d.

Theorem source_normalizer_rmatvec_1d (n k : nat) (A : nat -> nat -> R) (reg : R) (y : nat -> R) :
  0 <= reg ->
  exists f, rvdenote (env_nv n k A reg n y) src_normalizer_rmatvec_1d = Some (WV k f) /\
            forall j, (j < k)%nat -> f j = lsum (seq 0 n) (fun i => ndense k A reg i j * y i).
Proof.
  intros Hr. unfold env_nv, src_normalizer_rmatvec_1d. rv_eval.
  destruct (Rleb reg 0) eqn:E; rv_eval; eexists; (split; [reflexivity|]).
  all: intros j Hj; as_lsum; rewrite <- (ndense_col n k A reg y j); unfold wnorm.
  - apply Rleb_true in E. replace reg with 0 by lra. unfold Rdiv. ring.
  - unfold Rdiv. ring.
Qed.
Print Assumptions source_normalizer_rmatvec_1d.

Theorem source_normalizer_matvec_2d (n k m : nat) (A : nat -> nat -> R) (reg : R) (X : nat -> nat -> R) :
  0 <= reg ->
  exists f, rvdenote (env_nm n k A reg k m X) src_normalizer_matvec_2d = Some (WM n m f) /\
            forall i c, (i < n)%nat -> f i c = lsum (seq 0 k) (fun j => ndense k A reg i j * X j c).
Proof.
  intros Hr. unfold env_nm, src_normalizer_matvec_2d. rv_eval.
  destruct (Rleb reg 0) eqn:E; rv_eval; eexists; (split; [reflexivity|]).
  all: intros i c Hi; as_lsum; rewrite <- (ndense_row n k A reg (fun j => X j c) i Hi); apply lsum_ext; intros i' _; unfold wnorm, Rdiv.
  - apply Rleb_true in E. replace reg with 0 by lra. ring.
  - ring.
Qed.
Print Assumptions source_normalizer_matvec_2d.

Theorem source_normalizer_rmatvec_2d (n k m : nat) (A : nat -> nat -> R) (reg : R) (Y : nat -> nat -> R) :
  0 <= reg ->
  exists f, rvdenote (env_nm n k A reg n m Y) src_normalizer_rmatvec_2d = Some (WM k m f) /\
            forall j c, (j < k)%nat -> f j c = lsum (seq 0 n) (fun i => ndense k A reg i j * Y i c).
Proof.
  intros Hr. unfold env_nm, src_normalizer_rmatvec_2d. rv_eval.
  destruct (Rleb reg 0) eqn:E; rv_eval; eexists; (split; [reflexivity|]).
  all: intros j c Hj; as_lsum; rewrite <- (ndense_col n k A reg (fun i => Y i c) j); unfold wnorm.
  - apply Rleb_true in E. replace reg with 0 by lra. unfold Rdiv. ring.
  - unfold Rdiv. ring.
Qed.
Print Assumptions source_normalizer_rmatvec_2d.
