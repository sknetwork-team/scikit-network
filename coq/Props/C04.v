(** C04 — Centrality scores equal their mathematical definitions, whatever the solver.
    Statements of the property, each proved right under it - by [exact] of a lemma of Proofs/, by a script over such lemmas,
    or (the regression witnesses) by evaluation on an explicit witness - and followed by its [Print Assumptions]; and
    non-vacuity examples.  Sections 1-5: PageRank (specification, power iteration, Horner / RH, D-iteration, push);
    6-7: Katz, closeness, betweenness, HITS; last part: the random-surfer operator regenerated from ppr_solver.py
    (Gen/NpRso.v), over R.

    Vocabulary (Model/PageRank.v, Model/Centrality.v; [good_graph] in Proofs/PageRankProofs.v): a weighted digraph is a list of rows of
    (column, weight); [P g] is its row-normalised transition matrix with null rows for the nodes
    without out-links; [PT alpha P] = alpha P^T; [mv n M z] = M z; [norm1], [vsum] are the L1 norm and
    the sum over the first n coordinates; [V l] reads a list as a vector;
    [is_solution n P alpha y x]  :  x = alpha P^T x + (1 - alpha) y;
    [is_pagerank n P alpha y p]  :  p = x / sum x for a solution x (the PageRank vector of the property);
    [good_graph g]               :  column indices < n, weights >= 0. *)
From Coq Require Import Qabs.
From SKN Require Import Base.Util Model.Bfs Proofs.BfsProofs Model.PageRank Model.Centrality
     Proofs.PageRankProofs Proofs.CentralityProofs.

(* ---------------------------------------------------------------------------------------------- *)
(** ** 1. Contraction, uniqueness, soundness of the residual validator *)

(** A non-negative matrix whose column sums are at most alpha contracts the L1 norm by alpha. *)
Theorem norm1_contract (n : nat) (M : mat) (alpha : Q) (z : vec) :
  (forall i j, i < n -> j < n -> (0 <= M i j)%Q) ->
  (forall j, j < n -> (bsum n (fun i => M i j) <= alpha)%Q) ->
  (norm1 n (mv n M z) <= alpha * norm1 n z)%Q.
Proof. exact (norm1_contract_gen n M alpha z). Qed.
Print Assumptions norm1_contract.

(** For alpha < 1 the PageRank equation has at most one solution, and the PageRank vector is unique. *)
Theorem pagerank_solution_unique (g : wgraph) (alpha : Q) (y x x' : vec) :
  good_graph g -> (0 <= alpha < 1)%Q ->
  is_solution (length g) (P g) alpha y x -> is_solution (length g) (P g) alpha y x' ->
  forall j, j < length g -> (x j == x' j)%Q.
Proof. exact (solution_unique g alpha y x x'). Qed.
Print Assumptions pagerank_solution_unique.

Theorem pagerank_vector_unique (g : wgraph) (alpha : Q) (y p p' : vec) :
  good_graph g -> (0 <= alpha < 1)%Q ->
  is_pagerank (length g) (P g) alpha y p -> is_pagerank (length g) (P g) alpha y p' ->
  forall j, j < length g -> (p j == p' j)%Q.
Proof. exact (pagerank_unique g alpha y p p'). Qed.
Print Assumptions pagerank_vector_unique.

(** A vector whose residual is at most eps is within eps / (1 - alpha) of the solution (L1). *)
Theorem residual_bound (g : wgraph) (alpha : Q) (y x xs : vec) (eps : Q) :
  good_graph g -> (0 <= alpha < 1)%Q ->
  (norm1 (length g) (fun j => x j - (mv (length g) (PT alpha (P g)) x j + (1 - alpha) * y j)) <= eps)%Q ->
  is_solution (length g) (P g) alpha y xs ->
  (norm1 (length g) (fun j => x j - xs j) <= eps / (1 - alpha))%Q.
Proof. exact (residual_bound_graph g alpha y x xs eps). Qed.
Print Assumptions residual_bound.

(** The executable validator run by the harness on the implementation's outputs: when it accepts
    (p, eps), the normalised p is within eps (L1) of the PageRank vector, whenever the equation has a
    solution (and then the solution's mass is non-zero, so the PageRank vector exists). *)
Theorem residual_check_sound (g : wgraph) (alpha : Q) (y p : list Q) (eps : Q) :
  residual_check g alpha y p eps = true ->
  good_graph g /\ (0 <= alpha < 1)%Q /\
  forall xs, is_solution (length g) (P g) alpha (V y) xs ->
    ~ (vsum (length g) xs == 0)%Q /\ ~ (vsum (length g) (V p) == 0)%Q /\
    (norm1 (length g) (fun j => V p j / vsum (length g) (V p) - xs j / vsum (length g) xs) <= eps)%Q.
Proof. exact (residual_check_sound_proof g alpha y p eps). Qed.
Print Assumptions residual_check_sound.

(* ---------------------------------------------------------------------------------------------- *)
(** ** 2. The coded RandomSurferOperator and power iteration *)

(** [surfer_matvec] (a.dot(x) + b * restart.dot(x)) keeps the total mass when the seeds sum to 1,
    sinks included; it is the transition kernel of the surfer of the property text. *)
Theorem surfer_operator_stochastic (g : wgraph) (alpha : Q) (y x : list Q) :
  good_graph g -> (0 <= alpha)%Q -> (vsum (length g) (V y) == 1)%Q ->
  (vsum (length g) (V (surfer_matvec g alpha y x)) == vsum (length g) (V x))%Q /\
  forall j, j < length g ->
    (V (surfer_matvec g alpha y x) j == mv (length g) (surfer_kernel (P g) (has_out g) alpha (V y)) (V x) j)%Q.
Proof.
  intros Hg Ha Hy. split; [apply surfer_matvec_mass; assumption|].
  intros j Hj. rewrite (surfer_matvec_spec g alpha y x j Hj). apply surfer_fun_kernel.
Qed.
Print Assumptions surfer_operator_stochastic.

(** Any probability vector fixed by one coded power-iteration step (operator, then division by the
    sum) is the PageRank vector; so is any stationary distribution of the surfer's chain. *)
Theorem piteration_fixed_point (g : wgraph) (alpha : Q) (y x : list Q) :
  good_graph g -> (0 <= alpha < 1)%Q ->
  (vsum (length g) (V y) == 1)%Q -> (vsum (length g) (V x) == 1)%Q ->
  (forall j, j < length g -> (V (piteration_step (surfer_matvec g alpha y) x) j == V x j)%Q) ->
  is_pagerank (length g) (P g) alpha (V y) (V x).
Proof. exact (piteration_fixed_point_proof g alpha y x). Qed.
Print Assumptions piteration_fixed_point.

Theorem surfer_stationary_is_pagerank (g : wgraph) (alpha : Q) (y p : vec) :
  good_graph g -> (0 <= alpha < 1)%Q ->
  is_stationary (length g) (surfer_kernel (P g) (has_out g) alpha y) p ->
  is_pagerank (length g) (P g) alpha y p.
Proof.
  intros Hg Ha [Hs Hst]. apply fixed_point_is_pagerank; try assumption.
  intros j Hj. rewrite surfer_fun_kernel. symmetry. apply Hst. exact Hj.
Qed.
Print Assumptions surfer_stationary_is_pagerank.

(** Power iteration as coded (n_iter steps from x; early exit when two successive iterates are closer
    than tol, returning the OLDER one): for a non-negative restart distribution the distance to the
    stationary distribution p of the surfer (= the PageRank vector, previous theorem) never grows, and it
    ends below alpha^n_iter times the initial distance or below tol / (1 - alpha). *)
Theorem piteration_error (g : wgraph) (alpha : Q) (y : list Q) (p : vec) (n_iter : nat) (tol : Q) (x : list Q) :
  good_graph g -> (0 <= alpha < 1)%Q -> length x = length g ->
  (forall j, j < length g -> (0 <= V y j)%Q) -> (vsum (length g) (V y) == 1)%Q ->
  (vsum (length g) (V x) == 1)%Q ->
  is_stationary (length g) (surfer_kernel (P g) (has_out g) alpha (V y)) p ->
  let r := piteration_loop n_iter (surfer_matvec g alpha y) tol x in
  let e0 := norm1 (length g) (fun j => V x j - p j)%Q in
  let e := norm1 (length g) (fun j => V r j - p j)%Q in
  (vsum (length g) (V r) == 1)%Q /\ (e <= e0)%Q /\ ((e <= apow alpha n_iter * e0)%Q \/ (e <= tol / (1 - alpha))%Q).
Proof. exact (piteration_error_proof g alpha y p n_iter tol x). Qed.
Print Assumptions piteration_error.

(** Regression witness (finding D2): [old_surfer_matvec] models the operator with
    b = (1 - alpha out) * y elementwise and b * sum(x); on the graph 0 -> 1 with uniform restart and
    alpha = 4/7 its normalised fixed point is x = (1/4, 3/4), whereas the PageRank vector is (7/18, 11/18)
    — which [surfer_matvec] does fix. *)
Theorem old_operator_refuted :
  exists (g : wgraph) (alpha : Q) (y x xs : list Q),
    good_graph g /\ (0 <= alpha < 1)%Q /\ (vsum (length g) (V y) == 1)%Q /\ (vsum (length g) (V x) == 1)%Q /\
    piteration_step (old_surfer_matvec g alpha y) x = x /\
    solution_check g alpha y xs = true /\
    ~ (V x O == V xs O / vsum (length g) (V xs))%Q /\
    piteration_step (surfer_matvec g alpha y) (vnormalize xs) = vnormalize xs.
Proof.
  exists [[(1, 1%Q)]; []], (4 # 7)%Q, [1 # 2; 1 # 2]%Q, [1 # 4; 3 # 4]%Q, [3 # 14; 33 # 98]%Q.
  repeat split; try reflexivity; vm_compute; congruence.
Qed.
Print Assumptions old_operator_refuted.

(* ---------------------------------------------------------------------------------------------- *)
(** ** 3. Horner's scheme and the RH solver *)

(** Polynome._matvec computes sum_k coeffs[k] M^k x. *)
Theorem horner_eq_power_sum (n : nat) (M : mat) (coeffs x : list Q) :
  length x = n -> coeffs <> [] ->
  length (horner (mvl n M) coeffs x) = n /\
  forall j, j < n -> (V (horner (mvl n M) coeffs x) j == power_sum n M coeffs (V x) j)%Q.
Proof. exact (horner_eq_power_sum_proof n M coeffs x). Qed.
Print Assumptions horner_eq_power_sum.

(** RH returns s = sum_{k <= K} (alpha P^T)^k y; its residual for x = alpha P^T x + y is at most
    alpha^(K+1) |y|_1, and (1 - alpha) s is within that distance of the solution. *)
Theorem rh_error (g : wgraph) (alpha : Q) (y : list Q) (K : nat) :
  good_graph g -> (0 <= alpha)%Q -> length y = length g ->
  let n := length g in
  let M := PT alpha (P g) in
  let s := rh g alpha y K in
  veq n s (fun j => bsum (S K) (fun k => pow_mv n M k (V y) j)) /\
  (norm1 n (fun j => V s j - (mv n M (V s) j + V y j)) <= apow alpha (S K) * norm1 n (V y))%Q.
Proof. exact (rh_error_proof g alpha y K). Qed.
Print Assumptions rh_error.

Theorem rh_converges (g : wgraph) (alpha : Q) (y : list Q) (K : nat) (xs : vec) :
  good_graph g -> (0 <= alpha < 1)%Q -> length y = length g ->
  is_solution (length g) (P g) alpha (V y) xs ->
  (norm1 (length g) (fun j => (1 - alpha) * V (rh g alpha y K) j - xs j)
   <= apow alpha (S K) * norm1 (length g) (V y))%Q.
Proof. exact (rh_close_to_solution g alpha y K xs). Qed.
Print Assumptions rh_converges.

(* ---------------------------------------------------------------------------------------------- *)
(** ** 4. D-iteration (sequential sweep) *)

(** For ANY number of sweeps and any tolerance: with z = xs - scores (xs any solution),
    z - alpha P^T z = fluid, fluid >= 0, residu = total fluid (that is [dit_inv]); hence
    |xs - scores|_1 <= residu / (1 - alpha); and when the kernel returns through its tolerance test
    the error is below tol. *)
Theorem diteration_invariant (g : wgraph) (alpha : Q) (y : list Q) (n_iter : nat) (tol : Q) (xs : vec) :
  good_graph g -> (0 <= alpha < 1)%Q -> length y = length g ->
  (forall j, j < length g -> (0 <= V y j)%Q) -> (vsum (length g) (V y) == 1)%Q ->
  is_solution (length g) (P g) alpha (V y) xs ->
  let st := diteration_state g alpha y n_iter tol in
  dit_inv g alpha xs (fst st) /\
  (0 <= d_residu (fst st))%Q /\
  (norm1 (length g) (fun j => xs j - V (d_scores (fst st)) j) <= d_residu (fst st) / (1 - alpha))%Q /\
  (snd st = true -> (norm1 (length g) (fun j => xs j - V (d_scores (fst st)) j) < tol)%Q).
Proof. exact (diteration_invariant_proof g alpha y n_iter tol xs). Qed.
Print Assumptions diteration_invariant.

(** Each sweep multiplies the remaining mass by at most alpha: after n_iter sweeps (tolerance test
    disabled) at most alpha^n_iter (1 - alpha) fluid is left and the error is at most alpha^n_iter. *)
Theorem diteration_mass_decreases (g : wgraph) (alpha : Q) (y : list Q) (n_iter : nat) (xs : vec) :
  good_graph g -> (0 <= alpha < 1)%Q -> length y = length g ->
  (forall j, j < length g -> (0 <= V y j)%Q) -> (vsum (length g) (V y) == 1)%Q ->
  is_solution (length g) (P g) alpha (V y) xs ->
  (d_residu (fst (diteration_state g alpha y n_iter 0)) <= apow alpha n_iter * (1 - alpha))%Q /\
  (norm1 (length g) (fun j => xs j - V (diteration g alpha y n_iter 0) j) <= apow alpha n_iter)%Q.
Proof.
  intros Hg [Ha0 Ha1] Ly Hy Hsy Hxs.
  assert (Hinit := dit_init_inv g alpha y xs Hg (conj Ha0 (Qlt_le_weak _ _ Ha1)) Ly Hy Hsy Hxs).
  assert (Hm := dit_loop_mass g alpha xs Hg Ha0 n_iter _ Ha1 Hinit).
  split; [exact Hm|].
  destruct (diteration_invariant_proof g alpha y n_iter 0 xs Hg (conj Ha0 Ha1) Ly Hy Hsy Hxs) as (_ & _ & Herr & _).
  eapply Qle_trans; [exact Herr|].
  apply Qle_shift_div_r; [apply -> Qlt_minus_iff; exact Ha1|exact Hm].
Qed.
Print Assumptions diteration_mass_decreases.

(* ---------------------------------------------------------------------------------------------- *)
(** ** 5. The push kernel (recorded finding D4: solver = 'push' is excluded from every positive theorem
       above — none of them mentions [push_pagerank] — and refuted here) *)

(** On the house graph, uniform restart, alpha = 0.85, for every order argsort may return and for
    tolerances 1e-1, 1e-3, 1e-9, the faithful model of push.pyx ends (work-list empty) more than 0.02
    (L1) away from the PageRank vector, which [solution_check] certifies exactly. *)
Theorem push_refuted :
  good_graph house /\
  solution_check house (85 # 100) (repeat (1 # 5)%Q 5) house_solution = true /\
  forall order tol, In order (perms [0; 1; 2; 3; 4]) -> In tol [1 # 10; 1 # 1000; 1 # 1000000000]%Q ->
    push_far house (85 # 100) (repeat (1 # 5)%Q 5) house_solution (2 # 100) order tol = true.
Proof. exact push_refuted_proof. Qed.
Print Assumptions push_refuted.

(* ---------------------------------------------------------------------------------------------- *)
(** ** 6. Katz, closeness, betweenness, HITS *)

(** Katz.fit = sum_{k=1..K} alpha^k ((A^T)^k 1) with A the 0/1 PATTERN of the adjacency matrix
    (the code casts to bool: weights are ignored; the docstring says "adjacency matrix"). *)
Theorem katz_def (g : wgraph) (alpha : Q) (K : nat) :
  length (katz g alpha K) = length g /\
  forall j, j < length g -> (V (katz g alpha K) j == katz_spec (pattern g) alpha K j)%Q.
Proof. exact (katz_def_proof g alpha K). Qed.
Print Assumptions katz_def.

(** Closeness (method='exact'): (n - 1) / sum_j d(i, j) with d the exact hop distance (C10), and 0
    for a node that does not reach every node. *)
Theorem closeness_def (p : graph) (i : nat) :
  i < length p ->
  exists dist,
    bfs p (single_source (length p) i) = Some dist /\ length dist = length p /\
    (forall v, v < length p ->
       (forall k, nthz dist v = Z.of_nat k <-> hop p (single_source (length p) i) v k) /\
       (nthz dist v = (-1)%Z <-> forall k, ~ reachk p (single_source (length p) i) k v)) /\
    (V (closeness_exact p) i ==
       (if existsb (fun d => (d <? 0)%Z) dist then 0 else closeness_spec (length p) dist))%Q.
Proof.
  intros Hi. set (n := length p) in *.
  destruct (bfs_exact p (single_source n i) (single_source_length n i)) as (dist & Hb & Ld & Hd).
  exists dist. split; [exact Hb|]. split; [exact Ld|]. split; [exact Hd|].
  unfold closeness_exact, dist_rows. fold n. rewrite map_map.
  unfold V, nthq. rewrite nth_map_seq by exact Hi. rewrite Hb.
  destruct (existsb (fun d => (d <? 0)%Z) dist) eqn:E.
  - unfold closeness_of. rewrite E. reflexivity.
  - apply closeness_of_spec; [lia|exact Ld|exact E].
Qed.
Print Assumptions closeness_def.

(** On the enumerated small graphs: the coded Brandes accumulation equals the textbook betweenness (sum over
    ordered pairs s <> v <> t of sigma_st(v) / sigma_st, halved for a symmetric adjacency) on every
    digraph with at most 3 nodes (loops allowed) and every loop-free digraph on 4 nodes, in the form the
    harness evaluates ([list_eqb], entry by entry).  An instance of [brandes_exact] (section 7): every graph
    that [all_digraphs] enumerates has in-range, duplicate-free rows. *)
Theorem brandes_exact_small_partial :
  forallb (fun g => list_eqb (betweenness g) (betweenness_spec g))
          (all_digraphs 1 true ++ all_digraphs 2 true ++ all_digraphs 3 true ++ all_digraphs 4 false) = true.
Proof. exact brandes_exact_small_partial_proof. Qed.
Print Assumptions brandes_exact_small_partial.

(** HITS wrapper, conditional on the SVD oracle: when the singular vector handed back by the solver has
    entries of one sign (the Perron vector up to the solver's sign), the wrapper returns |u| entrywise. *)
Theorem hits_wrapper (u : list Q) :
  (forall x, In x u -> (0 <= x)%Q) \/ (forall x, In x u -> (x <= 0)%Q) ->
  Forall2 Qeq (sign_fix u) (map Qabs u).
Proof. exact (hits_wrapper_proof u). Qed.
Print Assumptions hits_wrapper.

(** Regression witnesses: on one input each, [old_sign_fix], [old_closeness_approx], [old_betweenness]
    (Model/Centrality.v) differ from the specification, and [sign_fix], [closeness_approx], [betweenness] agree with it. *)
Theorem old_hits_sign_refuted :
  exists u : list Q,
    u = [- (1 # 2); - (3 # 4); 1 # 100000000000000000; 1 # 100000000000000000; 1 # 100000000000000000]%Q /\
    old_sign_fix u = [0; 0; 1 # 100000000000000000; 1 # 100000000000000000; 1 # 100000000000000000]%Q /\
    sign_fix u = [1 # 2; 3 # 4; 0; 0; 0]%Q.
Proof. eexists. split; [reflexivity|]. split; vm_compute; reflexivity. Qed.
Print Assumptions old_hits_sign_refuted.

Theorem old_closeness_approx_refuted :
  exists (p : graph) (sources : list nat),
    sources = [1; 0; 2] /\ p = [[1]; [0; 2]; [1]] /\
    list_eqb (closeness_approx p sources) (closeness_exact p) = true /\
    list_eqb (old_closeness_approx p sources) (closeness_exact p) = false.
Proof. exists [[1]; [0; 2]; [1]], [1; 0; 2]. repeat split; vm_compute; reflexivity. Qed.
Print Assumptions old_closeness_approx_refuted.

Theorem old_betweenness_refuted :
  exists g : wgraph,
    g = [[(1, 1%Q)]; [(2, 1%Q)]; []] /\ is_symmetric g = false /\
    betweenness g = betweenness_spec g /\ betweenness_spec g = [0; 1; 0]%Q /\
    old_betweenness g = [0; 1 # 2; 0]%Q.
Proof. exists [[(1, 1%Q)]; [(2, 1%Q)]; []]. repeat split; vm_compute; reflexivity. Qed.
Print Assumptions old_betweenness_refuted.

(* ---------------------------------------------------------------------------------------------- *)
(** ** Non-vacuity: a graph with a sink meeting every hypothesis, on which the models compute and the
       validator accepts the true vector and rejects a wrong one. *)
Example c04_nonvacuous :
  let g : wgraph := [[(1, 2%Q); (2, 1%Q)]; [(2, 3%Q)]; []] in
  let y := [1 # 2; 1 # 4; 1 # 4]%Q in
  let alpha := (1 # 2)%Q in
  let xs := [1 # 4; 5 # 24; 13 # 48]%Q in
  good_graph g /\ (vsum 3 (V y) == 1)%Q /\ (forall j, j < 3 -> (0 <= V y j)%Q) /\
  solution_check g alpha y xs = true /\
  residual_check g alpha y xs (1 # 1000000) = true /\
  residual_check g alpha y [1 # 3; 1 # 3; 1 # 3]%Q (1 # 100) = false /\
  rh g alpha y 2 = [1 # 2; 5 # 12; 13 # 24]%Q /\
  diteration g alpha y 1 0 = xs /\
  piteration_step (surfer_matvec g alpha y) (vnormalize xs) = vnormalize xs.
Proof.
  cbv zeta. repeat split; try reflexivity; try (vm_compute; congruence).
  intros j Hj. destruct j as [|[|[|j]]]; cbn; try lia; discriminate.
Qed.

(* ---------------------------------------------------------------------------------------------- *)
(** ** 7. Betweenness without a size bound (Proofs/BrandesProofs.v; [brandes_exact_small_partial] above
       is an instance)

    Vocabulary ([brandes_bfs], [back_step], [pair_dependency]: Model/Centrality.v; [brandes_forward], [shortest_paths]:
    Proofs/BrandesProofs.v; [hop]: Proofs/BfsProofs.v). [p : graph] is the 0/1 pattern ([row p u] = stored column indices of row u).
    Hypotheses: every stored column index is < n, and no row stores the same column twice (the
    specification's walk matrix is 0/1, the code would count a duplicated CSR entry twice). No
    connectivity hypothesis is needed: unreachable nodes contribute 0.
    [brandes_forward p s] = [brandes_bfs n p st0 []], the BFS loop of the code from source s (st0: queue
    [s], dists -1 except dists[s] = 0, sigma 0 except sigma[s] = 1, preds empty), returning the final
    state and the stack [seen]; [hop p (single_source n s) v k]: k is the least number of arcs of a walk
    from s to v (C10's vocabulary); [shortest_paths p s t d]: the explicit list of the walks of d arcs
    from s to t, as lists of d + 1 nodes; [back_step] is the body of the backward while loop. *)
From SKN Require Import Proofs.BrandesProofs.
Set Warnings "-notation-overridden".

(** What [shortest_paths] enumerates (independent specification of "path"), without repetition. *)
Theorem shortest_paths_spec (p : graph) (s t d : nat) (l : list nat) :
  In l (shortest_paths p s t d) <-> length l = S d /\ hd 0 l = s /\ last l 0 = t /\ is_walk p l.
Proof. unfold shortest_paths. rewrite filter_In, walks_from_spec, Nat.eqb_eq. tauto. Qed.
Print Assumptions shortest_paths_spec.

Theorem shortest_paths_nodup (p : graph) (s t d : nat) :
  (forall u, NoDup (row p u)) -> NoDup (shortest_paths p s t d).
Proof. intros Hnd. apply NoDup_filter, walks_from_nodup. exact Hnd. Qed.
Print Assumptions shortest_paths_nodup.

(** Forward phase: the queue empties within the n pops allowed; dists are the exact hop distances
    (-1 = unreachable); sigma[v] = NUMBER of shortest paths from s to v (0 when unreachable); preds[v]
    lists, each once, exactly the in-neighbours u of v with dist u + 1 = dist v. *)
Theorem brandes_sigma_counts_shortest_paths (p : graph) (s : nat) :
  (forall u v, In v (row p u) -> v < length p) -> (forall u, NoDup (row p u)) -> s < length p ->
  let st := fst (brandes_forward p s) in
  let seen := snd (brandes_forward p s) in
  b_queue st = [] /\ NoDup seen /\
  forall v, v < length p ->
    (forall k, nthz (b_dists st) v = Z.of_nat k <-> hop p (single_source (length p) s) v k) /\
    (nthz (b_dists st) v = (-1)%Z <-> forall k, ~ reachk p (single_source (length p) s) k v) /\
    (In v seen <-> (0 <= nthz (b_dists st) v)%Z) /\
    (forall k, hop p (single_source (length p) s) v k ->
       nthz (b_sigma st) v = Z.of_nat (length (shortest_paths p s v k))) /\
    (nthz (b_dists st) v = (-1)%Z -> nthz (b_sigma st) v = 0%Z) /\
    NoDup (nth v (b_preds st) []) /\
    (forall u, In u (nth v (b_preds st) []) <->
       In v (row p u) /\ (0 <= nthz (b_dists st) u)%Z /\ (nthz (b_dists st) u + 1 = nthz (b_dists st) v)%Z).
Proof.
  intros Hwf Hnd Hs st seen. destruct (forward_final p s Hwf Hnd Hs) as [Hq HF]. fold st seen in Hq, HF.
  split; [exact Hq|]. split; [exact (f_nd HF)|]. intros v Hv.
  split; [intros k; exact (f_dist HF k Hv)|]. split; [exact (f_unreach HF Hv)|]. split; [exact (f_seen HF Hv)|].
  split; [exact (sigma_paths p s _ _ _ _ Hwf Hnd Hs HF v Hv)|]. split; [intros E; apply (f_sigma0 HF Hv); lia|].
  split; [exact (preds_nodup p s _ _ _ _ HF v Hv)|exact (preds_iff p s _ _ _ _ HF v Hv)].
Qed.
Print Assumptions brandes_sigma_counts_shortest_paths.

(** The pair dependency sigma_st(v) / sigma_st of the specification, in explicit path counts, and the
    identity sigma_st(v) = sigma_sv * sigma_vt: among the walks of a + b arcs from u to t, those whose
    a-th node is v are as many as (walks of a arcs u -> v) x (walks of b arcs v -> t). *)
Theorem pair_dependency_paths (p : graph) (s t v dt dv : nat) :
  (forall u w, In w (row p u) -> w < length p) -> (forall u, NoDup (row p u)) ->
  s < length p -> t < length p -> v < length p ->
  hop p (single_source (length p) s) t dt -> hop p (single_source (length p) s) v dv ->
  (pair_dependency p s t v ==
   if Nat.leb dv dt
   then qn (length (shortest_paths p s v dv)) * qn (length (shortest_paths p v t (dt - dv)))
        / qn (length (shortest_paths p s t dt))
   else 0)%Q.
Proof.
  intros Hwf Hnd Hs Ht Hv Hht Hhv.
  apply (sdist_hop p s t dt Hs Ht) in Hht. apply (sdist_hop p s v dv Hs Hv) in Hhv.
  destruct (Nat.leb dv dt) eqn:E.
  - apply Nat.leb_le in E. rewrite (pair_dep_on p s t v dt dv Hs Ht Hv Hht Hhv E).
    fold (cntw p dv s v). fold (cntw p (dt - dv) v t). fold (cntw p dt s t).
    rewrite !cntw_nw by assumption. reflexivity.
  - apply Nat.leb_gt in E. apply (pair_dep_off p s t v dt dv Hs Ht Hv Hht Hhv E).
Qed.
Print Assumptions pair_dependency_paths.

Theorem paths_through (p : graph) (a b u v t : nat) :
  length (filter (fun l => Nat.eqb (nth a l 0) v) (shortest_paths p u t (a + b))) =
  length (shortest_paths p u v a) * length (shortest_paths p v t b).
Proof. exact (paths_through_proof p a b u v t). Qed.
Print Assumptions paths_through.

(** Backward phase (the code pops [seen], i.e. the reverse discovery order): the accumulated delta
    satisfies Brandes' recurrence over the predecessor lists; on every node reachable from s it IS the
    dependency sum_{t <> v} sigma_st(v) / sigma_st (Brandes' theorem); that dependency is 0 on the
    unreachable nodes; and [brandes_source] adds exactly it to scores[v] for v <> s. *)
Theorem brandes_delta_recurrence (p : graph) (s : nat) (sc0 : list Q) :
  (forall u v, In v (row p u) -> v < length p) -> (forall u, NoDup (row p u)) ->
  s < length p -> length sc0 = length p ->
  let st := fst (brandes_forward p s) in
  let seen := snd (brandes_forward p s) in
  let acc := fold_left (back_step s (b_sigma st) (b_preds st)) seen (repeat 0%Q (length p), sc0) in
  let dep := fun v => bsum (length p) (fun t => if Nat.eqb t v then 0%Q else pair_dependency p s t v) in
  brandes_source p sc0 s = snd acc /\
  (forall v, v < length p ->
     (V (fst acc) v == bsum (length p) (fun w =>
        if memn v (nth w (b_preds st) [])
        then zq (nthz (b_sigma st) v) / zq (nthz (b_sigma st) w) * (1 + V (fst acc) w) else 0))%Q) /\
  (forall v, v < length p -> (0 <= nthz (b_dists st) v)%Z -> (V (fst acc) v == dep v)%Q) /\
  (forall v, v < length p -> (nthz (b_dists st) v < 0)%Z -> (dep v == 0)%Q) /\
  (forall v, v < length p -> (V (snd acc) v == V sc0 v + (if Nat.eqb v s then 0 else dep v))%Q).
Proof.
  intros Hwf Hnd Hs L st seen acc dep. destruct (forward_final p s Hwf Hnd Hs) as [_ HF]. fold st seen in HF.
  destruct (backward_result p s Hs seen _ _ _ HF sc0 L) as (_ & H2 & _). fold acc in H2.
  split; [apply brandes_source_eq|]. split; [exact H2|]. split; [|split].
  - exact (delta_is_dependency p s Hwf Hs seen _ _ _ HF (fst acc) H2).
  - exact (DD_neg p s Hs seen _ _ _ HF).
  - exact (proj2 (one_source_scores p s Hwf Hs seen _ _ _ HF sc0 L)).
Qed.
Print Assumptions brandes_delta_recurrence.

(** Betweenness.fit as coded = the textbook betweenness, for EVERY size: the sum over ordered pairs
    (s, t), s <> v <> t, s <> t, of sigma_st(v) / sigma_st, halved exactly when the adjacency is
    symmetric.  (check_connected of the code is not needed for the identity.) *)
Theorem brandes_exact (g : wgraph) :
  (forall u v, In v (row (pattern g) u) -> v < length g) ->
  (forall u, NoDup (row (pattern g) u)) ->
  length (betweenness g) = length g /\
  forall v, v < length g ->
    (V (betweenness g) v == V (betweenness_spec g) v)%Q /\
    (V (betweenness_spec g) v ==
       let n := length g in
       let ordered := bsum n (fun s => bsum n (fun t =>
          if Nat.eqb s v || Nat.eqb t v || Nat.eqb s t then 0 else pair_dependency (pattern g) s t v)) in
       if is_symmetric g then ordered / 2 else ordered)%Q.
Proof. exact (brandes_exact_explicit g). Qed.
Print Assumptions brandes_exact.

(** The same with the hypotheses decided by the executable [rows_ok] (used by the harness). *)
Theorem brandes_exact_rows_ok (g : wgraph) :
  rows_ok (pattern g) = true ->
  length (betweenness g) = length g /\
  forall v, v < length g -> (V (betweenness g) v == V (betweenness_spec g) v)%Q.
Proof.
  intros H. destruct (rows_ok_sound _ H) as [Hwf Hnd].
  destruct (brandes_exact_proof g Hwf Hnd) as (L1 & _ & H2). split; assumption.
Qed.
Print Assumptions brandes_exact_rows_ok.

(** Undirected case: when the stored pattern is symmetric and [is_symmetric] holds (so the code
    halves), the score of v is the sum over UNORDERED pairs {s, t} (t < s, each once), s <> v <> t,
    of sigma_st(v) / sigma_st. *)
Theorem brandes_undirected (g : wgraph) :
  (forall u v, In v (row (pattern g) u) -> v < length g) ->
  (forall u, NoDup (row (pattern g) u)) ->
  (forall u v, In v (row (pattern g) u) <-> In u (row (pattern g) v)) ->
  is_symmetric g = true ->
  forall v, v < length g ->
    (V (betweenness g) v ==
     bsum (length g) (fun s => bsum s (fun t =>
       if Nat.eqb s v || Nat.eqb t v then 0 else pair_dependency (pattern g) s t v)))%Q.
Proof. exact (brandes_undirected_proof g). Qed.
Print Assumptions brandes_undirected.

(** Non-vacuity: a directed diamond with a tail (two shortest paths 0 -> 3 and 0 -> 4, not connected
    strongly, not symmetric) and an undirected 4-cycle (symmetric: halved) meet the hypotheses. *)
Example brandes_nonvacuous :
  let g := graph_of_arcs 5 [(0,1);(0,2);(1,3);(2,3);(3,4)] in
  let h := graph_of_arcs 4 [(0,1);(1,0);(1,2);(2,1);(0,3);(3,0);(3,2);(2,3)] in
  rows_ok (pattern g) = true /\ is_symmetric g = false /\ betweenness g = [0; 1; 1; 3; 0]%Q /\
  b_sigma (fst (brandes_forward (pattern g) 0)) = [1; 1; 1; 2; 2]%Z /\
  b_preds (fst (brandes_forward (pattern g) 0)) = [[]; [0]; [0]; [1; 2]; [3]] /\
  shortest_paths (pattern g) 0 4 3 = [[0; 1; 3; 4]; [0; 2; 3; 4]] /\
  rows_ok (pattern h) = true /\ is_symmetric h = true /\ betweenness h = [1 # 2; 1 # 2; 1 # 2; 1 # 2]%Q.
Proof. cbv zeta. repeat split; vm_compute; reflexivity. Qed.

(* =========================================================================================== *)
(** * The random-surfer operator as REGENERATED FROM sknetwork/linalg/ppr_solver.py

    [src_rso_matvec] (Gen/NpRso.v) is RandomSurferOperator(adjacency, seeds, damping_factor)._matvec(x) — constructor and
    method composed, sparse-matrix branch — translated on every run by harness/translators/npvec.py into the array
    language of Model/NpVec.v; it is the operator that the piteration, lanczos and bicgstab solvers of get_pagerank share.
    Over R, for EVERY non-negative adjacency matrix (index function), restart distribution summing to 1, damping factor and
    vector: the operator preserves the total mass, and a fixed point of mass 1 solves x = a P'^T x + (1 - a) y where a node
    without out-links restarts from y (uniqueness of that solution is the theorem pagerank_solution_unique above). *)
From SKN Require Import Model.NpExpr Model.NpVec Gen.NpRso Proofs.NpVecProofs Proofs.NpRsoProofs.
From Coq Require Import Reals Lra.
Local Open Scope R_scope.

Theorem source_rso_mass_and_fixed_point (n : nat) (A : nat -> nat -> R) (s : nat -> R) (alpha : R) (x : nat -> R) :
  nonneg_mat n A -> rsum n s = 1 ->
  exists f, rvdenote (env_rso n A s x alpha) src_rso_matvec = Some (WV n f) /\
    rsum n f = rsum n x /\
    ((forall i, (i < n)%nat -> f i = x i) -> rsum n x = 1 ->
     forall i, (i < n)%nat -> x i = alpha * rsum n (fun j => patched n A s j i * x j) + (1 - alpha) * s i).
Proof.
  intros HA Hs. exists (rso n A s alpha x). split; [apply src_rso_denotes|]. split.
  - exact (rso_preserves_mass n A s alpha x HA Hs).
  - intros Hfix Hx. exact (rso_fixed_point_is_pagerank n A s alpha x HA Hfix Hx).
Qed.
Print Assumptions source_rso_mass_and_fixed_point.

Example c04_nonvacuous_source :
  nonneg_mat 2 (fun i j => if Nat.eqb i 0 then (if Nat.eqb j 1 then 3 else 0) else 0) /\ rsum 2 (fun i => if Nat.eqb i 0 then 1 else 0) = 1.
Proof.
  split.
  - intros i j _ _. destruct (Nat.eqb i 0); [destruct (Nat.eqb j 1)|]; lra.
  - unfold rsum, vsum, Gnn.g_sum. cbn. lra.
Qed.
