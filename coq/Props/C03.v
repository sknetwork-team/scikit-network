(** C03 - A biadjacency matrix is treated exactly as its bipartite block adjacency (theorem side).
    Model/Format.v models the shared glue: [bipartite2undirected] / [bipartite2directed] (rows first),
    [get_adjacency] (decision expression), [get_values] / [stack_values] (seed addressing),
    [get_adjacency_values], [_split_vars] ([Format.split]) and the estimator skeleton [fit].
    What is NOT proved here: that a given estimator has the skeleton's shape and passes the flags it
    should (observed per estimator by the metamorphic harness).
    Items 9-12: the generic skeleton of Model/Format.v.  Item 13: the same statement for the estimator models
    (Proofs/BipartiteInstances.v).  Last part: the source-level statements about the seed glue regenerated from the
    Python text (Gen/PyValues.v).
    This file contains statements of the property, each proved right under it - by [exact] of a lemma of Proofs/, by a
    script over such lemmas, by conversion for the statements that only display a definition or pin generated text, or, for the
    obligation over the generated term [adj_decision], by case analysis on booleans - and followed by its
    [Print Assumptions]; and non-vacuity examples (by evaluation). *)
From SKN Require Import Gen.Routing.
From Coq Require Import Permutation Sorted.
From SKN Require Import Base.Util Model.Bfs Model.Format Proofs.BfsProofs Proofs.FormatProofs.

(** 9. The block matrix [[0, B], [B^T, 0]], row nodes first: entry (i, n_row + j) and entry
    (n_row + j, i) are B[i][j]; the two diagonal blocks are zero. *)
Theorem block_denotation (b : wmat) :
  let n_row := length (snd b) in
  let n_col := fst b in
  let a := snd (bipartite2undirected b) in
  fst (bipartite2undirected b) = n_row + n_col /\ length a = n_row + n_col /\
  (forall i j, i < n_row -> (entry a i (n_row + j) == entry (snd b) i j)%Q) /\
  (forall i j, j < n_col -> (entry a (n_row + j) i == entry (snd b) i j)%Q) /\
  (forall i i', i < n_row -> i' < n_row -> (entry a i i' == 0)%Q) /\
  (forall j j', j < n_col -> (entry a (n_row + j) (n_row + j') == 0)%Q).
Proof. exact (FormatProofs.block_denotation b). Qed.
Print Assumptions block_denotation.

(** [[0, B], [0, 0]]: the rows of the column nodes are empty. *)
Theorem block_directed_denotation (b : wmat) :
  let n_row := length (snd b) in
  let n_col := fst b in
  let a := snd (bipartite2directed b) in
  fst (bipartite2directed b) = n_row + n_col /\ length a = n_row + n_col /\
  (forall i j, i < n_row -> (entry a i (n_row + j) == entry (snd b) i j)%Q) /\
  (forall i i', i < n_row -> i' < n_row -> (entry a i i' == 0)%Q) /\
  (forall j k, (entry a (n_row + j) k == 0)%Q).
Proof. exact (FormatProofs.block_directed_denotation b). Qed.
Print Assumptions block_directed_denotation.

(** Pattern version: the same edge set as the block graph the path functions use (Model.Bfs). *)
Theorem block_pattern (b : wmat) :
  let g := pattern (snd (bipartite2undirected b)) in
  let g' := block_undirected (pattern_pmat b) in
  length g = length g' /\ forall u v, In v (row g u) <-> In v (row g' u).
Proof. exact (FormatProofs.block_pattern b). Qed.
Print Assumptions block_pattern.

(** The block matrix of rows in canonical format is in canonical format, and it is a square
    symmetric matrix, so that [get_adjacency] applied to it returns it unchanged. *)
Theorem block_sorted (b : wmat) :
  rows_sorted (snd b) -> rows_sorted (snd (bipartite2undirected b)).
Proof.
  destruct b as [nc rows]. cbn [fst snd bipartite2undirected]. unfold rows_sorted. intros H.
  apply Forall_app. split.
  - rewrite Forall_forall in *. intros r Hr. apply in_map_iff in Hr. destruct Hr as [r0 [<- Hr0]].
    specialize (H _ Hr0). unfold row_sorted, shift_row in *. rewrite map_map. cbn [fst].
    rewrite <- (map_map fst (fun j => length rows + j)).
    apply StronglySorted_map_lt; [intros; lia | exact H].
  - rewrite Forall_forall. intros r Hr. unfold transpose_w in Hr. apply in_map_iff in Hr.
    destruct Hr as [k [<- _]]. apply tr_row_sorted.
    rewrite Forall_forall in *. intros col Hc. apply StronglySorted_lt_NoDup. apply H. exact Hc.
Qed.
Print Assumptions block_sorted.

Theorem block_symmetric (b : wmat) :
  wf_wmat b ->
  is_square (bipartite2undirected b) = true /\
  is_symmetric (snd (bipartite2undirected b)) = true.
Proof. exact (FormatProofs.block_symmetric b). Qed.
Print Assumptions block_symmetric.

(** 10. Seed addressing.  [seed_at v none default i] is what the argument says about node i:
    the array entry, the value of the LAST key i of a dict (else [default]), [none] for None. *)
Theorem stack_values_addresses (n_row n_col : nat) (vrow vcol : vals) (default : Q) (s : list Q) :
  stack_values n_row n_col vrow vcol default = Ok s ->
  let both_none := match vrow, vcol with VNone, VNone => true | _, _ => false end in
  length s = n_row + n_col /\
  (forall i, i < n_row ->
     nthq s i = seed_at vrow (if both_none then 1%Q else default) default i) /\
  (forall j, j < n_col -> nthq s (n_row + j) = seed_at vcol default default j).
Proof. exact (FormatProofs.stack_values_addresses n_row n_col vrow vcol default s). Qed.
Print Assumptions stack_values_addresses.

Theorem get_values_spec (n : nat) (v : vals) (default : Q) (l : list Q) :
  get_values n v default = Ok l ->
  length l = n /\ forall i, i < n -> nthq l i = seed_at v 1%Q default i.
Proof. exact (FormatProofs.get_values_spec n v default l). Qed.
Print Assumptions get_values_spec.

Theorem dict_get_present (d : list (nat * Q)) (i : nat) (x default : Q) :
  NoDup (map fst d) -> In (i, x) d -> dict_get d i default = x.
Proof.
  intros Hnd Hin. apply in_split in Hin. destruct Hin as [d1 [d2 E]]. subst d.
  apply dict_get_last. rewrite map_app in Hnd. simpl in Hnd.
  apply NoDup_remove_2 in Hnd. intros H. apply Hnd. apply in_or_app. right. exact H.
Qed.
Print Assumptions dict_get_present.

Theorem dict_get_absent (d : list (nat * Q)) (i : nat) (default : Q) :
  ~ In i (map fst d) -> dict_get d i default = default.
Proof.
  intros H. unfold dict_get. rewrite find_none_keys; [reflexivity|].
  rewrite map_rev. intros Hin. apply in_rev in Hin. exact (H Hin).
Qed.
Print Assumptions dict_get_absent.

Theorem stack_split_inverse (n_row n_col : nat) (vrow vcol : vals) (default : Q) (s : list Q) :
  stack_values n_row n_col vrow vcol default = Ok s ->
  exists r c,
    get_values n_row (fst (stack_defaults n_row n_col vrow vcol default)) default = Ok r /\
    get_values n_col (snd (stack_defaults n_row n_col vrow vcol default)) default = Ok c /\
    length r = n_row /\ length c = n_col /\ s = r ++ c /\ Format.split n_row s = (r, c).
Proof. exact (FormatProofs.stack_split_inverse n_row n_col vrow vcol default s). Qed.
Print Assumptions stack_split_inverse.

(** 11. get_adjacency: the bipartite treatment is chosen iff
    force_bipartite \/ not square \/ (not allow_directed /\ not symmetric), "symmetric" being a
    statement about the denotation; the result is then the block matrix, otherwise the input. *)
Theorem get_adjacency_decision (m : wmat) (allow_directed force_bipartite force_directed : bool) :
  let r := get_adjacency m allow_directed force_bipartite force_directed in
  (snd r = true <->
   force_bipartite = true \/ length (snd m) <> fst m \/
   (allow_directed = false /\ ~ forall i j, (entry (snd m) i j == entry (snd m) j i)%Q)) /\
  (snd r = true ->
   fst r = if force_directed then bipartite2directed m else bipartite2undirected m) /\
  (snd r = false -> fst r = m).
Proof. exact (FormatProofs.get_adjacency_decision m allow_directed force_bipartite force_directed). Qed.
Print Assumptions get_adjacency_decision.

Theorem is_symmetric_spec (rows : wrows) :
  is_symmetric rows = true <-> forall i j, (entry rows i j == entry rows j i)%Q.
Proof. exact (FormatProofs.is_symmetric_spec rows). Qed.
Print Assumptions is_symmetric_spec.

(** Obligation over the generated term (Gen/Routing.v, re-extracted from format.py on every run):
    the model's decision expression is the one in the source. *)
Theorem get_adjacency_decision_is_source (m : wmat) (allow_directed force_bipartite : bool) :
  bipartite_decision m allow_directed force_bipartite =
  adj_decision force_bipartite (is_square m) allow_directed (is_symmetric (snd m)).
Proof.
  unfold bipartite_decision, adj_decision.
  destruct force_bipartite, (is_square m), allow_directed, (is_symmetric (snd m)); reflexivity.
Qed.
Print Assumptions get_adjacency_decision_is_source.

(** 12. The pipeline.  True by construction of [fit_bip]: what the statement does is pin the
    addressing conventions down - x_row_ = first n_row entries, x_col_ = the remaining n_col entries
    of the core applied to the block adjacency (row nodes first) and the stacked seed vector. *)
Theorem bipartite_pipeline_eq (F : core) (b : wmat) (vrow vcol : vals) (default : Q)
        (r c : list Q) :
  fit_bip F b vrow vcol default = Ok (r, c) ->
  exists s, stack_values (length (snd b)) (fst b) vrow vcol default = Ok s /\
    let x := fit_sq F (bipartite2undirected b) s in
    (r, c) = Format.split (length (snd b)) x /\ r ++ c = x /\
    (length x = length (snd b) + fst b -> length r = length (snd b) /\ length c = fst b).
Proof. exact (FormatProofs.bipartite_pipeline_eq F b vrow vcol default r c). Qed.
Print Assumptions bipartite_pipeline_eq.

(** The same through the code path the estimators share ([get_adjacency_values], core,
    [_split_vars]) - this one has content: for ANY core F, whenever the skeleton chooses the bipartite
    treatment for B (rectangular, or square with force_bipartite, or because row / column seeds were
    given, or not symmetric with allow_directed = False), its row / column outputs are the two halves
    of what the SAME skeleton returns when it is handed the block adjacency as an ordinary graph with
    the stacked seeds - which it then recognises as square and symmetric and leaves alone. *)
Theorem fit_bipartite_eq_block (F : core) (b : wmat) (allow_directed force_bipartite : bool)
        (values vrow vcol : vals) (default : Q) (r c : list Q) :
  wf_wmat b ->
  fit F b allow_directed force_bipartite false values vrow vcol default = Ok (r, Some c) ->
  exists s,
    match values with
    | VNone => stack_values (length (snd b)) (fst b) vrow vcol default
    | _ => stack_values (length (snd b)) (fst b) values VNone default
    end = Ok s /\
    let x := F (snd (bipartite2undirected b)) s in
    fit F (bipartite2undirected b) allow_directed false false (VArr s) VNone VNone default
      = Ok (x, None) /\
    r = firstn (length (snd b)) x /\ c = skipn (length (snd b)) x.
Proof.
  exact (FormatProofs.fit_bipartite_eq_block F b allow_directed force_bipartite values vrow vcol
                                             default r c).
Qed.
Print Assumptions fit_bipartite_eq_block.

(** Non-vacuity: a 2x3 biadjacency matrix, dict seeds on rows, array seeds on columns. *)
Example c03_nonvacuous :
  let b : wmat := (3, [[(1, 2%Q)]; [(0, 3%Q); (2, 1%Q)]]) in
  let vr := VDict [(1, 5%Q)] in
  let vc := VArr [7; 8; 9]%Q in
  wf_wmat b /\
  bipartite2undirected b =
    (5, [[(3, 2%Q)]; [(2, 3%Q); (4, 1%Q)]; [(1, 3%Q)]; [(0, 2%Q)]; [(1, 1%Q)]]) /\
  bipartite2directed b = (5, [[(3, 2%Q)]; [(2, 3%Q); (4, 1%Q)]; []; []; []]) /\
  stack_values 2 3 vr vc (-1)%Q = Ok [-1; 5; 7; 8; 9]%Q /\
  stack_values 2 3 VNone VNone (-1)%Q = Ok [1; 1; -1; -1; -1]%Q /\
  stack_values 2 3 VNone vc (-1)%Q = Ok [-1; -1; 7; 8; 9]%Q /\
  get_values 3 (VDict [(1, 5%Q); (1, 6%Q)]) 0%Q = Ok [0; 6; 0]%Q /\
  fit_bip matvec b vr vc (-1)%Q = Ok ([16; 30]%Q, [15; -2; 5]%Q) /\
  fit matvec b true false false VNone vr vc (-1)%Q = Ok ([16; 30]%Q, Some [15; -2; 5]%Q) /\
  fit matvec (bipartite2undirected b) true false false (VArr [-1; 5; 7; 8; 9]%Q) VNone VNone (-1)%Q
    = Ok ([16; 30; 15; -2; 5]%Q, None) /\
  snd (get_adjacency b true false false) = true /\
  snd (get_adjacency (bipartite2undirected b) false false false) = false.
Proof.
  cbv zeta. split.
  - unfold wf_wmat, wf_rows. repeat constructor; simpl; lia.
  - repeat split; vm_compute; reflexivity.
Qed.

(** ------------------------------------------------------------------------------------------
    13. The statement instantiated for the REAL estimator models (Proofs/BipartiteInstances.v).

    Above, [fit_bipartite_eq_block] is about the generic skeleton [Format.fit].  Below, the same
    statement is proved for the faithful models of the individual entry points built for the other
    properties, each with its OWN bipartite front end: running the model on the biadjacency matrix B
    (rectangular, or square with force_bipartite, or with row / column arguments) and obtaining
    (r, Some c) implies that the same model run on the block adjacency, taken as an ordinary square
    graph on n_row + n_col nodes with the translated arguments as one vector and no force flag,
    returns (x, None) with r = firstn n_row x and c = skipn n_row x (the unsuffixed output is r).
    Each model's own block construction is (or denotes, entry by entry) the block matrix of item 9.
    Not covered (the models have no separable bipartite front end: they start from the adjacency
    and the label vector the front end produced): Propagation, DiffusionClassifier, the other
    classifiers; Louvain / Leiden (known divergence by design with modularity='dugue'). *)
From SKN Require Base.QMat Model.PageRank Model.Centrality Model.Diffusion Model.Structure Model.Cuts
     Model.Dendrogram Model.Paris Model.Hierarchy Model.Embedding.
From SKN Require Import Proofs.BipartiteInstances.
Set Warnings "-notation-overridden".

(** The block graph as an ordinary square pattern matrix; row source i is node i, column source j
    is node n_row + j. *)
Theorem sq_block_def (m : pmat) :
  sq_block m = {| p_ncol := p_nrow m + p_ncol m; p_rows := block_undirected m |}.
Proof. exact eq_refl. Qed.
Print Assumptions sq_block_def.

Theorem stack_sources_def (n_row : nat) (source_row source_col : option (list nat)) :
  stack_sources n_row source_row source_col
  = match source_row with Some s => s | None => [] end
    ++ map (fun j => n_row + j) (match source_col with Some s => s | None => [] end).
Proof. exact eq_refl. Qed.
Print Assumptions stack_sources_def.

(** 13.1 get_distances (Model/Bfs.v, the model C10 is about): distances on B with source /
    source_row / source_col (and force_bipartite, and transpose) are the distances on the block graph
    from the sources i and n_row + j, split at n_row. *)
Theorem distances_bipartite_eq_block (m0 : pmat) (source source_row source_col : option (list nat))
        (transpose_flag force_bipartite : bool) (r c : list Z) :
  get_distances m0 source source_row source_col transpose_flag force_bipartite = Ok (r, Some c) ->
  let m := if transpose_flag then transpose m0 else m0 in
  let rows := match source with Some s => Some s | None => source_row end in
  exists x,
    get_distances (sq_block m) (Some (stack_sources (p_nrow m) rows source_col)) None None false false
      = Ok (x, None) /\
    r = firstn (p_nrow m) x /\ c = skipn (p_nrow m) x /\ length x = p_nrow m + p_ncol m.
Proof.
  exact (BipartiteInstances.distances_bipartite_eq_block m0 source source_row source_col
                                                        transpose_flag force_bipartite r c).
Qed.
Print Assumptions distances_bipartite_eq_block.

(** The same against the block matrix of item 9 ([bipartite2undirected] of a weighted matrix): same
    edge set as the block graph of the pattern ([block_pattern]), hence the same distances
    ([bfs_row_order_irrelevant]). *)
Theorem distances_bipartite_eq_format_block (b : wmat) (source source_row source_col : option (list nat))
        (force_bipartite : bool) (r c : list Z) :
  get_distances (pattern_pmat b) source source_row source_col false force_bipartite = Ok (r, Some c) ->
  let n_row := length (snd b) in
  let rows := match source with Some s => Some s | None => source_row end in
  exists x,
    get_distances {| p_ncol := fst (bipartite2undirected b);
                     p_rows := pattern (snd (bipartite2undirected b)) |}
                  (Some (stack_sources n_row rows source_col)) None None false false
      = Ok (x, None) /\
    r = firstn n_row x /\ c = skipn n_row x /\ length x = n_row + fst b.
Proof.
  intros H. destruct (distances_bipartite_eq_block _ _ _ _ _ _ _ _ H) as [x [Hx [Hr [Hc HL]]]].
  cbv zeta in *.
  assert (Hn : p_nrow (pattern_pmat b) = length (snd b)) by apply pattern_length.
  rewrite Hn in *. cbn [pattern_pmat p_ncol] in HL.
  exists x. split; [|auto].
  destruct (bfs_row_order_irrelevant _ _ (block_pattern b)) as [Hbfs _].
  destruct (block_denotation b) as [Hfst [Hlen _]]. cbv zeta in Hfst, Hlen.
  revert Hx. unfold get_distances. cbv zeta. cbn [orb].
  rewrite sq_block_square. cbn [negb].
  unfold p_nrow. cbn [sq_block p_rows p_ncol].
  rewrite !pattern_length, !Hlen, !Hfst, Nat.eqb_refl. cbn [negb].
  rewrite !pattern_length, !Hlen, !bfs_block_length, !Hn. cbn [pattern_pmat p_ncol].
  destruct (set_mask _ _ _ _) as [mk|e]; [|auto].
  rewrite Hbfs. auto.
Qed.
Print Assumptions distances_bipartite_eq_format_block.

(** 13.2 get_shortest_path: the very same DAG (as a list of rows) whenever the bipartite treatment is
    chosen for B.  The parameter [fb_to_force] stands for the call-site binding of force_bipartite; the generated
    value is [sp_fb_to_force] = true (Gen/Routing.v), and the transpose flag is not bound by the call site
    ([sp_transpose_bound] = false, see C10.shortest_path_routing). *)
Theorem shortest_path_bipartite_eq_block (fb_to_force : bool) (m : pmat)
        (source source_row source_col : option (list nat)) (force_bipartite : bool) (dag : graph) :
  match source_row, source_col with None, None => fb_to_force && force_bipartite | _, _ => true end
  || negb (Nat.eqb (p_nrow m) (p_ncol m)) = true ->
  get_shortest_path false fb_to_force m source source_row source_col force_bipartite = Ok dag ->
  let rows := match source with Some s => Some s | None => source_row end in
  get_shortest_path false fb_to_force (sq_block m)
                    (Some (stack_sources (p_nrow m) rows source_col)) None None false = Ok dag.
Proof.
  intros Hbip. unfold get_shortest_path at 1. cbn [andb].
  destruct (get_distances m source source_row source_col false (fb_to_force && force_bipartite))
    as [[d [dc|]]|e] eqn:Ed; [| |discriminate].
  - intros H. injection H as <-.
    destruct (distances_bipartite_eq_block _ _ _ _ _ _ _ _ Ed) as [x [Hx [Hr [Hc _]]]].
    cbv zeta in Hx. cbn [andb] in *. unfold get_shortest_path. cbn [andb].
    rewrite andb_false_r. rewrite Hx. cbn [sq_block p_rows].
    rewrite Hr, Hc, firstn_skipn. reflexivity.
  - exfalso. unfold get_distances in Ed. rewrite Hbip in Ed.
    cbv zeta in Ed.
    destruct (match source, source_row with Some _, Some _ => Err ValueError | _, _ => _ end)
      as [mk|e]; [|discriminate].
    destruct (bfs _ mk); discriminate.
Qed.
Print Assumptions shortest_path_bipartite_eq_block.

(** Seeds: the estimator models' own get_values / stack_values are Format's (item 10 applies to
    them), under the obvious translation of their seed arguments. *)
Theorem pr_vals_def :
  pr_vals None = VNone /\
  (forall l, pr_vals (Some (PageRank.SArray l)) = VArr l) /\
  (forall d, pr_vals (Some (PageRank.SDict d)) = VDict d).
Proof. exact (conj eq_refl (conj (fun l => eq_refl) (fun d => eq_refl))). Qed.
Print Assumptions pr_vals_def.

Theorem df_vals_def :
  df_vals None = VNone /\
  (forall l, df_vals (Some (Diffusion.SArray l)) = VArr l) /\
  (forall l, df_vals (Some (Diffusion.SList l)) = VArr l) /\
  (forall d, df_vals (Some (Diffusion.SDict d)) = VDict d).
Proof. exact (conj eq_refl (conj (fun l => eq_refl) (conj (fun l => eq_refl) (fun d => eq_refl)))). Qed.
Print Assumptions df_vals_def.

Theorem pagerank_stack_values_is_format (n_row n_col : nat) (vr vc : option PageRank.seedsrc)
        (default : Q) (s : list Q) :
  PageRank.stack_values n_row n_col vr vc default = PageRank.Ok s ->
  stack_values n_row n_col (pr_vals vr) (pr_vals vc) default = Ok s.
Proof. exact (BipartiteInstances.pr_stack_values_format n_row n_col vr vc default s). Qed.
Print Assumptions pagerank_stack_values_is_format.

Theorem diffusion_stack_values_is_format (n_row n_col : nat) (vr vc : option Diffusion.seedsrc)
        (default : Q) (s : list Q) :
  Diffusion.stack_values n_row n_col vr vc default = Diffusion.Ok s ->
  stack_values n_row n_col (df_vals vr) (df_vals vc) default = Ok s.
Proof. exact (BipartiteInstances.df_stack_values_format n_row n_col vr vc default s). Qed.
Print Assumptions diffusion_stack_values_is_format.

(** The models' own block constructions are literally Format's. *)
Theorem pagerank_block_is_format (n_col : nat) (rows : list (list (nat * Q))) :
  PageRank.block_undirected n_col rows = snd (bipartite2undirected (n_col, rows)).
Proof. reflexivity. Qed.
Print Assumptions pagerank_block_is_format.

Theorem diffusion_block_is_format (m : Diffusion.wmat) :
  Diffusion.block_undirected m = snd (bipartite2undirected (Diffusion.w_ncol m, Diffusion.w_rows m)).
Proof. exact eq_refl. Qed.
Print Assumptions diffusion_block_is_format.

(** 13.3 PageRank.fit (Model/PageRank.v, the model C04 is about; all six solvers, the answers of
    bicgstab / ARPACK / argsort being the same oracle arguments on both sides): weights_row /
    weights_col (or weights) on B = the stacked vector s as [weights] on the block adjacency; both
    sides normalise it to probabilities ([to_probs]). *)
Theorem pagerank_bipartite_eq_block (n_col : nat) (rows : PageRank.wgraph) (force_bipartite : bool)
        (values vrow vcol : option PageRank.seedsrc)
        (alpha : Q) (n_iter : nat) (tol : Q) (sv : PageRank.solver) (oracle : list Q) (order : list nat)
        (r c : list Q) :
  match vrow, vcol with None, None => force_bipartite | _, _ => true end
  || negb (Nat.eqb (length rows) n_col) = true ->
  PageRank.pagerank_fit n_col rows force_bipartite values vrow vcol alpha n_iter tol sv oracle order
    = PageRank.Ok (Some (r, c)) ->
  exists s x,
    match values with
    | None => PageRank.stack_values (length rows) n_col vrow vcol 0%Q
    | Some _ => PageRank.stack_values (length rows) n_col values None 0%Q
    end = PageRank.Ok s /\
    match values with
    | None => stack_values (length rows) n_col (pr_vals vrow) (pr_vals vcol) 0%Q
    | Some _ => stack_values (length rows) n_col (pr_vals values) VNone 0%Q
    end = Ok s /\
    PageRank.pagerank_fit (length rows + n_col) (snd (bipartite2undirected (n_col, rows))) false
                          (Some (PageRank.SArray s)) None None alpha n_iter tol sv oracle order
      = PageRank.Ok (Some (x, [])) /\
    r = firstn (length rows) x /\ c = skipn (length rows) x.
Proof.
  intros Hbip. unfold PageRank.pagerank_fit at 1, PageRank.get_adjacency_values at 1.
  destruct (Nat.eqb (PageRank.nnz rows) 0) eqn:Ennz; [discriminate|].
  rewrite Hbip. fold (pr_stacked (length rows) n_col values vrow vcol).
  destruct (pr_stacked (length rows) n_col values vrow vcol) as [s|e] eqn:Es; [|discriminate].
  destruct (PageRank.get_pagerank (PageRank.block_undirected n_col rows) (PageRank.to_probs s)
                                  alpha n_iter tol sv oracle order) as [x|] eqn:Ex; [|discriminate].
  intros H. injection H as Hr Hc. exists s, x.
  destruct (pr_stacked_format _ _ _ _ _ _ Es) as [Hfmt HLs].
  split; [reflexivity|]. split; [exact Hfmt|]. split; [|split; symmetry; assumption].
  rewrite <- pagerank_block_is_format.
  unfold PageRank.pagerank_fit, PageRank.get_adjacency_values.
  rewrite (pr_block_nnz n_col rows Ennz). rewrite pr_block_length, Nat.eqb_refl.
  cbn [orb negb PageRank.get_values]. rewrite HLs, Nat.eqb_refl. rewrite Ex. reflexivity.
Qed.
Print Assumptions pagerank_bipartite_eq_block.

(** 13.4 Diffusion.fit and Dirichlet.fit (Model/Diffusion.v, the model C14 is about): values_row /
    values_col (default -1 = "not a seed") on B = the stacked vector on the block adjacency. *)
Theorem diffusion_bipartite_eq_block (n_iter : nat) (alpha : Q) (m : Diffusion.wmat)
        (values vrow vcol : option Diffusion.seedsrc) (init : option Q) (force_bipartite : bool)
        (v r c : list Q) :
  Diffusion.diffusion_fit n_iter alpha m values vrow vcol init force_bipartite
    = Diffusion.Ok (v, Some (r, c)) ->
  exists s x,
    match values with
    | None => Diffusion.stack_values (Diffusion.w_nrow m) (Diffusion.w_ncol m) vrow vcol (-1)%Q
    | Some _ => Diffusion.stack_values (Diffusion.w_nrow m) (Diffusion.w_ncol m) values None (-1)%Q
    end = Diffusion.Ok s /\
    match values with
    | None => stack_values (Diffusion.w_nrow m) (Diffusion.w_ncol m) (df_vals vrow) (df_vals vcol) (-1)%Q
    | Some _ => stack_values (Diffusion.w_nrow m) (Diffusion.w_ncol m) (df_vals values) VNone (-1)%Q
    end = Ok s /\
    Diffusion.diffusion_fit n_iter alpha
      {| Diffusion.w_ncol := Diffusion.w_nrow m + Diffusion.w_ncol m;
         Diffusion.w_rows := Diffusion.block_undirected m |}
      (Some (Diffusion.SArray s)) None None init false
      = Diffusion.Ok (x, None) /\
    v = r /\ r = firstn (Diffusion.w_nrow m) x /\ c = skipn (Diffusion.w_nrow m) x.
Proof.
  unfold Diffusion.diffusion_fit at 1.
  destruct (Nat.eqb n_iter 0) eqn:En; [discriminate|].
  destruct (Diffusion.get_adjacency_values m force_bipartite values vrow vcol)
    as [[[adj seeds] bip]|e] eqn:Eg; [|discriminate].
  destruct (Diffusion.init_temperatures seeds init) as [[temps border]|e] eqn:Ei; [|discriminate].
  destruct bip; cbn [Diffusion.split_vars]; [|discriminate].
  intros H. injection H as Hv Hr Hc.
  destruct (df_front_end m force_bipartite values vrow vcol adj seeds Eg) as [Ha [Hs [Hf Hb]]].
  exists seeds, (Diffusion.diffusion_core n_iter alpha adj temps).
  split; [exact Hs|]. split; [exact Hf|]. split; [|subst; auto].
  unfold Diffusion.diffusion_fit. fold (df_block_wmat m). rewrite En, Hb, Ei. reflexivity.
Qed.
Print Assumptions diffusion_bipartite_eq_block.

Theorem dirichlet_bipartite_eq_block (n_iter : nat) (m : Diffusion.wmat)
        (values vrow vcol : option Diffusion.seedsrc) (init : option Q) (force_bipartite : bool)
        (v r c : list Q) :
  Diffusion.dirichlet_fit n_iter m values vrow vcol init force_bipartite
    = Diffusion.Ok (v, Some (r, c)) ->
  exists s x,
    match values with
    | None => Diffusion.stack_values (Diffusion.w_nrow m) (Diffusion.w_ncol m) vrow vcol (-1)%Q
    | Some _ => Diffusion.stack_values (Diffusion.w_nrow m) (Diffusion.w_ncol m) values None (-1)%Q
    end = Diffusion.Ok s /\
    match values with
    | None => stack_values (Diffusion.w_nrow m) (Diffusion.w_ncol m) (df_vals vrow) (df_vals vcol) (-1)%Q
    | Some _ => stack_values (Diffusion.w_nrow m) (Diffusion.w_ncol m) (df_vals values) VNone (-1)%Q
    end = Ok s /\
    Diffusion.dirichlet_fit n_iter
      {| Diffusion.w_ncol := Diffusion.w_nrow m + Diffusion.w_ncol m;
         Diffusion.w_rows := Diffusion.block_undirected m |}
      (Some (Diffusion.SArray s)) None None init false
      = Diffusion.Ok (x, None) /\
    v = r /\ r = firstn (Diffusion.w_nrow m) x /\ c = skipn (Diffusion.w_nrow m) x.
Proof.
  unfold Diffusion.dirichlet_fit at 1.
  destruct (Nat.eqb n_iter 0) eqn:En; [discriminate|].
  destruct (Diffusion.get_adjacency_values m force_bipartite values vrow vcol)
    as [[[adj seeds] bip]|e] eqn:Eg; [|discriminate].
  destruct (Diffusion.init_temperatures seeds init) as [[temps border]|e] eqn:Ei; [|discriminate].
  destruct bip; cbn [Diffusion.split_vars]; [|discriminate].
  intros H. injection H as Hv Hr Hc.
  destruct (df_front_end m force_bipartite values vrow vcol adj seeds Eg) as [Ha [Hs [Hf Hb]]].
  exists seeds, (Diffusion.dirichlet_core n_iter adj border temps).
  split; [exact Hs|]. split; [exact Hf|]. split; [|subst; auto].
  unfold Diffusion.dirichlet_fit. fold (df_block_wmat m). rewrite En, Hb, Ei. reflexivity.
Qed.
Print Assumptions dirichlet_bipartite_eq_block.

(** 13.5 Katz.fit.  Model/Centrality.v models the core of Katz ([katz]); the four lines of katz.py
    around it (get_adjacency with its defaults, core, _split_vars) are [katz_fit], over Format's
    get_adjacency. *)
Theorem katz_fit_def (m : wmat) (alpha : Q) (K : nat) :
  katz_fit m alpha K =
  let scores := Centrality.katz (snd (fst (get_adjacency m true false false))) alpha K in
  if snd (get_adjacency m true false false)
  then (firstn (length (snd m)) scores, Some (skipn (length (snd m)) scores))
  else (scores, None).
Proof. unfold katz_fit. destruct (get_adjacency m true false false). reflexivity. Qed.
Print Assumptions katz_fit_def.

Theorem katz_bipartite_eq_block (b : wmat) (alpha : Q) (K : nat) (r c : list Q) :
  katz_fit b alpha K = (r, Some c) ->
  let x := Centrality.katz (snd (bipartite2undirected b)) alpha K in
  katz_fit (bipartite2undirected b) alpha K = (x, None) /\
  r = firstn (length (snd b)) x /\ c = skipn (length (snd b)) x.
Proof.
  unfold katz_fit at 1, get_adjacency, bipartite_decision. cbn [negb andb]. rewrite orb_false_r.
  cbn [orb]. destruct (negb (is_square b)) eqn:Esq; [|discriminate].
  intros H. injection H as Hr Hc. cbv zeta.
  split; [|split; symmetry; assumption].
  unfold katz_fit, get_adjacency, bipartite_decision. rewrite block_is_square. reflexivity.
Qed.
Print Assumptions katz_bipartite_eq_block.

(** 13.6 get_connected_components / is_connected (Model/Structure.v, the model C12 is about; SciPy's
    connected_components is the oracle [comp]): with the bipartite treatment the oracle is asked
    about the block graph, the very graph it is asked about when the block graph is passed as an
    ordinary square matrix; the labels (rows first, not split by these functions) and the verdict are
    the same. *)
Theorem components_bipartite_eq_block (m : pmat) (fb : bool) :
  snd (Structure.get_adjacency m fb) = true ->
  Structure.cc_adjacency m fb = block_undirected m /\
  Structure.get_adjacency (sq_block m) false = (block_undirected m, false) /\
  (forall comp, Structure.get_connected_components (sq_block m) false comp
                = Structure.get_connected_components m fb comp) /\
  (forall comp, Structure.is_connected (sq_block m) false comp = Structure.is_connected m fb comp) /\
  (forall strong comp,
      Structure.components_contract (Structure.cc_adjacency (sq_block m) false) strong comp <->
      Structure.components_contract (Structure.cc_adjacency m fb) strong comp).
Proof.
  unfold Structure.cc_adjacency, Structure.get_adjacency. cbn [fst snd]. intros Hb. rewrite Hb.
  rewrite sq_block_square. cbn [orb negb sq_block p_rows].
  assert (Hcc : forall comp, Structure.get_connected_components (sq_block m) false comp
                             = Structure.get_connected_components m fb comp).
  { intros comp. unfold Structure.get_connected_components. cbn [sq_block p_rows].
    rewrite st_block_nnz. reflexivity. }
  split; [reflexivity|]. split; [reflexivity|]. split; [exact Hcc|]. split.
  - intros comp. unfold Structure.is_connected. rewrite Hcc. reflexivity.
  - intros strong comp. reflexivity.
Qed.
Print Assumptions components_bipartite_eq_block.

(** get_largest_connected_component: the same nodes are selected (column j under its block number
    n_row + j), and the sub-matrix selected on the block graph is the block graph of the sub-matrix
    selected on B (same rows as sets: BFS and get_dag cannot tell them apart). *)
Theorem largest_component_bipartite_index (m : pmat) (fb : bool) (comp : list nat)
        (out : pmat) (index : list nat) :
  snd (Structure.get_adjacency m fb) = true ->
  length comp = p_nrow m + p_ncol m ->
  Structure.get_largest_connected_component m fb comp = Ok (out, index) ->
  exists index_row index_col,
    index = index_row ++ index_col /\
    out = Structure.submatrix m index_row index_col /\
    let index' := index_row ++ map (fun j => p_nrow m + j) index_col in
    Structure.get_largest_connected_component (sq_block m) false comp
    = Ok (Structure.submatrix (sq_block m) index' index', index').
Proof.
  intros Hb HL. unfold Structure.get_largest_connected_component at 1.
  destruct (Nat.eqb (Structure.nnz (p_rows m)) 0) eqn:E0; [discriminate|].
  rewrite Hb. intros H. injection H as Hout Hidx.
  set (l := Structure.largest_label comp) in *.
  exists (filter (fun i => Nat.eqb (nthn comp i) l) (seq 0 (p_nrow m))),
         (filter (fun j => Nat.eqb (nthn comp (p_nrow m + j)) l) (seq 0 (length comp - p_nrow m))).
  split; [symmetry; exact Hidx|]. split; [symmetry; exact Hout|]. cbv zeta.
  unfold Structure.get_largest_connected_component. cbn [sq_block p_rows].
  rewrite st_block_nnz, E0.
  unfold Structure.get_adjacency. rewrite sq_block_square. cbn [orb negb snd]. fold l.
  rewrite HL. replace (p_nrow m + p_ncol m - p_nrow m) with (p_ncol m) by lia.
  rewrite filter_seq_split. reflexivity.
Qed.
Print Assumptions largest_component_bipartite_index.

Theorem largest_component_bipartite_matrix (m : pmat) (index_row index_col : list nat) :
  (forall i, In i index_row -> i < p_nrow m) ->
  (forall j, In j index_col -> j < p_ncol m) ->
  let index' := index_row ++ map (fun j => p_nrow m + j) index_col in
  length (p_rows (Structure.submatrix (sq_block m) index' index'))
  = length (block_undirected (Structure.submatrix m index_row index_col)) /\
  forall u v, In v (row (p_rows (Structure.submatrix (sq_block m) index' index')) u) <->
              In v (row (block_undirected (Structure.submatrix m index_row index_col)) u).
Proof. intros Hir Hic. cbv zeta. rewrite (submatrix_block m _ _ Hir Hic). split; reflexivity. Qed.
Print Assumptions largest_component_bipartite_matrix.

(** 13.7 Paris.fit on a biadjacency matrix (Model/Paris.v + Model/Hierarchy.v, the models C07 is
    about): dendrogram_full_ of B is dendrogram_ of the block adjacency (same merges, same margin and
    tie counters), dendrogram_row_ / dendrogram_col_ are its split_dendrogram.  Paris's own block
    construction (COO triples) denotes [[0, B], [B^T, 0]] with rows first, in Paris's own entry
    function; and, for B given as CSR rows, the same matrix as [bipartite2undirected]. *)
Theorem paris_bipartite_eq_block (R : Paris.rounding) (hinf : Q) (degree reorder : bool) (n1 n2 : nat)
        (B : Paris.entries) (D Dr Dc : Dendrogram.dendrogram) :
  Paris.paris_fit_bipartite R hinf degree reorder n1 n2 B = Some (Cuts.Ok (D, Dr, Dc)) ->
  exists margin ties,
    Paris.paris_fit R hinf degree reorder (n1 + n2) (Paris.biadj_block n1 B)
      = Some (Cuts.Ok (D, margin, ties)) /\
    Hierarchy.split_dendrogram D n1 n2 = Cuts.Ok (Dr, Dc).
Proof.
  unfold Paris.paris_fit_bipartite.
  destruct (Paris.paris_fit R hinf degree reorder (n1 + n2) (Paris.biadj_block n1 B))
    as [[[[D' mg] t]|e]|]; [| discriminate | discriminate].
  destruct (Hierarchy.split_dendrogram D' n1 n2) as [[Dr' Dc']|e] eqn:Es; [|discriminate].
  intros H. injection H as <- <- <-. exists mg, t. split; [reflexivity|exact Es].
Qed.
Print Assumptions paris_bipartite_eq_block.

Theorem paris_block_denotation (n1 : nat) (B : Paris.entries) :
  (forall e, In e B -> Paris.e_i e < n1) ->
  (forall i j, i < n1 -> Paris.entry (Paris.biadj_block n1 B) i (n1 + j) = Paris.entry B i j) /\
  (forall i j, i < n1 -> Paris.entry (Paris.biadj_block n1 B) (n1 + j) i = Paris.entry B i j) /\
  (forall i i', i < n1 -> i' < n1 -> Paris.entry (Paris.biadj_block n1 B) i i' = 0%Q) /\
  (forall j j', Paris.entry (Paris.biadj_block n1 B) (n1 + j) (n1 + j') = 0%Q).
Proof. exact (BipartiteInstances.paris_block_denotation n1 B). Qed.
Print Assumptions paris_block_denotation.

Theorem coo_of_def (rows : wrows) :
  coo_of rows
  = flat_map (fun i => map (fun e : nat * Q => (i, fst e, snd e)) (nth i rows [])) (seq 0 (length rows)).
Proof. exact eq_refl. Qed.
Print Assumptions coo_of_def.

Theorem paris_block_is_format_block (b : wmat) (u v : nat) :
  u < length (snd b) + fst b -> v < length (snd b) + fst b ->
  (Paris.entry (Paris.biadj_block (length (snd b)) (coo_of (snd b))) u v
   == entry (snd (bipartite2undirected b)) u v)%Q.
Proof.
  intros Hu Hv.
  destruct (paris_block_denotation (length (snd b)) (coo_of (snd b)) (coo_of_rows_lt (snd b)))
    as [P12 [P21 [P11 P22]]].
  destruct (block_denotation b) as [_ [_ [F12 [F21 [F11 F22]]]]]. cbv zeta in *.
  destruct (Nat.lt_ge_cases u (length (snd b))) as [Lu|Lu],
           (Nat.lt_ge_cases v (length (snd b))) as [Lv|Lv].
  - rewrite P11, F11 by assumption. reflexivity.
  - replace v with (length (snd b) + (v - length (snd b))) by lia.
    rewrite P12, F12 by assumption. apply coo_of_entry.
  - replace u with (length (snd b) + (u - length (snd b))) by lia.
    rewrite P21 by assumption. rewrite F21 by lia. apply coo_of_entry.
  - replace u with (length (snd b) + (u - length (snd b))) by lia.
    replace v with (length (snd b) + (v - length (snd b))) by lia.
    rewrite P22. rewrite F22 by lia. reflexivity.
Qed.
Print Assumptions paris_block_is_format_block.

(** 13.8 Spectral.fit's front end (Model/Embedding.v, dense matrices; the model C09 is about):
    Embedding's block construction denotes the block matrix, is symmetric, and is left alone by
    get_adjacency (allow_directed = False) when handed back as an ordinary graph; the eigensolver
    wrapper sees the same matrix on both sides, and _split_vars cuts the embedding at n_row. *)
Theorem spectral_block_denotation (nrow ncol : nat) (B : list (list Q)) :
  QMat.wf_mat nrow ncol B ->
  let A := Embedding.block_undirected nrow ncol B in
  QMat.wf_mat (nrow + ncol) (nrow + ncol) A /\
  (forall i j, i < nrow -> j < ncol -> QMat.mget A i (nrow + j) = QMat.mget B i j) /\
  (forall i j, i < nrow -> j < ncol -> QMat.mget A (nrow + j) i = QMat.mget B i j) /\
  (forall i i', i < nrow -> i' < nrow -> QMat.mget A i i' = 0%Q) /\
  (forall j j', j < ncol -> j' < ncol -> QMat.mget A (nrow + j) (nrow + j') = 0%Q).
Proof. exact (BipartiteInstances.emb_block_entries nrow ncol B). Qed.
Print Assumptions spectral_block_denotation.

Theorem spectral_front_end_eq_block (allow_directed force_bipartite : bool) (nrow ncol : nat)
        (B : list (list Q)) :
  QMat.wf_mat nrow ncol B ->
  snd (Embedding.get_adjacency allow_directed force_bipartite nrow ncol B) = true ->
  let A := Embedding.block_undirected nrow ncol B in
  fst (Embedding.get_adjacency allow_directed force_bipartite nrow ncol B) = A /\
  Embedding.get_adjacency allow_directed false (nrow + ncol) (nrow + ncol) A = (A, false) /\
  (forall sqrt_o norm_o rw normalized reg sv sV argsort evals evecs emb,
      Embedding.spectral_fit sqrt_o norm_o rw normalized
        (fst (Embedding.get_adjacency allow_directed force_bipartite nrow ncol B)) reg sv sV argsort
        = (evals, evecs, emb) ->
      Embedding.spectral_fit sqrt_o norm_o rw normalized
        (fst (Embedding.get_adjacency allow_directed false (nrow + ncol) (nrow + ncol) A)) reg sv sV argsort
        = (evals, evecs, emb) /\
      Embedding.split_vars nrow emb = (firstn nrow emb, skipn nrow emb)).
Proof.
  intros Hwf. unfold Embedding.get_adjacency at 1 2. cbn [fst snd]. intros Hb. rewrite Hb. cbv zeta.
  assert (Hblk : Embedding.get_adjacency allow_directed false (nrow + ncol) (nrow + ncol)
                   (Embedding.block_undirected nrow ncol B)
                 = (Embedding.block_undirected nrow ncol B, false)).
  { unfold Embedding.get_adjacency. rewrite Nat.eqb_refl, (emb_block_symmetric nrow ncol B Hwf).
    rewrite orb_true_r. reflexivity. }
  split; [reflexivity|]. split; [exact Hblk|].
  intros sqrt_o norm_o rw normalized reg sv sV argsort evals evecs emb H.
  rewrite Hblk. cbn [fst]. split; [|reflexivity].
  revert H. unfold Embedding.get_adjacency. rewrite Hb. cbn [fst]. auto.
Qed.
Print Assumptions spectral_front_end_eq_block.

(** Non-vacuity of the instances: a 2x3 biadjacency matrix with a row and a column argument, and a
    square one with force_bipartite; both sides computed by the models. *)
Example c03_instances_nonvacuous :
  let B : pmat := {| p_ncol := 3; p_rows := [[1]; [0; 2]] |} in
  let S : pmat := {| p_ncol := 2; p_rows := [[1]; [0]] |} in
  let W : list (list (nat * Q)) := [[(1, 2%Q)]; [(0, 3%Q); (2, 1%Q)]] in
  let M : Diffusion.wmat := {| Diffusion.w_ncol := 3; Diffusion.w_rows := W |} in
  let MB : Diffusion.wmat := {| Diffusion.w_ncol := 5; Diffusion.w_rows := Diffusion.block_undirected M |} in
  get_distances B None (Some [0]) (Some [2]) false false = Ok ([0; 1]%Z, Some [2; 1; 0]%Z) /\
  stack_sources 2 (Some [0]) (Some [2]) = [0; 4] /\
  get_distances (sq_block B) (Some [0; 4]) None None false false = Ok ([0; 1; 2; 1; 0]%Z, None) /\
  get_distances S (Some [0]) None None false true = Ok ([0; -1]%Z, Some [-1; 1]%Z) /\
  get_distances (sq_block S) (Some [0]) None None false false = Ok ([0; -1; -1; 1]%Z, None) /\
  get_shortest_path false true B None (Some [0]) (Some [2]) false = Ok [[3]; [2]; []; []; [1]] /\
  get_shortest_path false true (sq_block B) (Some [0; 4]) None None false = Ok [[3]; [2]; []; []; [1]] /\
  PageRank.pagerank_fit 3 W false None (Some (PageRank.SDict [(1, 1%Q)])) (Some (PageRank.SArray [0; 0; 2]%Q))
                        (85 # 100)%Q 3 0%Q PageRank.Piteration [] []
  = PageRank.Ok (Some ([0; 13933 # 24000]%Q, [7667 # 32000; 0; 17267 # 96000]%Q)) /\
  PageRank.pagerank_fit 5 (snd (bipartite2undirected (3, W))) false (Some (PageRank.SArray [0; 1; 0; 0; 2]%Q))
                        None None (85 # 100)%Q 3 0%Q PageRank.Piteration [] []
  = PageRank.Ok (Some ([0; 13933 # 24000; 7667 # 32000; 0; 17267 # 96000]%Q, [])) /\
  Diffusion.dirichlet_fit 2 M None (Some (Diffusion.SDict [(1, 1%Q)])) (Some (Diffusion.SArray [-1; -1; 0]%Q))
                          None false
  = Diffusion.Ok ([1 # 2; 1]%Q, Some ([1 # 2; 1]%Q, [1; 1 # 2; 0]%Q)) /\
  Diffusion.dirichlet_fit 2 MB (Some (Diffusion.SArray [-1; 1; -1; -1; 0]%Q)) None None None false
  = Diffusion.Ok ([1 # 2; 1; 1; 1 # 2; 0]%Q, None) /\
  Diffusion.diffusion_fit 2 (1 # 2)%Q M None (Some (Diffusion.SDict [(1, 1%Q)]))
                          (Some (Diffusion.SArray [-1; -1; 0]%Q)) None false
  = Diffusion.Ok ([1 # 2; 11 # 16]%Q, Some ([1 # 2; 11 # 16]%Q, [23 # 32; 1 # 2; 19 # 32]%Q)) /\
  Diffusion.diffusion_fit 2 (1 # 2)%Q MB (Some (Diffusion.SArray [-1; 1; -1; -1; 0]%Q)) None None None false
  = Diffusion.Ok ([1 # 2; 11 # 16; 23 # 32; 1 # 2; 19 # 32]%Q, None) /\
  katz_fit (3, W) (1 # 2)%Q 3 = ([7 # 8; 2]%Q, Some [5 # 4; 7 # 8; 5 # 4]%Q) /\
  katz_fit (bipartite2undirected (3, W)) (1 # 2)%Q 3 = ([7 # 8; 2; 5 # 4; 7 # 8; 5 # 4]%Q, None) /\
  Structure.get_largest_connected_component B false [0; 0; 0; 0; 0]
  = Ok ({| p_ncol := 3; p_rows := [[1]; [0; 2]] |}, [0; 1; 0; 1; 2]) /\
  Structure.get_largest_connected_component (sq_block B) false [0; 0; 0; 0; 0]
  = Ok ({| p_ncol := 5; p_rows := [[3]; [2; 4]; [1]; [0]; [1]] |}, [0; 1; 2; 3; 4]) /\
  Paris.paris_fit_bipartite Paris.exact 100%Q true true 2 3 (coo_of W)
  = Some (Cuts.Ok ([(3, 0, (1 # 6)%Q, 2); (2, 1, (1 # 3)%Q, 2); (6, 4, (7 # 12)%Q, 3); (7, 5, 100%Q, 5)],
                   [(1, 0, 100%Q, 2)], [(0, 2, (7 # 12)%Q, 2); (3, 1, 100%Q, 3)])).
Proof. cbv zeta. repeat split; vm_compute; reflexivity. Qed.

(** * SOURCE LEVEL — the seed glue of utils/values.py and utils/format.py, regenerated on every run

    [src_get_values], [src_stack_values] and [src_adjacency_values_core] are statements of the small imperative Python of
    Model/PyImp.v produced by harness/translators/pyimp.py from the text of get_values, stack_values and of the statement
    of get_adjacency_values that computes [values] (callees inlined, their locals renamed).  [embVals] embeds a seed argument
    (None / array or list / dict) into Python values.  For EVERY shape, seed argument and default value, running the text gives
    exactly the vector (or the ValueError / IndexError) of the functional model used by all the theorems above, so the
    addressing "row seed i at i, column seed j at n_row + j, the default value exactly elsewhere" is a statement about the
    source text.  A Python list and a 1-D array are the same value in this semantics; the [which] post-processing and the call
    of get_adjacency are pinned as reviewed text. *)
From SKN Require Import Model.PyImp Gen.PyValues Proofs.PyCutsProofs Proofs.PyValuesProofs.
From Coq Require Import String.
Local Open Scope string_scope.

Theorem source_get_values_is_model n rest v default (e0 : env) :
  e0 "shape" = Some (VList (vnat n :: rest)) -> e0 "values" = Some (embVals v) ->
  e0 "default_value" = Some (VNum default) ->
  match Format.get_values n v default with
  | Bfs.Ok l => exists e', exec src_get_values e0 = POk e' /\ e' "return" = Some (VList (map VNum l))
  | Bfs.Err er => exec src_get_values e0 = PErr (convF er)
  end.
Proof. exact (src_get_values_is_model n rest v default e0). Qed.
Print Assumptions source_get_values_is_model.

Theorem source_stack_values_is_model n_row n_col vrow vcol default (e0 : env) :
  e0 "shape" = Some (VList [vnat n_row; vnat n_col]) -> e0 "values_row" = Some (embVals vrow) ->
  e0 "values_col" = Some (embVals vcol) -> e0 "default_value" = Some (VNum default) ->
  match Format.stack_values n_row n_col vrow vcol default with
  | Bfs.Ok l => exists e', exec src_stack_values e0 = POk e' /\ e' "return" = Some (VList (map VNum l))
  | Bfs.Err er => exec src_stack_values e0 = PErr (convF er)
  end.
Proof. exact (src_stack_values_is_model n_row n_col vrow vcol default e0). Qed.
Print Assumptions source_stack_values_is_model.

Theorem source_stack_values_addresses n_row n_col vrow vcol default s (e0 : env) :
  e0 "shape" = Some (VList [vnat n_row; vnat n_col]) -> e0 "values_row" = Some (embVals vrow) ->
  e0 "values_col" = Some (embVals vcol) -> e0 "default_value" = Some (VNum default) ->
  Format.stack_values n_row n_col vrow vcol default = Bfs.Ok s ->
  exists e', exec src_stack_values e0 = POk e' /\ e' "return" = Some (VList (map VNum s)) /\
    let both_none := match vrow, vcol with Format.VNone, Format.VNone => true | _, _ => false end in
    List.length s = n_row + n_col /\
    (forall i, i < n_row -> nthq s i = Format.seed_at vrow (if both_none then 1%Q else default) default i) /\
    (forall j, j < n_col -> nthq s (n_row + j) = Format.seed_at vcol default default j).
Proof.
  intros Hs Hr Hc Hd Hm.
  pose proof (src_stack_values_is_model n_row n_col vrow vcol default e0 Hs Hr Hc Hd) as L. rewrite Hm in L.
  destruct L as (e' & F & R). exists e'. split; [exact F|]. split; [exact R|].
  exact (FormatProofs.stack_values_addresses n_row n_col vrow vcol default s Hm).
Qed.
Print Assumptions source_stack_values_addresses.

(** [values_model] is the vector of the model's get_adjacency_values given the decision [bipartite] of get_adjacency
    ([model_adjacency_values_unfold]); the text computes it. *)
Theorem source_adjacency_values_core_is_model bipartite n_row n_col values values_row values_col default (e0 : env) :
  e0 "bipartite" = Some (VBool bipartite) -> e0 "input_matrix.shape" = Some (VList [vnat n_row; vnat n_col]) ->
  e0 "values" = Some (embVals values) -> e0 "values_row" = Some (embVals values_row) ->
  e0 "values_col" = Some (embVals values_col) -> e0 "default_value" = Some (VNum default) ->
  match values_model bipartite n_row n_col values values_row values_col default with
  | Bfs.Ok l => exists e', exec src_adjacency_values_core e0 = POk e' /\ e' "values" = Some (VList (map VNum l))
  | Bfs.Err er => exec src_adjacency_values_core e0 = PErr (convF er)
  end.
Proof. exact (src_adjacency_values_core_is_model bipartite n_row n_col values values_row values_col default e0). Qed.
Print Assumptions source_adjacency_values_core_is_model.

Theorem model_adjacency_values_unfold m ad fb fd values values_row values_col default :
  Format.get_adjacency_values m ad fb fd values values_row values_col default =
  let fb' := match values_row, values_col with Format.VNone, Format.VNone => fb | _, _ => true end in
  let ab := Format.get_adjacency m ad fb' fd in
  match values_model (snd ab) (List.length (snd m)) (fst m) values values_row values_col default with
  | Bfs.Err e => Bfs.Err e
  | Bfs.Ok v => Bfs.Ok (fst ab, v, snd ab)
  end.
Proof.
  unfold Format.get_adjacency_values, values_model. cbv zeta.
  destruct (Format.get_adjacency m ad _ fd) as [adjacency bipartite]. reflexivity.
Qed.
Print Assumptions model_adjacency_values_unfold.

Theorem source_values_untranslated_reviewed :
  src_get_values_params = ["shape"; "values"; "default_value"] /\
  src_stack_values_params = ["shape"; "values_row"; "values_col"; "default_value"] /\
  src_adjacency_values_params = ["input_matrix"; "allow_directed"; "force_bipartite"; "force_directed"; "values";
                                 "values_row"; "values_col"; "default_value"; "which"] /\
  src_adjacency_values_before =
    ["input_matrix = check_format(input_matrix)";
     "if values_row is not None or values_col is not None:
    force_bipartite = True";
     "adjacency, bipartite = get_adjacency(input_matrix, allow_directed=allow_directed, force_bipartite=force_bipartite, force_directed=force_directed)"] /\
  src_adjacency_values_after =
    ["if which == 'probs':
    if values.sum() > 0:
        values /= values.sum()
elif which == 'labels':
    if len(set(values[values >= 0])) == 1:
        values = np.arange(len(values))";
     "return (adjacency, values, bipartite)"].
Proof. exact values_untranslated_reviewed. Qed.
Print Assumptions source_values_untranslated_reviewed.

(** Non-vacuity: the generated statements run inside Coq on a 2 x 3 shape with dict seeds on the rows (given out of order) and
    an array on the columns. *)
Example c03_source_nonvacuous :
  run_var src_stack_values [("shape", VList [vnat 2; vnat 3]);
                            ("values_row", embVals (Format.VDict [(1, 5%Q); (0, 2%Q)]));
                            ("values_col", embVals (Format.VArr [7%Q; 0%Q; 1%Q])); ("default_value", VNum (-1)%Q)] "return"
    = POk (Some (VList (map VNum [2%Q; 5%Q; 7%Q; 0%Q; 1%Q]))) /\
  run_var src_adjacency_values_core [("bipartite", VBool true); ("input_matrix.shape", VList [vnat 2; vnat 3]);
                            ("values", PyImp.VNone); ("values_row", PyImp.VNone);
                            ("values_col", embVals (Format.VDict [(2, 4%Q)])); ("default_value", VNum 0%Q)] "values"
    = POk (Some (VList (map VNum [0%Q; 0%Q; 0%Q; 0%Q; 4%Q]))) /\
  run_var src_get_values [("shape", VList [vnat 2]); ("values", embVals (Format.VDict [(3, 1%Q)])); ("default_value", VNum 0%Q)] "return"
    = PErr PIndexError.
Proof. repeat split; vm_compute; reflexivity. Qed.
