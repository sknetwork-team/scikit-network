(** C06 — Modularity is computed as defined and Louvain / Leiden never make it worse.
    Statements of the property, each proved right under it - by [exact] of a lemma of Proofs/ or by a script over such
    lemmas - and followed by its [Print Assumptions]; and non-vacuity examples (by evaluation).
    Models: Model/Modularity.v (get_modularity), Model/Louvain.v (Louvain.fit, optimize_core, Leiden.fit), Model/Leiden.v
    (the coded label step of Leiden's aggregation).  Sections 1-3: get_modularity, the kernel's delta, a pass and an
    aggregation; 4./5. and the two sections after it (Louvain.fit, Leiden.fit, the returned labels_): value statements
    conditional on the fuel-indexed loops returning, then non-vacuity; 6-7: the loops return (Proofs/LouvainTermination.v,
    Proofs/LeidenProofs.v).  These are over exact rationals ([==] is equality of rationals).  Last part: get_modularity's
    expressions regenerated from metrics.py (Gen/NpModularity.v), over R. *)
From SKN Require Import Base.Util Model.Modularity Model.Louvain Proofs.ModularityProofs Proofs.LouvainProofs.

Local Open Scope Q_scope.

(** * 1. get_modularity = its documentation *)

(** Square matrix (graph or directed graph): the returned modularity is
      1/w sum_ij (A_ij - gamma d+_i d-_j / w) delta(c_i, c_j)          for weights='degree',
      sum_ij (A_ij / w - gamma / n^2) delta(c_i, c_j)                  for weights='uniform',
    for every weighted matrix, labelling and resolution on which the function returns. *)
Theorem modularity_def (m : wmat) (labels : list nat) (labels_col : option (list nat)) (wk : weighting)
        (gamma md ft dv : Q) :
  w_nrow m = w_ncol m -> wf_wgraph (w_rows m) ->
  get_modularity m labels labels_col wk gamma = MOk (md, ft, dv) ->
  md == match wk with
        | Degree => spec_modularity (w_rows m) labels gamma
        | Uniform => spec_modularity_uniform (w_rows m) labels gamma
        end.
Proof. exact (modularity_def_square_match m labels labels_col wk gamma md ft dv). Qed.
Print Assumptions modularity_def.

(** Undirected graphs (symmetric matrix): the same value is 1/w sum_ij (A_ij - gamma d_i d_j / w) delta. *)
Theorem modularity_def_undirected (g : wgraph) (labels : list nat) (gamma : Q) :
  wsymmetric g -> spec_modularity g labels gamma == spec_modularity_undirected g labels gamma.
Proof.
  intros Hs. unfold spec_modularity, spec_modularity_undirected.
  apply Qmult_comp; [reflexivity|]. apply qsum_ext. intros i Hi. apply qsum_ext. intros j Hj.
  assert (E : spec_in_deg g j == spec_out_deg g j).
  { unfold spec_in_deg, spec_out_deg. apply qsum_ext. intros k Hk. apply Hs; assumption. }
  rewrite E. reflexivity.
Qed.
Print Assumptions modularity_def_undirected.

(** Bipartite form (non-square matrix, labels_row / labels_col): the undirected formula on the graph
    with n1 + n2 nodes and adjacency [[0, B], [B^T, 0]] (w = 2 * 1^T B 1), labels = rows then columns. *)
Theorem modularity_def_bipartite (m : wmat) (labels_row labels_col : list nat) (gamma md ft dv : Q) :
  w_nrow m <> w_ncol m -> wf_wmat m ->
  get_modularity m labels_row (Some labels_col) Degree gamma = MOk (md, ft, dv) ->
  md == spec_modularity_bipartite m labels_row labels_col gamma /\ md == ft - gamma * dv.
Proof.
  intros Hns Hwf H.
  destruct (modularity_def_bipartite_block m labels_row labels_col Degree gamma md ft dv Hns Hwf H) as [E1 E2].
  split; [|exact E2]. rewrite E1. apply spec_block_eq.
Qed.
Print Assumptions modularity_def_bipartite.

Theorem modularity_def_bipartite_uniform (m : wmat) (labels_row labels_col : list nat) (gamma md ft dv : Q) :
  w_nrow m <> w_ncol m -> wf_wmat m ->
  get_modularity m labels_row (Some labels_col) Uniform gamma = MOk (md, ft, dv) ->
  md == spec_modularity_uniform (block_undirected m) (labels_row ++ labels_col) gamma /\ md == ft - gamma * dv.
Proof. exact (ModularityProofs.modularity_def_bipartite_uniform m labels_row labels_col gamma md ft dv). Qed.
Print Assumptions modularity_def_bipartite_uniform.

(** The return_all triple: modularity = fit - resolution * diversity, fit = 1/w sum_ij A_ij delta. *)
Theorem modularity_fit_minus_div (m : wmat) (labels : list nat) (labels_col : option (list nat))
        (wk : weighting) (gamma md ft dv : Q) :
  w_nrow m = w_ncol m -> wf_wgraph (w_rows m) ->
  get_modularity m labels labels_col wk gamma = MOk (md, ft, dv) ->
  md == ft - gamma * dv /\ ft == spec_fit (w_rows m) labels.
Proof. exact (modularity_fit_minus_div_square m labels labels_col wk gamma md ft dv). Qed.
Print Assumptions modularity_fit_minus_div.

(** Remark (not a defect of the metric, whose docstring gives no bipartite formula): on a biadjacency
    matrix get_modularity is NOT Barber's bipartite modularity, the objective Louvain's default kind
    optimises on bipartite input. *)
Theorem modularity_bipartite_is_not_barber :
  exists m lr lc md ft dv,
    get_modularity m lr (Some lc) Degree 1 = MOk (md, ft, dv) /\ ~ md == barber_modularity m lr lc 1.
Proof.
  exists {| w_ncol := 2; w_rows := [[(0%nat, 1); (1%nat, 1)]] |}, [0%nat], [0%nat; 1%nat].
  eexists; eexists; eexists. split; [vm_compute; reflexivity|].
  vm_compute. discriminate.
Qed.
Print Assumptions modularity_bipartite_is_not_barber.

(** * 2. The kernel's delta is the objective gain
    [kinv g ows iws k st]: the kernel's array invariants in state [st] — labels has one entry < k per
    node, out/in_cluster_weights[c] = sum of the out/in weights of the nodes labelled c, and the
    scratch array cluster_weights is zero. For such a state, a node i and ANY candidate label t other
    than its own, the quantity optimize_core compares ([delta_local], after [-= delta]), computed from the
    arrays after the neighbour loop of node i, equals objective(labels[i := t]) - objective(labels),
    constant factor 1, where objective(l) = sum_ij (A_ij - resolution * out_i * in_j) delta(l_i, l_j). *)
Theorem delta_is_gain (g : wgraph) (ows iws sls : list Q) (res : Q) (k : nat) :
  wf_wgraph g -> wsymmetric g ->
  (forall x, (x < length g)%nat -> nthq sls x == entry g x x) ->
  forall (st : kstate) (i t : nat),
  kinv g ows iws k st -> (i < length g)%nat ->
  let labels := k_labels st in
  let label := lab labels i in
  let cw1 := snd (neighbours labels (wrow_of g i) (k_cw st)) in
  t <> label -> (t < k)%nat ->
  delta_local res (nthq ows i) (nthq iws i)
              (delta_leave res (nthq ows i) (nthq iws i) (nthq sls i) (k_out_cw st) (k_in_cw st) cw1 label)
              (k_out_cw st) (k_in_cw st) cw1 t
  == objective g ows iws res (upd labels i t) - objective g ows iws res labels.
Proof. exact (LouvainProofs.delta_is_gain g ows iws sls res k). Qed.
Print Assumptions delta_is_gain.

(** * 3. A pass reports exactly the objective increase; aggregation preserves the objective *)
Theorem pass_increase_exact (g : wgraph) (ows iws sls : list Q) (res : Q) (k : nat) :
  wf_wgraph g -> wsymmetric g ->
  (forall x, (x < length g)%nat -> nthq sls x == entry g x x) ->
  forall st : kstate,
  kinv g ows iws k st ->
  let st' := one_pass g ows iws sls res st in
  kinv g ows iws k st' /\
  k_inc_pass st' == objective g ows iws res (k_labels st') - objective g ows iws res (k_labels st) /\
  0 <= k_inc_pass st' /\
  (cc_inv g (k_labels st) -> cc_inv g (k_labels st')).
Proof. exact (one_pass_ok g ows iws sls res k). Qed.
Print Assumptions pass_increase_exact.

(** The objective of ANY labelling [l2] of the aggregate graph (with aggregated node weights) equals the
    objective of the composed labelling of the graph that was aggregated. *)
Theorem aggregate_preserves_objective (g : wgraph) (labels : list nat) (k : nat) (ows iws : list Q) (res : Q)
        (l2 : list nat) :
  wf_wgraph g -> length labels = length g ->
  (forall i, (i < length g)%nat -> (lab labels i < k)%nat) ->
  objective (aggregate_graph g labels k) (cluster_sums k labels ows) (cluster_sums k labels iws) res l2
  == objective g ows iws res (map (nthn l2) labels).
Proof. intros Hwf Hlen Hlt. exact (aggregate_objective g labels k Hwf Hlen Hlt ows iws res l2). Qed.
Print Assumptions aggregate_preserves_objective.

(** * 4./5. Louvain.fit
    For every input on which pre-processing succeeds and the (fuel-indexed) loop returns:
    objective(final partition) - objective(singletons) = sum of the logged increases, every logged
    increase is >= 0, and two nodes with the same final label are connected in the working graph (the
    adjacency after get_adjacency and the optional shuffle). [r_membership] is the partition before the
    cosmetic relabelling / unshuffling of _post_processing. *)
Theorem louvain_increase_total (fuel kfuel : nat) (kind : modkind) (res tol_opt tol_agg : Q) (n_agg : Z)
        (m : wmat) (fb : bool) (index : option (list nat)) (p : prep) (r : fit_result) :
  pre_processing kind m fb index = MOk p ->
  louvain_loop fuel kfuel res tol_opt tol_agg n_agg (p_adj p) (p_out p) (p_in p)
               (seq 0 (length (p_adj p))) 0 [] marg0 = MOk r ->
  let obj := objective (p_adj p) (p_out p) (p_in p) res in
  let g1 := working_graph kind m fb index in
  obj (r_membership r) - obj (seq 0 (length (p_adj p))) == log_total (r_log r) /\
  0 <= log_total (r_log r) /\
  log_nonneg (r_log r) /\
  length (r_membership r) = length g1 /\
  (forall u v, (u < length g1)%nat -> (v < length g1)%nat ->
     lab (r_membership r) u = lab (r_membership r) v -> connected g1 u v).
Proof. exact (louvain_fit_core fuel kfuel kind res tol_opt tol_agg n_agg m fb index p r). Qed.
Print Assumptions louvain_increase_total.

Theorem clusters_within_components (fuel kfuel : nat) (kind : modkind) (res tol_opt tol_agg : Q) (n_agg : Z)
        (m : wmat) (fb : bool) (index : option (list nat)) (p : prep) (r : fit_result) (u v : nat) :
  pre_processing kind m fb index = MOk p ->
  louvain_loop fuel kfuel res tol_opt tol_agg n_agg (p_adj p) (p_out p) (p_in p)
               (seq 0 (length (p_adj p))) 0 [] marg0 = MOk r ->
  let g1 := working_graph kind m fb index in
  (u < length g1)%nat -> (v < length g1)%nat ->
  lab (r_membership r) u = lab (r_membership r) v -> connected g1 u v.
Proof.
  intros Hp Hl g1.
  exact (proj2 (proj2 (proj2 (proj2 (louvain_fit_core fuel kfuel kind res tol_opt tol_agg n_agg m fb index p r Hp Hl)))) u v).
Qed.
Print Assumptions clusters_within_components.

(** The objective handed to the kernel is the documented objective of the modularity kind on the
    working graph A (docs/reference/clustering.rst), and for 'dugue' the directed modularity of
    get_modularity's docstring. *)
Theorem louvain_objective_is_kind (kind : modkind) (m : wmat) (fb : bool) (index : option (list nat)) (p : prep)
        (res : Q) (labels : list nat) :
  pre_processing kind m fb index = MOk p ->
  let g1 := working_graph kind m fb index in
  wf_wgraph g1 ->
  objective (p_adj p) (p_out p) (p_in p) res labels == kind_objective kind g1 res labels.
Proof. exact (prep_objective kind m fb index p res labels). Qed.
Print Assumptions louvain_objective_is_kind.

Theorem dugue_objective_is_directed_modularity (g : wgraph) (res : Q) (labels : list nat) :
  ~ total_weight g == 0 -> kind_objective Dugue g res labels == spec_modularity g labels res.
Proof. exact (kind_objective_dugue_spec g res labels). Qed.
Print Assumptions dugue_objective_is_directed_modularity.

(** * Leiden.fit
    optimize_refine_core draws its targets with libc rand(): the refined partition of every aggregation
    level is an oracle argument [refine]. For EVERY oracle meeting [refine_contract] (its answer has one
    label per node, refined clusters are subsets of the coarse clusters, nodes with the same refined
    label are connected — what the kernel guarantees, since a node only joins the refined cluster of a
    neighbour inside its own coarse cluster), the same three facts hold for Leiden: the returned
    (coarse) partition gains exactly the sum of the logged increases over singletons, every increase is
    >= 0, clusters lie inside connected components. *)
Theorem leiden_increase_total (refine : nat -> wgraph -> list nat -> list nat)
        (fuel kfuel : nat) (kind : modkind) (res tol_opt tol_agg : Q) (n_agg : Z)
        (m : wmat) (fb : bool) (index : option (list nat)) (p : prep) (r : fit_result) :
  refine_contract refine ->
  pre_processing kind m fb index = MOk p ->
  leiden_loop fuel kfuel res tol_opt tol_agg n_agg refine (p_adj p) (p_out p) (p_in p)
              (seq 0 (length (p_adj p))) (seq 0 (length (p_adj p))) 0 [] marg0 = MOk r ->
  let obj := objective (p_adj p) (p_out p) (p_in p) res in
  let g1 := working_graph kind m fb index in
  obj (r_membership r) - obj (seq 0 (length (p_adj p))) == log_total (r_log r) /\
  0 <= log_total (r_log r) /\
  log_nonneg (r_log r) /\
  length (r_membership r) = length g1 /\
  (forall u v, (u < length g1)%nat -> (v < length g1)%nat ->
     lab (r_membership r) u = lab (r_membership r) v -> connected g1 u v).
Proof. exact (leiden_fit_core refine fuel kfuel kind res tol_opt tol_agg n_agg m fb index p r). Qed.
Print Assumptions leiden_increase_total.

(** * The statements on the returned labels_ (no shuffling) and the documented objective
    [louvain_fit] / [leiden_fit] = the whole of fit (pre-processing, loop, post-processing with optional
    cluster sorting). On any input on which it returns, with A the working adjacency:
      objective_kind(labels_) - objective_kind(singletons) = sum of the logged increases >= 0,
    every logged increase is >= 0, and nodes with equal label are connected in A. *)
Theorem louvain_labels_objective (fuel kfuel : nat) (kind : modkind) (res tol_opt tol_agg : Q) (n_agg : Z)
        (sort_clusters : bool) (m : wmat) (fb : bool) (labels : list nat) (log : list logline) (mg : marg) :
  louvain_fit fuel kfuel kind res tol_opt tol_agg n_agg sort_clusters m fb None = MOk (labels, log, mg) ->
  let g1 := working_graph kind m fb None in
  wf_wgraph g1 ->
  kind_objective kind g1 res labels - kind_objective kind g1 res (seq 0 (length g1)) == log_total log /\
  0 <= log_total log /\ log_nonneg log /\
  length labels = length g1 /\
  (forall u v, (u < length g1)%nat -> (v < length g1)%nat -> lab labels u = lab labels v -> connected g1 u v).
Proof.
  exact (fit_with_labels _ kind res sort_clusters m fb labels log mg
           (louvain_fit_core fuel kfuel kind res tol_opt tol_agg n_agg m fb None)).
Qed.
Print Assumptions louvain_labels_objective.

Theorem leiden_labels_objective (refine : nat -> wgraph -> list nat -> list nat)
        (fuel kfuel : nat) (kind : modkind) (res tol_opt tol_agg : Q) (n_agg : Z)
        (sort_clusters : bool) (m : wmat) (fb : bool) (labels : list nat) (log : list logline) (mg : marg) :
  refine_contract refine ->
  leiden_fit fuel kfuel kind res tol_opt tol_agg n_agg sort_clusters refine m fb None = MOk (labels, log, mg) ->
  let g1 := working_graph kind m fb None in
  wf_wgraph g1 ->
  kind_objective kind g1 res labels - kind_objective kind g1 res (seq 0 (length g1)) == log_total log /\
  0 <= log_total log /\ log_nonneg log /\
  length labels = length g1 /\
  (forall u v, (u < length g1)%nat -> (v < length g1)%nat -> lab labels u = lab labels v -> connected g1 u v).
Proof.
  exact (fun Hc => fit_with_labels _ kind res sort_clusters m fb labels log mg
                     (fun p r => leiden_fit_core refine fuel kfuel kind res tol_opt tol_agg n_agg m fb None p r Hc)).
Qed.
Print Assumptions leiden_labels_objective.

(** * Non-vacuity *)
Definition ex_house : wmat :=
  {| w_ncol := 5;
     w_rows := [[(1%nat, 1); (4%nat, 1)]; [(0%nat, 1); (2%nat, 1); (4%nat, 1)]; [(1%nat, 1); (3%nat, 1)];
                [(2%nat, 1); (4%nat, 1)]; [(0%nat, 1); (1%nat, 1); (3%nat, 1)]] |}.

(** get_modularity(house, [0,0,1,1,0]) = 1/9 = 0.11 (the docstring's example), fit 2/3, diversity 5/9. *)
Example c06_metric_nonvacuous :
  w_nrow ex_house = w_ncol ex_house /\ wf_wgraph (w_rows ex_house) /\
  get_modularity ex_house [0; 0; 1; 1; 0]%nat None Degree 1 = MOk (1 # 9, 2 # 3, 5 # 9).
Proof.
  split; [reflexivity|]. split; [apply wf_wgraphb_ok; reflexivity|]. vm_compute. reflexivity.
Qed.

(** Louvain on the house graph: pre-processing succeeds, the loop returns two clusters {0,1,4},{2,3}
    after two aggregations, with logged increases 23/72 and 0. *)
Example c06_louvain_nonvacuous :
  exists p r, pre_processing Dugue ex_house false None = MOk p /\
    louvain_loop 20 100 1 (1 # 1000) (1 # 1000) (-1) (p_adj p) (p_out p) (p_in p)
                 (seq 0 (length (p_adj p))) 0 [] marg0 = MOk r /\
    r_membership r = [0; 0; 1; 1; 0]%nat /\ map l_increase (r_log r) = [23 # 72; 0].
Proof.
  eexists. eexists. split; [vm_compute; reflexivity|]. split; [vm_compute; reflexivity|].
  split; vm_compute; reflexivity.
Qed.

(** The contract is satisfiable (the oracle that refines nothing: every node its own refined cluster),
    and Leiden with it returns on the house graph. *)
Example c06_leiden_nonvacuous :
  refine_contract (fun _ g _ => seq 0 (length g)) /\
  exists p r, pre_processing Dugue ex_house false None = MOk p /\
    leiden_loop 20 100 1 (1 # 1000) (1 # 1000) (-1) (fun _ g _ => seq 0 (length g))
                (p_adj p) (p_out p) (p_in p) (seq 0 (length (p_adj p))) (seq 0 (length (p_adj p))) 0 [] marg0 = MOk r /\
    r_membership r = [0; 0; 1; 1; 0]%nat.
Proof.
  split.
  - intros count g labels Hwf Hlen. split; [apply seq_length|]. split.
    + intros x y Hx Hy E. rewrite !lab_seq in E by assumption. subst y. reflexivity.
    + apply cc_inv_singletons.
  - eexists. eexists. split; [vm_compute; reflexivity|]. split; vm_compute; reflexivity.
Qed.

(** * 6. Termination of the exact-rational model (Proofs/LouvainTermination.v)
    The statements from section 4./5. up to the non-vacuity examples are conditional on the fuel-indexed loops
    returning. Here: Louvain's loops do return, with explicit fuel, for tol_optimization > 0 and tol_aggregation >= 0
    (Leiden's: sections 7.3, 7.4). *)
From SKN Require Import Proofs.LouvainTermination.
Local Open Scope Q_scope.

(** ** 6.1 The objective is bounded, for EVERY labelling
    [objective_bound g out in res] = sum_ij |A_ij - res * out_i * in_j| (computable from the kernel's inputs);
    no hypothesis on signs or normalisation. *)
Theorem objective_bounded (g : wgraph) (ows iws : list Q) (res : Q) (labels : list nat) :
  - objective_bound g ows iws res <= objective g ows iws res labels /\
  objective g ows iws res labels <= objective_bound g ows iws res.
Proof. exact (objective_abs_bounded g ows iws res labels). Qed.
Print Assumptions objective_bounded.

(** Non-negative adjacency entries and node weights, resolution >= 0:
    -res * (sum out)(sum in) <= objective <= sum_ij A_ij. *)
Theorem objective_bounded_nonnegative (g : wgraph) (ows iws : list Q) (res : Q) (labels : list nat) :
  let n := length g in
  (forall i j, (i < n)%nat -> (j < n)%nat -> 0 <= entry g i j) ->
  (forall i, (i < n)%nat -> 0 <= nthq ows i) -> (forall i, (i < n)%nat -> 0 <= nthq iws i) ->
  0 <= res ->
  - (res * (qsum n (nthq ows) * qsum n (nthq iws))) <= objective g ows iws res labels /\
  objective g ows iws res labels <= total_weight g.
Proof. exact (objective_bounded_nonneg g ows iws res labels). Qed.
Print Assumptions objective_bounded_nonnegative.

(** After Louvain._pre_processing (adjacency normalised to total weight 1, node weights = probabilities),
    for each of the three modularity kinds ('dugue', 'newman', 'potts'), non-negative working adjacency
    and resolution >= 0:   -resolution <= objective(labels) <= 1   for every labelling. *)
Theorem louvain_objective_bounded (kind : modkind) (m : wmat) (fb : bool) (index : option (list nat))
        (p : prep) (res : Q) (labels : list nat) :
  pre_processing kind m fb index = MOk p ->
  let g1 := working_graph kind m fb index in
  (forall i j, (i < length g1)%nat -> (j < length g1)%nat -> 0 <= entry g1 i j) ->
  0 <= res ->
  - res <= objective (p_adj p) (p_out p) (p_in p) res labels /\
  objective (p_adj p) (p_out p) (p_in p) res labels <= 1.
Proof. exact (prep_objective_bounded kind m fb index p res labels). Qed.
Print Assumptions louvain_objective_bounded.

(** The value on the singleton partition, where every optimisation of Louvain starts. *)
Theorem objective_of_singletons (g : wgraph) (ows iws : list Q) (res : Q) :
  let n := length g in
  objective g ows iws res (seq 0 n) == qsum n (fun i => entry g i i - res * nthq ows i * nthq iws i).
Proof.
  intros n. unfold objective. fold n. apply qsum_ext. intros i Hi.
  transitivity (qsum n (fun j => ind (Nat.eqb j i) * (entry g i j - res * nthq ows i * nthq iws j))).
  - apply qsum_ext. intros j Hj. unfold delta. rewrite !lab_seq by assumption.
    rewrite (Nat.eqb_sym i j). ring.
  - exact (qsum_ind n i (fun j => entry g i j - res * nthq ows i * nthq iws j) Hi).
Qed.
Print Assumptions objective_of_singletons.

(** ** 6.2 optimize_core terminates for tol > 0
    [pass_fuel B q0 tol] = ceil((B - q0) / tol) + 1. For ANY upper bound B of the objective and any start
    labelling whose cluster-weight arrays are consistent (Louvain's and Leiden's calls), the [while]
    loop over passes returns within pass_fuel B objective(start) tol passes: every pass that does not
    stop the loop has increase_pass > tol, and increase_pass is the objective gain (pass_increase_exact).
    Symmetry of the adjacency is what makes increase_pass the gain (Louvain hands the kernel A + A^T). *)
Theorem optimize_core_terminates (fuel : nat) (g : wgraph) (ows iws : list Q) (res tol B : Q)
        (labels : list nat) (ocw icw : list Q) (mg : marg) :
  wf_wgraph g -> wsymmetric g ->
  length labels = length g -> length ocw = length icw ->
  (forall x, (x < length g)%nat -> (lab labels x < length ocw)%nat) ->
  (forall c, (c < length ocw)%nat -> nthq ocw c == csum g labels ows c) ->
  (forall c, (c < length ocw)%nat -> nthq icw c == csum g labels iws c) ->
  0 < tol -> (forall l, objective g ows iws res l <= B) ->
  (pass_fuel B (objective g ows iws res labels) tol <= fuel)%nat ->
  exists st inc, optimize fuel g ows iws res tol labels ocw icw mg = Some (st, inc).
Proof.
  exact (fun Hwf Hsym Hlen Hoi Hlt Hocw Hicw =>
           optimize_terminates fuel g ows iws res tol B labels ocw icw mg Hwf Hsym
             (kinv_opt_start g ows iws labels ocw icw mg Hlen Hoi Hlt Hocw Hicw)).
Qed.
Print Assumptions optimize_core_terminates.

(** Louvain's call (labels = arange(n), cluster weights = node weights), fuel computed from the inputs. *)
Theorem optimize_core_terminates_computed (fuel : nat) (g : wgraph) (ows iws : list Q) (res tol : Q) (mg : marg) :
  wf_wgraph g -> wsymmetric g -> length ows = length g -> length iws = length g ->
  0 < tol ->
  let n := length g in
  (pass_fuel (objective_bound g ows iws res) (objective g ows iws res (seq 0 n)) tol <= fuel)%nat ->
  exists st inc, optimize fuel g ows iws res tol (seq 0 n) ows iws mg = Some (st, inc).
Proof.
  intros Hwf Hsym Ho Hi Htol n Hf.
  apply (optimize_terminates fuel g ows iws res tol (objective_bound g ows iws res)); auto.
  - apply kinv_singletons; assumption.
  - intros l. apply objective_abs_bounded.
Qed.
Print Assumptions optimize_core_terminates_computed.

(** tol >= 0, in particular tol_optimization = 0, in EXACT arithmetic: a continuing pass strictly
    increases the objective, which takes at most k^n values (k cluster slots, n nodes): k^n + 1 passes
    suffice. PARTIAL with respect to the property: this is the exact-rational model only; in the float32
    kernel an accepted "gain" can be rounding noise and the loop need not stop (finding D32 of DESIGN.md). *)
Theorem optimize_core_terminates_tol0_partial (fuel : nat) (g : wgraph) (ows iws : list Q) (res tol : Q)
        (labels : list nat) (ocw icw : list Q) (mg : marg) :
  wf_wgraph g -> wsymmetric g ->
  length labels = length g -> length ocw = length icw ->
  (forall x, (x < length g)%nat -> (lab labels x < length ocw)%nat) ->
  (forall c, (c < length ocw)%nat -> nthq ocw c == csum g labels ows c) ->
  (forall c, (c < length ocw)%nat -> nthq icw c == csum g labels iws c) ->
  0 <= tol ->
  (S (length ocw ^ length g) <= fuel)%nat ->
  exists st inc, optimize fuel g ows iws res tol labels ocw icw mg = Some (st, inc).
Proof.
  exact (fun Hwf Hsym Hlen Hoi Hlt Hocw Hicw =>
           optimize_terminates_exact fuel g ows iws res tol labels ocw icw mg Hwf Hsym
             (kinv_opt_start g ows iws labels ocw icw mg Hlen Hoi Hlt Hocw Hicw)).
Qed.
Print Assumptions optimize_core_terminates_tol0_partial.

(** ** 6.3 Louvain.fit terminates
    An aggregation that does not stop the loop has increase > tol_aggregation >= 0, so at least two nodes
    were merged: the aggregate graph has strictly fewer nodes. Fuel = number of nodes of the working graph
    for the aggregation loop; for the pass loop of every level the fuel of 6.2 computed once on the
    pre-processed input (the objective of every level is the objective of the composed labelling of the
    input graph, and it never decreases from level to level). [n_aggregations] plays no role. *)
Theorem louvain_fit_terminates (fuel kfuel : nat) (kind : modkind) (res tol_opt tol_agg : Q) (n_agg : Z)
        (m : wmat) (fb : bool) (index : option (list nat)) (p : prep) (B : Q) :
  pre_processing kind m fb index = MOk p ->
  0 < tol_opt -> 0 <= tol_agg ->
  (forall l, objective (p_adj p) (p_out p) (p_in p) res l <= B) ->
  (pass_fuel B (objective (p_adj p) (p_out p) (p_in p) res (seq 0 (length (p_adj p)))) tol_opt <= kfuel)%nat ->
  (length (p_adj p) <= fuel)%nat ->
  exists r, louvain_loop fuel kfuel res tol_opt tol_agg n_agg (p_adj p) (p_out p) (p_in p)
                         (seq 0 (length (p_adj p))) 0 [] marg0 = MOk r.
Proof. exact (louvain_loop_fit_terminates fuel kfuel kind res tol_opt tol_agg n_agg m fb index p B). Qed.
Print Assumptions louvain_fit_terminates.

(** The whole of fit, with both fuels computed from its arguments:
    [louvain_fuel] = number of nodes of the working graph,
    [louvain_kfuel] = pass_fuel (objective_bound ..) (objective(singletons)) tol_optimization on the
    pre-processed input. The only error fit can return is ValueError (empty / invalid input). *)
Theorem louvain_fit_never_out_of_fuel (fuel kfuel : nat) (kind : modkind) (res tol_opt tol_agg : Q) (n_agg : Z)
        (sort_clusters : bool) (m : wmat) (fb : bool) (index : option (list nat)) :
  0 < tol_opt -> 0 <= tol_agg ->
  (louvain_kfuel kind res tol_opt m fb index <= kfuel)%nat ->
  (louvain_fuel kind m fb index <= fuel)%nat ->
  louvain_fit fuel kfuel kind res tol_opt tol_agg n_agg sort_clusters m fb index <> MErr MOutOfFuel.
Proof.
  exact (LouvainTermination.louvain_fit_never_out_of_fuel fuel kfuel kind res tol_opt tol_agg n_agg
           sort_clusters m fb index).
Qed.
Print Assumptions louvain_fit_never_out_of_fuel.

(** louvain_increase_total without the "model returns" hypothesis. *)
Theorem louvain_increase_total_unconditional (fuel kfuel : nat) (kind : modkind) (res tol_opt tol_agg : Q)
        (n_agg : Z) (m : wmat) (fb : bool) (index : option (list nat)) (p : prep) :
  pre_processing kind m fb index = MOk p ->
  0 < tol_opt -> 0 <= tol_agg ->
  (louvain_kfuel kind res tol_opt m fb index <= kfuel)%nat ->
  (louvain_fuel kind m fb index <= fuel)%nat ->
  exists r,
    louvain_loop fuel kfuel res tol_opt tol_agg n_agg (p_adj p) (p_out p) (p_in p)
                 (seq 0 (length (p_adj p))) 0 [] marg0 = MOk r /\
    let obj := objective (p_adj p) (p_out p) (p_in p) res in
    let g1 := working_graph kind m fb index in
    obj (r_membership r) - obj (seq 0 (length (p_adj p))) == log_total (r_log r) /\
    0 <= log_total (r_log r) /\
    log_nonneg (r_log r) /\
    length (r_membership r) = length g1 /\
    (forall u v, (u < length g1)%nat -> (v < length g1)%nat ->
       lab (r_membership r) u = lab (r_membership r) v -> connected g1 u v).
Proof.
  intros Hp Htol Hagg Hk Hf.
  destruct (louvain_loop_fit_terminates_abs fuel kfuel kind res tol_opt tol_agg n_agg m fb index p
              Hp Htol Hagg Hk Hf) as [r Er].
  exists r. split; [exact Er|].
  exact (louvain_fit_core fuel kfuel kind res tol_opt tol_agg n_agg m fb index p r Hp Er).
Qed.
Print Assumptions louvain_increase_total_unconditional.

(** Non-vacuity: on the house graph with tol_optimization = 1/100 and tol_aggregation = 0 the computed
    fuels are 5 aggregations and 120 passes, and fit returns with them. *)
Example c06_termination_nonvacuous :
  louvain_fuel Dugue ex_house false None = 5%nat /\
  louvain_kfuel Dugue 1 (1 # 100) ex_house false None = 120%nat /\
  louvain_fit 5 120 Dugue 1 (1 # 100) 0 (-1) true ex_house false None
  = MOk ([0; 0; 1; 1; 0]%nat,
         [{| l_count := 1; l_clusters := 2; l_increase := 23 # 72 |};
          {| l_count := 2; l_clusters := 2; l_increase := 0 |}],
         (Some (1 # 36), 2%nat)).
Proof. split; [vm_compute; reflexivity|]. split; vm_compute; reflexivity. Qed.

(** * 7. Leiden.fit: the label step of _aggregate_refine, the objective across a refined aggregation, and
      termination of the outer loop (the coded label step: Model/Leiden.v; 7.1, 7.3, 7.4: Proofs/LeidenProofs.v;
      7.2: [refined_aggregation_objective] in Proofs/LouvainProofs.v) *)
From SKN Require Import Model.Leiden Proofs.LeidenProofs.
Set Warnings "-notation-overridden".
Local Open Scope Q_scope.

(** ** 7.1 [labels_ = membership_refined.T.tocsr().dot(membership).indices]
    [Model.Leiden.aggregate_refine_labels] is the step as coded (matrix product, column indices of the stored
    entries); the model of Leiden.fit ([leiden_loop]) uses [coarse_of_refined] (coarse label of the first
    listed member of each refined cluster). For EVERY oracle meeting [refine_contract], at every level:
    the coded step returns exactly [coarse_of_refined] — one entry per aggregated node; the aggregated node
    [rho y] gets the coarse label of y whichever member y of the refined cluster is taken; so composing a
    membership with [labels_refined] and then with these labels gives the coarse label of the level, node
    by node (the coarse partition of the aggregated graph is the coarse partition of the original nodes). *)
Theorem leiden_aggregate_refine_labels (refine : nat -> wgraph -> list nat -> list nat) (count : nat)
        (g : wgraph) (labels : list nat) :
  refine_contract refine -> wf_wgraph g -> length labels = length g -> (0 < length g)%nat ->
  let rho := Louvain.unique_inverse (refine count g labels) in
  let k := n_labels rho in
  let labels' := coarse_of_refined labels rho k in
  aggregate_refine_labels (map Z.of_nat labels) (map Z.of_nat rho) = Clustering.Ok (k, n_labels labels, labels') /\
  length labels' = k /\
  (forall y, (y < length g)%nat -> (lab rho y < k)%nat /\ lab labels' (lab rho y) = lab labels y) /\
  (forall membership, (forall c, In c membership -> (c < length g)%nat) ->
     map (nthn labels') (map (fun c => nthn rho c) membership) = map (fun c => nthn labels c) membership).
Proof. exact (leiden_aggregate_refine_labels_ok refine count g labels). Qed.
Print Assumptions leiden_aggregate_refine_labels.

(** ** 7.2 Refinement does not change the objective of the coarse partition
    ([refined_aggregation_objective]: [aggregate_objective], the lemma behind aggregate_preserves_objective of section 3,
    at the refined labels; then every member of a refined cluster has the coarse label that [coarse_of_refined] gives
    the cluster, the fact of 7.1). *)
Theorem leiden_aggregation_preserves_objective (refine : nat -> wgraph -> list nat -> list nat) (count : nat)
        (g : wgraph) (labels : list nat) (ows iws : list Q) (res : Q) :
  refine_contract refine -> wf_wgraph g -> length labels = length g -> (0 < length g)%nat ->
  let rho := Louvain.unique_inverse (refine count g labels) in
  let k := n_labels rho in
  objective (aggregate_graph g rho k) (cluster_sums k rho ows) (cluster_sums k rho iws) res
            (coarse_of_refined labels rho k)
  == objective g ows iws res labels.
Proof.
  intros Hc Hwf Hlen Hpos rho k.
  destruct (refined_labels_ok refine count g labels Hc Hwf Hlen Hpos) as [Hrho [Href [_ Honto]]].
  exact (refined_aggregation_objective g labels rho Hlen Hrho Href Honto Hwf ows iws res).
Qed.
Print Assumptions leiden_aggregation_preserves_objective.

(** ** 7.3 Leiden.fit terminates for tol_optimization > 0 and tol_aggregation > 0
    The node-count argument of 6.3 does not apply: the graph is aggregated by the REFINED partition, which
    need not lose a node when the coarse pass gained. Instead: an aggregation that does not stop the loop
    has increase > tol_aggregation, the increase is the gain of the objective of the coarse partition read
    on the original nodes (7.1, 7.2), and that objective is bounded by B: at most
    pass_fuel B Q0 tol_aggregation = ceil((B - Q0) / tol_aggregation) + 1 aggregations, Q0 the objective of
    the singleton partition. For EVERY refinement oracle meeting the contract; [n_aggregations] plays no role. *)
Theorem leiden_fit_terminates (refine : nat -> wgraph -> list nat -> list nat)
        (fuel kfuel : nat) (kind : modkind) (res tol_opt tol_agg : Q) (n_agg : Z)
        (m : wmat) (fb : bool) (index : option (list nat)) (p : prep) (B : Q) :
  refine_contract refine ->
  pre_processing kind m fb index = MOk p ->
  0 < tol_opt -> 0 < tol_agg ->
  (forall l, objective (p_adj p) (p_out p) (p_in p) res l <= B) ->
  (pass_fuel B (objective (p_adj p) (p_out p) (p_in p) res (seq 0 (length (p_adj p)))) tol_opt <= kfuel)%nat ->
  (pass_fuel B (objective (p_adj p) (p_out p) (p_in p) res (seq 0 (length (p_adj p)))) tol_agg <= fuel)%nat ->
  exists r, leiden_loop fuel kfuel res tol_opt tol_agg n_agg refine (p_adj p) (p_out p) (p_in p)
                        (seq 0 (length (p_adj p))) (seq 0 (length (p_adj p))) 0 [] marg0 = MOk r.
Proof.
  exact (fun Hc Hp Htol =>
           leiden_loop_fit_terminates refine fuel kfuel kind res tol_opt tol_agg n_agg m fb index p Hc Hp Htol B).
Qed.
Print Assumptions leiden_fit_terminates.

(** With [louvain_objective_bounded] (non-negative working adjacency, resolution >= 0): B = 1. *)
Theorem leiden_fit_terminates_nonnegative (refine : nat -> wgraph -> list nat -> list nat)
        (fuel kfuel : nat) (kind : modkind) (res tol_opt tol_agg : Q) (n_agg : Z)
        (m : wmat) (fb : bool) (index : option (list nat)) (p : prep) :
  refine_contract refine ->
  pre_processing kind m fb index = MOk p ->
  let g1 := working_graph kind m fb index in
  (forall i j, (i < length g1)%nat -> (j < length g1)%nat -> 0 <= entry g1 i j) ->
  0 <= res ->
  0 < tol_opt -> 0 < tol_agg ->
  (pass_fuel 1 (objective (p_adj p) (p_out p) (p_in p) res (seq 0 (length (p_adj p)))) tol_opt <= kfuel)%nat ->
  (pass_fuel 1 (objective (p_adj p) (p_out p) (p_in p) res (seq 0 (length (p_adj p)))) tol_agg <= fuel)%nat ->
  exists r, leiden_loop fuel kfuel res tol_opt tol_agg n_agg refine (p_adj p) (p_out p) (p_in p)
                        (seq 0 (length (p_adj p))) (seq 0 (length (p_adj p))) 0 [] marg0 = MOk r.
Proof.
  exact (fun Hc Hp He Hres Htol Hagg =>
           leiden_loop_fit_terminates refine fuel kfuel kind res tol_opt tol_agg n_agg m fb index p Hc Hp Htol 1 Hagg
             (fun l => proj2 (prep_objective_bounded kind m fb index p res l Hp He Hres))).
Qed.
Print Assumptions leiden_fit_terminates_nonnegative.

(** The whole of fit, with both fuels computed from its arguments:
    [leiden_kfuel] = [louvain_kfuel] (pass_fuel (objective_bound ..) Q0 tol_optimization),
    [leiden_fuel] = pass_fuel (objective_bound ..) Q0 tol_aggregation, on the pre-processed input. *)
Theorem leiden_fit_never_out_of_fuel (refine : nat -> wgraph -> list nat -> list nat)
        (fuel kfuel : nat) (kind : modkind) (res tol_opt tol_agg : Q) (n_agg : Z)
        (sort_clusters : bool) (m : wmat) (fb : bool) (index : option (list nat)) :
  refine_contract refine ->
  0 < tol_opt -> 0 < tol_agg ->
  (leiden_kfuel kind res tol_opt m fb index <= kfuel)%nat ->
  (leiden_fuel kind res tol_agg m fb index <= fuel)%nat ->
  leiden_fit fuel kfuel kind res tol_opt tol_agg n_agg sort_clusters refine m fb index <> MErr MOutOfFuel.
Proof.
  exact (leiden_fit_never_out_of_fuel_pf refine fuel kfuel kind res tol_opt tol_agg n_agg sort_clusters m fb index).
Qed.
Print Assumptions leiden_fit_never_out_of_fuel.

(** leiden_increase_total without the "model returns" hypothesis. *)
Theorem leiden_increase_total_unconditional (refine : nat -> wgraph -> list nat -> list nat)
        (fuel kfuel : nat) (kind : modkind) (res tol_opt tol_agg : Q) (n_agg : Z)
        (m : wmat) (fb : bool) (index : option (list nat)) (p : prep) :
  refine_contract refine ->
  pre_processing kind m fb index = MOk p ->
  0 < tol_opt -> 0 < tol_agg ->
  (leiden_kfuel kind res tol_opt m fb index <= kfuel)%nat ->
  (leiden_fuel kind res tol_agg m fb index <= fuel)%nat ->
  exists r,
    leiden_loop fuel kfuel res tol_opt tol_agg n_agg refine (p_adj p) (p_out p) (p_in p)
                (seq 0 (length (p_adj p))) (seq 0 (length (p_adj p))) 0 [] marg0 = MOk r /\
    let obj := objective (p_adj p) (p_out p) (p_in p) res in
    let g1 := working_graph kind m fb index in
    obj (r_membership r) - obj (seq 0 (length (p_adj p))) == log_total (r_log r) /\
    0 <= log_total (r_log r) /\
    log_nonneg (r_log r) /\
    length (r_membership r) = length g1 /\
    (forall u v, (u < length g1)%nat -> (v < length g1)%nat ->
       lab (r_membership r) u = lab (r_membership r) v -> connected g1 u v).
Proof.
  intros Hc Hp Htol Hagg Hk Hf.
  destruct (leiden_loop_fit_terminates_abs refine fuel kfuel kind res tol_opt tol_agg n_agg m fb index p
              Hc Hp Htol Hagg Hk Hf) as [r Er].
  exists r. split; [exact Er|].
  exact (leiden_fit_core refine fuel kfuel kind res tol_opt tol_agg n_agg m fb index p r Hc Hp Er).
Qed.
Print Assumptions leiden_increase_total_unconditional.

(** ** 7.4 The two cases left out by 7.3
    n_aggregations >= 1: the test [count == n_aggregations] stops the loop whatever tol_aggregation is
    (tol_optimization > 0 is still needed for the kernel): n_aggregations iterations. *)
Theorem leiden_fit_terminates_n_aggregations (refine : nat -> wgraph -> list nat -> list nat)
        (fuel kfuel : nat) (kind : modkind) (res tol_opt tol_agg : Q) (n_agg : Z)
        (m : wmat) (fb : bool) (index : option (list nat)) (p : prep) :
  refine_contract refine ->
  pre_processing kind m fb index = MOk p ->
  0 < tol_opt -> (1 <= n_agg)%Z ->
  (leiden_kfuel kind res tol_opt m fb index <= kfuel)%nat ->
  (Z.to_nat n_agg <= fuel)%nat ->
  exists r, leiden_loop fuel kfuel res tol_opt tol_agg n_agg refine (p_adj p) (p_out p) (p_in p)
                        (seq 0 (length (p_adj p))) (seq 0 (length (p_adj p))) 0 [] marg0 = MOk r.
Proof. exact (leiden_loop_fit_terminates_n_agg refine fuel kfuel kind res tol_opt tol_agg n_agg m fb index p). Qed.
Print Assumptions leiden_fit_terminates_n_aggregations.

(** tol_aggregation >= 0, in particular 0, in EXACT arithmetic: a continuing aggregation strictly increases
    the objective of the coarse partition of the n original nodes, which takes at most n^n values: n^n + 1
    aggregations. PARTIAL with respect to the property: exact-rational model only (in the float32 kernel an
    accepted "gain" can be rounding noise, finding D32 of DESIGN.md); the fuel n^n + 1 shows that the loop is finite, it is
    not a fuel to run the model with. *)
Theorem leiden_fit_terminates_tol0_partial (refine : nat -> wgraph -> list nat -> list nat)
        (fuel kfuel : nat) (kind : modkind) (res tol_opt tol_agg : Q) (n_agg : Z)
        (m : wmat) (fb : bool) (index : option (list nat)) (p : prep) :
  refine_contract refine ->
  pre_processing kind m fb index = MOk p ->
  0 < tol_opt -> 0 <= tol_agg ->
  (leiden_kfuel kind res tol_opt m fb index <= kfuel)%nat ->
  (S (length (p_adj p) ^ length (p_adj p)) <= fuel)%nat ->
  exists r, leiden_loop fuel kfuel res tol_opt tol_agg n_agg refine (p_adj p) (p_out p) (p_in p)
                        (seq 0 (length (p_adj p))) (seq 0 (length (p_adj p))) 0 [] marg0 = MOk r.
Proof. exact (leiden_loop_fit_terminates_tol0_partial refine fuel kfuel kind res tol_opt tol_agg n_agg m fb index p). Qed.
Print Assumptions leiden_fit_terminates_tol0_partial.

(** Non-vacuity: on the house graph with tol_optimization = tol_aggregation = 1/100 the computed fuels are
    120 passes and 120 aggregations; with the oracle that refines nothing (it meets the contract:
    c06_leiden_nonvacuous) fit returns with them; and the coded label step on the first level's answer
    (coarse labels 0,0,1,1,0, every node its own refined cluster) returns the coarse labels themselves. *)
Example c06_leiden_termination_nonvacuous :
  leiden_kfuel Dugue 1 (1 # 100) ex_house false None = 120%nat /\
  leiden_fuel Dugue 1 (1 # 100) ex_house false None = 120%nat /\
  (exists log mg, leiden_fit 120 120 Dugue 1 (1 # 100) (1 # 100) (-1) true (fun _ g _ => seq 0 (length g))
                             ex_house false None = MOk ([0; 0; 1; 1; 0]%nat, log, mg)) /\
  aggregate_refine_labels [0; 0; 1; 1; 0]%Z [0; 1; 2; 3; 4]%Z = Clustering.Ok (5%nat, 2%nat, [0; 0; 1; 1; 0]%nat).
Proof.
  split; [vm_compute; reflexivity|]. split; [vm_compute; reflexivity|].
  split; [eexists; eexists; vm_compute; reflexivity|vm_compute; reflexivity].
Qed.

(* =========================================================================================== *)
(** * get_modularity as REGENERATED FROM sknetwork/clustering/metrics.py

    [src_modularity_fit / _div / _mod] (Gen/NpModularity.v) are the values of the variables [fit], [div] and [mod] of
    get_modularity, translated on every run by harness/translators/npvec.py into the array language of Model/NpVec.v
    (inputs: the square adjacency and the stacked label vector that the function's prologue produces, [weights],
    [resolution]); [rvdenote] (Proofs/NpVecProofs.v) is that language's NumPy / SciPy semantics over R.  For EVERY matrix (index function), every
    non-negative label vector, both weightings and every resolution the denotation is the documented modularity, and the
    fit and diversity terms add up to it. *)
From SKN Require Import Model.NpExpr Model.NpVec Gen.NpModularity Proofs.NpVecProofs Proofs.NpModularityProofs.
From Coq Require Import Reals Lra.
Local Open Scope R_scope.

Theorem source_modularity_def (n : nat) (A : nat -> nat -> R) (l : list Z) (deg : bool) (gamma : R) :
  labels_ok n l ->
  rvdenote (env_mod n A l deg gamma) src_modularity_fit = Some (WS (fit_def n A l)) /\
  rvdenote (env_mod n A l deg gamma) src_modularity_div = Some (WS (div_def n A l deg)) /\
  rvdenote (env_mod n A l deg gamma) src_modularity_mod = Some (WS (fit_def n A l - gamma * div_def n A l deg)).
Proof. exact (NpModularityProofs.source_modularity_def n A l deg gamma). Qed.
Print Assumptions source_modularity_def.

(** the normalising constants of the in- and out-probabilities coincide (total weight) *)
Theorem source_modularity_totals (n : nat) (A : nat -> nat -> R) :
  rsum n (fun j' => rsum n (fun i => A i j')) = total n A.
Proof. exact (NpModularityProofs.total_in_eq_total_out n A). Qed.
Print Assumptions source_modularity_totals.

Example c06_nonvacuous_source : labels_ok 3 (0 :: 2 :: 0 :: nil)%Z.
Proof. split; [reflexivity|]. intros [|[|[|i]]] Hi; try lia; cbn; lia. Qed.
