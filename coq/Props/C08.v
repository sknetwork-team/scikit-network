(** C08 — Cuts, aggregation and quality scores agree with the tree they are given.
    Statements of the property, each proved right under it ([exact] of a lemma of Proofs/, or a script over such lemmas; the
    refutations on explicit witnesses and the obligations over generated terms by evaluation) and followed by its
    [Print Assumptions]; non-vacuity examples.  Parts: 1-2 cuts and leaf sets, cluster order; 3 cut_straight; 4 cut_balanced;
    5a aggregate_dendrogram; 5b return_dendrogram; 6 Dasgupta's cost and score; 7 tree sampling divergence, bounds over R;
    8 the text of the cuts as translated from postprocess.py.

    Vocabulary (Model/Dendrogram.v, Model/Cuts.v): a dendrogram is a list of rows (left, right, height, size);
    [valid n D] is the boolean validity check (n-1 rows, each merging two distinct live ids, size = leaves below,
    last size n); [leaves n D k] is the leaf set below id k; [hmono n D]: no merge is lower than one of its
    children; [cut_input D0 ret] is the dendrogram actually cut ([reorder_dendrogram D0] when return_dendrogram
    is set and the heights are not sorted, D0 otherwise); [argsort_ok] is the contract of np.argsort (a permutation
    that sorts) — the theorems hold for every oracle meeting it, whatever its tie-breaks. *)
From SKN Require Import Base.Util Model.Dendrogram Model.Cuts Proofs.CutsProofs.
From Coq Require Import Permutation.

(** 1. Every cluster of a cut is exactly the leaf set of one subtree; the labels used are exactly 0..k-1 and
    every leaf carries one label (so the clusters partition the leaves). *)
Theorem cut_clusters_are_subtrees argsort n D0 D nc th sort ret labels od :
  cut_input D0 ret = Ok D -> valid n D = true -> argsort_ok argsort ->
  cut_straight argsort D0 nc th sort ret = Ok (labels, od) ->
  exists ids, subtree_partition n D labels ids /\ (sort = true -> sizes_sorted labels (length ids)).
Proof. exact (cut_straight_subtrees argsort n D0 D nc th sort ret labels od). Qed.
Print Assumptions cut_clusters_are_subtrees.

Theorem cut_balanced_clusters_are_subtrees argsort n D m sort ret labels od :
  valid n D = true -> argsort_ok argsort ->
  cut_balanced argsort D m sort ret = Ok (labels, od) ->
  exists ids, subtree_partition n D labels ids /\ (sort = true -> sizes_sorted labels (length ids)) /\
              (forall l, cluster_size labels l <= m).
Proof. exact (cut_balanced_subtrees argsort n D m sort ret labels od). Qed.
Print Assumptions cut_balanced_clusters_are_subtrees.

(** 2. With sort_clusters the labels are in non-increasing order of cluster size. *)
Theorem cut_labels_sorted_by_size argsort n D0 D nc th ret labels od :
  cut_input D0 ret = Ok D -> valid n D = true -> argsort_ok argsort ->
  cut_straight argsort D0 nc th true ret = Ok (labels, od) ->
  sizes_sorted labels (num_clusters labels).
Proof.
  intros Hin Hv Hargs Hcut.
  destruct (cut_straight_subtrees argsort n D0 D nc th true ret labels od Hin Hv Hargs Hcut) as [ids [Hsub Hs]].
  rewrite (subtree_partition_num _ _ _ _ Hsub). now apply Hs.
Qed.
Print Assumptions cut_labels_sorted_by_size.

Theorem cut_balanced_labels_sorted_by_size argsort n D m ret labels od :
  valid n D = true -> argsort_ok argsort ->
  cut_balanced argsort D m true ret = Ok (labels, od) ->
  sizes_sorted labels (num_clusters labels).
Proof.
  intros Hv Hargs Hcut.
  destruct (cut_balanced_subtrees argsort n D m true ret labels od Hv Hargs Hcut) as [ids [Hsub [Hs _]]].
  rewrite (subtree_partition_num _ _ _ _ Hsub). now apply Hs.
Qed.
Print Assumptions cut_balanced_labels_sorted_by_size.

(** 3. cut_straight returns at least n_clusters clusters (threshold = None) ... *)
Theorem cut_straight_count argsort n D0 D nc sort ret labels od :
  cut_input D0 ret = Ok D -> valid n D = true -> argsort_ok argsort ->
  cut_straight argsort D0 (Some nc) None sort ret = Ok (labels, od) ->
  nc <= num_clusters labels.
Proof.
  intros Hin Hv Hargs Hcut. destruct (valid_rows n D Hv) as [Hlen _].
  destruct (cut_straight_replay _ n _ _ _ _ _ _ _ _ Hin Hv Hcut) as (cut & st & Hc & Hrep & Hlab).
  destruct (cut_generic _ argsort n D st sort ret labels od Hv Hargs Hrep Hlab) as (_ & _ & _ & Hsub & _ & _).
  rewrite (subtree_partition_num _ _ _ _ Hsub). unfold akeys. rewrite map_length, pstate_length by assumption.
  destruct (cut_height_below n D nc cut Hlen Hc) as [Hk Hb].
  destruct (straight_replay_flags n D cut st Hv Hrep) as (fl & (_ & _ & _ & HL & _) & HA & _).
  assert (Hle : cntT fl (length D) <= below cut D).
  { rewrite below_cntT. apply cntT_le. intros t Ht Hfl. exact (HA t _ (nth_error_nth' D drow0 Ht) Hfl). }
  lia.
Qed.
Print Assumptions cut_straight_count.

(** ... exactly n_clusters when the heights are distinct (and no merge is lower than its children) ... *)
Theorem cut_straight_count_distinct argsort n D0 D nc sort ret labels od :
  cut_input D0 ret = Ok D -> valid n D = true -> hmono n D = true -> distinct_heights D ->
  argsort_ok argsort ->
  cut_straight argsort D0 (Some nc) None sort ret = Ok (labels, od) ->
  num_clusters labels = nc.
Proof. exact (CutsProofs.cut_straight_count_distinct argsort n D0 D nc sort ret labels od). Qed.
Print Assumptions cut_straight_count_distinct.

(** ... and what the code guarantees in general: with cut = max(sorted heights [n - n_clusters], threshold)
    (+infinity, written [None], for n_clusters = 1), exactly the merges STRICTLY below the cut
    ([below_cut cut r = true], i.e. height < cut) are applied: their leaves share one label, and the number of
    clusters is n minus the number of such merges. *)
Theorem cut_straight_applies_merges_below_cut argsort n D0 D nc th sort ret labels od cut :
  cut_input D0 ret = Ok D -> valid n D = true -> hmono n D = true -> argsort_ok argsort ->
  cut_height D nc th = Ok cut ->
  cut_straight argsort D0 nc th sort ret = Ok (labels, od) ->
  num_clusters labels + below cut D = n /\
  (forall t r, nth_error D t = Some r -> below_cut cut r = true ->
     forall u v, In u (leaves n D (n + t)) -> In v (leaves n D (n + t)) -> nth u labels 0 = nth v labels 0).
Proof. exact (cut_straight_exact argsort n D0 D nc th sort ret labels od cut). Qed.
Print Assumptions cut_straight_applies_merges_below_cut.

Theorem cut_straight_threshold_applied argsort n D0 D nc theta sort ret labels od :
  cut_input D0 ret = Ok D -> valid n D = true -> hmono n D = true -> argsort_ok argsort ->
  cut_straight argsort D0 nc (Some theta) sort ret = Ok (labels, od) ->
  forall t r, nth_error D t = Some r -> (r_height r < theta)%Q ->
    forall u v, In u (leaves n D (n + t)) -> In v (leaves n D (n + t)) -> nth u labels 0 = nth v labels 0.
Proof.
  intros Hin Hv Hm Hargs Hcut t r Hr Hlt.
  destruct (cut_straight_replay _ n _ _ _ _ _ _ _ _ Hin Hv Hcut) as (cut & _ & Hc & _).
  destruct (cut_straight_exact argsort n D0 D nc (Some theta) sort ret labels od cut Hin Hv Hm Hargs Hc Hcut) as [_ H].
  apply (H t r Hr). apply cut_height_inv in Hc. destruct Hc as (k & _ & [[_ ->]|[_ (c & _ & ->)]]).
  - reflexivity.
  - apply below_cut_lt. eapply Qlt_le_trans; [exact Hlt | apply qmax_ge_r].
Qed.
Print Assumptions cut_straight_threshold_applied.

(** Every admissible call returns a labelling, n_clusters = 1 included. *)
Theorem cut_straight_returns argsort n D nc th sort :
  valid n D = true -> 2 <= n ->
  match nc with Some k => 1 <= k <= n | None => True end ->
  exists labels, cut_straight argsort D nc th sort false = Ok (labels, None).
Proof. exact (cut_straight_total argsort n D nc th sort). Qed.
Print Assumptions cut_straight_returns.

(** [legacy_cut_straight] (Model/Cuts.v; DESIGN.md D6): n_clusters = 1 raises IndexError on EVERY dendrogram
    ([np.sort(heights)[n - 1]] on an array of n - 1 entries), although one cluster is admissible. *)
Theorem legacy_cut_straight_one_cluster_refuted :
  (forall argsort D th sort, legacy_cut_straight argsort D (Some 1) th sort false = Err IndexError) /\
  exists D, valid 3 D = true /\ check_n_clusters 1 3 = Ok tt /\
            legacy_cut_straight stable_argsort D (Some 1) None true false = Err IndexError /\
            cut_straight stable_argsort D (Some 1) None true false = Ok ([0; 0; 0], None).
Proof.
  split; [exact legacy_cut_straight_one_cluster_fails|].
  exists [(0, 1, 1%Q, 2); (3, 2, 2%Q, 3)]. vm_compute. auto.
Qed.
Print Assumptions legacy_cut_straight_one_cluster_refuted.

(** [legacy_aggregate_dendrogram] (Model/Cuts.v; DESIGN.md D7) with return_counts = True reads the count of an
    original leaf through a wrapped negative row index (wrong counts, or IndexError when leaf 0 is kept), and
    returns no count at all for a single cluster; [aggregate_dendrogram] returns the sizes of the kept subtrees. *)
Theorem legacy_aggregate_counts_refuted :
  let D := [(0, 1, 1%Q, 2); (3, 2, 2%Q, 3)] in
  valid 3 D = true /\
  legacy_aggregate_dendrogram D 2 true = Ok ([(1, 0, 2%Q, 3)], Some [3; 2]) /\
  legacy_aggregate_dendrogram D 3 true = Err IndexError /\
  legacy_aggregate_dendrogram D 1 true = Ok ([], Some []) /\
  aggregate_dendrogram D 2 true = Ok ([(1, 0, 2%Q, 3)], Some [1; 2]) /\
  aggregate_dendrogram D 3 true = Ok ([(0, 1, 1%Q, 2); (3, 2, 2%Q, 3)], Some [1; 1; 1]) /\
  aggregate_dendrogram D 1 true = Ok ([], Some [3]).
Proof. vm_compute. repeat split; reflexivity. Qed.
Print Assumptions legacy_aggregate_counts_refuted.

(** 4. cut_balanced never returns a cluster larger than max_cluster_size. *)
Theorem cut_balanced_cap argsort n D m sort ret labels od :
  valid n D = true -> argsort_ok argsort ->
  cut_balanced argsort D m sort ret = Ok (labels, od) ->
  forall l, cluster_size labels l <= m.
Proof.
  intros Hv Ha Hc. destruct (cut_balanced_subtrees argsort n D m sort ret labels od Hv Ha Hc) as [ids [_ [_ H]]]. exact H.
Qed.
Print Assumptions cut_balanced_cap.

(** 5a. aggregate_dendrogram: for every valid dendrogram and 1 <= n_clusters <= n the result is a valid
    dendrogram over the kept clusters (leaf l standing for [true_count] = size of the kept subtree), with the
    heights of the last n_clusters - 1 merges, and counts (return_counts) equal to those sizes, summing to n. *)
Theorem aggregate_dendrogram_valid n D nc rc out oc :
  valid n D = true -> aggregate_dendrogram D nc rc = Ok (out, oc) ->
  1 <= nc <= n /\
  let ws := if Nat.eqb nc 1 then [n] else map (true_count n D) (kept_ids n D nc) in
  validw ws out = true /\ length ws = nc /\ sumn ws = n /\
  heights out = heights (skipn (n - nc) D) /\ (rc = true -> oc = Some ws).
Proof. exact (aggregate_dendrogram_ok n D nc rc out oc). Qed.
Print Assumptions aggregate_dendrogram_valid.

Theorem aggregate_dendrogram_returns n D nc rc :
  valid n D = true -> 1 <= nc <= n -> exists out oc, aggregate_dendrogram D nc rc = Ok (out, oc).
Proof. exact (aggregate_dendrogram_total n D nc rc). Qed.
Print Assumptions aggregate_dendrogram_returns.

(** 5b. return_dendrogram = True: every admissible call returns, together with the labels, a dendrogram that is
    valid over the clusters (leaf l standing for the [cluster_size labels l] samples of cluster l, so the
    size column counts original samples and the last size is n), whose heights are exactly the heights of the
    merges of the input that join leaves of different clusters ([unmerged_rows]), in the same order. *)
Theorem reduced_dendrogram_valid argsort n D0 D nc th sort :
  cut_input D0 true = Ok D -> valid n D = true -> 2 <= n -> argsort_ok argsort ->
  match nc with Some k => 1 <= k <= n | None => True end ->
  exists labels Dnew,
    cut_straight argsort D0 nc th sort true = Ok (labels, Some Dnew) /\
    let ws := map (cluster_size labels) (seq 0 (num_clusters labels)) in
    validw ws Dnew = true /\ sumn ws = n /\
    heights Dnew = heights (unmerged_rows n D labels).
Proof.
  intros Hin Hv Hn Hargs Hnc. destruct (valid_rows n D Hv) as [Hlen Hrows].
  destruct (cut_height_total n D nc th Hlen Hn Hnc) as [cut Hcut].
  destruct (replay_total (straight_guard cut) n D (init_clusters n) Hv) as [st Hst].
  destruct (get_labels_reduced _ argsort n D st sort Hv Hargs Hst) as (labels & Dnew & Hget & Hprops).
  exists labels, Dnew. split; [|exact Hprops].
  unfold cut_straight, straight_state, straight_state_with. rewrite Hin, Hcut, Hlen, Hst. exact Hget.
Qed.
Print Assumptions reduced_dendrogram_valid.

Theorem cut_balanced_reduced_dendrogram_valid argsort n D m sort :
  valid n D = true -> argsort_ok argsort -> 2 <= m <= n ->
  exists labels Dnew,
    cut_balanced argsort D m sort true = Ok (labels, Some Dnew) /\
    let ws := map (cluster_size labels) (seq 0 (num_clusters labels)) in
    validw ws Dnew = true /\ sumn ws = n /\
    heights Dnew = heights (unmerged_rows n D labels).
Proof. exact (cut_balanced_reduced argsort n D m sort). Qed.
Print Assumptions cut_balanced_reduced_dendrogram_valid.

Theorem cut_balanced_returns argsort n D m sort ret :
  valid n D = true -> argsort_ok argsort -> 2 <= m <= n ->
  exists labels od, cut_balanced argsort D m sort ret = Ok (labels, od).
Proof. exact (cut_balanced_total argsort n D m sort ret). Qed.
Print Assumptions cut_balanced_returns.

(** 6. Dasgupta's cost, as computed by the replay of get_sampling_distributions over the AggregateGraph
    (dict-of-dict neighbours, merged row by row), equals its definition: the edge-weighted average, over the
    edges (u, v) of the graph, of the size (weights = 'uniform') or volume (weights = 'degree': mean of out- and
    in-volume) of the SMALLEST cluster of the tree containing both u and v ([dasgupta_spec] is written with
    [smallest_common], a minimum over all clusters of the tree, not with the replay).
    Graph: COO triples with endpoints in range, no self-loop (a self-loop has no smallest common merge: the code
    charges it to the first merge of its node), positive total weight. *)
Theorem dasgupta_is_lca_average degree n G D :
  valid n D = true ->
  (forall e, In e G -> e_src e < n /\ e_dst e < n /\ e_src e <> e_dst e) ->
  (0 < total_weight G)%Q -> 2 <= n -> G <> [] ->
  exists c, dasgupta_cost degree n G D false = Ok c /\ (c == dasgupta_spec degree n G D)%Q.
Proof. exact (dasgupta_cost_is_spec degree n G D). Qed.
Print Assumptions dasgupta_is_lca_average.

(** Dasgupta's score (1 - normalised cost) lies in [0, 1] for non-negative weights. *)
Theorem dasgupta_score_in_unit_interval degree n G D :
  valid n D = true ->
  (forall e, In e G -> e_src e < n /\ e_dst e < n /\ e_src e <> e_dst e) ->
  (forall e, In e G -> (0 <= e_w e)%Q) ->
  (0 < total_weight G)%Q -> 2 <= n -> G <> [] ->
  exists s, dasgupta_score degree n G D = Ok s /\ (0 <= s <= 1)%Q.
Proof. exact (dasgupta_score_unit degree n G D). Qed.
Print Assumptions dasgupta_score_in_unit_interval.

(** tree_sampling_divergence is modelled ([tsd_terms], [mi_terms], [tree_sampling_divergence] over a [ln]
    oracle) and compared with the implementation at run time; its bounds (Gibbs' inequality, coarse-graining)
    are proved over the reals in section 7 below ([tsd_nonneg], [tsd_normalized_le_one]). *)

(** The stable argsort meets the oracle contract (the hypotheses above are satisfiable). *)
Theorem argsort_contract_satisfiable : argsort_ok stable_argsort.
Proof. exact stable_argsort_ok. Qed.
Print Assumptions argsort_contract_satisfiable.

(** Non-vacuity: a valid 5-leaf dendrogram with unsorted rows and a tie, cut in three ways. *)
Example c08_nonvacuous :
  let D := [(0, 1, 2%Q, 2); (2, 3, 1%Q, 2); (5, 4, 3%Q, 3); (6, 7, 4%Q, 5)] in
  valid 5 D = true /\ hmono 5 D = true /\
  cut_input D false = Ok D /\
  cut_straight stable_argsort D (Some 3) None true false = Ok ([0; 0; 1; 1; 2], None) /\
  cut_straight stable_argsort D None (Some (5 # 2)%Q) true false = Ok ([0; 0; 1; 1; 2], None) /\
  cut_balanced stable_argsort D 3 true false = Ok ([0; 0; 1; 1; 0], None) /\
  leaves 5 D 7 = [0; 1; 4].
Proof. vm_compute. repeat split; reflexivity. Qed.

Example c08_metrics_nonvacuous :
  let D := [(0, 1, 2%Q, 2); (2, 3, 1%Q, 2); (5, 4, 3%Q, 3); (6, 7, 4%Q, 5)] in
  let G := [(0, 1, 1%Q); (1, 0, 1%Q); (1, 2, 2%Q); (2, 1, 2%Q); (0, 3, 1%Q); (3, 0, 1%Q); (3, 4, 3%Q); (4, 3, 3%Q)] in
  dasgupta_cost false 5 G D false = Ok (32 # 7)%Q /\ (dasgupta_spec false 5 G D == 32 # 7)%Q /\
  dasgupta_cost true 5 G D false = Ok (89 # 7)%Q /\ (dasgupta_spec true 5 G D == 89 # 7)%Q /\
  dasgupta_score false 5 G D = Ok (3 # 35)%Q.
Proof. vm_compute. repeat split; reflexivity. Qed.

(** 7. Tree sampling divergence: bounds over the REAL numbers (Proofs/TsdReal.v).  The bounds are proved for the
    formula; the floating-point implementation is checked against them at run time.

    The theorems of this part — and only these — use the standard library of real numbers, hence its axioms
    (ClassicalDedekindReals.sig_not_dec, sig_forall_dec, functional_extensionality_dep, Classical_Prop.classic).

    Vocabulary.  A finite pair of distributions is a list of pairs (a_i, b_i) of reals; [mass1] / [mass2] are the
    sums of the a_i / b_i; [okpair (a, b)]: 0 <= a, 0 <= b, and 0 < a -> 0 < b; [kl l] = sum a_i ln (a_i / b_i)
    ([ln] of the standard library is 0 at 0, so the terms with a_i = 0 count for 0: dropping them, as the code
    does with np.where, changes nothing); [coarse groups]: one pair (sum of a, sum of b) per group;
    [normalise score mi] = score / mi if mi > 0, score otherwise (the code's [normalized=True] branch).
    [tsd_real degree n G D normalized] is the formula of [tree_sampling_divergence] of Model/Cuts.v on the SAME
    exact rational terms ([tsd_terms]: the pairs (edge_sampling[t], node_sampling[t]) with edge_sampling[t] <> 0;
    [mi_terms]: for every stored entry (A_uv / w, w_row[u] w_col[v])), injected into R ([q2]), with the real
    logarithm in place of the [ln] oracle. *)
From Coq Require Import Reals.
From SKN Require Import Proofs.TsdReal.
Set Warnings "-notation-overridden".
Open Scope nat_scope.

(** Exact, over Q, no axiom: the two sampling distributions computed by the model of
    [get_sampling_distributions] are probability vectors (self-loops allowed: they are charged to the first merge
    of their node, as in the code). *)
Theorem sampling_distributions_are_probabilities degree n G D :
  valid n D = true ->
  (forall e, In e G -> e_src e < n /\ e_dst e < n) ->
  (forall e, In e G -> (0 <= e_w e)%Q) ->
  (0 < total_weight G)%Q -> 2 <= n ->
  exists sd, get_sampling_distributions degree n G D = Ok sd /\ length sd = n - 1 /\
    (forall x, In x sd -> (0 <= fst (fst x))%Q /\ (0 <= snd (fst x))%Q) /\
    (sumq (map (fun x => fst (fst x)) sd) == 1)%Q /\ (sumq (map (fun x => snd (fst x)) sd) == 1)%Q.
Proof. exact (sampling_distributions_probabilities_lemma degree n G D). Qed.
Print Assumptions sampling_distributions_are_probabilities.

(** Gibbs' inequality: D(p || q) >= 0 as soon as the mass of q does not exceed the mass of p
    (in particular for two probability vectors), q_i > 0 wherever p_i > 0. *)
Theorem kl_nonneg (l : list (R * R)) :
  Forall okpair l -> (mass2 l <= mass1 l)%R -> (0 <= kl l)%R.
Proof. exact (kl_nonneg_gen l). Qed.
Print Assumptions kl_nonneg.

(** The log-sum inequality. *)
Theorem log_sum (l : list (R * R)) :
  Forall okpair l -> (mass1 l * ln (mass1 l / mass2 l) <= kl l)%R.
Proof. exact (log_sum_inequality l). Qed.
Print Assumptions log_sum.

(** Coarse-graining (data processing): the divergence between the images of two distributions under one map
    is at most the divergence between the distributions. *)
Theorem kl_coarse_graining (groups : list (list (R * R))) :
  Forall (Forall okpair) groups -> (kl (coarse groups) <= kl (concat groups))%R.
Proof. exact (kl_coarse_le groups). Qed.
Print Assumptions kl_coarse_graining.

(** The tree sampling divergence is non-negative and at most the normaliser used by the code (the mutual
    information sum_{stored (u,v)} (A_uv / w) ln ((A_uv / w) / (w_row[u] w_col[v])) = divergence between the joint
    edge distribution and the product of the node distributions): (edge_sampling, node_sampling) are the images
    of these two pair-level distributions under (u, v) |-> the merge at which u and v meet.
    Graph: COO triples without repeated (u, v), endpoints in range, non-negative weights, positive total weight
    (self-loops allowed); D any valid dendrogram; weights = 'degree' or 'uniform'. *)
Theorem tsd_nonneg degree n G D :
  valid n D = true ->
  (forall e, In e G -> e_src e < n /\ e_dst e < n) ->
  (forall e, In e G -> (0 <= e_w e)%Q) ->
  (0 < total_weight G)%Q -> 2 <= n -> NoDup (map fst G) -> G <> [] ->
  exists s, tsd_real degree n G D false = Ok s /\ (0 <= s <= kl (map q2 (mi_terms degree n G)))%R.
Proof.
  intros Hv HG Hpos Hw Hn Hnd HGne.
  destruct (tsd_real_bounds_lemma degree n G D Hv HG Hpos Hw Hn Hnd HGne) as (s & H1 & _ & H2 & _). now exists s.
Qed.
Print Assumptions tsd_nonneg.

(** The normalised tree sampling divergence lies in [0, 1]. *)
Theorem tsd_normalized_le_one degree n G D :
  valid n D = true ->
  (forall e, In e G -> e_src e < n /\ e_dst e < n) ->
  (forall e, In e G -> (0 <= e_w e)%Q) ->
  (0 < total_weight G)%Q -> 2 <= n -> NoDup (map fst G) -> G <> [] ->
  exists s, tsd_real degree n G D true = Ok s /\ (0 <= s <= 1)%R.
Proof.
  intros Hv HG Hpos Hw Hn Hnd HGne.
  destruct (tsd_real_bounds_lemma degree n G D Hv HG Hpos Hw Hn Hnd HGne) as (s & _ & H1 & _ & H2). eexists. split; [exact H1 | exact H2].
Qed.
Print Assumptions tsd_normalized_le_one.

(** Link with the rational model and its oracle.  (a) If the oracle is within eps of the real logarithm on the
    ratios it is applied to, the unnormalised score of the model is within eps of [tsd_real] (hence >= -eps). *)
Theorem tsd_model_within_eps degree n G D (lnq : Q -> Q) (eps : R) s :
  valid n D = true ->
  (forall e, In e G -> e_src e < n /\ e_dst e < n) ->
  (forall e, In e G -> (0 <= e_w e)%Q) ->
  (0 < total_weight G)%Q -> 2 <= n -> G <> [] ->
  (forall ts x, tsd_terms degree n G D = Ok ts -> In x ts ->
     (Rabs (Q2R (lnq (fst x / snd x)%Q) - ln (Q2R (fst x) / Q2R (snd x))) <= eps)%R) ->
  tree_sampling_divergence lnq degree n G D false = Ok s ->
  exists sr, tsd_real degree n G D false = Ok sr /\ (Rabs (Q2R s - sr) <= eps)%R.
Proof.
  exact (fun Hv HG Hpos Hw Hn HGne => tsd_model_within_eps_lemma degree n G D Hv HG Hpos Hw Hn lnq eps s HGne).
Qed.
Print Assumptions tsd_model_within_eps.

(** (b) Shape only: with an idealised oracle equal to [ln] on every ratio it is applied to, the model returns
    exactly [tsd_real], normalised or not ([tsd_real] is the model's formula term for term; no rational-valued
    oracle meets this hypothesis except on ratios equal to 1). *)
Theorem tsd_real_is_model_formula (lnq : Q -> Q) degree n G D normalized s :
  (forall ts x, tsd_terms degree n G D = Ok ts -> In x (ts ++ mi_terms degree n G) ->
     Q2R (lnq (fst x / snd x)%Q) = ln (Q2R (fst x) / Q2R (snd x))) ->
  tree_sampling_divergence lnq degree n G D normalized = Ok s ->
  tsd_real degree n G D normalized = Ok (Q2R s).
Proof. exact (tsd_real_of_exact_oracle_lemma lnq degree n G D normalized s). Qed.
Print Assumptions tsd_real_is_model_formula.

(** Non-vacuity: the hypotheses of [tsd_normalized_le_one] hold for a weighted graph with a self-loop and a
    5-leaf dendrogram; three of the four merges carry positive edge-sampling probability (the term of the merge
    (5, 4), which no edge crosses, is dropped, as by np.where in the code). *)
Example c08_tsd_nonvacuous :
  let D := [(0, 1, 2%Q, 2); (2, 3, 1%Q, 2); (5, 4, 3%Q, 3); (6, 7, 4%Q, 5)] in
  let G := [(0, 1, 1%Q); (1, 0, 1%Q); (1, 2, 2%Q); (2, 1, 2%Q); (0, 3, 1%Q); (3, 0, 1%Q); (3, 4, 3%Q); (4, 3, 3%Q);
            (2, 2, 1%Q)] in
  valid 5 D = true /\
  (forall e, In e G -> e_src e < 5 /\ e_dst e < 5) /\ (forall e, In e G -> (0 <= e_w e)%Q) /\
  (0 < total_weight G)%Q /\ NoDup (map fst G) /\ G <> [] /\
  (exists ts, tsd_terms true 5 G D = Ok ts /\ length ts = 3) /\
  (exists ts, tsd_terms false 5 G D = Ok ts /\ length ts = 3).
Proof.
  cbv zeta. split; [vm_compute; reflexivity|].
  split; [intros e H; cbn [In] in H; repeat (destruct H as [<-|H]; [vm_compute; split; lia|]); destruct H|].
  split; [intros e H; cbn [In] in H; repeat (destruct H as [<-|H]; [vm_compute; discriminate|]); destruct H|].
  split; [vm_compute; reflexivity|].
  split; [cbn [map fst]; repeat (constructor; [cbn [In]; intros H; repeat (destruct H as [H|H]; [discriminate|]); destruct H|]); constructor|].
  split; [discriminate|].
  split; eexists; (split; [vm_compute; reflexivity | reflexivity]).
Qed.

(** * 8. The SOURCE TEXT of the cuts (sknetwork/hierarchy/postprocess.py, regenerated on every run)

    [src_cut_balanced], [src_cut_straight_core] and [src_reduce_loop] are statements of the small imperative Python of
    Model/PyImp.v, produced by harness/translators/pyimp.py from the source (Gen/PyCuts.v): the body of cut_balanced
    after [check_dendrogram], the body of cut_straight from [cluster = {...}] on (with check_n_clusters of utils/check.py
    inlined), and the loop of get_labels that builds the reduced dendrogram.  [exec] runs them on an environment; [embD],
    [embC], [embN], [embNewRow] embed the model's dendrograms / dicts / rows into Python values.  The theorems hold for
    EVERY dendrogram and argument (no validity assumed in the first three): the text computes what the functional model
    of Model/Cuts.v computes, errors included, so clauses 1-4 and 5b above (cut_straight, cut_balanced, get_labels) speak about the text.  They are proved by symbolic execution
    of the generated terms, not against a pinned copy. *)
From SKN Require Import Model.PyImp Gen.PyCuts Proofs.PyCutsProofs Proofs.PyCutsCompose Proofs.PyLabelsProofs
     Proofs.PyImpFrame Proofs.PyCutsEndToEnd.
From Coq Require Import String.
Local Open Scope string_scope.

Theorem source_cut_balanced_is_model D m (e0 : env) :
  e0 "dendrogram" = Some (embD D) -> e0 "max_cluster_size" = Some (vnat m) ->
  match balanced_state D m with
  | Ok st => exists e', exec src_cut_balanced e0 = POk e' /\ e' "cluster" = Some (embC st) /\
                        e' "dendrogram" = Some (embD D)
  | Err er => exec src_cut_balanced e0 = PErr (conv er)
  end.
Proof. exact (src_cut_balanced_is_model D m e0). Qed.
Print Assumptions source_cut_balanced_is_model.

Theorem source_cut_straight_core_is_model D nc th (e0 : env) :
  let n := S (List.length D) in
  e0 "dendrogram" = Some (embD D) -> e0 "n" = Some (vnat n) ->
  e0 "n_clusters" = Some (embON nc) -> e0 "threshold" = Some (embOQ th) ->
  match (match cut_height D nc th with
         | Err e => Err e
         | Ok cut => replay (straight_guard cut) n D (init_clusters n)
         end) with
  | Ok st => exists e', exec src_cut_straight_core e0 = POk e' /\ e' "cluster" = Some (embC st) /\
                        e' "dendrogram" = Some (embD D)
  | Err er => exec src_cut_straight_core e0 = PErr (conv er)
  end.
Proof. exact (src_cut_straight_core_is_model D nc th e0). Qed.
Print Assumptions source_cut_straight_core_is_model.

Theorem source_reduce_loop_is_model D cindex csize cur cur_new (e0 : env) :
  e0 "dendrogram" = Some (embD D) -> e0 "cluster_index" = Some (embN cindex) ->
  e0 "cluster_size" = Some (embN csize) -> e0 "current_cluster" = Some (vnat cur) ->
  e0 "current_cluster_new" = Some (vnat cur_new) -> e0 "dendrogram_new" = Some (VList []) ->
  keys_lt cur cindex -> keys_lt cur_new csize ->
  match reduce_loop D cindex csize cur cur_new with
  | Ok res => exists e', exec src_reduce_loop e0 = POk e' /\ e' "dendrogram_new" = Some (VList (map embNewRow res)) /\
                         e' "labels" = e0 "labels"
  | Err er => exec src_reduce_loop e0 = PErr (conv er)
  end.
Proof. exact (src_reduce_loop_is_model D cindex csize cur cur_new e0). Qed.
Print Assumptions source_reduce_loop_is_model.

(** On every VALID dendrogram and admissible argument the text of cut_balanced runs to the end without an exception,
    and the [cluster] dict it hands to get_labels has these properties ([cinv]): keys distinct; every value is exactly
    the leaf set of the subtree of its key and is not empty; the values partition the leaves 0..n-1; none is larger
    than max_cluster_size. *)
Theorem source_cut_balanced_clusters n D m (e0 : env) :
  valid n D = true -> 2 <= m <= n ->
  e0 "dendrogram" = Some (embD D) -> e0 "max_cluster_size" = Some (vnat m) ->
  exists e' st, exec src_cut_balanced e0 = POk e' /\ e' "cluster" = Some (embC st) /\
                cinv n D (List.length D) st /\
                Forall (fun kc : nat * list nat => List.length (snd kc) <= m) st.
Proof. exact (src_cut_balanced_clusters n D m e0). Qed.
Print Assumptions source_cut_balanced_clusters.

(** The same for cut_straight: the dict is the replay of the merges strictly below the cut height of the model. *)
Theorem source_cut_straight_clusters n D nc th (e0 : env) :
  valid n D = true -> 2 <= n ->
  match nc with Some k => 1 <= k <= n | None => True end ->
  e0 "dendrogram" = Some (embD D) -> e0 "n" = Some (vnat n) ->
  e0 "n_clusters" = Some (embON nc) -> e0 "threshold" = Some (embOQ th) ->
  exists e' st cut, exec src_cut_straight_core e0 = POk e' /\ e' "cluster" = Some (embC st) /\
                    cut_height D nc th = Ok cut /\
                    replay (straight_guard cut) n D (init_clusters n) = Ok st /\
                    cinv n D (List.length D) st.
Proof. exact (src_cut_straight_clusters n D nc th e0). Qed.
Print Assumptions source_cut_straight_clusters.

(** get_labels as a whole.  [src_get_labels_head] is everything before [if return_dendrogram:] (the clusters in dict order,
    their reordering through np.argsort, the labels array written cluster by cluster), [src_get_labels_ret] adds the initialisation
    and the loop of the reduced dendrogram.  np.argsort is an ORACLE: its answer for the one call is read from the environment and the
    theorem holds for every answer that indexes the clusters (every permutation does).  Result: exactly the labels / reduced rows /
    error of the model's get_labels. *)
Theorem source_get_labels_is_model argsort D st sort ret (e0 : env) :
  let n := S (List.length D) in
  let answer := argsort (map (fun c => (- Z.of_nat (List.length c))%Z) (map snd st)) in
  e0 "dendrogram" = Some (embD D) -> e0 "cluster" = Some (embC st) -> e0 "sort_clusters" = Some (VBool sort) ->
  e0 "oracle:np.argsort" = Some (VList (map vnat answer)) ->
  Forall (fun i => i < List.length st) answer ->
  Forall (Forall (fun v => v < n)) (map snd st) ->
  match get_labels argsort D st sort ret with
  | Ok (labels, od) =>
      exists e', exec (if ret then src_get_labels_ret else src_get_labels_head) e0 = POk e' /\
                 e' "labels" = Some (VList (map vnat labels)) /\
                 match od with
                 | Some Dnew => ret = true /\ e' "dendrogram_new" = Some (VList (map embNewRow Dnew))
                 | None => ret = false
                 end
  | Err er => ret = true /\ exec src_get_labels_ret e0 = PErr (conv er)
  end.
Proof. exact (src_get_labels_is_model argsort D st sort ret e0). Qed.
Print Assumptions source_get_labels_is_model.

(** A statement changes only the variables it syntactically assigns (frame theorem of the language; it is what allows the
    fragments to be composed: the options and the oracle answer survive the first half). *)
Theorem pyimp_frame s (en en' : env) :
  exec s en = POk en' -> forall y, ~ In y (assigned s) -> en' y = en y.
Proof. exact (exec_frame s en en'). Qed.
Print Assumptions pyimp_frame.

(** END TO END.  [src_cut_balanced_all ret] is the regenerated body of cut_balanced followed by the regenerated get_labels
    (everything of the function except [check_dendrogram(dendrogram)] and the [return]); [src_cut_straight_all false] likewise
    from [cluster = {...}] on.  For every valid dendrogram, every argument and every admissible np.argsort they compute exactly the
    model's result, so that the clauses of C08 hold of the source text: *)
Theorem source_cut_balanced_end_to_end argsort n D m sort ret (e0 : env) :
  valid n D = true -> argsort_ok argsort ->
  e0 "dendrogram" = Some (embD D) -> e0 "max_cluster_size" = Some (vnat m) -> e0 "sort_clusters" = Some (VBool sort) ->
  (forall st, balanced_state D m = Ok st -> e0 "oracle:np.argsort" = Some (oracle_answer argsort st)) ->
  match cut_balanced argsort D m sort ret with
  | Ok (labels, od) =>
      exists e', exec (src_cut_balanced_all ret) e0 = POk e' /\ e' "labels" = Some (VList (map vnat labels)) /\
                 match od with
                 | Some Dnew => ret = true /\ e' "dendrogram_new" = Some (VList (map embNewRow Dnew))
                 | None => ret = false
                 end
  | Err er => exec (src_cut_balanced_all ret) e0 = PErr (conv er)
  end.
Proof. exact (src_cut_balanced_end_to_end argsort n D m sort ret e0). Qed.
Print Assumptions source_cut_balanced_end_to_end.

Theorem source_cut_balanced_labels_property argsort n D m sort ret (e0 : env) :
  valid n D = true -> argsort_ok argsort -> 2 <= m <= n ->
  e0 "dendrogram" = Some (embD D) -> e0 "max_cluster_size" = Some (vnat m) -> e0 "sort_clusters" = Some (VBool sort) ->
  (forall st, balanced_state D m = Ok st -> e0 "oracle:np.argsort" = Some (oracle_answer argsort st)) ->
  exists e' labels ids,
    exec (src_cut_balanced_all ret) e0 = POk e' /\ e' "labels" = Some (VList (map vnat labels)) /\
    subtree_partition n D labels ids /\ (sort = true -> sizes_sorted labels (List.length ids)) /\
    (forall l, cluster_size labels l <= m).
Proof.
  intros Hv Ha Hm Hd Hmm Hs Ho.
  destruct (CutsProofs.cut_balanced_total argsort n D m sort ret Hv Ha Hm) as (labels & od & Hcut).
  pose proof (src_cut_balanced_end_to_end argsort n D m sort ret e0 Hv Ha Hd Hmm Hs Ho) as L.
  rewrite Hcut in L. destruct L as (e' & F & HL & _).
  destruct (CutsProofs.cut_balanced_subtrees argsort n D m sort ret labels od Hv Ha Hcut) as (ids & P1 & P2 & P3).
  exists e', labels, ids. exact (conj F (conj HL (conj P1 (conj P2 P3)))).
Qed.
Print Assumptions source_cut_balanced_labels_property.

Theorem source_cut_straight_labels_property argsort n D nc th sort (e0 : env) :
  valid n D = true -> argsort_ok argsort -> 2 <= n ->
  match nc with Some k => 1 <= k <= n | None => True end ->
  e0 "dendrogram" = Some (embD D) -> e0 "n" = Some (vnat n) ->
  e0 "n_clusters" = Some (embON nc) -> e0 "threshold" = Some (embOQ th) -> e0 "sort_clusters" = Some (VBool sort) ->
  (forall st, (match cut_height D nc th with
               | Err e => Err e
               | Ok cut => replay (straight_guard cut) (S (List.length D)) D (init_clusters (S (List.length D)))
               end) = Ok st -> e0 "oracle:np.argsort" = Some (oracle_answer argsort st)) ->
  exists e' labels ids,
    exec (src_cut_straight_all false) e0 = POk e' /\ e' "labels" = Some (VList (map vnat labels)) /\
    subtree_partition n D labels ids /\ (sort = true -> sizes_sorted labels (List.length ids)).
Proof.
  intros Hv Ha Hn Hnc Hd Hnn Hncc Hth Hs Ho.
  destruct (CutsProofs.cut_straight_total argsort n D nc th sort Hv Hn Hnc) as (labels & Hcut).
  pose proof (src_cut_straight_end_to_end_ret argsort n D nc th sort false e0 Hv Ha eq_refl Hd Hnn Hncc Hth Hs Ho) as L.
  rewrite Hcut in L. destruct L as (e' & F & HL & _).
  destruct (CutsProofs.cut_straight_subtrees argsort n D D nc th sort false labels None eq_refl Hv Ha Hcut) as (ids & P1 & P2).
  exists e', labels, ids. exact (conj F (conj HL (conj P1 P2))).
Qed.
Print Assumptions source_cut_straight_labels_property.

(** cut_straight end to end, return_dendrogram included, on a dendrogram that is cut as given ([cut_input D ret = Ok D]: ret = false,
    or heights already sorted): the labels and the reduced dendrogram of the model, or its error. *)
Theorem source_cut_straight_end_to_end argsort n D nc th sort ret (e0 : env) :
  valid n D = true -> argsort_ok argsort -> cut_input D ret = Ok D ->
  e0 "dendrogram" = Some (embD D) -> e0 "n" = Some (vnat n) ->
  e0 "n_clusters" = Some (embON nc) -> e0 "threshold" = Some (embOQ th) -> e0 "sort_clusters" = Some (VBool sort) ->
  (forall st, (match cut_height D nc th with
               | Err e => Err e
               | Ok cut => replay (straight_guard cut) (S (List.length D)) D (init_clusters (S (List.length D)))
               end) = Ok st -> e0 "oracle:np.argsort" = Some (oracle_answer argsort st)) ->
  match cut_straight argsort D nc th sort ret with
  | Ok (labels, od) =>
      exists e', exec (src_cut_straight_all ret) e0 = POk e' /\ e' "labels" = Some (VList (map vnat labels)) /\
                 match od with
                 | Some Dnew => ret = true /\ e' "dendrogram_new" = Some (VList (map embNewRow Dnew))
                 | None => ret = false
                 end
  | Err er => exec (src_cut_straight_all ret) e0 = PErr (conv er)
  end.
Proof. exact (src_cut_straight_end_to_end_ret argsort n D nc th sort ret e0). Qed.
Print Assumptions source_cut_straight_end_to_end.

(** The statements around the translated fragments (the reorder step of cut_straight, the argument lists of the two
    [return get_labels(...)], the initialisation before the loop of get_labels) are pinned to the reviewed text; they
    are covered by the hand-written model and the correspondence runs only. *)
Theorem source_untranslated_parts_reviewed :
  src_cut_balanced_params = ["dendrogram"; "max_cluster_size"; "sort_clusters"; "return_dendrogram"] /\
  src_cut_balanced_tail = ["dendrogram"; "cluster"; "sort_clusters"; "return_dendrogram"] /\
  src_cut_straight_params = ["dendrogram"; "n_clusters"; "threshold"; "sort_clusters"; "return_dendrogram"] /\
  src_cut_straight_tail = ["dendrogram"; "cluster"; "sort_clusters"; "return_dendrogram"] /\
  src_cut_straight_head =
    ["check_dendrogram(dendrogram)"; "n = dendrogram.shape[0] + 1";
     "if return_dendrogram:
    height = dendrogram[:, 2]
    if not np.all(height[:-1] <= height[1:]):
        dendrogram = reorder_dendrogram(dendrogram)"] /\
  src_reduce_init =
    ["cluster_index = {i: label for i, label in enumerate(labels)}";
     "cluster_size = {i: len(cluster) for i, cluster in enumerate(clusters)}";
     "dendrogram_new = []"; "current_cluster = len(labels)"; "current_cluster_new = len(clusters)"] /\
  src_reduce_after = ["dendrogram_new = np.array(dendrogram_new)"; "return (labels, dendrogram_new)"] /\
  src_get_labels_before =
    ["n = len(dendrogram) + 1"; "clusters = list(cluster.values())";
     "if sort_clusters:
    sizes = np.array([len(nodes) for nodes in clusters])
    index = np.argsort(-sizes)
    clusters = [clusters[i] for i in index]";
     "labels = np.zeros(n, dtype=int)";
     "for label, nodes in enumerate(clusters):
    labels[nodes] = label"].
Proof. repeat split; reflexivity. Qed.
Print Assumptions source_untranslated_parts_reviewed.

(** Non-vacuity: the generated programs really run (evaluated inside Coq) on a 5-leaf dendrogram with a tie, and give the
    dict / the reduced rows one expects. *)
Example c08_source_nonvacuous :
  let D := [(0, 1, 1%Q, 2); (2, 3, 1%Q, 2); (5, 4, 2%Q, 3); (6, 7, 3%Q, 5)] in
  valid 5 D = true /\
  run_var src_cut_balanced [("dendrogram", embD D); ("max_cluster_size", vnat 3)] "cluster"
    = POk (Some (embC [(6, [2; 3]); (7, [0; 1; 4])])) /\
  run_var src_cut_straight_core [("dendrogram", embD D); ("n", vnat 5); ("n_clusters", vnat 3); ("threshold", VNone)] "cluster"
    = POk (Some (embC [(4, [4]); (5, [0; 1]); (6, [2; 3])])) /\
  run_var src_cut_straight_core [("dendrogram", embD D); ("n", vnat 5); ("n_clusters", vnat 7); ("threshold", VNone)] "cluster"
    = PErr PValueError /\
  run_var src_reduce_loop [("dendrogram", embD D); ("cluster_index", embN [(0, 1); (1, 1); (2, 0); (3, 0); (4, 2)]);
                           ("cluster_size", embN [(0, 2); (1, 2); (2, 1)]); ("current_cluster", vnat 5);
                           ("current_cluster_new", vnat 3); ("dendrogram_new", VList [])] "dendrogram_new"
    = POk (Some (VList (map embNewRow [(1, 2, 2%Q, 3); (0, 3, 3%Q, 5)]))).
Proof. cbv zeta. repeat split; vm_compute; reflexivity. Qed.

(** ... and end to end: cut_balanced(D, max_cluster_size=3, return_dendrogram=True) with the stable argsort. *)
Example c08_source_end_to_end_nonvacuous :
  let D := [(0, 1, 1%Q, 2); (2, 3, 1%Q, 2); (5, 4, 2%Q, 3); (6, 7, 3%Q, 5)] in
  let e0 := [("dendrogram", embD D); ("max_cluster_size", vnat 3); ("sort_clusters", VBool true);
             ("oracle:np.argsort", oracle_answer stable_argsort [(6, [2; 3]); (7, [0; 1; 4])])] in
  run_var (src_cut_balanced_all true) e0 "labels" = POk (Some (VList (map vnat [0; 0; 1; 1; 0]))) /\
  run_var (src_cut_balanced_all true) e0 "dendrogram_new" = POk (Some (VList (map embNewRow [(1, 0, 3%Q, 5)]))) /\
  cut_balanced stable_argsort D 3 true true = Ok ([0; 0; 1; 1; 0], Some [(1, 0, 3%Q, 5)]).
Proof. cbv zeta. repeat split; vm_compute; reflexivity. Qed.
