(** C13 — Semi-supervised predictions respect the seeds and the local evidence.
    Statements of the property, each proved right under it ([exact] of a lemma of Proofs/, or a script over such lemmas; the
    obligations over the generated terms of Gen/VoteConsts.v by evaluation) and followed by its [Print Assumptions].
    Parts: 1 metrics; 2 label sets and probability rows; 3 fixed point = local arg-max; 4 seeds keep their labels;
    5 DiffusionClassifier, NNClassifier, NNLinker; non-vacuity examples; last, the metric definitions again for the terms
    generated from metrics.py (Gen/NpClsMetrics.v, array language of Model/NpVec.v, semantics [rvdenote] of
    Proofs/NpVecProofs.v over R; lemmas in Proofs/NpClsMetricsProofs.v).
    Models: Model/Vote.v (vote_update, flat level), Model/Classify.v (Propagation, DiffusionClassifier,
    NNClassifier, RankClassifier, NNLinker, metrics). [pvariant] / [kvariant] are the facts of the source the
    models are parametrised by; their values for the source are [src_kernel] / [src_variant] of Gen/VoteConsts.v
    (re-read from /repo on every run). *)
From SKN Require Import Base.Util Model.Vote Model.Bfs Model.Classify Proofs.VoteProofs Proofs.ClassifyProofs Gen.VoteConsts.
From Coq Require Import Permutation Sorted.

(** * 1. Metrics = confusion-matrix / textbook definitions *)

(** accuracy = trace / total of the confusion matrix; both fail on exactly the same inputs *)
Theorem metrics_def_accuracy (lt lp : list Z) :
  match accuracy lt lp, confusion lt lp with
  | Some a, Some C => (a == qnat (trace C) / qnat (total C))%Q /\ 0 < total C
  | None, None => True
  | _, _ => False
  end.
Proof.
  destruct (confusion lt lp) as [C|] eqn:HC.
  - pose proof (confusion_total _ _ _ HC) as Ht. pose proof (confusion_trace _ _ _ HC) as Hr.
    destruct (confusion_entries _ _ _ HC) as [_ [Hne _]].
    unfold accuracy. destruct (length (masked lt lp) =? 0) eqn:E.
    + apply Nat.eqb_eq in E. destruct (masked lt lp); [contradiction|discriminate].
    + apply Nat.eqb_neq in E. rewrite Ht, Hr. split; [reflexivity|lia].
  - unfold accuracy, confusion in *. destruct (length (masked lt lp) =? 0); [exact I|discriminate].
Qed.
Print Assumptions metrics_def_accuracy.

(** per-class precision, recall, F1 computed from the confusion matrix (as get_f1_scores does) equal
    TP/(TP+FP), TP/(TP+FN), 2TP/(2TP+FP+FN) over the counted samples (0 when the denominator vanishes) *)
Theorem metrics_def_prf (lt lp : list Z) (f1 pr rc : list Q) :
  f1_scores lt lp = Some (f1, pr, rc) ->
  let m := masked lt lp in
  let K := n_labels lt lp in
  length f1 = K /\ length pr = K /\ length rc = K /\
  forall k, k < K ->
    (nthq pr k == spec_precision m (Z.of_nat k))%Q /\
    (nthq rc k == spec_recall m (Z.of_nat k))%Q /\
    (nthq f1 k == spec_f1 m (Z.of_nat k))%Q.
Proof. exact (prf_def lt lp f1 pr rc). Qed.
Print Assumptions metrics_def_prf.

(** averages as the source computes them: micro = accuracy; macro = mean over ALL max+1 labels *)
Theorem metrics_def_averages (lt lp : list Z) :
  average_f1 lt lp Micro = accuracy lt lp /\
  (forall f1 pr rc, f1_scores lt lp = Some (f1, pr, rc) ->
     exists x, average_f1 lt lp Macro = Some x /\
               (x == sumq (map (fun k => spec_f1 (masked lt lp) (Z.of_nat k)) (seq 0 (n_labels lt lp)))
                     / qnat (n_labels lt lp))%Q) /\
  (f1_scores lt lp = None -> average_f1 lt lp Macro = None /\ average_f1 lt lp Weighted = None).
Proof.
  split; [reflexivity|]. split.
  - intros f1 pr rc H. unfold average_f1. rewrite H. simpl. eexists. split; [reflexivity|].
    destruct (prf_def _ _ _ _ _ H) as [L [_ [_ Hk]]]. rewrite <- (map_nth_seq f1 0%Q) at 1. rewrite L.
    rewrite (sumq_ext _ (fun k => spec_f1 (masked lt lp) (Z.of_nat k))); [reflexivity|].
    intros k Hk'. apply in_seq in Hk'. apply Hk. lia.
  - intros H. unfold average_f1. rewrite H. split; reflexivity.
Qed.
Print Assumptions metrics_def_averages.

(** weighted = F1 of each label of labels_true weighted by its number of occurrences in labels_true *)
Theorem metrics_def_weighted (lt lp : list Z) (f1 pr rc : list Q) :
  f1_scores lt lp = Some (f1, pr, rc) ->
  let cnt := fun l => count_if (fun t => (t =? l)%Z) lt in
  exists x, average_f1 lt lp Weighted = Some x /\
    (x == sumq (map (fun l => spec_f1 (masked lt lp) l * qnat (cnt l)) (uniq_labels lt))
          / qnat (sumn (map cnt (uniq_labels lt))))%Q.
Proof.
  intros H cnt. unfold average_f1. rewrite H. cbn [option_map fst]. eexists. split; [reflexivity|].
  fold cnt. rewrite <- (map_id (uniq_labels lt)) at 1. rewrite map2_map.
  destruct (prf_def _ _ _ _ _ H) as [_ [_ [_ Hk]]].
  rewrite (sumq_ext _ (fun l => spec_f1 (masked lt lp) l * qnat (cnt l))%Q); [reflexivity|].
  intros l Hl. apply uniq_labels_In in Hl. destruct Hl as [Hin Hz].
  assert (Hlt : Z.to_nat l < n_labels lt lp).
  { unfold n_labels. pose proof (In_le_maxz _ _ Hin). pose proof (maxz_ge_m1 lp). lia. }
  destruct (Hk _ Hlt) as [_ [_ Hf]]. rewrite Hf, Z2Nat.id by exact Hz. reflexivity.
Qed.
Print Assumptions metrics_def_weighted.

(** * 2. Label sets and probability rows *)

(** Propagation, every source variant, every order / oracle answer: each predicted label is -1 or a seed
    label (non-negative outside clustering mode) *)
Theorem labels_in_seed_set_or_minus1 pv c seeds order oracle weighted n_iter fuel res :
  propagation pv c seeds order oracle weighted n_iter fuel = POk res ->
  length (pr_labels res) = length seeds /\
  forall x, In x (pr_labels res) ->
    x = (-1)%Z \/ (In x seeds /\ (clustering_mode (pv_ctest pv) seeds = false -> (0 <= x)%Z)).
Proof. exact (propagation_labels pv c seeds order oracle weighted n_iter fuel res). Qed.
Print Assumptions labels_in_seed_set_or_minus1.

(** Propagation, for non-negative edge weights: one row per node, every row non-negative and summing to 1 (or to 0) *)
Theorem probs_rows (adj : adjrows) (labels : list Z) :
  (forall r, In r adj -> Forall (fun p : nat * Q => 0 <= snd p)%Q r) ->
  Forall prob_row (prop_probs adj labels) /\
  Forall (fun r => length r = n_cols labels) (prop_probs adj labels) /\
  length (prop_probs adj labels) = length adj.
Proof. exact (prop_probs_rows adj labels). Qed.
Print Assumptions probs_rows.

(** RankClassifier (PageRankClassifier), for any ranking oracle returning one non-negative score per node
    and class: labels are seed labels (never -1), rows are probability rows over the seed labels *)
Theorem labels_and_probs_rank (seeds : list Z) (scores : mat) :
  scores_ok seeds scores -> uniq_labels seeds <> [] ->
  let '(labels, probs) := rank_classify seeds scores in
  length labels = length scores /\ length probs = length scores /\
  (forall l, In l labels -> In l seeds /\ (0 <= l)%Z) /\
  Forall (fun r : list (Z * Q) => map fst r = uniq_labels seeds /\ prob_row (map snd r)) probs.
Proof. exact (rank_classify_ok seeds scores). Qed.
Print Assumptions labels_and_probs_rank.

(** DiffusionClassifier / NNClassifier rows (exp oracle with non-negative values) *)
Theorem probs_rows_diffusion adj labels n_iter centering scale expf lab probs :
  (forall r, In r adj -> Forall (fun p : nat * Q => 0 <= snd p)%Q r) ->
  (forall x, 0 <= expf x)%Q ->
  dc_fit adj labels n_iter centering scale expf = Some (lab, probs) ->
  Forall prob_row probs.
Proof. exact (dc_probs_rows adj labels n_iter centering scale expf lab probs). Qed.
Print Assumptions probs_rows_diffusion.

Theorem probs_rows_nn labels index_train index_test n_neighbors argparts :
  Forall prob_row (fst (nn_fit_core labels index_train index_test n_neighbors argparts)).
Proof.
  unfold nn_fit_core. cbn [fst]. rewrite map_map. apply Forall_map, Forall_forall. intros i _.
  apply normalize_row_prob, Forall_map, Forall_forall. intros c _. apply (qnat_nonneg _).
Qed.
Print Assumptions probs_rows_nn.

(** * 3. Fixed point = local arg-max *)

(** Obligations over the generated terms [src_kernel] / [src_variant] (Gen/VoteConsts.v, re-read from /repo on every
    run): the kernel of the source reads the weight of the edge, clears its scratch list, sizes votes by the labels,
    the unit weights are one per edge (DESIGN.md D5); the clustering test is sign-aware (DESIGN.md D21); the
    'increasing' / 'decreasing' orders keep exactly the free nodes. Each fails on a source with the defect. *)
Theorem source_kernel_repaired :
  wpos src_kernel = true /\ clr src_kernel = true /\ vlab src_kernel = true /\
  pv_kernel src_variant = src_kernel /\ pv_ones src_variant = Ones_nnz.
Proof. repeat split; reflexivity. Qed.
Print Assumptions source_kernel_repaired.

Theorem source_clustering_test_sign_aware : pv_ctest src_variant <> CT_distinct.
Proof. intros H; cbv in H; discriminate H. Qed.
Print Assumptions source_clustering_test_sign_aware.

Theorem source_order_keeps_free_nodes : pv_order src_variant = OI_filter.
Proof. reflexivity. Qed.
Print Assumptions source_order_keeps_free_nodes.

(** The source ([src_variant], by the obligations above), every node order (any shuffle / any argsort answer), weighted (non-negative weights) or
    not: when the loop stopped because a sweep changed nothing, every non-seed node with a labelled neighbour holds
    a label of maximal total vote among its neighbours (edge weights when weighted, counts otherwise). *)
Theorem propagation_fixed_point_argmax c seeds order oracle weighted n_iter fuel res :
  (weighted = true -> Forall (fun w => 0 <= w)%Q (c_data c)) ->
  oracle_contract order oracle seeds ->
  propagation src_variant c seeds order oracle weighted n_iter fuel = POk res ->
  pr_fixed res = true -> 0 < pr_sweeps res ->
  forall i, i < length seeds -> (nthz seeds i < 0)%Z ->
    has_labelled_neighbour (prop_nbrs c weighted i) (pr_labels res) ->
    local_max (prop_nbrs c weighted i) (pr_labels res) i.
Proof.
  exact (propagation_fixed_point_argmax_repaired src_variant c seeds order oracle weighted n_iter fuel res
           eq_refl eq_refl source_clustering_test_sign_aware source_order_keeps_free_nodes).
Qed.
Print Assumptions propagation_fixed_point_argmax.

(** the general statement, for every variant of the source (unweighted: every kernel; weighted: kernels reading
    the weight of the edge and clearing their scratch list), outside clustering mode, admissible orders *)
Theorem propagation_fixed_point_argmax_variants pv c seeds order oracle weighted n_iter fuel res :
  (weighted = true ->
   wpos (pv_kernel pv) = true /\ clr (pv_kernel pv) = true /\ Forall (fun w => 0 <= w)%Q (c_data c)) ->
  clustering_mode (pv_ctest pv) seeds = false -> order_ok (pv_order pv) order oracle seeds ->
  propagation pv c seeds order oracle weighted n_iter fuel = POk res ->
  pr_fixed res = true -> 0 < pr_sweeps res ->
  forall i, i < length seeds -> (nthz seeds i < 0)%Z ->
    has_labelled_neighbour (prop_nbrs c weighted i) (pr_labels res) ->
    local_max (prop_nbrs c weighted i) (pr_labels res) i.
Proof.
  exact (fun Hw Hm Ho H => propagation_fixed_point_argmax_model pv c seeds order oracle weighted n_iter fuel res H Hw Hm Ho).
Qed.
Print Assumptions propagation_fixed_point_argmax_variants.

(** the same at the level of one call of the kernel (any update list without repetition) *)
Theorem vote_fixed_point_unweighted kv indptr indices m labels index labels' :
  vote_update kv indptr indices (repeat 1%Q m) labels index = VOk labels' ->
  NoDup index ->
  (forall i, In i index -> nthz labels' i = nthz labels i) ->
  labels' = labels /\
  forall i, In i index -> has_labelled_neighbour (nbrs_unit indptr indices i) labels' ->
            local_max (nbrs_unit indptr indices i) labels' i.
Proof.
  exact (VoteProofs.vote_fixed_point_unweighted kv indptr indices (repeat 1%Q m) labels index labels' (all_ones_repeat m)).
Qed.
Print Assumptions vote_fixed_point_unweighted.

Theorem vote_fixed_point_weighted kv indptr indices data labels index labels' :
  wpos kv = true -> clr kv = true ->
  Forall (fun w => 0 <= w)%Q data ->
  vote_update kv indptr indices data labels index = VOk labels' ->
  NoDup index ->
  (forall i, In i index -> nthz labels' i = nthz labels i) ->
  labels' = labels /\
  forall i, In i index -> has_labelled_neighbour (nbrs_weighted indptr indices data i) labels' ->
            local_max (nbrs_weighted indptr indices data i) labels' i.
Proof. exact (VoteProofs.vote_fixed_point_weighted kv indptr indices data labels index labels'). Qed.
Print Assumptions vote_fixed_point_weighted.

(** DESIGN.md D5: [vote_update_legacy] (kernel [legacy_kernel] of Model/Vote.v: weight read at data[node], votes_neigh
    never cleared) has a fixed point of weighted propagation where node 3 keeps label 0 against weights 2 > 1 *)
Theorem vote_weighted_refuted :
  vote_update_legacy wit_indptr wit_indices wit_data wit_labels wit_index = VOk wit_labels /\
  NoDup wit_index /\ Forall (fun w => 0 < w)%Q wit_data /\
  In 3 wit_index /\
  has_labelled_neighbour (nbrs_weighted wit_indptr wit_indices wit_data 3) wit_labels /\
  ~ local_max (nbrs_weighted wit_indptr wit_indices wit_data 3) wit_labels 3.
Proof. exact vote_weighted_refuted_legacy. Qed.
Print Assumptions vote_weighted_refuted.

Theorem propagation_weighted_refuted :
  (exists res', propagation pv_32660cf6 wit_csr [-1; 0; 1; -1]%Z ONone [] true None 10 = POk res' /\
                pr_labels res' = [-1; 0; 1; 1]%Z) /\
  exists res, propagation pv_legacy wit_csr [-1; 0; 1; -1]%Z ONone [] true None 10 = POk res /\
    pr_fixed res = true /\ 0 < pr_sweeps res /\ clustering_mode CT_distinct [-1; 0; 1; -1]%Z = false /\
    Forall (fun w => 0 < w)%Q (c_data wit_csr) /\
    In 3 (pr_index res) /\
    has_labelled_neighbour (nbrs_weighted wit_indptr wit_indices wit_data 3) (pr_labels res) /\
    ~ local_max (nbrs_weighted wit_indptr wit_indices wit_data 3) (pr_labels res) 3.
Proof.
  split; [eexists; split; [vm_compute; reflexivity|reflexivity]|].
  eexists. split; [vm_compute; reflexivity|]. cbn [pr_fixed pr_sweeps pr_index pr_labels].
  split; [reflexivity|]. split; [lia|]. split; [reflexivity|]. split; [repeat constructor|].
  split; [simpl; auto|].
  destruct vote_weighted_refuted_legacy as [_ [_ [_ [_ [Hn Hl]]]]]. split; assumption.
Qed.
Print Assumptions propagation_weighted_refuted.

(** * 4. Seeds keep their labels *)

(** The source ([src_variant]), every node order and oracle answer: with at least one unlabelled node, every seed keeps
    its label. (A vector of n distinct non-negative labels is the documented clustering mode.) *)
Theorem propagation_seeds_fixed c seeds order oracle weighted n_iter fuel res :
  (exists i, i < length seeds /\ (nthz seeds i < 0)%Z) ->
  oracle_contract order oracle seeds ->
  propagation src_variant c seeds order oracle weighted n_iter fuel = POk res ->
  forall i, i < length seeds -> (0 <= nthz seeds i)%Z -> nthz (pr_labels res) i = nthz seeds i.
Proof.
  exact (propagation_seeds_fixed_repaired src_variant c seeds order oracle weighted n_iter fuel res
           source_clustering_test_sign_aware source_order_keeps_free_nodes).
Qed.
Print Assumptions propagation_seeds_fixed.

(** the general statement for every variant of the source *)
Theorem propagation_seeds_fixed_variants pv c seeds order oracle weighted n_iter fuel res :
  propagation pv c seeds order oracle weighted n_iter fuel = POk res ->
  clustering_mode (pv_ctest pv) seeds = false -> order_ok (pv_order pv) order oracle seeds ->
  forall i, i < length seeds -> (0 <= nthz seeds i)%Z -> nthz (pr_labels res) i = nthz seeds i.
Proof. exact (propagation_seeds_fixed_model pv c seeds order oracle weighted n_iter fuel res). Qed.
Print Assumptions propagation_seeds_fixed_variants.

(** a clustering test that looks at the signs leaves clustering mode as soon as one node is unlabelled *)
Theorem clustering_mode_needs_no_unlabelled ct seeds :
  ct <> CT_distinct -> (exists i, i < length seeds /\ (nthz seeds i < 0)%Z) -> clustering_mode ct seeds = false.
Proof. exact (clustering_mode_unlabelled ct seeds). Qed.
Print Assumptions clustering_mode_needs_no_unlabelled.

(** DESIGN.md D21: the variant [pv_32660cf6] (Proofs/ClassifyProofs.v; clustering test len(set(labels)) == n,
    [CT_distinct]) takes n-1 distinct labels and one unlabelled node for clustering mode;
    [[0,4,0],[4,0,0],[0,0,0]] with seeds {0:0, 1:1} returns [1,1,-1] *)
Theorem propagation_seeds_fixed_refuted_legacy :
  let c := {| c_indptr := [0; 1; 2; 2]; c_indices := [1; 0]; c_data := [4; 4]%Q |} in
  let seeds := [0; 1; -1]%Z in
  exists res, propagation pv_32660cf6 c seeds ONone [] true None 10 = POk res /\
    pr_labels res = [1; 1; -1]%Z /\ nthz seeds 0 = 0%Z /\ nthz (pr_labels res) 0 <> nthz seeds 0 /\
    clustering_mode CT_distinct seeds = true.
Proof. exact ClassifyProofs.propagation_seeds_fixed_refuted_legacy. Qed.
Print Assumptions propagation_seeds_fixed_refuted_legacy.

(** The same variant (its order rule is [OI_position]), node_order = 'increasing' with a valid argsort answer: seed 3
    loses its label, node 0 is never updated *)
Theorem propagation_seeds_fixed_order_refuted_legacy :
  let c := {| c_indptr := [0; 2; 5; 7; 8]; c_indices := [1; 2; 0; 2; 3; 0; 1; 1];
              c_data := [1; 1; 1; 1; 1; 1; 1; 1]%Q |} in
  let seeds := [-1; 0; -1; 1]%Z in
  let inw := [2; 3; 2; 1]%Z in
  let oracle := [3; 0; 2; 1] in
  Permutation oracle (seq 0 4) /\ Sorted Z.le (map (nthz inw) oracle) /\
  clustering_mode CT_distinct seeds = false /\
  exists res, propagation pv_32660cf6 c seeds OIncreasing oracle true (Some 5) 5 = POk res /\
    pr_index res = [3; 2] /\ pr_labels res = [-1; 0; 0; 0]%Z /\
    nthz seeds 3 = 1%Z /\ nthz (pr_labels res) 3 <> nthz seeds 3.
Proof. exact propagation_order_refuted_legacy. Qed.
Print Assumptions propagation_seeds_fixed_order_refuted_legacy.

(** the variant [pv_repaired] (sign-aware clustering test, order restricted to the free nodes) on both witnesses *)
Theorem propagation_repaired_on_legacy_witnesses :
  (exists res, propagation pv_repaired {| c_indptr := [0; 1; 2; 2]; c_indices := [1; 0]; c_data := [4; 4]%Q |}
                           [0; 1; -1]%Z ONone [] true None 10 = POk res /\ pr_labels res = [0; 1; -1]%Z) /\
  (exists res, propagation pv_repaired
                 {| c_indptr := [0; 2; 5; 7; 8]; c_indices := [1; 2; 0; 2; 3; 0; 1; 1];
                    c_data := [1; 1; 1; 1; 1; 1; 1; 1]%Q |}
                 [-1; 0; -1; 1]%Z OIncreasing [3; 0; 2; 1] true (Some 5) 5 = POk res /\
               pr_index res = [0; 2] /\ pr_labels res = [0; 0; 0; 1]%Z).
Proof.
  split; eexists; (split; [vm_compute; reflexivity|]); cbn [pr_labels pr_index]; auto.
Qed.
Print Assumptions propagation_repaired_on_legacy_witnesses.

(** * 5. DiffusionClassifier, NNClassifier, NNLinker *)

Theorem diffusion_seeds_fixed adj labels n_iter centering scale expf lab probs :
  (forall r, In r adj -> Forall (fun p : nat * Q => 0 <= snd p)%Q r) ->
  length adj = length labels ->
  dc_fit adj labels n_iter centering scale expf = Some (lab, probs) ->
  forall v, v < length labels -> (0 <= nthz labels v)%Z -> nthz lab v = nthz labels v.
Proof. exact (dc_seeds_fixed adj labels n_iter centering scale expf lab probs). Qed.
Print Assumptions diffusion_seeds_fixed.

(** label -1 exactly on the nodes that no walk from a seed reaches; every other label is a seed label *)
Theorem diffusion_minus1_iff_unreached adj labels n_iter centering scale expf lab probs :
  (forall r, In r adj -> Forall (fun p : nat * Q => 0 <= snd p)%Q r) ->
  length adj = length labels ->
  dc_fit adj labels n_iter centering scale expf = Some (lab, probs) ->
  length lab = length labels /\
  forall v, v < length labels ->
    (nthz lab v = (-1)%Z <-> forall k, ~ reachk (map (map fst) adj) (map (fun l => (0 <=? l)%Z) labels) k v) /\
    (nthz lab v <> (-1)%Z -> In (nthz lab v) labels /\ (0 <= nthz lab v)%Z).
Proof. exact (dc_minus1_iff_unreached adj labels n_iter centering scale expf lab probs). Qed.
Print Assumptions diffusion_minus1_iff_unreached.

(** NNClassifier._fit_core, any embedding and any argpartition answers *)
Theorem nn_seeds_fixed labels index_train index_test n_neighbors argparts s :
  NoDup index_train -> In s index_train -> ~ In s index_test -> s < length labels -> (0 <= nthz labels s)%Z ->
  nthz (snd (nn_fit_core labels index_train index_test n_neighbors argparts)) s = nthz labels s.
Proof. exact (ClassifyProofs.nn_seeds_fixed labels index_train index_test n_neighbors argparts s). Qed.
Print Assumptions nn_seeds_fixed.

(** NNLinker, for any top-k oracle satisfying its contract: at most k links, distinct columns, all at or above the
    threshold, none weaker than a candidate that was not kept *)
Theorem nnlinker_topk_threshold (sims : list Q) (k : nat) (thr : Q) (ap : list nat) :
  argpartition_ok sims k ap ->
  let row := nnlinker_row sims k thr ap in
  length row <= k /\ NoDup (map fst row) /\
  (forall c s, In (c, s) row -> c < length sims /\ s = nthq sims c /\ (thr <= s)%Q) /\
  (forall c s d, In (c, s) row -> d < length sims -> ~ In d (map fst row) -> (nthq sims d <= s)%Q).
Proof. exact (nnlinker_row_ok sims k thr ap). Qed.
Print Assumptions nnlinker_topk_threshold.

Theorem nnlinker_rows_are_topk emb mask n_neighbors thr aps i row :
  In (i, row) (nnlinker_fit_core emb mask n_neighbors thr aps) ->
  let n := length emb in
  let index_col := if length mask <? n then seq (length mask) (n - length mask) else seq 0 n in
  exists ap, In ap aps /\
    row = nnlinker_row (map (fun c => dotq (mrow emb c) (mrow emb i)) index_col)
                       (check_n_neighbors n_neighbors (length index_col)) thr ap.
Proof.
  unfold nnlinker_fit_core. intros H. cbv zeta. apply in_map2 in H.
  destruct H as [i' [ap [_ [Hap E]]]]. injection E as -> ->. exists ap. split; [exact Hap|reflexivity].
Qed.
Print Assumptions nnlinker_rows_are_topk.

(** * Non-vacuity: concrete inputs meeting the hypotheses, on which the models compute *)

(** path 0-1-2-3 with unequal weights, seeds {0:0, 3:1}: [src_variant] stops at a fixed point after 2 sweeps *)
Example c13_nonvacuous_propagation :
  let c := {| c_indptr := [0; 1; 3; 5; 6]; c_indices := [1; 0; 2; 1; 3; 2]; c_data := [3; 3; 1; 1; 2; 2]%Q |} in
  let seeds := [0; -1; -1; 1]%Z in
  (exists i, i < length seeds /\ (nthz seeds i < 0)%Z) /\ oracle_contract ONone [] seeds /\
  Forall (fun w => 0 <= w)%Q (c_data c) /\
  exists res, propagation src_variant c seeds ONone [] true None 10 = POk res /\
    pr_labels res = [0; 0; 1; 1]%Z /\ pr_fixed res = true /\ pr_sweeps res = 2 /\
    has_labelled_neighbour (prop_nbrs c true 1) (pr_labels res) /\
    local_max_b (prop_nbrs c true 1) (pr_labels res) 1 = true.
Proof.
  cbv zeta. split; [exists 1; split; [simpl; lia|reflexivity]|]. split; [exact I|]. split; [repeat constructor; discriminate|].
  eexists. split; [vm_compute; reflexivity|]. cbn [pr_labels pr_fixed pr_sweeps].
  split; [reflexivity|]. split; [reflexivity|]. split; [reflexivity|]. split.
  - exists (0, 3%Q). split; [vm_compute; auto|]. vm_compute. discriminate.
  - vm_compute. reflexivity.
Qed.

Example c13_nonvacuous_diffusion :
  let adj := [[(1, 2%Q)]; [(0, 2%Q); (2, 1%Q)]; [(1, 1%Q)]; []] in
  exists probs, dc_fit adj [3; -1; 7; -1]%Z 2 false 5%Q (fun x => x) = Some ([3; 3; 7; -1]%Z, probs).
Proof. cbv zeta. eexists. vm_compute. reflexivity. Qed.

Example c13_nonvacuous_nnlinker :
  let sims := [1; (1 # 2); (3 # 4); 0]%Q in
  argpartition_ok sims 2 [0; 2; 1; 3] /\ nnlinker_row sims 2 (4 # 5)%Q [0; 2; 1; 3] = [(0, 1%Q)].
Proof.
  cbv zeta. split; [|vm_compute; reflexivity]. split.
  - simpl. apply perm_skip. apply perm_swap.
  - intros a b Ha Hb. simpl in Ha, Hb.
    destruct Ha as [<-|[<-|[]]]; destruct Hb as [<-|[<-|[]]]; vm_compute; discriminate.
Qed.

Example c13_nonvacuous_metrics :
  exists f1 pr rc, f1_scores [0; 1; 1; -1; 2]%Z [0; 1; 0; 1; 2]%Z = Some (f1, pr, rc) /\
                   accuracy [0; 1; 1; -1; 2]%Z [0; 1; 0; 1; 2]%Z = Some (3 # 4)%Q.
Proof. do 3 eexists. split; vm_compute; reflexivity. Qed.

(* =========================================================================================== *)
(** * The classification metrics as REGENERATED FROM sknetwork/classification/metrics.py

    [src_cls_accuracy / _confusion / _f1 / _precisions / _recalls / _f1_only / _micro / _macro / _weighted] (Gen/NpClsMetrics.v)
    are the bodies of get_accuracy_score, get_confusion_matrix, get_f1_scores (its three vectors) and the three branches of
    get_average_f1_score, translated on every run by harness/translators/npclsmetrics.py into the array language of
    Model/NpVec.v (calls between these functions inlined); [rvdenote] is that language's NumPy / SciPy semantics over R.
    For ALL label vectors of equal length: with at least one counted sample (both labels non-negative) the denotations are
    the confusion-matrix definitions below; without one, every function is undefined (the ValueError of the source).
    [cnt lt lp i j] is the number of counted samples with true label i and predicted label j, [row_total] / [col_total] its
    row and column sums over the K = largest label + 1 classes. *)
From SKN Require Import Model.NpExpr Model.NpVec Gen.NpClsMetrics Proofs.NpVecProofs Proofs.NpClsMetricsProofs.
From Coq Require Import Reals Lra.
Local Open Scope R_scope.

Theorem source_metrics_confusion (lt lp : list Z) :
  List.length lp = List.length lt -> has_counted lt lp ->
  exists f, rvdenote (env_cls lt lp) src_cls_confusion = Some (WM (klab lt lp) (klab lt lp) f) /\
    (forall i j, f i j = cnt lt lp i j) /\
    lsum (seq 0 (klab lt lp)) (fun i => lsum (seq 0 (klab lt lp)) (f i)) = INR (ncounted lt lp).
Proof. exact (NpClsMetricsProofs.source_cls_confusion lt lp). Qed.
Print Assumptions source_metrics_confusion.

(** accuracy = agreeing counted samples / counted samples = trace / total of the count matrix; micro-F1 is the same number *)
Theorem source_metrics_accuracy (lt lp : list Z) :
  List.length lp = List.length lt -> has_counted lt lp ->
  exists x, rvdenote (env_cls lt lp) src_cls_accuracy = Some (WS x) /\
    x = agree lt lp / INR (ncounted lt lp) /\
    x = lsum (seq 0 (klab lt lp)) (fun k => cnt lt lp k k) / lsum (seq 0 (klab lt lp)) (row_total lt lp) /\
    rvdenote (env_cls lt lp) src_cls_micro = Some (WS x).
Proof. exact (NpClsMetricsProofs.source_cls_accuracy lt lp). Qed.
Print Assumptions source_metrics_accuracy.

(** recall = TP / row sum, precision = TP / column sum, F1 = 2 TP / (row sum + column sum), 0 where the denominator is null;
    get_f1_scores(..., False) returns the same F1 vector *)
Theorem source_metrics_f1_scores (lt lp : list Z) :
  List.length lp = List.length lt -> has_counted lt lp ->
  exists F P Rc,
    rvdenote (env_cls lt lp) src_cls_f1 = Some (WV (klab lt lp) F) /\
    rvdenote (env_cls lt lp) src_cls_precisions = Some (WV (klab lt lp) P) /\
    rvdenote (env_cls lt lp) src_cls_recalls = Some (WV (klab lt lp) Rc) /\
    rvdenote (env_cls lt lp) src_cls_f1_only = Some (WV (klab lt lp) F) /\
    forall k, (k < klab lt lp)%nat ->
      Rc k = pos_div (cnt lt lp k k) (row_total lt lp k) /\
      P k = pos_div (cnt lt lp k k) (col_total lt lp k) /\
      F k = f1_def (cnt lt lp k k) (row_total lt lp k) (col_total lt lp k).
Proof. exact (NpClsMetricsProofs.source_cls_f1_scores lt lp). Qed.
Print Assumptions source_metrics_f1_scores.

(** macro = mean of F1 over ALL K labels (absent labels count as 0) *)
Theorem source_metrics_macro (lt lp : list Z) :
  List.length lp = List.length lt -> has_counted lt lp ->
  exists x, rvdenote (env_cls lt lp) src_cls_macro = Some (WS x) /\
    x = lsum (seq 0 (klab lt lp)) (fun k => f1_def (cnt lt lp k k) (row_total lt lp k) (col_total lt lp k)) / INR (klab lt lp).
Proof. exact (NpClsMetricsProofs.source_cls_macro lt lp). Qed.
Print Assumptions source_metrics_macro.

(** weighted = the F1 of the true class, averaged over the samples that have a true label *)
Theorem source_metrics_weighted (lt lp : list Z) :
  List.length lp = List.length lt -> has_counted lt lp ->
  exists x, rvdenote (env_cls lt lp) src_cls_weighted = Some (WS x) /\
    x = lsum (seq 0 (List.length lt))
          (fun p => if tmask lt p
                    then f1_def (cnt lt lp (Z.to_nat (zl lt p)) (Z.to_nat (zl lt p))) (row_total lt lp (Z.to_nat (zl lt p)))
                                (col_total lt lp (Z.to_nat (zl lt p)))
                    else 0)
        / lsum (seq 0 (List.length lt)) (fun p => b2r (tmask lt p)).
Proof. exact (NpClsMetricsProofs.source_cls_weighted lt lp). Qed.
Print Assumptions source_metrics_weighted.

(** no counted sample: every metric is undefined *)
Theorem source_metrics_undefined (lt lp : list Z) :
  List.length lp = List.length lt -> ncounted lt lp = O ->
  rvdenote (env_cls lt lp) src_cls_confusion = None /\ rvdenote (env_cls lt lp) src_cls_accuracy = None /\
  rvdenote (env_cls lt lp) src_cls_f1 = None /\ rvdenote (env_cls lt lp) src_cls_precisions = None /\
  rvdenote (env_cls lt lp) src_cls_recalls = None /\ rvdenote (env_cls lt lp) src_cls_f1_only = None /\
  rvdenote (env_cls lt lp) src_cls_macro = None /\ rvdenote (env_cls lt lp) src_cls_weighted = None.
Proof.
  intros Hl Hc. split; [exact (NpClsMetricsProofs.source_cls_confusion_none lt lp Hl Hc)|].
  split; [exact (NpClsMetricsProofs.source_cls_accuracy_none lt lp Hl Hc)|].
  exact (NpClsMetricsProofs.source_cls_f1_scores_none lt lp Hl Hc).
Qed.
Print Assumptions source_metrics_undefined.

Example c13_nonvacuous_source_metrics :
  List.length (0 :: 1 :: 0 :: 1 :: 2 :: nil)%Z = List.length (0 :: 1 :: 1 :: (-1) :: 2 :: nil)%Z /\
  has_counted (0 :: 1 :: 1 :: (-1) :: 2 :: nil)%Z (0 :: 1 :: 0 :: 1 :: 2 :: nil)%Z /\
  ncounted ((-1) :: 0 :: nil)%Z (0 :: (-1) :: nil)%Z = O.
Proof. split; [reflexivity|]. split; [unfold has_counted; vm_compute; discriminate | vm_compute; reflexivity]. Qed.
