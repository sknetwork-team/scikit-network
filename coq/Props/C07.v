(** C07 — Hierarchical algorithms always return a valid dendrogram.
    Statements of the property, each proved right under it ([exact] of a lemma of Proofs/, or a script over such lemmas; the
    refutations on explicit witnesses and the obligations over generated terms by evaluation) and followed by its
    [Print Assumptions].  Parts: 1 reorder_dendrogram; 2 get_dendrogram and the Louvain hierarchies; 3 Paris, bookkeeping
    and rows; 4 Paris, reducibility and its failure in float32; 5 split_dendrogram; non-vacuity examples; the text of
    split_dendrogram as translated from the source.

    Vocabulary (Model/Dendrogram.v, shared with C08): [valid n D] replays the n - 1 rows (left, right, height, size)
    over the dict of live clusters: row t merges two DISTINCT ids that are live at step t (a leaf < n or the result
    n + t' of an earlier row, not merged before), its size is the sum of the two sizes, the last size is n.
    [hmono n D]: no merge is lower than the merge that created one of its children.  [sortedq (heights D)]: heights
    never decrease.  [leaves n D k]: the leaves below cluster k.  [good_dendrogram n D] (Proofs/C07Compose.v) =
    valid + size column = number of leaves below + heights never decrease: what the property demands of each
    dendrogram attribute.  Hypotheses defined in Proofs/: [tree_ok] (GetDendrogramProofs.v), [levels_ok]
    (TreeBuildProofs.v), [graph_ok] / [weights_ok] (ParisReducible.v), [ids_lt] (DendroBase.v), [sizes_add]
    (HierarchyBase.v); [merge_view] (HierarchyProofs.v) lists each merge as (leaves left, leaves right, height, size). *)
From Coq Require Import Permutation QArith.
From SKN Require Import Base.Util Model.Dendrogram Model.Cuts Model.Hierarchy Model.Paris Proofs.DendroBase Proofs.HierarchyBase Proofs.HierarchyProofs Proofs.GetDendrogramProofs Proofs.TreeBuildProofs Proofs.SplitProofs Proofs.ParisProofs Proofs.ParisReducible Proofs.ParisTotal Proofs.ParisWitness Proofs.C07Compose Gen.ParisSrc.
Close Scope Q_scope.

(** * 1. reorder_dendrogram *)

(** For every valid dendrogram in which no merged cluster is lower than a merge that created one of its children,
    [reorder_dendrogram] (stable lexsort on (height, max(i, j)), ids renamed) returns a valid dendrogram with
    non-decreasing heights over the same merges (same leaf sets, heights and sizes). *)
Theorem reorder_valid (n : nat) (D : dendrogram) :
  valid n D = true -> hmono n D = true ->
  exists D', reorder_dendrogram D = Ok D' /\ valid n D' = true /\ sortedq (heights D') = true /\
             Permutation (merge_view n D) (merge_view n D').
Proof. exact (HierarchyProofs.reorder_valid n D). Qed.
Print Assumptions reorder_valid.

(** Without the height hypothesis the output can be invalid (the parent is sorted before the row creating its
    child); [paris_float_inversion] below is such a case (DESIGN.md D25). *)
Theorem reorder_parent_below_child_refuted :
  exists n D D', valid n D = true /\ hmono n D = false /\ reorder_dendrogram D = Ok D' /\ valid n D' = false.
Proof.
  exists 3, inverted_example. eexists. split; [vm_compute; reflexivity|]. split; [vm_compute; reflexivity|].
  split; vm_compute; reflexivity.
Qed.
Print Assumptions reorder_parent_below_child_refuted.

(** [valid] (a replay) is equivalent to a static description: n - 1 rows, no id twice among all children, children
    of row t below n + t, sizes add up. *)
Theorem valid_characterisation (n : nat) (D : dendrogram) :
  valid n D = true <->
  (S (length D) = n /\ NoDup (flat_map children D) /\ ids_lt n D /\ sizes_add n D).
Proof.
  split.
  - intros H. destruct (valid_wf n D H) as [a b c d]. tauto.
  - intros (a & b & c & d). apply wf_valid. now split.
Qed.
Print Assumptions valid_characterisation.

(** * 2. get_dendrogram and the Louvain hierarchies *)

(** For every well-formed tree over the leaves 0..n-1 (every list has >= 2 elements, each leaf exactly once) the
    rows produced form a valid dendrogram with n - 1 rows whose size column counts the leaves below each merge;
    no merge is lower than its children (so reordering is safe); the final index is 2n - 2. *)
Theorem get_dendrogram_valid (n : nat) (t : ptree) :
  tree_ok n t ->
  exists D, get_dendrogram t = Ok (D, 2 * n - 2) /\ valid n D = true /\ hmono n D = true /\
            (forall k r, nth_error D k = Some r -> r_size r = length (leaves n D (n + k))).
Proof. exact (GetDendrogramProofs.get_dendrogram_valid n t). Qed.
Print Assumptions get_dendrogram_valid.

(** [get_dendrogram_legacy] (the size grows by 1, not by the child's size, per further child of a multi-way merge;
    DESIGN.md D23) returns an invalid dendrogram on a well-formed tree. *)
Theorem get_dendrogram_legacy_refuted :
  exists n t D idx, tree_ok n t /\ get_dendrogram_legacy t = Ok (D, idx) /\ valid n D = false.
Proof.
  exists 4, (PNode [PNode [PLeaf 0; PLeaf 1]; PLeaf 2; PLeaf 3]).
  exists [(1, 0, (-1 # 1)%Q, 2); (3, 2, 0%Q, 2); (5, 4, 0%Q, 3)], 6.
  split; [|split].
  - split; [reflexivity|]. split; [apply Permutation_refl | eexists; reflexivity].
  - vm_compute. reflexivity.
  - vm_compute. reflexivity.
Qed.
Print Assumptions get_dendrogram_legacy_refuted.

(** LouvainHierarchy.fit, for ANY answers of the Louvain oracle respecting its contract (one label per node, then
    one label per cluster of the previous level): a good dendrogram over the n nodes. *)
Theorem louvain_hierarchy_valid (n : nat) (levels : list (list nat)) (t : ptree) :
  2 <= n -> levels_ok n levels -> lh_tree n levels = Ok t ->
  exists D, louvain_hierarchy_fit n levels = Ok D /\ good_dendrogram n D.
Proof.
  intros Hn Hl Ht. assert (Hok : tree_ok n t) by exact (lh_tree_ok n levels t Hn Hl Ht).
  destruct (postprocess_valid n t Hok) as (D & E & Hg). exists D. split; [|exact Hg].
  unfold louvain_hierarchy_fit. rewrite Ht. exact E.
Qed.
Print Assumptions louvain_hierarchy_valid.

(** [louvain_hierarchy_fit_legacy] (a single top-level cluster gives a tree of one element, hence no row; DESIGN.md
    D24) fails with IndexError. *)
Theorem louvain_hierarchy_single_cluster_legacy_refuted :
  louvain_hierarchy_fit_legacy 3 [[0; 0; 0]; [0]] = Err IndexError.
Proof. vm_compute. reflexivity. Qed.
Print Assumptions louvain_hierarchy_single_cluster_legacy_refuted.

(** LouvainIteration.fit, for ANY Louvain oracle returning one label per node and any depth: it never fails and
    returns a good dendrogram. *)
Theorem louvain_iteration_valid (oracle : list nat -> list nat) (has_edge : list nat -> bool) (depth : Z) (n : nat) :
  2 <= n -> (forall l, length (oracle l) = length l) ->
  exists D, louvain_iteration_fit oracle has_edge depth n = Ok D /\ good_dendrogram n D.
Proof.
  intros Hn Ho.
  assert (Hne : seq 0 n <> []) by (destruct n; [inversion Hn | discriminate]).
  destruct (ri_total oracle has_edge depth (seq 0 n) Ho Hne) as [t Ht]. rewrite seq_length in Ht.
  destruct (ri_tree_ok (S n) oracle has_edge depth (seq 0 n) t Ho Ht) as (Hs & Hp & Hnode).
  rewrite seq_length in Hnode.
  assert (Hok : tree_ok n t) by (split; [exact Hs | split; [exact Hp | exact (Hnode Hn)]]).
  destruct (postprocess_valid n t Hok) as (D & E & Hg). exists D. split; [|exact Hg].
  unfold louvain_iteration_fit. rewrite Ht. exact E.
Qed.
Print Assumptions louvain_iteration_valid.

(** * 3. Paris: bookkeeping and rows *)

(** [AggregateGraph.merge]: sizes add, weights add, next_cluster advances by one. *)
Theorem merge_bookkeeping (R : rounding) (g : agraph) (a b : nat) (g' : agraph) (sa sb : nat) :
  ag_merge R g a b = Ok g' -> alookup a (ag_size g) = Some sa -> alookup b (ag_size g) = Some sb ->
  a <> b /\ ag_next g' = S (ag_next g) /\
  ag_size g' = aremove b (aremove a (ag_size g)) ++ [(ag_next g, sa + sb)] /\
  (~ In (ag_next g) (akeys (ag_wout g)) ->
   getq (ag_wout g') (ag_next g) = r64 R (getq (ag_wout g) a + getq (ag_wout g) b)) /\
  (~ In (ag_next g) (akeys (ag_win g)) ->
   getq (ag_win g') (ag_next g) = r64 R (getq (ag_win g) a + getq (ag_win g) b)).
Proof. exact (ParisProofs.merge_bookkeeping R g a b g' sa sb). Qed.
Print Assumptions merge_bookkeeping.

(** The neighbour maps stay symmetric (same stored weight in both directions) along the whole run, for any
    rounding, from any symmetric input. *)
Theorem neighbours_stay_symmetric (R : rounding) (clamp : bool) (fuel n : nat) (G : entries) (wout win : list Q)
        (st : Paris.pstate) :
  NoDup (map (fun e => (e_i e, e_j e)) G) -> (forall i j w, In (i, j, w) G -> In (j, i, w) G /\ i < n /\ j < n) ->
  paris_run R clamp fuel (paris_init (ag_init R n G wout win)) = Some (Ok st) ->
  nb_wf (p_ag st) /\ ParisProofs.nb_symmetric (p_ag st).
Proof. exact (ParisProofs.paris_run_symmetric R clamp fuel n G wout win st). Qed.
Print Assumptions neighbours_stay_symmetric.

(** next_cluster = n + number of merges. *)
Theorem paris_next_cluster (R : rounding) (clamp : bool) (fuel n : nat) (G : entries) (wout win : list Q) (st : Paris.pstate) :
  paris_run R clamp fuel (paris_init (ag_init R n G wout win)) = Some (Ok st) ->
  ag_next (p_ag st) = n + length (p_rows st).
Proof. exact (ParisProofs.paris_next_cluster R clamp fuel n G wout win st). Qed.
Print Assumptions paris_next_cluster.

(** Whenever the nearest-neighbour-chain run ends normally — for ANY rounding (exact or floating point), any input,
    with or without the clamp — the rows in creation order, component-joining rows included, are a valid
    dendrogram: n - 1 rows, row t merges two distinct live clusters, size column = leaves below, last size n. *)
Theorem paris_rows_valid (R : rounding) (clamp : bool) (hinf : Q) (n : nat) (G : entries) (wout win : list Q)
        (D : dendrogram) (m : option Q) (t : nat) :
  paris_core R clamp hinf n G wout win = Some (Ok (D, m, t)) ->
  valid n D = true /\ S (length D) = n /\
  (forall k r, nth_error D k = Some r -> r_size r = length (leaves n D (n + k))) /\
  (D <> [] -> r_size (last D drow0) = n).
Proof.
  intros H. split; [exact (ParisProofs.paris_rows_valid R clamp hinf n G wout win D m t H)|].
  exact (paris_rows_sizes R clamp hinf n G wout win D m t H).
Qed.
Print Assumptions paris_rows_valid.

(** * 4. Paris: reducibility, and its failure in float32 *)

(** Mediant inequality behind the linkage: sim(a u b, c) = 2 (p_ac + p_bc) / (den_ac + den_bc). *)
Theorem mediant_le (p1 d1 p2 d2 s : Q) :
  (0 < d1)%Q -> (0 < d2)%Q -> (p1 / d1 <= s)%Q -> (p2 / d2 <= s)%Q -> ((p1 + p2) / (d1 + d2) <= s)%Q.
Proof. exact (ParisReducible.mediant_le p1 d1 p2 d2 s). Qed.
Print Assumptions mediant_le.

(** In exact arithmetic a merge is never lower than the merges that created its children (height = 1 / similarity),
    for every symmetric graph with positive edge weights and positive node weights. *)
Theorem paris_reducible (hinf : Q) (n : nat) (G : entries) (wout win : list Q) (D : dendrogram) (m : option Q) (t : nat) :
  graph_ok n G -> weights_ok n wout -> weights_ok n win ->
  paris_core exact false hinf n G wout win = Some (Ok (D, m, t)) ->
  (forall r, In r D -> (r_height r <= hinf)%Q) ->
  hmono n D = true.
Proof. exact (ParisReducible.paris_reducible hinf n G wout win D m t). Qed.
Print Assumptions paris_reducible.

(** Hence the exact model with reorder = True returns a good dendrogram over the same merges. *)
Theorem paris_exact_valid (hinf : Q) (n : nat) (G : entries) (wout win : list Q) (D : dendrogram) (m : option Q) (t : nat) :
  graph_ok n G -> weights_ok n wout -> weights_ok n win ->
  paris_core exact false hinf n G wout win = Some (Ok (D, m, t)) ->
  (forall r, In r D -> (r_height r <= hinf)%Q) ->
  exists D', reorder_dendrogram D = Ok D' /\ good_dendrogram n D' /\ Permutation (merge_view n D) (merge_view n D').
Proof.
  intros HG Ho Hi Hrun Hinf.
  assert (Hv := ParisProofs.paris_rows_valid exact false hinf n G wout win D m t Hrun).
  assert (Hm := paris_reducible hinf n G wout win D m t HG Ho Hi Hrun Hinf).
  destruct (reorder_valid n D Hv Hm) as (D' & E & Hv' & Hs' & Hp).
  exists D'. split; [exact E|]. split; [now apply good_of_valid_sorted | exact Hp].
Qed.
Print Assumptions paris_exact_valid.

(** Totality: for every symmetric graph with positive edge weights and positive node weights (n >= 1) the exact model
    ends normally within its fuel of 3n + 2 steps — never KeyError, never out of fuel (the chain never revisits a
    cluster: no-cycle argument with the smallest-index tie rule) — ... *)
Theorem paris_total (hinf : Q) (n : nat) (G : entries) (wout win : list Q) :
  1 <= n -> graph_ok n G -> weights_ok n wout -> weights_ok n win ->
  exists D m t, paris_core exact false hinf n G wout win = Some (Ok (D, m, t)).
Proof. exact (ParisTotal.paris_total hinf n G wout win). Qed.
Print Assumptions paris_total.

(** ... its rows are a valid dendrogram, and with reorder = True the output is a good dendrogram over the same merges. *)
Theorem paris_exact_total_valid (hinf : Q) (n : nat) (G : entries) (wout win : list Q) :
  1 <= n -> graph_ok n G -> weights_ok n wout -> weights_ok n win ->
  exists D m t, paris_core exact false hinf n G wout win = Some (Ok (D, m, t)) /\ valid n D = true /\
    ((forall r, In r D -> (r_height r <= hinf)%Q) ->
     exists D', reorder_dendrogram D = Ok D' /\ good_dendrogram n D' /\ Permutation (merge_view n D) (merge_view n D')).
Proof.
  intros Hn HG Ho Hi. destruct (paris_total hinf n G wout win Hn HG Ho Hi) as (D & m & t & Hrun).
  exists D, m, t. split; [exact Hrun|]. split; [exact (ParisProofs.paris_rows_valid exact false hinf n G wout win D m t Hrun)|].
  intros Hinf. exact (paris_exact_valid hinf n G wout win D m t HG Ho Hi Hrun Hinf).
Qed.
Print Assumptions paris_exact_total_valid.

(** DESIGN.md D25: without the clamp, with the roundings of the compiled code (similarities in C floats) the hypothesis of [reorder_valid]
    can fail.  On the 6-node graph [d25_graph] the merges (4,3) and ({3,4},5) have the same height 9/26 in exact
    arithmetic; in IEEE arithmetic the parent comes out strictly lower, and the reordered output merges cluster 8
    before the row that creates it. *)
Theorem paris_float_inversion :
  ran (paris_fit exact d25_hinf true false 6 d25_graph) = true /\
  ran (paris_fit ieee d25_hinf true false 6 d25_graph) = true /\
  ran (paris_fit ieee d25_hinf true true 6 d25_graph) = true /\
  map (fun r => (r_left r, r_right r, r_size r)) d25_float = map (fun r => (r_left r, r_right r, r_size r)) d25_exact /\
  d25_exact = [(1, 0, (3 # 13)%Q, 2); (4, 3, (9 # 26)%Q, 2); (6, 2, (15 # 26)%Q, 3); (7, 5, (9 # 26)%Q, 3);
               (9, 8, (42 # 13)%Q, 6)] /\
  forallb (fun p => close (r_height (fst p)) (r_height (snd p))) (combine d25_float d25_exact) = true /\
  valid 6 d25_exact = true /\ hmono 6 d25_exact = true /\
  valid 6 d25_exact_reordered = true /\ sortedq (heights d25_exact_reordered) = true /\
  valid 6 d25_float = true /\ hmono 6 d25_float = false /\
  Qle_bool (r_height (nth 1 d25_float drow0)) (r_height (nth 3 d25_float drow0)) = false /\
  map (fun r => (r_left r, r_right r, r_size r)) d25_float_reordered =
    [(1, 0, 2); (8, 5, 3); (4, 3, 2); (6, 2, 3); (7, 9, 6)] /\
  valid 6 d25_float_reordered = false.
Proof. exact paris_float_inversion_witness. Qed.
Print Assumptions paris_float_inversion.

(** With the clamp ([clamp = true]: height of a merge := max of 1/similarity and its children's heights) the result
    is valid and sorted after reordering, for ANY rounding.  Whether the source clamps is the generated flag
    [paris_src_clamp], used in the next theorem. *)
Theorem paris_clamped_valid (R : rounding) (hinf : Q) (n : nat) (G : entries) (wout win : list Q) (D : dendrogram)
        (m : option Q) (t : nat) :
  paris_core R true hinf n G wout win = Some (Ok (D, m, t)) ->
  (forall r, In r D -> (r_height r <= hinf)%Q) ->
  exists D', reorder_dendrogram D = Ok D' /\ good_dendrogram n D'.
Proof.
  intros Hrun Hinf.
  assert (Hv := ParisProofs.paris_rows_valid R true hinf n G wout win D m t Hrun).
  assert (Hm := paris_clamped_hmono R hinf n G wout win D m t Hrun Hinf).
  destruct (reorder_valid n D Hv Hm) as (D' & E & Hv' & Hs' & _).
  exists D'. split; [exact E | now apply good_of_valid_sorted].
Qed.
Print Assumptions paris_clamped_valid.

(** The model instantiated with the flag read from the source ([paris_src_clamp], Gen/ParisSrc.v: regenerated from
    paris.pyx on every run), for any rounding — in particular that of the compiled code: a good dendrogram PROVIDED
    the source clamps the heights (without the clamp [paris_float_inversion] shows the conclusion fails). *)
Theorem paris_source_valid (R : rounding) (hinf : Q) (n : nat) (G : entries) (wout win : list Q) (D : dendrogram)
        (m : option Q) (t : nat) :
  paris_src_clamp = true ->
  paris_core R paris_src_clamp hinf n G wout win = Some (Ok (D, m, t)) ->
  (forall r, In r D -> (r_height r <= hinf)%Q) ->
  exists D', reorder_dendrogram D = Ok D' /\ good_dendrogram n D'.
Proof. intros Hc. rewrite Hc. apply paris_clamped_valid. Qed.
Print Assumptions paris_source_valid.

(** Obligation over the generated term [paris_src_tie_exact] (harness/translators/paris.py, regenerated from
    paris.pyx on every run): the tie branch of the nearest-neighbour scan is exactly [elif sim == max_sim:] followed by
    [nearest_neighbor = min(neighbor, nearest_neighbor)].  [paris_total] above (no KeyError, at most 3n + 2 chain
    steps) is proved for this exact smallest-index tie rule ONLY: with a tolerance test — not transitive, dependent on
    the scan order — the chain can cycle a -> b -> c -> a forever. *)
Theorem paris_source_tie_exact : paris_src_tie_exact = true.
Proof. exact C07Compose.paris_source_tie_exact. Qed.
Print Assumptions paris_source_tie_exact.

(** * 5. split_dendrogram (bipartite input) *)

Theorem split_dendrogram_valid (D : dendrogram) (n1 n2 : nat) :
  1 <= n1 -> 1 <= n2 -> valid (n1 + n2) D = true ->
  exists Dr Dc, split_dendrogram D n1 n2 = Ok (Dr, Dc) /\ valid n1 Dr = true /\ valid n2 Dc = true.
Proof. exact (SplitProofs.split_dendrogram_valid D n1 n2). Qed.
Print Assumptions split_dendrogram_valid.

(** The row (column) dendrogram shows exactly the merges of the full one among clusters that both contain a row
    (column), restricted to the rows (columns), in the same order, at the same heights. *)
Theorem split_dendrogram_agrees (D : dendrogram) (n1 n2 : nat) (Dr Dc : dendrogram) :
  1 <= n1 -> 1 <= n2 -> valid (n1 + n2) D = true -> split_dendrogram D n1 n2 = Ok (Dr, Dc) ->
  own_view n1 Dr = restrict_view (n1 + n2) D 0 n1 /\ own_view n2 Dc = restrict_view (n1 + n2) D n1 n2.
Proof. exact (SplitProofs.split_dendrogram_agrees D n1 n2 Dr Dc). Qed.
Print Assumptions split_dendrogram_agrees.

(** [_split_vars]: good full dendrogram => good row and column dendrograms that agree with it. *)
Theorem split_vars_valid (D : dendrogram) (n1 n2 : nat) :
  1 <= n1 -> 1 <= n2 -> good_dendrogram (n1 + n2) D ->
  exists Dr Dc, split_dendrogram D n1 n2 = Ok (Dr, Dc) /\ good_dendrogram n1 Dr /\ good_dendrogram n2 Dc /\
                own_view n1 Dr = restrict_view (n1 + n2) D 0 n1 /\ own_view n2 Dc = restrict_view (n1 + n2) D n1 n2.
Proof.
  intros H1 H2 (Hv & _ & Hs).
  destruct (split_dendrogram_valid D n1 n2 H1 H2 Hv) as (Dr & Dc & E & Hvr & Hvc).
  destruct (split_dendrogram_agrees D n1 n2 Dr Dc H1 H2 Hv E) as [Ar Ac].
  exists Dr, Dc. split; [exact E|]. apply split_dendrogram_sides in E. destruct E as [Er Ec].
  split; [apply good_of_valid_sorted; [exact Hvr | exact (split_side_sorted D n1 n2 0 n1 Dr Hv H1 (Nat.le_add_r n1 n2) Er Hs)]|].
  split; [apply good_of_valid_sorted; [exact Hvc | exact (split_side_sorted D n1 n2 n1 n2 Dc Hv H2 (le_n _) Ec Hs)]|].
  split; [exact Ar | exact Ac].
Qed.
Print Assumptions split_vars_valid.

(** * Non-vacuity *)

(** A tree meeting [tree_ok], its dendrogram, and the reordering of a valid, monotone dendrogram with a tie. *)
Example tree_ok_example : tree_ok 4 (PNode [PNode [PLeaf 0; PLeaf 1]; PLeaf 2; PLeaf 3]).
Proof.
  split; [reflexivity|]. split; [|eexists; reflexivity]. apply Permutation_refl.
Qed.

Example get_dendrogram_example :
  get_dendrogram (PNode [PNode [PLeaf 0; PLeaf 1]; PLeaf 2; PLeaf 3])
  = Ok ([(1, 0, (-1 # 1)%Q, 2); (3, 2, 0%Q, 2); (5, 4, 0%Q, 4)], 6).
Proof. exact GetDendrogramProofs.get_dendrogram_example. Qed.

Example reorder_example :
  let D := [(1, 0, (1 # 1)%Q, 2); (3, 2, (1 # 2)%Q, 2); (4, 5, (1 # 1)%Q, 4)] in
  valid 4 D = true /\ hmono 4 D = true /\
  reorder_dendrogram D = Ok [(3, 2, (1 # 2)%Q, 2); (1, 0, (1 # 1)%Q, 2); (5, 4, (1 # 1)%Q, 4)].
Proof. vm_compute. repeat split; reflexivity. Qed.

Example louvain_hierarchy_example :
  levels_ok 5 [[0; 0; 1; 1; 1]; [0; 0]; [0]] /\
  lh_tree 5 [[0; 0; 1; 1; 1]; [0; 0]; [0]] = Ok (PNode [PNode [PLeaf 0; PLeaf 1]; PNode [PLeaf 2; PLeaf 3; PLeaf 4]]) /\
  match louvain_hierarchy_fit 5 [[0; 0; 1; 1; 1]; [0; 0]; [0]] with Ok D => valid 5 D && sortedq (heights D) | Err _ => false end = true.
Proof. split; [simpl; tauto|]. split; vm_compute; reflexivity. Qed.

(** The hypotheses of [paris_reducible] hold on [ex_G] (Proofs/ParisReducible.v: the six edges of [d25_graph]) with
    its degree weights [ex_w], and the run ends. *)
Example paris_hypotheses_example :
  graph_ok 6 ex_G /\ weights_ok 6 ex_w /\
  match paris_core exact false (1000 # 1)%Q 6 ex_G ex_w ex_w with
  | Some (Ok (D, _, _)) => forallb (fun r => Qle_bool (r_height r) (1000 # 1)%Q) D = true
  | _ => False
  end.
Proof. exact paris_reducible_example_hyps. Qed.

Definition paris_example_check : bool :=
  match paris_core exact false (1000 # 1)%Q 6 ex_G ex_w ex_w with
  | Some (Ok (D, _, _)) => valid 6 D && hmono 6 D
  | _ => false
  end.
Example paris_example : paris_example_check = true.
Proof. vm_compute. reflexivity. Qed.

Example split_example :
  let D := [(0, 2, (1 # 1)%Q, 2); (1, 3, (1 # 1)%Q, 2); (4, 5, (2 # 1)%Q, 4)] in
  valid (2 + 2) D = true /\
  split_dendrogram D 2 2 = Ok ([(0, 1, (2 # 1)%Q, 2)], [(0, 1, (2 # 1)%Q, 2)]).
Proof. vm_compute. split; reflexivity. Qed.

(** * SOURCE LEVEL — split_dendrogram of hierarchy/postprocess.py, regenerated on every run

    [src_split_dendrogram] is the body of split_dendrogram as a statement of the small imperative Python of Model/PyImp.v
    (Gen/PySplit.v, produced by harness/translators/pyimp.py from the source; ids read from the float array are used as
    dict keys, as in Python where hash(2.0) = hash(2)).  For EVERY dendrogram and shape, running the text leaves in
    the variables dendrogram_row / dendrogram_col exactly the rows of the model's split_dendrogram (the code handles both sides in one
    loop, the model one side at a time), and raises when the model does; with the theorems above: on a valid dendrogram over
    n1 + n2 leaves the text returns valid row and column dendrograms that agree with the full one. *)
From SKN Require Import Model.PyImp Gen.PySplit Proofs.PyCutsProofs Proofs.PySplitProofs.
From Coq Require Import String.
Local Open Scope string_scope.

Theorem source_split_dendrogram_is_model D n1 n2 (e0 : env) :
  e0 "dendrogram" = Some (embD D) -> e0 "shape" = Some (VList [vnat n1; vnat n2]) ->
  match split_dendrogram D n1 n2 with
  | Ok (Dr, Dc) => exists e', exec src_split_dendrogram e0 = POk e' /\
                              e' "dendrogram_row" = Some (VList (map embNewRow Dr)) /\
                              e' "dendrogram_col" = Some (VList (map embNewRow Dc))
  | Err _ => exists er, exec src_split_dendrogram e0 = PErr er
  end.
Proof. exact (src_split_dendrogram_is_model D n1 n2 e0). Qed.
Print Assumptions source_split_dendrogram_is_model.

Theorem source_split_dendrogram_valid D n1 n2 (e0 : env) :
  1 <= n1 -> 1 <= n2 -> valid (n1 + n2) D = true ->
  e0 "dendrogram" = Some (embD D) -> e0 "shape" = Some (VList [vnat n1; vnat n2]) ->
  exists e' Dr Dc, exec src_split_dendrogram e0 = POk e' /\
    e' "dendrogram_row" = Some (VList (map embNewRow Dr)) /\ e' "dendrogram_col" = Some (VList (map embNewRow Dc)) /\
    valid n1 Dr = true /\ valid n2 Dc = true /\
    own_view n1 Dr = restrict_view (n1 + n2) D 0 n1 /\ own_view n2 Dc = restrict_view (n1 + n2) D n1 n2.
Proof.
  intros H1 H2 Hv Hd Hs.
  destruct (SplitProofs.split_dendrogram_valid D n1 n2 H1 H2 Hv) as (Dr & Dc & Hm & V1 & V2).
  pose proof (src_split_dendrogram_is_model D n1 n2 e0 Hd Hs) as L. rewrite Hm in L.
  destruct L as (e' & F & R & C). exists e', Dr, Dc.
  exact (conj F (conj R (conj C (conj V1 (conj V2 (SplitProofs.split_dendrogram_agrees D n1 n2 Dr Dc H1 H2 Hv Hm)))))).
Qed.
Print Assumptions source_split_dendrogram_valid.

Theorem source_split_untranslated_reviewed :
  src_split_params = ["dendrogram"; "shape"] /\
  src_split_return = "return (np.array(dendrogram_row), np.array(dendrogram_col))".
Proof. split; reflexivity. Qed.
Print Assumptions source_split_untranslated_reviewed.

Example c07_source_nonvacuous :
  let D := [(0, 2, 1%Q, 2); (1, 3, 2%Q, 2); (4, 5, 3%Q, 4)] in
  run_var src_split_dendrogram [("dendrogram", embD D); ("shape", VList [vnat 2; vnat 2])] "dendrogram_row"
    = POk (Some (VList (map embNewRow [(0, 1, 3%Q, 2)]))) /\
  run_var src_split_dendrogram [("dendrogram", embD D); ("shape", VList [vnat 2; vnat 2])] "dendrogram_col"
    = POk (Some (VList (map embNewRow [(0, 1, 3%Q, 2)]))) /\
  split_dendrogram D 2 2 = Ok ([(0, 1, 3%Q, 2)], [(0, 1, 3%Q, 2)]).
Proof. cbv zeta. repeat split; vm_compute; reflexivity. Qed.
