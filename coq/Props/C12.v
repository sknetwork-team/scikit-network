(** C12 — Connectivity, bipartiteness and cycle functions describe the graph truthfully.
    Statements of the property, each proved right under it ([exact] of a lemma of Proofs/, or a script over such lemmas)
    and followed by its [Print Assumptions]; examples by evaluation.  Parts: is_bipartite; connectivity; is_acyclic;
    get_cycles; break_cycles on the enumerated graphs with at most 4 nodes; non-vacuity; break_cycles without a size
    bound, with its own non-vacuity examples.
    Models: Model/Structure.v, Model/Cycles.v (SciPy's connected_components is an oracle argument with
    contract [components_contract]). *)
From SKN Require Import Base.Util Model.Bfs Model.Structure Model.Cycles
  Proofs.BfsProofs Proofs.StructureProofs Proofs.CyclesProofs Gen.CyclesCode.

(** ** is_bipartite *)

(** On a symmetric pattern the coded loop neither runs out of fuel nor fails to find an uncoloured
    node; on a non-symmetric one the code raises ValueError. *)
Theorem is_bipartite_total (g : graph) :
  wf_graph g ->
  (is_symmetric g = false -> is_bipartite g = Err ValueError) /\
  (is_symmetric g = true -> exists b x, is_bipartite g = Ok (b, x)).
Proof. exact (StructureProofs.is_bipartite_total g). Qed.
Print Assumptions is_bipartite_total.

(** Result true: there is no self-loop, the returned rows / cols partition the nodes, every edge
    joins the two classes (the colouring is proper), and the returned biadjacency is entry-wise the
    input restricted to rows x cols — so the graph is [[0, B], [B^T, 0]] up to the order rows ++ cols. *)
Theorem is_bipartite_sound (g : graph) x :
  wf_graph g -> is_bipartite g = Ok (true, x) ->
  exists m rws cls, x = Some (m, rws, cls) /\
    (forall u, ~ In u (row g u)) /\
    (forall u, u < length g -> (In u rws /\ ~ In u cls) \/ (In u cls /\ ~ In u rws)) /\
    (forall u, In u rws \/ In u cls -> u < length g) /\
    NoDup rws /\ NoDup cls /\
    (forall u v, In v (row g u) -> (In u rws /\ In v cls) \/ (In u cls /\ In v rws)) /\
    p_nrow m = length rws /\ p_ncol m = length cls /\
    (forall a b, a < length rws -> b < length cls ->
       (In b (row (p_rows m) a) <-> In (nthn cls b) (row g (nthn rws a)))).
Proof. exact (is_bipartite_sound_lemma g x). Qed.
Print Assumptions is_bipartite_sound.

(** Result false: the graph has a self-loop or admits no proper 2-colouring (and nothing else is returned). *)
Theorem is_bipartite_complete (g : graph) x :
  wf_graph g -> is_bipartite g = Ok (false, x) ->
  x = None /\ ((exists u, u < length g /\ In u (row g u)) \/ ~ two_colourable g).
Proof.
  intros Hwf. unfold is_bipartite.
  destruct (is_symmetric g) eqn:Hs; cbn [negb]; [|discriminate].
  destruct (has_loops g) eqn:Hl.
  - intros H. inversion H. split; auto. left. apply has_loops_spec. exact Hl.
  - destruct (bip_loop_runs g Hwf Hs) as [[col|] [Hrun Hpost]]; rewrite Hrun; [discriminate|].
    intros H. inversion H. split; [reflexivity|]. right. exact Hpost.
Qed.
Print Assumptions is_bipartite_complete.

(** Together: is_bipartite is true exactly for loop-free 2-colourable graphs. *)
Theorem is_bipartite_exact (g : graph) :
  wf_graph g -> is_symmetric g = true ->
  exists b x, is_bipartite g = Ok (b, x) /\
    (b = true <-> (forall u, ~ In u (row g u)) /\ two_colourable g).
Proof.
  intros Hwf Hs. destruct (proj2 (is_bipartite_total g Hwf) Hs) as [b [x H]].
  exists b, x. split; [exact H|]. destruct b.
  - split; auto. intros _. eapply is_bipartite_true_two_colourable; eauto.
  - split; [discriminate|]. intros [Hl Hc].
    destruct (is_bipartite_complete g x Hwf H) as [_ [[u [_ Hu]]|Hn]].
    + exfalso. eapply Hl; eauto.
    + contradiction.
Qed.
Print Assumptions is_bipartite_exact.

(** ** Connectivity (under the oracle contract) *)

Theorem is_connected_exact (m : pmat) (fb strong : bool) (comp : list nat) (b : bool) :
  components_contract (cc_adjacency m fb) strong comp ->
  is_connected m fb comp = Ok b ->
  let g := cc_adjacency m fb in
  (b = true <-> 0 < length g /\ forall u v, u < length g -> v < length g ->
                   if strong then sconn g u v else wconn g u v).
Proof.
  intros [Hlen Hc] H g. unfold is_connected, get_connected_components in H.
  destruct (nnz (p_rows m) =? 0); [discriminate|]. inversion H; subst b. clear H.
  rewrite Nat.eqb_eq, n_labels_one. fold g in Hlen, Hc. split.
  - intros [Hne Heq]. split; [rewrite <- Hlen; destruct comp; simpl; [congruence | lia]|].
    intros u v Hu Hv. apply Hc; auto. apply Heq; apply nthn_In; lia.
  - intros [Hpos Hall]. split; [intros E; subst comp; simpl in Hlen; lia|].
    intros x y Hx Hy. apply In_nthn in Hx, Hy. destruct Hx as [i [Hi Ex]], Hy as [j [Hj Ey]].
    subst x y. apply Hc; try lia. apply Hall; lia.
Qed.
Print Assumptions is_connected_exact.

(** The returned index is one label class — a non-empty connected component of maximum size — listed
    in increasing order (rows then columns for a biadjacency input), and the returned matrix is the
    input restricted to it (rows selected first, then columns). *)
Theorem largest_component_is_induced (m : pmat) (fb strong : bool) (comp : list nat) out index :
  components_contract (cc_adjacency m fb) strong comp ->
  get_largest_connected_component m fb comp = Ok (out, index) ->
  let g := cc_adjacency m fb in
  let bip := snd (get_adjacency m fb) in
  let l := largest_label comp in
  let inclass := fun u => nthn comp u = l in
  (exists u0, u0 < length g /\ inclass u0) /\
  (forall u v, u < length g -> v < length g -> inclass u ->
      (inclass v <-> if strong then sconn g u v else wconn g u v)) /\
  (forall x, count comp x <= count comp l) /\
  exists ir ic,
    out = submatrix m ir ic /\
    (bip = false -> ir = filter (fun u => nthn comp u =? l) (seq 0 (length g)) /\ ic = ir /\ index = ir) /\
    (bip = true -> ir = filter (fun i => nthn comp i =? l) (seq 0 (p_nrow m)) /\
                   ic = filter (fun j => nthn comp (p_nrow m + j) =? l) (seq 0 (length g - p_nrow m)) /\
                   index = ir ++ ic) /\
    (forall a b, a < length ir -> b < length ic ->
       (In b (row (p_rows out) a) <-> In (nthn ic b) (row (p_rows m) (nthn ir a)))).
Proof. exact (largest_component_lemma m fb strong comp out index). Qed.
Print Assumptions largest_component_is_induced.

(** ** is_acyclic *)

(** Directed: "no self-loop and as many strongly connected components as nodes" holds exactly when
    there is no simple directed cycle (self-loops and 2-cycles included). *)
Theorem is_acyclic_directed_exact (g : graph) (comp : list nat) (b : bool) :
  wf_graph g -> components_contract g true comp ->
  is_acyclic g (Some true) comp = Ok b ->
  (b = true <-> ~ exists c, dcycle g c).
Proof. exact (fun Hwf Hc => PathProofs.is_acyclic_directed_lemma g (Some true) comp b Hwf Hc eq_refl). Qed.
Print Assumptions is_acyclic_directed_exact.

(** forest_iff_count: a simple undirected graph on n nodes (edge list [es], each edge once, no loop) is
    acyclic iff (number of connected components) + (number of edges) = n, for ANY labelling [comp]
    whose classes are the connected components. *)
Theorem forest_iff_count (n : nat) (es : list (nat * nat)) (comp : list nat) :
  simple_edges n es -> length comp = n ->
  (forall x y, x < n -> y < n -> (nthn comp x = nthn comp y <-> econn es x y)) ->
  (forest es <-> n_labels comp + length es = n).
Proof. exact (forest_iff_count_lemma n es comp). Qed.
Print Assumptions forest_iff_count.

(** Undirected (explicit directed=False, or inferred on a symmetric pattern; canonical rows): the
    criterion "no self-loop and n_cc = n - nnz/2" holds exactly when there is neither a self-loop nor
    a simple cycle on at least 3 nodes. *)
Theorem is_acyclic_undirected_exact (g : graph) (directed : option bool) (comp : list nat) (b : bool) :
  wf_graph g -> (forall u, NoDup (row g u)) -> components_contract g false comp ->
  resolve_directed g directed = Ok false ->
  is_acyclic g directed comp = Ok b ->
  (b = true <-> ~ exists c, ucycle g c).
Proof. exact (is_acyclic_undirected_lemma g directed comp b). Qed.
Print Assumptions is_acyclic_undirected_exact.

(** ** get_cycles *)

(** The depth budget of the traversal (length g + 1) is never exhausted: the model always answers. *)
Theorem get_cycles_total (g : graph) (directed : option bool) (comp : list nat) (d : bool) :
  wf_graph g -> resolve_directed g directed = Ok d -> exists cs, get_cycles g directed comp = Ok cs.
Proof.
  intros Hwf Hd.
  destruct (get_cycles_cases g directed comp d Hwf Hd) as [[_ E]|[_ [found [_ [_ E]]]]]; rewrite E; eexists; reflexivity.
Qed.
Print Assumptions get_cycles_total.

(** Every returned list is a simple cycle of the input (distinct nodes of the graph, consecutive
    edges, closing edge; never of length 2 in the undirected case), and no two returned lists are
    the same cycle up to rotation (directed) / rotation and orientation (undirected). *)
Theorem get_cycles_sound (g : graph) (directed : option bool) (comp : list nat) (d : bool) cs :
  wf_graph g -> resolve_directed g directed = Ok d ->
  get_cycles g directed comp = Ok cs ->
  (forall c, In c cs -> simple_cycle (edge g) c /\ (d = false -> length c <> 2) /\ forall x, In x c -> x < length g) /\
  (forall i j, i < j < length cs ->
     if d then ~ same_dcycle (nth i cs []) (nth j cs []) else ~ same_ucycle (nth i cs []) (nth j cs [])).
Proof. exact (get_cycles_sound_lemma g directed comp d cs). Qed.
Print Assumptions get_cycles_sound.

(** Directed graphs: ALL simple cycles are returned (up to rotation), self-loops and 2-cycles included. *)
Theorem get_cycles_complete_directed (g : graph) (directed : option bool) (comp : list nat) cs :
  wf_graph g -> components_contract g true comp -> resolve_directed g directed = Ok true ->
  get_cycles g directed comp = Ok cs ->
  forall c, dcycle g c -> exists c', In c' cs /\ same_dcycle c c'.
Proof. exact (get_cycles_complete_directed_lemma g directed comp cs). Qed.
Print Assumptions get_cycles_complete_directed.

(** Nothing is returned iff the graph is acyclic (directed: no simple directed cycle; undirected: no
    self-loop and no simple cycle on >= 3 nodes). *)
Theorem get_cycles_empty_iff_acyclic (g : graph) (directed : option bool) (comp : list nat) (d : bool) cs :
  wf_graph g -> (forall u, NoDup (row g u)) -> resolve_directed g directed = Ok d ->
  components_contract g d comp ->
  get_cycles g directed comp = Ok cs ->
  (cs = [] <-> ~ has_cycle g d).
Proof. exact (get_cycles_empty_iff_acyclic_lemma g directed comp d cs). Qed.
Print Assumptions get_cycles_empty_iff_acyclic.

(** ** break_cycles *)

(** The first argument of [break_cycles] ([visit_others] in Model/Cycles.v, written [vo] below; [bc_run],
    Proofs/CyclesProofs.v, is break_cycles run with the canonical oracle answers) says whether the undirected
    branch also starts in the components without root.  Its value for the source is
    [bc_und_visits_other_components], re-extracted from cycles.py on every run (Gen/CyclesCode.v): [false] is the
    code with defect D22 (DESIGN.md), [true] the code that also visits the other components. *)

(** The enumerated small graphs: for every digraph on at most 3 nodes (self-loops allowed) or on 4 nodes
    without self-loops, every non-empty root list with an outgoing edge, directed=True (or inferred on a
    non-symmetric pattern), with the canonical oracle answers: the model returns a subgraph that is acyclic
    and keeps every node reachable from the roots reachable ([bc_post], decided by brute force).
    An instance of the theorems without size bound in the last section of this file: the canonical labels meet the oracle
    contract on every well-formed graph, and [bc_post] accepts whatever satisfies its propositional reading. *)
Theorem break_cycles_ok_upto_4 (g : graph) (root : list nat) (directed : option bool) :
  In g small_digraphs -> In root (nonempty_sublists (nodes g)) -> 0 < out_degree g root ->
  directed = Some true \/ (directed = None /\ is_symmetric g = false) ->
  exists h, bc_run bc_und_visits_other_components directed true g root = Ok h /\ bc_post g root true h = true.
Proof. exact (break_cycles_ok_upto_4_lemma bc_und_visits_other_components g root directed). Qed.
Print Assumptions break_cycles_ok_upto_4.

(** The same statement with [bc_post] unfolded into propositions ([bc_post_directed_sound], for all graphs):
    same nodes, every edge of the result is an edge of the input, no simple
    directed cycle is left, and every node reachable from a root is still reachable from a root. *)
Theorem break_cycles_ok_upto_4_prop (g : graph) (root : list nat) (directed : option bool) :
  In g small_digraphs -> In root (nonempty_sublists (nodes g)) -> 0 < out_degree g root ->
  directed = Some true \/ (directed = None /\ is_symmetric g = false) ->
  exists h, bc_run bc_und_visits_other_components directed true g root = Ok h /\
    length h = length g /\
    (forall u v, edge h u v -> edge g u v) /\
    (~ exists c, dcycle h c) /\
    (forall r v, In r root -> r < length g -> reach (edge g) r v -> exists r', In r' root /\ reach (edge h) r' v).
Proof.
  intros Hg Hr Hd Hf. destruct (break_cycles_ok_upto_4 g root directed Hg Hr Hd Hf) as [h [H1 H2]].
  exists h. split; [exact H1|]. exact (bc_post_directed_sound g root h (small_digraphs_wf g Hg) H2).
Qed.
Print Assumptions break_cycles_ok_upto_4_prop.

(** The undirected branch on the enumerated graphs (all symmetric patterns on at most 4 nodes, self-loops allowed), in
    propositional form ([bc_post_undirected_sound]): the result has the same nodes, is a symmetric
    subgraph without self-loop or simple cycle on >= 3 nodes, and keeps every node reachable from a root
    reachable. If the source has defect D22 ([bc_und_visits_other_components = false]) the defective
    site is excluded by the explicit hypothesis [cycles_covered]: every node on a cycle is reachable
    from the roots. If the flag is [true] the hypothesis is void. *)
Theorem break_cycles_undirected_ok_upto_4 (g : graph) (root : list nat) (directed : option bool) :
  In g small_undirected -> In root (nonempty_sublists (nodes g)) -> 0 < out_degree g root ->
  (bc_und_visits_other_components = false -> cycles_covered g root = true) ->
  directed = None \/ directed = Some false ->
  exists h, bc_run bc_und_visits_other_components directed false g root = Ok h /\
    length h = length g /\
    (forall u v, edge h u v -> edge g u v) /\
    (forall u v, edge h u v -> edge h v u) /\
    (~ exists c, ucycle h c) /\
    (forall r v, In r root -> r < length g -> reach (edge g) r v -> exists r', In r' root /\ reach (edge h) r' v).
Proof. exact (break_cycles_undirected_ok_upto_4_prop_lemma bc_und_visits_other_components g root directed). Qed.
Print Assumptions break_cycles_undirected_ok_upto_4.

(** With [vo = false] (the code with defect D22) the hypothesis is necessary: triangle {0,2,3} plus root 1
    with a self-loop is returned with the triangle intact, for any admissible oracle answer. *)
Theorem break_cycles_undirected_refuted :
  exists g root comp h,
    wf_graph g /\ is_symmetric g = true /\ In root (nonempty_sublists (nodes g)) /\ 0 < out_degree g root /\
    components_contract_b g false comp = true /\
    (forall comp2, break_cycles false g root None comp comp2 = Ok h) /\
    ucycle h [0; 2; 3] /\ acyclic_b h false = false /\ bc_post g root false h = false /\
    cycles_covered g root = false.
Proof. exact break_cycles_undirected_refuted_lemma. Qed.
Print Assumptions break_cycles_undirected_refuted.

(** With [vo = true] (start also from one node of every component without root) no hypothesis is needed
    on the same graphs. *)
Theorem break_cycles_undirected_repaired_ok_upto_4 (g : graph) (root : list nat) (directed : option bool) :
  In g small_undirected -> In root (nonempty_sublists (nodes g)) -> 0 < out_degree g root ->
  directed = None \/ directed = Some false ->
  exists h, bc_run true directed false g root = Ok h /\
    length h = length g /\
    (forall u v, edge h u v -> edge g u v) /\
    (forall u v, edge h u v -> edge h v u) /\
    (~ exists c, ucycle h c) /\
    (forall r v, In r root -> r < length g -> reach (edge g) r v -> exists r', In r' root /\ reach (edge h) r' v).
Proof.
  exact (fun Hg Hr Hd => break_cycles_undirected_ok_upto_4_prop_lemma true g root directed Hg Hr Hd
                           (fun E => False_ind _ (Bool.diff_true_false E))).
Qed.
Print Assumptions break_cycles_undirected_repaired_ok_upto_4.

(** ** Non-vacuity *)
Example c12_nonvacuous :
  let g := [[1; 2]; [0; 2]; [0; 1; 3]; [2]] in
  let sq4 := [[1; 3]; [0; 2]; [1; 3]; [0; 2]] in
  is_symmetric g = true /\ components_contract_b g false [0; 0; 0; 0] = true /\
  is_bipartite g = Ok (false, None) /\
  is_bipartite sq4 = Ok (true, Some ({| p_ncol := 2; p_rows := [[0; 1]; [0; 1]] |}, [0; 2], [1; 3])) /\
  get_cycles g None [0; 0; 0; 0] = Ok [[0; 2; 1]] /\
  get_cycles [[1]; [2]; [0; 1]] (Some true) [0; 0; 0] = Ok [[0; 1; 2]; [1; 2]] /\
  is_acyclic g None [0; 0; 0; 0] = Ok false /\
  length small_digraphs = 4627 /\ length small_undirected = 1 + 2 + 8 + 64 + 1024 /\
  bc_run bc_und_visits_other_components (Some true) true [[1]; [2]; [0; 1]] [0] = Ok [[1]; [2]; []] /\
  get_largest_connected_component {| p_ncol := 3; p_rows := [[1]; [0]; []] |} false [0; 0; 1] =
    Ok ({| p_ncol := 2; p_rows := [[1]; [0]] |}, [0; 1]).
Proof. cbv zeta. repeat split; vm_compute; reflexivity. Qed.

(** ** break_cycles WITHOUT a size bound (Proofs/BreakCyclesProofs.v) *)
From SKN Require Import Proofs.BreakCyclesProofs.
Set Warnings "-notation-overridden".

(** Directed branch ([directed=True], or inferred on a non-symmetric pattern), for EVERY graph (rows may
    contain duplicates and self-loops), every root list and every oracle answer satisfying the contract
    of [connected_components(connection='strong')] (on the input for the call inside is_acyclic, on the
    matrix without self-loops for the call inside break_cycles): the depth budget of the model is never
    exhausted, and whatever is returned
    (a) has the nodes of the input, only edges of the input, and no self-loop,
    (b) has no simple directed cycle of any length,
    (c) still reaches, from the root set, every node that the root set reaches in the input.
    (An out-of-range root or a root set without outgoing edge gives IndexError / ValueError as in the
    code; see [break_cycles_directed_total] for the converse.) *)
Theorem break_cycles_directed_correct
        (vo : bool) (g : graph) (root : list nat) (directed : option bool) (comp1 comp2 : list nat) :
  wf_graph g ->
  resolve_directed g directed = Ok true ->
  components_contract g true comp1 ->
  components_contract (drop_loops g) true comp2 ->
  break_cycles vo g root directed comp1 comp2 <> Err OutOfFuel /\
  forall h, break_cycles vo g root directed comp1 comp2 = Ok h ->
    length h = length g /\
    (forall u v, edge h u v -> edge g u v /\ u <> v) /\
    (forall c, ~ dcycle h c) /\
    (forall r v, In r root -> reach (edge g) r v -> exists r', In r' root /\ reach (edge h) r' v).
Proof. exact (break_cycles_directed_correct_lemma vo g root directed comp1 comp2). Qed.
Print Assumptions break_cycles_directed_correct.

(** Roots in range with at least one outgoing edge: the model answers [Ok]. *)
Theorem break_cycles_directed_total
        (vo : bool) (g : graph) (root : list nat) (directed : option bool) (comp1 comp2 : list nat) :
  resolve_directed g directed = Ok true -> length comp2 = length g ->
  (forall r, In r root -> r < length g) -> 0 < out_degree g root ->
  exists h, break_cycles vo g root directed comp1 comp2 = Ok h.
Proof. exact (break_cycles_directed_total_lemma vo g root directed comp1 comp2). Qed.
Print Assumptions break_cycles_directed_total.

(** Non-vacuity: a 6-node digraph with a self-loop-free root 0 outside two strongly connected
    components {1,2} and {3,4,5} (row 5 carries a duplicate entry); the hypotheses of
    [break_cycles_directed_correct] hold for the canonical oracle answers and the result (the closing
    edges 2->1 and 5->3 and the self-loop at 5 removed) differs from the input. *)
Example break_cycles_directed_nonvacuous :
  let g := [[1]; [2]; [1; 3]; [4]; [5]; [3; 3; 5]] in
  let comp1 := canon_labels g true in
  let comp2 := canon_labels (drop_loops g) true in
  wf_graph g /\ resolve_directed g None = Ok true /\
  components_contract g true comp1 /\ components_contract (drop_loops g) true comp2 /\
  comp2 = [0; 1; 1; 3; 3; 3] /\
  break_cycles bc_und_visits_other_components g [0] None comp1 comp2 = Ok [[1]; [2]; [3]; [4]; [5]; []].
Proof.
  cbv zeta. split; [apply wf_b_sound; vm_compute; reflexivity|]. split; [vm_compute; reflexivity|].
  split; [apply components_contract_b_sound; [discriminate | vm_compute; reflexivity]|].
  split; [apply components_contract_b_sound; [discriminate | vm_compute; reflexivity]|].
  split; vm_compute; reflexivity.
Qed.

(** Undirected branch ([directed=False], or inferred on a symmetric pattern), for EVERY symmetric graph
    with canonical rows (no duplicate column index; self-loops allowed), every root list and every oracle
    answer satisfying the contract of [connected_components] (connected components of the input for the
    call inside is_acyclic, of the matrix without self-loops for the call inside break_cycles): the depth
    budget is never exhausted, and whatever is returned
    (a) has the nodes of the input, only edges of the input, no self-loop, and a symmetric pattern,
    (b) contains no simple cycle on >= 3 nodes that a start node of the traversal reaches in the input;
        the start nodes are [ustarts vo comp2 root]: the roots, followed — when the code visits the
        components without root ([vo = true]; the extracted value is [bc_und_visits_other_components]) — by
        one node of every other component; with [vo = true] NO cycle is left at all,
    (c) joins every two nodes that are joined in the input (in particular everything reachable from the
        roots stays reachable from the roots). *)
Theorem break_cycles_undirected_correct
        (vo : bool) (g : graph) (root : list nat) (directed : option bool) (comp1 comp2 : list nat) :
  wf_graph g -> (forall u, NoDup (row g u)) ->
  resolve_directed g directed = Ok false ->
  components_contract g false comp1 ->
  components_contract (drop_loops g) false comp2 ->
  break_cycles vo g root directed comp1 comp2 <> Err OutOfFuel /\
  forall h, break_cycles vo g root directed comp1 comp2 = Ok h ->
    length h = length g /\
    (forall u v, edge h u v -> edge g u v /\ u <> v) /\
    (forall u v, edge h u v -> edge h v u) /\
    (forall c s, ucycle h c -> In s (ustarts vo comp2 root) -> ~ reach (edge g) s (hd 0 c)) /\
    (vo = true -> forall c, ~ ucycle h c) /\
    (forall a b, reach (edge g) a b -> reach (edge h) a b).
Proof.
  exact (fun Hwf Hrows Hres Hc1 Hc2 =>
           break_cycles_undirected_correct_lemma vo g root directed comp1 comp2 Hwf Hres
             (is_acyclic_undirected_sound g directed comp1 Hwf Hrows Hc1 Hres) Hc2).
Qed.
Print Assumptions break_cycles_undirected_correct.

Theorem break_cycles_undirected_total
        (vo : bool) (g : graph) (root : list nat) (directed : option bool) (comp1 comp2 : list nat) :
  wf_graph g -> resolve_directed g directed = Ok false -> length comp2 = length g ->
  (forall r, In r root -> r < length g) -> 0 < out_degree g root ->
  exists h, break_cycles vo g root directed comp1 comp2 = Ok h.
Proof. exact (break_cycles_undirected_total_lemma vo g root directed comp1 comp2). Qed.
Print Assumptions break_cycles_undirected_total.

(** Non-vacuity: 7 nodes, a triangle {0,1,2} with a pendant node 6 carrying a self-loop, and a second
    triangle {3,4,5} without root; the hypotheses of [break_cycles_undirected_correct] hold for the
    canonical oracle answers; with the components without root visited one edge of each triangle (and
    the self-loop) is removed, without them the second triangle survives. *)
Example break_cycles_undirected_nonvacuous :
  let g := [[1; 2]; [0; 2]; [0; 1; 6]; [4; 5]; [3; 5]; [3; 4]; [2; 6]] in
  let comp1 := canon_labels g false in
  let comp2 := canon_labels (drop_loops g) false in
  wf_graph g /\ (forall u, NoDup (row g u)) /\ resolve_directed g None = Ok false /\
  components_contract g false comp1 /\ components_contract (drop_loops g) false comp2 /\
  ustarts true comp2 [0] = [0; 3] /\
  break_cycles true g [0] None comp1 comp2 = Ok [[2]; [2]; [0; 1; 6]; [5]; [5]; [3; 4]; [2]] /\
  break_cycles false g [0] None comp1 comp2 = Ok [[2]; [2]; [0; 1; 6]; [4; 5]; [3; 5]; [3; 4]; [2]].
Proof.
  cbv zeta.
  assert (Hwf : wf_graph [[1; 2]; [0; 2]; [0; 1; 6]; [4; 5]; [3; 5]; [3; 4]; [2; 6]])
    by (apply wf_b_sound; vm_compute; reflexivity).
  split; [exact Hwf|]. split.
  { intros u. do 7 (destruct u as [|u]; [unfold row; cbn [nth]; repeat constructor; simpl; intuition lia|]).
    unfold row. rewrite nth_overflow by (simpl; lia). constructor. }
  split; [vm_compute; reflexivity|].
  split; [apply components_contract_b_sound; [intros _; exact Hwf | vm_compute; reflexivity]|].
  split; [apply components_contract_b_sound; [intros _; apply (wf_sub _ _ Hwf), drop_loops_sub | vm_compute; reflexivity]|].
  split; [vm_compute; reflexivity|]. split; vm_compute; reflexivity.
Qed.
