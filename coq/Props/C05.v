(** C05 — Every clustering is a well-formed partition with consistent secondary outputs.
    This file contains statements of the property, each proved right under it - by [exact] of a lemma of Proofs/, by a
    script over such lemmas, or (the regression witness) by evaluation on a witness - and followed by its
    [Print Assumptions]; and non-vacuity examples.
    Items 1-7: Model/Clustering.v (everything AROUND the optimisers; the kernels are C06's).  Item 8: the label step of
    Leiden's aggregation (Model/Leiden.v, Proofs/LeidenProofs.v).  Last part: the secondary-output expressions
    regenerated from clustering/base.py (Gen/NpSecondary.v), over R. *)
From Coq Require Import Permutation Sorted QArith.
From SKN Require Import Base.Util Model.Clustering Proofs.ClusteringProofs.

(** 1. postprocess.reindex_labels, for ANY answer of np.argsort that is a permutation sorting the
    negated counts (the default sort kind is not stable: ties between equal-size clusters are the
    oracle's): same partition as the input, labels exactly 0..k-1, sizes non-increasing in the label. *)
Theorem reindex_labels_spec (argsort : list Z -> list nat) (labels : list Z) :
  (let keys := map (fun c => (- Z.of_nat c)%Z) (unique_counts labels) in argsort_ok keys (argsort keys)) ->
  let out := reindex_labels argsort labels in
  let k := length (nodup Z.eq_dec labels) in
  length out = length labels /\
  (forall i j, i < length labels -> j < length labels ->
               (nthn out i = nthn out j <-> nthz labels i = nthz labels j)) /\
  (forall c, In c out <-> c < k) /\
  (forall a b, a <= b -> b < k -> count_occ Nat.eq_dec out b <= count_occ Nat.eq_dec out a).
Proof. exact (reindex_labels_spec_pf argsort labels). Qed.
Print Assumptions reindex_labels_spec.

(** 2. The compaction [np.unique(labels, return_inverse=True)[1]] (Louvain / Leiden levels,
    PropagationClustering): labels exactly 0..k-1, same partition. *)
Theorem unique_inverse_contiguous (labels : list Z) :
  let out := snd (unique_inverse labels) in
  let k := length (nodup Z.eq_dec labels) in
  length out = length labels /\
  (forall i j, i < length labels -> j < length labels ->
               (nthn out i = nthn out j <-> nthz labels i = nthz labels j)) /\
  (forall c, In c out <-> c < k).
Proof. exact (unique_inverse_contiguous_pf labels). Qed.
Print Assumptions unique_inverse_contiguous.

(** 3. Un-shuffling: node i of the shuffled graph is node index[i] of the input
    ([adjacency[index][:, index]]); the reported label of index[i] is the label computed for i.
    The output is a rearrangement of the computed labels (sizes and label set unchanged). *)
Theorem unshuffle_correct (index labels : list nat) :
  let n := length labels in
  Permutation index (seq 0 n) ->
  let out := unshuffle index labels in
  length out = n /\
  (forall i, i < n -> nthn out (nthn index i) = nthn labels i) /\
  Permutation out labels.
Proof. exact (unshuffle_correct_pf index labels). Qed.
Print Assumptions unshuffle_correct.

(** 3'. Louvain._post_processing as a whole (sort, then un-shuffle), for every flag combination:
    the reported labels induce the computed partition (read through the shuffle), use exactly
    0..k-1, and with sort_clusters the sizes are non-increasing in the label — also after un-shuffling. *)
Theorem post_processing_spec argsort (sort_clusters shuffle_nodes : bool) (index raw : list nat) :
  (sort_clusters = true ->
   let keys := map (fun c => (- Z.of_nat c)%Z) (unique_counts (map Z.of_nat raw)) in
   argsort_ok keys (argsort keys)) ->
  (shuffle_nodes = true -> Permutation index (seq 0 (length raw))) ->
  (sort_clusters = false -> exists k0, forall c, In c raw <-> c < k0) ->
  let n := length raw in
  let out := post_processing argsort sort_clusters shuffle_nodes index raw in
  let img i := if shuffle_nodes then nthn index i else i in
  length out = n /\
  (forall i j, i < n -> j < n -> (nthn out (img i) = nthn out (img j) <-> nthn raw i = nthn raw j)) /\
  exists k, (forall c, In c out <-> c < k) /\
            (sort_clusters = true ->
             forall a b, a <= b -> b < k -> count_occ Nat.eq_dec out b <= count_occ Nat.eq_dec out a).
Proof.
  intros Hsort Hshuf Hcontig.
  destruct (post_processing_pf argsort sort_clusters shuffle_nodes index raw Hsort Hshuf Hcontig) as [HL [HP [HC HS]]].
  split; [exact HL|]. split; [exact HP|]. eexists. split; [exact HC | exact HS].
Qed.
Print Assumptions post_processing_spec.

(** 4. [membership = membership.dot(get_membership(labels))] level after level, then
    [membership.indices]: exactly one label per original node, the one obtained by following the
    levels; it is below the final number of clusters. *)
Theorem membership_composition_is_partition (n : nat) (levels : list (list Z)) (k : nat) (M : mat) :
  (forall lab, In lab levels -> forall l, In l lab -> (0 <= l)%Z) ->
  louvain_membership n levels = Ok (k, M) ->
  let labels := indices_of k M in
  labels = map (compose_fn levels) (seq 0 n) /\
  length labels = n /\
  forall v, v < n -> nthn labels v = compose_fn levels v /\ nthn labels v < k.
Proof.
  intros Hpos H labels. unfold louvain_membership in H.
  assert (Hoh := compose_levels_oh n levels n (identity n) (fun v => v) k M (oh_identity n) Hpos H).
  assert (E : labels = map (compose_fn levels) (seq 0 n)) by (apply (indices_of_oh n k M _ Hoh)).
  split; [exact E|]. split; [rewrite E, map_length, seq_length; reflexivity|].
  intros v Hv. rewrite E. unfold nthn. rewrite nth_map_seq by exact Hv. split; [reflexivity|].
  destruct Hoh as [_ [Hf _]]. apply (Hf v Hv).
Qed.
Print Assumptions membership_composition_is_partition.

(** 5. probs_ = normalize(A . membership): every row is non-negative and sums to 1, or to 0 exactly
    when the node has no outgoing weight (non-negative weights, labels >= 0). *)
Theorem probs_rows_sum (A : mat) (labels : list Z) (k : nat) (P G : mat) :
  secondary A labels = Ok (k, P, G) ->
  let n := length labels in
  (forall i j, i < n -> j < n -> (0 <= ent A i j)%Q) ->
  (forall l, In l labels -> (0 <= l)%Z) ->
  forall i, i < n ->
    (forall c, c < k -> (0 <= ent P i c)%Q) /\
    ((0 < row_sum n A i)%Q -> (row_sum k P i == 1)%Q) /\
    ((row_sum k P i == 0)%Q <-> (row_sum n A i == 0)%Q).
Proof.
  intros Hsec n HA Hl i Hi. destruct (secondary_ok A labels k P G Hsec) as [Hlt [EP _]]. rewrite EP.
  apply probs_core; [apply labels_in_range; assumption | intros j Hj; apply HA; assumption | exact Hi].
Qed.
Print Assumptions probs_rows_sum.

(** 5'. Bipartite: probs_row_ = normalize(B . M_col), probs_col_ = normalize(B^T . M_row). *)
Theorem probs_rows_sum_bipartite (B : mat) (lrow lcol : list Z) (k : nat) (Pr Pc G : mat) :
  secondary_bip B lrow lcol = Ok (k, Pr, Pc, G) ->
  let nr := length lrow in
  let nc := length lcol in
  (forall i j, i < nr -> j < nc -> (0 <= ent B i j)%Q) ->
  (forall l, In l lrow -> (0 <= l)%Z) -> (forall l, In l lcol -> (0 <= l)%Z) ->
  (forall i, i < nr ->
     (forall c, c < k -> (0 <= ent Pr i c)%Q) /\
     ((0 < row_sum nc B i)%Q -> (row_sum k Pr i == 1)%Q) /\
     ((row_sum k Pr i == 0)%Q <-> (row_sum nc B i == 0)%Q)) /\
  (forall j, j < nc ->
     (forall c, c < k -> (0 <= ent Pc j c)%Q) /\
     ((0 < row_sum nr (mtrans nr nc B) j)%Q -> (row_sum k Pc j == 1)%Q) /\
     ((row_sum k Pc j == 0)%Q <-> (row_sum nr (mtrans nr nc B) j == 0)%Q)).
Proof.
  intros Hsec nr nc HB Hr Hc.
  destruct (secondary_bip_ok B lrow lcol k Pr Pc G Hsec) as [Hr1 [Hc1 [EPr [EPc _]]]]. rewrite EPr, EPc. split.
  - intros i Hi. apply probs_core; [apply labels_in_range; assumption | intros j Hj; apply HB; assumption | exact Hi].
  - intros j Hj. apply probs_core; [apply labels_in_range; assumption | | exact Hj].
    intros i Hi. rewrite ent_mtrans by assumption. apply HB; assumption.
Qed.
Print Assumptions probs_rows_sum_bipartite.

(** 6. aggregate_ = M^T (A M): entry (a,b) is the sum of A_ij over i in cluster a, j in cluster b
    (any weights, any labels: negative labels belong to no cluster)... *)
Theorem aggregate_is_block_sum (A : mat) (labels : list Z) (k : nat) (P G : mat) :
  secondary A labels = Ok (k, P, G) ->
  let n := length labels in
  forall a b, a < k -> b < k -> (ent G a b == block_sum n n A (nthz labels) (nthz labels) a b)%Q.
Proof.
  intros Hsec n a b Ha Hb. rewrite (proj2 (proj2 (secondary_ok A labels k P G Hsec))).
  apply block_sum_right; assumption.
Qed.
Print Assumptions aggregate_is_block_sum.

(** ... and its total is the total edge weight when every node has a cluster. *)
Theorem aggregate_total_preserved (A : mat) (labels : list Z) (k : nat) (P G : mat) :
  secondary A labels = Ok (k, P, G) ->
  let n := length labels in
  (forall l, In l labels -> (0 <= l)%Z) ->
  (total k k G == total n n A)%Q.
Proof.
  intros Hsec n Hl. destruct (secondary_ok A labels k P G Hsec) as [Hlt [_ EG]]. rewrite EG.
  assert (Hr := labels_in_range labels k Hl Hlt).
  rewrite total_mtrans_onehot by exact Hr.
  apply total_ext. intros i Hi. apply row_sum_mmul_onehot; assumption.
Qed.
Print Assumptions aggregate_total_preserved.

(** 6'. Bipartite: aggregate_ = (M_row^T B) M_col with one label space for rows and columns. *)
Theorem aggregate_bipartite (B : mat) (lrow lcol : list Z) (k : nat) (Pr Pc G : mat) :
  secondary_bip B lrow lcol = Ok (k, Pr, Pc, G) ->
  let nr := length lrow in
  let nc := length lcol in
  (forall a b, a < k -> b < k -> (ent G a b == block_sum nr nc B (nthz lrow) (nthz lcol) a b)%Q) /\
  ((forall l, In l lrow -> (0 <= l)%Z) -> (forall l, In l lcol -> (0 <= l)%Z) ->
   (total k k G == total nr nc B)%Q).
Proof.
  intros Hsec nr nc. destruct (secondary_bip_ok B lrow lcol k Pr Pc G Hsec) as [Hr1 [Hc1 [_ [_ EG]]]]. rewrite EG. split.
  - intros a b Ha Hb. apply block_sum_left; assumption.
  - intros Hr Hc.
    rewrite <- (total_mtrans_onehot nr k nc B (nthz lrow)) by (apply labels_in_range; assumption).
    apply total_ext. intros a Ha. apply row_sum_mmul_onehot; [apply labels_in_range; assumption | exact Ha].
Qed.
Print Assumptions aggregate_bipartite.

(** _split_vars: one label per row and per column; the union of the two label sets is the label set
    of the stacked vector (so rows and columns share 0..k-1, each side alone may skip labels). *)
Theorem split_vars_spec (n_row n_col : nat) (labels : list nat) :
  length labels = n_row + n_col ->
  let r := fst (split_vars n_row labels) in
  let c := snd (split_vars n_row labels) in
  length r = n_row /\ length c = n_col /\ r ++ c = labels /\
  (forall x, In x labels <-> In x r \/ In x c).
Proof.
  intros H r c. unfold r, c, split_vars. cbn [fst snd].
  split; [rewrite firstn_length; lia|]. split; [rewrite skipn_length; lia|].
  split; [apply firstn_skipn|]. intros x. rewrite <- (firstn_skipn n_row labels) at 1. apply in_app_iff.
Qed.
Print Assumptions split_vars_spec.

(** PropagationClustering after Propagation.fit: compaction, then reindex_labels when sort_clusters
    is set, then the split: same partition, labels exactly 0..k-1, and with
    sort_clusters sizes non-increasing in the label. *)
Theorem propagation_labels_spec argsort (sort_clusters bipartite : bool) (n_row : nat) (raw : list Z) :
  (sort_clusters = true ->
   let keys := map (fun c => (- Z.of_nat c)%Z) (unique_counts (map Z.of_nat (snd (unique_inverse raw)))) in
   argsort_ok keys (argsort keys)) ->
  let all := propagation_all argsort sort_clusters raw in
  let k := length (nodup Z.eq_dec raw) in
  length all = length raw /\
  (forall i j, i < length raw -> j < length raw -> (nthn all i = nthn all j <-> nthz raw i = nthz raw j)) /\
  (forall c, In c all <-> c < k) /\
  (sort_clusters = true ->
   forall a b, a <= b -> b < k -> count_occ Nat.eq_dec all b <= count_occ Nat.eq_dec all a) /\
  propagation_labels argsort sort_clusters bipartite n_row raw =
    if bipartite then (firstn n_row all, Some (firstn n_row all, skipn n_row all)) else (all, None).
Proof.
  intros Hsort all k. destruct (unique_inverse_contiguous_pf raw) as [H1 [H2 H3]]. fold k in H3.
  set (compact := snd (unique_inverse raw)) in *.
  (* the relabelling is _post_processing without shuffling, applied to the compacted labels *)
  destruct (post_processing_pf argsort sort_clusters false [] compact Hsort ltac:(discriminate) (fun _ => ex_intro _ k H3))
    as [HL [HP [HC HS]]].
  rewrite (nodup_len_contig compact k H3) in HC, HS. rewrite H1 in HL, HP.
  split; [exact HL|]. split; [intros i j Hi Hj; rewrite <- (H2 i j Hi Hj); apply HP; assumption|].
  split; [exact HC|]. split; [exact HS|].
  unfold propagation_labels, split_vars. fold all. destruct bipartite; reflexivity.
Qed.
Print Assumptions propagation_labels_spec.

(** Regression witness: [legacy_propagation_labels] (Model/Clustering.v) models a fit that does not read
    sort_clusters (the source before commit 350bc655); on raw = [0; 0; 2; 2; 2] with sort_clusters = true its labels
    are not in non-increasing size order. *)
Theorem legacy_propagation_sort_clusters_refuted :
  exists raw : list Z,
    let out := fst (legacy_propagation_labels true false 0 raw) in
    ~ (forall a b, a <= b -> b < 2 -> count_occ Nat.eq_dec out b <= count_occ Nat.eq_dec out a).
Proof.
  exists [0; 0; 2; 2; 2]%Z. intros out H. specialize (H 0 1 ltac:(lia) ltac:(lia)).
  vm_compute in H. lia.
Qed.
Print Assumptions legacy_propagation_sort_clusters_refuted.

(** 7. KCenters, for EVERY random-choice stream within np.random.choice's contract (the draw is an
    element of the array it is given), every PageRank answer, every classifier score matrix and every
    modularity value: n_clusters distinct admissible centers; one label below n_clusters per node
    (per row and per column when bipartite); row / column centers as reported. *)
Theorem kcenters_centers_distinct_admissible
        bipartite pos n_row n_col k n_init max_iter ppr pick scores modularity out :
  (forall r, pick_ok (pick r)) ->
  kcenters_fit bipartite pos n_row n_col k n_init max_iter ppr pick scores modularity = Ok out ->
  length (kc_centers out) = k /\ NoDup (kc_centers out) /\
  (forall c, In c (kc_centers out) -> admissible bipartite pos n_row n_col c) /\
  (kc_centers_row out, kc_centers_col out) = report_centers bipartite pos n_row (kc_centers out).
Proof.
  exact (fun Hp H => proj1 (kcenters_fit_spec bipartite pos n_row n_col k n_init max_iter ppr pick scores modularity out Hp H)).
Qed.
Print Assumptions kcenters_centers_distinct_admissible.

Theorem kcenters_labels_below_k
        bipartite pos n_row n_col k n_init max_iter ppr pick scores modularity out :
  (forall r, pick_ok (pick r)) ->
  kcenters_fit bipartite pos n_row n_col k n_init max_iter ppr pick scores modularity = Ok out ->
  let n := if bipartite then n_row + n_col else n_row in
  exists lab, (length lab = n /\ forall l, In l lab -> (0 <= l < Z.of_nat k)%Z) /\
    if bipartite then kc_labels out = firstn n_row lab /\ kc_labels_row out = Some (firstn n_row lab) /\
                      kc_labels_col out = Some (skipn n_row lab)
    else kc_labels out = lab /\ kc_labels_row out = None /\ kc_labels_col out = None.
Proof.
  exact (fun Hp H => proj2 (kcenters_fit_spec bipartite pos n_row n_col k n_init max_iter ppr pick scores modularity out Hp H)).
Qed.
Print Assumptions kcenters_labels_below_k.

(** Reported centers_row_ / centers_col_ of a bipartite graph: distinct, in range, and together they
    are exactly the centers (columns re-based at 0). *)
Theorem kcenters_reported_centers pos n_row n_col centers :
  NoDup centers -> (forall c, In c centers -> admissible true pos n_row n_col c) ->
  match report_centers true pos n_row centers with
  | (cr, cc) =>
      let r := match cr with Some r => r | None => [] end in
      let c := match cc with Some c => c | None => [] end in
      NoDup r /\ NoDup c /\ (forall v, In v r -> v < n_row) /\ (forall v, In v c -> v < n_col) /\
      length r + length c = length centers /\
      (forall v, In v centers <-> (In v r /\ v < n_row) \/ (In (v - n_row) c /\ n_row <= v))
  end.
Proof. exact (report_centers_spec pos n_row n_col centers). Qed.
Print Assumptions kcenters_reported_centers.

(** The run-time check applied to every captured np.argsort answer implies the contract used above. *)
Theorem argsort_check_sound keys perm : argsort_ok_b keys perm = true -> argsort_ok keys perm.
Proof.
  unfold argsort_ok_b. intros H. apply andb_true_iff in H. destruct H as [H1 H2].
  split; [apply is_perm_of_range_sound; exact H1 | apply sorted_by_sound; exact H2].
Qed.
Print Assumptions argsort_check_sound.

(** Non-vacuity on a concrete 5-node graph: two clusters {0,1} (edge 0-1, a self-loop on 0) and
    {2,3,4} (a triangle), one edge 1-2 between them, raw labels 7,7,3,3,3. *)
Definition ex_A : mat :=
  [[1;1;0;0;0]; [1;0;1;0;0]; [0;1;0;1;1]; [0;0;1;0;1]; [0;0;1;1;0]]%Q.
Definition ex_raw : list Z := [7; 7; 3; 3; 3]%Z.

Example c05_nonvacuous :
  (* the argsort contract is met by the reference argsort on the keys reindex_labels builds *)
  (let keys := map (fun c => (- Z.of_nat c)%Z) (unique_counts ex_raw) in argsort_ok keys (stable_argsort keys)) /\
  reindex_labels stable_argsort ex_raw = [1; 1; 0; 0; 0] /\
  snd (unique_inverse ex_raw) = [1; 1; 0; 0; 0] /\
  unshuffle [3; 0; 4; 1; 2] [0; 1; 0; 1; 0] = [1; 1; 0; 0; 0] /\
  (match louvain_membership 5 [[0; 0; 1; 2; 2]; [1; 0; 0]]%Z with
   | Ok (k, M) => k = 2 /\ indices_of k M = [1; 1; 0; 0; 0]
   | Err _ => False end) /\
  (match secondary ex_A [1; 1; 0; 0; 0]%Z with
   | Ok (k, P, G) => k = 2 /\ map (map Qred) P = [[0; 1]; [1 # 2; 1 # 2]; [2 # 3; 1 # 3]; [1; 0]; [1; 0]]%Q /\
                     map (map Qred) G = [[6; 1]; [1; 3]]%Q /\ Qred (total 5 5 ex_A) = 11%Q
   | Err _ => False end) /\
  (* KCenters on B = 2 x 3, center_position = "col", 2 clusters, choices = first candidate *)
  pick_ok (fun _ c => hd 0 c) /\
  (match kcenters_fit true PCol 2 3 2 1 20 (fun _ _ => [1; 1; 1; 0; 1]%Q) (fun _ _ c => hd 0 c)
                      (fun _ _ => [[1; 0]; [0; 1]; [1; 0]; [0; 1]; [1; 1]]%Q) (fun _ _ => 0%Q) with
   | Ok out => kc_centers out = [2; 3] /\ kc_centers_col out = Some [0; 1] /\
               kc_labels_row out = Some [0; 1]%Z /\ kc_labels_col out = Some [0; 1; 0]%Z
   | Err _ => False end).
Proof.
  split; [apply argsort_check_sound; vm_compute; reflexivity|].
  split; [vm_compute; reflexivity|]. split; [vm_compute; reflexivity|]. split; [vm_compute; reflexivity|].
  split; [vm_compute; split; reflexivity|].
  split; [vm_compute; repeat split; reflexivity|].
  split.
  - intros s c Hc. destruct c as [|a t]; [contradiction | left; reflexivity].
  - vm_compute. repeat split; reflexivity.
Qed.

(** 8. Leiden._aggregate_refine, the LABEL step (Model/Leiden.v, Proofs/LeidenProofs.v):
      [labels_ = membership_refined.T.tocsr().dot(membership).indices].
    The product has one row per refined cluster; [.indices] is a vector with one entry per refined cluster
    only when every row has exactly one stored entry. Under the contract of the refinement kernel
    (refined clusters are subsets of coarse clusters) and np.unique's compaction (every refined label is
    used: [np_unique_refined_labels_used] below) the coded step is well defined and correct: [out] has
    exactly one entry per refined cluster, entry r is the coarse label shared by ALL the members of r, and
    it is below the number of coarse clusters. *)
From SKN Require Import Model.Leiden Proofs.LeidenProofs.
Set Warnings "-notation-overridden".

Theorem aggregate_refine_labels_correct (labels refined : list Z) (kr kc : nat) (out : list nat) :
  (forall l, In l labels -> (0 <= l)%Z) -> (forall l, In l refined -> (0 <= l)%Z) ->
  let n := length labels in
  (forall x y, x < n -> y < n -> nthz refined x = nthz refined y -> nthz labels x = nthz labels y) ->
  (forall r, r < kr -> In (Z.of_nat r) refined) ->
  aggregate_refine_labels labels refined = Ok (kr, kc, out) ->
  length refined = n /\
  out = map (coarse_label_of labels refined) (seq 0 kr) /\
  length out = kr /\
  (forall v, v < n -> Z.to_nat (nthz refined v) < kr /\
                      nthn out (Z.to_nat (nthz refined v)) = Z.to_nat (nthz labels v)) /\
  (forall r, r < kr -> nthn out r < kc).
Proof. exact (aggregate_refine_labels_correct_pf labels refined kr kc out). Qed.
Print Assumptions aggregate_refine_labels_correct.

(** [labels_refined] is np.unique's inverse index in Leiden.fit: non-negative, every label used. *)
Theorem np_unique_refined_labels_used (raw : list Z) (kr : nat) (Mr : mat) :
  let refined := map Z.of_nat (snd (unique_inverse raw)) in
  get_membership refined None = Ok (kr, Mr) ->
  (forall l, In l refined -> (0 <= l)%Z) /\ (forall r, r < kr -> In (Z.of_nat r) refined).
Proof. exact (np_unique_all_labels_used raw kr Mr). Qed.
Print Assumptions np_unique_refined_labels_used.

(** One label per node across aggregation levels, Leiden case. Following the levels, then
    [labels_refined] (the membership composed when the loop continues) and the coded coarse labels of the
    aggregated nodes, gives the same label as following the levels and then the coarse labels of the
    level itself (the membership composed by the [stop] branch, [labels_original]): the coarse partition
    of the aggregated graph IS the coarse partition of the original nodes. With theorem 4 this is the
    label reported for every original node. *)
Theorem leiden_membership_composition (levels : list (list Z)) (labels refined : list Z) (kr kc : nat)
        (out : list nat) (v : nat) :
  (forall l, In l labels -> (0 <= l)%Z) -> (forall l, In l refined -> (0 <= l)%Z) ->
  let n := length labels in
  (forall x y, x < n -> y < n -> nthz refined x = nthz refined y -> nthz labels x = nthz labels y) ->
  (forall r, r < kr -> In (Z.of_nat r) refined) ->
  aggregate_refine_labels labels refined = Ok (kr, kc, out) ->
  compose_fn levels v < n ->
  compose_fn (levels ++ [refined]) v < kr /\
  compose_fn (levels ++ [refined; map Z.of_nat out]) v = compose_fn (levels ++ [labels]) v.
Proof.
  intros Hl0 Hr0 n Href Honto H Hv.
  destruct (aggregate_refine_labels_correct_pf labels refined kr kc out Hl0 Hr0 Href Honto H)
    as [_ [_ [_ [Hm _]]]].
  destruct (Hm _ Hv) as [Hr E].
  unfold compose_fn in *. rewrite !fold_left_app. cbn [fold_left].
  split; [exact Hr|]. rewrite nthz_map_of_nat_any, Nat2Z.id. exact E.
Qed.
Print Assumptions leiden_membership_composition.

(** Non-vacuity: 6 nodes, coarse labels 1,1,0,0,1,2, refined labels 0,3,1,1,0,2 (four refined clusters
    inside three coarse ones): labels_ = [1; 0; 2; 1] (the value scipy returns). Without the contract
    (refined cluster 0 = {0,1,2} meets the coarse clusters 1 and 0) [.indices] has 5 entries for 3
    aggregated nodes: the hypothesis cannot be dropped. *)
Example c05_leiden_nonvacuous :
  aggregate_refine_labels [1; 1; 0; 0; 1; 2]%Z [0; 3; 1; 1; 0; 2]%Z = Ok (4, 3, [1; 0; 2; 1]) /\
  (forall x y, x < 6 -> y < 6 -> nthz [0; 3; 1; 1; 0; 2]%Z x = nthz [0; 3; 1; 1; 0; 2]%Z y ->
               nthz [1; 1; 0; 0; 1; 2]%Z x = nthz [1; 1; 0; 0; 1; 2]%Z y) /\
  (forall r, r < 4 -> In (Z.of_nat r) [0; 3; 1; 1; 0; 2]%Z) /\
  aggregate_refine_labels [1; 1; 0; 0; 1; 2]%Z [0; 0; 0; 1; 1; 2]%Z = Ok (3, 3, [0; 1; 0; 1; 2]).
Proof.
  split; [vm_compute; reflexivity|]. split; [|split; [|vm_compute; reflexivity]].
  - intros x y Hx Hy.
    do 6 (destruct x as [|x]; [do 6 (destruct y as [|y]; [vm_compute; congruence|]); lia|]). lia.
  - intros r Hr. do 4 (destruct r as [|r]; [vm_compute; tauto|]). lia.
Qed.

(* =========================================================================================== *)
(** * Secondary outputs as REGENERATED FROM sknetwork/clustering/base.py

    [src_secondary_*] (Gen/NpSecondary.v) are the expressions that BaseClustering._secondary_outputs assigns to [probs_],
    [aggregate_] (square case) and to [probs_row_], [probs_col_], [aggregate_] (bipartite case), translated on every run
    by harness/translators/npvec.py into the array language of Model/NpVec.v; [rvdenote] (Proofs/NpVecProofs.v) is its NumPy / SciPy
    semantics over R.  For EVERY non-negative matrix (index function) and every non-negative label vectors: one non-negative row per
    node that sums to 1 (to 0 when the node has no outgoing weight); the aggregate is the sum of the edge weights between
    clusters and its total is the total edge weight. *)
From SKN Require Import Model.NpExpr Model.NpVec Gen.NpSecondary Proofs.NpVecProofs Proofs.NpModularityProofs Proofs.NpSecondaryProofs.
From Coq Require Import Reals Lra.
Local Open Scope R_scope.

Theorem source_secondary_probs (n : nat) (A : nat -> nat -> R) (l : list Z) :
  labels_ok n l -> nonneg_mat n A ->
  exists f, rvdenote (env_sec n A l) src_secondary_probs = Some (WM n (nlab l) f) /\
    forall i, (i < n)%nat ->
      (forall c, (c < nlab l)%nat -> 0 <= f i c) /\
      (0 < rsum n (A i) -> rsum (nlab l) (f i) = 1) /\
      (rsum n (A i) = 0 -> forall c, (c < nlab l)%nat -> f i c = 0).
Proof.
  intros Hok HA. exists (soft n (nlab l) A l). split; [exact (secondary_probs_eval n A l (proj1 Hok))|].
  intros i Hi. apply (soft_rows n n (nlab l) A l i); [exact HA | exact Hok | apply le_n | exact Hi].
Qed.
Print Assumptions source_secondary_probs.

Theorem source_secondary_aggregate (n : nat) (A : nat -> nat -> R) (l : list Z) :
  labels_ok n l ->
  exists f, rvdenote (env_sec n A l) src_secondary_aggregate = Some (WM (nlab l) (nlab l) f) /\
    (forall c d, f c d = rsum n (fun i => rsum n (fun j => NpModularityProofs.ind l i c * A i j * NpModularityProofs.ind l j d))) /\
    rsum (nlab l) (fun c => rsum (nlab l) (f c)) = rsum n (fun i => rsum n (A i)).
Proof.
  intros Hok. pose proof (proj1 Hok) as Hl. subst n. eexists. split; [|split].
  - unfold env_sec, src_secondary_aggregate. rv_eval. reflexivity.
  - intros c d. apply agg_flat.
  - exact (agg_total _ _ (nlab l) A l l Hok (le_n _) Hok (le_n _)).
Qed.
Print Assumptions source_secondary_aggregate.

Theorem source_secondary_probs_row (n1 n2 : nat) (B : nat -> nat -> R) (lr lc : list Z) :
  labels_ok n1 lr -> labels_ok n2 lc -> nonneg_rect n1 n2 B ->
  exists f, rvdenote (env_sec_bip n1 n2 B lr lc) src_secondary_probs_row = Some (WM n1 (nlab2 lr lc) f) /\
    forall i, (i < n1)%nat ->
      (forall c, (c < nlab2 lr lc)%nat -> 0 <= f i c) /\
      (0 < rsum n2 (B i) -> rsum (nlab2 lr lc) (f i) = 1) /\
      (rsum n2 (B i) = 0 -> forall c, (c < nlab2 lr lc)%nat -> f i c = 0).
Proof.
  intros Hr Hc HB. pose proof (proj1 Hr) as H1. pose proof (proj1 Hc) as H2. subst n1 n2. eexists. split.
  - unfold env_sec_bip, src_secondary_probs_row. rv_eval. reflexivity.
  - intros i Hi. apply (soft_rows (List.length lr) _ (nlab2 lr lc) B lc i); [exact HB | exact Hc | apply nlab2_ge_r | exact Hi].
Qed.
Print Assumptions source_secondary_probs_row.

Theorem source_secondary_probs_col (n1 n2 : nat) (B : nat -> nat -> R) (lr lc : list Z) :
  labels_ok n1 lr -> labels_ok n2 lc -> nonneg_rect n1 n2 B ->
  exists f, rvdenote (env_sec_bip n1 n2 B lr lc) src_secondary_probs_col = Some (WM n2 (nlab2 lr lc) f) /\
    forall j, (j < n2)%nat ->
      (forall c, (c < nlab2 lr lc)%nat -> 0 <= f j c) /\
      (0 < rsum n1 (fun i => B i j) -> rsum (nlab2 lr lc) (f j) = 1) /\
      (rsum n1 (fun i => B i j) = 0 -> forall c, (c < nlab2 lr lc)%nat -> f j c = 0).
Proof.
  intros Hr Hc HB. pose proof (proj1 Hr) as H1. pose proof (proj1 Hc) as H2. subst n1 n2. eexists. split.
  - unfold env_sec_bip, src_secondary_probs_col. rv_eval. reflexivity.
  - intros j Hj. apply (soft_rows (List.length lc) _ (nlab2 lr lc) (fun j i => B i j) lr j);
      [intros a b Ha Hb; apply HB; assumption | exact Hr | apply nlab2_ge_l | exact Hj].
Qed.
Print Assumptions source_secondary_probs_col.

Theorem source_secondary_aggregate_bip (n1 n2 : nat) (B : nat -> nat -> R) (lr lc : list Z) :
  labels_ok n1 lr -> labels_ok n2 lc ->
  exists f, rvdenote (env_sec_bip n1 n2 B lr lc) src_secondary_aggregate_bip = Some (WM (nlab2 lr lc) (nlab2 lr lc) f) /\
    (forall c d, f c d = rsum n1 (fun i => rsum n2 (fun j => NpModularityProofs.ind lr i c * B i j * NpModularityProofs.ind lc j d))) /\
    rsum (nlab2 lr lc) (fun c => rsum (nlab2 lr lc) (f c)) = rsum n1 (fun i => rsum n2 (B i)).
Proof.
  intros Hr Hc. pose proof (proj1 Hr) as H1. pose proof (proj1 Hc) as H2. subst n1 n2. eexists. split; [|split].
  - unfold env_sec_bip, src_secondary_aggregate_bip. rv_eval. reflexivity.
  - intros c d. as_lsum. rewrite <- agg_flat. apply agg_other_order.
  - as_lsum.
    rewrite <- (agg_total _ _ (nlab2 lr lc) B lr lc Hr (nlab2_ge_l lr lc) Hc (nlab2_ge_r lr lc)).
    apply lsum_ext. intros c _. apply lsum_ext. intros d _. apply agg_other_order.
Qed.
Print Assumptions source_secondary_aggregate_bip.

Example c05_nonvacuous_source : labels_ok 3 (1 :: 0 :: 1 :: nil)%Z /\ nonneg_mat 3 (fun i j => if Nat.eqb i j then 0 else 1).
Proof.
  split.
  - split; [reflexivity|]. intros [|[|[|i]]] Hi; try lia; cbn; lia.
  - intros i j _ _. destruct (Nat.eqb i j); lra.
Qed.
