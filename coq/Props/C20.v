(** C20 — Drawings are well-formed SVG showing every node and edge once.
    Statements of the property, each proved right under it ([exact] of a lemma of Proofs/XmlProofs.v or
    Proofs/SvgProofs.v, or a script over such lemmas; the obligations over the generated terms of Gen/Sanitise.v and the
    refutation by computation) and followed by its [Print Assumptions]; non-vacuity examples at the end.
    Sections: 1 the sanitiser; 2 soundness of the checker; 3 the templaters and whole graph drawings; 4 counts of
    nodes and edges; 5 dendrograms, with the refutation for a list that [sanitiser_ok] rejects.

    Vocabulary (Model/Xml.v, Model/Svg.v):
    - [wf_document_root root s]: [s] is derivable in the well-formedness grammar of the XML subset
      (one root element with tag [root], attributes double-quoted with pairwise distinct names,
      character data without raw less-than sign, without ampersand other than entity references and
      without the sequence ]]>), optionally surrounded by white space;
    - [safe_field]: a string without less-than sign, ampersand and double quote (numbers and colours
      rendered by Python); names ([t_name], the [text] arguments) are ARBITRARY strings;
    - [sanitise l s]: [s.replace(c1, r1).replace(c2, r2)...] for the pairs of [l] in order;
    - [svg_text_repl], [dendrogram_top_repl], [dendrogram_left_repl]: the replacement lists found in
      svg_text (graphs.py), svg_dendrogram_top and svg_dendrogram_left (dendrograms.py),
      generated from the source on every run (Gen/Sanitise.v). *)
From SKN Require Import Model.Xml Proofs.XmlProofs Model.Svg Proofs.SvgProofs Gen.Sanitise.
From Coq Require Import String Ascii List Bool.
Import ListNotations.
Open Scope string_scope.

(** ** 1. The sanitiser *)

(** For EVERY string [s] and every replacement list accepted by [sanitiser_ok]: the sanitised text
    has no raw less-than sign, every ampersand in it starts an entity reference, and it does not
    contain ]]> — it is character data. *)
Theorem sanitised_text_safe (l : list (ascii * string)) (s : string) :
  sanitiser_ok l = true ->
  no_char "<" (sanitise l s) = true /\ amp_ok (sanitise l s) = true /\ no_cdata_end (sanitise l s) = true.
Proof. exact (SvgProofs.sanitised_text_safe l s). Qed.
Print Assumptions sanitised_text_safe.

(** What [sanitiser_ok] demands includes: the ampersand, the less-than and the greater-than sign
    are among the replaced characters. *)
Theorem sanitiser_ok_replaces (l : list (ascii * string)) :
  sanitiser_ok l = true -> replaces "&" l = true /\ replaces "<" l = true /\ replaces ">" l = true.
Proof.
  intros H. apply sanitiser_ok_from_replaces in H. simpl in H.
  apply andb_true_iff in H as [H H3]. apply andb_true_iff in H as [H1 H2]. now repeat split.
Qed.
Print Assumptions sanitiser_ok_replaces.

(** Obligation over the generated terms: the replacement list of EACH of the three label sites of
    the source is accepted (in particular each replaces both the ampersand and the
    less-than sign, in an order and with replacement strings that cannot re-introduce either). *)
Theorem svg_text_site_ok : sanitiser_ok svg_text_repl = true.
Proof. reflexivity. Qed.
Print Assumptions svg_text_site_ok.

Theorem dendrogram_sites_ok :
  sanitiser_ok dendrogram_top_repl = true /\ sanitiser_ok dendrogram_left_repl = true /\
  replaces "&" dendrogram_top_repl = true /\ replaces "<" dendrogram_top_repl = true /\
  replaces "&" dendrogram_left_repl = true /\ replaces "<" dendrogram_left_repl = true.
Proof. repeat split; reflexivity. Qed.
Print Assumptions dendrogram_sites_ok.

(** ** 2. The checker run on the implementation's strings is sound *)

Theorem wf_check_sound (s : string) : wf_check s = true -> wf_document s.
Proof. exact (XmlProofs.wf_check_sound s). Qed.
Print Assumptions wf_check_sound.

Theorem wf_check_root_sound (root s : string) : wf_check_root root s = true -> wf_document_root root s.
Proof.
  unfold wf_check_root. destruct (parse_document s) as [n|] eqn:E; [|discriminate].
  intros H. apply String.eqb_eq in H. subst n. now apply parse_document_sound.
Qed.
Print Assumptions wf_check_root_sound.

(** ** 3. Every templater yields a well-formed element, for all names and all safe fields *)

(** svg_text with the generated list [svg_text_repl], for every [text] and every [position]. *)
Theorem svg_text_wf (x y text font_size position : string) :
  safe_field x = true -> safe_field y = true -> safe_field font_size = true ->
  wf_elem "text" (svg_text x y text font_size position).
Proof. exact (SvgProofs.svg_text_wf svg_text_repl x y text font_size position svg_text_site_ok). Qed.
Print Assumptions svg_text_wf.

Theorem svg_node_wf (x y size color stroke_width stroke_color : string) :
  safe_field x = true -> safe_field y = true -> safe_field size = true -> safe_field color = true ->
  safe_field stroke_width = true -> safe_field stroke_color = true ->
  exists e, svg_node x y size color stroke_width stroke_color = e ++ nl /\ wf_elem "circle" e.
Proof. exact (SvgProofs.svg_node_wf x y size color stroke_width stroke_color). Qed.
Print Assumptions svg_node_wf.

(** A pie-chart wedge (svg_pie_chart_node emits one per column, or falls back to svg_node). *)
Theorem svg_wedge_wf (x y size stroke_width stroke_color : string) (w : wedge) :
  safe_field x = true -> safe_field y = true -> safe_field size = true ->
  safe_field stroke_width = true -> safe_field stroke_color = true -> wedge_safe w = true ->
  (exists e, svg_wedge x y size stroke_width stroke_color w = e ++ nl /\ wf_elem "path" e) /\
  starts "<path d=" (svg_wedge x y size stroke_width stroke_color w) = true.
Proof. exact (SvgProofs.svg_wedge_wf x y size stroke_width stroke_color w). Qed.
Print Assumptions svg_wedge_wf.

Theorem svg_edge_wf (x1 y1 x2 y2 edge_width edge_color : string) :
  safe_field x1 = true -> safe_field y1 = true -> safe_field x2 = true -> safe_field y2 = true ->
  safe_field edge_width = true -> safe_field edge_color = true ->
  (exists e, svg_edge x1 y1 x2 y2 edge_width edge_color = e ++ nl /\ wf_elem "path" e) /\
  starts "<path stroke-width=" (svg_edge x1 y1 x2 y2 edge_width edge_color) = true.
Proof. exact (SvgProofs.svg_edge_wf x1 y1 x2 y2 edge_width edge_color). Qed.
Print Assumptions svg_edge_wf.

(** svg_edge_directed: one path element when the positions are distinct, nothing otherwise. *)
Theorem svg_edge_directed_wf (x1 y1 x2 y2 edge_width edge_color : string) :
  safe_field x1 = true -> safe_field y1 = true -> safe_field x2 = true -> safe_field y2 = true ->
  safe_field edge_width = true -> safe_field edge_color = true ->
  (exists e, svg_edge_directed true x1 y1 x2 y2 edge_width edge_color = e ++ nl /\ wf_elem "path" e) /\
  starts "<path stroke-width=" (svg_edge_directed true x1 y1 x2 y2 edge_width edge_color) = true /\
  svg_edge_directed false x1 y1 x2 y2 edge_width edge_color = "".
Proof. exact (SvgProofs.svg_edge_directed_wf x1 y1 x2 y2 edge_width edge_color). Qed.
Print Assumptions svg_edge_directed_wf.

(** The arrow-head definition emitted once per edge colour of a directed drawing. *)
Theorem svg_marker_wf (color : string) :
  safe_field color = true -> exists e, svg_marker color = e ++ nl /\ wf_elem "defs" e.
Proof. exact (SvgProofs.svg_marker_wf color). Qed.
Print Assumptions svg_marker_wf.

(** visualize_graph with the generated list [svg_text_repl]: for ALL lists of edges, nodes and names, every option. *)
Theorem svg_graph_wf (width height : string) (display_edges directed : bool) (markers : list string)
        (edges residual : list edge) (nodes : list node) (names : option (list label))
        (font_size name_position : string) :
  safe_field width = true -> safe_field height = true -> safe_field font_size = true ->
  forallb safe_field markers = true -> forallb edge_safe edges = true -> forallb edge_safe residual = true ->
  forallb node_safe nodes = true -> labels_safe names = true ->
  wf_document_root "svg"
    (visualize_graph width height display_edges directed markers edges residual nodes names font_size name_position).
Proof.
  exact (visualize_graph_wf svg_text_repl width height display_edges directed markers edges residual nodes names
                            font_size name_position svg_text_site_ok).
Qed.
Print Assumptions svg_graph_wf.

(** visualize_bigraph with the generated list [svg_text_repl]. *)
Theorem svg_bigraph_wf (width height : string) (display_edges : bool) (edges residual : list edge)
        (nodes_row nodes_col : list node) (names_row names_col : option (list label)) (font_size : string) :
  safe_field width = true -> safe_field height = true -> safe_field font_size = true ->
  forallb edge_safe edges = true -> forallb edge_safe residual = true ->
  forallb node_safe nodes_row = true -> forallb node_safe nodes_col = true ->
  labels_safe names_row = true -> labels_safe names_col = true ->
  wf_document_root "svg"
    (visualize_bigraph width height display_edges edges residual nodes_row nodes_col names_row names_col font_size).
Proof.
  exact (visualize_bigraph_wf svg_text_repl width height display_edges edges residual nodes_row nodes_col
                              names_row names_col font_size svg_text_site_ok).
Qed.
Print Assumptions svg_bigraph_wf.

(** ** 4. Counts: the document is the root tag, the marker definitions, and then exactly one edge
    path per displayed edge (every stored / residual entry of an undirected drawing, those between
    distinct positions of a directed one), one node shape (a circle, or a non-empty group of
    pie-chart wedges) per node, and one text element per name. *)
Theorem svg_counts (width height : string) (display_edges directed : bool) (markers : list string)
        (edges residual : list edge) (nodes : list node) (names : option (list label))
        (font_size name_position : string) :
  safe_field font_size = true ->
  forallb edge_safe edges = true -> forallb edge_safe residual = true ->
  forallb node_safe nodes = true -> labels_safe names = true ->
  exists defs E N T,
    visualize_graph width height display_edges directed markers edges residual nodes names font_size name_position
    = svg_header width height ++ defs ++ sconcat E ++ sconcat N ++ sconcat T ++ "</svg>" ++ nl /\
    defs = (if display_edges && directed then sconcat (map svg_marker markers) else "") /\
    Forall edge_path E /\
    length E = (if display_edges then length (filter (drawn directed) (edges ++ residual)) else 0) /\
    Forall node_shape N /\ length N = length nodes /\
    Forall (wf_elem "text") T /\ length T = n_labels names.
Proof.
  exact (visualize_graph_counts svg_text_repl width height display_edges directed markers edges residual nodes names
                                font_size name_position svg_text_site_ok).
Qed.
Print Assumptions svg_counts.

Theorem svg_bigraph_counts (width height : string) (display_edges : bool) (edges residual : list edge)
        (nodes_row nodes_col : list node) (names_row names_col : option (list label)) (font_size : string) :
  safe_field font_size = true ->
  forallb edge_safe edges = true -> forallb edge_safe residual = true ->
  forallb node_safe nodes_row = true -> forallb node_safe nodes_col = true ->
  labels_safe names_row = true -> labels_safe names_col = true ->
  exists E N T,
    visualize_bigraph width height display_edges edges residual nodes_row nodes_col names_row names_col font_size
    = svg_header2 width height ++ nl ++ sconcat E ++ sconcat N ++ sconcat T ++ "</svg>" ++ nl /\
    Forall edge_path E /\
    length E = (if display_edges then length edges + length residual else 0) /\
    Forall node_shape N /\ length N = length nodes_row + length nodes_col /\
    Forall (wf_elem "text") T /\ length T = n_labels names_row + n_labels names_col.
Proof.
  exact (visualize_bigraph_counts svg_text_repl width height display_edges edges residual nodes_row nodes_col
                                  names_row names_col font_size svg_text_site_ok).
Qed.
Print Assumptions svg_bigraph_counts.

(** The same counts read off the STRING: the number of positions at which a text element, a circle,
    an edge path ([P_edge], the opening of svg_edge / svg_edge_directed) or a pie-chart wedge
    ([P_wedge]) starts, in the whole document, names included (a name can never fake an element:
    it is sanitised). Circles are the nodes drawn by svg_node; every other node is a pie chart
    and contributes its wedges. *)
Theorem svg_counts_on_string (width height : string) (display_edges directed : bool) (markers : list string)
        (edges residual : list edge) (nodes : list node) (names : option (list label))
        (font_size name_position : string) :
  safe_field width = true -> safe_field height = true -> safe_field font_size = true ->
  forallb safe_field markers = true -> forallb edge_safe edges = true -> forallb edge_safe residual = true ->
  forallb node_safe nodes = true -> labels_safe names = true ->
  let doc := visualize_graph width height display_edges directed markers edges residual nodes names
                             font_size name_position in
  count_starts P_text doc = n_labels names /\
  count_starts P_circle doc = length (filter is_circle_node nodes) /\
  count_starts P_edge doc = (if display_edges then length (filter (drawn directed) (edges ++ residual)) else 0) /\
  count_starts P_wedge doc = total_wedges nodes.
Proof.
  exact (visualize_graph_string_counts svg_text_repl width height display_edges directed markers edges residual
           nodes names font_size name_position svg_text_site_ok).
Qed.
Print Assumptions svg_counts_on_string.

Theorem svg_bigraph_counts_on_string (width height : string) (display_edges : bool) (edges residual : list edge)
        (nodes_row nodes_col : list node) (names_row names_col : option (list label)) (font_size : string) :
  safe_field width = true -> safe_field height = true -> safe_field font_size = true ->
  forallb edge_safe edges = true -> forallb edge_safe residual = true ->
  forallb node_safe nodes_row = true -> forallb node_safe nodes_col = true ->
  labels_safe names_row = true -> labels_safe names_col = true ->
  let doc := visualize_bigraph width height display_edges edges residual nodes_row nodes_col names_row names_col
                               font_size in
  count_starts P_text doc = n_labels names_row + n_labels names_col /\
  count_starts P_circle doc = length (filter is_circle_node (nodes_row ++ nodes_col)) /\
  count_starts P_edge doc = (if display_edges then length edges + length residual else 0) /\
  count_starts P_wedge doc = total_wedges nodes_row + total_wedges nodes_col.
Proof.
  exact (visualize_bigraph_string_counts svg_text_repl width height display_edges edges residual nodes_row nodes_col
           names_row names_col font_size svg_text_site_ok).
Qed.
Print Assumptions svg_bigraph_counts_on_string.

(** ** 5. Dendrograms *)

(** For ANY pair of replacement lists: if the list of the site that is used is accepted, the
    dendrogram document is well-formed for all names. *)
Theorem svg_dendrogram_wf_if (repl_top repl_left : list (ascii * string)) (rotate : bool) (width height : string)
        (names : option (list label)) (rotate_names : bool) (font_size line_width : string) (merges : list merge) :
  sanitiser_ok (if rotate then repl_left else repl_top) = true ->
  safe_field width = true -> safe_field height = true -> safe_field font_size = true ->
  safe_field line_width = true -> labels_safe names = true -> forallb merge_safe merges = true ->
  wf_document_root "svg"
    (visualize_dendrogram_with repl_top repl_left rotate width height names rotate_names font_size line_width merges).
Proof.
  exact (visualize_dendrogram_wf repl_top repl_left rotate width height names rotate_names font_size line_width merges).
Qed.
Print Assumptions svg_dendrogram_wf_if.

(** visualize_dendrogram with the two generated lists (both sites, obligation [dendrogram_sites_ok]). *)
Theorem svg_dendrogram_wf (rotate : bool) (width height : string) (names : option (list label))
        (rotate_names : bool) (font_size line_width : string) (merges : list merge) :
  safe_field width = true -> safe_field height = true -> safe_field font_size = true ->
  safe_field line_width = true -> labels_safe names = true -> forallb merge_safe merges = true ->
  wf_document_root "svg"
    (visualize_dendrogram rotate width height names rotate_names font_size line_width merges).
Proof.
  exact (visualize_dendrogram_wf dendrogram_top_repl dendrogram_left_repl rotate width height names rotate_names
           font_size line_width merges
           (if rotate as b return (sanitiser_ok (if b then dendrogram_left_repl else dendrogram_top_repl) = true)
            then proj1 (proj2 dendrogram_sites_ok) else proj1 dendrogram_sites_ok)).
Qed.
Print Assumptions svg_dendrogram_wf.

(** One text element per name, three paths per merge, nothing else. *)
Theorem svg_dendrogram_counts (rotate : bool) (width height : string) (names : option (list label))
        (rotate_names : bool) (font_size line_width : string) (merges : list merge) :
  safe_field font_size = true -> safe_field line_width = true ->
  labels_safe names = true -> forallb merge_safe merges = true ->
  exists T P,
    visualize_dendrogram rotate width height names rotate_names font_size line_width merges
    = svg_header2 width height ++ sconcat T ++ sconcat P ++ "</svg>" /\
    Forall (wf_elem "text") T /\ length T = n_labels names /\
    Forall line_path P /\ length P = 3 * length merges.
Proof.
  exact (visualize_dendrogram_counts dendrogram_top_repl dendrogram_left_repl rotate width height names rotate_names
           font_size line_width merges
           (if rotate as b return (sanitiser_ok (if b then dendrogram_left_repl else dendrogram_top_repl) = true)
            then proj1 (proj2 dendrogram_sites_ok) else proj1 dendrogram_sites_ok)).
Qed.
Print Assumptions svg_dendrogram_counts.

Theorem svg_dendrogram_counts_on_string (rotate : bool) (width height : string) (names : option (list label))
        (rotate_names : bool) (font_size line_width : string) (merges : list merge) :
  safe_field width = true -> safe_field height = true -> safe_field font_size = true ->
  safe_field line_width = true -> labels_safe names = true -> forallb merge_safe merges = true ->
  let doc := visualize_dendrogram rotate width height names rotate_names font_size line_width merges in
  count_starts P_text doc = n_labels names /\ count_starts P_circle doc = 0 /\
  count_starts P_edge doc = 3 * length merges /\ count_starts P_wedge doc = 0.
Proof.
  exact (visualize_dendrogram_string_counts dendrogram_top_repl dendrogram_left_repl rotate width height names
           rotate_names font_size line_width merges
           (if rotate as b return (sanitiser_ok (if b then dendrogram_left_repl else dendrogram_top_repl) = true)
            then proj1 (proj2 dendrogram_sites_ok) else proj1 dendrogram_sites_ok)).
Qed.
Print Assumptions svg_dendrogram_counts_on_string.

(** The hypothesis of [svg_dendrogram_wf_if] is necessary: [legacy_dendrogram_repl] (Proofs/SvgProofs.v) replaces the
    ampersand only and is rejected by [sanitiser_ok]; with it a name containing a less-than sign yields a document
    ([refuting_dendrogram]) that is not well-formed — every field safe. *)
Theorem svg_dendrogram_wf_refuted :
  sanitiser_ok legacy_dendrogram_repl = false /\
  forall rotate, ~ wf_document (refuting_dendrogram rotate).
Proof.
  split; [reflexivity|]. intros rotate H. apply wf_document_lt_ok in H.
  destruct rotate; vm_compute in H; discriminate.
Qed.
Print Assumptions svg_dendrogram_wf_refuted.

(** ** Non-vacuity *)

(** A directed drawing with a marker, an edge between coinciding positions (not drawn), a disk, a
    pie chart, and names made of XML-special and non-ASCII characters: the hypotheses of
    [svg_graph_wf] hold, the document passes the checker, and the sanitiser acts as in the code. *)
Example c20_nonvacuous :
  let e1 := {| e_x1 := "20"; e_y1 := "320"; e_x2 := "153"; e_y2 := "79"; e_width := "1"; e_color := "gray"; e_distinct := true |} in
  let e2 := {| e_x1 := "20"; e_y1 := "320"; e_x2 := "20"; e_y2 := "320"; e_width := "1"; e_color := "gray"; e_distinct := false |} in
  let w := {| w_x0 := "27.0"; w_y0 := "320.0"; w_large := "0"; w_x1 := "13.0"; w_y1 := "320.0"; w_color := "blue" |} in
  let n1 := {| n_xi := "20"; n_yi := "320"; n_x := "20.0"; n_y := "320.0"; n_size := "7.0"; n_width := "1.0"; n_shape := Disk "rgb(58, 76, 192)" |} in
  let n2 := {| n_xi := "153"; n_yi := "79"; n_x := "153.3"; n_y := "79.9"; n_size := "7.0"; n_width := "3.0"; n_shape := Pie false [w; w] |} in
  let names := Some [ {| t_x := "30"; t_y := "320"; t_name := "a<b & ""c"" ]]>" |};
                      {| t_x := "163"; t_y := "79"; t_name := "é中😀'" |} ] in
  let doc := visualize_graph "476.0" "340" true true ["gray"] [e1; e2] [] [n1; n2] names "12" "above" in
  forallb edge_safe [e1; e2] = true /\ forallb node_safe [n1; n2] = true /\ labels_safe names = true /\
  wf_check_root "svg" doc = true /\
  length (filter (drawn true) [e1; e2]) = 1 /\
  (count_starts P_text doc, count_starts P_circle doc, count_starts P_edge doc, count_starts P_wedge doc) = (2, 1, 1, 2) /\
  sanitise svg_text_repl "a<b & ""c"" ]]>" = "a b   ""c"" ]] ".
Proof. vm_compute. repeat split; reflexivity. Qed.
