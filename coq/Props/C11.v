(** C11 — Triangle, clique and core computations are exact, sequential or parallel.
    Statements of the property, each proved right under it ([exact] of a lemma of Proofs/, or a script over such lemmas; the
    obligations over the generated description of triangles.pyx by evaluation) and followed by its [Print Assumptions].
    Parts: triangles (two-pointer loop, prange reduction, the obligations, count_triangles); core decomposition by peeling
    (L1); clustering coefficient; cliques as a functional recursion (L1); MinHeap under its invariant; non-vacuity; then
    two sections at the array level (L0): MinHeap and compute_core, and the ListingBox kernel of cliques.pyx, each with
    its non-vacuity example.
    Models: Model/Topology.v (triangles.pyx, cliques.pyx, core.pyx, minheap.pyx, directed2undirected),
    Model/Bfs.v (get_dag). *)
From Coq Require Import String.
From SKN Require Import Base.Util Model.Bfs Model.Topology Proofs.BfsProofs Proofs.TopologyProofs Gen.TrianglesPrange.
From Coq Require Import Permutation Sorted.

(** The two-pointer loop of count_local_triangles_from_dag (advance both on [==] and count, advance i on
    [<], else j; fuel len1 + len2 is enough) returns |l1 /\ l2| on strictly sorted lists. *)
Theorem merge_loop_correct (fuel : nat) (l1 l2 : list nat) :
  StronglySorted lt l1 -> StronglySorted lt l2 -> length l1 + length l2 <= fuel ->
  merge_count fuel l1 l2 = length (filter (fun x => memn x l2) l1).
Proof. exact (merge_count_inter fuel l1 l2). Qed.
Print Assumptions merge_loop_correct.

(** Hence the per-node count is the sum over the out-neighbours v of u of |N+(u) /\ N+(v)|. *)
Theorem count_local_correct (d : graph) (u : nat) :
  (forall v, StronglySorted lt (row d v)) ->
  count_local d u =
  sumn (map (fun v => length (filter (fun x => memn x (row d v)) (row d u))) (row d u)).
Proof. exact (TopologyProofs.count_local_correct d u). Qed.
Print Assumptions count_local_correct.

(** The prange loop only adds per-node results into a [+=] reduction: whatever iterations each thread
    runs and in whatever order (any partition of the node range into per-thread sequences), the total
    equals the sequential sum. *)
Theorem count_triangles_schedule_independent (d : graph) (sched : list (list nat)) :
  Permutation (concat sched) (seq 0 (length d)) ->
  count_triangles_sched d sched = count_triangles_from_dag d.
Proof. exact (TopologyProofs.count_triangles_schedule_independent d sched). Qed.
Print Assumptions count_triangles_schedule_independent.

(** Obligation over the generated description of triangles.pyx (Gen/TrianglesPrange.v, re-extracted from the
    source on every run): there is exactly one prange loop, its body performs no subscripted assignment,
    its only augmented assignment is the scalar reduction [n_triangles +=], it calls only
    count_local_triangles_from_dag, which is [nogil] and performs no subscripted assignment either. *)
Theorem triangles_prange_no_shared_write :
  List.length triangles_prange_loops = 1 /\
  (forall l, In l triangles_prange_loops ->
     pl_writes l = [] /\ pl_reductions l = [("n_triangles", "+")]%string /\ pl_private l = [] /\
     pl_calls l = ["count_local_triangles_from_dag"%string]) /\
  triangles_callee_writes = [] /\ triangles_callee_nogil = true.
Proof.
  split; [reflexivity|]. split; [|split; reflexivity].
  intros l [<-|[]]. repeat split; reflexivity.
Qed.
Print Assumptions triangles_prange_no_shared_write.

(** Front ends, re-extracted from triangles.pyx on every run: count_triangles orients the SYMMETRISED matrix with get_dag's
    default order (the node index - a total order, which is what [count_triangles_exact] needs; an order computed in a
    fixed-width integer type can wrap for large graphs), and get_clustering_coefficient counts the connected triples from the
    degrees of the symmetrised matrix in 64-bit integers (DESIGN.md D37). *)
Theorem triangles_front_ends :
  triangles_dag_sources = ["get_dag(directed2undirected(adjacency))"]%string /\
  coefficient_degree_sources = ["get_degrees(directed2undirected(adjacency)).astype(`int64`)"; "degrees[degrees>1]"]%string.
Proof. split; reflexivity. Qed.
Print Assumptions triangles_front_ends.

(** count_triangles (= count_triangles_from_dag (get_dag (directed2undirected A))) equals the number of
    triples a < b < c that are pairwise adjacent in the undirected graph of A, for every pattern A
    (directed input, self-loops and duplicate entries included: "the graph is considered undirected"). *)
Theorem count_triangles_exact (g : graph) :
  count_triangles g = triangles_spec (adjb g) (length g).
Proof. exact (TopologyProofs.count_triangles_exact g). Qed.
Print Assumptions count_triangles_exact.

(** Core decomposition, level L1 (remove SOME node of minimum remaining degree, label it with the
    running maximum of the degrees at removal time): for EVERY admissible removal sequence the labels
    are the core numbers — [core_number g v k]: v lies in a set whose members all have >= k neighbours
    inside the set, and in no such set for a larger k. (No hypothesis on g is needed at this level;
    symmetry is what makes the L0 degree array equal the remaining degree. L0 = MinHeap + compute_core
    as coded is tied to this level by [compute_core_refines_peel] / [compute_core_exact] in the section "MinHeap and
    compute_core at the array level" below.) *)
Theorem peel_is_core_number (g : graph) (choice labels : list nat) :
  peel g choice = Some labels ->
  List.length labels = List.length g /\
  forall v, v < List.length g -> core_number g v (nthn labels v).
Proof. exact (TopologyProofs.peel_is_core_number g choice labels). Qed.
Print Assumptions peel_is_core_number.

(** get_clustering_coefficient = 3 T / (sum_{v : d_v > 1} d_v (d_v - 1) / 2) over Q, with T the number
    of triangles and d_v the number of neighbours of v in the undirected graph; undefined (the code
    returns nan) exactly when there is no connected triple. *)
Theorem clustering_coefficient_def (g : graph) :
  match clustering_coefficient g with
  | Some q => triples_spec2 (adjb g) (List.length g) <> 0 /\
              (q == clustering_spec (adjb g) (List.length g))%Q
  | None => triples_spec2 (adjb g) (List.length g) = 0
  end.
Proof. exact (TopologyProofs.clustering_coefficient_def g). Qed.
Print Assumptions clustering_coefficient_def.

(** The denominator of the coefficient counts connected triples: the sum over the nodes of degree > 1
    of d_v (d_v - 1) is twice the number of paths b - v - c with b < c; hence the coefficient is
    3 T / #connected triples. *)
Theorem connected_triples_spec (adj : nat -> nat -> bool) (n : nat) :
  2 * connected_triples adj n = triples_spec2 adj n.
Proof.
  unfold connected_triples, all_triples, triples_spec2.
  rewrite length_filter_flat_map, sumn_map_mul. apply sumn_map_ext_in. intros v _.
  rewrite length_filter_flat_map.
  rewrite (sumn_map_ext_in _ (fun b => sumn (map (fun c => b2n (Nat.ltb b c && adj v b && adj v c)) (seq 0 n)))).
  2:{ intros b _. rewrite filter_map_comm, map_length, length_filter_sum. reflexivity. }
  rewrite pairs_sorted by apply sorted_seq.
  cbv zeta. unfold degree_spec.
  destruct (length (filter (adj v) (seq 0 n))) as [|[|d]]; reflexivity.
Qed.
Print Assumptions connected_triples_spec.

(** Cliques, level L1 (count k S = sum_{u in S} count (k-1) (N+(u) /\ S), base case k = 2 as coded):
    on any DAG [d] that orients a symmetric relation [adj] on the nodes < n by an injective key [ord]
    (each row of d lists, without repetition, exactly the neighbours of larger key), the recursion returns
    the number of k-subsets of the nodes that are pairwise adjacent, for every k >= 2. *)
Theorem cliques_L1_exact (adj : nat -> nat -> bool) (ord : nat -> nat) (d : graph) (k : nat) :
  dag_of adj ord (List.length d) d -> 2 <= k ->
  count_cliques_from_dag_L1 d k = cliques_spec adj (List.length d) k.
Proof. exact (TopologyProofs.cliques_L1_exact adj ord d k). Qed.
Print Assumptions cliques_L1_exact.

(** count_cliques (L1) on an undirected graph — symmetric pattern with duplicate-free rows — is the
    number of k-cliques for every k >= 2, whatever permutation np.argsort(core values) returns (the code
    passes that permutation as [order] to get_dag: node i gets key argsort[i]; any injective key works).
    The in-place ListingBox kernel (L0, [count_cliques]) refines L1: see [count_cliques_L0_exact] in the last
    section of this file (the harness also evaluates both on every case and requires equality). *)
Theorem count_cliques_L1_exact (g : graph) (k : nat) (argsort : list nat) :
  wf_graph g -> (forall u, NoDup (row g u)) -> (forall u v, In v (row g u) -> In u (row g v)) ->
  NoDup argsort -> List.length argsort = List.length g -> 2 <= k ->
  count_cliques_L1 g k argsort = Ok (cliques_spec (adjb g) (List.length g) k).
Proof. exact (TopologyProofs.count_cliques_L1_exact g k argsort). Qed.
Print Assumptions count_cliques_L1_exact.

(** MinHeap (L0), conditional on the invariant: IF [heap_ok] holds ([val]/[pos] inverse on the live part, every live
    entry at least its parent, parent i = (i-1)//2), pop_min returns the root and the root has minimum
    score among the live entries.  That insert_key, decrease_key and pop_min/min_heapify preserve [heap_ok], and
    that compute_core (L0) refines [peel] (L1), is proved in the section "MinHeap and compute_core at the array
    level" below; [pop_min_returns_min] there has this conclusion and more under the same hypotheses. *)
Theorem heap_pop_is_min_partial (h : heap) (scores : list Z) :
  heap_ok h scores -> 0 < h_size h ->
  let m := fst (pop_min h scores) in
  m = nthn (h_val h) 0 /\
  forall i, i < h_size h -> (nthz scores m <= nthz scores (nthn (h_val h) i))%Z.
Proof. exact (TopologyProofs.heap_pop_is_min_partial h scores). Qed.
Print Assumptions heap_pop_is_min_partial.

Theorem heap_ok_b_sound (h : heap) (scores : list Z) : heap_ok_b h scores = true -> heap_ok h scores.
Proof.
  unfold heap_ok_b. intros H. apply andb_true_iff in H. destruct H as [H H3].
  apply andb_true_iff in H. destruct H as [H1 H2].
  rewrite forallb_forall in H2, H3. split; [apply Nat.leb_le; exact H1|]. split.
  - intros i Hi. specialize (H2 i ltac:(apply in_seq; lia)).
    apply andb_true_iff in H2. destruct H2 as [A B].
    apply Nat.ltb_lt in A. apply Nat.eqb_eq in B. split; assumption.
  - intros i Hi0 Hi. specialize (H3 i ltac:(apply in_seq; lia)). apply Z.leb_le in H3. exact H3.
Qed.
Print Assumptions heap_ok_b_sound.

(** A popped node keeps its stale pos = 0 (the code never clears it): decrease_key on it is a no-op
    (pos < size passes, but the loop guard starts with pos != 0). *)
Theorem decrease_key_stale_noop (h : heap) (i : nat) (scores : list Z) :
  nthn (h_pos h) i = 0 -> decrease_key h i scores = h.
Proof. intros H. unfold decrease_key. rewrite H. destruct (Nat.ltb 0 (h_size h)); reflexivity. Qed.
Print Assumptions decrease_key_stale_noop.

(** Non-vacuity: a 5-node graph (triangle 0-1-2 with a tail 2-3-4) on which every model computes,
    an admissible peeling sequence exists, and a non-trivial schedule satisfies the hypothesis. *)
Example c11_nonvacuous :
  let g := [[1; 2]; [0; 2]; [0; 1; 3]; [2; 4]; [3]] in
  count_triangles g = 1 /\
  count_triangles_sched (tri_dag g) [[4; 0]; []; [2; 3; 1]] = 1 /\
  Permutation (concat [[4; 0]; []; [2; 3; 1]]) (seq 0 (List.length (tri_dag g))) /\
  (forall v, StronglySorted lt (row (tri_dag g) v)) /\
  peel g [4; 3; 0; 1; 2] = Some [2; 2; 2; 1; 1] /\
  compute_core g = Some [2; 2; 2; 1; 1]%Z /\
  clustering_coefficient g = Some (1 # 2)%Q /\
  count_cliques g 3 [4; 3; 0; 1; 2] = Ok 1 /\ count_cliques_L1 g 2 [4; 3; 0; 1; 2] = Ok 5 /\
  cliques_spec (adjb g) 5 3 = 1 /\ core_heap_inv g = true.
Proof.
  cbv zeta. repeat split; try reflexivity.
  - vm_compute. apply Permutation_cons_app with (l1 := [0; 1; 2; 3]) (l2 := []). simpl.
    apply perm_skip. apply Permutation_cons_app with (l1 := [1]) (l2 := [3]). simpl.
    apply perm_swap.
  - intros v. apply tri_dag_sorted.
Qed.

(** The hypotheses of count_cliques_L1_exact are met by the same graph. *)
Example c11_nonvacuous_cliques :
  let g := [[1; 2]; [0; 2]; [0; 1; 3]; [2; 4]; [3]] in
  wf_graph g /\ (forall u, NoDup (row g u)) /\ (forall u v, In v (row g u) -> In u (row g v)) /\
  NoDup [4; 3; 0; 1; 2] /\ List.length [4; 3; 0; 1; 2] = List.length g.
Proof.
  cbv zeta. split; [|split; [|split; [|split; [|reflexivity]]]].
  - intros u v H. do 5 (destruct u as [|u]; [simpl in H; simpl; intuition lia|]).
    destruct u; simpl in H; contradiction.
  - intros u. do 5 (destruct u as [|u]; [unfold row; simpl; repeat constructor; simpl; intuition discriminate|]).
    destruct u; unfold row; simpl; constructor.
  - intros u v H. do 5 (destruct u as [|u]; [simpl in H; intuition (subst; simpl; tauto)|]).
    destruct u; simpl in H; contradiction.
  - repeat constructor; simpl; intuition discriminate.
Qed.

(** The heap invariant is met by the heap compute_core builds on that graph (5 live entries). *)
Example c11_nonvacuous_heap :
  let scores := [2; 2; 3; 2; 1]%Z in
  let h := fold_left (fun mh i => insert_key mh i scores) (seq 0 5) (heap_init 5) in
  heap_ok h scores /\ h_size h = 5 /\ fst (pop_min h scores) = 4.
Proof.
  cbv zeta. split; [apply heap_ok_b_sound; reflexivity|]. split; reflexivity.
Qed.

(** * MinHeap and compute_core at the array level (L0) (Proofs/HeapProofs.v).
    The operations of MinHeap preserve [heap_ok] (the hypothesis of [heap_pop_is_min_partial] above) and
    compute_core (L0) refines [peel] (L1). Vocabulary from Proofs/HeapProofs.v:
    [live h v := exists i, i < h_size h /\ nthn (h_val h) i = v] (v is stored at a live position);
    [core_pop_sequence g] := the list of [min_node]s popped by the loop of compute_core (same loop as
    [core_loop], recording the popped node instead of the labels). *)
From SKN Require Import Proofs.HeapProofs.

(** insert_key keeps the heap invariant: there is room, k indexes [pos], and k is not already in the heap. *)
Theorem heap_ok_insert_key (h : heap) (k : nat) (scores : list Z) :
  heap_ok h scores -> h_size h < List.length (h_val h) -> k < List.length (h_pos h) -> ~ live h k ->
  heap_ok (insert_key h k scores) scores.
Proof. intros H1 H2 H3 H4. apply (HeapProofs.insert_key_spec h k scores H1 H2 H3 H4). Qed.
Print Assumptions heap_ok_insert_key.

(** ... and adds exactly k: size + 1, array lengths kept, live nodes = old live nodes + k, the [pos]
    entries of all other non-live nodes (stale entries of popped nodes included) untouched. *)
Theorem insert_key_spec (h : heap) (k : nat) (scores : list Z) :
  heap_ok h scores -> h_size h < List.length (h_val h) -> k < List.length (h_pos h) -> ~ live h k ->
  let h' := insert_key h k scores in
  heap_ok h' scores /\ h_size h' = S (h_size h) /\
  List.length (h_val h') = List.length (h_val h) /\ List.length (h_pos h') = List.length (h_pos h) /\
  (forall v, live h' v <-> live h v \/ v = k) /\
  (forall v, ~ live h v -> v <> k -> nthn (h_pos h') v = nthn (h_pos h) v).
Proof. exact (HeapProofs.insert_key_spec h k scores). Qed.
Print Assumptions insert_key_spec.

(** decrease_key: [s] are the scores at the last heap operation, [s'] the scores now; only the score of
    j changed and it did not increase (compute_core: degrees[j] -= 1). Then the invariant holds again
    w.r.t. [s'], and sizes, lengths, live set and the [pos] of non-live nodes are unchanged ([hframe]).
    Nothing is assumed about j being in the heap: for a popped j (stale [pos], never cleared by the code)
    the live scores are unchanged and the loop finds nothing to do. *)
Theorem heap_ok_decrease_key (h : heap) (j : nat) (s s' : list Z) :
  heap_ok h s -> (forall v, v <> j -> nthz s' v = nthz s v) -> (nthz s' j <= nthz s j)%Z ->
  heap_ok (decrease_key h j s') s' /\
  (List.length (h_val (decrease_key h j s')) = List.length (h_val h) /\
   List.length (h_pos (decrease_key h j s')) = List.length (h_pos h) /\
   h_size (decrease_key h j s') = h_size h /\
   (forall v, live (decrease_key h j s') v <-> live h v) /\
   (forall v, ~ live h v -> nthn (h_pos (decrease_key h j s')) v = nthn (h_pos h) v)).
Proof. exact (HeapProofs.decrease_key_spec h j s s'). Qed.
Print Assumptions heap_ok_decrease_key.

(** pop_min (with min_heapify) keeps the invariant on a non-empty heap. *)
Theorem heap_ok_pop_min (h : heap) (scores : list Z) :
  heap_ok h scores -> 0 < h_size h -> heap_ok (snd (pop_min h scores)) scores.
Proof. intros H1 H2. apply (pop_min_spec h scores H1 H2). Qed.
Print Assumptions heap_ok_pop_min.

(** pop_min returns a live node of minimum score and removes exactly it; the popped node keeps the
    stale position 0 (so that a later decrease_key on it is a no-op, [decrease_key_stale_noop]). *)
Theorem pop_min_returns_min (h : heap) (scores : list Z) :
  heap_ok h scores -> 0 < h_size h ->
  let m := fst (pop_min h scores) in
  let h' := snd (pop_min h scores) in
  live h m /\ (forall v, live h v -> (nthz scores m <= nthz scores v)%Z) /\
  heap_ok h' scores /\ h_size h' = h_size h - 1 /\
  (forall v, live h' v <-> live h v /\ v <> m) /\
  nthn (h_pos h') m = 0.
Proof. exact (HeapProofs.pop_min_returns_min h scores). Qed.
Print Assumptions pop_min_returns_min.

(** Refinement L0 -> L1. On a symmetric pattern with duplicate-free rows (self-loops allowed; symmetry
    implies wf_graph) compute_core terminates within its fuel, the nodes it pops form an ADMISSIBLE removal
    sequence for [peel] (peel returns [None] unless every removed node is alive and of minimum remaining
    degree; the invariant of the proof is: heap_ok w.r.t. [degrees], live nodes = nodes not yet popped,
    degrees[v] = remaining degree of v for every live v), and the labels it writes are those of [peel]. *)
Theorem compute_core_refines_peel (g : graph) :
  (forall u, NoDup (row g u)) -> (forall u v, In v (row g u) -> In u (row g v)) ->
  exists labels, peel g (core_pop_sequence g) = Some labels /\
                 compute_core g = Some (map Z.of_nat labels).
Proof. exact (HeapProofs.compute_core_refines_peel g). Qed.
Print Assumptions compute_core_refines_peel.

(** Hence compute_core as coded (MinHeap arrays included) returns the core numbers. *)
Theorem compute_core_exact (g : graph) :
  (forall u, NoDup (row g u)) -> (forall u v, In v (row g u) -> In u (row g v)) ->
  exists labels, compute_core g = Some (map Z.of_nat labels) /\
                 List.length labels = List.length g /\
                 forall v, v < List.length g -> core_number g v (nthn labels v).
Proof. exact (HeapProofs.compute_core_exact g). Qed.
Print Assumptions compute_core_exact.

(** Non-vacuity: on the 5-node graph above (hypotheses shown in c11_nonvacuous_cliques) the pop sequence is
    a genuine interleaving of heap operations and peel accepts it. *)
Example c11_nonvacuous_core_l0 :
  let g := [[1; 2]; [0; 2]; [0; 1; 3]; [2; 4]; [3]] in
  core_pop_sequence g = [4; 3; 0; 1; 2] /\
  peel g (core_pop_sequence g) = Some [2; 2; 2; 1; 1] /\
  compute_core g = Some (map Z.of_nat [2; 2; 2; 1; 1]).
Proof. cbv zeta. repeat split; reflexivity. Qed.

(** * cliques.pyx at the array level (L0) (Proofs/CliqueProofs.v).
    [count_cliques_L1_exact] above is about the functional recursion; this section proves that the in-place
    ListingBox kernel computes it. Vocabulary from Proofs/CliqueProofs.v:
    [dag_wf d M]: the rows of the DAG d are duplicate-free, their entries are < length d, none is longer than M;
    [shape d K M b] (first field of [inv], used by no statement directly): array lengths (ns, degrees, subs: K+1; lab, every degrees[m], the row table: n;
      subs[m] for m < K: at least M);
    [subl b l] := the first ns[l] entries of sub[l] (the node list of level l);
    [inv d K M l b]: the level invariant, spelled out by [clique_level_invariant_meaning] below;
    [frame d K M l b b']: b' differs from b at most below level l (ns[m], sub[m], deg[m] unchanged for m >= l),
      no label differs, and row v differs only by a permutation of its first deg[l][v] entries, for v in [subl b l];
    [sel_run l b u], [part_run l b1]: the first two inner loops of count_cliques_from_dag for clique_size = l+1
      (selection of the neighbours of u, in-place partition of the windows of the selected nodes);
    [ccfd_ok cs b]: count_cliques_from_dag instrumented with the bounds check of EVERY array access it makes
      (ns[.], lab[.], degrees[.][.], subs[.][.], indptr[.], indices[.] relative to the row), [true] when all pass. *)
From SKN Require Import Proofs.CliqueProofs.

(** The level invariant, in full: at level l with S = sub[l][0 : ns[l]] — S is duplicate-free; every v in S is a
    node with lab[v] = l, every other node has a larger label; every row of the (mutable) indices array is a
    permutation of the original row of the DAG; and for v in S the first deg[l][v] entries of row v are, as a
    set, N+(v) /\ S. *)
Theorem clique_level_invariant_meaning (d : graph) (K M l : nat) (b : box) :
  inv d K M l b ->
  let S0 := firstn (nthn (b_ns b) l) (nthl (b_sub b) l) in
  2 <= l <= K /\ nthn (b_ns b) l <= List.length (nthl (b_sub b) l) /\ NoDup S0 /\
  (forall v, In v S0 -> v < List.length d /\ nthn (b_lab b) v = l) /\
  (forall v, v < List.length d -> ~ In v S0 -> l < nthn (b_lab b) v) /\
  (forall v, Permutation (nthl (b_rows b) v) (row d v)) /\
  (forall v, In v S0 ->
     get_deg b l v <= List.length (nthl (b_rows b) v) /\
     forall w, In w (firstn (get_deg b l v) (nthl (b_rows b) v)) <-> In w (row d v) /\ In w S0).
Proof.
  intros I S0. pose proof (fun v => inv_row_length d K M l b v I) as Hlen.
  destruct I as [_ Hl Hns Hnd Hlt Hin Hout Hrows Hdeg Hwin].
  split; [exact Hl|]. split; [exact Hns|]. split; [exact Hnd|].
  split; [intros v Hv; split; [exact (Hlt v Hv)|exact (Hin v Hv)]|].
  split; [exact Hout|]. split; [exact Hrows|].
  intros v Hv. split; [rewrite Hlen; exact (Hdeg v Hv)|intros w; exact (Hwin v w Hv)].
Qed.
Print Assumptions clique_level_invariant_meaning.

(** ListingBox.__cinit__ establishes the invariant at level k (all nodes, lab = k, degrees = out-degrees). *)
Theorem clique_level_invariant_init (d : graph) (K : nat) :
  dag_wf d (max_deg d) -> 2 <= K -> inv d K (max_deg d) K (box_init d K).
Proof. exact (CliqueProofs.inv_init d K). Qed.
Print Assumptions clique_level_invariant_init.

(** One level step: for the i-th node u of level l+1, after the selection loop and the partition loop the
    recursive call is entered in a state satisfying the invariant of level l, whose node list is, up to
    order, N+(u) /\ S. *)
Theorem clique_level_step_invariant (d : graph) (K M l : nat) (b : box) (i : nat) :
  dag_wf d M -> 2 <= l -> inv d K M (S l) b -> i < nthn (b_ns b) (S l) ->
  let u := get_sub b (S l) i in
  let b3 := part_run l (sel_run l b u) in
  inv d K M l b3 /\ Permutation (subl b3 l) (inter (row d u) (subl b (S l))).
Proof.
  intros W H2 I Hi u b3.
  assert (Hu : In u (subl b (S l))).
  { apply In_firstn_nth. exists i. split; [exact Hi|].
    split; [pose proof (inv_ns _ _ _ _ _ I); lia|reflexivity]. }
  destruct (level_step_invariant d K M l b u W H2 I Hu) as [I3 [ES HP]].
  split; [exact I3|]. fold b3 in ES. rewrite ES. exact HP.
Qed.
Print Assumptions clique_level_step_invariant.

(** On return from a call at level l (labels restored by the last inner loop of every iteration) the state
    differs from the entry state only as [frame] allows, hence the invariant of level l holds again. *)
Theorem clique_level_invariant_preserved (d : graph) (K M l : nat) (b : box) :
  dag_wf d M -> inv d K M l b ->
  frame d K M l b (snd (count_cliques_from_dag l b)) /\ inv d K M l (snd (count_cliques_from_dag l b)).
Proof.
  intros W I. destruct (ccfd_spec d K M l b W I) as [_ [_ F]].
  split; [exact F|exact (inv_frame d K M l b _ I F)].
Qed.
Print Assumptions clique_level_invariant_preserved.

(** Refinement L0 -> L1: under the invariant, the count returned by the array-level kernel at level l is the
    L1 recursion on the current node list. *)
Theorem count_cliques_L0_refines_L1 (d : graph) (K M l : nat) (b : box) :
  dag_wf d M -> inv d K M l b ->
  fst (count_cliques_from_dag l b) = cliques_rec d (l - 2) (subl b l).
Proof. intros W I. apply (ccfd_spec d K M l b W I). Qed.
Print Assumptions count_cliques_L0_refines_L1.

(** Hence count_cliques as coded (core-order argsort permutation, get_dag, ListingBox, in-place kernel)
    returns the number of k-cliques, for every k >= 2: same hypotheses as [count_cliques_L1_exact]. *)
Theorem count_cliques_L0_exact (g : graph) (k : nat) (argsort : list nat) :
  wf_graph g -> (forall u, NoDup (row g u)) -> (forall u v, In v (row g u) -> In u (row g v)) ->
  NoDup argsort -> List.length argsort = List.length g -> 2 <= k ->
  count_cliques g k argsort = Ok (cliques_spec (adjb g) (List.length g) k).
Proof. exact (CliqueProofs.count_cliques_L0_exact g k argsort). Qed.
Print Assumptions count_cliques_L0_exact.

(** Safety: under the invariant every array access of the kernel is in range, ... *)
Theorem count_cliques_from_dag_safe (d : graph) (K M l : nat) (b : box) :
  dag_wf d M -> inv d K M l b -> ccfd_ok l b = true.
Proof. intros W I. apply (ccfd_spec d K M l b W I). Qed.
Print Assumptions count_cliques_from_dag_safe.

(** ... in particular on the box and DAG count_cliques builds from an undirected graph. *)
Theorem count_cliques_safe (g : graph) (k : nat) (argsort : list nat) :
  wf_graph g -> (forall u, NoDup (row g u)) -> (forall u v, In v (row g u) -> In u (row g v)) ->
  NoDup argsort -> List.length argsort = List.length g -> 2 <= k ->
  ccfd_ok k (box_init (get_dag g (map Z.of_nat argsort)) k) = true.
Proof.
  intros Hwf Hnd Hsym Hnda Hlen Hk.
  destruct (get_dag_rows_wf g argsort Hwf Hnd Hsym Hnda Hlen) as [H1 H2].
  apply (count_cliques_from_dag_L0_L1 _ k H1 H2 Hk).
Qed.
Print Assumptions count_cliques_safe.

(** Non-vacuity: on the 5-node graph above (hypotheses shown in c11_nonvacuous_cliques) and on K4 plus a
    pendant node with k = 4 (two nested levels) the kernel runs, every check passes, and the instrumentation
    does detect an out-of-range column index. *)
Example c11_nonvacuous_cliques_l0 :
  let g := [[1; 2]; [0; 2]; [0; 1; 3]; [2; 4]; [3]] in
  let g4 := [[1; 2; 3]; [0; 2; 3]; [0; 1; 3; 4]; [0; 1; 2]; [2]] in
  count_cliques g 3 [4; 3; 0; 1; 2] = Ok 1 /\
  ccfd_ok 3 (box_init (get_dag g (map Z.of_nat [4; 3; 0; 1; 2])) 3) = true /\
  count_cliques g4 4 [1; 2; 3; 4; 0] = Ok 1 /\ count_cliques g4 3 [1; 2; 3; 4; 0] = Ok 4 /\
  ccfd_ok 4 (box_init (get_dag g4 (map Z.of_nat [1; 2; 3; 4; 0])) 4) = true /\
  ccfd_ok 3 (box_init [[1; 7]; []; []] 3) = false.
Proof. cbv zeta. repeat split; reflexivity. Qed.
