From SKN Require Import Base.Util Model.Diffusion Model.NpExpr Model.NpVec Gen.NpDiffusion.
Set Printing Depth 10000000.
Set Printing Width 1000000.

Definition the_cases := [
map qz (qvresult (qvdenote (qenv_fit [[(0 # 1)%Q; (1 # 1073741824)%Q; (0 # 1)%Q; (1 # 1073741824)%Q]; [(1 # 1073741824)%Q; (0 # 1)%Q; (1 # 1073741824)%Q; (0 # 1)%Q]; [(0 # 1)%Q; (1 # 1073741824)%Q; (0 # 1)%Q; (0 # 1)%Q]; [(1 # 1073741824)%Q; (0 # 1)%Q; (0 # 1)%Q; (0 # 1)%Q]] 4 [(-1 # 1)%Q; (-1 # 1)%Q; (5 # 2)%Q; (-1 # 1)%Q] (Some (5 # 2)%Q) 1 (7656119366529843 # 9007199254740992)%Q) src_diffusion_fit));
map qz (qvresult (qvdenote (qenv_fit [[(0 # 1)%Q; (1 # 1)%Q; (0 # 1)%Q; (1 # 1)%Q]; [(1 # 1)%Q; (0 # 1)%Q; (1 # 1)%Q; (0 # 1)%Q]; [(0 # 1)%Q; (1 # 1)%Q; (0 # 1)%Q; (0 # 1)%Q]; [(1 # 1)%Q; (0 # 1)%Q; (0 # 1)%Q; (0 # 1)%Q]] 4 [(3 # 1)%Q; (-1 # 1)%Q; (-1 # 1)%Q; (-1 # 1)%Q] None 5 (1 # 2)%Q) src_dirichlet_fit));
map qz (qvresult (qvdenote (qenv_fit [[(0 # 1)%Q; (1 # 1)%Q; (0 # 1)%Q; (1 # 1)%Q]; [(1 # 1)%Q; (0 # 1)%Q; (1 # 1)%Q; (0 # 1)%Q]; [(0 # 1)%Q; (1 # 1)%Q; (0 # 1)%Q; (0 # 1)%Q]; [(1 # 1)%Q; (0 # 1)%Q; (0 # 1)%Q; (0 # 1)%Q]] 4 [(1 # 1)%Q; (-1 # 1)%Q; (7 # 1)%Q; (-1 # 1)%Q] (Some (7 # 1)%Q) 1 (0 # 1)%Q) src_diffusion_fit));
map qz (qvresult (qvdenote (qenv_fit [[(0 # 1)%Q; (1 # 1)%Q; (0 # 1)%Q; (1 # 1)%Q]; [(1 # 1)%Q; (0 # 1)%Q; (1 # 1)%Q; (0 # 1)%Q]; [(0 # 1)%Q; (1 # 1)%Q; (0 # 1)%Q; (0 # 1)%Q]; [(1 # 1)%Q; (0 # 1)%Q; (0 # 1)%Q; (0 # 1)%Q]] 4 [(1 # 2)%Q; (10 # 1)%Q; (7 # 1)%Q; (-1 # 1)%Q] None 10 (1 # 2)%Q) src_dirichlet_fit));
map qz (qvresult (qvdenote (qenv_fit [[(0 # 1)%Q; (0 # 1)%Q; (5 # 1)%Q; (2 # 1)%Q]; [(0 # 1)%Q; (0 # 1)%Q; (1 # 1)%Q; (0 # 1)%Q]; [(5 # 1)%Q; (1 # 1)%Q; (0 # 1)%Q; (0 # 1)%Q]; [(2 # 1)%Q; (0 # 1)%Q; (0 # 1)%Q; (0 # 1)%Q]] 4 [(-1 # 1)%Q; (1 # 2)%Q; (-1 # 1)%Q; (2 # 1)%Q] (Some (5 # 4)%Q) 5 (1 # 2)%Q) src_dirichlet_fit));
map qz (qvresult (qvdenote (qenv_fit [[(0 # 1)%Q; (0 # 1)%Q; (5 # 1)%Q; (2 # 1)%Q]; [(0 # 1)%Q; (0 # 1)%Q; (1 # 1)%Q; (0 # 1)%Q]; [(5 # 1)%Q; (1 # 1)%Q; (0 # 1)%Q; (0 # 1)%Q]; [(2 # 1)%Q; (0 # 1)%Q; (0 # 1)%Q; (0 # 1)%Q]] 4 [(7 # 1)%Q; (-1 # 1)%Q; (-1 # 1)%Q; (-1 # 1)%Q] None 3 (1 # 2)%Q) src_dirichlet_fit));
map qz (qvresult (qvdenote (qenv_fit [[(0 # 1)%Q; (0 # 1)%Q; (5 # 1)%Q; (2 # 1)%Q]; [(0 # 1)%Q; (0 # 1)%Q; (1 # 1)%Q; (0 # 1)%Q]; [(5 # 1)%Q; (1 # 1)%Q; (0 # 1)%Q; (0 # 1)%Q]; [(2 # 1)%Q; (0 # 1)%Q; (0 # 1)%Q; (0 # 1)%Q]] 4 [(-1 # 1)%Q; (1 # 1)%Q; (7 # 1)%Q; (1 # 1)%Q] (Some (5 # 2)%Q) 1 (1 # 2)%Q) src_dirichlet_fit));
map qz (qvresult (qvdenote (qenv_fit [[(0 # 1)%Q; (0 # 1)%Q; (5 # 1)%Q; (2 # 1)%Q]; [(0 # 1)%Q; (0 # 1)%Q; (1 # 1)%Q; (0 # 1)%Q]; [(5 # 1)%Q; (1 # 1)%Q; (0 # 1)%Q; (0 # 1)%Q]; [(2 # 1)%Q; (0 # 1)%Q; (0 # 1)%Q; (0 # 1)%Q]] 4 [(0 # 1)%Q; (-1 # 1)%Q; (2 # 1)%Q; (-1 # 1)%Q] None 2 (0 # 1)%Q) src_diffusion_fit));
map qz (qvresult (qvdenote (qenv_fit [[(0 # 1)%Q; (0 # 1)%Q; (5 # 1)%Q; (2 # 1)%Q]; [(0 # 1)%Q; (0 # 1)%Q; (1 # 1)%Q; (0 # 1)%Q]; [(5 # 1)%Q; (1 # 1)%Q; (0 # 1)%Q; (0 # 1)%Q]; [(2 # 1)%Q; (0 # 1)%Q; (0 # 1)%Q; (0 # 1)%Q]] 4 [(-1 # 1)%Q; (0 # 1)%Q; (-1 # 1)%Q; (-1 # 1)%Q] None 10 (1 # 2)%Q) src_dirichlet_fit));
map qz (qvresult (qvdenote (qenv_fit [[(0 # 1)%Q; (0 # 1)%Q; (5 # 1)%Q; (2 # 1)%Q]; [(0 # 1)%Q; (0 # 1)%Q; (1 # 1)%Q; (0 # 1)%Q]; [(5 # 1)%Q; (1 # 1)%Q; (0 # 1)%Q; (0 # 1)%Q]; [(2 # 1)%Q; (0 # 1)%Q; (0 # 1)%Q; (0 # 1)%Q]] 4 [(1 # 1)%Q; (1 # 1)%Q; (3 # 1)%Q; (0 # 1)%Q] (Some (3 # 2)%Q) 1 (7656119366529843 # 9007199254740992)%Q) src_diffusion_fit));
map qz (qvresult (qvdenote (qenv_fit [[(0 # 1)%Q; (2 # 1)%Q; (2 # 1)%Q; (1 # 1)%Q]; [(2 # 1)%Q; (0 # 1)%Q; (3 # 1)%Q; (0 # 1)%Q]; [(2 # 1)%Q; (3 # 1)%Q; (0 # 1)%Q; (0 # 1)%Q]; [(1 # 1)%Q; (0 # 1)%Q; (0 # 1)%Q; (0 # 1)%Q]] 4 [(-1 # 1)%Q; (-1 # 1)%Q; (10 # 1)%Q; (1 # 1)%Q] None 1 (1 # 2)%Q) src_dirichlet_fit));
map qz (qvresult (qvdenote (qenv_fit [[(0 # 1)%Q; (2097152 # 1)%Q; (2097152 # 1)%Q; (1048576 # 1)%Q]; [(2097152 # 1)%Q; (0 # 1)%Q; (3145728 # 1)%Q; (0 # 1)%Q]; [(2097152 # 1)%Q; (3145728 # 1)%Q; (0 # 1)%Q; (0 # 1)%Q]; [(1048576 # 1)%Q; (0 # 1)%Q; (0 # 1)%Q; (0 # 1)%Q]] 4 [(-1 # 1)%Q; (-1 # 1)%Q; (10 # 1)%Q; (1 # 1)%Q] None 1 (1 # 2)%Q) src_dirichlet_fit));
map qz (qvresult (qvdenote (qenv_fit [[(0 # 1)%Q; (2 # 1)%Q; (2 # 1)%Q; (1 # 1)%Q]; [(2 # 1)%Q; (0 # 1)%Q; (3 # 1)%Q; (0 # 1)%Q]; [(2 # 1)%Q; (3 # 1)%Q; (0 # 1)%Q; (0 # 1)%Q]; [(1 # 1)%Q; (0 # 1)%Q; (0 # 1)%Q; (0 # 1)%Q]] 4 [(-1 # 1)%Q; (-1 # 1)%Q; (7 # 1)%Q; (-1 # 1)%Q] None 1 (5404319552844595 # 18014398509481984)%Q) src_diffusion_fit));
map qz (qvresult (qvdenote (qenv_fit [[(0 # 1)%Q; (1 # 536870912)%Q; (1 # 536870912)%Q; (1 # 1073741824)%Q]; [(1 # 536870912)%Q; (0 # 1)%Q; (3 # 1073741824)%Q; (0 # 1)%Q]; [(1 # 536870912)%Q; (3 # 1073741824)%Q; (0 # 1)%Q; (0 # 1)%Q]; [(1 # 1073741824)%Q; (0 # 1)%Q; (0 # 1)%Q; (0 # 1)%Q]] 4 [(-1 # 1)%Q; (-1 # 1)%Q; (7 # 1)%Q; (-1 # 1)%Q] None 1 (5404319552844595 # 18014398509481984)%Q) src_diffusion_fit));
map qz (qvresult (qvdenote (qenv_fit [[(0 # 1)%Q; (2 # 1)%Q; (2 # 1)%Q; (1 # 1)%Q]; [(2 # 1)%Q; (0 # 1)%Q; (3 # 1)%Q; (0 # 1)%Q]; [(2 # 1)%Q; (3 # 1)%Q; (0 # 1)%Q; (0 # 1)%Q]; [(1 # 1)%Q; (0 # 1)%Q; (0 # 1)%Q; (0 # 1)%Q]] 4 [(-1 # 1)%Q; (-1 # 1)%Q; (-1 # 1)%Q; (10 # 1)%Q] None 3 (5404319552844595 # 18014398509481984)%Q) src_diffusion_fit));
map qz (qvresult (qvdenote (qenv_fit [[(0 # 1)%Q; (2 # 1)%Q; (2 # 1)%Q; (1 # 1)%Q]; [(2 # 1)%Q; (0 # 1)%Q; (3 # 1)%Q; (0 # 1)%Q]; [(2 # 1)%Q; (3 # 1)%Q; (0 # 1)%Q; (0 # 1)%Q]; [(1 # 1)%Q; (0 # 1)%Q; (0 # 1)%Q; (0 # 1)%Q]] 4 [(-1 # 1)%Q; (5 # 2)%Q; (3 # 1)%Q; (-1 # 1)%Q] None 2 (5404319552844595 # 18014398509481984)%Q) src_diffusion_fit));
map qz (qvresult (qvdenote (qenv_fit [[(0 # 1)%Q; (0 # 1)%Q; (1 # 1)%Q; (0 # 1)%Q]; [(0 # 1)%Q; (0 # 1)%Q; (0 # 1)%Q; (1 # 1)%Q]; [(1 # 1)%Q; (0 # 1)%Q; (0 # 1)%Q; (0 # 1)%Q]; [(0 # 1)%Q; (1 # 1)%Q; (0 # 1)%Q; (0 # 1)%Q]] 4 [(-1 # 1)%Q; (1 # 1)%Q; (0 # 1)%Q; (-1 # 1)%Q] None 2 (7656119366529843 # 9007199254740992)%Q) src_diffusion_fit));
map qz (qvresult (qvdenote (qenv_fit [[(0 # 1)%Q; (0 # 1)%Q; (1 # 1)%Q; (0 # 1)%Q]; [(0 # 1)%Q; (0 # 1)%Q; (0 # 1)%Q; (1 # 1)%Q]; [(1 # 1)%Q; (0 # 1)%Q; (0 # 1)%Q; (0 # 1)%Q]; [(0 # 1)%Q; (1 # 1)%Q; (0 # 1)%Q; (0 # 1)%Q]] 4 [(-1 # 1)%Q; (1 # 1)%Q; (-1 # 1)%Q; (0 # 1)%Q] (Some (1 # 4)%Q) 1 (1 # 1)%Q) src_diffusion_fit));
map qz (qvresult (qvdenote (qenv_fit [[(0 # 1)%Q; (0 # 1)%Q; (1 # 1073741824)%Q; (0 # 1)%Q]; [(0 # 1)%Q; (0 # 1)%Q; (0 # 1)%Q; (1 # 1073741824)%Q]; [(1 # 1073741824)%Q; (0 # 1)%Q; (0 # 1)%Q; (0 # 1)%Q]; [(0 # 1)%Q; (1 # 1073741824)%Q; (0 # 1)%Q; (0 # 1)%Q]] 4 [(-1 # 1)%Q; (1 # 1)%Q; (-1 # 1)%Q; (0 # 1)%Q] (Some (1 # 4)%Q) 1 (1 # 1)%Q) src_diffusion_fit));
map qz (qvresult (qvdenote (qenv_fit [[(0 # 1)%Q; (4 # 1)%Q; (1 # 1)%Q; (0 # 1)%Q]; [(4 # 1)%Q; (0 # 1)%Q; (0 # 1)%Q; (5 # 1)%Q]; [(1 # 1)%Q; (0 # 1)%Q; (0 # 1)%Q; (0 # 1)%Q]; [(0 # 1)%Q; (5 # 1)%Q; (0 # 1)%Q; (0 # 1)%Q]] 4 [(-1 # 1)%Q; (2 # 1)%Q; (7 # 1)%Q; (1 # 1)%Q] None 2 (5404319552844595 # 18014398509481984)%Q) src_diffusion_fit))
].
Eval vm_compute in the_cases.
