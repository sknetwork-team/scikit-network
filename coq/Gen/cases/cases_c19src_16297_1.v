From SKN Require Import Base.Util Model.Gnn Model.NpExpr Gen.NpGnn.
Set Printing Depth 10000000.
Set Printing Width 1000000.
Definition qout (q : Q) : Z * Z := let r := Qred q in (Qnum r, Zpos (Qden r)).
Definition mout (m : list (list Q)) : list (list (Z * Z)) := map (map qout) m.

Definition the_cases := [
mout (qresult (qdenote [] [] (qenv_s [[(3054566447264039 # 1125899906842624)%Q; (-6890507429876859 # 4503599627370496)%Q; (-2254051613498933 # 2251799813685248)%Q]; [(-5555190140361507 # 2251799813685248)%Q; (-1697857059518677 # 2251799813685248)%Q; (-2835015965429727 # 2251799813685248)%Q]; [(-1553741871442821 # 1125899906842624)%Q; (2278821411449471 # 4503599627370496)%Q; (3512807709348987 # 2251799813685248)%Q]; [(6548233858196701 # 9007199254740992)%Q; (-5789377320984773 # 2251799813685248)%Q; (-6872493031367377 # 4503599627370496)%Q]] 4 3) src_relu_output));
mout (qresult (qdenote [] [] (qenv_sd [[(3054566447264039 # 1125899906842624)%Q; (-6890507429876859 # 4503599627370496)%Q; (-2254051613498933 # 2251799813685248)%Q]; [(-5555190140361507 # 2251799813685248)%Q; (-1697857059518677 # 2251799813685248)%Q; (-2835015965429727 # 2251799813685248)%Q]; [(-1553741871442821 # 1125899906842624)%Q; (2278821411449471 # 4503599627370496)%Q; (3512807709348987 # 2251799813685248)%Q]; [(6548233858196701 # 9007199254740992)%Q; (-5789377320984773 # 2251799813685248)%Q; (-6872493031367377 # 4503599627370496)%Q]] [[(6034823500676465 # 18014398509481984)%Q; (7034622617952715 # 4503599627370496)%Q; (7908320945662591 # 4503599627370496)%Q]; [(-5602477936448897 # 4503599627370496)%Q; (-3098476543630901 # 9007199254740992)%Q; (2531022990582219 # 9007199254740992)%Q]; [(6876996630994747 # 4503599627370496)%Q; (535928355657089 # 281474976710656)%Q; (6124895493223875 # 72057594037927936)%Q]; [(-6998593820933751 # 9007199254740992)%Q; (4661225614328463 # 4503599627370496)%Q; (-7782220156096217 # 36028797018963968)%Q]] 4 3) src_relu_gradient));
mout (qresult (qdenote [] [] (qenv_s [[(-994169617742037 # 562949953421312)%Q; (-3144638439811449 # 1125899906842624)%Q; (6052837899185947 # 18014398509481984)%Q]; [(-5134103575202365 # 2251799813685248)%Q; (-2314850208468435 # 4503599627370496)%Q; (-535928355657089 # 281474976710656)%Q]; [(3996944669291315 # 2251799813685248)%Q; (-6764406640310485 # 4503599627370496)%Q; (-5584463537939415 # 18014398509481984)%Q]; [(-4645463015632667 # 2251799813685248)%Q; (3198681635339895 # 1125899906842624)%Q; (4165829655317709 # 2251799813685248)%Q]; [(624311498344235 # 562949953421312)%Q; (2931843357418193 # 4503599627370496)%Q; (623467073414103 # 281474976710656)%Q]] 5 3) src_relu_output));
mout (qresult (qdenote [] [] (qenv_sd [[(-994169617742037 # 562949953421312)%Q; (-3144638439811449 # 1125899906842624)%Q; (6052837899185947 # 18014398509481984)%Q]; [(-5134103575202365 # 2251799813685248)%Q; (-2314850208468435 # 4503599627370496)%Q; (-535928355657089 # 281474976710656)%Q]; [(3996944669291315 # 2251799813685248)%Q; (-6764406640310485 # 4503599627370496)%Q; (-5584463537939415 # 18014398509481984)%Q]; [(-4645463015632667 # 2251799813685248)%Q; (3198681635339895 # 1125899906842624)%Q; (4165829655317709 # 2251799813685248)%Q]; [(624311498344235 # 562949953421312)%Q; (2931843357418193 # 4503599627370496)%Q; (623467073414103 # 281474976710656)%Q]] [[(-6651816649626223 # 4503599627370496)%Q; (1575133969672831 # 1125899906842624)%Q; (5404319552844595 # 36028797018963968)%Q]; [(-378865318652543 # 281474976710656)%Q; (-2296835809958953 # 2251799813685248)%Q; (-1805943450575569 # 1125899906842624)%Q]; [(-1188950301625811 # 9007199254740992)%Q; (7106680211990643 # 4503599627370496)%Q; (2571555387228553 # 4503599627370496)%Q]; [(5111585577065513 # 4503599627370496)%Q; (1625799465480749 # 2251799813685248)%Q; (-7345370992241279 # 4503599627370496)%Q]; [(8565846491258683 # 4503599627370496)%Q; (7746191359077253 # 36028797018963968)%Q; (4368491638549381 # 2251799813685248)%Q]] 5 3) src_relu_gradient));
mout (qresult (qdenote [] [] (qenv_s [[(-7926335344172073 # 4503599627370496)%Q; (8615386087159759 # 4503599627370496)%Q; (1344324488770093 # 2251799813685248)%Q]; [(1242993497154257 # 9007199254740992)%Q; (5440348349863559 # 9007199254740992)%Q; (2033375231757779 # 2251799813685248)%Q]] 2 3) src_relu_output));
mout (qresult (qdenote [] [] (qenv_sd [[(-7926335344172073 # 4503599627370496)%Q; (8615386087159759 # 4503599627370496)%Q; (1344324488770093 # 2251799813685248)%Q]; [(1242993497154257 # 9007199254740992)%Q; (5440348349863559 # 9007199254740992)%Q; (2033375231757779 # 2251799813685248)%Q]] [[(-5242189966259257 # 9007199254740992)%Q; (3530822107858469 # 4503599627370496)%Q; (-7093169413108531 # 4503599627370496)%Q]; [(-3476778912330023 # 2251799813685248)%Q; (8327155711008047 # 4503599627370496)%Q; (2254051613498933 # 2251799813685248)%Q]] 2 3) src_relu_gradient));
mout (qresult (qdenote [] [] (qenv_s [[(4733283208366391 # 4503599627370496)%Q; (1188950301625811 # 2251799813685248)%Q; (7944349742681555 # 4503599627370496)%Q]; [(2758454771764429 # 1125899906842624)%Q; (-5116089176692883 # 72057594037927936)%Q; (-1290281293241647 # 562949953421312)%Q]; [(-2509630892352209 # 1125899906842624)%Q; (-1661828262499713 # 4503599627370496)%Q; (1272266894732165 # 2251799813685248)%Q]; [(-6147413491360727 # 2251799813685248)%Q; (3805541685128069 # 2251799813685248)%Q; (6160924290242839 # 36028797018963968)%Q]; [(5620492334958379 # 18014398509481984)%Q; (5116089176692883 # 36028797018963968)%Q; (-1467047578615939 # 1125899906842624)%Q]] 5 3) src_relu_output));
mout (qresult (qdenote [] [] (qenv_sd [[(4733283208366391 # 4503599627370496)%Q; (1188950301625811 # 2251799813685248)%Q; (7944349742681555 # 4503599627370496)%Q]; [(2758454771764429 # 1125899906842624)%Q; (-5116089176692883 # 72057594037927936)%Q; (-1290281293241647 # 562949953421312)%Q]; [(-2509630892352209 # 1125899906842624)%Q; (-1661828262499713 # 4503599627370496)%Q; (1272266894732165 # 2251799813685248)%Q]; [(-6147413491360727 # 2251799813685248)%Q; (3805541685128069 # 2251799813685248)%Q; (6160924290242839 # 36028797018963968)%Q]; [(5620492334958379 # 18014398509481984)%Q; (5116089176692883 # 36028797018963968)%Q; (-1467047578615939 # 1125899906842624)%Q]] [[(5836665117072163 # 18014398509481984)%Q; (-1080863910568919 # 18014398509481984)%Q; (3152519739159347 # 9007199254740992)%Q]; [(8525314094612349 # 4503599627370496)%Q; (6052837899185947 # 18014398509481984)%Q; (1607785066971267 # 2251799813685248)%Q]; [(-8250594517342749 # 4503599627370496)%Q; (-4553139223271571 # 4503599627370496)%Q; (-8291126913989083 # 4503599627370496)%Q]; [(4219872850846155 # 4503599627370496)%Q; (-3422735716801577 # 36028797018963968)%Q; (7854277750134145 # 4503599627370496)%Q]; [(6800435437329449 # 9007199254740992)%Q; (3697455294071177 # 4503599627370496)%Q; (-6872493031367377 # 4503599627370496)%Q]] 5 3) src_relu_gradient));
mout (qresult (qdenote [] [] (qenv_s [[(6219471085398655 # 4503599627370496)%Q; (6368089873101881 # 4503599627370496)%Q; (1679842661009195 # 1125899906842624)%Q; (2758454771764429 # 2251799813685248)%Q]; [(3314649325744685 # 36028797018963968)%Q; (6613536052793573 # 2251799813685248)%Q; (4643211215818981 # 4503599627370496)%Q; (7034622617952715 # 4503599627370496)%Q]; [(4368491638549381 # 9007199254740992)%Q; (4303189443952509 # 2251799813685248)%Q; (-3119868641860911 # 1125899906842624)%Q; (-6800435437329449 # 9007199254740992)%Q]; [(-553942754166571 # 281474976710656)%Q; (2805742567851819 # 2251799813685248)%Q; (3 # 8)%Q; (4039728865751335 # 2251799813685248)%Q]; [(5080060379673919 # 18014398509481984)%Q; (-3239214031986229 # 1125899906842624)%Q; (8727976077844021 # 9007199254740992)%Q; (-2812497967292875 # 2251799813685248)%Q]] 5 4) src_relu_output));
mout (qresult (qdenote [] [] (qenv_sd [[(6219471085398655 # 4503599627370496)%Q; (6368089873101881 # 4503599627370496)%Q; (1679842661009195 # 1125899906842624)%Q; (2758454771764429 # 2251799813685248)%Q]; [(3314649325744685 # 36028797018963968)%Q; (6613536052793573 # 2251799813685248)%Q; (4643211215818981 # 4503599627370496)%Q; (7034622617952715 # 4503599627370496)%Q]; [(4368491638549381 # 9007199254740992)%Q; (4303189443952509 # 2251799813685248)%Q; (-3119868641860911 # 1125899906842624)%Q; (-6800435437329449 # 9007199254740992)%Q]; [(-553942754166571 # 281474976710656)%Q; (2805742567851819 # 2251799813685248)%Q; (3 # 8)%Q; (4039728865751335 # 2251799813685248)%Q]; [(5080060379673919 # 18014398509481984)%Q; (-3239214031986229 # 1125899906842624)%Q; (8727976077844021 # 9007199254740992)%Q; (-2812497967292875 # 2251799813685248)%Q]] [[(-3260606130216239 # 2251799813685248)%Q; (-6944550625405305 # 9007199254740992)%Q; (-3978930270781833 # 2251799813685248)%Q; (-3920383475626017 # 2251799813685248)%Q]; [(3476778912330023 # 4503599627370496)%Q; (-1715871458028159 # 4503599627370496)%Q; (-5134103575202365 # 4503599627370496)%Q; (-8394709705418605 # 4503599627370496)%Q]; [(6836464234348413 # 4503599627370496)%Q; (-3057944146984567 # 4503599627370496)%Q; (-2513008592072737 # 2251799813685248)%Q; (-7962364141191037 # 36028797018963968)%Q]; [(-2740440373254947 # 2251799813685248)%Q; (-3656922897424843 # 18014398509481984)%Q; (-3075958545494049 # 4503599627370496)%Q; (-6818449835838931 # 9007199254740992)%Q]; [(941815272073855 # 562949953421312)%Q; (2362138004555825 # 2251799813685248)%Q; (1553741871442821 # 2251799813685248)%Q; (-8358680908399641 # 36028797018963968)%Q]] 5 4) src_relu_gradient));
mout (qresult (qdenote [] [] (qenv_s [[(2985886552946639 # 2251799813685248)%Q; (5332261958806667 # 4503599627370496)%Q; (-5735334125456327 # 2251799813685248)%Q; (-554787179096703 # 281474976710656)%Q]] 1 4) src_relu_output));
mout (qresult (qdenote [] [] (qenv_sd [[(2985886552946639 # 2251799813685248)%Q; (5332261958806667 # 4503599627370496)%Q; (-5735334125456327 # 2251799813685248)%Q; (-554787179096703 # 281474976710656)%Q]] [[(8106479329266893 # 18014398509481984)%Q; (3260606130216239 # 9007199254740992)%Q; (3242591731706757 # 36028797018963968)%Q; (-1946680938930897 # 1125899906842624)%Q]] 1 4) src_relu_gradient));
mout (qresult (qdenote [] [] (qenv_s [[(1172624752976593 # 562949953421312)%Q; (5111585577065513 # 4503599627370496)%Q; (7214766603047535 # 9007199254740992)%Q; (7530018576963469 # 4503599627370496)%Q]] 1 4) src_relu_output));
mout (qresult (qdenote [] [] (qenv_sd [[(1172624752976593 # 562949953421312)%Q; (5111585577065513 # 4503599627370496)%Q; (7214766603047535 # 9007199254740992)%Q; (7530018576963469 # 4503599627370496)%Q]] [[(-8291126913989083 # 4503599627370496)%Q; (-766737836559827 # 562949953421312)%Q; (8363184508027011 # 4503599627370496)%Q; (6543730258569331 # 4503599627370496)%Q]] 1 4) src_relu_gradient));
mout (qresult (qdenote [] [] (qenv_s [[(-6230730084467081 # 2251799813685248)%Q; (-2907073559467655 # 1125899906842624)%Q; (1261007895663739 # 4503599627370496)%Q; (6926536226895823 # 9007199254740992)%Q]; [(3116490942140383 # 4503599627370496)%Q; (-6753147641242059 # 2251799813685248)%Q; (-4530621225134719 # 9007199254740992)%Q; (5260204364768739 # 36028797018963968)%Q]; [(4674736413210575 # 9007199254740992)%Q; (3260606130216239 # 2251799813685248)%Q; (-7615586969883509 # 4503599627370496)%Q; (-3548836506367951 # 2251799813685248)%Q]] 3 4) src_relu_output));
mout (qresult (qdenote [] [] (qenv_sd [[(-6230730084467081 # 2251799813685248)%Q; (-2907073559467655 # 1125899906842624)%Q; (1261007895663739 # 4503599627370496)%Q; (6926536226895823 # 9007199254740992)%Q]; [(3116490942140383 # 4503599627370496)%Q; (-6753147641242059 # 2251799813685248)%Q; (-4530621225134719 # 9007199254740992)%Q; (5260204364768739 # 36028797018963968)%Q]; [(4674736413210575 # 9007199254740992)%Q; (3260606130216239 # 2251799813685248)%Q; (-7615586969883509 # 4503599627370496)%Q; (-3548836506367951 # 2251799813685248)%Q]] [[(-3949656873203925 # 2251799813685248)%Q; (-748723438050345 # 1125899906842624)%Q; (2531022990582219 # 4503599627370496)%Q; (-2368893403996881 # 2251799813685248)%Q]; [(5453859148745671 # 4503599627370496)%Q; (-7818248953115181 # 36028797018963968)%Q; (-1221601398924247 # 1125899906842624)%Q; (-3668181896493269 # 2251799813685248)%Q]; [(-4872894796814877 # 4503599627370496)%Q; (5440348349863559 # 4503599627370496)%Q; (-8412724103928087 # 9007199254740992)%Q; (-5733082325642641 # 4503599627370496)%Q]] 3 4) src_relu_gradient));
mout (qresult (qdenote [] [] (qenv_s [[(-2578310786669609 # 1125899906842624)%Q; (6595521654284091 # 2251799813685248)%Q; (-4852628598491709 # 2251799813685248)%Q; (-658651445502935 # 281474976710656)%Q]; [(-1964695337440379 # 1125899906842624)%Q; (-8074954131875299 # 4503599627370496)%Q; (-343680946563711 # 140737488355328)%Q; (5429089350795133 # 2251799813685248)%Q]; [(8795530072254579 # 4503599627370496)%Q; (-5111585577065513 # 4503599627370496)%Q; (-3141260740090921 # 1125899906842624)%Q; (-2051389630267261 # 2251799813685248)%Q]; [(3152519739159347 # 9007199254740992)%Q; (6692349046272557 # 4503599627370496)%Q; (8183040522932191 # 4503599627370496)%Q; (-3267361529657295 # 2251799813685248)%Q]] 4 4) src_relu_output));
mout (qresult (qdenote [] [] (qenv_sd [[(-2578310786669609 # 1125899906842624)%Q; (6595521654284091 # 2251799813685248)%Q; (-4852628598491709 # 2251799813685248)%Q; (-658651445502935 # 281474976710656)%Q]; [(-1964695337440379 # 1125899906842624)%Q; (-8074954131875299 # 4503599627370496)%Q; (-343680946563711 # 140737488355328)%Q; (5429089350795133 # 2251799813685248)%Q]; [(8795530072254579 # 4503599627370496)%Q; (-5111585577065513 # 4503599627370496)%Q; (-3141260740090921 # 1125899906842624)%Q; (-2051389630267261 # 2251799813685248)%Q]; [(3152519739159347 # 9007199254740992)%Q; (6692349046272557 # 4503599627370496)%Q; (8183040522932191 # 4503599627370496)%Q; (-3267361529657295 # 2251799813685248)%Q]] [[(325666548054229 # 281474976710656)%Q; (-5764607523034235 # 9007199254740992)%Q; (-1524468473864913 # 1125899906842624)%Q; (3913628076184961 # 2251799813685248)%Q]; [(-5116089176692883 # 9007199254740992)%Q; (1751900255047123 # 1125899906842624)%Q; (5147614374084477 # 4503599627370496)%Q; (-2314850208468435 # 9007199254740992)%Q]; [(-1012184016251519 # 1125899906842624)%Q; (-607985949695017 # 562949953421312)%Q; (-2242792614430507 # 4503599627370496)%Q; (7124694610500125 # 4503599627370496)%Q]; [(-2643612981266481 # 4503599627370496)%Q; (-5165628772593959 # 4503599627370496)%Q; (3656922897424843 # 4503599627370496)%Q; (8903616463311471 # 4503599627370496)%Q]] 4 4) src_relu_gradient));
mout (qresult (qdenote [] [] (qenv_s [[(-1272266894732165 # 562949953421312)%Q; (5296233161787703 # 2251799813685248)%Q; (1607785066971267 # 562949953421312)%Q; (8939645260330435 # 4503599627370496)%Q]; [(1131529406376837 # 1125899906842624)%Q; (3372070220993659 # 1125899906842624)%Q; (-2535526590209589 # 4503599627370496)%Q; (4607182418800017 # 4503599627370496)%Q]; [(-4111786459789263 # 2251799813685248)%Q; (-1188950301625811 # 4503599627370496)%Q; (4607182418800017 # 4503599627370496)%Q; (7304838595594945 # 9007199254740992)%Q]] 3 4) src_relu_output));
mout (qresult (qdenote [] [] (qenv_sd [[(-1272266894732165 # 562949953421312)%Q; (5296233161787703 # 2251799813685248)%Q; (1607785066971267 # 562949953421312)%Q; (8939645260330435 # 4503599627370496)%Q]; [(1131529406376837 # 1125899906842624)%Q; (3372070220993659 # 1125899906842624)%Q; (-2535526590209589 # 4503599627370496)%Q; (4607182418800017 # 4503599627370496)%Q]; [(-4111786459789263 # 2251799813685248)%Q; (-1188950301625811 # 4503599627370496)%Q; (4607182418800017 # 4503599627370496)%Q; (7304838595594945 # 9007199254740992)%Q]] [[(3386706919782613 # 2251799813685248)%Q; (7782220156096217 # 18014398509481984)%Q; (-8777515673745097 # 4503599627370496)%Q; (-8178536923304821 # 4503599627370496)%Q]; [(907475324915155 # 2251799813685248)%Q; (3949656873203925 # 2251799813685248)%Q; (7656119366529843 # 4503599627370496)%Q; (-3249347131147813 # 2251799813685248)%Q]; [(-360850920143061 # 562949953421312)%Q; (783063385209045 # 562949953421312)%Q; (-5998794703657501 # 18014398509481984)%Q; (2632353982198055 # 2251799813685248)%Q]] 3 4) src_relu_gradient));
mout (qresult (qdenote [] [] (qenv_s [[(-7493989779944505 # 576460752303423488)%Q; (2296835809958953 # 4503599627370496)%Q; (-1365716587000103 # 1125899906842624)%Q; (-8070450532247929 # 576460752303423488)%Q]; [(5985283904775389 # 2251799813685248)%Q; (4834614199982227 # 2251799813685248)%Q; (1805943450575569 # 2251799813685248)%Q; (3476778912330023 # 4503599627370496)%Q]; [(8201054921441673 # 4503599627370496)%Q; (5872693914091127 # 36028797018963968)%Q; (-4075757662770299 # 4503599627370496)%Q; (3098476543630901 # 9007199254740992)%Q]] 3 4) src_relu_output));
mout (qresult (qdenote [] [] (qenv_sd [[(-7493989779944505 # 576460752303423488)%Q; (2296835809958953 # 4503599627370496)%Q; (-1365716587000103 # 1125899906842624)%Q; (-8070450532247929 # 576460752303423488)%Q]; [(5985283904775389 # 2251799813685248)%Q; (4834614199982227 # 2251799813685248)%Q; (1805943450575569 # 2251799813685248)%Q; (3476778912330023 # 4503599627370496)%Q]; [(8201054921441673 # 4503599627370496)%Q; (5872693914091127 # 36028797018963968)%Q; (-4075757662770299 # 4503599627370496)%Q; (3098476543630901 # 9007199254740992)%Q]] [[(-8782019273372467 # 9007199254740992)%Q; (7367888990378131 # 18014398509481984)%Q; (7106680211990643 # 4503599627370496)%Q; (-5728578726015271 # 4503599627370496)%Q]; [(7867788549016257 # 4503599627370496)%Q; (-6052837899185947 # 18014398509481984)%Q; (-5746593124524753 # 9007199254740992)%Q; (4075757662770299 # 2251799813685248)%Q]; [(-6543730258569331 # 4503599627370496)%Q; (-4836865999795913 # 9007199254740992)%Q; (8358680908399641 # 18014398509481984)%Q; (5944751508129055 # 9007199254740992)%Q]] 3 4) src_relu_gradient));
mout (qresult (qdenote [] [] (qenv_s [[(8358680908399641 # 36028797018963968)%Q; (781374535348781 # 281474976710656)%Q; (-3895613677675479 # 4503599627370496)%Q; (5566449139429933 # 4503599627370496)%Q]; [(-7196752204538053 # 9007199254740992)%Q; (-1080863910568919 # 1125899906842624)%Q; (6723874243664151 # 2251799813685248)%Q; (1224979098644775 # 4503599627370496)%Q]; [(7782220156096217 # 72057594037927936)%Q; (-5021513584518103 # 4503599627370496)%Q; (6566248256706183 # 4503599627370496)%Q; (816558907437613 # 281474976710656)%Q]] 3 4) src_relu_output));
mout (qresult (qdenote [] [] (qenv_sd [[(8358680908399641 # 36028797018963968)%Q; (781374535348781 # 281474976710656)%Q; (-3895613677675479 # 4503599627370496)%Q; (5566449139429933 # 4503599627370496)%Q]; [(-7196752204538053 # 9007199254740992)%Q; (-1080863910568919 # 1125899906842624)%Q; (6723874243664151 # 2251799813685248)%Q; (1224979098644775 # 4503599627370496)%Q]; [(7782220156096217 # 72057594037927936)%Q; (-5021513584518103 # 4503599627370496)%Q; (6566248256706183 # 4503599627370496)%Q; (816558907437613 # 281474976710656)%Q]] [[(4087016661838725 # 2251799813685248)%Q; (-6602277053725147 # 9007199254740992)%Q; (5242189966259257 # 18014398509481984)%Q; (4854880398305395 # 9007199254740992)%Q]; [(3758253889040679 # 2251799813685248)%Q; (1100567158938665 # 562949953421312)%Q; (-7638104968020361 # 4503599627370496)%Q; (5363787156198261 # 4503599627370496)%Q]; [(-7142709009009607 # 4503599627370496)%Q; (4386506037058863 # 9007199254740992)%Q; (-5147614374084477 # 4503599627370496)%Q; (-2470224395612717 # 2251799813685248)%Q]] 3 4) src_relu_gradient));
mout (qresult (qdenote [((-5224175567749775 # 2251799813685248)%Q, (7081358136130643 # 72057594037927936)%Q); ((1365716587000103 # 1125899906842624)%Q, (236689508104777 # 70368744177664)%Q)] [] (qenv_s [[(-1365716587000103 # 1125899906842624)%Q]; [(5224175567749775 # 2251799813685248)%Q]] 2 1) src_sigmoid_output));
mout (qresult (qdenote [((-5224175567749775 # 2251799813685248)%Q, (7081358136130643 # 72057594037927936)%Q); ((1365716587000103 # 1125899906842624)%Q, (236689508104777 # 70368744177664)%Q)] [] (qenv_sd [[(-1365716587000103 # 1125899906842624)%Q]; [(5224175567749775 # 2251799813685248)%Q]] [[(2895814560399229 # 2251799813685248)%Q]; [(1030198414761001 # 562949953421312)%Q]] 2 1) src_sigmoid_gradient));
mout (qresult (qdenote [((-5543931141293081 # 2251799813685248)%Q, (6143936843696417 # 72057594037927936)%Q); ((5357031756757205 # 2251799813685248)%Q, (1519134996176049 # 140737488355328)%Q); ((3141260740090921 # 1125899906842624)%Q, (4582699669534127 # 281474976710656)%Q)] [] (qenv_s [[(-3141260740090921 # 1125899906842624)%Q]; [(5543931141293081 # 2251799813685248)%Q]; [(-5357031756757205 # 2251799813685248)%Q]] 3 1) src_sigmoid_output));
mout (qresult (qdenote [((-5543931141293081 # 2251799813685248)%Q, (6143936843696417 # 72057594037927936)%Q); ((5357031756757205 # 2251799813685248)%Q, (1519134996176049 # 140737488355328)%Q); ((3141260740090921 # 1125899906842624)%Q, (4582699669534127 # 281474976710656)%Q)] [] (qenv_sd [[(-3141260740090921 # 1125899906842624)%Q]; [(5543931141293081 # 2251799813685248)%Q]; [(-5357031756757205 # 2251799813685248)%Q]] [[(-869757678035927 # 562949953421312)%Q]; [(-1625799465480749 # 1125899906842624)%Q]; [(-1910652141911933 # 1125899906842624)%Q]] 3 1) src_sigmoid_gradient));
mout (qresult (qdenote [((-6428888468071383 # 2251799813685248)%Q, (8294667985697387 # 144115188075855872)%Q); ((-2542281989650645 # 1125899906842624)%Q, (470893650398531 # 4503599627370496)%Q); ((2368893403996881 # 4503599627370496)%Q, (3810383398664487 # 2251799813685248)%Q); ((290482175965397 # 281474976710656)%Q, (6320067027038067 # 2251799813685248)%Q); ((272467777455915 # 140737488355328)%Q, (3901790118335725 # 562949953421312)%Q)] [] (qenv_s [[(-290482175965397 # 281474976710656)%Q]; [(-2368893403996881 # 4503599627370496)%Q]; [(2542281989650645 # 1125899906842624)%Q]; [(6428888468071383 # 2251799813685248)%Q]; [(-272467777455915 # 140737488355328)%Q]] 5 1) src_sigmoid_output));
mout (qresult (qdenote [((-6428888468071383 # 2251799813685248)%Q, (8294667985697387 # 144115188075855872)%Q); ((-2542281989650645 # 1125899906842624)%Q, (470893650398531 # 4503599627370496)%Q); ((2368893403996881 # 4503599627370496)%Q, (3810383398664487 # 2251799813685248)%Q); ((290482175965397 # 281474976710656)%Q, (6320067027038067 # 2251799813685248)%Q); ((272467777455915 # 140737488355328)%Q, (3901790118335725 # 562949953421312)%Q)] [] (qenv_sd [[(-290482175965397 # 281474976710656)%Q]; [(-2368893403996881 # 4503599627370496)%Q]; [(2542281989650645 # 1125899906842624)%Q]; [(6428888468071383 # 2251799813685248)%Q]; [(-272467777455915 # 140737488355328)%Q]] [[(8764004874862985 # 4503599627370496)%Q]; [(1661828262499713 # 4503599627370496)%Q]; [(4530621225134719 # 9007199254740992)%Q]; [(-6070852297695429 # 4503599627370496)%Q]; [(-7057140616089567 # 4503599627370496)%Q]] 5 1) src_sigmoid_gradient));
mout (qresult (qdenote [((-1242993497154257 # 562949953421312)%Q, (1980147536523887 # 18014398509481984)%Q); ((3224577333197275 # 9007199254740992)%Q, (3221122217679787 # 2251799813685248)%Q); ((4422534834077827 # 4503599627370496)%Q, (3005916860467679 # 1125899906842624)%Q); ((4625196817309499 # 4503599627370496)%Q, (6288545561237071 # 2251799813685248)%Q); ((1272266894732165 # 562949953421312)%Q, (5394799600062285 # 562949953421312)%Q)] [] (qenv_s [[(-3224577333197275 # 9007199254740992)%Q]; [(-4625196817309499 # 4503599627370496)%Q]; [(-4422534834077827 # 4503599627370496)%Q]; [(-1272266894732165 # 562949953421312)%Q]; [(1242993497154257 # 562949953421312)%Q]] 5 1) src_sigmoid_output));
mout (qresult (qdenote [((-1242993497154257 # 562949953421312)%Q, (1980147536523887 # 18014398509481984)%Q); ((3224577333197275 # 9007199254740992)%Q, (3221122217679787 # 2251799813685248)%Q); ((4422534834077827 # 4503599627370496)%Q, (3005916860467679 # 1125899906842624)%Q); ((4625196817309499 # 4503599627370496)%Q, (6288545561237071 # 2251799813685248)%Q); ((1272266894732165 # 562949953421312)%Q, (5394799600062285 # 562949953421312)%Q)] [] (qenv_sd [[(-3224577333197275 # 9007199254740992)%Q]; [(-4625196817309499 # 4503599627370496)%Q]; [(-4422534834077827 # 4503599627370496)%Q]; [(-1272266894732165 # 562949953421312)%Q]; [(1242993497154257 # 562949953421312)%Q]] [[(-8196551321814303 # 9007199254740992)%Q]; [(-3931642474694443 # 2251799813685248)%Q]; [(8529817694239719 # 9007199254740992)%Q]; [(6399615070493475 # 4503599627370496)%Q]; [(8993688455858881 # 4503599627370496)%Q]] 5 1) src_sigmoid_gradient));
mout (qresult (qdenote [((-6223974685026025 # 4503599627370496)%Q, (4522981296667725 # 18014398509481984)%Q); ((-4895412794951729 # 4503599627370496)%Q, (189841731231233 # 562949953421312)%Q); ((-7926335344172073 # 144115188075855872)%Q, (8525180319270037 # 9007199254740992)%Q); ((5332261958806667 # 36028797018963968)%Q, (2610990923995787 # 2251799813685248)%Q); ((2105432825795707 # 2251799813685248)%Q, (2867907394776627 # 1125899906842624)%Q)] [] (qenv_s [[(-2105432825795707 # 2251799813685248)%Q]; [(4895412794951729 # 4503599627370496)%Q]; [(-5332261958806667 # 36028797018963968)%Q]; [(6223974685026025 # 4503599627370496)%Q]; [(7926335344172073 # 144115188075855872)%Q]] 5 1) src_sigmoid_output));
mout (qresult (qdenote [((-6223974685026025 # 4503599627370496)%Q, (4522981296667725 # 18014398509481984)%Q); ((-4895412794951729 # 4503599627370496)%Q, (189841731231233 # 562949953421312)%Q); ((-7926335344172073 # 144115188075855872)%Q, (8525180319270037 # 9007199254740992)%Q); ((5332261958806667 # 36028797018963968)%Q, (2610990923995787 # 2251799813685248)%Q); ((2105432825795707 # 2251799813685248)%Q, (2867907394776627 # 1125899906842624)%Q)] [] (qenv_sd [[(-2105432825795707 # 2251799813685248)%Q]; [(4895412794951729 # 4503599627370496)%Q]; [(-5332261958806667 # 36028797018963968)%Q]; [(6223974685026025 # 4503599627370496)%Q]; [(7926335344172073 # 144115188075855872)%Q]] [[(3321404725185741 # 2251799813685248)%Q]; [(-6178938688752321 # 18014398509481984)%Q]; [(3530822107858469 # 4503599627370496)%Q]; [(-6692349046272557 # 4503599627370496)%Q]; [(4147815256808227 # 2251799813685248)%Q]] 5 1) src_sigmoid_gradient));
mout (qresult (qdenote [((-1048212813270483 # 1125899906842624)%Q, (7100543676896303 # 18014398509481984)%Q)] [] (qenv_s [[(1048212813270483 # 1125899906842624)%Q]] 1 1) src_sigmoid_output));
mout (qresult (qdenote [((-1048212813270483 # 1125899906842624)%Q, (7100543676896303 # 18014398509481984)%Q)] [] (qenv_sd [[(1048212813270483 # 1125899906842624)%Q]] [[(-5224175567749775 # 36028797018963968)%Q]] 1 1) src_sigmoid_gradient));
mout (qresult (qdenote [((-1643813863990231 # 562949953421312)%Q, (7772663488915207 # 144115188075855872)%Q); ((-1943303239210369 # 2251799813685248)%Q, (3800087811544061 # 9007199254740992)%Q); ((8214565720323785 # 18014398509481984)%Q, (3552777932386991 # 2251799813685248)%Q); ((3967671271713407 # 4503599627370496)%Q, (339643443035663 # 140737488355328)%Q)] [] (qenv_s [[(-8214565720323785 # 18014398509481984)%Q]; [(1643813863990231 # 562949953421312)%Q]; [(1943303239210369 # 2251799813685248)%Q]; [(-3967671271713407 # 4503599627370496)%Q]] 4 1) src_sigmoid_output));
mout (qresult (qdenote [((-1643813863990231 # 562949953421312)%Q, (7772663488915207 # 144115188075855872)%Q); ((-1943303239210369 # 2251799813685248)%Q, (3800087811544061 # 9007199254740992)%Q); ((8214565720323785 # 18014398509481984)%Q, (3552777932386991 # 2251799813685248)%Q); ((3967671271713407 # 4503599627370496)%Q, (339643443035663 # 140737488355328)%Q)] [] (qenv_sd [[(-8214565720323785 # 18014398509481984)%Q]; [(1643813863990231 # 562949953421312)%Q]; [(1943303239210369 # 2251799813685248)%Q]; [(-3967671271713407 # 4503599627370496)%Q]] [[(-3303390326676259 # 2251799813685248)%Q]; [(3278620528725721 # 9007199254740992)%Q]; [(-8854076867410395 # 4503599627370496)%Q]; [(-7399414187769725 # 4503599627370496)%Q]] 4 1) src_sigmoid_gradient));
mout (qresult (qdenote [((2224778215921025 # 1125899906842624)%Q, (8122050387602433 # 1125899906842624)%Q); ((1485061977125421 # 562949953421312)%Q, (1968242655143017 # 140737488355328)%Q)] [] (qenv_s [[(-1485061977125421 # 562949953421312)%Q]; [(-2224778215921025 # 1125899906842624)%Q]] 2 1) src_sigmoid_output));
mout (qresult (qdenote [((2224778215921025 # 1125899906842624)%Q, (8122050387602433 # 1125899906842624)%Q); ((1485061977125421 # 562949953421312)%Q, (1968242655143017 # 140737488355328)%Q)] [] (qenv_sd [[(-1485061977125421 # 562949953421312)%Q]; [(-2224778215921025 # 1125899906842624)%Q]] [[(3 # 2)%Q]; [(5260204364768739 # 72057594037927936)%Q]] 2 1) src_sigmoid_gradient))
].
Eval vm_compute in the_cases.
