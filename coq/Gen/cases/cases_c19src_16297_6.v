From SKN Require Import Base.Util Model.Gnn Model.NpExpr Gen.NpGnn.
Set Printing Depth 10000000.
Set Printing Width 1000000.
Definition qout (q : Q) : Z * Z := let r := Qred q in (Qnum r, Zpos (Qden r)).
Definition mout (m : list (list Q)) : list (list (Z * Z)) := map (map qout) m.

Definition the_cases := [
mout (qresult (qdenote [((-1203587000414765 # 1125899906842624)%Q, (6185274307628271 # 18014398509481984)%Q); ((-1062849512059437 # 9007199254740992)%Q, (8004662422801643 # 9007199254740992)%Q); ((-7854277750134145 # 72057594037927936)%Q, (8077029548193685 # 9007199254740992)%Q); ((6147413491360727 # 2251799813685248)%Q, (8631648033670995 # 562949953421312)%Q)] [((16154059096387370 # 314561395327090767)%Q, (-6685611475295433 # 2251799813685248)%Q)] (qenv_sl [[(-7854277750134145 # 72057594037927936)%Q; (6147413491360727 # 2251799813685248)%Q; (-1062849512059437 # 9007199254740992)%Q; (-1203587000414765 # 1125899906842624)%Q]] [0] 1 4) src_ce_loss));
mout (qresult (qdenote [((-1203587000414765 # 1125899906842624)%Q, (6185274307628271 # 18014398509481984)%Q); ((-1062849512059437 # 9007199254740992)%Q, (8004662422801643 # 9007199254740992)%Q); ((-7854277750134145 # 72057594037927936)%Q, (8077029548193685 # 9007199254740992)%Q); ((6147413491360727 # 2251799813685248)%Q, (8631648033670995 # 562949953421312)%Q)] [] (qenv_sl [[(-7854277750134145 # 72057594037927936)%Q; (6147413491360727 # 2251799813685248)%Q; (-1062849512059437 # 9007199254740992)%Q; (-1203587000414765 # 1125899906842624)%Q]] [0] 1 4) src_ce_loss_gradient));
mout (qresult (qdenote [((-5224175567749775 # 2251799813685248)%Q, (7081358136130643 # 72057594037927936)%Q); ((-4224376450473525 # 2251799813685248)%Q, (2759836269505211 # 18014398509481984)%Q); ((-3039929748475085 # 2251799813685248)%Q, (4670057364977069 # 18014398509481984)%Q); ((-1823957849085051 # 4503599627370496)%Q, (3003796516846987 # 4503599627370496)%Q); ((8070450532247929 # 9007199254740992)%Q, (1379105985346265 # 562949953421312)%Q); ((2272066012008415 # 1125899906842624)%Q, (1058805188170759 # 140737488355328)%Q); ((2380152403065307 # 1125899906842624)%Q, (2330978815765627 # 281474976710656)%Q); ((1467047578615939 # 562949953421312)%Q, (238281995829381 # 17592186044416)%Q)] [((7081358136130643 # 670552908701591223)%Q, (-5123561653324685 # 1125899906842624)%Q); ((135527064085857152 # 426419055615728987)%Q, (-1290564126117875 # 1125899906842624)%Q)] (qenv_sl [[(2380152403065307 # 1125899906842624)%Q; (-5224175567749775 # 2251799813685248)%Q; (-3039929748475085 # 2251799813685248)%Q; (-1823957849085051 # 4503599627370496)%Q]; [(-4224376450473525 # 2251799813685248)%Q; (8070450532247929 # 9007199254740992)%Q; (2272066012008415 # 1125899906842624)%Q; (1467047578615939 # 562949953421312)%Q]] [1; 2] 2 4) src_ce_loss));
mout (qresult (qdenote [((-5224175567749775 # 2251799813685248)%Q, (7081358136130643 # 72057594037927936)%Q); ((-4224376450473525 # 2251799813685248)%Q, (2759836269505211 # 18014398509481984)%Q); ((-3039929748475085 # 2251799813685248)%Q, (4670057364977069 # 18014398509481984)%Q); ((-1823957849085051 # 4503599627370496)%Q, (3003796516846987 # 4503599627370496)%Q); ((8070450532247929 # 9007199254740992)%Q, (1379105985346265 # 562949953421312)%Q); ((2272066012008415 # 1125899906842624)%Q, (1058805188170759 # 140737488355328)%Q); ((2380152403065307 # 1125899906842624)%Q, (2330978815765627 # 281474976710656)%Q); ((1467047578615939 # 562949953421312)%Q, (238281995829381 # 17592186044416)%Q)] [] (qenv_sl [[(2380152403065307 # 1125899906842624)%Q; (-5224175567749775 # 2251799813685248)%Q; (-3039929748475085 # 2251799813685248)%Q; (-1823957849085051 # 4503599627370496)%Q]; [(-4224376450473525 # 2251799813685248)%Q; (8070450532247929 # 9007199254740992)%Q; (2272066012008415 # 1125899906842624)%Q; (1467047578615939 # 562949953421312)%Q]] [1; 2] 2 4) src_ce_loss_gradient));
mout (qresult (qdenote [((-2889059160958173 # 1125899906842624)%Q, (5537071309297403 # 72057594037927936)%Q); ((-4771563805199041 # 2251799813685248)%Q, (8657843875385985 # 72057594037927936)%Q); ((-8412724103928087 # 18014398509481984)%Q, (705804235396791 # 1125899906842624)%Q); ((6160924290242839 # 18014398509481984)%Q, (6339988751311491 # 4503599627370496)%Q)] [((11292867766348656 # 40201551567765467)%Q, (-714796828882405 # 562949953421312)%Q)] (qenv_sl [[(-4771563805199041 # 2251799813685248)%Q; (-2889059160958173 # 1125899906842624)%Q; (-8412724103928087 # 18014398509481984)%Q; (6160924290242839 # 18014398509481984)%Q]] [2] 1 4) src_ce_loss));
mout (qresult (qdenote [((-2889059160958173 # 1125899906842624)%Q, (5537071309297403 # 72057594037927936)%Q); ((-4771563805199041 # 2251799813685248)%Q, (8657843875385985 # 72057594037927936)%Q); ((-8412724103928087 # 18014398509481984)%Q, (705804235396791 # 1125899906842624)%Q); ((6160924290242839 # 18014398509481984)%Q, (6339988751311491 # 4503599627370496)%Q)] [] (qenv_sl [[(-4771563805199041 # 2251799813685248)%Q; (-2889059160958173 # 1125899906842624)%Q; (-8412724103928087 # 18014398509481984)%Q; (6160924290242839 # 18014398509481984)%Q]] [2] 1 4) src_ce_loss_gradient));
mout (qresult (qdenote [((-1681531510869459 # 562949953421312)%Q, (1817239399109767 # 36028797018963968)%Q); ((-5111585577065513 # 2251799813685248)%Q, (3722213565800669 # 36028797018963968)%Q); ((-2336242306698445 # 1125899906842624)%Q, (4523647040578669 # 36028797018963968)%Q); ((-2156098321603625 # 1125899906842624)%Q, (5308548978648999 # 36028797018963968)%Q); ((-2066026329056215 # 1125899906842624)%Q, (5750682456689571 # 36028797018963968)%Q); ((-1892637743402451 # 1125899906842624)%Q, (838514834810629 # 4503599627370496)%Q); ((-7075155014599049 # 4503599627370496)%Q, (3744062887414193 # 18014398509481984)%Q); ((-6967068623542157 # 4503599627370496)%Q, (1917503682575981 # 9007199254740992)%Q); ((-5579959938312045 # 4503599627370496)%Q, (652287289292941 # 2251799813685248)%Q); ((-5399815953217225 # 4503599627370496)%Q, (2715630554259361 # 9007199254740992)%Q); ((-4674736413210575 # 4503599627370496)%Q, (6380020785880309 # 18014398509481984)%Q); ((-308496574474879 # 562949953421312)%Q, (2603552853111223 # 4503599627370496)%Q); ((-1224979098644775 # 9007199254740992)%Q, (3930933754429279 # 4503599627370496)%Q); ((-8214565720323785 # 72057594037927936)%Q, (8036745195260749 # 9007199254740992)%Q); ((1134907106097365 # 18014398509481984)%Q, (1199113619075421 # 1125899906842624)%Q); ((149744687610069 # 1125899906842624)%Q, (5144236666846965 # 4503599627370496)%Q); ((4782822804267467 # 9007199254740992)%Q, (7658966049865217 # 4503599627370496)%Q); ((5548434740920451 # 9007199254740992)%Q, (1042305881468985 # 562949953421312)%Q); ((7746191359077253 # 9007199254740992)%Q, (2660682404897505 # 1125899906842624)%Q); ((2069404028776743 # 2251799813685248)%Q, (5644772037176513 # 2251799813685248)%Q); ((1149543804886319 # 1125899906842624)%Q, (6250927255641285 # 2251799813685248)%Q); ((1098878309078401 # 562949953421312)%Q, (7929441727349943 # 1125899906842624)%Q); ((2311472508747907 # 1125899906842624)%Q, (8772156165191455 # 1125899906842624)%Q); ((4816599801472745 # 2251799813685248)%Q, (37343559772291 # 4398046511104)%Q)] [((6380020785880309 # 214777920766833247)%Q, (-7918303652291551 # 2251799813685248)%Q); ((652287289292941 # 11223112173524972)%Q, (-3203461559295937 # 1125899906842624)%Q); ((3197636317534456 # 27580739212094973)%Q, (-2425983046406553 # 1125899906842624)%Q); ((253608629318018 # 1054795041731517)%Q, (-6419023353502451 # 4503599627370496)%Q); ((3835007365151962 # 10749513472410373)%Q, (-4641811226130349 # 4503599627370496)%Q); ((56141799457225312 # 78485987904885215)%Q, (-754441855251711 # 2251799813685248)%Q)] (qenv_sl [[(4782822804267467 # 9007199254740992)%Q; (149744687610069 # 1125899906842624)%Q; (-5579959938312045 # 4503599627370496)%Q; (5548434740920451 # 9007199254740992)%Q]; [(1149543804886319 # 1125899906842624)%Q; (4816599801472745 # 2251799813685248)%Q; (-5399815953217225 # 4503599627370496)%Q; (-4674736413210575 # 4503599627370496)%Q]; [(-6967068623542157 # 4503599627370496)%Q; (-2336242306698445 # 1125899906842624)%Q; (-7075155014599049 # 4503599627370496)%Q; (-1681531510869459 # 562949953421312)%Q]; [(-2156098321603625 # 1125899906842624)%Q; (-5111585577065513 # 2251799813685248)%Q; (2069404028776743 # 2251799813685248)%Q; (-1224979098644775 # 9007199254740992)%Q]; [(-1892637743402451 # 1125899906842624)%Q; (-8214565720323785 # 72057594037927936)%Q; (1134907106097365 # 18014398509481984)%Q; (1098878309078401 # 562949953421312)%Q]; [(-2066026329056215 # 1125899906842624)%Q; (7746191359077253 # 9007199254740992)%Q; (2311472508747907 # 1125899906842624)%Q; (-308496574474879 # 562949953421312)%Q]] [2; 3; 0; 3; 2; 2] 6 4) src_ce_loss));
mout (qresult (qdenote [((-1681531510869459 # 562949953421312)%Q, (1817239399109767 # 36028797018963968)%Q); ((-5111585577065513 # 2251799813685248)%Q, (3722213565800669 # 36028797018963968)%Q); ((-2336242306698445 # 1125899906842624)%Q, (4523647040578669 # 36028797018963968)%Q); ((-2156098321603625 # 1125899906842624)%Q, (5308548978648999 # 36028797018963968)%Q); ((-2066026329056215 # 1125899906842624)%Q, (5750682456689571 # 36028797018963968)%Q); ((-1892637743402451 # 1125899906842624)%Q, (838514834810629 # 4503599627370496)%Q); ((-7075155014599049 # 4503599627370496)%Q, (3744062887414193 # 18014398509481984)%Q); ((-6967068623542157 # 4503599627370496)%Q, (1917503682575981 # 9007199254740992)%Q); ((-5579959938312045 # 4503599627370496)%Q, (652287289292941 # 2251799813685248)%Q); ((-5399815953217225 # 4503599627370496)%Q, (2715630554259361 # 9007199254740992)%Q); ((-4674736413210575 # 4503599627370496)%Q, (6380020785880309 # 18014398509481984)%Q); ((-308496574474879 # 562949953421312)%Q, (2603552853111223 # 4503599627370496)%Q); ((-1224979098644775 # 9007199254740992)%Q, (3930933754429279 # 4503599627370496)%Q); ((-8214565720323785 # 72057594037927936)%Q, (8036745195260749 # 9007199254740992)%Q); ((1134907106097365 # 18014398509481984)%Q, (1199113619075421 # 1125899906842624)%Q); ((149744687610069 # 1125899906842624)%Q, (5144236666846965 # 4503599627370496)%Q); ((4782822804267467 # 9007199254740992)%Q, (7658966049865217 # 4503599627370496)%Q); ((5548434740920451 # 9007199254740992)%Q, (1042305881468985 # 562949953421312)%Q); ((7746191359077253 # 9007199254740992)%Q, (2660682404897505 # 1125899906842624)%Q); ((2069404028776743 # 2251799813685248)%Q, (5644772037176513 # 2251799813685248)%Q); ((1149543804886319 # 1125899906842624)%Q, (6250927255641285 # 2251799813685248)%Q); ((1098878309078401 # 562949953421312)%Q, (7929441727349943 # 1125899906842624)%Q); ((2311472508747907 # 1125899906842624)%Q, (8772156165191455 # 1125899906842624)%Q); ((4816599801472745 # 2251799813685248)%Q, (37343559772291 # 4398046511104)%Q)] [] (qenv_sl [[(4782822804267467 # 9007199254740992)%Q; (149744687610069 # 1125899906842624)%Q; (-5579959938312045 # 4503599627370496)%Q; (5548434740920451 # 9007199254740992)%Q]; [(1149543804886319 # 1125899906842624)%Q; (4816599801472745 # 2251799813685248)%Q; (-5399815953217225 # 4503599627370496)%Q; (-4674736413210575 # 4503599627370496)%Q]; [(-6967068623542157 # 4503599627370496)%Q; (-2336242306698445 # 1125899906842624)%Q; (-7075155014599049 # 4503599627370496)%Q; (-1681531510869459 # 562949953421312)%Q]; [(-2156098321603625 # 1125899906842624)%Q; (-5111585577065513 # 2251799813685248)%Q; (2069404028776743 # 2251799813685248)%Q; (-1224979098644775 # 9007199254740992)%Q]; [(-1892637743402451 # 1125899906842624)%Q; (-8214565720323785 # 72057594037927936)%Q; (1134907106097365 # 18014398509481984)%Q; (1098878309078401 # 562949953421312)%Q]; [(-2066026329056215 # 1125899906842624)%Q; (7746191359077253 # 9007199254740992)%Q; (2311472508747907 # 1125899906842624)%Q; (-308496574474879 # 562949953421312)%Q]] [2; 3; 0; 3; 2; 2] 6 4) src_ce_loss_gradient));
mout (qresult (qdenote [((-6723874243664151 # 2251799813685248)%Q, (1819057547431525 # 36028797018963968)%Q); ((-5136355375016051 # 2251799813685248)%Q, (7362987174104537 # 72057594037927936)%Q); ((-6530219459687219 # 4503599627370496)%Q, (1056410662051417 # 4503599627370496)%Q); ((-5080060379673919 # 4503599627370496)%Q, (5830899958894665 # 18014398509481984)%Q); ((-3075958545494049 # 4503599627370496)%Q, (4549531109368111 # 9007199254740992)%Q); ((1488439676845949 # 2251799813685248)%Q, (4361123962253085 # 2251799813685248)%Q); ((2931843357418193 # 2251799813685248)%Q, (8279063131671229 # 2251799813685248)%Q); ((4357232639480955 # 2251799813685248)%Q, (3897890278462313 # 562949953421312)%Q)] [((7362987174104537 # 51227272697368919)%Q, (-8736111126439643 # 4503599627370496)%Q); ((3488899169802468 # 23495304788092475)%Q, (-8589329802669217 # 4503599627370496)%Q)] (qenv_sl [[(-6723874243664151 # 2251799813685248)%Q; (-5136355375016051 # 2251799813685248)%Q; (-5080060379673919 # 4503599627370496)%Q; (-6530219459687219 # 4503599627370496)%Q]; [(2931843357418193 # 2251799813685248)%Q; (4357232639480955 # 2251799813685248)%Q; (1488439676845949 # 2251799813685248)%Q; (-3075958545494049 # 4503599627370496)%Q]] [1; 2] 2 4) src_ce_loss));
mout (qresult (qdenote [((-6723874243664151 # 2251799813685248)%Q, (1819057547431525 # 36028797018963968)%Q); ((-5136355375016051 # 2251799813685248)%Q, (7362987174104537 # 72057594037927936)%Q); ((-6530219459687219 # 4503599627370496)%Q, (1056410662051417 # 4503599627370496)%Q); ((-5080060379673919 # 4503599627370496)%Q, (5830899958894665 # 18014398509481984)%Q); ((-3075958545494049 # 4503599627370496)%Q, (4549531109368111 # 9007199254740992)%Q); ((1488439676845949 # 2251799813685248)%Q, (4361123962253085 # 2251799813685248)%Q); ((2931843357418193 # 2251799813685248)%Q, (8279063131671229 # 2251799813685248)%Q); ((4357232639480955 # 2251799813685248)%Q, (3897890278462313 # 562949953421312)%Q)] [] (qenv_sl [[(-6723874243664151 # 2251799813685248)%Q; (-5136355375016051 # 2251799813685248)%Q; (-5080060379673919 # 4503599627370496)%Q; (-6530219459687219 # 4503599627370496)%Q]; [(2931843357418193 # 2251799813685248)%Q; (4357232639480955 # 2251799813685248)%Q; (1488439676845949 # 2251799813685248)%Q; (-3075958545494049 # 4503599627370496)%Q]] [1; 2] 2 4) src_ce_loss_gradient));
mout (qresult (qdenote [((-1643813863990231 # 1125899906842624)%Q, (522949600167427 # 2251799813685248)%Q); ((-5170132372221329 # 4503599627370496)%Q, (1428860100973241 # 4503599627370496)%Q); ((-2362138004555825 # 2251799813685248)%Q, (3155112568537713 # 9007199254740992)%Q); ((-3548836506367951 # 9007199254740992)%Q, (3037020676400247 # 4503599627370496)%Q); ((-6124895493223875 # 36028797018963968)%Q, (7599057107298143 # 9007199254740992)%Q); ((7944349742681555 # 9007199254740992)%Q, (5439732101712665 # 2251799813685248)%Q); ((1694479359798149 # 1125899906842624)%Q, (2535613076373335 # 562949953421312)%Q); ((8705458079707169 # 4503599627370496)%Q, (972525572122839 # 140737488355328)%Q); ((4537376624575775 # 2251799813685248)%Q, (8445068259748335 # 1125899906842624)%Q); ((4836865999795913 # 2251799813685248)%Q, (301449350175057 # 35184372088832)%Q); ((5733082325642641 # 2251799813685248)%Q, (7180977045240989 # 562949953421312)%Q); ((6034823500676465 # 2251799813685248)%Q, (4105338795780791 # 281474976710656)%Q)] [((3155112568537713 # 149978490692008693)%Q, (-2173813069543433 # 562949953421312)%Q); ((4445831186847264 # 22240416500474951)%Q, (-3625272390965705 # 2251799813685248)%Q); ((40569809221973360 # 76001836088922657)%Q, (-1413529782686687 # 2251799813685248)%Q)] (qenv_sl [[(8705458079707169 # 4503599627370496)%Q; (5733082325642641 # 2251799813685248)%Q; (-5170132372221329 # 4503599627370496)%Q; (6034823500676465 # 2251799813685248)%Q]; [(1694479359798149 # 1125899906842624)%Q; (-6124895493223875 # 36028797018963968)%Q; (7944349742681555 # 9007199254740992)%Q; (-3548836506367951 # 9007199254740992)%Q]; [(4537376624575775 # 2251799813685248)%Q; (4836865999795913 # 2251799813685248)%Q; (-1643813863990231 # 1125899906842624)%Q; (-2362138004555825 # 2251799813685248)%Q]] [0; 0; 3] 3 4) src_ce_loss));
mout (qresult (qdenote [((-1643813863990231 # 1125899906842624)%Q, (522949600167427 # 2251799813685248)%Q); ((-5170132372221329 # 4503599627370496)%Q, (1428860100973241 # 4503599627370496)%Q); ((-2362138004555825 # 2251799813685248)%Q, (3155112568537713 # 9007199254740992)%Q); ((-3548836506367951 # 9007199254740992)%Q, (3037020676400247 # 4503599627370496)%Q); ((-6124895493223875 # 36028797018963968)%Q, (7599057107298143 # 9007199254740992)%Q); ((7944349742681555 # 9007199254740992)%Q, (5439732101712665 # 2251799813685248)%Q); ((1694479359798149 # 1125899906842624)%Q, (2535613076373335 # 562949953421312)%Q); ((8705458079707169 # 4503599627370496)%Q, (972525572122839 # 140737488355328)%Q); ((4537376624575775 # 2251799813685248)%Q, (8445068259748335 # 1125899906842624)%Q); ((4836865999795913 # 2251799813685248)%Q, (301449350175057 # 35184372088832)%Q); ((5733082325642641 # 2251799813685248)%Q, (7180977045240989 # 562949953421312)%Q); ((6034823500676465 # 2251799813685248)%Q, (4105338795780791 # 281474976710656)%Q)] [] (qenv_sl [[(8705458079707169 # 4503599627370496)%Q; (5733082325642641 # 2251799813685248)%Q; (-5170132372221329 # 4503599627370496)%Q; (6034823500676465 # 2251799813685248)%Q]; [(1694479359798149 # 1125899906842624)%Q; (-6124895493223875 # 36028797018963968)%Q; (7944349742681555 # 9007199254740992)%Q; (-3548836506367951 # 9007199254740992)%Q]; [(4537376624575775 # 2251799813685248)%Q; (4836865999795913 # 2251799813685248)%Q; (-1643813863990231 # 1125899906842624)%Q; (-2362138004555825 # 2251799813685248)%Q]] [0; 0; 3] 3 4) src_ce_loss_gradient));
mout (qresult (qdenote [((-6255499882417619 # 2251799813685248)%Q, (8958590434259833 # 144115188075855872)%Q); ((-378020893722411 # 140737488355328)%Q, (153466928243003 # 2251799813685248)%Q); ((-1503076375634903 # 562949953421312)%Q, (1247537184390993 # 18014398509481984)%Q); ((-677510268942549 # 281474976710656)%Q, (3245659404683215 # 36028797018963968)%Q); ((-1697857059518677 # 1125899906842624)%Q, (7975054925731945 # 36028797018963968)%Q); ((-5872693914091127 # 4503599627370496)%Q, (4889897564568471 # 18014398509481984)%Q); ((-1224979098644775 # 1125899906842624)%Q, (6068863500455519 # 18014398509481984)%Q); ((-7692148163548807 # 9007199254740992)%Q, (958610742038929 # 2251799813685248)%Q); ((7782220156096217 # 288230376151711744)%Q, (289178328356131 # 281474976710656)%Q); ((3476778912330023 # 18014398509481984)%Q, (5462338496936793 # 4503599627370496)%Q); ((4530621225134719 # 4503599627370496)%Q, (1539465768280609 # 562949953421312)%Q); ((1483373127265157 # 562949953421312)%Q, (7849387101676331 # 562949953421312)%Q)] [((7975054925731945 # 618641433732113047)%Q, (-1224755973984287 # 281474976710656)%Q); ((7668885936311432 # 33472897877503359)%Q, (-1659086400667159 # 1125899906842624)%Q); ((174794831901977376 # 206716357430098013)%Q, (-6043279554519751 # 36028797018963968)%Q)] (qenv_sl [[(-378020893722411 # 140737488355328)%Q; (-1224979098644775 # 1125899906842624)%Q; (7782220156096217 # 288230376151711744)%Q; (-7692148163548807 # 9007199254740992)%Q]; [(-1503076375634903 # 562949953421312)%Q; (3476778912330023 # 18014398509481984)%Q; (-677510268942549 # 281474976710656)%Q; (-6255499882417619 # 2251799813685248)%Q]; [(1483373127265157 # 562949953421312)%Q; (4530621225134719 # 4503599627370496)%Q; (-1697857059518677 # 1125899906842624)%Q; (-5872693914091127 # 4503599627370496)%Q]] [3; 1; 2] 3 4) src_ce_loss));
mout (qresult (qdenote [((-6255499882417619 # 2251799813685248)%Q, (8958590434259833 # 144115188075855872)%Q); ((-378020893722411 # 140737488355328)%Q, (153466928243003 # 2251799813685248)%Q); ((-1503076375634903 # 562949953421312)%Q, (1247537184390993 # 18014398509481984)%Q); ((-677510268942549 # 281474976710656)%Q, (3245659404683215 # 36028797018963968)%Q); ((-1697857059518677 # 1125899906842624)%Q, (7975054925731945 # 36028797018963968)%Q); ((-5872693914091127 # 4503599627370496)%Q, (4889897564568471 # 18014398509481984)%Q); ((-1224979098644775 # 1125899906842624)%Q, (6068863500455519 # 18014398509481984)%Q); ((-7692148163548807 # 9007199254740992)%Q, (958610742038929 # 2251799813685248)%Q); ((7782220156096217 # 288230376151711744)%Q, (289178328356131 # 281474976710656)%Q); ((3476778912330023 # 18014398509481984)%Q, (5462338496936793 # 4503599627370496)%Q); ((4530621225134719 # 4503599627370496)%Q, (1539465768280609 # 562949953421312)%Q); ((1483373127265157 # 562949953421312)%Q, (7849387101676331 # 562949953421312)%Q)] [] (qenv_sl [[(-378020893722411 # 140737488355328)%Q; (-1224979098644775 # 1125899906842624)%Q; (7782220156096217 # 288230376151711744)%Q; (-7692148163548807 # 9007199254740992)%Q]; [(-1503076375634903 # 562949953421312)%Q; (3476778912330023 # 18014398509481984)%Q; (-677510268942549 # 281474976710656)%Q; (-6255499882417619 # 2251799813685248)%Q]; [(1483373127265157 # 562949953421312)%Q; (4530621225134719 # 4503599627370496)%Q; (-1697857059518677 # 1125899906842624)%Q; (-5872693914091127 # 4503599627370496)%Q]] [3; 1; 2] 3 4) src_ce_loss_gradient));
mout (qresult (qdenote [((-5890708312600609 # 2251799813685248)%Q, (5267025154962383 # 72057594037927936)%Q); ((-5615988735331009 # 2251799813685248)%Q, (2975221636499435 # 36028797018963968)%Q); ((-1383730985509585 # 562949953421312)%Q, (3084280904083433 # 36028797018963968)%Q); ((-4978729388058083 # 2251799813685248)%Q, (3948431991348491 # 36028797018963968)%Q); ((-8417227703555457 # 4503599627370496)%Q, (5558445794854951 # 36028797018963968)%Q); ((-3848325881588089 # 2251799813685248)%Q, (6522896566080999 # 36028797018963968)%Q); ((-6142909891733357 # 4503599627370496)%Q, (4605132099170579 # 18014398509481984)%Q); ((-3602879701896397 # 9007199254740992)%Q, (3018853109545079 # 4503599627370496)%Q); ((-889460926405673 # 2251799813685248)%Q, (6067970347456283 # 9007199254740992)%Q); ((-7421932185906577 # 36028797018963968)%Q, (1832589169544773 # 2251799813685248)%Q); ((2733684973813891 # 4503599627370496)%Q, (8263737724545819 # 4503599627370496)%Q); ((5998794703657501 # 9007199254740992)%Q, (8765968374168625 # 4503599627370496)%Q); ((3769512888109105 # 4503599627370496)%Q, (325023136942749 # 140737488355328)%Q); ((8673932882315575 # 9007199254740992)%Q, (2949343588108575 # 1125899906842624)%Q); ((1607785066971267 # 1125899906842624)%Q, (2347698420086023 # 562949953421312)%Q); ((853432129386709 # 562949953421312)%Q, (5127317577676605 # 1125899906842624)%Q); ((3787527286618587 # 2251799813685248)%Q, (6053173216197943 # 1125899906842624)%Q); ((2332864606977917 # 1125899906842624)%Q, (2235105145592297 # 281474976710656)%Q); ((4823355200913801 # 2251799813685248)%Q, (2397168554611135 # 281474976710656)%Q); ((4877398396442247 # 2251799813685248)%Q, (2455396540840041 # 281474976710656)%Q); ((1364027737139839 # 562949953421312)%Q, (6349877062789979 # 562949953421312)%Q); ((361273132608127 # 140737488355328)%Q, (7333372110903003 # 562949953421312)%Q); ((3159275138600403 # 1125899906842624)%Q, (2328306295407329 # 140737488355328)%Q); ((3293257227514675 # 1125899906842624)%Q, (1311267085854105 # 70368744177664)%Q)] [((2975221636499435 # 179343929224575386)%Q, (-4615048877388017 # 1125899906842624)%Q); ((8263737724545819 # 150202484438972996)%Q, (-816307630745497 # 281474976710656)%Q); ((5558445794854951 # 65674650463477450)%Q, (-5560582024249305 # 2251799813685248)%Q); ((24212692864791772 # 73393968685981571)%Q, (-4994333313892151 # 4503599627370496)%Q); ((406392132018558656 # 1176088306786683307)%Q, (-4785663136993893 # 4503599627370496)%Q); ((613675149980450560 # 1548029087361474383)%Q, (-8334110420061537 # 9007199254740992)%Q)] (qenv_sl [[(1607785066971267 # 1125899906842624)%Q; (-5890708312600609 # 2251799813685248)%Q; (4877398396442247 # 2251799813685248)%Q; (4823355200913801 # 2251799813685248)%Q]; [(8673932882315575 # 9007199254740992)%Q; (1364027737139839 # 562949953421312)%Q; (-4978729388058083 # 2251799813685248)%Q; (3293257227514675 # 1125899906842624)%Q]; [(-5615988735331009 # 2251799813685248)%Q; (-6142909891733357 # 4503599627370496)%Q; (-1383730985509585 # 562949953421312)%Q; (853432129386709 # 562949953421312)%Q]; [(2332864606977917 # 1125899906842624)%Q; (3769512888109105 # 4503599627370496)%Q; (3787527286618587 # 2251799813685248)%Q; (-3602879701896397 # 9007199254740992)%Q]; [(361273132608127 # 140737488355328)%Q; (2733684973813891 # 4503599627370496)%Q; (3159275138600403 # 1125899906842624)%Q; (5998794703657501 # 9007199254740992)%Q]; [(-889460926405673 # 2251799813685248)%Q; (-7421932185906577 # 36028797018963968)%Q; (-8417227703555457 # 4503599627370496)%Q; (-3848325881588089 # 2251799813685248)%Q]] [3; 1; 0; 2; 1; 2] 6 4) src_ce_loss));
mout (qresult (qdenote [((-5890708312600609 # 2251799813685248)%Q, (5267025154962383 # 72057594037927936)%Q); ((-5615988735331009 # 2251799813685248)%Q, (2975221636499435 # 36028797018963968)%Q); ((-1383730985509585 # 562949953421312)%Q, (3084280904083433 # 36028797018963968)%Q); ((-4978729388058083 # 2251799813685248)%Q, (3948431991348491 # 36028797018963968)%Q); ((-8417227703555457 # 4503599627370496)%Q, (5558445794854951 # 36028797018963968)%Q); ((-3848325881588089 # 2251799813685248)%Q, (6522896566080999 # 36028797018963968)%Q); ((-6142909891733357 # 4503599627370496)%Q, (4605132099170579 # 18014398509481984)%Q); ((-3602879701896397 # 9007199254740992)%Q, (3018853109545079 # 4503599627370496)%Q); ((-889460926405673 # 2251799813685248)%Q, (6067970347456283 # 9007199254740992)%Q); ((-7421932185906577 # 36028797018963968)%Q, (1832589169544773 # 2251799813685248)%Q); ((2733684973813891 # 4503599627370496)%Q, (8263737724545819 # 4503599627370496)%Q); ((5998794703657501 # 9007199254740992)%Q, (8765968374168625 # 4503599627370496)%Q); ((3769512888109105 # 4503599627370496)%Q, (325023136942749 # 140737488355328)%Q); ((8673932882315575 # 9007199254740992)%Q, (2949343588108575 # 1125899906842624)%Q); ((1607785066971267 # 1125899906842624)%Q, (2347698420086023 # 562949953421312)%Q); ((853432129386709 # 562949953421312)%Q, (5127317577676605 # 1125899906842624)%Q); ((3787527286618587 # 2251799813685248)%Q, (6053173216197943 # 1125899906842624)%Q); ((2332864606977917 # 1125899906842624)%Q, (2235105145592297 # 281474976710656)%Q); ((4823355200913801 # 2251799813685248)%Q, (2397168554611135 # 281474976710656)%Q); ((4877398396442247 # 2251799813685248)%Q, (2455396540840041 # 281474976710656)%Q); ((1364027737139839 # 562949953421312)%Q, (6349877062789979 # 562949953421312)%Q); ((361273132608127 # 140737488355328)%Q, (7333372110903003 # 562949953421312)%Q); ((3159275138600403 # 1125899906842624)%Q, (2328306295407329 # 140737488355328)%Q); ((3293257227514675 # 1125899906842624)%Q, (1311267085854105 # 70368744177664)%Q)] [] (qenv_sl [[(1607785066971267 # 1125899906842624)%Q; (-5890708312600609 # 2251799813685248)%Q; (4877398396442247 # 2251799813685248)%Q; (4823355200913801 # 2251799813685248)%Q]; [(8673932882315575 # 9007199254740992)%Q; (1364027737139839 # 562949953421312)%Q; (-4978729388058083 # 2251799813685248)%Q; (3293257227514675 # 1125899906842624)%Q]; [(-5615988735331009 # 2251799813685248)%Q; (-6142909891733357 # 4503599627370496)%Q; (-1383730985509585 # 562949953421312)%Q; (853432129386709 # 562949953421312)%Q]; [(2332864606977917 # 1125899906842624)%Q; (3769512888109105 # 4503599627370496)%Q; (3787527286618587 # 2251799813685248)%Q; (-3602879701896397 # 9007199254740992)%Q]; [(361273132608127 # 140737488355328)%Q; (2733684973813891 # 4503599627370496)%Q; (3159275138600403 # 1125899906842624)%Q; (5998794703657501 # 9007199254740992)%Q]; [(-889460926405673 # 2251799813685248)%Q; (-7421932185906577 # 36028797018963968)%Q; (-8417227703555457 # 4503599627370496)%Q; (-3848325881588089 # 2251799813685248)%Q]] [3; 1; 0; 2; 1; 2] 6 4) src_ce_loss_gradient));
mout (qresult (qdenote [((-6681090047204131 # 2251799813685248)%Q, (7415800280484803 # 144115188075855872)%Q); ((-1 # 1)%Q, (828390857088487 # 2251799813685248)%Q); ((-8637904085296611 # 9007199254740992)%Q, (6904486069378117 # 18014398509481984)%Q); ((4555391023085257 # 2251799813685248)%Q, (8512899770100059 # 1125899906842624)%Q)] [((7415800280484803 # 151530988356340675)%Q, (-6794079170831309 # 2251799813685248)%Q); ((1125899906842624 # 9638799676942683)%Q, (-4835095979180059 # 2251799813685248)%Q); ((828390857088487 # 3080190670773735)%Q, (-5914404846547017 # 4503599627370496)%Q); ((6904486069378117 # 24918884578860101)%Q, (-2890082778517891 # 2251799813685248)%Q); ((18014398509481984 # 24918884578860101)%Q, (-2922427028774953 # 9007199254740992)%Q); ((2251799813685248 # 3080190670773735)%Q, (-1410805219176521 # 4503599627370496)%Q); ((8512899770100059 # 9638799676942683)%Q, (-8950558595033661 # 72057594037927936)%Q); ((144115188075855872 # 151530988356340675)%Q, (-3615651956069677 # 72057594037927936)%Q)] (qenv_sl [[(-4555391023085257 # 2251799813685248)%Q]; [(8637904085296611 # 9007199254740992)%Q]; [(1 # 1)%Q]; [(6681090047204131 # 2251799813685248)%Q]] [1; 0; 1; 1] 4 1) src_bce_loss));
mout (qresult (qdenote [((-6681090047204131 # 2251799813685248)%Q, (7415800280484803 # 144115188075855872)%Q); ((-1 # 1)%Q, (828390857088487 # 2251799813685248)%Q); ((-8637904085296611 # 9007199254740992)%Q, (6904486069378117 # 18014398509481984)%Q); ((4555391023085257 # 2251799813685248)%Q, (8512899770100059 # 1125899906842624)%Q)] [] (qenv_sl [[(-4555391023085257 # 2251799813685248)%Q]; [(8637904085296611 # 9007199254740992)%Q]; [(1 # 1)%Q]; [(6681090047204131 # 2251799813685248)%Q]] [1; 0; 1; 1] 4 1) src_bce_loss_gradient));
mout (qresult (qdenote [((8583860889768165 # 4503599627370496)%Q, (7572949586365219 # 1125899906842624)%Q)] [((1125899906842624 # 8698849493207843)%Q, (-1151012058117497 # 562949953421312)%Q); ((7572949586365219 # 8698849493207843)%Q, (-2496942300687245 # 18014398509481984)%Q)] (qenv_sl [[(-8583860889768165 # 4503599627370496)%Q]] [1] 1 1) src_bce_loss));
mout (qresult (qdenote [((8583860889768165 # 4503599627370496)%Q, (7572949586365219 # 1125899906842624)%Q)] [] (qenv_sl [[(-8583860889768165 # 4503599627370496)%Q]] [1] 1 1) src_bce_loss_gradient));
mout (qresult (qdenote [((3512807709348987 # 9007199254740992)%Q, (6651730152963249 # 4503599627370496)%Q); ((2841771364870783 # 2251799813685248)%Q, (1988609105746269 # 562949953421312)%Q); ((7417428586279207 # 4503599627370496)%Q, (365311052694123 # 70368744177664)%Q); ((2260807012939989 # 1125899906842624)%Q, (4193079602084867 # 562949953421312)%Q)] [((562949953421312 # 4756029555506179)%Q, (-2402645339396099 # 1125899906842624)%Q); ((70368744177664 # 435679796871787)%Q, (-4105387684333447 # 2251799813685248)%Q); ((562949953421312 # 2551559059167581)%Q, (-6806151025735139 # 4503599627370496)%Q); ((4503599627370496 # 11155329780333745)%Q, (-8169893585135023 # 9007199254740992)%Q); ((6651730152963249 # 11155329780333745)%Q, (-4657085875786035 # 9007199254740992)%Q); ((1988609105746269 # 2551559059167581)%Q, (-8980866367948585 # 36028797018963968)%Q); ((365311052694123 # 435679796871787)%Q, (-6346774259101499 # 36028797018963968)%Q); ((4193079602084867 # 4756029555506179)%Q, (-4538826446595515 # 36028797018963968)%Q)] (qenv_sl [[(-2841771364870783 # 2251799813685248)%Q]; [(-2260807012939989 # 1125899906842624)%Q]; [(-7417428586279207 # 4503599627370496)%Q]; [(-3512807709348987 # 9007199254740992)%Q]] [0; 1; 0; 0] 4 1) src_bce_loss));
mout (qresult (qdenote [((3512807709348987 # 9007199254740992)%Q, (6651730152963249 # 4503599627370496)%Q); ((2841771364870783 # 2251799813685248)%Q, (1988609105746269 # 562949953421312)%Q); ((7417428586279207 # 4503599627370496)%Q, (365311052694123 # 70368744177664)%Q); ((2260807012939989 # 1125899906842624)%Q, (4193079602084867 # 562949953421312)%Q)] [] (qenv_sl [[(-2841771364870783 # 2251799813685248)%Q]; [(-2260807012939989 # 1125899906842624)%Q]; [(-7417428586279207 # 4503599627370496)%Q]; [(-3512807709348987 # 9007199254740992)%Q]] [0; 1; 0; 0] 4 1) src_bce_loss_gradient));
mout (qresult (qdenote [((-6687845446645187 # 4503599627370496)%Q, (4080303428276359 # 18014398509481984)%Q); ((1170935903116329 # 562949953421312)%Q, (70408053163523 # 8796093022208)%Q); ((6111384694341763 # 2251799813685248)%Q, (2123660161759277 # 140737488355328)%Q); ((1624110615620485 # 562949953421312)%Q, (5039406271986667 # 281474976710656)%Q)] [((281474976710656 # 5320881248697323)%Q, (-6618829281874453 # 2251799813685248)%Q); ((140737488355328 # 2264397650114605)%Q, (-6255877495783287 # 2251799813685248)%Q); ((8796093022208 # 79204146185731)%Q, (-4948827738627053 # 2251799813685248)%Q); ((4080303428276359 # 22094701937758343)%Q, (-7607329589045221 # 4503599627370496)%Q); ((18014398509481984 # 22094701937758343)%Q, (-7355873139200273 # 36028797018963968)%Q); ((70408053163523 # 79204146185731)%Q, (-4241346018587789 # 36028797018963968)%Q); ((2123660161759277 # 2264397650114605)%Q, (-4623769646128759 # 72057594037927936)%Q); ((5039406271986667 # 5320881248697323)%Q, (-7832756441120837 # 144115188075855872)%Q)] (qenv_sl [[(-6111384694341763 # 2251799813685248)%Q]; [(6687845446645187 # 4503599627370496)%Q]; [(-1624110615620485 # 562949953421312)%Q]; [(-1170935903116329 # 562949953421312)%Q]] [0; 0; 0; 0] 4 1) src_bce_loss));
mout (qresult (qdenote [((-6687845446645187 # 4503599627370496)%Q, (4080303428276359 # 18014398509481984)%Q); ((1170935903116329 # 562949953421312)%Q, (70408053163523 # 8796093022208)%Q); ((6111384694341763 # 2251799813685248)%Q, (2123660161759277 # 140737488355328)%Q); ((1624110615620485 # 562949953421312)%Q, (5039406271986667 # 281474976710656)%Q)] [] (qenv_sl [[(-6111384694341763 # 2251799813685248)%Q]; [(6687845446645187 # 4503599627370496)%Q]; [(-1624110615620485 # 562949953421312)%Q]; [(-1170935903116329 # 562949953421312)%Q]] [0; 0; 0; 0] 4 1) src_bce_loss_gradient));
mout (qresult (qdenote [((-3051188747543511 # 2251799813685248)%Q, (4646765356697879 # 18014398509481984)%Q); ((7638104968020361 # 144115188075855872)%Q, (74198889950749 # 70368744177664)%Q); ((2769713770832855 # 4503599627370496)%Q, (8330112772534261 # 4503599627370496)%Q); ((4751297606875873 # 4503599627370496)%Q, (202097284889491 # 70368744177664)%Q); ((5890708312600609 # 4503599627370496)%Q, (8328886832091505 # 2251799813685248)%Q); ((6332061076082917 # 2251799813685248)%Q, (585579531659499 # 35184372088832)%Q)] [((35184372088832 # 620763903748331)%Q, (-6463450922717463 # 2251799813685248)%Q); ((4646765356697879 # 22661163866179863)%Q, (-7135869217058147 # 4503599627370496)%Q); ((2251799813685248 # 10580686645776753)%Q, (-6968422004925881 # 4503599627370496)%Q); ((70368744177664 # 272466029067155)%Q, (-6096814435038811 # 4503599627370496)%Q); ((4503599627370496 # 12833712399904757)%Q, (-1179040688684387 # 1125899906842624)%Q); ((70368744177664 # 144567634128413)%Q, (-6485167831161461 # 9007199254740992)%Q); ((74198889950749 # 144567634128413)%Q, (-1501946567665047 # 2251799813685248)%Q); ((8330112772534261 # 12833712399904757)%Q, (-7785795935618773 # 18014398509481984)%Q); ((202097284889491 # 272466029067155)%Q, (-2691033656325875 # 9007199254740992)%Q); ((8328886832091505 # 10580686645776753)%Q, (-8621709538602173 # 36028797018963968)%Q); ((18014398509481984 # 22661163866179863)%Q, (-8267933775769005 # 36028797018963968)%Q); ((585579531659499 # 620763903748331)%Q, (-4204475092305451 # 72057594037927936)%Q)] (qenv_sl [[(-6332061076082917 # 2251799813685248)%Q]; [(-7638104968020361 # 144115188075855872)%Q]; [(-2769713770832855 # 4503599627370496)%Q]; [(3051188747543511 # 2251799813685248)%Q]; [(-5890708312600609 # 4503599627370496)%Q]; [(-4751297606875873 # 4503599627370496)%Q]] [0; 0; 0; 1; 0; 0] 6 1) src_bce_loss));
mout (qresult (qdenote [((-3051188747543511 # 2251799813685248)%Q, (4646765356697879 # 18014398509481984)%Q); ((7638104968020361 # 144115188075855872)%Q, (74198889950749 # 70368744177664)%Q); ((2769713770832855 # 4503599627370496)%Q, (8330112772534261 # 4503599627370496)%Q); ((4751297606875873 # 4503599627370496)%Q, (202097284889491 # 70368744177664)%Q); ((5890708312600609 # 4503599627370496)%Q, (8328886832091505 # 2251799813685248)%Q); ((6332061076082917 # 2251799813685248)%Q, (585579531659499 # 35184372088832)%Q)] [] (qenv_sl [[(-6332061076082917 # 2251799813685248)%Q]; [(-7638104968020361 # 144115188075855872)%Q]; [(-2769713770832855 # 4503599627370496)%Q]; [(3051188747543511 # 2251799813685248)%Q]; [(-5890708312600609 # 4503599627370496)%Q]; [(-4751297606875873 # 4503599627370496)%Q]] [0; 0; 0; 1; 0; 0] 6 1) src_bce_loss_gradient));
mout (qresult (qdenote [((-5775866522102661 # 2251799813685248)%Q, (5542611150065431 # 72057594037927936)%Q)] [((5542611150065431 # 77600205187993367)%Q, (-5942734694692617 # 2251799813685248)%Q); ((72057594037927936 # 77600205187993367)%Q, (-5339781522878593 # 72057594037927936)%Q)] (qenv_sl [[(5775866522102661 # 2251799813685248)%Q]] [0] 1 1) src_bce_loss));
mout (qresult (qdenote [((-5775866522102661 # 2251799813685248)%Q, (5542611150065431 # 72057594037927936)%Q)] [] (qenv_sl [[(5775866522102661 # 2251799813685248)%Q]] [0] 1 1) src_bce_loss_gradient));
mout (qresult (qdenote [((-1697857059518677 # 2251799813685248)%Q, (1059428713856341 # 2251799813685248)%Q)] [((1059428713856341 # 3311228527541589)%Q, (-5132254681993727 # 4503599627370496)%Q); ((2251799813685248 # 3311228527541589)%Q, (-6946162251825493 # 18014398509481984)%Q)] (qenv_sl [[(1697857059518677 # 2251799813685248)%Q]] [0] 1 1) src_bce_loss));
mout (qresult (qdenote [((-1697857059518677 # 2251799813685248)%Q, (1059428713856341 # 2251799813685248)%Q)] [] (qenv_sl [[(1697857059518677 # 2251799813685248)%Q]] [0] 1 1) src_bce_loss_gradient));
mout (qresult (qdenote [((-1344324488770093 # 1125899906842624)%Q, (5458485418118027 # 18014398509481984)%Q); ((-4553139223271571 # 4503599627370496)%Q, (6554627936375245 # 18014398509481984)%Q); ((-5188146770730811 # 72057594037927936)%Q, (261921162227005 # 281474976710656)%Q); ((9 # 8)%Q, (867003965812973 # 281474976710656)%Q); ((7 # 4)%Q, (6479106616831167 # 1125899906842624)%Q); ((2892436860678701 # 1125899906842624)%Q, (3674026765825875 # 281474976710656)%Q)] [((281474976710656 # 3955501742536531)%Q, (-2975549873121107 # 1125899906842624)%Q); ((1125899906842624 # 7605006523673791)%Q, (-2150721193026773 # 1125899906842624)%Q); ((5458485418118027 # 23472883927600011)%Q, (-6569286043532461 # 4503599627370496)%Q); ((281474976710656 # 1148478942523629)%Q, (-3166368614817441 # 2251799813685248)%Q); ((6554627936375245 # 24569026445857229)%Q, (-5950674672661229 # 4503599627370496)%Q); ((261921162227005 # 543396138937661)%Q, (-410838084135561 # 562949953421312)%Q); ((281474976710656 # 543396138937661)%Q, (-5924890999827623 # 9007199254740992)%Q); ((18014398509481984 # 24569026445857229)%Q, (-2795070898779315 # 9007199254740992)%Q); ((867003965812973 # 1148478942523629)%Q, (-5064750595372299 # 18014398509481984)%Q); ((18014398509481984 # 23472883927600011)%Q, (-1191988088452089 # 4503599627370496)%Q); ((6479106616831167 # 7605006523673791)%Q, (-5772683393669789 # 36028797018963968)%Q); ((3674026765825875 # 3955501742536531)%Q, (-5319232796313983 # 72057594037927936)%Q)] (qenv_sl [[(-7 # 4)%Q]; [(-2892436860678701 # 1125899906842624)%Q]; [(-9 # 8)%Q]; [(5188146770730811 # 72057594037927936)%Q]; [(4553139223271571 # 4503599627370496)%Q]; [(1344324488770093 # 1125899906842624)%Q]] [0; 1; 0; 1; 0; 1] 6 1) src_bce_loss));
mout (qresult (qdenote [((-1344324488770093 # 1125899906842624)%Q, (5458485418118027 # 18014398509481984)%Q); ((-4553139223271571 # 4503599627370496)%Q, (6554627936375245 # 18014398509481984)%Q); ((-5188146770730811 # 72057594037927936)%Q, (261921162227005 # 281474976710656)%Q); ((9 # 8)%Q, (867003965812973 # 281474976710656)%Q); ((7 # 4)%Q, (6479106616831167 # 1125899906842624)%Q); ((2892436860678701 # 1125899906842624)%Q, (3674026765825875 # 281474976710656)%Q)] [] (qenv_sl [[(-7 # 4)%Q]; [(-2892436860678701 # 1125899906842624)%Q]; [(-9 # 8)%Q]; [(5188146770730811 # 72057594037927936)%Q]; [(4553139223271571 # 4503599627370496)%Q]; [(1344324488770093 # 1125899906842624)%Q]] [0; 1; 0; 1; 0; 1] 6 1) src_bce_loss_gradient));
mout (qresult (qdenote [((-430375239390593 # 281474976710656)%Q, (7809325026759805 # 36028797018963968)%Q); ((-4620693217682129 # 4503599627370496)%Q, (6457042239779037 # 18014398509481984)%Q); ((-7493989779944505 # 36028797018963968)%Q, (7315710615767167 # 9007199254740992)%Q); ((5728578726015271 # 18014398509481984)%Q, (1547410104482825 # 1125899906842624)%Q); ((3134505340649865 # 4503599627370496)%Q, (4516465927827599 # 2251799813685248)%Q); ((676665844012417 # 562949953421312)%Q, (7491206107818099 # 2251799813685248)%Q); ((6201456686889173 # 4503599627370496)%Q, (2230967733450425 # 562949953421312)%Q); ((1224979098644775 # 562949953421312)%Q, (4960147372666745 # 562949953421312)%Q)] [((562949953421312 # 5523097326088057)%Q, (-5141992441042795 # 2251799813685248)%Q); ((7809325026759805 # 43838122045723773)%Q, (-7769543735909021 # 4503599627370496)%Q); ((562949953421312 # 2793917686871737)%Q, (-7214808699086465 # 4503599627370496)%Q); ((2251799813685248 # 9743005921503347)%Q, (-6596962232255469 # 4503599627370496)%Q); ((6457042239779037 # 24471440749261021)%Q, (-3000152602295445 # 2251799813685248)%Q); ((1125899906842624 # 2673310011325449)%Q, (-3894419215610035 # 4503599627370496)%Q); ((7315710615767167 # 16322909870508159)%Q, (-7228686867089371 # 9007199254740992)%Q); ((1547410104482825 # 2673310011325449)%Q, (-4924549068212435 # 9007199254740992)%Q); ((4516465927827599 # 6768265741512847)%Q, (-3643547857702487 # 9007199254740992)%Q); ((7491206107818099 # 9743005921503347)%Q, (-4734541920624535 # 18014398509481984)%Q); ((2230967733450425 # 2793917686871737)%Q, (-2026704024394583 # 9007199254740992)%Q); ((4960147372666745 # 5523097326088057)%Q, (-7746433486838245 # 72057594037927936)%Q)] (qenv_sl [[(4620693217682129 # 4503599627370496)%Q; (-676665844012417 # 562949953421312)%Q]; [(-5728578726015271 # 18014398509481984)%Q; (430375239390593 # 281474976710656)%Q]; [(7493989779944505 # 36028797018963968)%Q; (-1224979098644775 # 562949953421312)%Q]; [(-6201456686889173 # 4503599627370496)%Q; (-3134505340649865 # 4503599627370496)%Q]] [1; 0; 1; 0] 4 2) src_bce_loss));
mout (qresult (qdenote [((-430375239390593 # 281474976710656)%Q, (7809325026759805 # 36028797018963968)%Q); ((-4620693217682129 # 4503599627370496)%Q, (6457042239779037 # 18014398509481984)%Q); ((-7493989779944505 # 36028797018963968)%Q, (7315710615767167 # 9007199254740992)%Q); ((5728578726015271 # 18014398509481984)%Q, (1547410104482825 # 1125899906842624)%Q); ((3134505340649865 # 4503599627370496)%Q, (4516465927827599 # 2251799813685248)%Q); ((676665844012417 # 562949953421312)%Q, (7491206107818099 # 2251799813685248)%Q); ((6201456686889173 # 4503599627370496)%Q, (2230967733450425 # 562949953421312)%Q); ((1224979098644775 # 562949953421312)%Q, (4960147372666745 # 562949953421312)%Q)] [] (qenv_sl [[(4620693217682129 # 4503599627370496)%Q; (-676665844012417 # 562949953421312)%Q]; [(-5728578726015271 # 18014398509481984)%Q; (430375239390593 # 281474976710656)%Q]; [(7493989779944505 # 36028797018963968)%Q; (-1224979098644775 # 562949953421312)%Q]; [(-6201456686889173 # 4503599627370496)%Q; (-3134505340649865 # 4503599627370496)%Q]] [1; 0; 1; 0] 4 2) src_bce_loss_gradient));
mout (qresult (qdenote [((-5082312179487605 # 2251799813685248)%Q, (7541836473188105 # 72057594037927936)%Q); ((-4607182418800017 # 2251799813685248)%Q, (4656753520296323 # 36028797018963968)%Q); ((-7836263351624663 # 4503599627370496)%Q, (3161894443258509 # 18014398509481984)%Q); ((3098476543630901 # 72057594037927936)%Q, (4701478314247159 # 4503599627370496)%Q); ((7782220156096217 # 72057594037927936)%Q, (5017225010995437 # 4503599627370496)%Q); ((6147413491360727 # 4503599627370496)%Q, (4408712219460121 # 1125899906842624)%Q); ((1715871458028159 # 1125899906842624)%Q, (1292125157717017 # 281474976710656)%Q); ((3440750115311059 # 2251799813685248)%Q, (5189216036582435 # 1125899906842624)%Q)] [((7541836473188105 # 79599430511116041)%Q, (-5306459084631137 # 2251799813685248)%Q); ((4656753520296323 # 40685550539260291)%Q, (-2440449375760417 # 1125899906842624)%Q); ((3161894443258509 # 21176292952740493)%Q, (-8564544697366813 # 4503599627370496)%Q); ((281474976710656 # 1573600134427673)%Q, (-7751045345749081 # 4503599627370496)%Q); ((4503599627370496 # 9520824638365933)%Q, (-6742829647000039 # 9007199254740992)%Q); ((4503599627370496 # 9205077941617655)%Q, (-3219525590352661 # 4503599627370496)%Q); ((4701478314247159 # 9205077941617655)%Q, (-6051741612751459 # 9007199254740992)%Q); ((5017225010995437 # 9520824638365933)%Q, (-1442513031872003 # 2251799813685248)%Q); ((4408712219460121 # 5534612126302745)%Q, (-4097174153753433 # 18014398509481984)%Q); ((1292125157717017 # 1573600134427673)%Q, (-7100476109091559 # 36028797018963968)%Q); ((5189216036582435 # 6315115943425059)%Q, (-7074740054777647 # 36028797018963968)%Q); ((18014398509481984 # 21176292952740493)%Q, (-1456562691484299 # 9007199254740992)%Q)] (qenv_sl [[(5082312179487605 # 2251799813685248)%Q; (-3098476543630901 # 72057594037927936)%Q]; [(7836263351624663 # 4503599627370496)%Q; (-3440750115311059 # 2251799813685248)%Q]; [(-1715871458028159 # 1125899906842624)%Q; (-6147413491360727 # 4503599627370496)%Q]; [(-7782220156096217 # 72057594037927936)%Q; (4607182418800017 # 2251799813685248)%Q]] [1; 0; 0; 0] 4 2) src_bce_loss));
mout (qresult (qdenote [((-5082312179487605 # 2251799813685248)%Q, (7541836473188105 # 72057594037927936)%Q); ((-4607182418800017 # 2251799813685248)%Q, (4656753520296323 # 36028797018963968)%Q); ((-7836263351624663 # 4503599627370496)%Q, (3161894443258509 # 18014398509481984)%Q); ((3098476543630901 # 72057594037927936)%Q, (4701478314247159 # 4503599627370496)%Q); ((7782220156096217 # 72057594037927936)%Q, (5017225010995437 # 4503599627370496)%Q); ((6147413491360727 # 4503599627370496)%Q, (4408712219460121 # 1125899906842624)%Q); ((1715871458028159 # 1125899906842624)%Q, (1292125157717017 # 281474976710656)%Q); ((3440750115311059 # 2251799813685248)%Q, (5189216036582435 # 1125899906842624)%Q)] [] (qenv_sl [[(5082312179487605 # 2251799813685248)%Q; (-3098476543630901 # 72057594037927936)%Q]; [(7836263351624663 # 4503599627370496)%Q; (-3440750115311059 # 2251799813685248)%Q]; [(-1715871458028159 # 1125899906842624)%Q; (-6147413491360727 # 4503599627370496)%Q]; [(-7782220156096217 # 72057594037927936)%Q; (4607182418800017 # 2251799813685248)%Q]] [1; 0; 0; 0] 4 2) src_bce_loss_gradient));
mout (qresult (qdenote [((-5104830177624457 # 2251799813685248)%Q, (7466793946443297 # 72057594037927936)%Q); ((-5064297780978123 # 2251799813685248)%Q, (118787705446875 # 1125899906842624)%Q); ((-941815272073855 # 562949953421312)%Q, (6761998861283437 # 36028797018963968)%Q); ((-6836464234348413 # 4503599627370496)%Q, (1973925450840349 # 9007199254740992)%Q); ((-2296835809958953 # 9007199254740992)%Q, (1744956825730387 # 2251799813685248)%Q); ((3602879701896397 # 72057594037927936)%Q, (4734504117904435 # 4503599627370496)%Q); ((6106881094714393 # 18014398509481984)%Q, (6320997286498373 # 4503599627370496)%Q); ((4944952390852805 # 9007199254740992)%Q, (7798075669399151 # 4503599627370496)%Q); ((2805742567851819 # 2251799813685248)%Q, (7828178199502451 # 2251799813685248)%Q); ((158118568167211 # 70368744177664)%Q, (5325121096835275 # 562949953421312)%Q)] [((7466793946443297 # 79524387984371233)%Q, (-665856649069545 # 281474976710656)%Q); ((118787705446875 # 1244687612289499)%Q, (-1322539424182051 # 562949953421312)%Q); ((562949953421312 # 5888071050256587)%Q, (-5286084290539407 # 2251799813685248)%Q); ((6761998861283437 # 42790795880247405)%Q, (-4154580775945843 # 2251799813685248)%Q); ((1973925450840349 # 10981124705581341)%Q, (-3864434555504917 # 2251799813685248)%Q); ((4503599627370496 # 12301675296769647)%Q, (-4525480194512213 # 4503599627370496)%Q); ((1744956825730387 # 3996756639415635)%Q, (-3732373406228027 # 4503599627370496)%Q); ((4503599627370496 # 9238103745274931)%Q, (-6471309206146749 # 9007199254740992)%Q); ((4734504117904435 # 9238103745274931)%Q, (-3010474621704849 # 4503599627370496)%Q); ((6320997286498373 # 10824596913868869)%Q, (-605671147218719 # 1125899906842624)%Q); ((7798075669399151 # 12301675296769647)%Q, (-8212015996343243 # 18014398509481984)%Q); ((7828178199502451 # 10079978013187699)%Q, (-1138605767288509 # 4503599627370496)%Q); ((9007199254740992 # 10981124705581341)%Q, (-7139239013291367 # 36028797018963968)%Q); ((36028797018963968 # 42790795880247405)%Q, (-6197115002406769 # 36028797018963968)%Q); ((5325121096835275 # 5888071050256587)%Q, (-7241283494036941 # 72057594037927936)%Q)] (qenv_sl [[(2296835809958953 # 9007199254740992)%Q; (941815272073855 # 562949953421312)%Q]; [(-4944952390852805 # 9007199254740992)%Q; (-2805742567851819 # 2251799813685248)%Q]; [(-6106881094714393 # 18014398509481984)%Q; (-3602879701896397 # 72057594037927936)%Q]; [(5064297780978123 # 2251799813685248)%Q; (6836464234348413 # 4503599627370496)%Q]; [(-158118568167211 # 70368744177664)%Q; (5104830177624457 # 2251799813685248)%Q]] [1; 0; 1; 1; 0] 5 2) src_bce_loss));
mout (qresult (qdenote [((-5104830177624457 # 2251799813685248)%Q, (7466793946443297 # 72057594037927936)%Q); ((-5064297780978123 # 2251799813685248)%Q, (118787705446875 # 1125899906842624)%Q); ((-941815272073855 # 562949953421312)%Q, (6761998861283437 # 36028797018963968)%Q); ((-6836464234348413 # 4503599627370496)%Q, (1973925450840349 # 9007199254740992)%Q); ((-2296835809958953 # 9007199254740992)%Q, (1744956825730387 # 2251799813685248)%Q); ((3602879701896397 # 72057594037927936)%Q, (4734504117904435 # 4503599627370496)%Q); ((6106881094714393 # 18014398509481984)%Q, (6320997286498373 # 4503599627370496)%Q); ((4944952390852805 # 9007199254740992)%Q, (7798075669399151 # 4503599627370496)%Q); ((2805742567851819 # 2251799813685248)%Q, (7828178199502451 # 2251799813685248)%Q); ((158118568167211 # 70368744177664)%Q, (5325121096835275 # 562949953421312)%Q)] [] (qenv_sl [[(2296835809958953 # 9007199254740992)%Q; (941815272073855 # 562949953421312)%Q]; [(-4944952390852805 # 9007199254740992)%Q; (-2805742567851819 # 2251799813685248)%Q]; [(-6106881094714393 # 18014398509481984)%Q; (-3602879701896397 # 72057594037927936)%Q]; [(5064297780978123 # 2251799813685248)%Q; (6836464234348413 # 4503599627370496)%Q]; [(-158118568167211 # 70368744177664)%Q; (5104830177624457 # 2251799813685248)%Q]] [1; 0; 1; 1; 0] 5 2) src_bce_loss_gradient));
mout (qresult (qdenote [((-1611162766691795 # 562949953421312)%Q, (4118404027906643 # 72057594037927936)%Q); ((-5512405943901487 # 2251799813685248)%Q, (3115278442503981 # 36028797018963968)%Q); ((-4613937818241073 # 2251799813685248)%Q, (145087631068331 # 1125899906842624)%Q); ((-8363184508027011 # 4503599627370496)%Q, (1406387239534219 # 9007199254740992)%Q); ((-907475324915155 # 562949953421312)%Q, (112301894490519 # 562949953421312)%Q); ((-4944952390852805 # 4503599627370496)%Q, (6008477299672381 # 18014398509481984)%Q); ((-6656320249253593 # 9007199254740992)%Q, (134429991058075 # 281474976710656)%Q); ((-5296233161787703 # 36028797018963968)%Q, (7775860870006659 # 9007199254740992)%Q); ((7818248953115181 # 18014398509481984)%Q, (1737735159831501 # 1125899906842624)%Q); ((4201858452336673 # 4503599627370496)%Q, (1431088655989949 # 562949953421312)%Q); ((7021111819070603 # 4503599627370496)%Q, (5352601118270257 # 1125899906842624)%Q); ((1364027737139839 # 562949953421312)%Q, (6349877062789979 # 562949953421312)%Q)] [((4118404027906643 # 76175998065834579)%Q, (-6569807700574903 # 2251799813685248)%Q); ((3115278442503981 # 39144075461467949)%Q, (-2849574465842807 # 1125899906842624)%Q); ((145087631068331 # 1270987537910955)%Q, (-4886881973235257 # 2251799813685248)%Q); ((1406387239534219 # 10413586494275211)%Q, (-4508299521952859 # 2251799813685248)%Q); ((112301894490519 # 675251847911831)%Q, (-8078984843605943 # 4503599627370496)%Q); ((6008477299672381 # 24022875809154365)%Q, (-1560311699801179 # 1125899906842624)%Q); ((134429991058075 # 415904967768731)%Q, (-1271606262098877 # 1125899906842624)%Q); ((1125899906842624 # 2863635066674125)%Q, (-4204151626896161 # 4503599627370496)%Q); ((7775860870006659 # 16783060124747651)%Q, (-6929651610243959 # 9007199254740992)%Q); ((1737735159831501 # 2863635066674125)%Q, (-2249589388617365 # 4503599627370496)%Q); ((281474976710656 # 415904967768731)%Q, (-7033059695074845 # 18014398509481984)%Q); ((1431088655989949 # 1994038609411261)%Q, (-5975854837483093 # 18014398509481984)%Q); ((18014398509481984 # 24022875809154365)%Q, (-5185177633407643 # 18014398509481984)%Q); ((5352601118270257 # 6478501025112881)%Q, (-3439066259640069 # 18014398509481984)%Q); ((1125899906842624 # 1270987537910955)%Q, (-2183553239953471 # 18014398509481984)%Q); ((6349877062789979 # 6912827016211291)%Q, (-6120804146176827 # 72057594037927936)%Q); ((36028797018963968 # 39144075461467949)%Q, (-5975775609092071 # 72057594037927936)%Q); ((72057594037927936 # 76175998065834579)%Q, (-1001253070461781 # 18014398509481984)%Q)] (qenv_sl [[(-1364027737139839 # 562949953421312)%Q; (5512405943901487 # 2251799813685248)%Q]; [(-7021111819070603 # 4503599627370496)%Q; (6656320249253593 # 9007199254740992)%Q]; [(-7818248953115181 # 18014398509481984)%Q; (-4201858452336673 # 4503599627370496)%Q]; [(4944952390852805 # 4503599627370496)%Q; (5296233161787703 # 36028797018963968)%Q]; [(1611162766691795 # 562949953421312)%Q; (8363184508027011 # 4503599627370496)%Q]; [(907475324915155 # 562949953421312)%Q; (4613937818241073 # 2251799813685248)%Q]] [1; 1; 0; 0; 0; 1] 6 2) src_bce_loss));
mout (qresult (qdenote [((-1611162766691795 # 562949953421312)%Q, (4118404027906643 # 72057594037927936)%Q); ((-5512405943901487 # 2251799813685248)%Q, (3115278442503981 # 36028797018963968)%Q); ((-4613937818241073 # 2251799813685248)%Q, (145087631068331 # 1125899906842624)%Q); ((-8363184508027011 # 4503599627370496)%Q, (1406387239534219 # 9007199254740992)%Q); ((-907475324915155 # 562949953421312)%Q, (112301894490519 # 562949953421312)%Q); ((-4944952390852805 # 4503599627370496)%Q, (6008477299672381 # 18014398509481984)%Q); ((-6656320249253593 # 9007199254740992)%Q, (134429991058075 # 281474976710656)%Q); ((-5296233161787703 # 36028797018963968)%Q, (7775860870006659 # 9007199254740992)%Q); ((7818248953115181 # 18014398509481984)%Q, (1737735159831501 # 1125899906842624)%Q); ((4201858452336673 # 4503599627370496)%Q, (1431088655989949 # 562949953421312)%Q); ((7021111819070603 # 4503599627370496)%Q, (5352601118270257 # 1125899906842624)%Q); ((1364027737139839 # 562949953421312)%Q, (6349877062789979 # 562949953421312)%Q)] [] (qenv_sl [[(-1364027737139839 # 562949953421312)%Q; (5512405943901487 # 2251799813685248)%Q]; [(-7021111819070603 # 4503599627370496)%Q; (6656320249253593 # 9007199254740992)%Q]; [(-7818248953115181 # 18014398509481984)%Q; (-4201858452336673 # 4503599627370496)%Q]; [(4944952390852805 # 4503599627370496)%Q; (5296233161787703 # 36028797018963968)%Q]; [(1611162766691795 # 562949953421312)%Q; (8363184508027011 # 4503599627370496)%Q]; [(907475324915155 # 562949953421312)%Q; (4613937818241073 # 2251799813685248)%Q]] [1; 1; 0; 0; 0; 1] 6 2) src_bce_loss_gradient))
].
Eval vm_compute in the_cases.
