From SKN Require Import Base.Util Model.Gnn Model.NpExpr Gen.NpGnn.
Set Printing Depth 10000000.
Set Printing Width 1000000.
Definition qout (q : Q) : Z * Z := let r := Qred q in (Qnum r, Zpos (Qden r)).
Definition mout (m : list (list Q)) : list (list (Z * Z)) := map (map qout) m.

Definition the_cases := [
mout (qresult (qdenote [((-6118140093782819 # 2251799813685248)%Q, (4761038022611285 # 72057594037927936)%Q); ((5890708312600609 # 4503599627370496)%Q, (8328886832091505 # 2251799813685248)%Q)] [] (qenv_s [[(-5890708312600609 # 4503599627370496)%Q; (6118140093782819 # 2251799813685248)%Q]] 1 2) src_sigmoid_output));
mout (qresult (qdenote [((-6118140093782819 # 2251799813685248)%Q, (4761038022611285 # 72057594037927936)%Q); ((5890708312600609 # 4503599627370496)%Q, (8328886832091505 # 2251799813685248)%Q)] [] (qenv_sd [[(-5890708312600609 # 4503599627370496)%Q; (6118140093782819 # 2251799813685248)%Q]] [[(1643813863990231 # 1125899906842624)%Q; (976155219232555 # 562949953421312)%Q]] 1 2) src_sigmoid_gradient));
mout (qresult (qdenote [((-1467047578615939 # 562949953421312)%Q, (83124369340723 # 1125899906842624)%Q); ((-360006495212929 # 140737488355328)%Q, (5581545539496939 # 72057594037927936)%Q); ((-5010254585449677 # 2251799813685248)%Q, (7787078180715335 # 72057594037927936)%Q); ((-8921630861820953 # 4503599627370496)%Q, (2484748271758539 # 18014398509481984)%Q); ((-1134907106097365 # 9007199254740992)%Q, (7940880590916179 # 9007199254740992)%Q); ((3332663724254167 # 18014398509481984)%Q, (2709407059302199 # 2251799813685248)%Q); ((7399414187769725 # 4503599627370496)%Q, (2910821816632083 # 562949953421312)%Q); ((6406370469934531 # 2251799813685248)%Q, (1210452081430693 # 70368744177664)%Q)] [] (qenv_s [[(-7399414187769725 # 4503599627370496)%Q; (-6406370469934531 # 2251799813685248)%Q]; [(-3332663724254167 # 18014398509481984)%Q; (360006495212929 # 140737488355328)%Q]; [(5010254585449677 # 2251799813685248)%Q; (8921630861820953 # 4503599627370496)%Q]; [(1134907106097365 # 9007199254740992)%Q; (1467047578615939 # 562949953421312)%Q]] 4 2) src_sigmoid_output));
mout (qresult (qdenote [((-1467047578615939 # 562949953421312)%Q, (83124369340723 # 1125899906842624)%Q); ((-360006495212929 # 140737488355328)%Q, (5581545539496939 # 72057594037927936)%Q); ((-5010254585449677 # 2251799813685248)%Q, (7787078180715335 # 72057594037927936)%Q); ((-8921630861820953 # 4503599627370496)%Q, (2484748271758539 # 18014398509481984)%Q); ((-1134907106097365 # 9007199254740992)%Q, (7940880590916179 # 9007199254740992)%Q); ((3332663724254167 # 18014398509481984)%Q, (2709407059302199 # 2251799813685248)%Q); ((7399414187769725 # 4503599627370496)%Q, (2910821816632083 # 562949953421312)%Q); ((6406370469934531 # 2251799813685248)%Q, (1210452081430693 # 70368744177664)%Q)] [] (qenv_sd [[(-7399414187769725 # 4503599627370496)%Q; (-6406370469934531 # 2251799813685248)%Q]; [(-3332663724254167 # 18014398509481984)%Q; (360006495212929 # 140737488355328)%Q]; [(5010254585449677 # 2251799813685248)%Q; (8921630861820953 # 4503599627370496)%Q]; [(1134907106097365 # 9007199254740992)%Q; (1467047578615939 # 562949953421312)%Q]] [[(2943102356486619 # 2251799813685248)%Q; (-4494592428115755 # 4503599627370496)%Q]; [(-1805943450575569 # 4503599627370496)%Q; (-7421932185906577 # 9007199254740992)%Q]; [(-2668382779217019 # 2251799813685248)%Q; (-5476377146882523 # 36028797018963968)%Q]; [(4039728865751335 # 4503599627370496)%Q; (1889260043681923 # 2251799813685248)%Q]] 4 2) src_sigmoid_gradient));
mout (qresult (qdenote [((1661828262499713 # 4503599627370496)%Q, (6513500312980125 # 4503599627370496)%Q); ((5032772583586529 # 2251799813685248)%Q, (164425047604601 # 17592186044416)%Q)] [] (qenv_s [[(-5032772583586529 # 2251799813685248)%Q; (-1661828262499713 # 4503599627370496)%Q]] 1 2) src_sigmoid_output));
mout (qresult (qdenote [((1661828262499713 # 4503599627370496)%Q, (6513500312980125 # 4503599627370496)%Q); ((5032772583586529 # 2251799813685248)%Q, (164425047604601 # 17592186044416)%Q)] [] (qenv_sd [[(-5032772583586529 # 2251799813685248)%Q; (-1661828262499713 # 4503599627370496)%Q]] [[(1751900255047123 # 4503599627370496)%Q; (4908923593833841 # 9007199254740992)%Q]] 1 2) src_sigmoid_gradient));
mout (qresult (qdenote [((-1553741871442821 # 562949953421312)%Q, (1140163137600391 # 18014398509481984)%Q); ((2979131153505583 # 2251799813685248)%Q, (4227380918480957 # 1125899906842624)%Q)] [] (qenv_s [[(1553741871442821 # 562949953421312)%Q; (-2979131153505583 # 2251799813685248)%Q]] 1 2) src_sigmoid_output));
mout (qresult (qdenote [((-1553741871442821 # 562949953421312)%Q, (1140163137600391 # 18014398509481984)%Q); ((2979131153505583 # 2251799813685248)%Q, (4227380918480957 # 1125899906842624)%Q)] [] (qenv_sd [[(1553741871442821 # 562949953421312)%Q; (-2979131153505583 # 2251799813685248)%Q]] [[(-2015360833248297 # 1125899906842624)%Q; (-219691219322667 # 140737488355328)%Q]] 1 2) src_sigmoid_gradient));
mout (qresult (qdenote [((-1542482872374395 # 562949953421312)%Q, (4652783843316115 # 72057594037927936)%Q); ((-5980780305148019 # 2251799813685248)%Q, (2530251072318743 # 36028797018963968)%Q); ((-8412724103928087 # 18014398509481984)%Q, (705804235396791 # 1125899906842624)%Q); ((-5458362748373041 # 18014398509481984)%Q, (6652709230380581 # 9007199254740992)%Q); ((2949857755927675 # 4503599627370496)%Q, (4335035561945643 # 2251799813685248)%Q); ((2877800161889747 # 1125899906842624)%Q, (3626573532186619 # 281474976710656)%Q)] [] (qenv_s [[(-2877800161889747 # 1125899906842624)%Q; (8412724103928087 # 18014398509481984)%Q]; [(5980780305148019 # 2251799813685248)%Q; (-2949857755927675 # 4503599627370496)%Q]; [(1542482872374395 # 562949953421312)%Q; (5458362748373041 # 18014398509481984)%Q]] 3 2) src_sigmoid_output));
mout (qresult (qdenote [((-1542482872374395 # 562949953421312)%Q, (4652783843316115 # 72057594037927936)%Q); ((-5980780305148019 # 2251799813685248)%Q, (2530251072318743 # 36028797018963968)%Q); ((-8412724103928087 # 18014398509481984)%Q, (705804235396791 # 1125899906842624)%Q); ((-5458362748373041 # 18014398509481984)%Q, (6652709230380581 # 9007199254740992)%Q); ((2949857755927675 # 4503599627370496)%Q, (4335035561945643 # 2251799813685248)%Q); ((2877800161889747 # 1125899906842624)%Q, (3626573532186619 # 281474976710656)%Q)] [] (qenv_sd [[(-2877800161889747 # 1125899906842624)%Q; (8412724103928087 # 18014398509481984)%Q]; [(5980780305148019 # 2251799813685248)%Q; (-2949857755927675 # 4503599627370496)%Q]; [(1542482872374395 # 562949953421312)%Q; (5458362748373041 # 18014398509481984)%Q]] [[(-6052837899185947 # 18014398509481984)%Q; (5332261958806667 # 4503599627370496)%Q]; [(-9 # 8)%Q; (-4962966789362287 # 9007199254740992)%Q]; [(-766737836559827 # 1125899906842624)%Q; (1575133969672831 # 1125899906842624)%Q]] 3 2) src_sigmoid_gradient));
mout (qresult (qdenote [((-5291729562160333 # 2251799813685248)%Q, (3436036187332685 # 36028797018963968)%Q); ((-8547832092749201 # 4503599627370496)%Q, (168736430061477 # 1125899906842624)%Q); ((-5512405943901487 # 4503599627370496)%Q, (1324290698488075 # 4503599627370496)%Q); ((-220113431787733 # 281474976710656)%Q, (8241409254472903 # 18014398509481984)%Q); ((6016809102166983 # 36028797018963968)%Q, (5322148068886231 # 4503599627370496)%Q); ((2152720621883097 # 4503599627370496)%Q, (113493911218323 # 70368744177664)%Q); ((4458563631096791 # 9007199254740992)%Q, (3694073629059629 # 2251799813685248)%Q); ((7602076171001397 # 9007199254740992)%Q, (2618450244650033 # 1125899906842624)%Q); ((3758253889040679 # 2251799813685248)%Q, (46679619126865 # 8796093022208)%Q); ((6176686888938635 # 2251799813685248)%Q, (8744592003288137 # 562949953421312)%Q)] [] (qenv_s [[(-6016809102166983 # 36028797018963968)%Q; (8547832092749201 # 4503599627370496)%Q]; [(-2152720621883097 # 4503599627370496)%Q; (220113431787733 # 281474976710656)%Q]; [(-4458563631096791 # 9007199254740992)%Q; (5512405943901487 # 4503599627370496)%Q]; [(5291729562160333 # 2251799813685248)%Q; (-6176686888938635 # 2251799813685248)%Q]; [(-3758253889040679 # 2251799813685248)%Q; (-7602076171001397 # 9007199254740992)%Q]] 5 2) src_sigmoid_output));
mout (qresult (qdenote [((-5291729562160333 # 2251799813685248)%Q, (3436036187332685 # 36028797018963968)%Q); ((-8547832092749201 # 4503599627370496)%Q, (168736430061477 # 1125899906842624)%Q); ((-5512405943901487 # 4503599627370496)%Q, (1324290698488075 # 4503599627370496)%Q); ((-220113431787733 # 281474976710656)%Q, (8241409254472903 # 18014398509481984)%Q); ((6016809102166983 # 36028797018963968)%Q, (5322148068886231 # 4503599627370496)%Q); ((2152720621883097 # 4503599627370496)%Q, (113493911218323 # 70368744177664)%Q); ((4458563631096791 # 9007199254740992)%Q, (3694073629059629 # 2251799813685248)%Q); ((7602076171001397 # 9007199254740992)%Q, (2618450244650033 # 1125899906842624)%Q); ((3758253889040679 # 2251799813685248)%Q, (46679619126865 # 8796093022208)%Q); ((6176686888938635 # 2251799813685248)%Q, (8744592003288137 # 562949953421312)%Q)] [] (qenv_sd [[(-6016809102166983 # 36028797018963968)%Q; (8547832092749201 # 4503599627370496)%Q]; [(-2152720621883097 # 4503599627370496)%Q; (220113431787733 # 281474976710656)%Q]; [(-4458563631096791 # 9007199254740992)%Q; (5512405943901487 # 4503599627370496)%Q]; [(5291729562160333 # 2251799813685248)%Q; (-6176686888938635 # 2251799813685248)%Q]; [(-3758253889040679 # 2251799813685248)%Q; (-7602076171001397 # 9007199254740992)%Q]] [[(-4733283208366391 # 4503599627370496)%Q; (-8196551321814303 # 18014398509481984)%Q]; [(2254051613498933 # 2251799813685248)%Q; (1261007895663739 # 18014398509481984)%Q]; [(5345772757688779 # 4503599627370496)%Q; (-2314850208468435 # 2251799813685248)%Q]; [(-5980780305148019 # 18014398509481984)%Q; (-4620693217682129 # 9007199254740992)%Q]; [(8511803295730237 # 4503599627370496)%Q; (-7615586969883509 # 4503599627370496)%Q]] 5 2) src_sigmoid_gradient));
mout (qresult (qdenote [((-7219270202674905 # 4503599627370496)%Q, (7252299100358183 # 36028797018963968)%Q); ((-570268302815789 # 562949953421312)%Q, (6541531781023231 # 18014398509481984)%Q); ((8196551321814303 # 9007199254740992)%Q, (5594197017809993 # 2251799813685248)%Q); ((3794282686059643 # 2251799813685248)%Q, (1517840000596433 # 281474976710656)%Q); ((4591419820104221 # 2251799813685248)%Q, (2162550413096405 # 281474976710656)%Q); ((4877398396442247 # 2251799813685248)%Q, (2455396540840041 # 281474976710656)%Q)] [] (qenv_s [[(-3794282686059643 # 2251799813685248)%Q; (-4877398396442247 # 2251799813685248)%Q]; [(-8196551321814303 # 9007199254740992)%Q; (7219270202674905 # 4503599627370496)%Q]; [(570268302815789 # 562949953421312)%Q; (-4591419820104221 # 2251799813685248)%Q]] 3 2) src_sigmoid_output));
mout (qresult (qdenote [((-7219270202674905 # 4503599627370496)%Q, (7252299100358183 # 36028797018963968)%Q); ((-570268302815789 # 562949953421312)%Q, (6541531781023231 # 18014398509481984)%Q); ((8196551321814303 # 9007199254740992)%Q, (5594197017809993 # 2251799813685248)%Q); ((3794282686059643 # 2251799813685248)%Q, (1517840000596433 # 281474976710656)%Q); ((4591419820104221 # 2251799813685248)%Q, (2162550413096405 # 281474976710656)%Q); ((4877398396442247 # 2251799813685248)%Q, (2455396540840041 # 281474976710656)%Q)] [] (qenv_sd [[(-3794282686059643 # 2251799813685248)%Q; (-4877398396442247 # 2251799813685248)%Q]; [(-8196551321814303 # 9007199254740992)%Q; (7219270202674905 # 4503599627370496)%Q]; [(570268302815789 # 562949953421312)%Q; (-4591419820104221 # 2251799813685248)%Q]] [[(7250795400066499 # 4503599627370496)%Q; (237283405367083 # 281474976710656)%Q]; [(-8268608915852231 # 9007199254740992)%Q; (-3620894100405879 # 4503599627370496)%Q]; [(-6746392241801003 # 9007199254740992)%Q; (-817403332367745 # 2251799813685248)%Q]] 3 2) src_sigmoid_gradient));
mout (qresult (qdenote [((5908722711110091 # 36028797018963968)%Q, (663275693801771 # 562949953421312)%Q); ((6536974859128275 # 2251799813685248)%Q, (5130936889123341 # 281474976710656)%Q)] [] (qenv_s [[(-5908722711110091 # 36028797018963968)%Q; (-6536974859128275 # 2251799813685248)%Q]] 1 2) src_sigmoid_output));
mout (qresult (qdenote [((5908722711110091 # 36028797018963968)%Q, (663275693801771 # 562949953421312)%Q); ((6536974859128275 # 2251799813685248)%Q, (5130936889123341 # 281474976710656)%Q)] [] (qenv_sd [[(-5908722711110091 # 36028797018963968)%Q; (-6536974859128275 # 2251799813685248)%Q]] [[(2278821411449471 # 2251799813685248)%Q; (4224376450473525 # 9007199254740992)%Q]] 1 2) src_sigmoid_gradient));
mout (qresult (qdenote [((-5793880920612143 # 2251799813685248)%Q, (1374611788099163 # 18014398509481984)%Q); ((-2809120267572347 # 1125899906842624)%Q, (5944495803956015 # 72057594037927936)%Q); ((-2527645290861691 # 1125899906842624)%Q, (7632883701673153 # 72057594037927936)%Q); ((-7160723407519089 # 4503599627370496)%Q, (28699978406797 # 140737488355328)%Q); ((-678354693872681 # 562949953421312)%Q, (1349692777333775 # 4503599627370496)%Q); ((-4021714467241853 # 4503599627370496)%Q, (3687778243805059 # 9007199254740992)%Q); ((-7602076171001397 # 18014398509481984)%Q, (5906327150932909 # 9007199254740992)%Q); ((-3152519739159347 # 9007199254740992)%Q, (6347266036539249 # 9007199254740992)%Q); ((-1242993497154257 # 9007199254740992)%Q, (490384967943663 # 562949953421312)%Q); ((7566047373982433 # 18014398509481984)%Q, (6854305494756299 # 4503599627370496)%Q); ((8106479329266893 # 18014398509481984)%Q, (7063050174174133 # 4503599627370496)%Q); ((290482175965397 # 562949953421312)%Q, (7544938900736731 # 4503599627370496)%Q); ((4872894796814877 # 4503599627370496)%Q, (6644103792684267 # 2251799813685248)%Q); ((237283405367083 # 140737488355328)%Q, (759679299885033 # 140737488355328)%Q); ((395190867301761 # 140737488355328)%Q, (2332967567716695 # 140737488355328)%Q)] [] (qenv_s [[(4021714467241853 # 4503599627370496)%Q; (5793880920612143 # 2251799813685248)%Q; (-7566047373982433 # 18014398509481984)%Q]; [(-290482175965397 # 562949953421312)%Q; (-395190867301761 # 140737488355328)%Q; (-8106479329266893 # 18014398509481984)%Q]; [(-4872894796814877 # 4503599627370496)%Q; (3152519739159347 # 9007199254740992)%Q; (7160723407519089 # 4503599627370496)%Q]; [(678354693872681 # 562949953421312)%Q; (7602076171001397 # 18014398509481984)%Q; (-237283405367083 # 140737488355328)%Q]; [(2527645290861691 # 1125899906842624)%Q; (2809120267572347 # 1125899906842624)%Q; (1242993497154257 # 9007199254740992)%Q]] 5 3) src_sigmoid_output));
mout (qresult (qdenote [((-5793880920612143 # 2251799813685248)%Q, (1374611788099163 # 18014398509481984)%Q); ((-2809120267572347 # 1125899906842624)%Q, (5944495803956015 # 72057594037927936)%Q); ((-2527645290861691 # 1125899906842624)%Q, (7632883701673153 # 72057594037927936)%Q); ((-7160723407519089 # 4503599627370496)%Q, (28699978406797 # 140737488355328)%Q); ((-678354693872681 # 562949953421312)%Q, (1349692777333775 # 4503599627370496)%Q); ((-4021714467241853 # 4503599627370496)%Q, (3687778243805059 # 9007199254740992)%Q); ((-7602076171001397 # 18014398509481984)%Q, (5906327150932909 # 9007199254740992)%Q); ((-3152519739159347 # 9007199254740992)%Q, (6347266036539249 # 9007199254740992)%Q); ((-1242993497154257 # 9007199254740992)%Q, (490384967943663 # 562949953421312)%Q); ((7566047373982433 # 18014398509481984)%Q, (6854305494756299 # 4503599627370496)%Q); ((8106479329266893 # 18014398509481984)%Q, (7063050174174133 # 4503599627370496)%Q); ((290482175965397 # 562949953421312)%Q, (7544938900736731 # 4503599627370496)%Q); ((4872894796814877 # 4503599627370496)%Q, (6644103792684267 # 2251799813685248)%Q); ((237283405367083 # 140737488355328)%Q, (759679299885033 # 140737488355328)%Q); ((395190867301761 # 140737488355328)%Q, (2332967567716695 # 140737488355328)%Q)] [] (qenv_sd [[(4021714467241853 # 4503599627370496)%Q; (5793880920612143 # 2251799813685248)%Q; (-7566047373982433 # 18014398509481984)%Q]; [(-290482175965397 # 562949953421312)%Q; (-395190867301761 # 140737488355328)%Q; (-8106479329266893 # 18014398509481984)%Q]; [(-4872894796814877 # 4503599627370496)%Q; (3152519739159347 # 9007199254740992)%Q; (7160723407519089 # 4503599627370496)%Q]; [(678354693872681 # 562949953421312)%Q; (7602076171001397 # 18014398509481984)%Q; (-237283405367083 # 140737488355328)%Q]; [(2527645290861691 # 1125899906842624)%Q; (2809120267572347 # 1125899906842624)%Q; (1242993497154257 # 9007199254740992)%Q]] [[(8070450532247929 # 18014398509481984)%Q; (799388933858263 # 1125899906842624)%Q; (1607785066971267 # 2251799813685248)%Q]; [(4823355200913801 # 4503599627370496)%Q; (-5800636320053199 # 4503599627370496)%Q; (360006495212929 # 281474976710656)%Q]; [(-3602879701896397 # 4503599627370496)%Q; (-626000348204499 # 4503599627370496)%Q; (-3278620528725721 # 18014398509481984)%Q]; [(-6088866696204911 # 36028797018963968)%Q; (-5053038781909697 # 9007199254740992)%Q; (-4728779608739021 # 9007199254740992)%Q]; [(6241989083535507 # 9007199254740992)%Q; (-6201456686889173 # 4503599627370496)%Q; (-8268608915852231 # 9007199254740992)%Q]] 5 3) src_sigmoid_gradient));
mout (qresult (qdenote [((-149322475145003 # 70368744177664)%Q, (8631909265126175 # 72057594037927936)%Q); ((-7349874591868649 # 36028797018963968)%Q, (7345032062027505 # 9007199254740992)%Q); ((2748321672602845 # 1125899906842624)%Q, (6465209729959525 # 562949953421312)%Q)] [] (qenv_s [[(-2748321672602845 # 1125899906842624)%Q; (7349874591868649 # 36028797018963968)%Q; (149322475145003 # 70368744177664)%Q]] 1 3) src_sigmoid_output));
mout (qresult (qdenote [((-149322475145003 # 70368744177664)%Q, (8631909265126175 # 72057594037927936)%Q); ((-7349874591868649 # 36028797018963968)%Q, (7345032062027505 # 9007199254740992)%Q); ((2748321672602845 # 1125899906842624)%Q, (6465209729959525 # 562949953421312)%Q)] [] (qenv_sd [[(-2748321672602845 # 1125899906842624)%Q; (7349874591868649 # 36028797018963968)%Q; (149322475145003 # 70368744177664)%Q]] [[(3602879701896397 # 9007199254740992)%Q; (-4093772061279781 # 4503599627370496)%Q; (-6363586273474511 # 4503599627370496)%Q]] 1 3) src_sigmoid_gradient));
mout (qresult (qdenote [((-7034622617952715 # 4503599627370496)%Q, (7555823087753759 # 36028797018963968)%Q); ((-1206964700135293 # 1125899906842624)%Q, (3083373145313449 # 9007199254740992)%Q); ((1188950301625811 # 9007199254740992)%Q, (5139095001441293 # 4503599627370496)%Q); ((360850920143061 # 281474976710656)%Q, (8115126697887009 # 2251799813685248)%Q); ((1190639151486075 # 562949953421312)%Q, (2333310960459395 # 281474976710656)%Q); ((342836521633579 # 140737488355328)%Q, (201030136309615 # 17592186044416)%Q)] [] (qenv_s [[(-342836521633579 # 140737488355328)%Q; (7034622617952715 # 4503599627370496)%Q; (1206964700135293 # 1125899906842624)%Q]; [(-1190639151486075 # 562949953421312)%Q; (-1188950301625811 # 9007199254740992)%Q; (-360850920143061 # 281474976710656)%Q]] 2 3) src_sigmoid_output));
mout (qresult (qdenote [((-7034622617952715 # 4503599627370496)%Q, (7555823087753759 # 36028797018963968)%Q); ((-1206964700135293 # 1125899906842624)%Q, (3083373145313449 # 9007199254740992)%Q); ((1188950301625811 # 9007199254740992)%Q, (5139095001441293 # 4503599627370496)%Q); ((360850920143061 # 281474976710656)%Q, (8115126697887009 # 2251799813685248)%Q); ((1190639151486075 # 562949953421312)%Q, (2333310960459395 # 281474976710656)%Q); ((342836521633579 # 140737488355328)%Q, (201030136309615 # 17592186044416)%Q)] [] (qenv_sd [[(-342836521633579 # 140737488355328)%Q; (7034622617952715 # 4503599627370496)%Q; (1206964700135293 # 1125899906842624)%Q]; [(-1190639151486075 # 562949953421312)%Q; (-1188950301625811 # 9007199254740992)%Q; (-360850920143061 # 281474976710656)%Q]] [[(-4075757662770299 # 2251799813685248)%Q; (-5962765906638537 # 18014398509481984)%Q; (-7471471781807653 # 4503599627370496)%Q]; [(5404319552844595 # 72057594037927936)%Q; (-7475975381435023 # 18014398509481984)%Q; (-7597572571374027 # 4503599627370496)%Q]] 2 3) src_sigmoid_gradient));
mout (qresult (qdenote [((-836262155807359 # 281474976710656)%Q, (7386196326742277 # 144115188075855872)%Q); ((-5334513758620353 # 2251799813685248)%Q, (1685683897465143 # 18014398509481984)%Q); ((-6836464234348413 # 4503599627370496)%Q, (1973925450840349 # 9007199254740992)%Q); ((-4512606826625237 # 4503599627370496)%Q, (6613885848416441 # 18014398509481984)%Q); ((-4494592428115755 # 9007199254740992)%Q, (1367152095282335 # 2251799813685248)%Q); ((-7710162562058289 # 36028797018963968)%Q, (227248367871645 # 281474976710656)%Q); ((5332261958806667 # 144115188075855872)%Q, (4673353901971689 # 4503599627370496)%Q); ((272467777455915 # 562949953421312)%Q, (7307322986748909 # 4503599627370496)%Q); ((4111786459789263 # 4503599627370496)%Q, (2805502403971391 # 1125899906842624)%Q); ((2332864606977917 # 2251799813685248)%Q, (6345397923163951 # 2251799813685248)%Q); ((5302988561228759 # 2251799813685248)%Q, (1483109787959813 # 140737488355328)%Q); ((412783053346177 # 140737488355328)%Q, (5287197180826499 # 281474976710656)%Q)] [] (qenv_s [[(-5302988561228759 # 2251799813685248)%Q; (-272467777455915 # 562949953421312)%Q; (836262155807359 # 281474976710656)%Q]; [(6836464234348413 # 4503599627370496)%Q; (4512606826625237 # 4503599627370496)%Q; (4494592428115755 # 9007199254740992)%Q]; [(-4111786459789263 # 4503599627370496)%Q; (5334513758620353 # 2251799813685248)%Q; (7710162562058289 # 36028797018963968)%Q]; [(-2332864606977917 # 2251799813685248)%Q; (-5332261958806667 # 144115188075855872)%Q; (-412783053346177 # 140737488355328)%Q]] 4 3) src_sigmoid_output));
mout (qresult (qdenote [((-836262155807359 # 281474976710656)%Q, (7386196326742277 # 144115188075855872)%Q); ((-5334513758620353 # 2251799813685248)%Q, (1685683897465143 # 18014398509481984)%Q); ((-6836464234348413 # 4503599627370496)%Q, (1973925450840349 # 9007199254740992)%Q); ((-4512606826625237 # 4503599627370496)%Q, (6613885848416441 # 18014398509481984)%Q); ((-4494592428115755 # 9007199254740992)%Q, (1367152095282335 # 2251799813685248)%Q); ((-7710162562058289 # 36028797018963968)%Q, (227248367871645 # 281474976710656)%Q); ((5332261958806667 # 144115188075855872)%Q, (4673353901971689 # 4503599627370496)%Q); ((272467777455915 # 562949953421312)%Q, (7307322986748909 # 4503599627370496)%Q); ((4111786459789263 # 4503599627370496)%Q, (2805502403971391 # 1125899906842624)%Q); ((2332864606977917 # 2251799813685248)%Q, (6345397923163951 # 2251799813685248)%Q); ((5302988561228759 # 2251799813685248)%Q, (1483109787959813 # 140737488355328)%Q); ((412783053346177 # 140737488355328)%Q, (5287197180826499 # 281474976710656)%Q)] [] (qenv_sd [[(-5302988561228759 # 2251799813685248)%Q; (-272467777455915 # 562949953421312)%Q; (836262155807359 # 281474976710656)%Q]; [(6836464234348413 # 4503599627370496)%Q; (4512606826625237 # 4503599627370496)%Q; (4494592428115755 # 9007199254740992)%Q]; [(-4111786459789263 # 4503599627370496)%Q; (5334513758620353 # 2251799813685248)%Q; (7710162562058289 # 36028797018963968)%Q]; [(-2332864606977917 # 2251799813685248)%Q; (-5332261958806667 # 144115188075855872)%Q; (-412783053346177 # 140737488355328)%Q]] [[(-7367888990378131 # 4503599627370496)%Q; (-1188950301625811 # 18014398509481984)%Q; (8430738502437569 # 4503599627370496)%Q]; [(-4339218240971473 # 2251799813685248)%Q; (3339419123695223 # 2251799813685248)%Q; (5 # 8)%Q]; [(-6273514280927101 # 4503599627370496)%Q; (-378865318652543 # 562949953421312)%Q; (-678354693872681 # 562949953421312)%Q]; [(-2134706223373615 # 1125899906842624)%Q; (-7764205757586735 # 9007199254740992)%Q; (7530018576963469 # 9007199254740992)%Q]] 4 3) src_sigmoid_gradient));
mout (qresult (qdenote [((-5859183115209015 # 2251799813685248)%Q, (5341282092837627 # 72057594037927936)%Q); ((-1382042135649321 # 562949953421312)%Q, (386693454993679 # 4503599627370496)%Q); ((-7759702157959365 # 4503599627370496)%Q, (6432212285293127 # 36028797018963968)%Q); ((-5332261958806667 # 72057594037927936)%Q, (8364730988666297 # 9007199254740992)%Q); ((1467047578615939 # 1125899906842624)%Q, (4143673167857327 # 1125899906842624)%Q); ((2985886552946639 # 2251799813685248)%Q, (530010262936003 # 140737488355328)%Q); ((3206562934687793 # 2251799813685248)%Q, (2338326382975945 # 562949953421312)%Q); ((3415980317360521 # 2251799813685248)%Q, (1283111864941959 # 281474976710656)%Q); ((7106680211990643 # 4503599627370496)%Q, (5455272832110063 # 1125899906842624)%Q); ((8489285297593385 # 4503599627370496)%Q, (1853893963174317 # 281474976710656)%Q); ((5183643171103441 # 2251799813685248)%Q, (703275839608973 # 70368744177664)%Q); ((5620492334958379 # 2251799813685248)%Q, (426922291381089 # 35184372088832)%Q); ((2835015965429727 # 1125899906842624)%Q, (872837317632391 # 70368744177664)%Q); ((5836665117072163 # 2251799813685248)%Q, (7519017309740997 # 562949953421312)%Q); ((6034823500676465 # 2251799813685248)%Q, (4105338795780791 # 281474976710656)%Q)] [] (qenv_s [[(-5620492334958379 # 2251799813685248)%Q; (-8489285297593385 # 4503599627370496)%Q; (-7106680211990643 # 4503599627370496)%Q]; [(-2835015965429727 # 1125899906842624)%Q; (-5183643171103441 # 2251799813685248)%Q; (-3206562934687793 # 2251799813685248)%Q]; [(7759702157959365 # 4503599627370496)%Q; (-6034823500676465 # 2251799813685248)%Q; (5332261958806667 # 72057594037927936)%Q]; [(1382042135649321 # 562949953421312)%Q; (-1467047578615939 # 1125899906842624)%Q; (-3415980317360521 # 2251799813685248)%Q]; [(5859183115209015 # 2251799813685248)%Q; (-2985886552946639 # 2251799813685248)%Q; (-5836665117072163 # 2251799813685248)%Q]] 5 3) src_sigmoid_output));
mout (qresult (qdenote [((-5859183115209015 # 2251799813685248)%Q, (5341282092837627 # 72057594037927936)%Q); ((-1382042135649321 # 562949953421312)%Q, (386693454993679 # 4503599627370496)%Q); ((-7759702157959365 # 4503599627370496)%Q, (6432212285293127 # 36028797018963968)%Q); ((-5332261958806667 # 72057594037927936)%Q, (8364730988666297 # 9007199254740992)%Q); ((1467047578615939 # 1125899906842624)%Q, (4143673167857327 # 1125899906842624)%Q); ((2985886552946639 # 2251799813685248)%Q, (530010262936003 # 140737488355328)%Q); ((3206562934687793 # 2251799813685248)%Q, (2338326382975945 # 562949953421312)%Q); ((3415980317360521 # 2251799813685248)%Q, (1283111864941959 # 281474976710656)%Q); ((7106680211990643 # 4503599627370496)%Q, (5455272832110063 # 1125899906842624)%Q); ((8489285297593385 # 4503599627370496)%Q, (1853893963174317 # 281474976710656)%Q); ((5183643171103441 # 2251799813685248)%Q, (703275839608973 # 70368744177664)%Q); ((5620492334958379 # 2251799813685248)%Q, (426922291381089 # 35184372088832)%Q); ((2835015965429727 # 1125899906842624)%Q, (872837317632391 # 70368744177664)%Q); ((5836665117072163 # 2251799813685248)%Q, (7519017309740997 # 562949953421312)%Q); ((6034823500676465 # 2251799813685248)%Q, (4105338795780791 # 281474976710656)%Q)] [] (qenv_sd [[(-5620492334958379 # 2251799813685248)%Q; (-8489285297593385 # 4503599627370496)%Q; (-7106680211990643 # 4503599627370496)%Q]; [(-2835015965429727 # 1125899906842624)%Q; (-5183643171103441 # 2251799813685248)%Q; (-3206562934687793 # 2251799813685248)%Q]; [(7759702157959365 # 4503599627370496)%Q; (-6034823500676465 # 2251799813685248)%Q; (5332261958806667 # 72057594037927936)%Q]; [(1382042135649321 # 562949953421312)%Q; (-1467047578615939 # 1125899906842624)%Q; (-3415980317360521 # 2251799813685248)%Q]; [(5859183115209015 # 2251799813685248)%Q; (-2985886552946639 # 2251799813685248)%Q; (-5836665117072163 # 2251799813685248)%Q]] [[(2156098321603625 # 1125899906842624)%Q; (-8565846491258683 # 4503599627370496)%Q; (6453658266021921 # 4503599627370496)%Q]; [(465559611479425 # 281474976710656)%Q; (2823756966361301 # 2251799813685248)%Q; (308496574474879 # 281474976710656)%Q]; [(8345170109517529 # 4503599627370496)%Q; (2051389630267261 # 2251799813685248)%Q; (-3458764513820541 # 4503599627370496)%Q]; [(607985949695017 # 1125899906842624)%Q; (994169617742037 # 562949953421312)%Q; (-8052436133738447 # 4503599627370496)%Q]; [(-2011983133527769 # 1125899906842624)%Q; (2386907802506363 # 4503599627370496)%Q; (-1733885856537641 # 4503599627370496)%Q]] 5 3) src_sigmoid_gradient));
mout (qresult (qdenote [((-4800837202776949 # 2251799813685248)%Q, (8546020332876071 # 72057594037927936)%Q); ((-8327155711008047 # 4503599627370496)%Q, (5670733848377107 # 36028797018963968)%Q); ((-5620492334958379 # 9007199254740992)%Q, (4826029957794801 # 9007199254740992)%Q); ((-202099033278251 # 562949953421312)%Q, (6290396937024117 # 9007199254740992)%Q); ((4278419646001971 # 9007199254740992)%Q, (7241852140603439 # 4503599627370496)%Q); ((1206964700135293 # 2251799813685248)%Q, (7697356776951611 # 4503599627370496)%Q); ((1275644594452693 # 1125899906842624)%Q, (873967815798927 # 281474976710656)%Q); ((7836263351624663 # 4503599627370496)%Q, (6414638428836831 # 1125899906842624)%Q); ((1449033180106457 # 562949953421312)%Q, (7384885803255149 # 562949953421312)%Q)] [] (qenv_s [[(202099033278251 # 562949953421312)%Q; (5620492334958379 # 9007199254740992)%Q; (-1275644594452693 # 1125899906842624)%Q]; [(-4278419646001971 # 9007199254740992)%Q; (8327155711008047 # 4503599627370496)%Q; (-1449033180106457 # 562949953421312)%Q]; [(-1206964700135293 # 2251799813685248)%Q; (4800837202776949 # 2251799813685248)%Q; (-7836263351624663 # 4503599627370496)%Q]] 3 3) src_sigmoid_output));
mout (qresult (qdenote [((-4800837202776949 # 2251799813685248)%Q, (8546020332876071 # 72057594037927936)%Q); ((-8327155711008047 # 4503599627370496)%Q, (5670733848377107 # 36028797018963968)%Q); ((-5620492334958379 # 9007199254740992)%Q, (4826029957794801 # 9007199254740992)%Q); ((-202099033278251 # 562949953421312)%Q, (6290396937024117 # 9007199254740992)%Q); ((4278419646001971 # 9007199254740992)%Q, (7241852140603439 # 4503599627370496)%Q); ((1206964700135293 # 2251799813685248)%Q, (7697356776951611 # 4503599627370496)%Q); ((1275644594452693 # 1125899906842624)%Q, (873967815798927 # 281474976710656)%Q); ((7836263351624663 # 4503599627370496)%Q, (6414638428836831 # 1125899906842624)%Q); ((1449033180106457 # 562949953421312)%Q, (7384885803255149 # 562949953421312)%Q)] [] (qenv_sd [[(202099033278251 # 562949953421312)%Q; (5620492334958379 # 9007199254740992)%Q; (-1275644594452693 # 1125899906842624)%Q]; [(-4278419646001971 # 9007199254740992)%Q; (8327155711008047 # 4503599627370496)%Q; (-1449033180106457 # 562949953421312)%Q]; [(-1206964700135293 # 2251799813685248)%Q; (4800837202776949 # 2251799813685248)%Q; (-7836263351624663 # 4503599627370496)%Q]] [[(1170935903116329 # 18014398509481984)%Q; (-1098878309078401 # 2251799813685248)%Q; (-5980780305148019 # 4503599627370496)%Q]; [(3134505340649865 # 9007199254740992)%Q; (-6368089873101881 # 9007199254740992)%Q; (2494994193563255 # 9007199254740992)%Q]; [(4854880398305395 # 9007199254740992)%Q; (-4931441591970693 # 4503599627370496)%Q; (430375239390593 # 281474976710656)%Q]] 3 3) src_sigmoid_gradient));
mout (qresult (qdenote [((-2668382779217019 # 1125899906842624)%Q, (6735996224514999 # 72057594037927936)%Q); ((-1261007895663739 # 562949953421312)%Q, (1917785922611293 # 18014398509481984)%Q); ((-554787179096703 # 281474976710656)%Q, (1254860203525905 # 9007199254740992)%Q); ((-7980378539700519 # 4503599627370496)%Q, (1531157790067753 # 9007199254740992)%Q); ((-5111585577065513 # 4503599627370496)%Q, (5790226183480797 # 18014398509481984)%Q); ((-7602076171001397 # 9007199254740992)%Q, (7745959521320789 # 18014398509481984)%Q); ((4949455990480175 # 4503599627370496)%Q, (6758019093772193 # 2251799813685248)%Q); ((166914661189419 # 70368744177664)%Q, (6034152733272413 # 562949953421312)%Q); ((6667579248322019 # 2251799813685248)%Q, (679666345430887 # 35184372088832)%Q)] [] (qenv_s [[(1261007895663739 # 562949953421312)%Q; (-4949455990480175 # 4503599627370496)%Q; (7980378539700519 # 4503599627370496)%Q]; [(5111585577065513 # 4503599627370496)%Q; (2668382779217019 # 1125899906842624)%Q; (554787179096703 # 281474976710656)%Q]; [(-6667579248322019 # 2251799813685248)%Q; (-166914661189419 # 70368744177664)%Q; (7602076171001397 # 9007199254740992)%Q]] 3 3) src_sigmoid_output));
mout (qresult (qdenote [((-2668382779217019 # 1125899906842624)%Q, (6735996224514999 # 72057594037927936)%Q); ((-1261007895663739 # 562949953421312)%Q, (1917785922611293 # 18014398509481984)%Q); ((-554787179096703 # 281474976710656)%Q, (1254860203525905 # 9007199254740992)%Q); ((-7980378539700519 # 4503599627370496)%Q, (1531157790067753 # 9007199254740992)%Q); ((-5111585577065513 # 4503599627370496)%Q, (5790226183480797 # 18014398509481984)%Q); ((-7602076171001397 # 9007199254740992)%Q, (7745959521320789 # 18014398509481984)%Q); ((4949455990480175 # 4503599627370496)%Q, (6758019093772193 # 2251799813685248)%Q); ((166914661189419 # 70368744177664)%Q, (6034152733272413 # 562949953421312)%Q); ((6667579248322019 # 2251799813685248)%Q, (679666345430887 # 35184372088832)%Q)] [] (qenv_sd [[(1261007895663739 # 562949953421312)%Q; (-4949455990480175 # 4503599627370496)%Q; (7980378539700519 # 4503599627370496)%Q]; [(5111585577065513 # 4503599627370496)%Q; (2668382779217019 # 1125899906842624)%Q; (554787179096703 # 281474976710656)%Q]; [(-6667579248322019 # 2251799813685248)%Q; (-166914661189419 # 70368744177664)%Q; (7602076171001397 # 9007199254740992)%Q]] [[(-2152720621883097 # 1125899906842624)%Q; (3069203146052993 # 2251799813685248)%Q; (-8106479329266893 # 4503599627370496)%Q]; [(6223974685026025 # 4503599627370496)%Q; (7908320945662591 # 9007199254740992)%Q; (817403332367745 # 2251799813685248)%Q]; [(5345772757688779 # 4503599627370496)%Q; (-837106580737491 # 562949953421312)%Q; (1062849512059437 # 2251799813685248)%Q]] 3 3) src_sigmoid_gradient));
mout (qresult (qdenote [((-3365314821552603 # 1125899906842624)%Q, (7254434209474285 # 144115188075855872)%Q); ((-3336041423974695 # 1125899906842624)%Q, (7445522887190021 # 144115188075855872)%Q); ((-6381600671983993 # 2251799813685248)%Q, (2117674464501503 # 36028797018963968)%Q); ((-8489285297593385 # 4503599627370496)%Q, (1367554590940793 # 9007199254740992)%Q); ((-7930838943799443 # 4503599627370496)%Q, (6192374005611051 # 36028797018963968)%Q); ((-3638908498915361 # 2251799813685248)%Q, (3579314692192733 # 18014398509481984)%Q); ((-308496574474879 # 1125899906842624)%Q, (6848462501645489 # 9007199254740992)%Q); ((1188950301625811 # 36028797018963968)%Q, (4654697823395719 # 4503599627370496)%Q); ((3242591731706757 # 9007199254740992)%Q, (6455141817313119 # 4503599627370496)%Q); ((7800234554605699 # 18014398509481984)%Q, (6943993172998797 # 4503599627370496)%Q); ((2296835809958953 # 2251799813685248)%Q, (6244679452807711 # 2251799813685248)%Q); ((2817001566920245 # 2251799813685248)%Q, (7867417106018565 # 2251799813685248)%Q); ((6291528679436583 # 4503599627370496)%Q, (1138018135611289 # 281474976710656)%Q); ((3632153099474305 # 2251799813685248)%Q, (5649588061812319 # 1125899906842624)%Q); ((4429290233518883 # 2251799813685248)%Q, (4024639946270981 # 562949953421312)%Q)] [] (qenv_s [[(3336041423974695 # 1125899906842624)%Q; (-6291528679436583 # 4503599627370496)%Q; (8489285297593385 # 4503599627370496)%Q]; [(-2817001566920245 # 2251799813685248)%Q; (7930838943799443 # 4503599627370496)%Q; (3638908498915361 # 2251799813685248)%Q]; [(308496574474879 # 1125899906842624)%Q; (-2296835809958953 # 2251799813685248)%Q; (-3632153099474305 # 2251799813685248)%Q]; [(-4429290233518883 # 2251799813685248)%Q; (6381600671983993 # 2251799813685248)%Q; (-3242591731706757 # 9007199254740992)%Q]; [(3365314821552603 # 1125899906842624)%Q; (-1188950301625811 # 36028797018963968)%Q; (-7800234554605699 # 18014398509481984)%Q]] 5 3) src_sigmoid_output));
mout (qresult (qdenote [((-3365314821552603 # 1125899906842624)%Q, (7254434209474285 # 144115188075855872)%Q); ((-3336041423974695 # 1125899906842624)%Q, (7445522887190021 # 144115188075855872)%Q); ((-6381600671983993 # 2251799813685248)%Q, (2117674464501503 # 36028797018963968)%Q); ((-8489285297593385 # 4503599627370496)%Q, (1367554590940793 # 9007199254740992)%Q); ((-7930838943799443 # 4503599627370496)%Q, (6192374005611051 # 36028797018963968)%Q); ((-3638908498915361 # 2251799813685248)%Q, (3579314692192733 # 18014398509481984)%Q); ((-308496574474879 # 1125899906842624)%Q, (6848462501645489 # 9007199254740992)%Q); ((1188950301625811 # 36028797018963968)%Q, (4654697823395719 # 4503599627370496)%Q); ((3242591731706757 # 9007199254740992)%Q, (6455141817313119 # 4503599627370496)%Q); ((7800234554605699 # 18014398509481984)%Q, (6943993172998797 # 4503599627370496)%Q); ((2296835809958953 # 2251799813685248)%Q, (6244679452807711 # 2251799813685248)%Q); ((2817001566920245 # 2251799813685248)%Q, (7867417106018565 # 2251799813685248)%Q); ((6291528679436583 # 4503599627370496)%Q, (1138018135611289 # 281474976710656)%Q); ((3632153099474305 # 2251799813685248)%Q, (5649588061812319 # 1125899906842624)%Q); ((4429290233518883 # 2251799813685248)%Q, (4024639946270981 # 562949953421312)%Q)] [] (qenv_sd [[(3336041423974695 # 1125899906842624)%Q; (-6291528679436583 # 4503599627370496)%Q; (8489285297593385 # 4503599627370496)%Q]; [(-2817001566920245 # 2251799813685248)%Q; (7930838943799443 # 4503599627370496)%Q; (3638908498915361 # 2251799813685248)%Q]; [(308496574474879 # 1125899906842624)%Q; (-2296835809958953 # 2251799813685248)%Q; (-3632153099474305 # 2251799813685248)%Q]; [(-4429290233518883 # 2251799813685248)%Q; (6381600671983993 # 2251799813685248)%Q; (-3242591731706757 # 9007199254740992)%Q]; [(3365314821552603 # 1125899906842624)%Q; (-1188950301625811 # 36028797018963968)%Q; (-7800234554605699 # 18014398509481984)%Q]] [[(-6205960286516543 # 9007199254740992)%Q; (2224778215921025 # 9007199254740992)%Q; (535928355657089 # 4503599627370496)%Q]; [(-1134907106097365 # 4503599627370496)%Q; (8250594517342749 # 4503599627370496)%Q; (-5872693914091127 # 4503599627370496)%Q]; [(5769111122661605 # 4503599627370496)%Q; (4296434044511453 # 4503599627370496)%Q; (5129599975574995 # 4503599627370496)%Q]; [(-3560095505436377 # 2251799813685248)%Q; (3296634927235203 # 9007199254740992)%Q; (2422936599525327 # 9007199254740992)%Q]; [(5494391545392005 # 4503599627370496)%Q; (5399815953217225 # 4503599627370496)%Q; (-6980579422424269 # 4503599627370496)%Q]] 5 3) src_sigmoid_gradient));
mout (qresult (qdenote [((-6631550451303055 # 2251799813685248)%Q, (7580755743599725 # 144115188075855872)%Q); ((-413627478276309 # 140737488355328)%Q, (7626377004981765 # 144115188075855872)%Q); ((-4571153621781053 # 2251799813685248)%Q, (1182965208209727 # 9007199254740992)%Q); ((-7872292148643627 # 18014398509481984)%Q, (5818393395585749 # 9007199254740992)%Q); ((6381600671983993 # 4503599627370496)%Q, (4644030507701549 # 1125899906842624)%Q); ((6435643867512439 # 4503599627370496)%Q, (587511823186675 # 140737488355328)%Q); ((4816599801472745 # 2251799813685248)%Q, (37343559772291 # 4398046511104)%Q); ((6368089873101881 # 2251799813685248)%Q, (4760193277647067 # 281474976710656)%Q)] [] (qenv_s [[(413627478276309 # 140737488355328)%Q; (7872292148643627 # 18014398509481984)%Q; (4571153621781053 # 2251799813685248)%Q; (-6368089873101881 # 2251799813685248)%Q]; [(-6381600671983993 # 4503599627370496)%Q; (-4816599801472745 # 2251799813685248)%Q; (-6435643867512439 # 4503599627370496)%Q; (6631550451303055 # 2251799813685248)%Q]] 2 4) src_sigmoid_output));
mout (qresult (qdenote [((-6631550451303055 # 2251799813685248)%Q, (7580755743599725 # 144115188075855872)%Q); ((-413627478276309 # 140737488355328)%Q, (7626377004981765 # 144115188075855872)%Q); ((-4571153621781053 # 2251799813685248)%Q, (1182965208209727 # 9007199254740992)%Q); ((-7872292148643627 # 18014398509481984)%Q, (5818393395585749 # 9007199254740992)%Q); ((6381600671983993 # 4503599627370496)%Q, (4644030507701549 # 1125899906842624)%Q); ((6435643867512439 # 4503599627370496)%Q, (587511823186675 # 140737488355328)%Q); ((4816599801472745 # 2251799813685248)%Q, (37343559772291 # 4398046511104)%Q); ((6368089873101881 # 2251799813685248)%Q, (4760193277647067 # 281474976710656)%Q)] [] (qenv_sd [[(413627478276309 # 140737488355328)%Q; (7872292148643627 # 18014398509481984)%Q; (4571153621781053 # 2251799813685248)%Q; (-6368089873101881 # 2251799813685248)%Q]; [(-6381600671983993 # 4503599627370496)%Q; (-4816599801472745 # 2251799813685248)%Q; (-6435643867512439 # 4503599627370496)%Q; (6631550451303055 # 2251799813685248)%Q]] [[(8214565720323785 # 72057594037927936)%Q; (-3021915349965603 # 4503599627370496)%Q; (-589971551185535 # 562949953421312)%Q; (4386506037058863 # 2251799813685248)%Q]; [(5656521131977343 # 4503599627370496)%Q; (-4231131849914581 # 2251799813685248)%Q; (1242993497154257 # 4503599627370496)%Q; (-3260606130216239 # 9007199254740992)%Q]] 2 4) src_sigmoid_gradient));
mout (qresult (qdenote [((-835417730877227 # 281474976710656)%Q, (3704194093434401 # 72057594037927936)%Q); ((-6615787852607259 # 2251799813685248)%Q, (7634007196446629 # 144115188075855872)%Q); ((-6046082499744891 # 2251799813685248)%Q, (2457927550884709 # 36028797018963968)%Q); ((-731553464470995 # 281474976710656)%Q, (5357329998939363 # 72057594037927936)%Q); ((-5829909717631107 # 2251799813685248)%Q, (5411172060553731 # 72057594037927936)%Q); ((-1835216848153477 # 1125899906842624)%Q, (882388357028809 # 4503599627370496)%Q); ((-6822953435466301 # 4503599627370496)%Q, (7919424474986919 # 36028797018963968)%Q); ((-4368491638549381 # 4503599627370496)%Q, (3414476458289885 # 9007199254740992)%Q); ((-8142508126285857 # 36028797018963968)%Q, (1796301472704115 # 2251799813685248)%Q); ((2931843357418193 # 4503599627370496)%Q, (1079432513447045 # 562949953421312)%Q); ((2170735020392579 # 2251799813685248)%Q, (1476147203430079 # 562949953421312)%Q); ((4476578029606273 # 4503599627370496)%Q, (6084410314229317 # 2251799813685248)%Q); ((6021312701794353 # 4503599627370496)%Q, (4286980474777527 # 1125899906842624)%Q); ((4111786459789263 # 2251799813685248)%Q, (6990713553535647 # 1125899906842624)%Q); ((4213117451405099 # 2251799813685248)%Q, (3656240568819877 # 562949953421312)%Q); ((8727976077844021 # 4503599627370496)%Q, (7819203014715245 # 1125899906842624)%Q); ((17 # 8)%Q, (589190281367833 # 70368744177664)%Q); ((2628976282477527 # 1125899906842624)%Q, (5814968986105887 # 562949953421312)%Q); ((3108609642792485 # 1125899906842624)%Q, (8903419821382241 # 562949953421312)%Q); ((6721622443850465 # 2251799813685248)%Q, (2784702628083841 # 140737488355328)%Q)] [] (qenv_s [[(-4213117451405099 # 2251799813685248)%Q; (-17 # 8)%Q; (-2628976282477527 # 1125899906842624)%Q; (-4111786459789263 # 2251799813685248)%Q]; [(8142508126285857 # 36028797018963968)%Q; (-2931843357418193 # 4503599627370496)%Q; (-4476578029606273 # 4503599627370496)%Q; (-3108609642792485 # 1125899906842624)%Q]; [(6615787852607259 # 2251799813685248)%Q; (1835216848153477 # 1125899906842624)%Q; (-8727976077844021 # 4503599627370496)%Q; (-6721622443850465 # 2251799813685248)%Q]; [(6046082499744891 # 2251799813685248)%Q; (-6021312701794353 # 4503599627370496)%Q; (6822953435466301 # 4503599627370496)%Q; (5829909717631107 # 2251799813685248)%Q]; [(-2170735020392579 # 2251799813685248)%Q; (731553464470995 # 281474976710656)%Q; (835417730877227 # 281474976710656)%Q; (4368491638549381 # 4503599627370496)%Q]] 5 4) src_sigmoid_output));
mout (qresult (qdenote [((-835417730877227 # 281474976710656)%Q, (3704194093434401 # 72057594037927936)%Q); ((-6615787852607259 # 2251799813685248)%Q, (7634007196446629 # 144115188075855872)%Q); ((-6046082499744891 # 2251799813685248)%Q, (2457927550884709 # 36028797018963968)%Q); ((-731553464470995 # 281474976710656)%Q, (5357329998939363 # 72057594037927936)%Q); ((-5829909717631107 # 2251799813685248)%Q, (5411172060553731 # 72057594037927936)%Q); ((-1835216848153477 # 1125899906842624)%Q, (882388357028809 # 4503599627370496)%Q); ((-6822953435466301 # 4503599627370496)%Q, (7919424474986919 # 36028797018963968)%Q); ((-4368491638549381 # 4503599627370496)%Q, (3414476458289885 # 9007199254740992)%Q); ((-8142508126285857 # 36028797018963968)%Q, (1796301472704115 # 2251799813685248)%Q); ((2931843357418193 # 4503599627370496)%Q, (1079432513447045 # 562949953421312)%Q); ((2170735020392579 # 2251799813685248)%Q, (1476147203430079 # 562949953421312)%Q); ((4476578029606273 # 4503599627370496)%Q, (6084410314229317 # 2251799813685248)%Q); ((6021312701794353 # 4503599627370496)%Q, (4286980474777527 # 1125899906842624)%Q); ((4111786459789263 # 2251799813685248)%Q, (6990713553535647 # 1125899906842624)%Q); ((4213117451405099 # 2251799813685248)%Q, (3656240568819877 # 562949953421312)%Q); ((8727976077844021 # 4503599627370496)%Q, (7819203014715245 # 1125899906842624)%Q); ((17 # 8)%Q, (589190281367833 # 70368744177664)%Q); ((2628976282477527 # 1125899906842624)%Q, (5814968986105887 # 562949953421312)%Q); ((3108609642792485 # 1125899906842624)%Q, (8903419821382241 # 562949953421312)%Q); ((6721622443850465 # 2251799813685248)%Q, (2784702628083841 # 140737488355328)%Q)] [] (qenv_sd [[(-4213117451405099 # 2251799813685248)%Q; (-17 # 8)%Q; (-2628976282477527 # 1125899906842624)%Q; (-4111786459789263 # 2251799813685248)%Q]; [(8142508126285857 # 36028797018963968)%Q; (-2931843357418193 # 4503599627370496)%Q; (-4476578029606273 # 4503599627370496)%Q; (-3108609642792485 # 1125899906842624)%Q]; [(6615787852607259 # 2251799813685248)%Q; (1835216848153477 # 1125899906842624)%Q; (-8727976077844021 # 4503599627370496)%Q; (-6721622443850465 # 2251799813685248)%Q]; [(6046082499744891 # 2251799813685248)%Q; (-6021312701794353 # 4503599627370496)%Q; (6822953435466301 # 4503599627370496)%Q; (5829909717631107 # 2251799813685248)%Q]; [(-2170735020392579 # 2251799813685248)%Q; (731553464470995 # 281474976710656)%Q; (835417730877227 # 281474976710656)%Q; (4368491638549381 # 4503599627370496)%Q]] [[(-2985886552946639 # 4503599627370496)%Q; (-2120069524584661 # 1125899906842624)%Q; (7692148163548807 # 4503599627370496)%Q; (-5579959938312045 # 4503599627370496)%Q]; [(-3740239490531197 # 2251799813685248)%Q; (8070450532247929 # 18014398509481984)%Q; (-1380353285789057 # 2251799813685248)%Q; (-6052837899185947 # 144115188075855872)%Q]; [(-5152117973711847 # 18014398509481984)%Q; (-799388933858263 # 562949953421312)%Q; (-3656922897424843 # 9007199254740992)%Q; (7530018576963469 # 9007199254740992)%Q]; [(3249347131147813 # 2251799813685248)%Q; (1030198414761001 # 562949953421312)%Q; (-8214565720323785 # 4503599627370496)%Q; (-2188749418902061 # 4503599627370496)%Q]; [(5350276357316149 # 4503599627370496)%Q; (589971551185535 # 4503599627370496)%Q; (-7493989779944505 # 576460752303423488)%Q; (-4231131849914581 # 2251799813685248)%Q]] 5 4) src_sigmoid_gradient));
mout (qresult (qdenote [((-6753147641242059 # 2251799813685248)%Q, (7182251383034291 # 144115188075855872)%Q); ((-3216696033849377 # 1125899906842624)%Q, (2069523807001983 # 36028797018963968)%Q); ((5645262132908917 # 2251799813685248)%Q, (431644360351519 # 35184372088832)%Q); ((6118140093782819 # 2251799813685248)%Q, (8520162833115701 # 562949953421312)%Q)] [] (qenv_s [[(3216696033849377 # 1125899906842624)%Q; (6753147641242059 # 2251799813685248)%Q; (-5645262132908917 # 2251799813685248)%Q; (-6118140093782819 # 2251799813685248)%Q]] 1 4) src_sigmoid_output));
mout (qresult (qdenote [((-6753147641242059 # 2251799813685248)%Q, (7182251383034291 # 144115188075855872)%Q); ((-3216696033849377 # 1125899906842624)%Q, (2069523807001983 # 36028797018963968)%Q); ((5645262132908917 # 2251799813685248)%Q, (431644360351519 # 35184372088832)%Q); ((6118140093782819 # 2251799813685248)%Q, (8520162833115701 # 562949953421312)%Q)] [] (qenv_sd [[(3216696033849377 # 1125899906842624)%Q; (6753147641242059 # 2251799813685248)%Q; (-5645262132908917 # 2251799813685248)%Q; (-6118140093782819 # 2251799813685248)%Q]] [[(-7764205757586735 # 9007199254740992)%Q; (-1062849512059437 # 18014398509481984)%Q; (7962364141191037 # 36028797018963968)%Q; (4375247037990437 # 2251799813685248)%Q]] 1 4) src_sigmoid_gradient));
mout (qresult (qdenote [((-6710363444782039 # 2251799813685248)%Q, (7320018805345549 # 144115188075855872)%Q); ((-2817001566920245 # 1125899906842624)%Q, (2951514817121189 # 36028797018963968)%Q); ((-5165628772593959 # 2251799813685248)%Q, (7267887825916449 # 72057594037927936)%Q); ((-5086815779114975 # 2251799813685248)%Q, (7526767873863921 # 72057594037927936)%Q); ((-4854880398305395 # 2251799813685248)%Q, (8343357526287439 # 72057594037927936)%Q); ((-3769512888109105 # 2251799813685248)%Q, (6755240242294867 # 36028797018963968)%Q); ((-1553741871442821 # 1125899906842624)%Q, (141626134726791 # 562949953421312)%Q); ((-8196551321814303 # 9007199254740992)%Q, (1812807945365481 # 4503599627370496)%Q); ((1679842661009195 # 4503599627370496)%Q, (6539606491781419 # 4503599627370496)%Q); ((7818248953115181 # 18014398509481984)%Q, (1737735159831501 # 1125899906842624)%Q); ((940126422213591 # 1125899906842624)%Q, (5189979844511837 # 2251799813685248)%Q); ((7710162562058289 # 9007199254740992)%Q, (662515233096225 # 281474976710656)%Q); ((6241989083535507 # 4503599627370496)%Q, (9004548275673013 # 2251799813685248)%Q); ((1964695337440379 # 1125899906842624)%Q, (1611697984441723 # 281474976710656)%Q); ((2935221057138721 # 1125899906842624)%Q, (7632652704189823 # 562949953421312)%Q); ((5883952913159553 # 2251799813685248)%Q, (479911642709487 # 35184372088832)%Q)] [] (qenv_s [[(-2935221057138721 # 1125899906842624)%Q; (-940126422213591 # 1125899906842624)%Q; (6710363444782039 # 2251799813685248)%Q; (3769512888109105 # 2251799813685248)%Q]; [(-5883952913159553 # 2251799813685248)%Q; (-7710162562058289 # 9007199254740992)%Q; (5086815779114975 # 2251799813685248)%Q; (1553741871442821 # 1125899906842624)%Q]; [(2817001566920245 # 1125899906842624)%Q; (-1964695337440379 # 1125899906842624)%Q; (4854880398305395 # 2251799813685248)%Q; (5165628772593959 # 2251799813685248)%Q]; [(-6241989083535507 # 4503599627370496)%Q; (-1679842661009195 # 4503599627370496)%Q; (8196551321814303 # 9007199254740992)%Q; (-7818248953115181 # 18014398509481984)%Q]] 4 4) src_sigmoid_output));
mout (qresult (qdenote [((-6710363444782039 # 2251799813685248)%Q, (7320018805345549 # 144115188075855872)%Q); ((-2817001566920245 # 1125899906842624)%Q, (2951514817121189 # 36028797018963968)%Q); ((-5165628772593959 # 2251799813685248)%Q, (7267887825916449 # 72057594037927936)%Q); ((-5086815779114975 # 2251799813685248)%Q, (7526767873863921 # 72057594037927936)%Q); ((-4854880398305395 # 2251799813685248)%Q, (8343357526287439 # 72057594037927936)%Q); ((-3769512888109105 # 2251799813685248)%Q, (6755240242294867 # 36028797018963968)%Q); ((-1553741871442821 # 1125899906842624)%Q, (141626134726791 # 562949953421312)%Q); ((-8196551321814303 # 9007199254740992)%Q, (1812807945365481 # 4503599627370496)%Q); ((1679842661009195 # 4503599627370496)%Q, (6539606491781419 # 4503599627370496)%Q); ((7818248953115181 # 18014398509481984)%Q, (1737735159831501 # 1125899906842624)%Q); ((940126422213591 # 1125899906842624)%Q, (5189979844511837 # 2251799813685248)%Q); ((7710162562058289 # 9007199254740992)%Q, (662515233096225 # 281474976710656)%Q); ((6241989083535507 # 4503599627370496)%Q, (9004548275673013 # 2251799813685248)%Q); ((1964695337440379 # 1125899906842624)%Q, (1611697984441723 # 281474976710656)%Q); ((2935221057138721 # 1125899906842624)%Q, (7632652704189823 # 562949953421312)%Q); ((5883952913159553 # 2251799813685248)%Q, (479911642709487 # 35184372088832)%Q)] [] (qenv_sd [[(-2935221057138721 # 1125899906842624)%Q; (-940126422213591 # 1125899906842624)%Q; (6710363444782039 # 2251799813685248)%Q; (3769512888109105 # 2251799813685248)%Q]; [(-5883952913159553 # 2251799813685248)%Q; (-7710162562058289 # 9007199254740992)%Q; (5086815779114975 # 2251799813685248)%Q; (1553741871442821 # 1125899906842624)%Q]; [(2817001566920245 # 1125899906842624)%Q; (-1964695337440379 # 1125899906842624)%Q; (4854880398305395 # 2251799813685248)%Q; (5165628772593959 # 2251799813685248)%Q]; [(-6241989083535507 # 4503599627370496)%Q; (-1679842661009195 # 4503599627370496)%Q; (8196551321814303 # 9007199254740992)%Q; (-7818248953115181 # 18014398509481984)%Q]] [[(2560296388160127 # 2251799813685248)%Q; (-853432129386709 # 2251799813685248)%Q; (8561342891631313 # 4503599627370496)%Q; (-8088464930757411 # 4503599627370496)%Q]; [(324822123124097 # 281474976710656)%Q; (5476377146882523 # 72057594037927936)%Q; (5643010333095231 # 4503599627370496)%Q; (5206161169240293 # 9007199254740992)%Q]; [(-1697857059518677 # 2251799813685248)%Q; (7926335344172073 # 9007199254740992)%Q; (4548635623644201 # 9007199254740992)%Q; (-5769111122661605 # 4503599627370496)%Q]; [(-8885602064801989 # 4503599627370496)%Q; (-3920383475626017 # 2251799813685248)%Q; (3566850904877433 # 4503599627370496)%Q; (1239615797433729 # 1125899906842624)%Q]] 4 4) src_sigmoid_gradient))
].
Eval vm_compute in the_cases.
