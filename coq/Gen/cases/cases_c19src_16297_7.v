From SKN Require Import Base.Util Model.Gnn Model.NpExpr Gen.NpGnn.
Set Printing Depth 10000000.
Set Printing Width 1000000.
Definition qout (q : Q) : Z * Z := let r := Qred q in (Qnum r, Zpos (Qden r)).
Definition mout (m : list (list Q)) : list (list (Z * Z)) := map (map qout) m.

Definition the_cases := [
mout (qresult (qdenote [((-4535124824762089 # 2251799813685248)%Q, (1202044881899297 # 9007199254740992)%Q); ((7453457383298171 # 4503599627370496)%Q, (5891924196880293 # 1125899906842624)%Q); ((588282701325271 # 281474976710656)%Q, (568925326895099 # 70368744177664)%Q); ((5298484961601389 # 2251799813685248)%Q, (740073266313489 # 70368744177664)%Q)] [((70368744177664 # 639294071072763)%Q, (-1242214016274687 # 562949953421312)%Q); ((1202044881899297 # 10209244136640289)%Q, (-4817206488131237 # 2251799813685248)%Q); ((5891924196880293 # 7017824103722917)%Q, (-6300376637533223 # 36028797018963968)%Q); ((9007199254740992 # 10209244136640289)%Q, (-564163326738295 # 4503599627370496)%Q); ((568925326895099 # 639294071072763)%Q, (-8403022543890553 # 72057594037927936)%Q); ((740073266313489 # 810442010491153)%Q, (-6545034570644757 # 72057594037927936)%Q)] (qenv_sl [[(-5298484961601389 # 2251799813685248)%Q; (-588282701325271 # 281474976710656)%Q]; [(4535124824762089 # 2251799813685248)%Q; (-7453457383298171 # 4503599627370496)%Q]] [1; 0] 2 2) src_bce_loss));
mout (qresult (qdenote [((-4535124824762089 # 2251799813685248)%Q, (1202044881899297 # 9007199254740992)%Q); ((7453457383298171 # 4503599627370496)%Q, (5891924196880293 # 1125899906842624)%Q); ((588282701325271 # 281474976710656)%Q, (568925326895099 # 70368744177664)%Q); ((5298484961601389 # 2251799813685248)%Q, (740073266313489 # 70368744177664)%Q)] [] (qenv_sl [[(-5298484961601389 # 2251799813685248)%Q; (-588282701325271 # 281474976710656)%Q]; [(4535124824762089 # 2251799813685248)%Q; (-7453457383298171 # 4503599627370496)%Q]] [1; 0] 2 2) src_bce_loss_gradient));
mout (qresult (qdenote [((-2715670575304409 # 1125899906842624)%Q, (3229471610868891 # 36028797018963968)%Q); ((-484418434919039 # 281474976710656)%Q, (6445089582868857 # 36028797018963968)%Q); ((-5962765906638537 # 4503599627370496)%Q, (4793071105395949 # 18014398509481984)%Q); ((-4553139223271571 # 4503599627370496)%Q, (6554627936375245 # 18014398509481984)%Q); ((-7854277750134145 # 9007199254740992)%Q, (3766040464122845 # 9007199254740992)%Q); ((2350879005487399 # 4503599627370496)%Q, (7590344615067081 # 4503599627370496)%Q); ((2344123606046343 # 2251799813685248)%Q, (3188602181307505 # 1125899906842624)%Q); ((7106680211990643 # 4503599627370496)%Q, (5455272832110063 # 1125899906842624)%Q)] [((3229471610868891 # 39258268629832859)%Q, (-5624643644746001 # 2251799813685248)%Q); ((6445089582868857 # 42473886601832825)%Q, (-8491856485057973 # 4503599627370496)%Q); ((1125899906842624 # 6581172738952687)%Q, (-3975846035012751 # 2251799813685248)%Q); ((4793071105395949 # 22807469614877933)%Q, (-7025240456503601 # 4503599627370496)%Q); ((1125899906842624 # 4314502088150129)%Q, (-6050132559254783 # 4503599627370496)%Q); ((6554627936375245 # 24569026445857229)%Q, (-5950674672661229 # 4503599627370496)%Q); ((3766040464122845 # 12773239718863837)%Q, (-5500373049616153 # 4503599627370496)%Q); ((7590344615067081 # 12093944242437577)%Q, (-524475541121643 # 1125899906842624)%Q); ((9007199254740992 # 12773239718863837)%Q, (-3146468349098163 # 9007199254740992)%Q); ((3188602181307505 # 4314502088150129)%Q, (-5447541388648389 # 18014398509481984)%Q); ((5455272832110063 # 6581172738952687)%Q, (-3380047432139437 # 18014398509481984)%Q); ((36028797018963968 # 39258268629832859)%Q, (-6185679812389847 # 72057594037927936)%Q)] (qenv_sl [[(4553139223271571 # 4503599627370496)%Q; (-7106680211990643 # 4503599627370496)%Q]; [(484418434919039 # 281474976710656)%Q; (-2344123606046343 # 2251799813685248)%Q]; [(7854277750134145 # 9007199254740992)%Q; (-2350879005487399 # 4503599627370496)%Q]; [(5962765906638537 # 4503599627370496)%Q; (2715670575304409 # 1125899906842624)%Q]] [1; 1; 0; 1] 4 2) src_bce_loss));
mout (qresult (qdenote [((-2715670575304409 # 1125899906842624)%Q, (3229471610868891 # 36028797018963968)%Q); ((-484418434919039 # 281474976710656)%Q, (6445089582868857 # 36028797018963968)%Q); ((-5962765906638537 # 4503599627370496)%Q, (4793071105395949 # 18014398509481984)%Q); ((-4553139223271571 # 4503599627370496)%Q, (6554627936375245 # 18014398509481984)%Q); ((-7854277750134145 # 9007199254740992)%Q, (3766040464122845 # 9007199254740992)%Q); ((2350879005487399 # 4503599627370496)%Q, (7590344615067081 # 4503599627370496)%Q); ((2344123606046343 # 2251799813685248)%Q, (3188602181307505 # 1125899906842624)%Q); ((7106680211990643 # 4503599627370496)%Q, (5455272832110063 # 1125899906842624)%Q)] [] (qenv_sl [[(4553139223271571 # 4503599627370496)%Q; (-7106680211990643 # 4503599627370496)%Q]; [(484418434919039 # 281474976710656)%Q; (-2344123606046343 # 2251799813685248)%Q]; [(7854277750134145 # 9007199254740992)%Q; (-2350879005487399 # 4503599627370496)%Q]; [(5962765906638537 # 4503599627370496)%Q; (2715670575304409 # 1125899906842624)%Q]] [1; 1; 0; 1] 4 2) src_bce_loss_gradient));
mout (qresult (qdenote [((-1116892707587883 # 1125899906842624)%Q, (208761140820895 # 562949953421312)%Q); ((-3260606130216239 # 9007199254740992)%Q, (6271554024713693 # 9007199254740992)%Q); ((1769914653556605 # 4503599627370496)%Q, (6671715306163075 # 4503599627370496)%Q); ((1751900255047123 # 1125899906842624)%Q, (1334141844387957 # 281474976710656)%Q); ((8903616463311471 # 4503599627370496)%Q, (8130176500369243 # 1125899906842624)%Q); ((2412803500363743 # 1125899906842624)%Q, (2399566922149651 # 281474976710656)%Q)] [((281474976710656 # 2681041898860307)%Q, (-1268842591333019 # 562949953421312)%Q); ((281474976710656 # 1615616821098613)%Q, (-61482176103375 # 35184372088832)%Q); ((208761140820895 # 771711094242207)%Q, (-2944047027532151 # 2251799813685248)%Q); ((4503599627370496 # 11175314933533571)%Q, (-8186015851856333 # 9007199254740992)%Q); ((6271554024713693 # 15278753279454685)%Q, (-2005090405788267 # 2251799813685248)%Q); ((6671715306163075 # 11175314933533571)%Q, (-1161546636185781 # 2251799813685248)%Q); ((1334141844387957 # 1615616821098613)%Q, (-3448470084174033 # 18014398509481984)%Q); ((8130176500369243 # 9256076407211867)%Q, (-146026528880441 # 1125899906842624)%Q); ((2399566922149651 # 2681041898860307)%Q, (-7992427667346871 # 72057594037927936)%Q)] (qenv_sl [[(1116892707587883 # 1125899906842624)%Q; (-1769914653556605 # 4503599627370496)%Q]; [(-1751900255047123 # 1125899906842624)%Q; (3260606130216239 # 9007199254740992)%Q]; [(-8903616463311471 # 4503599627370496)%Q; (-2412803500363743 # 1125899906842624)%Q]] [1; 0; 1] 3 2) src_bce_loss));
mout (qresult (qdenote [((-1116892707587883 # 1125899906842624)%Q, (208761140820895 # 562949953421312)%Q); ((-3260606130216239 # 9007199254740992)%Q, (6271554024713693 # 9007199254740992)%Q); ((1769914653556605 # 4503599627370496)%Q, (6671715306163075 # 4503599627370496)%Q); ((1751900255047123 # 1125899906842624)%Q, (1334141844387957 # 281474976710656)%Q); ((8903616463311471 # 4503599627370496)%Q, (8130176500369243 # 1125899906842624)%Q); ((2412803500363743 # 1125899906842624)%Q, (2399566922149651 # 281474976710656)%Q)] [] (qenv_sl [[(1116892707587883 # 1125899906842624)%Q; (-1769914653556605 # 4503599627370496)%Q]; [(-1751900255047123 # 1125899906842624)%Q; (3260606130216239 # 9007199254740992)%Q]; [(-8903616463311471 # 4503599627370496)%Q; (-2412803500363743 # 1125899906842624)%Q]] [1; 0; 1] 3 2) src_bce_loss_gradient));
mout (qresult (qdenote [((-2823756966361301 # 2251799813685248)%Q, (2570303986935173 # 9007199254740992)%Q); ((-5332261958806667 # 36028797018963968)%Q, (7768088895771435 # 9007199254740992)%Q); ((5494391545392005 # 9007199254740992)%Q, (8288566161753943 # 4503599627370496)%Q); ((1874623344892969 # 1125899906842624)%Q, (5951139019506193 # 1125899906842624)%Q); ((4980981187871769 # 2251799813685248)%Q, (642745721666447 # 70368744177664)%Q); ((6291528679436583 # 2251799813685248)%Q, (4601067178740671 # 281474976710656)%Q)] [((70368744177664 # 713114465844111)%Q, (-5214926882906603 # 2251799813685248)%Q); ((2570303986935173 # 11577503241676165)%Q, (-6778096072689543 # 4503599627370496)%Q); ((7768088895771435 # 16775288150512427)%Q, (-6934486749466617 # 9007199254740992)%Q); ((9007199254740992 # 16775288150512427)%Q, (-5601421259764951 # 9007199254740992)%Q); ((8288566161753943 # 12792165789124439)%Q, (-3908727633921077 # 9007199254740992)%Q); ((9007199254740992 # 11577503241676165)%Q, (-1130582139966941 # 4503599627370496)%Q); ((5951139019506193 # 7077038926348817)%Q, (-3121408087406367 # 18014398509481984)%Q); ((642745721666447 # 713114465844111)%Q, (-3743131120557347 # 36028797018963968)%Q); ((4601067178740671 # 4882542155451327)%Q, (-8557234996820831 # 144115188075855872)%Q)] (qenv_sl [[(-4980981187871769 # 2251799813685248)%Q; (-5494391545392005 # 9007199254740992)%Q]; [(5332261958806667 # 36028797018963968)%Q; (-6291528679436583 # 2251799813685248)%Q]; [(2823756966361301 # 2251799813685248)%Q; (-1874623344892969 # 1125899906842624)%Q]] [0; 0; 0] 3 2) src_bce_loss));
mout (qresult (qdenote [((-2823756966361301 # 2251799813685248)%Q, (2570303986935173 # 9007199254740992)%Q); ((-5332261958806667 # 36028797018963968)%Q, (7768088895771435 # 9007199254740992)%Q); ((5494391545392005 # 9007199254740992)%Q, (8288566161753943 # 4503599627370496)%Q); ((1874623344892969 # 1125899906842624)%Q, (5951139019506193 # 1125899906842624)%Q); ((4980981187871769 # 2251799813685248)%Q, (642745721666447 # 70368744177664)%Q); ((6291528679436583 # 2251799813685248)%Q, (4601067178740671 # 281474976710656)%Q)] [] (qenv_sl [[(-4980981187871769 # 2251799813685248)%Q; (-5494391545392005 # 9007199254740992)%Q]; [(5332261958806667 # 36028797018963968)%Q; (-6291528679436583 # 2251799813685248)%Q]; [(2823756966361301 # 2251799813685248)%Q; (-1874623344892969 # 1125899906842624)%Q]] [0; 0; 0] 3 2) src_bce_loss_gradient));
mout (qresult (qdenote [((-6471672664531403 # 2251799813685248)%Q, (8138557044222381 # 144115188075855872)%Q); ((-2542281989650645 # 1125899906842624)%Q, (470893650398531 # 4503599627370496)%Q); ((1871245645172441 # 2251799813685248)%Q, (1292315347417019 # 562949953421312)%Q); ((5584463537939415 # 4503599627370496)%Q, (7781349756120827 # 2251799813685248)%Q); ((6205960286516543 # 4503599627370496)%Q, (2233199817039663 # 562949953421312)%Q); ((3195303935619367 # 2251799813685248)%Q, (2326663931486553 # 562949953421312)%Q); ((7417428586279207 # 4503599627370496)%Q, (365311052694123 # 70368744177664)%Q); ((4812096201845375 # 2251799813685248)%Q, (4770425253132729 # 562949953421312)%Q); ((5296233161787703 # 2251799813685248)%Q, (2957334251841975 # 281474976710656)%Q)] [((8138557044222381 # 152253745120078253)%Q, (-6595376655875079 # 2251799813685248)%Q); ((470893650398531 # 4974493277769027)%Q, (-5308497628883659 # 2251799813685248)%Q); ((562949953421312 # 5333375206554041)%Q, (-5063281841507191 # 2251799813685248)%Q); ((2251799813685248 # 10033149569806075)%Q, (-6729119829212787 # 4503599627370496)%Q); ((562949953421312 # 1855265300838331)%Q, (-5370958024532883 # 4503599627370496)%Q); ((1292315347417019 # 1855265300838331)%Q, (-6513866936752003 # 18014398509481984)%Q); ((7781349756120827 # 10033149569806075)%Q, (-4578625165093489 # 18014398509481984)%Q); ((2233199817039663 # 2796149770460975)%Q, (-506222469263309 # 2251799813685248)%Q); ((2326663931486553 # 2889613884907865)%Q, (-7806987678244879 # 36028797018963968)%Q); ((365311052694123 # 435679796871787)%Q, (-6346774259101499 # 36028797018963968)%Q); ((4770425253132729 # 5333375206554041)%Q, (-4018970234589063 # 36028797018963968)%Q); ((2957334251841975 # 3238809228552631)%Q, (-6551294016897669 # 72057594037927936)%Q)] (qenv_sl [[(-3195303935619367 # 2251799813685248)%Q; (-5584463537939415 # 4503599627370496)%Q; (6471672664531403 # 2251799813685248)%Q]; [(-4812096201845375 # 2251799813685248)%Q; (-6205960286516543 # 4503599627370496)%Q; (-5296233161787703 # 2251799813685248)%Q]; [(2542281989650645 # 1125899906842624)%Q; (-1871245645172441 # 2251799813685248)%Q; (-7417428586279207 # 4503599627370496)%Q]] [1; 0; 1] 3 3) src_bce_loss));
mout (qresult (qdenote [((-6471672664531403 # 2251799813685248)%Q, (8138557044222381 # 144115188075855872)%Q); ((-2542281989650645 # 1125899906842624)%Q, (470893650398531 # 4503599627370496)%Q); ((1871245645172441 # 2251799813685248)%Q, (1292315347417019 # 562949953421312)%Q); ((5584463537939415 # 4503599627370496)%Q, (7781349756120827 # 2251799813685248)%Q); ((6205960286516543 # 4503599627370496)%Q, (2233199817039663 # 562949953421312)%Q); ((3195303935619367 # 2251799813685248)%Q, (2326663931486553 # 562949953421312)%Q); ((7417428586279207 # 4503599627370496)%Q, (365311052694123 # 70368744177664)%Q); ((4812096201845375 # 2251799813685248)%Q, (4770425253132729 # 562949953421312)%Q); ((5296233161787703 # 2251799813685248)%Q, (2957334251841975 # 281474976710656)%Q)] [] (qenv_sl [[(-3195303935619367 # 2251799813685248)%Q; (-5584463537939415 # 4503599627370496)%Q; (6471672664531403 # 2251799813685248)%Q]; [(-4812096201845375 # 2251799813685248)%Q; (-6205960286516543 # 4503599627370496)%Q; (-5296233161787703 # 2251799813685248)%Q]; [(2542281989650645 # 1125899906842624)%Q; (-1871245645172441 # 2251799813685248)%Q; (-7417428586279207 # 4503599627370496)%Q]] [1; 0; 1] 3 3) src_bce_loss_gradient));
mout (qresult (qdenote [((-2574933086949081 # 1125899906842624)%Q, (914867690019829 # 9007199254740992)%Q); ((-4014959067800797 # 2251799813685248)%Q, (3028814701386979 # 18014398509481984)%Q); ((-7530018576963469 # 4503599627370496)%Q, (3384382121135717 # 18014398509481984)%Q); ((-5206161169240293 # 4503599627370496)%Q, (177184352750345 # 562949953421312)%Q); ((-4278419646001971 # 4503599627370496)%Q, (108857920569911 # 281474976710656)%Q); ((-1835216848153477 # 2251799813685248)%Q, (498367577441027 # 1125899906842624)%Q); ((-3548836506367951 # 9007199254740992)%Q, (3037020676400247 # 4503599627370496)%Q); ((-7530018576963469 # 36028797018963968)%Q, (7308398561787727 # 9007199254740992)%Q); ((5440348349863559 # 18014398509481984)%Q, (6091394236604605 # 4503599627370496)%Q); ((272467777455915 # 281474976710656)%Q, (1482063617182755 # 562949953421312)%Q); ((2542281989650645 # 2251799813685248)%Q, (3481915707860997 # 1125899906842624)%Q); ((3224577333197275 # 2251799813685248)%Q, (4714216040841813 # 1125899906842624)%Q); ((8764004874862985 # 4503599627370496)%Q, (3941003760952355 # 562949953421312)%Q); ((8926134461448323 # 4503599627370496)%Q, (2042732294916989 # 281474976710656)%Q); ((3105231943071957 # 1125899906842624)%Q, (8876749587271931 # 562949953421312)%Q)] [((914867690019829 # 9922066944760821)%Q, (-5367698726564393 # 2251799813685248)%Q); ((562949953421312 # 4503953714373667)%Q, (-2341331556333057 # 1125899906842624)%Q); ((3028814701386979 # 21043213210868963)%Q, (-8729807872093953 # 4503599627370496)%Q); ((3384382121135717 # 21398780630617701)%Q, (-8305369931518915 # 4503599627370496)%Q); ((177184352750345 # 740134306171657)%Q, (-6438530373347741 # 4503599627370496)%Q); ((1125899906842624 # 4607815614703621)%Q, (-6346343230505319 # 4503599627370496)%Q); ((108857920569911 # 390332897280567)%Q, (-5750900398062315 # 4503599627370496)%Q); ((498367577441027 # 1624267484283651)%Q, (-2660443613480947 # 2251799813685248)%Q); ((3037020676400247 # 7540620303770743)%Q, (-8191394275408683 # 9007199254740992)%Q); ((4503599627370496 # 10594993863975101)%Q, (-1926425140252817 # 2251799813685248)%Q); ((7308398561787727 # 16315597816528719)%Q, (-1808414568369283 # 2251799813685248)%Q); ((6091394236604605 # 10594993863975101)%Q, (-19474712445623 # 35184372088832)%Q); ((1482063617182755 # 2045013570604067)%Q, (-5800077386199535 # 18014398509481984)%Q); ((3481915707860997 # 4607815614703621)%Q, (-5047117004816115 # 18014398509481984)%Q); ((562949953421312 # 740134306171657)%Q, (-154046150513431 # 562949953421312)%Q); ((4714216040841813 # 5840115947684437)%Q, (-7716216034497391 # 36028797018963968)%Q); ((18014398509481984 # 21398780630617701)%Q, (-6202810836443571 # 36028797018963968)%Q); ((3941003760952355 # 4503953714373667)%Q, (-4810570803753951 # 36028797018963968)%Q); ((2042732294916989 # 2324207271627645)%Q, (-1162746111637773 # 9007199254740992)%Q); ((8876749587271931 # 9439699540693243)%Q, (-8861455393232821 # 144115188075855872)%Q)] (qenv_sl [[(7530018576963469 # 36028797018963968)%Q; (-3105231943071957 # 1125899906842624)%Q; (-2542281989650645 # 2251799813685248)%Q]; [(2574933086949081 # 1125899906842624)%Q; (7530018576963469 # 4503599627370496)%Q; (-272467777455915 # 281474976710656)%Q]; [(-8926134461448323 # 4503599627370496)%Q; (4278419646001971 # 4503599627370496)%Q; (-5440348349863559 # 18014398509481984)%Q]; [(-8764004874862985 # 4503599627370496)%Q; (3548836506367951 # 9007199254740992)%Q; (1835216848153477 # 2251799813685248)%Q]; [(-3224577333197275 # 2251799813685248)%Q; (4014959067800797 # 2251799813685248)%Q; (5206161169240293 # 4503599627370496)%Q]] [2; 1; 2; 0; 2] 5 3) src_bce_loss));
mout (qresult (qdenote [((-2574933086949081 # 1125899906842624)%Q, (914867690019829 # 9007199254740992)%Q); ((-4014959067800797 # 2251799813685248)%Q, (3028814701386979 # 18014398509481984)%Q); ((-7530018576963469 # 4503599627370496)%Q, (3384382121135717 # 18014398509481984)%Q); ((-5206161169240293 # 4503599627370496)%Q, (177184352750345 # 562949953421312)%Q); ((-4278419646001971 # 4503599627370496)%Q, (108857920569911 # 281474976710656)%Q); ((-1835216848153477 # 2251799813685248)%Q, (498367577441027 # 1125899906842624)%Q); ((-3548836506367951 # 9007199254740992)%Q, (3037020676400247 # 4503599627370496)%Q); ((-7530018576963469 # 36028797018963968)%Q, (7308398561787727 # 9007199254740992)%Q); ((5440348349863559 # 18014398509481984)%Q, (6091394236604605 # 4503599627370496)%Q); ((272467777455915 # 281474976710656)%Q, (1482063617182755 # 562949953421312)%Q); ((2542281989650645 # 2251799813685248)%Q, (3481915707860997 # 1125899906842624)%Q); ((3224577333197275 # 2251799813685248)%Q, (4714216040841813 # 1125899906842624)%Q); ((8764004874862985 # 4503599627370496)%Q, (3941003760952355 # 562949953421312)%Q); ((8926134461448323 # 4503599627370496)%Q, (2042732294916989 # 281474976710656)%Q); ((3105231943071957 # 1125899906842624)%Q, (8876749587271931 # 562949953421312)%Q)] [] (qenv_sl [[(7530018576963469 # 36028797018963968)%Q; (-3105231943071957 # 1125899906842624)%Q; (-2542281989650645 # 2251799813685248)%Q]; [(2574933086949081 # 1125899906842624)%Q; (7530018576963469 # 4503599627370496)%Q; (-272467777455915 # 281474976710656)%Q]; [(-8926134461448323 # 4503599627370496)%Q; (4278419646001971 # 4503599627370496)%Q; (-5440348349863559 # 18014398509481984)%Q]; [(-8764004874862985 # 4503599627370496)%Q; (3548836506367951 # 9007199254740992)%Q; (1835216848153477 # 2251799813685248)%Q]; [(-3224577333197275 # 2251799813685248)%Q; (4014959067800797 # 2251799813685248)%Q; (5206161169240293 # 4503599627370496)%Q]] [2; 1; 2; 0; 2] 5 3) src_bce_loss_gradient));
mout (qresult (qdenote [((-6620291452234629 # 2251799813685248)%Q, (3809377219947271 # 72057594037927936)%Q); ((-1398367684298539 # 562949953421312)%Q, (3005123111058687 # 36028797018963968)%Q); ((-8268608915852231 # 4503599627370496)%Q, (5744934648615901 # 36028797018963968)%Q); ((-5674535530486825 # 4503599627370496)%Q, (5109856672186027 # 18014398509481984)%Q); ((-1907274442191405 # 2251799813685248)%Q, (3861378232371991 # 9007199254740992)%Q); ((-2152720621883097 # 4503599627370496)%Q, (5584663470579089 # 9007199254740992)%Q); ((-7331860193359167 # 18014398509481984)%Q, (5995589854806533 # 9007199254740992)%Q); ((-7818248953115181 # 36028797018963968)%Q, (7250164619642699 # 9007199254740992)%Q); ((-7782220156096217 # 36028797018963968)%Q, (3628709205276657 # 4503599627370496)%Q); ((1152921504606847 # 288230376151711744)%Q, (2260825051381735 # 2251799813685248)%Q); ((5805139919680569 # 4503599627370496)%Q, (8172131870104047 # 2251799813685248)%Q); ((5316499360110871 # 2251799813685248)%Q, (5968140784543567 # 562949953421312)%Q); ((5433592950422503 # 2251799813685248)%Q, (6286694730342873 # 562949953421312)%Q); ((6332061076082917 # 2251799813685248)%Q, (585579531659499 # 35184372088832)%Q); ((1627488315341013 # 562949953421312)%Q, (5069733600622565 # 281474976710656)%Q)] [((3809377219947271 # 75866971257875207)%Q, (-6736294522810823 # 2251799813685248)%Q); ((3005123111058687 # 39033920130022655)%Q, (-5773868002832195 # 2251799813685248)%Q); ((5744934648615901 # 41773731667579869)%Q, (-4467456387343217 # 2251799813685248)%Q); ((5109856672186027 # 23124255181668011)%Q, (-849891579049425 # 562949953421312)%Q); ((3861378232371991 # 12868577487112983)%Q, (-5421272504132105 # 4503599627370496)%Q); ((5584663470579089 # 14591862725320081)%Q, (-1081359138758891 # 1125899906842624)%Q); ((5995589854806533 # 15002789109547525)%Q, (-1032688848708073 # 1125899906842624)%Q); ((7250164619642699 # 16257363874383691)%Q, (-7273509690864539 # 9007199254740992)%Q); ((3628709205276657 # 8132308832647153)%Q, (-1817130117986611 # 2251799813685248)%Q); ((2251799813685248 # 4512624865066983)%Q, (-3130673590530671 # 4503599627370496)%Q); ((2260825051381735 # 4512624865066983)%Q, (-3112659192021189 # 4503599627370496)%Q); ((9007199254740992 # 12868577487112983)%Q, (-3213447239498591 # 9007199254740992)%Q); ((18014398509481984 # 23124255181668011)%Q, (-2249194203817151 # 9007199254740992)%Q); ((8172131870104047 # 10423931683789295)%Q, (-34251911977089 # 140737488355328)%Q); ((36028797018963968 # 41773731667579869)%Q, (-333151929417101 # 2251799813685248)%Q); ((5968140784543567 # 6531090737964879)%Q, (-405947767808885 # 4503599627370496)%Q); ((6286694730342873 # 6849644683764185)%Q, (-3089877457649667 # 36028797018963968)%Q); ((36028797018963968 # 39033920130022655)%Q, (-5772712500417235 # 72057594037927936)%Q); ((585579531659499 # 620763903748331)%Q, (-4204475092305451 # 72057594037927936)%Q); ((5069733600622565 # 5351208577333221)%Q, (-7787143957337435 # 144115188075855872)%Q)] (qenv_sl [[(7331860193359167 # 18014398509481984)%Q; (8268608915852231 # 4503599627370496)%Q; (-1627488315341013 # 562949953421312)%Q]; [(-5805139919680569 # 4503599627370496)%Q; (5674535530486825 # 4503599627370496)%Q; (6620291452234629 # 2251799813685248)%Q]; [(1398367684298539 # 562949953421312)%Q; (2152720621883097 # 4503599627370496)%Q; (-5433592950422503 # 2251799813685248)%Q]; [(-6332061076082917 # 2251799813685248)%Q; (1907274442191405 # 2251799813685248)%Q; (7782220156096217 # 36028797018963968)%Q]; [(7818248953115181 # 36028797018963968)%Q; (-1152921504606847 # 288230376151711744)%Q; (-5316499360110871 # 2251799813685248)%Q]] [1; 1; 0; 1; 1] 5 3) src_bce_loss));
mout (qresult (qdenote [((-6620291452234629 # 2251799813685248)%Q, (3809377219947271 # 72057594037927936)%Q); ((-1398367684298539 # 562949953421312)%Q, (3005123111058687 # 36028797018963968)%Q); ((-8268608915852231 # 4503599627370496)%Q, (5744934648615901 # 36028797018963968)%Q); ((-5674535530486825 # 4503599627370496)%Q, (5109856672186027 # 18014398509481984)%Q); ((-1907274442191405 # 2251799813685248)%Q, (3861378232371991 # 9007199254740992)%Q); ((-2152720621883097 # 4503599627370496)%Q, (5584663470579089 # 9007199254740992)%Q); ((-7331860193359167 # 18014398509481984)%Q, (5995589854806533 # 9007199254740992)%Q); ((-7818248953115181 # 36028797018963968)%Q, (7250164619642699 # 9007199254740992)%Q); ((-7782220156096217 # 36028797018963968)%Q, (3628709205276657 # 4503599627370496)%Q); ((1152921504606847 # 288230376151711744)%Q, (2260825051381735 # 2251799813685248)%Q); ((5805139919680569 # 4503599627370496)%Q, (8172131870104047 # 2251799813685248)%Q); ((5316499360110871 # 2251799813685248)%Q, (5968140784543567 # 562949953421312)%Q); ((5433592950422503 # 2251799813685248)%Q, (6286694730342873 # 562949953421312)%Q); ((6332061076082917 # 2251799813685248)%Q, (585579531659499 # 35184372088832)%Q); ((1627488315341013 # 562949953421312)%Q, (5069733600622565 # 281474976710656)%Q)] [] (qenv_sl [[(7331860193359167 # 18014398509481984)%Q; (8268608915852231 # 4503599627370496)%Q; (-1627488315341013 # 562949953421312)%Q]; [(-5805139919680569 # 4503599627370496)%Q; (5674535530486825 # 4503599627370496)%Q; (6620291452234629 # 2251799813685248)%Q]; [(1398367684298539 # 562949953421312)%Q; (2152720621883097 # 4503599627370496)%Q; (-5433592950422503 # 2251799813685248)%Q]; [(-6332061076082917 # 2251799813685248)%Q; (1907274442191405 # 2251799813685248)%Q; (7782220156096217 # 36028797018963968)%Q]; [(7818248953115181 # 36028797018963968)%Q; (-1152921504606847 # 288230376151711744)%Q; (-5316499360110871 # 2251799813685248)%Q]] [1; 1; 0; 1; 1] 5 3) src_bce_loss_gradient));
mout (qresult (qdenote [((-1555430721303085 # 562949953421312)%Q, (2273495547589641 # 36028797018963968)%Q); ((-4541880224203145 # 2251799813685248)%Q, (299611037762605 # 2251799813685248)%Q); ((-3812297084569125 # 2251799813685248)%Q, (6628102312731815 # 36028797018963968)%Q); ((-3285375928166777 # 2251799813685248)%Q, (1046945622659149 # 4503599627370496)%Q); ((325666548054229 # 140737488355328)%Q, (5694127909578127 # 562949953421312)%Q); ((6615787852607259 # 2251799813685248)%Q, (664212420872895 # 35184372088832)%Q)] [((35184372088832 # 699396792961727)%Q, (-6732017269560661 # 2251799813685248)%Q); ((2273495547589641 # 38302292566553609)%Q, (-1589878313862295 # 562949953421312)%Q); ((562949953421312 # 6257077862999439)%Q, (-677869945705205 # 281474976710656)%Q); ((299611037762605 # 2551410851447853)%Q, (-1205791888258413 # 562949953421312)%Q); ((6628102312731815 # 42656899331695783)%Q, (-8385119250584005 # 4503599627370496)%Q); ((1046945622659149 # 5550545250029645)%Q, (-3756045260676513 # 2251799813685248)%Q); ((5694127909578127 # 6257077862999439)%Q, (-3396716748383611 # 36028797018963968)%Q); ((664212420872895 # 699396792961727)%Q, (-7438682685017731 # 144115188075855872)%Q)] (qenv_sl [[(3285375928166777 # 2251799813685248)%Q; (-6615787852607259 # 2251799813685248)%Q; (4541880224203145 # 2251799813685248)%Q]; [(-325666548054229 # 140737488355328)%Q; (1555430721303085 # 562949953421312)%Q; (3812297084569125 # 2251799813685248)%Q]] [1; 0] 2 3) src_bce_loss));
mout (qresult (qdenote [((-1555430721303085 # 562949953421312)%Q, (2273495547589641 # 36028797018963968)%Q); ((-4541880224203145 # 2251799813685248)%Q, (299611037762605 # 2251799813685248)%Q); ((-3812297084569125 # 2251799813685248)%Q, (6628102312731815 # 36028797018963968)%Q); ((-3285375928166777 # 2251799813685248)%Q, (1046945622659149 # 4503599627370496)%Q); ((325666548054229 # 140737488355328)%Q, (5694127909578127 # 562949953421312)%Q); ((6615787852607259 # 2251799813685248)%Q, (664212420872895 # 35184372088832)%Q)] [] (qenv_sl [[(3285375928166777 # 2251799813685248)%Q; (-6615787852607259 # 2251799813685248)%Q; (4541880224203145 # 2251799813685248)%Q]; [(-325666548054229 # 140737488355328)%Q; (1555430721303085 # 562949953421312)%Q; (3812297084569125 # 2251799813685248)%Q]] [1; 0] 2 3) src_bce_loss_gradient));
mout (qresult (qdenote [((-1645502713850495 # 562949953421312)%Q, (121084069382553 # 2251799813685248)%Q); ((-6032571700862779 # 2251799813685248)%Q, (2472719447504213 # 36028797018963968)%Q); ((-5807391719494255 # 2251799813685248)%Q, (5465555243883477 # 72057594037927936)%Q); ((-5417830351726707 # 2251799813685248)%Q, (6497813374917357 # 72057594037927936)%Q); ((-158540780632277 # 70368744177664)%Q, (3786032117149705 # 36028797018963968)%Q); ((5314247560297185 # 9007199254740992)%Q, (507777597210405 # 281474976710656)%Q); ((940126422213591 # 1125899906842624)%Q, (5189979844511837 # 2251799813685248)%Q); ((6219471085398655 # 4503599627370496)%Q, (4479818951893799 # 1125899906842624)%Q); ((6172183289311265 # 2251799813685248)%Q, (2181780074202985 # 140737488355328)%Q)] [((121084069382553 # 2372883883067801)%Q, (-6699951640500813 # 2251799813685248)%Q); ((2472719447504213 # 38501516466468181)%Q, (-386377758184283 # 140737488355328)%Q); ((5465555243883477 # 77523149281811413)%Q, (-5972022775822143 # 2251799813685248)%Q); ((6497813374917357 # 78555407412845293)%Q, (-1403061834760721 # 562949953421312)%Q); ((3786032117149705 # 39814829136113673)%Q, (-2649153420281497 # 1125899906842624)%Q); ((1125899906842624 # 5605718858736423)%Q, (-7229199146160603 # 4503599627370496)%Q); ((281474976710656 # 789252573921061)%Q, (-580425517463085 # 562949953421312)%Q); ((507777597210405 # 789252573921061)%Q, (-7945121438224353 # 18014398509481984)%Q); ((5189979844511837 # 7441779658197085)%Q, (-6492032681210861 # 18014398509481984)%Q); ((4479818951893799 # 5605718858736423)%Q, (-2019456121523897 # 9007199254740992)%Q); ((72057594037927936 # 78555407412845293)%Q, (-6221343594117651 # 72057594037927936)%Q); ((2181780074202985 # 2322517562558313)%Q, (-563045989892387 # 9007199254740992)%Q)] (qenv_sl [[(-6172183289311265 # 2251799813685248)%Q; (-6219471085398655 # 4503599627370496)%Q; (6032571700862779 # 2251799813685248)%Q]; [(-940126422213591 # 1125899906842624)%Q; (1645502713850495 # 562949953421312)%Q; (-5314247560297185 # 9007199254740992)%Q]; [(5417830351726707 # 2251799813685248)%Q; (5807391719494255 # 2251799813685248)%Q; (158540780632277 # 70368744177664)%Q]] [1; 2; 0] 3 3) src_bce_loss));
mout (qresult (qdenote [((-1645502713850495 # 562949953421312)%Q, (121084069382553 # 2251799813685248)%Q); ((-6032571700862779 # 2251799813685248)%Q, (2472719447504213 # 36028797018963968)%Q); ((-5807391719494255 # 2251799813685248)%Q, (5465555243883477 # 72057594037927936)%Q); ((-5417830351726707 # 2251799813685248)%Q, (6497813374917357 # 72057594037927936)%Q); ((-158540780632277 # 70368744177664)%Q, (3786032117149705 # 36028797018963968)%Q); ((5314247560297185 # 9007199254740992)%Q, (507777597210405 # 281474976710656)%Q); ((940126422213591 # 1125899906842624)%Q, (5189979844511837 # 2251799813685248)%Q); ((6219471085398655 # 4503599627370496)%Q, (4479818951893799 # 1125899906842624)%Q); ((6172183289311265 # 2251799813685248)%Q, (2181780074202985 # 140737488355328)%Q)] [] (qenv_sl [[(-6172183289311265 # 2251799813685248)%Q; (-6219471085398655 # 4503599627370496)%Q; (6032571700862779 # 2251799813685248)%Q]; [(-940126422213591 # 1125899906842624)%Q; (1645502713850495 # 562949953421312)%Q; (-5314247560297185 # 9007199254740992)%Q]; [(5417830351726707 # 2251799813685248)%Q; (5807391719494255 # 2251799813685248)%Q; (158540780632277 # 70368744177664)%Q]] [1; 2; 0] 3 3) src_bce_loss_gradient));
mout (qresult (qdenote [((-1889260043681923 # 1125899906842624)%Q, (420517078203983 # 2251799813685248)%Q); ((-5584463537939415 # 4503599627370496)%Q, (5213082624308843 # 18014398509481984)%Q); ((-4800837202776949 # 4503599627370496)%Q, (6203857992140161 # 18014398509481984)%Q); ((-2314850208468435 # 2251799813685248)%Q, (805517632597359 # 2251799813685248)%Q); ((-1452410879826985 # 2251799813685248)%Q, (2362870029126509 # 4503599627370496)%Q); ((-3584865303386915 # 9007199254740992)%Q, (3024896857497539 # 4503599627370496)%Q)] [((420517078203983 # 2672316891889231)%Q, (-520508039613273 # 281474976710656)%Q); ((5213082624308843 # 23227481133790827)%Q, (-1682279957303197 # 1125899906842624)%Q); ((6203857992140161 # 24218256501622145)%Q, (-6133611734328179 # 4503599627370496)%Q); ((805517632597359 # 3057317446282607)%Q, (-6006937510338429 # 4503599627370496)%Q); ((2362870029126509 # 6866469656497005)%Q, (-4804318943340831 # 4503599627370496)%Q); ((3024896857497539 # 7528496484868035)%Q, (-4106464815806867 # 4503599627370496)%Q); ((4503599627370496 # 6866469656497005)%Q, (-7597988734747447 # 18014398509481984)%Q); ((2251799813685248 # 2672316891889231)%Q, (-6168707672677407 # 36028797018963968)%Q)] (qenv_sl [[(3584865303386915 # 9007199254740992)%Q; (5584463537939415 # 4503599627370496)%Q; (1452410879826985 # 2251799813685248)%Q]; [(2314850208468435 # 2251799813685248)%Q; (1889260043681923 # 1125899906842624)%Q; (4800837202776949 # 4503599627370496)%Q]] [2; 1] 2 3) src_bce_loss));
mout (qresult (qdenote [((-1889260043681923 # 1125899906842624)%Q, (420517078203983 # 2251799813685248)%Q); ((-5584463537939415 # 4503599627370496)%Q, (5213082624308843 # 18014398509481984)%Q); ((-4800837202776949 # 4503599627370496)%Q, (6203857992140161 # 18014398509481984)%Q); ((-2314850208468435 # 2251799813685248)%Q, (805517632597359 # 2251799813685248)%Q); ((-1452410879826985 # 2251799813685248)%Q, (2362870029126509 # 4503599627370496)%Q); ((-3584865303386915 # 9007199254740992)%Q, (3024896857497539 # 4503599627370496)%Q)] [] (qenv_sl [[(3584865303386915 # 9007199254740992)%Q; (5584463537939415 # 4503599627370496)%Q; (1452410879826985 # 2251799813685248)%Q]; [(2314850208468435 # 2251799813685248)%Q; (1889260043681923 # 1125899906842624)%Q; (4800837202776949 # 4503599627370496)%Q]] [2; 1] 2 3) src_bce_loss_gradient));
mout (qresult (qdenote [((-3098476543630901 # 1125899906842624)%Q, (574660512705209 # 9007199254740992)%Q); ((-4321203842461991 # 2251799813685248)%Q, (5287357194558289 # 36028797018963968)%Q); ((-2156098321603625 # 1125899906842624)%Q, (5308548978648999 # 36028797018963968)%Q); ((-6962565023914787 # 4503599627370496)%Q, (959711072665031 # 4503599627370496)%Q); ((-3188548536178311 # 2251799813685248)%Q, (34154569041933 # 140737488355328)%Q); ((-6386104271611363 # 9007199254740992)%Q, (8865535602247943 # 18014398509481984)%Q); ((-5656521131977343 # 9007199254740992)%Q, (1201691098694267 # 2251799813685248)%Q); ((-2116691824864133 # 9007199254740992)%Q, (1780207291898975 # 2251799813685248)%Q); ((-290482175965397 # 2251799813685248)%Q, (7917093647398911 # 9007199254740992)%Q); ((-3314649325744685 # 72057594037927936)%Q, (2150563312522645 # 2251799813685248)%Q); ((220113431787733 # 562949953421312)%Q, (6658385210090187 # 4503599627370496)%Q); ((6440147467139809 # 9007199254740992)%Q, (4603099190247683 # 2251799813685248)%Q); ((4805340802404319 # 4503599627370496)%Q, (6545185974135263 # 2251799813685248)%Q); ((7471471781807653 # 4503599627370496)%Q, (2957769545985739 # 562949953421312)%Q); ((5050786982096011 # 2251799813685248)%Q, (1325965789168043 # 140737488355328)%Q); ((2931843357418193 # 1125899906842624)%Q, (3804894529346615 # 281474976710656)%Q); ((5985283904775389 # 2251799813685248)%Q, (8032015177098903 # 562949953421312)%Q); ((6687845446645187 # 2251799813685248)%Q, (5486487614338839 # 281474976710656)%Q)] [((574660512705209 # 9581859767446201)%Q, (-6336221340615659 # 2251799813685248)%Q); ((562949953421312 # 8594965130520215)%Q, (-6137823367225863 # 2251799813685248)%Q); ((140737488355328 # 1466703277523371)%Q, (-5277939815914309 # 2251799813685248)%Q); ((5287357194558289 # 41316154213522257)%Q, (-4629554119278935 # 2251799813685248)%Q); ((5308548978648999 # 41337345997612967)%Q, (-577712701469087 # 281474976710656)%Q); ((959711072665031 # 5463310700035527)%Q, (-7832561244603509 # 4503599627370496)%Q); ((34154569041933 # 174892057397261)%Q, (-7355605865338291 # 4503599627370496)%Q); ((8865535602247943 # 26879934111729927)%Q, (-4995431929091727 # 4503599627370496)%Q); ((1201691098694267 # 3453490912379515)%Q, (-4754250907514679 # 4503599627370496)%Q); ((1780207291898975 # 4032007105584223)%Q, (-3681847976872425 # 4503599627370496)%Q); ((7917093647398911 # 16924292902139903)%Q, (-6843002243696539 # 9007199254740992)%Q); ((2150563312522645 # 4402363126207893)%Q, (-6452862545208269 # 9007199254740992)%Q); ((2251799813685248 # 4402363126207893)%Q, (-6038531379490185 # 9007199254740992)%Q); ((2251799813685248 # 4032007105584223)%Q, (-2623502064440359 # 4503599627370496)%Q); ((6658385210090187 # 11161984837460683)%Q, (-4653450597696311 # 9007199254740992)%Q); ((4603099190247683 # 6854899003932931)%Q, (-1793485440443079 # 4503599627370496)%Q); ((6545185974135263 # 8796985787820511)%Q, (-1331621298123309 # 4503599627370496)%Q); ((2957769545985739 # 3520719499407051)%Q, (-784661800251077 # 4503599627370496)%Q); ((36028797018963968 # 41337345997612967)%Q, (-4952079496727139 # 36028797018963968)%Q); ((36028797018963968 # 41316154213522257)%Q, (-19271892301059 # 140737488355328)%Q); ((1325965789168043 # 1466703277523371)%Q, (-7268890682185525 # 72057594037927936)%Q); ((3804894529346615 # 4086369506057271)%Q, (-5142653393313957 # 72057594037927936)%Q); ((8032015177098903 # 8594965130520215)%Q, (-2440631399207581 # 36028797018963968)%Q); ((5486487614338839 # 5767962591049495)%Q, (-7210175438058251 # 144115188075855872)%Q)] (qenv_sl [[(3188548536178311 # 2251799813685248)%Q; (3314649325744685 # 72057594037927936)%Q; (-6440147467139809 # 9007199254740992)%Q]; [(-7471471781807653 # 4503599627370496)%Q; (6386104271611363 # 9007199254740992)%Q; (4321203842461991 # 2251799813685248)%Q]; [(-220113431787733 # 562949953421312)%Q; (-4805340802404319 # 4503599627370496)%Q; (2116691824864133 # 9007199254740992)%Q]; [(3098476543630901 # 1125899906842624)%Q; (2156098321603625 # 1125899906842624)%Q; (6962565023914787 # 4503599627370496)%Q]; [(-2931843357418193 # 1125899906842624)%Q; (-5050786982096011 # 2251799813685248)%Q; (-6687845446645187 # 2251799813685248)%Q]; [(5656521131977343 # 9007199254740992)%Q; (290482175965397 # 2251799813685248)%Q; (-5985283904775389 # 2251799813685248)%Q]] [1; 2; 2; 1; 1; 2] 6 3) src_bce_loss));
mout (qresult (qdenote [((-3098476543630901 # 1125899906842624)%Q, (574660512705209 # 9007199254740992)%Q); ((-4321203842461991 # 2251799813685248)%Q, (5287357194558289 # 36028797018963968)%Q); ((-2156098321603625 # 1125899906842624)%Q, (5308548978648999 # 36028797018963968)%Q); ((-6962565023914787 # 4503599627370496)%Q, (959711072665031 # 4503599627370496)%Q); ((-3188548536178311 # 2251799813685248)%Q, (34154569041933 # 140737488355328)%Q); ((-6386104271611363 # 9007199254740992)%Q, (8865535602247943 # 18014398509481984)%Q); ((-5656521131977343 # 9007199254740992)%Q, (1201691098694267 # 2251799813685248)%Q); ((-2116691824864133 # 9007199254740992)%Q, (1780207291898975 # 2251799813685248)%Q); ((-290482175965397 # 2251799813685248)%Q, (7917093647398911 # 9007199254740992)%Q); ((-3314649325744685 # 72057594037927936)%Q, (2150563312522645 # 2251799813685248)%Q); ((220113431787733 # 562949953421312)%Q, (6658385210090187 # 4503599627370496)%Q); ((6440147467139809 # 9007199254740992)%Q, (4603099190247683 # 2251799813685248)%Q); ((4805340802404319 # 4503599627370496)%Q, (6545185974135263 # 2251799813685248)%Q); ((7471471781807653 # 4503599627370496)%Q, (2957769545985739 # 562949953421312)%Q); ((5050786982096011 # 2251799813685248)%Q, (1325965789168043 # 140737488355328)%Q); ((2931843357418193 # 1125899906842624)%Q, (3804894529346615 # 281474976710656)%Q); ((5985283904775389 # 2251799813685248)%Q, (8032015177098903 # 562949953421312)%Q); ((6687845446645187 # 2251799813685248)%Q, (5486487614338839 # 281474976710656)%Q)] [] (qenv_sl [[(3188548536178311 # 2251799813685248)%Q; (3314649325744685 # 72057594037927936)%Q; (-6440147467139809 # 9007199254740992)%Q]; [(-7471471781807653 # 4503599627370496)%Q; (6386104271611363 # 9007199254740992)%Q; (4321203842461991 # 2251799813685248)%Q]; [(-220113431787733 # 562949953421312)%Q; (-4805340802404319 # 4503599627370496)%Q; (2116691824864133 # 9007199254740992)%Q]; [(3098476543630901 # 1125899906842624)%Q; (2156098321603625 # 1125899906842624)%Q; (6962565023914787 # 4503599627370496)%Q]; [(-2931843357418193 # 1125899906842624)%Q; (-5050786982096011 # 2251799813685248)%Q; (-6687845446645187 # 2251799813685248)%Q]; [(5656521131977343 # 9007199254740992)%Q; (290482175965397 # 2251799813685248)%Q; (-5985283904775389 # 2251799813685248)%Q]] [1; 2; 2; 1; 1; 2] 6 3) src_bce_loss_gradient));
mout (qresult (qdenote [((-6309543077946065 # 2251799813685248)%Q, (4373071910270889 # 72057594037927936)%Q); ((-4733283208366391 # 2251799813685248)%Q, (8806285399271093 # 72057594037927936)%Q); ((-290904388430463 # 140737488355328)%Q, (2279990680199875 # 18014398509481984)%Q); ((-1028509564900737 # 562949953421312)%Q, (5796872429889627 # 36028797018963968)%Q); ((-922112023704109 # 562949953421312)%Q, (3501429645812869 # 18014398509481984)%Q); ((-6512205061177737 # 9007199254740992)%Q, (8742282885951669 # 18014398509481984)%Q); ((-6314046677573435 # 9007199254740992)%Q, (8936744342246379 # 18014398509481984)%Q); ((-3368692521273131 # 9007199254740992)%Q, (6196745127504993 # 9007199254740992)%Q); ((7998392938210001 # 72057594037927936)%Q, (1258074821533857 # 1125899906842624)%Q); ((7890306547153109 # 36028797018963968)%Q, (350388854614319 # 281474976710656)%Q); ((5926737109619573 # 9007199254740992)%Q, (271753762238363 # 140737488355328)%Q); ((1769914653556605 # 1125899906842624)%Q, (2711319596966395 # 562949953421312)%Q); ((730709039540863 # 281474976710656)%Q, (3774576805700779 # 281474976710656)%Q); ((834573305947095 # 281474976710656)%Q, (170597613850101 # 8796093022208)%Q); ((210895126300459 # 70368744177664)%Q, (2818320362616195 # 140737488355328)%Q)] [((8796093022208 # 179393706872309)%Q, (-1697449045839627 # 562949953421312)%Q); ((4373071910270889 # 76430665948198825)%Q, (-1610553815816965 # 562949953421312)%Q); ((281474976710656 # 4056051782411435)%Q, (-3003812862294255 # 1125899906842624)%Q); ((8806285399271093 # 80863879437199029)%Q, (-39007180923705 # 17592186044416)%Q); ((2279990680199875 # 20294389189681859)%Q, (-4922824174580861 # 2251799813685248)%Q); ((5796872429889627 # 41825669448853595)%Q, (-1112497034928851 # 562949953421312)%Q); ((3501429645812869 # 21515828155294853)%Q, (-255525447076339 # 140737488355328)%Q); ((8742282885951669 # 26756681395433653)%Q, (-5037784453251911 # 4503599627370496)%Q); ((8936744342246379 # 26951142851728363)%Q, (-2485659014039821 # 2251799813685248)%Q); ((6196745127504993 # 15203944382245985)%Q, (-8084238016562675 # 9007199254740992)%Q); ((281474976710656 # 631863831324975)%Q, (-7283494804952587 # 9007199254740992)%Q); ((1258074821533857 # 2383974728376481)%Q, (-2878640153238239 # 4503599627370496)%Q); ((350388854614319 # 631863831324975)%Q, (-2655459084082155 # 4503599627370496)%Q); ((271753762238363 # 412491250593691)%Q, (-7517744006792549 # 18014398509481984)%Q); ((2711319596966395 # 3274269550387707)%Q, (-6797169557820591 # 36028797018963968)%Q); ((18014398509481984 # 20294389189681859)%Q, (-268353959693453 # 2251799813685248)%Q); ((3774576805700779 # 4056051782411435)%Q, (-5182509064371391 # 72057594037927936)%Q); ((72057594037927936 # 76430665948198825)%Q, (-8491019860594915 # 144115188075855872)%Q); ((170597613850101 # 179393706872309)%Q, (-7245423090031871 # 144115188075855872)%Q); ((2818320362616195 # 2959057850971523)%Q, (-1755677250120781 # 36028797018963968)%Q)] (qenv_sl [[(-730709039540863 # 281474976710656)%Q; (1028509564900737 # 562949953421312)%Q; (4733283208366391 # 2251799813685248)%Q]; [(3368692521273131 # 9007199254740992)%Q; (6314046677573435 # 9007199254740992)%Q; (-834573305947095 # 281474976710656)%Q]; [(-5926737109619573 # 9007199254740992)%Q; (-7890306547153109 # 36028797018963968)%Q; (-7998392938210001 # 72057594037927936)%Q]; [(6512205061177737 # 9007199254740992)%Q; (-1769914653556605 # 1125899906842624)%Q; (6309543077946065 # 2251799813685248)%Q]; [(-210895126300459 # 70368744177664)%Q; (922112023704109 # 562949953421312)%Q; (290904388430463 # 140737488355328)%Q]] [0; 2; 1; 2; 2] 5 3) src_bce_loss));
mout (qresult (qdenote [((-6309543077946065 # 2251799813685248)%Q, (4373071910270889 # 72057594037927936)%Q); ((-4733283208366391 # 2251799813685248)%Q, (8806285399271093 # 72057594037927936)%Q); ((-290904388430463 # 140737488355328)%Q, (2279990680199875 # 18014398509481984)%Q); ((-1028509564900737 # 562949953421312)%Q, (5796872429889627 # 36028797018963968)%Q); ((-922112023704109 # 562949953421312)%Q, (3501429645812869 # 18014398509481984)%Q); ((-6512205061177737 # 9007199254740992)%Q, (8742282885951669 # 18014398509481984)%Q); ((-6314046677573435 # 9007199254740992)%Q, (8936744342246379 # 18014398509481984)%Q); ((-3368692521273131 # 9007199254740992)%Q, (6196745127504993 # 9007199254740992)%Q); ((7998392938210001 # 72057594037927936)%Q, (1258074821533857 # 1125899906842624)%Q); ((7890306547153109 # 36028797018963968)%Q, (350388854614319 # 281474976710656)%Q); ((5926737109619573 # 9007199254740992)%Q, (271753762238363 # 140737488355328)%Q); ((1769914653556605 # 1125899906842624)%Q, (2711319596966395 # 562949953421312)%Q); ((730709039540863 # 281474976710656)%Q, (3774576805700779 # 281474976710656)%Q); ((834573305947095 # 281474976710656)%Q, (170597613850101 # 8796093022208)%Q); ((210895126300459 # 70368744177664)%Q, (2818320362616195 # 140737488355328)%Q)] [] (qenv_sl [[(-730709039540863 # 281474976710656)%Q; (1028509564900737 # 562949953421312)%Q; (4733283208366391 # 2251799813685248)%Q]; [(3368692521273131 # 9007199254740992)%Q; (6314046677573435 # 9007199254740992)%Q; (-834573305947095 # 281474976710656)%Q]; [(-5926737109619573 # 9007199254740992)%Q; (-7890306547153109 # 36028797018963968)%Q; (-7998392938210001 # 72057594037927936)%Q]; [(6512205061177737 # 9007199254740992)%Q; (-1769914653556605 # 1125899906842624)%Q; (6309543077946065 # 2251799813685248)%Q]; [(-210895126300459 # 70368744177664)%Q; (922112023704109 # 562949953421312)%Q; (290904388430463 # 140737488355328)%Q]] [0; 2; 1; 2; 2] 5 3) src_bce_loss_gradient));
mout (qresult (qdenote [((-396035292231893 # 140737488355328)%Q, (8641817305699503 # 144115188075855872)%Q); ((-2344123606046343 # 1125899906842624)%Q, (8984184164994423 # 72057594037927936)%Q); ((-7291327796712833 # 4503599627370496)%Q, (3568592838937427 # 18014398509481984)%Q); ((-4422534834077827 # 4503599627370496)%Q, (3373747602669225 # 9007199254740992)%Q); ((-6926536226895823 # 9007199254740992)%Q, (8349247001425585 # 18014398509481984)%Q); ((-8124493727776375 # 18014398509481984)%Q, (5737503438942361 # 9007199254740992)%Q); ((-1715871458028159 # 4503599627370496)%Q, (1538379844559971 # 2251799813685248)%Q); ((326088760519295 # 140737488355328)%Q, (1427808985631315 # 140737488355328)%Q)] [((8641817305699503 # 152757005381555375)%Q, (-6467699502783873 # 2251799813685248)%Q); ((8984184164994423 # 81041778202922359)%Q, (-4952831631020405 # 2251799813685248)%Q); ((3568592838937427 # 21582991348419411)%Q, (-8105282324722145 # 4503599627370496)%Q); ((3373747602669225 # 12380946857410217)%Q, (-5855285575762133 # 4503599627370496)%Q); ((8349247001425585 # 26363645510907569)%Q, (-2589152396225519 # 2251799813685248)%Q); ((5737503438942361 # 14744702693683353)%Q, (-4250766211684295 # 4503599627370496)%Q); ((1538379844559971 # 3790179658245219)%Q, (-8121643917983729 # 9007199254740992)%Q); ((2251799813685248 # 3790179658245219)%Q, (-4689901001927411 # 9007199254740992)%Q); ((18014398509481984 # 26363645510907569)%Q, (-6860146716012507 # 18014398509481984)%Q); ((1427808985631315 # 1568546473986643)%Q, (-846751366992519 # 9007199254740992)%Q)] (qenv_sl [[(1715871458028159 # 4503599627370496)%Q; (2344123606046343 # 1125899906842624)%Q; (8124493727776375 # 18014398509481984)%Q; (4422534834077827 # 4503599627370496)%Q]; [(396035292231893 # 140737488355328)%Q; (-326088760519295 # 140737488355328)%Q; (7291327796712833 # 4503599627370496)%Q; (6926536226895823 # 9007199254740992)%Q]] [0; 3] 2 4) src_bce_loss));
mout (qresult (qdenote [((-396035292231893 # 140737488355328)%Q, (8641817305699503 # 144115188075855872)%Q); ((-2344123606046343 # 1125899906842624)%Q, (8984184164994423 # 72057594037927936)%Q); ((-7291327796712833 # 4503599627370496)%Q, (3568592838937427 # 18014398509481984)%Q); ((-4422534834077827 # 4503599627370496)%Q, (3373747602669225 # 9007199254740992)%Q); ((-6926536226895823 # 9007199254740992)%Q, (8349247001425585 # 18014398509481984)%Q); ((-8124493727776375 # 18014398509481984)%Q, (5737503438942361 # 9007199254740992)%Q); ((-1715871458028159 # 4503599627370496)%Q, (1538379844559971 # 2251799813685248)%Q); ((326088760519295 # 140737488355328)%Q, (1427808985631315 # 140737488355328)%Q)] [] (qenv_sl [[(1715871458028159 # 4503599627370496)%Q; (2344123606046343 # 1125899906842624)%Q; (8124493727776375 # 18014398509481984)%Q; (4422534834077827 # 4503599627370496)%Q]; [(396035292231893 # 140737488355328)%Q; (-326088760519295 # 140737488355328)%Q; (7291327796712833 # 4503599627370496)%Q; (6926536226895823 # 9007199254740992)%Q]] [0; 3] 2 4) src_bce_loss_gradient));
mout (qresult (qdenote [((-6739636842359947 # 2251799813685248)%Q, (7225474430806751 # 144115188075855872)%Q); ((-6458161865649291 # 2251799813685248)%Q, (8187535173942577 # 144115188075855872)%Q); ((-5021513584518103 # 2251799813685248)%Q, (7748239966260809 # 72057594037927936)%Q); ((-4609434218613703 # 2251799813685248)%Q, (2326049547188427 # 18014398509481984)%Q); ((-8619889686787129 # 4503599627370496)%Q, (5313860182787117 # 36028797018963968)%Q); ((-7854277750134145 # 4503599627370496)%Q, (3149272126947847 # 18014398509481984)%Q); ((-7471471781807653 # 4503599627370496)%Q, (3428666312285687 # 18014398509481984)%Q); ((-2961116754996101 # 2251799813685248)%Q, (302275215524693 # 1125899906842624)%Q); ((-1380353285789057 # 1125899906842624)%Q, (2643289527815315 # 9007199254740992)%Q); ((-5399815953217225 # 4503599627370496)%Q, (2715630554259361 # 9007199254740992)%Q); ((-4571153621781053 # 4503599627370496)%Q, (816057723975883 # 2251799813685248)%Q); ((-7196752204538053 # 9007199254740992)%Q, (4051244730513367 # 9007199254740992)%Q); ((-5980780305148019 # 72057594037927936)%Q, (2072446541835281 # 2251799813685248)%Q); ((-1116892707587883 # 36028797018963968)%Q, (8732259659299977 # 9007199254740992)%Q); ((8052436133738447 # 18014398509481984)%Q, (1760473193904373 # 1125899906842624)%Q); ((8201054921441673 # 4503599627370496)%Q, (6955847224229389 # 1125899906842624)%Q)] [((7225474430806751 # 151340662506662623)%Q, (-6849795884214617 # 2251799813685248)%Q); ((8187535173942577 # 152302723249798449)%Q, (-6582590116404823 # 2251799813685248)%Q); ((7748239966260809 # 79805834004188745)%Q, (-5251491910705449 # 2251799813685248)%Q); ((2326049547188427 # 20340448056670411)%Q, (-2441446465379225 # 1125899906842624)%Q); ((5313860182787117 # 41342657201751085)%Q, (-4619739114504137 # 2251799813685248)%Q); ((3149272126947847 # 21163670636429831)%Q, (-8579873885219579 # 4503599627370496)%Q); ((3428666312285687 # 21443064821767671)%Q, (-4128066791029365 # 2251799813685248)%Q); ((302275215524693 # 1428175122367317)%Q, (-874157051995855 # 562949953421312)%Q); ((2643289527815315 # 11650488782556307)%Q, (-6680297233297913 # 4503599627370496)%Q); ((2715630554259361 # 11722829809000353)%Q, (-6586577647367123 # 4503599627370496)%Q); ((816057723975883 # 3067857537661131)%Q, (-5963890157592661 # 4503599627370496)%Q); ((4051244730513367 # 13058443985254359)%Q, (-2635530817851229 # 2251799813685248)%Q); ((2072446541835281 # 4324246355520529)%Q, (-3312433818164511 # 4503599627370496)%Q); ((8732259659299977 # 17739458914040969)%Q, (-6384008303102421 # 9007199254740992)%Q); ((1760473193904373 # 2886373100746997)%Q, (-4453322327865281 # 9007199254740992)%Q); ((1125899906842624 # 1428175122367317)%Q, (-2142045811949275 # 9007199254740992)%Q); ((18014398509481984 # 21163670636429831)%Q, (-5804769080683473 # 36028797018963968)%Q); ((6955847224229389 # 8081747131072013)%Q, (-1351309077885561 # 9007199254740992)%Q); ((18014398509481984 # 20340448056670411)%Q, (-8750678788631885 # 72057594037927936)%Q); ((144115188075855872 # 152302723249798449)%Q, (-7963408048354063 # 144115188075855872)%Q)] (qenv_sl [[(5980780305148019 # 72057594037927936)%Q; (1380353285789057 # 1125899906842624)%Q; (5021513584518103 # 2251799813685248)%Q; (7854277750134145 # 4503599627370496)%Q]; [(8619889686787129 # 4503599627370496)%Q; (6739636842359947 # 2251799813685248)%Q; (7196752204538053 # 9007199254740992)%Q; (2961116754996101 # 2251799813685248)%Q]; [(4609434218613703 # 2251799813685248)%Q; (7471471781807653 # 4503599627370496)%Q; (4571153621781053 # 4503599627370496)%Q; (1116892707587883 # 36028797018963968)%Q]; [(5399815953217225 # 4503599627370496)%Q; (-8201054921441673 # 4503599627370496)%Q; (6458161865649291 # 2251799813685248)%Q; (-8052436133738447 # 18014398509481984)%Q]] [3; 3; 0; 2] 4 4) src_bce_loss));
mout (qresult (qdenote [((-6739636842359947 # 2251799813685248)%Q, (7225474430806751 # 144115188075855872)%Q); ((-6458161865649291 # 2251799813685248)%Q, (8187535173942577 # 144115188075855872)%Q); ((-5021513584518103 # 2251799813685248)%Q, (7748239966260809 # 72057594037927936)%Q); ((-4609434218613703 # 2251799813685248)%Q, (2326049547188427 # 18014398509481984)%Q); ((-8619889686787129 # 4503599627370496)%Q, (5313860182787117 # 36028797018963968)%Q); ((-7854277750134145 # 4503599627370496)%Q, (3149272126947847 # 18014398509481984)%Q); ((-7471471781807653 # 4503599627370496)%Q, (3428666312285687 # 18014398509481984)%Q); ((-2961116754996101 # 2251799813685248)%Q, (302275215524693 # 1125899906842624)%Q); ((-1380353285789057 # 1125899906842624)%Q, (2643289527815315 # 9007199254740992)%Q); ((-5399815953217225 # 4503599627370496)%Q, (2715630554259361 # 9007199254740992)%Q); ((-4571153621781053 # 4503599627370496)%Q, (816057723975883 # 2251799813685248)%Q); ((-7196752204538053 # 9007199254740992)%Q, (4051244730513367 # 9007199254740992)%Q); ((-5980780305148019 # 72057594037927936)%Q, (2072446541835281 # 2251799813685248)%Q); ((-1116892707587883 # 36028797018963968)%Q, (8732259659299977 # 9007199254740992)%Q); ((8052436133738447 # 18014398509481984)%Q, (1760473193904373 # 1125899906842624)%Q); ((8201054921441673 # 4503599627370496)%Q, (6955847224229389 # 1125899906842624)%Q)] [] (qenv_sl [[(5980780305148019 # 72057594037927936)%Q; (1380353285789057 # 1125899906842624)%Q; (5021513584518103 # 2251799813685248)%Q; (7854277750134145 # 4503599627370496)%Q]; [(8619889686787129 # 4503599627370496)%Q; (6739636842359947 # 2251799813685248)%Q; (7196752204538053 # 9007199254740992)%Q; (2961116754996101 # 2251799813685248)%Q]; [(4609434218613703 # 2251799813685248)%Q; (7471471781807653 # 4503599627370496)%Q; (4571153621781053 # 4503599627370496)%Q; (1116892707587883 # 36028797018963968)%Q]; [(5399815953217225 # 4503599627370496)%Q; (-8201054921441673 # 4503599627370496)%Q; (6458161865649291 # 2251799813685248)%Q; (-8052436133738447 # 18014398509481984)%Q]] [3; 3; 0; 2] 4 4) src_bce_loss_gradient));
mout (qresult (qdenote [((-6559492857265127 # 2251799813685248)%Q, (1956815752177259 # 36028797018963968)%Q); ((-6424384868444013 # 2251799813685248)%Q, (519454620129365 # 9007199254740992)%Q); ((-5924485309805887 # 2251799813685248)%Q, (1297152341585779 # 18014398509481984)%Q); ((-342836521633579 # 140737488355328)%Q, (1576443491880077 # 18014398509481984)%Q); ((-536772780587221 # 281474976710656)%Q, (5351187697949131 # 36028797018963968)%Q); ((-7345370992241279 # 4503599627370496)%Q, (7052051277751445 # 36028797018963968)%Q); ((-6931039826523193 # 4503599627370496)%Q, (3865810472218381 # 18014398509481984)%Q); ((-2134706223373615 # 2251799813685248)%Q, (6980854673414941 # 18014398509481984)%Q); ((-1997346434738815 # 2251799813685248)%Q, (1854985713117837 # 4503599627370496)%Q); ((-3003900951456121 # 4503599627370496)%Q, (4622909065376351 # 9007199254740992)%Q); ((-5170132372221329 # 9007199254740992)%Q, (2536732902437239 # 4503599627370496)%Q); ((-413205265811243 # 1125899906842624)%Q, (48752144675947 # 70368744177664)%Q); ((7250795400066499 # 9007199254740992)%Q, (5036592759313293 # 2251799813685248)%Q); ((8944148859957805 # 9007199254740992)%Q, (3039164472553215 # 1125899906842624)%Q); ((2296835809958953 # 2251799813685248)%Q, (6244679452807711 # 2251799813685248)%Q); ((2722425974745465 # 2251799813685248)%Q, (3771914257060117 # 1125899906842624)%Q); ((2733684973813891 # 2251799813685248)%Q, (3790821055953503 # 1125899906842624)%Q); ((5715067927133159 # 4503599627370496)%Q, (125161137768185 # 35184372088832)%Q); ((5082312179487605 # 2251799813685248)%Q, (5378639453601899 # 562949953421312)%Q); ((1679842661009195 # 562949953421312)%Q, (5563838634686141 # 281474976710656)%Q)] [((1956815752177259 # 37985612771141227)%Q, (-6678588164446379 # 2251799813685248)%Q); ((519454620129365 # 9526653874870357)%Q, (-818830232137561 # 281474976710656)%Q); ((1297152341585779 # 19311550851067763)%Q, (-760132196232981 # 281474976710656)%Q); ((1576443491880077 # 19590842001362061)%Q, (-22165194383005 # 8796093022208)%Q); ((5351187697949131 # 41379984716913099)%Q, (-4606008706643703 # 2251799813685248)%Q); ((7052051277751445 # 43080848296715413)%Q, (-8150434494973871 # 4503599627370496)%Q); ((3865810472218381 # 21880208981700365)%Q, (-7806589914819451 # 4503599627370496)%Q); ((1125899906842624 # 4897814163902741)%Q, (-3310610460451509 # 2251799813685248)%Q); ((6980854673414941 # 24995253182896925)%Q, (-5744406981922695 # 4503599627370496)%Q); ((1854985713117837 # 6358585340488333)%Q, (-2774057329785789 # 2251799813685248)%Q); ((4622909065376351 # 13630108320117343)%Q, (-1217387175945423 # 1125899906842624)%Q); ((2536732902437239 # 7040332529807735)%Q, (-1149294315820359 # 1125899906842624)%Q); ((48752144675947 # 119120888853611)%Q, (-8046938682920489 # 9007199254740992)%Q); ((4503599627370496 # 7040332529807735)%Q, (-4024222154341543 # 9007199254740992)%Q); ((5036592759313293 # 7288392572998541)%Q, (-832159850617839 # 2251799813685248)%Q); ((18014398509481984 # 24995253182896925)%Q, (-2949989070350929 # 9007199254740992)%Q); ((3039164472553215 # 4165064379395839)%Q, (-709652683876431 # 2251799813685248)%Q); ((6244679452807711 # 8496479266492959)%Q, (-5547030700530753 # 18014398509481984)%Q); ((3771914257060117 # 4897814163902741)%Q, (-2352737942824177 # 9007199254740992)%Q); ((3790821055953503 # 4916720962796127)%Q, (-2342405070715715 # 9007199254740992)%Q); ((125161137768185 # 160345509857017)%Q, (-2231343692613309 # 9007199254740992)%Q); ((36028797018963968 # 41379984716913099)%Q, (-4989223391134959 # 36028797018963968)%Q); ((5378639453601899 # 5941589407023211)%Q, (-448293810287065 # 4503599627370496)%Q); ((18014398509481984 # 19590842001362061)%Q, (-6044973309184495 # 72057594037927936)%Q); ((5563838634686141 # 5845313611396797)%Q, (-3556184663281943 # 72057594037927936)%Q)] (qenv_sl [[(5924485309805887 # 2251799813685248)%Q; (-8944148859957805 # 9007199254740992)%Q; (6559492857265127 # 2251799813685248)%Q; (-2722425974745465 # 2251799813685248)%Q]; [(6424384868444013 # 2251799813685248)%Q; (6931039826523193 # 4503599627370496)%Q; (-7250795400066499 # 9007199254740992)%Q; (342836521633579 # 140737488355328)%Q]; [(413205265811243 # 1125899906842624)%Q; (7345370992241279 # 4503599627370496)%Q; (1997346434738815 # 2251799813685248)%Q; (2134706223373615 # 2251799813685248)%Q]; [(3003900951456121 # 4503599627370496)%Q; (-1679842661009195 # 562949953421312)%Q; (-2733684973813891 # 2251799813685248)%Q; (536772780587221 # 281474976710656)%Q]; [(-2296835809958953 # 2251799813685248)%Q; (-5715067927133159 # 4503599627370496)%Q; (-5082312179487605 # 2251799813685248)%Q; (5170132372221329 # 9007199254740992)%Q]] [3; 3; 3; 3; 3] 5 4) src_bce_loss));
mout (qresult (qdenote [((-6559492857265127 # 2251799813685248)%Q, (1956815752177259 # 36028797018963968)%Q); ((-6424384868444013 # 2251799813685248)%Q, (519454620129365 # 9007199254740992)%Q); ((-5924485309805887 # 2251799813685248)%Q, (1297152341585779 # 18014398509481984)%Q); ((-342836521633579 # 140737488355328)%Q, (1576443491880077 # 18014398509481984)%Q); ((-536772780587221 # 281474976710656)%Q, (5351187697949131 # 36028797018963968)%Q); ((-7345370992241279 # 4503599627370496)%Q, (7052051277751445 # 36028797018963968)%Q); ((-6931039826523193 # 4503599627370496)%Q, (3865810472218381 # 18014398509481984)%Q); ((-2134706223373615 # 2251799813685248)%Q, (6980854673414941 # 18014398509481984)%Q); ((-1997346434738815 # 2251799813685248)%Q, (1854985713117837 # 4503599627370496)%Q); ((-3003900951456121 # 4503599627370496)%Q, (4622909065376351 # 9007199254740992)%Q); ((-5170132372221329 # 9007199254740992)%Q, (2536732902437239 # 4503599627370496)%Q); ((-413205265811243 # 1125899906842624)%Q, (48752144675947 # 70368744177664)%Q); ((7250795400066499 # 9007199254740992)%Q, (5036592759313293 # 2251799813685248)%Q); ((8944148859957805 # 9007199254740992)%Q, (3039164472553215 # 1125899906842624)%Q); ((2296835809958953 # 2251799813685248)%Q, (6244679452807711 # 2251799813685248)%Q); ((2722425974745465 # 2251799813685248)%Q, (3771914257060117 # 1125899906842624)%Q); ((2733684973813891 # 2251799813685248)%Q, (3790821055953503 # 1125899906842624)%Q); ((5715067927133159 # 4503599627370496)%Q, (125161137768185 # 35184372088832)%Q); ((5082312179487605 # 2251799813685248)%Q, (5378639453601899 # 562949953421312)%Q); ((1679842661009195 # 562949953421312)%Q, (5563838634686141 # 281474976710656)%Q)] [] (qenv_sl [[(5924485309805887 # 2251799813685248)%Q; (-8944148859957805 # 9007199254740992)%Q; (6559492857265127 # 2251799813685248)%Q; (-2722425974745465 # 2251799813685248)%Q]; [(6424384868444013 # 2251799813685248)%Q; (6931039826523193 # 4503599627370496)%Q; (-7250795400066499 # 9007199254740992)%Q; (342836521633579 # 140737488355328)%Q]; [(413205265811243 # 1125899906842624)%Q; (7345370992241279 # 4503599627370496)%Q; (1997346434738815 # 2251799813685248)%Q; (2134706223373615 # 2251799813685248)%Q]; [(3003900951456121 # 4503599627370496)%Q; (-1679842661009195 # 562949953421312)%Q; (-2733684973813891 # 2251799813685248)%Q; (536772780587221 # 281474976710656)%Q]; [(-2296835809958953 # 2251799813685248)%Q; (-5715067927133159 # 4503599627370496)%Q; (-5082312179487605 # 2251799813685248)%Q; (5170132372221329 # 9007199254740992)%Q]] [3; 3; 3; 3; 3] 5 4) src_bce_loss_gradient));
mout (qresult (qdenote [((-1504765225495167 # 562949953421312)%Q, (4975200724581761 # 72057594037927936)%Q); ((-5811895319121625 # 2251799813685248)%Q, (2727317528611217 # 36028797018963968)%Q); ((-1823957849085051 # 1125899906842624)%Q, (7130052059600583 # 36028797018963968)%Q); ((-431219664320725 # 281474976710656)%Q, (7785932158526523 # 36028797018963968)%Q); ((-3231332732638331 # 2251799813685248)%Q, (2144752529295469 # 9007199254740992)%Q); ((7421932185906577 # 72057594037927936)%Q, (2496100748429051 # 2251799813685248)%Q); ((2817001566920245 # 2251799813685248)%Q, (7867417106018565 # 2251799813685248)%Q); ((2979131153505583 # 2251799813685248)%Q, (4227380918480957 # 1125899906842624)%Q); ((1064538361919701 # 562949953421312)%Q, (7460203055540453 # 1125899906842624)%Q); ((1203587000414765 # 562949953421312)%Q, (4775198064393757 # 562949953421312)%Q); ((2676264078564917 # 1125899906842624)%Q, (379024940607297 # 35184372088832)%Q); ((3318027025465213 # 1125899906842624)%Q, (5361738513180095 # 281474976710656)%Q)] [((4975200724581761 # 77032794762509697)%Q, (-1542350872286931 # 562949953421312)%Q); ((2727317528611217 # 38756114547575185)%Q, (-5976209156572289 # 2251799813685248)%Q); ((1125899906842624 # 8586102962383077)%Q, (-4574671672886649 # 2251799813685248)%Q); ((7130052059600583 # 43158849078564551)%Q, (-8109041597137655 # 4503599627370496)%Q); ((7785932158526523 # 43814729177490491)%Q, (-7780650685659255 # 4503599627370496)%Q); ((2144752529295469 # 11151951784036461)%Q, (-1856147727922589 # 1125899906842624)%Q); ((2251799813685248 # 4747900562114299)%Q, (-839890615698105 # 1125899906842624)%Q); ((2496100748429051 # 4747900562114299)%Q, (-2895691701173259 # 4503599627370496)%Q); ((7867417106018565 # 10119216919703813)%Q, (-4534340617335397 # 18014398509481984)%Q); ((4227380918480957 # 5353280825323581)%Q, (-8507370969917687 # 36028797018963968)%Q); ((36028797018963968 # 43814729177490491)%Q, (-1762272113055311 # 9007199254740992)%Q); ((7460203055540453 # 8586102962383077)%Q, (-2532145801662759 # 18014398509481984)%Q); ((4775198064393757 # 5338148017815069)%Q, (-4015169012956227 # 36028797018963968)%Q); ((379024940607297 # 414209312696129)%Q, (-1599127761616675 # 18014398509481984)%Q); ((5361738513180095 # 5643213489890751)%Q, (-7373711099632173 # 144115188075855872)%Q)] (qenv_sl [[(-1064538361919701 # 562949953421312)%Q; (1823957849085051 # 1125899906842624)%Q; (3231332732638331 # 2251799813685248)%Q; (-2979131153505583 # 2251799813685248)%Q]; [(1504765225495167 # 562949953421312)%Q; (-3318027025465213 # 1125899906842624)%Q; (431219664320725 # 281474976710656)%Q; (-2817001566920245 # 2251799813685248)%Q]; [(5811895319121625 # 2251799813685248)%Q; (-1203587000414765 # 562949953421312)%Q; (-7421932185906577 # 72057594037927936)%Q; (-2676264078564917 # 1125899906842624)%Q]] [0; 2; 2] 3 4) src_bce_loss));
mout (qresult (qdenote [((-1504765225495167 # 562949953421312)%Q, (4975200724581761 # 72057594037927936)%Q); ((-5811895319121625 # 2251799813685248)%Q, (2727317528611217 # 36028797018963968)%Q); ((-1823957849085051 # 1125899906842624)%Q, (7130052059600583 # 36028797018963968)%Q); ((-431219664320725 # 281474976710656)%Q, (7785932158526523 # 36028797018963968)%Q); ((-3231332732638331 # 2251799813685248)%Q, (2144752529295469 # 9007199254740992)%Q); ((7421932185906577 # 72057594037927936)%Q, (2496100748429051 # 2251799813685248)%Q); ((2817001566920245 # 2251799813685248)%Q, (7867417106018565 # 2251799813685248)%Q); ((2979131153505583 # 2251799813685248)%Q, (4227380918480957 # 1125899906842624)%Q); ((1064538361919701 # 562949953421312)%Q, (7460203055540453 # 1125899906842624)%Q); ((1203587000414765 # 562949953421312)%Q, (4775198064393757 # 562949953421312)%Q); ((2676264078564917 # 1125899906842624)%Q, (379024940607297 # 35184372088832)%Q); ((3318027025465213 # 1125899906842624)%Q, (5361738513180095 # 281474976710656)%Q)] [] (qenv_sl [[(-1064538361919701 # 562949953421312)%Q; (1823957849085051 # 1125899906842624)%Q; (3231332732638331 # 2251799813685248)%Q; (-2979131153505583 # 2251799813685248)%Q]; [(1504765225495167 # 562949953421312)%Q; (-3318027025465213 # 1125899906842624)%Q; (431219664320725 # 281474976710656)%Q; (-2817001566920245 # 2251799813685248)%Q]; [(5811895319121625 # 2251799813685248)%Q; (-1203587000414765 # 562949953421312)%Q; (-7421932185906577 # 72057594037927936)%Q; (-2676264078564917 # 1125899906842624)%Q]] [0; 2; 2] 3 4) src_bce_loss_gradient));
mout (qresult (qdenote [((-6226226484839711 # 2251799813685248)%Q, (35452392194621 # 562949953421312)%Q); ((-626000348204499 # 281474976710656)%Q, (7794869153733311 # 72057594037927936)%Q); ((-4393261436499919 # 2251799813685248)%Q, (5120840244733503 # 36028797018963968)%Q); ((-449234062830207 # 281474976710656)%Q, (3651621645352481 # 18014398509481984)%Q); ((-3368692521273131 # 2251799813685248)%Q, (4035666046259109 # 18014398509481984)%Q); ((-6710363444782039 # 9007199254740992)%Q, (8552052865237531 # 18014398509481984)%Q); ((-3260606130216239 # 4503599627370496)%Q, (8733544972750477 # 18014398509481984)%Q); ((5836665117072163 # 72057594037927936)%Q, (4883572365709473 # 4503599627370496)%Q); ((8070450532247929 # 72057594037927936)%Q, (5037334102410133 # 4503599627370496)%Q); ((5476377146882523 # 36028797018963968)%Q, (2621455803497605 # 2251799813685248)%Q); ((5944751508129055 # 36028797018963968)%Q, (2655757204975973 # 2251799813685248)%Q); ((7548032975472951 # 4503599627370496)%Q, (6016962916430891 # 1125899906842624)%Q); ((4769312005385355 # 2251799813685248)%Q, (4680642807495747 # 562949953421312)%Q); ((5136355375016051 # 2251799813685248)%Q, (86082629933577 # 8796093022208)%Q); ((676665844012417 # 281474976710656)%Q, (6230368326788493 # 562949953421312)%Q); ((342836521633579 # 140737488355328)%Q, (201030136309615 # 17592186044416)%Q)] [((35452392194621 # 598402345615933)%Q, (-1590937446955027 # 562949953421312)%Q); ((17592186044416 # 218622322354031)%Q, (-5674289762049279 # 2251799813685248)%Q); ((562949953421312 # 6793318280209805)%Q, (-5608116602452895 # 2251799813685248)%Q); ((7794869153733311 # 79852463191661247)%Q, (-5239296415825603 # 2251799813685248)%Q); ((5120840244733503 # 41149637263697471)%Q, (-2346258961036825 # 1125899906842624)%Q); ((1125899906842624 # 7142862823273515)%Q, (-2080135001667805 # 1125899906842624)%Q); ((3651621645352481 # 21666020154834465)%Q, (-4009495720577195 # 2251799813685248)%Q); ((4035666046259109 # 22050064555741093)%Q, (-3823880735209845 # 2251799813685248)%Q); ((8552052865237531 # 26566451374719515)%Q, (-5104730368540809 # 4503599627370496)%Q); ((8733544972750477 # 26747943482232461)%Q, (-5040817074881521 # 4503599627370496)%Q); ((4883572365709473 # 9387171993079969)%Q, (-2942954104545435 # 4503599627370496)%Q); ((5037334102410133 # 9540933729780629)%Q, (-5753027522726471 # 9007199254740992)%Q); ((2621455803497605 # 4873255617182853)%Q, (-5584755413108811 # 9007199254740992)%Q); ((2655757204975973 # 4907557018661221)%Q, (-5530838746021865 # 9007199254740992)%Q); ((6016962916430891 # 7142862823273515)%Q, (-3090028124793075 # 18014398509481984)%Q); ((36028797018963968 # 41149637263697471)%Q, (-4788103769179693 # 36028797018963968)%Q); ((4680642807495747 # 5243592760917059)%Q, (-8183685601106663 # 72057594037927936)%Q); ((86082629933577 # 94878722955785)%Q, (-7010615004698433 # 72057594037927936)%Q); ((6230368326788493 # 6793318280209805)%Q, (-779159401414237 # 9007199254740992)%Q); ((201030136309615 # 218622322354031)%Q, (-6044973309184495 # 72057594037927936)%Q)] (qenv_sl [[(3260606130216239 # 4503599627370496)%Q; (-7548032975472951 # 4503599627370496)%Q; (449234062830207 # 281474976710656)%Q; (-5476377146882523 # 36028797018963968)%Q]; [(6710363444782039 # 9007199254740992)%Q; (-676665844012417 # 281474976710656)%Q; (-8070450532247929 # 72057594037927936)%Q; (6226226484839711 # 2251799813685248)%Q]; [(626000348204499 # 281474976710656)%Q; (4393261436499919 # 2251799813685248)%Q; (3368692521273131 # 2251799813685248)%Q; (-5136355375016051 # 2251799813685248)%Q]; [(-5944751508129055 # 36028797018963968)%Q; (-4769312005385355 # 2251799813685248)%Q; (-342836521633579 # 140737488355328)%Q; (-5836665117072163 # 72057594037927936)%Q]] [1; 1; 1; 2] 4 4) src_bce_loss));
mout (qresult (qdenote [((-6226226484839711 # 2251799813685248)%Q, (35452392194621 # 562949953421312)%Q); ((-626000348204499 # 281474976710656)%Q, (7794869153733311 # 72057594037927936)%Q); ((-4393261436499919 # 2251799813685248)%Q, (5120840244733503 # 36028797018963968)%Q); ((-449234062830207 # 281474976710656)%Q, (3651621645352481 # 18014398509481984)%Q); ((-3368692521273131 # 2251799813685248)%Q, (4035666046259109 # 18014398509481984)%Q); ((-6710363444782039 # 9007199254740992)%Q, (8552052865237531 # 18014398509481984)%Q); ((-3260606130216239 # 4503599627370496)%Q, (8733544972750477 # 18014398509481984)%Q); ((5836665117072163 # 72057594037927936)%Q, (4883572365709473 # 4503599627370496)%Q); ((8070450532247929 # 72057594037927936)%Q, (5037334102410133 # 4503599627370496)%Q); ((5476377146882523 # 36028797018963968)%Q, (2621455803497605 # 2251799813685248)%Q); ((5944751508129055 # 36028797018963968)%Q, (2655757204975973 # 2251799813685248)%Q); ((7548032975472951 # 4503599627370496)%Q, (6016962916430891 # 1125899906842624)%Q); ((4769312005385355 # 2251799813685248)%Q, (4680642807495747 # 562949953421312)%Q); ((5136355375016051 # 2251799813685248)%Q, (86082629933577 # 8796093022208)%Q); ((676665844012417 # 281474976710656)%Q, (6230368326788493 # 562949953421312)%Q); ((342836521633579 # 140737488355328)%Q, (201030136309615 # 17592186044416)%Q)] [] (qenv_sl [[(3260606130216239 # 4503599627370496)%Q; (-7548032975472951 # 4503599627370496)%Q; (449234062830207 # 281474976710656)%Q; (-5476377146882523 # 36028797018963968)%Q]; [(6710363444782039 # 9007199254740992)%Q; (-676665844012417 # 281474976710656)%Q; (-8070450532247929 # 72057594037927936)%Q; (6226226484839711 # 2251799813685248)%Q]; [(626000348204499 # 281474976710656)%Q; (4393261436499919 # 2251799813685248)%Q; (3368692521273131 # 2251799813685248)%Q; (-5136355375016051 # 2251799813685248)%Q]; [(-5944751508129055 # 36028797018963968)%Q; (-4769312005385355 # 2251799813685248)%Q; (-342836521633579 # 140737488355328)%Q; (-5836665117072163 # 72057594037927936)%Q]] [1; 1; 1; 2] 4 4) src_bce_loss_gradient));
mout (qresult (qdenote [((-2946480056207147 # 1125899906842624)%Q, (1315440190610595 # 18014398509481984)%Q); ((-2458965396544291 # 1125899906842624)%Q, (4056491899312767 # 36028797018963968)%Q); ((-4667981013769519 # 2251799813685248)%Q, (4532703387988455 # 36028797018963968)%Q); ((-2228155915641553 # 1125899906842624)%Q, (4979445482226509 # 36028797018963968)%Q); ((-8669429282688205 # 4503599627370496)%Q, (5255728033760757 # 36028797018963968)%Q); ((-7106680211990643 # 4503599627370496)%Q, (1858972981540739 # 9007199254740992)%Q); ((-378020893722411 # 281474976710656)%Q, (2351431225188409 # 9007199254740992)%Q); ((-2949857755927675 # 2251799813685248)%Q, (4860646021564647 # 18014398509481984)%Q); ((-4566650022153683 # 4503599627370496)%Q, (6534993518918115 # 18014398509481984)%Q); ((-220113431787733 # 281474976710656)%Q, (8241409254472903 # 18014398509481984)%Q); ((-7530018576963469 # 36028797018963968)%Q, (7308398561787727 # 9007199254740992)%Q); ((-3494793310839505 # 18014398509481984)%Q, (7418850861489453 # 9007199254740992)%Q); ((-3314649325744685 # 18014398509481984)%Q, (3746705776109973 # 4503599627370496)%Q); ((1080863910568919 # 72057594037927936)%Q, (2285831409771137 # 2251799813685248)%Q); ((3638908498915361 # 9007199254740992)%Q, (1686377324348683 # 1125899906842624)%Q); ((4656722014701093 # 9007199254740992)%Q, (3776243806682361 # 2251799813685248)%Q); ((5296233161787703 # 9007199254740992)%Q, (8108208910311683 # 4503599627370496)%Q); ((4913427193461211 # 4503599627370496)%Q, (3352085311050123 # 1125899906842624)%Q); ((4177088654386135 # 2251799813685248)%Q, (7196412464940233 # 1125899906842624)%Q); ((4267160646933545 # 2251799813685248)%Q, (7490103629042197 # 1125899906842624)%Q); ((4357232639480955 # 2251799813685248)%Q, (3897890278462313 # 562949953421312)%Q); ((4620693217682129 # 2251799813685248)%Q, (8763388393642687 # 1125899906842624)%Q); ((2715670575304409 # 1125899906842624)%Q, (785051397239047 # 70368744177664)%Q); ((3144638439811449 # 1125899906842624)%Q, (4596468411328867 # 281474976710656)%Q)] [((1315440190610595 # 19329838700092579)%Q, (-756457974465609 # 281474976710656)%Q); ((4056491899312767 # 40085288918276735)%Q, (-644772159628895 # 281474976710656)%Q); ((4532703387988455 # 40561500406952423)%Q, (-2467410563447603 # 1125899906842624)%Q); ((4979445482226509 # 41008242501190477)%Q, (-4747817556610137 # 2251799813685248)%Q); ((5255728033760757 # 41284525052724725)%Q, (-2320670207795127 # 1125899906842624)%Q); ((1125899906842624 # 8322312371782857)%Q, (-4504404673798641 # 2251799813685248)%Q); ((1858972981540739 # 10866172236281731)%Q, (-3975846035012751 # 2251799813685248)%Q); ((2351431225188409 # 11358630479929401)%Q, (-7092960783472295 # 4503599627370496)%Q); ((4860646021564647 # 22875044531046631)%Q, (-6975513785028441 # 4503599627370496)%Q); ((6534993518918115 # 24549392028400099)%Q, (-1490146241593091 # 1125899906842624)%Q); ((8241409254472903 # 26255807763954887)%Q, (-5218392303570659 # 4503599627370496)%Q); ((7308398561787727 # 16315597816528719)%Q, (-1808414568369283 # 2251799813685248)%Q); ((7418850861489453 # 16426050116230445)%Q, (-3579660590474615 # 4503599627370496)%Q); ((3746705776109973 # 8250305403480469)%Q, (-888755239431685 # 1125899906842624)%Q); ((2285831409771137 # 4537631223456385)%Q, (-6176014098858933 # 9007199254740992)%Q); ((4503599627370496 # 8250305403480469)%Q, (-5452717252581137 # 9007199254740992)%Q); ((9007199254740992 # 16426050116230445)%Q, (-5411924525529477 # 9007199254740992)%Q); ((1686377324348683 # 2812277231191307)%Q, (-4606389106297585 # 9007199254740992)%Q); ((3776243806682361 # 6028043620367609)%Q, (-2106300684681595 # 4503599627370496)%Q); ((8108208910311683 # 12611808537682179)%Q, (-7957978831258215 # 18014398509481984)%Q); ((18014398509481984 # 24549392028400099)%Q, (-2787869888437361 # 9007199254740992)%Q); ((3352085311050123 # 4477985217892747)%Q, (-5216800185370199 # 18014398509481984)%Q); ((18014398509481984 # 22875044531046631)%Q, (-8606386185384723 # 36028797018963968)%Q); ((7196412464940233 # 8322312371782857)%Q, (-5237056310600103 # 36028797018963968)%Q); ((7490103629042197 # 8616003535884821)%Q, (-1261356628778199 # 9007199254740992)%Q); ((3897890278462313 # 4460840231883625)%Q, (-75942899291681 # 562949953421312)%Q); ((8763388393642687 # 9889288300485311)%Q, (-2177392213086457 # 18014398509481984)%Q); ((36028797018963968 # 40561500406952423)%Q, (-4269441810010999 # 36028797018963968)%Q); ((785051397239047 # 855420141416711)%Q, (-6185679812389847 # 72057594037927936)%Q); ((4596468411328867 # 4877943388039523)%Q, (-4282773523765269 # 72057594037927936)%Q)] (qenv_sl [[(-3144638439811449 # 1125899906842624)%Q; (2458965396544291 # 1125899906842624)%Q; (-4656722014701093 # 9007199254740992)%Q; (4566650022153683 # 4503599627370496)%Q]; [(7530018576963469 # 36028797018963968)%Q; (2946480056207147 # 1125899906842624)%Q; (-4177088654386135 # 2251799813685248)%Q; (-2715670575304409 # 1125899906842624)%Q]; [(220113431787733 # 281474976710656)%Q; (-3638908498915361 # 9007199254740992)%Q; (-1080863910568919 # 72057594037927936)%Q; (2949857755927675 # 2251799813685248)%Q]; [(7106680211990643 # 4503599627370496)%Q; (4667981013769519 # 2251799813685248)%Q; (-4913427193461211 # 4503599627370496)%Q; (-5296233161787703 # 9007199254740992)%Q]; [(3494793310839505 # 18014398509481984)%Q; (378020893722411 # 281474976710656)%Q; (-4267160646933545 # 2251799813685248)%Q; (2228155915641553 # 1125899906842624)%Q]; [(-4357232639480955 # 2251799813685248)%Q; (3314649325744685 # 18014398509481984)%Q; (-4620693217682129 # 2251799813685248)%Q; (8669429282688205 # 4503599627370496)%Q]] [3; 2; 3; 1; 0; 1] 6 4) src_bce_loss));
mout (qresult (qdenote [((-2946480056207147 # 1125899906842624)%Q, (1315440190610595 # 18014398509481984)%Q); ((-2458965396544291 # 1125899906842624)%Q, (4056491899312767 # 36028797018963968)%Q); ((-4667981013769519 # 2251799813685248)%Q, (4532703387988455 # 36028797018963968)%Q); ((-2228155915641553 # 1125899906842624)%Q, (4979445482226509 # 36028797018963968)%Q); ((-8669429282688205 # 4503599627370496)%Q, (5255728033760757 # 36028797018963968)%Q); ((-7106680211990643 # 4503599627370496)%Q, (1858972981540739 # 9007199254740992)%Q); ((-378020893722411 # 281474976710656)%Q, (2351431225188409 # 9007199254740992)%Q); ((-2949857755927675 # 2251799813685248)%Q, (4860646021564647 # 18014398509481984)%Q); ((-4566650022153683 # 4503599627370496)%Q, (6534993518918115 # 18014398509481984)%Q); ((-220113431787733 # 281474976710656)%Q, (8241409254472903 # 18014398509481984)%Q); ((-7530018576963469 # 36028797018963968)%Q, (7308398561787727 # 9007199254740992)%Q); ((-3494793310839505 # 18014398509481984)%Q, (7418850861489453 # 9007199254740992)%Q); ((-3314649325744685 # 18014398509481984)%Q, (3746705776109973 # 4503599627370496)%Q); ((1080863910568919 # 72057594037927936)%Q, (2285831409771137 # 2251799813685248)%Q); ((3638908498915361 # 9007199254740992)%Q, (1686377324348683 # 1125899906842624)%Q); ((4656722014701093 # 9007199254740992)%Q, (3776243806682361 # 2251799813685248)%Q); ((5296233161787703 # 9007199254740992)%Q, (8108208910311683 # 4503599627370496)%Q); ((4913427193461211 # 4503599627370496)%Q, (3352085311050123 # 1125899906842624)%Q); ((4177088654386135 # 2251799813685248)%Q, (7196412464940233 # 1125899906842624)%Q); ((4267160646933545 # 2251799813685248)%Q, (7490103629042197 # 1125899906842624)%Q); ((4357232639480955 # 2251799813685248)%Q, (3897890278462313 # 562949953421312)%Q); ((4620693217682129 # 2251799813685248)%Q, (8763388393642687 # 1125899906842624)%Q); ((2715670575304409 # 1125899906842624)%Q, (785051397239047 # 70368744177664)%Q); ((3144638439811449 # 1125899906842624)%Q, (4596468411328867 # 281474976710656)%Q)] [] (qenv_sl [[(-3144638439811449 # 1125899906842624)%Q; (2458965396544291 # 1125899906842624)%Q; (-4656722014701093 # 9007199254740992)%Q; (4566650022153683 # 4503599627370496)%Q]; [(7530018576963469 # 36028797018963968)%Q; (2946480056207147 # 1125899906842624)%Q; (-4177088654386135 # 2251799813685248)%Q; (-2715670575304409 # 1125899906842624)%Q]; [(220113431787733 # 281474976710656)%Q; (-3638908498915361 # 9007199254740992)%Q; (-1080863910568919 # 72057594037927936)%Q; (2949857755927675 # 2251799813685248)%Q]; [(7106680211990643 # 4503599627370496)%Q; (4667981013769519 # 2251799813685248)%Q; (-4913427193461211 # 4503599627370496)%Q; (-5296233161787703 # 9007199254740992)%Q]; [(3494793310839505 # 18014398509481984)%Q; (378020893722411 # 281474976710656)%Q; (-4267160646933545 # 2251799813685248)%Q; (2228155915641553 # 1125899906842624)%Q]; [(-4357232639480955 # 2251799813685248)%Q; (3314649325744685 # 18014398509481984)%Q; (-4620693217682129 # 2251799813685248)%Q; (8669429282688205 # 4503599627370496)%Q]] [3; 2; 3; 1; 0; 1] 6 4) src_bce_loss_gradient));
mout (qresult (qdenote [((-6241989083535507 # 2251799813685248)%Q, (2253125888621703 # 36028797018963968)%Q); ((-5638506733467861 # 2251799813685248)%Q, (1472808843291597 # 18014398509481984)%Q); ((-1134907106097365 # 562949953421312)%Q, (2399286389246673 # 18014398509481984)%Q); ((-8322652111380677 # 4503599627370496)%Q, (5676407418537767 # 36028797018963968)%Q); ((-4032973466310279 # 2251799813685248)%Q, (6009361695807129 # 36028797018963968)%Q); ((-1979332036229333 # 1125899906842624)%Q, (97046547206211 # 562949953421312)%Q); ((-7867788549016257 # 4503599627370496)%Q, (6279676936260945 # 36028797018963968)%Q); ((-1571756269952303 # 1125899906842624)%Q, (4460100749390899 # 18014398509481984)%Q); ((-5129599975574995 # 4503599627370496)%Q, (2883555769427821 # 9007199254740992)%Q); ((-994169617742037 # 1125899906842624)%Q, (931210257831165 # 2251799813685248)%Q); ((-3494793310839505 # 9007199254740992)%Q, (763824394081941 # 1125899906842624)%Q); ((-3170534137668829 # 9007199254740992)%Q, (1583646047634863 # 2251799813685248)%Q); ((-5944751508129055 # 18014398509481984)%Q, (6475489315983657 # 9007199254740992)%Q); ((-1116892707587883 # 4503599627370496)%Q, (7028857499523633 # 9007199254740992)%Q); ((7250795400066499 # 9007199254740992)%Q, (5036592759313293 # 2251799813685248)%Q); ((2524267591141163 # 2251799813685248)%Q, (431771438371323 # 140737488355328)%Q); ((5908722711110091 # 4503599627370496)%Q, (2090567274861225 # 562949953421312)%Q); ((2967872154437157 # 2251799813685248)%Q, (525787096023697 # 140737488355328)%Q); ((1838594547874005 # 1125899906842624)%Q, (2881858655630045 # 562949953421312)%Q); ((3812297084569125 # 2251799813685248)%Q, (765015710631515 # 140737488355328)%Q); ((1362338887279575 # 562949953421312)%Q, (3165427988747681 # 281474976710656)%Q); ((6142909891733357 # 2251799813685248)%Q, (4307200994698305 # 281474976710656)%Q); ((1625799465480749 # 562949953421312)%Q, (2527273595412599 # 140737488355328)%Q); ((6669831048135705 # 2251799813685248)%Q, (5442770813782375 # 281474976710656)%Q)] [((140737488355328 # 2668011083767927)%Q, (-6625227827461013 # 2251799813685248)%Q); ((2253125888621703 # 38281922907585671)%Q, (-6378581598703479 # 2251799813685248)%Q); ((281474976710656 # 4588675971408961)%Q, (-6285456140778001 # 2251799813685248)%Q); ((1472808843291597 # 19487207352773581)%Q, (-2907734307077921 # 1125899906842624)%Q); ((2399286389246673 # 20413684898728657)%Q, (-4821180297785127 # 2251799813685248)%Q); ((5676407418537767 # 41705204437501735)%Q, (-8981562026507243 # 4503599627370496)%Q); ((6009361695807129 # 42038158714771097)%Q, (-4380334328339831 # 2251799813685248)%Q); ((97046547206211 # 659996500627523)%Q, (-8633597749719621 # 4503599627370496)%Q); ((6279676936260945 # 42308473955224913)%Q, (-2147844191775575 # 1125899906842624)%Q); ((562949953421312 # 3444808609051357)%Q, (-4078984253757993 # 2251799813685248)%Q); ((4460100749390899 # 22474499258872883)%Q, (-7283266105080419 # 4503599627370496)%Q); ((2883555769427821 # 11890755024168813)%Q, (-1595104095379455 # 1125899906842624)%Q); ((931210257831165 # 3183010071516413)%Q, (-2767681518814371 # 2251799813685248)%Q); ((763824394081941 # 1889724300924565)%Q, (-8159156248121359 # 9007199254740992)%Q); ((1583646047634863 # 3835445861320111)%Q, (-497960688919895 # 562949953421312)%Q); ((6475489315983657 # 15482688570724649)%Q, (-7851560805885575 # 9007199254740992)%Q); ((7028857499523633 # 16036056754264625)%Q, (-1857319522499659 # 2251799813685248)%Q); ((5036592759313293 # 7288392572998541)%Q, (-832159850617839 # 2251799813685248)%Q); ((431771438371323 # 572508926726651)%Q, (-2541218756914557 # 9007199254740992)%Q); ((2090567274861225 # 2653517228282537)%Q, (-536942934240815 # 2251799813685248)%Q); ((525787096023697 # 666524584379025)%Q, (-534083353251663 # 2251799813685248)%Q); ((2881858655630045 # 3444808609051357)%Q, (-6428722528159729 # 36028797018963968)%Q); ((765015710631515 # 905753198986843)%Q, (-6084200651566037 # 36028797018963968)%Q); ((562949953421312 # 659996500627523)%Q, (-5730156838418313 # 36028797018963968)%Q); ((36028797018963968 # 42038158714771097)%Q, (-5557773792472837 # 36028797018963968)%Q); ((3165427988747681 # 3446902965458337)%Q, (-6138432574325503 # 72057594037927936)%Q); ((4307200994698305 # 4588675971408961)%Q, (-4561479969428613 # 72057594037927936)%Q); ((36028797018963968 # 38281922907585671)%Q, (-8741920970750237 # 144115188075855872)%Q); ((2527273595412599 # 2668011083767927)%Q, (-7809917794433131 # 144115188075855872)%Q); ((5442770813782375 # 5724245790493031)%Q, (-7266652270748613 # 144115188075855872)%Q)] (qenv_sl [[(-7250795400066499 # 9007199254740992)%Q; (-1625799465480749 # 562949953421312)%Q; (-5908722711110091 # 4503599627370496)%Q; (5129599975574995 # 4503599627370496)%Q]; [(6241989083535507 # 2251799813685248)%Q; (3494793310839505 # 9007199254740992)%Q; (994169617742037 # 1125899906842624)%Q; (1571756269952303 # 1125899906842624)%Q]; [(5638506733467861 # 2251799813685248)%Q; (1979332036229333 # 1125899906842624)%Q; (3170534137668829 # 9007199254740992)%Q; (-1362338887279575 # 562949953421312)%Q]; [(1116892707587883 # 4503599627370496)%Q; (7867788549016257 # 4503599627370496)%Q; (1134907106097365 # 562949953421312)%Q; (-1838594547874005 # 1125899906842624)%Q]; [(-2524267591141163 # 2251799813685248)%Q; (8322652111380677 # 4503599627370496)%Q; (-3812297084569125 # 2251799813685248)%Q; (-6142909891733357 # 2251799813685248)%Q]; [(-2967872154437157 # 2251799813685248)%Q; (5944751508129055 # 18014398509481984)%Q; (4032973466310279 # 2251799813685248)%Q; (-6669831048135705 # 2251799813685248)%Q]] [1; 0; 1; 3; 3; 2] 6 4) src_bce_loss));
mout (qresult (qdenote [((-6241989083535507 # 2251799813685248)%Q, (2253125888621703 # 36028797018963968)%Q); ((-5638506733467861 # 2251799813685248)%Q, (1472808843291597 # 18014398509481984)%Q); ((-1134907106097365 # 562949953421312)%Q, (2399286389246673 # 18014398509481984)%Q); ((-8322652111380677 # 4503599627370496)%Q, (5676407418537767 # 36028797018963968)%Q); ((-4032973466310279 # 2251799813685248)%Q, (6009361695807129 # 36028797018963968)%Q); ((-1979332036229333 # 1125899906842624)%Q, (97046547206211 # 562949953421312)%Q); ((-7867788549016257 # 4503599627370496)%Q, (6279676936260945 # 36028797018963968)%Q); ((-1571756269952303 # 1125899906842624)%Q, (4460100749390899 # 18014398509481984)%Q); ((-5129599975574995 # 4503599627370496)%Q, (2883555769427821 # 9007199254740992)%Q); ((-994169617742037 # 1125899906842624)%Q, (931210257831165 # 2251799813685248)%Q); ((-3494793310839505 # 9007199254740992)%Q, (763824394081941 # 1125899906842624)%Q); ((-3170534137668829 # 9007199254740992)%Q, (1583646047634863 # 2251799813685248)%Q); ((-5944751508129055 # 18014398509481984)%Q, (6475489315983657 # 9007199254740992)%Q); ((-1116892707587883 # 4503599627370496)%Q, (7028857499523633 # 9007199254740992)%Q); ((7250795400066499 # 9007199254740992)%Q, (5036592759313293 # 2251799813685248)%Q); ((2524267591141163 # 2251799813685248)%Q, (431771438371323 # 140737488355328)%Q); ((5908722711110091 # 4503599627370496)%Q, (2090567274861225 # 562949953421312)%Q); ((2967872154437157 # 2251799813685248)%Q, (525787096023697 # 140737488355328)%Q); ((1838594547874005 # 1125899906842624)%Q, (2881858655630045 # 562949953421312)%Q); ((3812297084569125 # 2251799813685248)%Q, (765015710631515 # 140737488355328)%Q); ((1362338887279575 # 562949953421312)%Q, (3165427988747681 # 281474976710656)%Q); ((6142909891733357 # 2251799813685248)%Q, (4307200994698305 # 281474976710656)%Q); ((1625799465480749 # 562949953421312)%Q, (2527273595412599 # 140737488355328)%Q); ((6669831048135705 # 2251799813685248)%Q, (5442770813782375 # 281474976710656)%Q)] [] (qenv_sl [[(-7250795400066499 # 9007199254740992)%Q; (-1625799465480749 # 562949953421312)%Q; (-5908722711110091 # 4503599627370496)%Q; (5129599975574995 # 4503599627370496)%Q]; [(6241989083535507 # 2251799813685248)%Q; (3494793310839505 # 9007199254740992)%Q; (994169617742037 # 1125899906842624)%Q; (1571756269952303 # 1125899906842624)%Q]; [(5638506733467861 # 2251799813685248)%Q; (1979332036229333 # 1125899906842624)%Q; (3170534137668829 # 9007199254740992)%Q; (-1362338887279575 # 562949953421312)%Q]; [(1116892707587883 # 4503599627370496)%Q; (7867788549016257 # 4503599627370496)%Q; (1134907106097365 # 562949953421312)%Q; (-1838594547874005 # 1125899906842624)%Q]; [(-2524267591141163 # 2251799813685248)%Q; (8322652111380677 # 4503599627370496)%Q; (-3812297084569125 # 2251799813685248)%Q; (-6142909891733357 # 2251799813685248)%Q]; [(-2967872154437157 # 2251799813685248)%Q; (5944751508129055 # 18014398509481984)%Q; (4032973466310279 # 2251799813685248)%Q; (-6669831048135705 # 2251799813685248)%Q]] [1; 0; 1; 3; 3; 2] 6 4) src_bce_loss_gradient));
mout (qresult (qdenote [((-536772780587221 # 281474976710656)%Q, (5351187697949131 # 36028797018963968)%Q); ((-8309141312498565 # 4503599627370496)%Q, (5693462210189767 # 36028797018963968)%Q); ((4710765210229539 # 4503599627370496)%Q, (3204585116253641 # 1125899906842624)%Q); ((5661024731604713 # 4503599627370496)%Q, (7914763505814951 # 2251799813685248)%Q)] [((5351187697949131 # 41379984716913099)%Q, (-4606008706643703 # 2251799813685248)%Q); ((5693462210189767 # 41722259229153735)%Q, (-8969892538652053 # 4503599627370496)%Q); ((3204585116253641 # 4330485023096265)%Q, (-5424079856895407 # 18014398509481984)%Q); ((7914763505814951 # 10166563319500199)%Q, (-2255172252769079 # 9007199254740992)%Q); ((36028797018963968 # 41379984716913099)%Q, (-4989223391134959 # 36028797018963968)%Q)] (qenv_sl [[(8309141312498565 # 4503599627370496)%Q; (-5661024731604713 # 4503599627370496)%Q; (536772780587221 # 281474976710656)%Q; (-4710765210229539 # 4503599627370496)%Q]] [2] 1 4) src_bce_loss));
mout (qresult (qdenote [((-536772780587221 # 281474976710656)%Q, (5351187697949131 # 36028797018963968)%Q); ((-8309141312498565 # 4503599627370496)%Q, (5693462210189767 # 36028797018963968)%Q); ((4710765210229539 # 4503599627370496)%Q, (3204585116253641 # 1125899906842624)%Q); ((5661024731604713 # 4503599627370496)%Q, (7914763505814951 # 2251799813685248)%Q)] [] (qenv_sl [[(8309141312498565 # 4503599627370496)%Q; (-5661024731604713 # 4503599627370496)%Q; (536772780587221 # 281474976710656)%Q; (-4710765210229539 # 4503599627370496)%Q]] [2] 1 4) src_bce_loss_gradient))
].
Eval vm_compute in the_cases.
