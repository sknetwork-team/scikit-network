From SKN Require Import Base.Util Model.NpExpr Model.NpVec Gen.NpSecondary.
Set Printing Depth 10000000.
Set Printing Width 1000000.
Definition qz3 (q : Q) : Z * Z := (Qnum q, Zpos (Qden q)).

Definition the_cases := [
(map (map qz3) (qmresult (qvdenote (qenv_secondary_bip [[(0 # 1)%Q; (0 # 1)%Q; (1 # 1)%Q]; [(0 # 1)%Q; (0 # 1)%Q; (0 # 1)%Q]] 2 3 [(0)%Z; (0)%Z] [(1)%Z; (0)%Z; (1)%Z]) src_secondary_probs_row)), map (map qz3) (qmresult (qvdenote (qenv_secondary_bip [[(0 # 1)%Q; (0 # 1)%Q; (1 # 1)%Q]; [(0 # 1)%Q; (0 # 1)%Q; (0 # 1)%Q]] 2 3 [(0)%Z; (0)%Z] [(1)%Z; (0)%Z; (1)%Z]) src_secondary_probs_col)), map (map qz3) (qmresult (qvdenote (qenv_secondary_bip [[(0 # 1)%Q; (0 # 1)%Q; (1 # 1)%Q]; [(0 # 1)%Q; (0 # 1)%Q; (0 # 1)%Q]] 2 3 [(0)%Z; (0)%Z] [(1)%Z; (0)%Z; (1)%Z]) src_secondary_aggregate_bip)));
(map (map qz3) (qmresult (qvdenote (qenv_secondary_bip [[(0 # 1)%Q; (0 # 1)%Q; (1 # 1)%Q; (0 # 1)%Q; (1 # 1)%Q; (1 # 1)%Q; (0 # 1)%Q; (1 # 1)%Q]] 1 8 [(2)%Z] [(0)%Z; (0)%Z; (1)%Z; (1)%Z; (0)%Z; (3)%Z; (0)%Z; (2)%Z]) src_secondary_probs_row)), map (map qz3) (qmresult (qvdenote (qenv_secondary_bip [[(0 # 1)%Q; (0 # 1)%Q; (1 # 1)%Q; (0 # 1)%Q; (1 # 1)%Q; (1 # 1)%Q; (0 # 1)%Q; (1 # 1)%Q]] 1 8 [(2)%Z] [(0)%Z; (0)%Z; (1)%Z; (1)%Z; (0)%Z; (3)%Z; (0)%Z; (2)%Z]) src_secondary_probs_col)), map (map qz3) (qmresult (qvdenote (qenv_secondary_bip [[(0 # 1)%Q; (0 # 1)%Q; (1 # 1)%Q; (0 # 1)%Q; (1 # 1)%Q; (1 # 1)%Q; (0 # 1)%Q; (1 # 1)%Q]] 1 8 [(2)%Z] [(0)%Z; (0)%Z; (1)%Z; (1)%Z; (0)%Z; (3)%Z; (0)%Z; (2)%Z]) src_secondary_aggregate_bip)));
(map (map qz3) (qmresult (qvdenote (qenv_secondary_bip [[(1 # 1)%Q; (0 # 1)%Q; (3 # 1)%Q; (2 # 1)%Q; (1 # 1)%Q; (4 # 1)%Q; (0 # 1)%Q; (3 # 1)%Q]] 1 8 [(2)%Z] [(2)%Z; (0)%Z; (2)%Z; (1)%Z; (1)%Z; (0)%Z; (0)%Z; (1)%Z]) src_secondary_probs_row)), map (map qz3) (qmresult (qvdenote (qenv_secondary_bip [[(1 # 1)%Q; (0 # 1)%Q; (3 # 1)%Q; (2 # 1)%Q; (1 # 1)%Q; (4 # 1)%Q; (0 # 1)%Q; (3 # 1)%Q]] 1 8 [(2)%Z] [(2)%Z; (0)%Z; (2)%Z; (1)%Z; (1)%Z; (0)%Z; (0)%Z; (1)%Z]) src_secondary_probs_col)), map (map qz3) (qmresult (qvdenote (qenv_secondary_bip [[(1 # 1)%Q; (0 # 1)%Q; (3 # 1)%Q; (2 # 1)%Q; (1 # 1)%Q; (4 # 1)%Q; (0 # 1)%Q; (3 # 1)%Q]] 1 8 [(2)%Z] [(2)%Z; (0)%Z; (2)%Z; (1)%Z; (1)%Z; (0)%Z; (0)%Z; (1)%Z]) src_secondary_aggregate_bip)));
(map (map qz3) (qmresult (qvdenote (qenv_secondary_bip [[(2 # 1)%Q]; [(5 # 1)%Q]; [(0 # 1)%Q]; [(3 # 1)%Q]; [(1 # 1)%Q]; [(0 # 1)%Q]; [(5 # 1)%Q]] 7 1 [(0)%Z; (0)%Z; (1)%Z; (1)%Z; (1)%Z; (0)%Z; (1)%Z] [(0)%Z]) src_secondary_probs_row)), map (map qz3) (qmresult (qvdenote (qenv_secondary_bip [[(2 # 1)%Q]; [(5 # 1)%Q]; [(0 # 1)%Q]; [(3 # 1)%Q]; [(1 # 1)%Q]; [(0 # 1)%Q]; [(5 # 1)%Q]] 7 1 [(0)%Z; (0)%Z; (1)%Z; (1)%Z; (1)%Z; (0)%Z; (1)%Z] [(0)%Z]) src_secondary_probs_col)), map (map qz3) (qmresult (qvdenote (qenv_secondary_bip [[(2 # 1)%Q]; [(5 # 1)%Q]; [(0 # 1)%Q]; [(3 # 1)%Q]; [(1 # 1)%Q]; [(0 # 1)%Q]; [(5 # 1)%Q]] 7 1 [(0)%Z; (0)%Z; (1)%Z; (1)%Z; (1)%Z; (0)%Z; (1)%Z] [(0)%Z]) src_secondary_aggregate_bip)));
(map (map qz3) (qmresult (qvdenote (qenv_secondary_bip [[(1 # 1)%Q; (0 # 1)%Q; (0 # 1)%Q; (1 # 2)%Q]; [(3 # 1)%Q; (0 # 1)%Q; (0 # 1)%Q; (3 # 2)%Q]] 2 4 [(2)%Z; (1)%Z] [(0)%Z; (1)%Z; (3)%Z; (0)%Z]) src_secondary_probs_row)), map (map qz3) (qmresult (qvdenote (qenv_secondary_bip [[(1 # 1)%Q; (0 # 1)%Q; (0 # 1)%Q; (1 # 2)%Q]; [(3 # 1)%Q; (0 # 1)%Q; (0 # 1)%Q; (3 # 2)%Q]] 2 4 [(2)%Z; (1)%Z] [(0)%Z; (1)%Z; (3)%Z; (0)%Z]) src_secondary_probs_col)), map (map qz3) (qmresult (qvdenote (qenv_secondary_bip [[(1 # 1)%Q; (0 # 1)%Q; (0 # 1)%Q; (1 # 2)%Q]; [(3 # 1)%Q; (0 # 1)%Q; (0 # 1)%Q; (3 # 2)%Q]] 2 4 [(2)%Z; (1)%Z] [(0)%Z; (1)%Z; (3)%Z; (0)%Z]) src_secondary_aggregate_bip)));
(map (map qz3) (qmresult (qvdenote (qenv_secondary_bip [[(0 # 1)%Q; (1 # 1)%Q; (1 # 1)%Q]; [(0 # 1)%Q; (1 # 1)%Q; (0 # 1)%Q]; [(1 # 1)%Q; (1 # 1)%Q; (0 # 1)%Q]; [(1 # 1)%Q; (1 # 1)%Q; (1 # 1)%Q]; [(1 # 1)%Q; (0 # 1)%Q; (0 # 1)%Q]] 5 3 [(1)%Z; (3)%Z; (0)%Z; (2)%Z; (1)%Z] [(1)%Z; (0)%Z; (0)%Z]) src_secondary_probs_row)), map (map qz3) (qmresult (qvdenote (qenv_secondary_bip [[(0 # 1)%Q; (1 # 1)%Q; (1 # 1)%Q]; [(0 # 1)%Q; (1 # 1)%Q; (0 # 1)%Q]; [(1 # 1)%Q; (1 # 1)%Q; (0 # 1)%Q]; [(1 # 1)%Q; (1 # 1)%Q; (1 # 1)%Q]; [(1 # 1)%Q; (0 # 1)%Q; (0 # 1)%Q]] 5 3 [(1)%Z; (3)%Z; (0)%Z; (2)%Z; (1)%Z] [(1)%Z; (0)%Z; (0)%Z]) src_secondary_probs_col)), map (map qz3) (qmresult (qvdenote (qenv_secondary_bip [[(0 # 1)%Q; (1 # 1)%Q; (1 # 1)%Q]; [(0 # 1)%Q; (1 # 1)%Q; (0 # 1)%Q]; [(1 # 1)%Q; (1 # 1)%Q; (0 # 1)%Q]; [(1 # 1)%Q; (1 # 1)%Q; (1 # 1)%Q]; [(1 # 1)%Q; (0 # 1)%Q; (0 # 1)%Q]] 5 3 [(1)%Z; (3)%Z; (0)%Z; (2)%Z; (1)%Z] [(1)%Z; (0)%Z; (0)%Z]) src_secondary_aggregate_bip)));
(map (map qz3) (qmresult (qvdenote (qenv_secondary_bip [[(0 # 1)%Q]; [(0 # 1)%Q]; [(2 # 1)%Q]; [(0 # 1)%Q]; [(1 # 1)%Q]; [(5 # 1)%Q]; [(1 # 1)%Q]] 7 1 [(1)%Z; (0)%Z; (1)%Z; (1)%Z; (0)%Z; (0)%Z; (0)%Z] [(0)%Z]) src_secondary_probs_row)), map (map qz3) (qmresult (qvdenote (qenv_secondary_bip [[(0 # 1)%Q]; [(0 # 1)%Q]; [(2 # 1)%Q]; [(0 # 1)%Q]; [(1 # 1)%Q]; [(5 # 1)%Q]; [(1 # 1)%Q]] 7 1 [(1)%Z; (0)%Z; (1)%Z; (1)%Z; (0)%Z; (0)%Z; (0)%Z] [(0)%Z]) src_secondary_probs_col)), map (map qz3) (qmresult (qvdenote (qenv_secondary_bip [[(0 # 1)%Q]; [(0 # 1)%Q]; [(2 # 1)%Q]; [(0 # 1)%Q]; [(1 # 1)%Q]; [(5 # 1)%Q]; [(1 # 1)%Q]] 7 1 [(1)%Z; (0)%Z; (1)%Z; (1)%Z; (0)%Z; (0)%Z; (0)%Z] [(0)%Z]) src_secondary_aggregate_bip)));
(map (map qz3) (qmresult (qvdenote (qenv_secondary_bip [[(2 # 1)%Q; (0 # 1)%Q; (0 # 1)%Q; (3 # 1)%Q]] 1 4 [(0)%Z] [(1)%Z; (2)%Z; (0)%Z; (0)%Z]) src_secondary_probs_row)), map (map qz3) (qmresult (qvdenote (qenv_secondary_bip [[(2 # 1)%Q; (0 # 1)%Q; (0 # 1)%Q; (3 # 1)%Q]] 1 4 [(0)%Z] [(1)%Z; (2)%Z; (0)%Z; (0)%Z]) src_secondary_probs_col)), map (map qz3) (qmresult (qvdenote (qenv_secondary_bip [[(2 # 1)%Q; (0 # 1)%Q; (0 # 1)%Q; (3 # 1)%Q]] 1 4 [(0)%Z] [(1)%Z; (2)%Z; (0)%Z; (0)%Z]) src_secondary_aggregate_bip)));
(map (map qz3) (qmresult (qvdenote (qenv_secondary_bip [[(1 # 1)%Q; (1 # 1)%Q; (1 # 1)%Q; (0 # 1)%Q; (1 # 1)%Q; (1 # 1)%Q; (1 # 1)%Q; (0 # 1)%Q]] 1 8 [(0)%Z] [(0)%Z; (1)%Z; (1)%Z; (1)%Z; (0)%Z; (0)%Z; (1)%Z; (0)%Z]) src_secondary_probs_row)), map (map qz3) (qmresult (qvdenote (qenv_secondary_bip [[(1 # 1)%Q; (1 # 1)%Q; (1 # 1)%Q; (0 # 1)%Q; (1 # 1)%Q; (1 # 1)%Q; (1 # 1)%Q; (0 # 1)%Q]] 1 8 [(0)%Z] [(0)%Z; (1)%Z; (1)%Z; (1)%Z; (0)%Z; (0)%Z; (1)%Z; (0)%Z]) src_secondary_probs_col)), map (map qz3) (qmresult (qvdenote (qenv_secondary_bip [[(1 # 1)%Q; (1 # 1)%Q; (1 # 1)%Q; (0 # 1)%Q; (1 # 1)%Q; (1 # 1)%Q; (1 # 1)%Q; (0 # 1)%Q]] 1 8 [(0)%Z] [(0)%Z; (1)%Z; (1)%Z; (1)%Z; (0)%Z; (0)%Z; (1)%Z; (0)%Z]) src_secondary_aggregate_bip)));
(map (map qz3) (qmresult (qvdenote (qenv_secondary_bip [[(0 # 1)%Q; (0 # 1)%Q; (1 # 1)%Q; (0 # 1)%Q; (1 # 1)%Q; (1 # 1)%Q]; [(1 # 1)%Q; (0 # 1)%Q; (0 # 1)%Q; (0 # 1)%Q; (0 # 1)%Q; (0 # 1)%Q]; [(1 # 1)%Q; (0 # 1)%Q; (1 # 1)%Q; (1 # 1)%Q; (1 # 1)%Q; (0 # 1)%Q]] 3 6 [(5)%Z; (4)%Z; (5)%Z] [(1)%Z; (3)%Z; (3)%Z; (2)%Z; (0)%Z; (1)%Z]) src_secondary_probs_row)), map (map qz3) (qmresult (qvdenote (qenv_secondary_bip [[(0 # 1)%Q; (0 # 1)%Q; (1 # 1)%Q; (0 # 1)%Q; (1 # 1)%Q; (1 # 1)%Q]; [(1 # 1)%Q; (0 # 1)%Q; (0 # 1)%Q; (0 # 1)%Q; (0 # 1)%Q; (0 # 1)%Q]; [(1 # 1)%Q; (0 # 1)%Q; (1 # 1)%Q; (1 # 1)%Q; (1 # 1)%Q; (0 # 1)%Q]] 3 6 [(5)%Z; (4)%Z; (5)%Z] [(1)%Z; (3)%Z; (3)%Z; (2)%Z; (0)%Z; (1)%Z]) src_secondary_probs_col)), map (map qz3) (qmresult (qvdenote (qenv_secondary_bip [[(0 # 1)%Q; (0 # 1)%Q; (1 # 1)%Q; (0 # 1)%Q; (1 # 1)%Q; (1 # 1)%Q]; [(1 # 1)%Q; (0 # 1)%Q; (0 # 1)%Q; (0 # 1)%Q; (0 # 1)%Q; (0 # 1)%Q]; [(1 # 1)%Q; (0 # 1)%Q; (1 # 1)%Q; (1 # 1)%Q; (1 # 1)%Q; (0 # 1)%Q]] 3 6 [(5)%Z; (4)%Z; (5)%Z] [(1)%Z; (3)%Z; (3)%Z; (2)%Z; (0)%Z; (1)%Z]) src_secondary_aggregate_bip)));
(map (map qz3) (qmresult (qvdenote (qenv_secondary_bip [[(0 # 1)%Q; (2 # 1)%Q; (0 # 1)%Q; (0 # 1)%Q]; [(1 # 1)%Q; (3 # 1)%Q; (0 # 1)%Q; (0 # 1)%Q]; [(0 # 1)%Q; (1 # 4)%Q; (0 # 1)%Q; (0 # 1)%Q]; [(0 # 1)%Q; (3 # 1)%Q; (0 # 1)%Q; (3 # 2)%Q]; [(0 # 1)%Q; (3 # 2)%Q; (0 # 1)%Q; (0 # 1)%Q]] 5 4 [(2)%Z; (4)%Z; (1)%Z; (0)%Z; (0)%Z] [(0)%Z; (3)%Z; (1)%Z; (1)%Z]) src_secondary_probs_row)), map (map qz3) (qmresult (qvdenote (qenv_secondary_bip [[(0 # 1)%Q; (2 # 1)%Q; (0 # 1)%Q; (0 # 1)%Q]; [(1 # 1)%Q; (3 # 1)%Q; (0 # 1)%Q; (0 # 1)%Q]; [(0 # 1)%Q; (1 # 4)%Q; (0 # 1)%Q; (0 # 1)%Q]; [(0 # 1)%Q; (3 # 1)%Q; (0 # 1)%Q; (3 # 2)%Q]; [(0 # 1)%Q; (3 # 2)%Q; (0 # 1)%Q; (0 # 1)%Q]] 5 4 [(2)%Z; (4)%Z; (1)%Z; (0)%Z; (0)%Z] [(0)%Z; (3)%Z; (1)%Z; (1)%Z]) src_secondary_probs_col)), map (map qz3) (qmresult (qvdenote (qenv_secondary_bip [[(0 # 1)%Q; (2 # 1)%Q; (0 # 1)%Q; (0 # 1)%Q]; [(1 # 1)%Q; (3 # 1)%Q; (0 # 1)%Q; (0 # 1)%Q]; [(0 # 1)%Q; (1 # 4)%Q; (0 # 1)%Q; (0 # 1)%Q]; [(0 # 1)%Q; (3 # 1)%Q; (0 # 1)%Q; (3 # 2)%Q]; [(0 # 1)%Q; (3 # 2)%Q; (0 # 1)%Q; (0 # 1)%Q]] 5 4 [(2)%Z; (4)%Z; (1)%Z; (0)%Z; (0)%Z] [(0)%Z; (3)%Z; (1)%Z; (1)%Z]) src_secondary_aggregate_bip)));
(map (map qz3) (qmresult (qvdenote (qenv_secondary_bip [[(3 # 2)%Q; (0 # 1)%Q]; [(3 # 2)%Q; (3 # 1)%Q]; [(2 # 1)%Q; (0 # 1)%Q]; [(1 # 1)%Q; (0 # 1)%Q]; [(3 # 1)%Q; (2 # 1)%Q]; [(0 # 1)%Q; (0 # 1)%Q]] 6 2 [(0)%Z; (1)%Z; (1)%Z; (1)%Z; (0)%Z; (0)%Z] [(0)%Z; (1)%Z]) src_secondary_probs_row)), map (map qz3) (qmresult (qvdenote (qenv_secondary_bip [[(3 # 2)%Q; (0 # 1)%Q]; [(3 # 2)%Q; (3 # 1)%Q]; [(2 # 1)%Q; (0 # 1)%Q]; [(1 # 1)%Q; (0 # 1)%Q]; [(3 # 1)%Q; (2 # 1)%Q]; [(0 # 1)%Q; (0 # 1)%Q]] 6 2 [(0)%Z; (1)%Z; (1)%Z; (1)%Z; (0)%Z; (0)%Z] [(0)%Z; (1)%Z]) src_secondary_probs_col)), map (map qz3) (qmresult (qvdenote (qenv_secondary_bip [[(3 # 2)%Q; (0 # 1)%Q]; [(3 # 2)%Q; (3 # 1)%Q]; [(2 # 1)%Q; (0 # 1)%Q]; [(1 # 1)%Q; (0 # 1)%Q]; [(3 # 1)%Q; (2 # 1)%Q]; [(0 # 1)%Q; (0 # 1)%Q]] 6 2 [(0)%Z; (1)%Z; (1)%Z; (1)%Z; (0)%Z; (0)%Z] [(0)%Z; (1)%Z]) src_secondary_aggregate_bip)));
(map (map qz3) (qmresult (qvdenote (qenv_secondary_bip [[(2 # 1)%Q; (2 # 1)%Q]; [(2 # 1)%Q; (1 # 1)%Q]; [(4 # 1)%Q; (5 # 1)%Q]; [(5 # 1)%Q; (0 # 1)%Q]; [(2 # 1)%Q; (0 # 1)%Q]] 5 2 [(3)%Z; (0)%Z; (0)%Z; (1)%Z; (0)%Z] [(0)%Z; (2)%Z]) src_secondary_probs_row)), map (map qz3) (qmresult (qvdenote (qenv_secondary_bip [[(2 # 1)%Q; (2 # 1)%Q]; [(2 # 1)%Q; (1 # 1)%Q]; [(4 # 1)%Q; (5 # 1)%Q]; [(5 # 1)%Q; (0 # 1)%Q]; [(2 # 1)%Q; (0 # 1)%Q]] 5 2 [(3)%Z; (0)%Z; (0)%Z; (1)%Z; (0)%Z] [(0)%Z; (2)%Z]) src_secondary_probs_col)), map (map qz3) (qmresult (qvdenote (qenv_secondary_bip [[(2 # 1)%Q; (2 # 1)%Q]; [(2 # 1)%Q; (1 # 1)%Q]; [(4 # 1)%Q; (5 # 1)%Q]; [(5 # 1)%Q; (0 # 1)%Q]; [(2 # 1)%Q; (0 # 1)%Q]] 5 2 [(3)%Z; (0)%Z; (0)%Z; (1)%Z; (0)%Z] [(0)%Z; (2)%Z]) src_secondary_aggregate_bip)));
(map (map qz3) (qmresult (qvdenote (qenv_secondary_bip [[(0 # 1)%Q; (0 # 1)%Q; (0 # 1)%Q]; [(0 # 1)%Q; (0 # 1)%Q; (0 # 1)%Q]; [(0 # 1)%Q; (1 # 2)%Q; (0 # 1)%Q]; [(0 # 1)%Q; (3 # 2)%Q; (0 # 1)%Q]; [(0 # 1)%Q; (0 # 1)%Q; (0 # 1)%Q]; [(0 # 1)%Q; (0 # 1)%Q; (1 # 1)%Q]] 6 3 [(0)%Z; (2)%Z; (1)%Z; (0)%Z; (1)%Z; (0)%Z] [(3)%Z; (2)%Z; (0)%Z]) src_secondary_probs_row)), map (map qz3) (qmresult (qvdenote (qenv_secondary_bip [[(0 # 1)%Q; (0 # 1)%Q; (0 # 1)%Q]; [(0 # 1)%Q; (0 # 1)%Q; (0 # 1)%Q]; [(0 # 1)%Q; (1 # 2)%Q; (0 # 1)%Q]; [(0 # 1)%Q; (3 # 2)%Q; (0 # 1)%Q]; [(0 # 1)%Q; (0 # 1)%Q; (0 # 1)%Q]; [(0 # 1)%Q; (0 # 1)%Q; (1 # 1)%Q]] 6 3 [(0)%Z; (2)%Z; (1)%Z; (0)%Z; (1)%Z; (0)%Z] [(3)%Z; (2)%Z; (0)%Z]) src_secondary_probs_col)), map (map qz3) (qmresult (qvdenote (qenv_secondary_bip [[(0 # 1)%Q; (0 # 1)%Q; (0 # 1)%Q]; [(0 # 1)%Q; (0 # 1)%Q; (0 # 1)%Q]; [(0 # 1)%Q; (1 # 2)%Q; (0 # 1)%Q]; [(0 # 1)%Q; (3 # 2)%Q; (0 # 1)%Q]; [(0 # 1)%Q; (0 # 1)%Q; (0 # 1)%Q]; [(0 # 1)%Q; (0 # 1)%Q; (1 # 1)%Q]] 6 3 [(0)%Z; (2)%Z; (1)%Z; (0)%Z; (1)%Z; (0)%Z] [(3)%Z; (2)%Z; (0)%Z]) src_secondary_aggregate_bip)));
(map (map qz3) (qmresult (qvdenote (qenv_secondary_bip [[(1 # 1)%Q]; [(3 # 1)%Q]; [(2 # 1)%Q]; [(0 # 1)%Q]; [(0 # 1)%Q]; [(1 # 1)%Q]] 6 1 [(1)%Z; (1)%Z; (2)%Z; (2)%Z; (3)%Z; (0)%Z] [(0)%Z]) src_secondary_probs_row)), map (map qz3) (qmresult (qvdenote (qenv_secondary_bip [[(1 # 1)%Q]; [(3 # 1)%Q]; [(2 # 1)%Q]; [(0 # 1)%Q]; [(0 # 1)%Q]; [(1 # 1)%Q]] 6 1 [(1)%Z; (1)%Z; (2)%Z; (2)%Z; (3)%Z; (0)%Z] [(0)%Z]) src_secondary_probs_col)), map (map qz3) (qmresult (qvdenote (qenv_secondary_bip [[(1 # 1)%Q]; [(3 # 1)%Q]; [(2 # 1)%Q]; [(0 # 1)%Q]; [(0 # 1)%Q]; [(1 # 1)%Q]] 6 1 [(1)%Z; (1)%Z; (2)%Z; (2)%Z; (3)%Z; (0)%Z] [(0)%Z]) src_secondary_aggregate_bip)));
(map (map qz3) (qmresult (qvdenote (qenv_secondary_bip [[(1 # 1)%Q; (5 # 1)%Q; (4 # 1)%Q]; [(4 # 1)%Q; (0 # 1)%Q; (5 # 1)%Q]; [(0 # 1)%Q; (0 # 1)%Q; (5 # 1)%Q]; [(2 # 1)%Q; (0 # 1)%Q; (4 # 1)%Q]] 4 3 [(2)%Z; (0)%Z; (1)%Z; (0)%Z] [(0)%Z; (1)%Z; (1)%Z]) src_secondary_probs_row)), map (map qz3) (qmresult (qvdenote (qenv_secondary_bip [[(1 # 1)%Q; (5 # 1)%Q; (4 # 1)%Q]; [(4 # 1)%Q; (0 # 1)%Q; (5 # 1)%Q]; [(0 # 1)%Q; (0 # 1)%Q; (5 # 1)%Q]; [(2 # 1)%Q; (0 # 1)%Q; (4 # 1)%Q]] 4 3 [(2)%Z; (0)%Z; (1)%Z; (0)%Z] [(0)%Z; (1)%Z; (1)%Z]) src_secondary_probs_col)), map (map qz3) (qmresult (qvdenote (qenv_secondary_bip [[(1 # 1)%Q; (5 # 1)%Q; (4 # 1)%Q]; [(4 # 1)%Q; (0 # 1)%Q; (5 # 1)%Q]; [(0 # 1)%Q; (0 # 1)%Q; (5 # 1)%Q]; [(2 # 1)%Q; (0 # 1)%Q; (4 # 1)%Q]] 4 3 [(2)%Z; (0)%Z; (1)%Z; (0)%Z] [(0)%Z; (1)%Z; (1)%Z]) src_secondary_aggregate_bip)));
(map (map qz3) (qmresult (qvdenote (qenv_secondary_bip [[(0 # 1)%Q; (0 # 1)%Q; (0 # 1)%Q; (0 # 1)%Q; (0 # 1)%Q]; [(0 # 1)%Q; (0 # 1)%Q; (3 # 1)%Q; (0 # 1)%Q; (0 # 1)%Q]] 2 5 [(0)%Z; (2)%Z] [(0)%Z; (2)%Z; (0)%Z; (1)%Z; (1)%Z]) src_secondary_probs_row)), map (map qz3) (qmresult (qvdenote (qenv_secondary_bip [[(0 # 1)%Q; (0 # 1)%Q; (0 # 1)%Q; (0 # 1)%Q; (0 # 1)%Q]; [(0 # 1)%Q; (0 # 1)%Q; (3 # 1)%Q; (0 # 1)%Q; (0 # 1)%Q]] 2 5 [(0)%Z; (2)%Z] [(0)%Z; (2)%Z; (0)%Z; (1)%Z; (1)%Z]) src_secondary_probs_col)), map (map qz3) (qmresult (qvdenote (qenv_secondary_bip [[(0 # 1)%Q; (0 # 1)%Q; (0 # 1)%Q; (0 # 1)%Q; (0 # 1)%Q]; [(0 # 1)%Q; (0 # 1)%Q; (3 # 1)%Q; (0 # 1)%Q; (0 # 1)%Q]] 2 5 [(0)%Z; (2)%Z] [(0)%Z; (2)%Z; (0)%Z; (1)%Z; (1)%Z]) src_secondary_aggregate_bip)));
(map (map qz3) (qmresult (qvdenote (qenv_secondary_bip [[(0 # 1)%Q; (0 # 1)%Q; (5 # 1)%Q; (0 # 1)%Q; (5 # 1)%Q; (0 # 1)%Q; (2 # 1)%Q; (0 # 1)%Q]] 1 8 [(0)%Z] [(0)%Z; (0)%Z; (0)%Z; (0)%Z; (0)%Z; (1)%Z; (1)%Z; (0)%Z]) src_secondary_probs_row)), map (map qz3) (qmresult (qvdenote (qenv_secondary_bip [[(0 # 1)%Q; (0 # 1)%Q; (5 # 1)%Q; (0 # 1)%Q; (5 # 1)%Q; (0 # 1)%Q; (2 # 1)%Q; (0 # 1)%Q]] 1 8 [(0)%Z] [(0)%Z; (0)%Z; (0)%Z; (0)%Z; (0)%Z; (1)%Z; (1)%Z; (0)%Z]) src_secondary_probs_col)), map (map qz3) (qmresult (qvdenote (qenv_secondary_bip [[(0 # 1)%Q; (0 # 1)%Q; (5 # 1)%Q; (0 # 1)%Q; (5 # 1)%Q; (0 # 1)%Q; (2 # 1)%Q; (0 # 1)%Q]] 1 8 [(0)%Z] [(0)%Z; (0)%Z; (0)%Z; (0)%Z; (0)%Z; (1)%Z; (1)%Z; (0)%Z]) src_secondary_aggregate_bip)));
(map (map qz3) (qmresult (qvdenote (qenv_secondary_bip [[(0 # 1)%Q; (3 # 1)%Q; (2 # 1)%Q]; [(1 # 1)%Q; (1 # 2)%Q; (0 # 1)%Q]; [(0 # 1)%Q; (0 # 1)%Q; (0 # 1)%Q]; [(0 # 1)%Q; (1 # 1)%Q; (1 # 2)%Q]] 4 3 [(0)%Z; (0)%Z; (1)%Z; (0)%Z] [(1)%Z; (0)%Z; (1)%Z]) src_secondary_probs_row)), map (map qz3) (qmresult (qvdenote (qenv_secondary_bip [[(0 # 1)%Q; (3 # 1)%Q; (2 # 1)%Q]; [(1 # 1)%Q; (1 # 2)%Q; (0 # 1)%Q]; [(0 # 1)%Q; (0 # 1)%Q; (0 # 1)%Q]; [(0 # 1)%Q; (1 # 1)%Q; (1 # 2)%Q]] 4 3 [(0)%Z; (0)%Z; (1)%Z; (0)%Z] [(1)%Z; (0)%Z; (1)%Z]) src_secondary_probs_col)), map (map qz3) (qmresult (qvdenote (qenv_secondary_bip [[(0 # 1)%Q; (3 # 1)%Q; (2 # 1)%Q]; [(1 # 1)%Q; (1 # 2)%Q; (0 # 1)%Q]; [(0 # 1)%Q; (0 # 1)%Q; (0 # 1)%Q]; [(0 # 1)%Q; (1 # 1)%Q; (1 # 2)%Q]] 4 3 [(0)%Z; (0)%Z; (1)%Z; (0)%Z] [(1)%Z; (0)%Z; (1)%Z]) src_secondary_aggregate_bip)));
(map (map qz3) (qmresult (qvdenote (qenv_secondary_bip [[(1 # 1)%Q]; [(1 # 1)%Q]; [(0 # 1)%Q]; [(0 # 1)%Q]; [(0 # 1)%Q]; [(0 # 1)%Q]] 6 1 [(1)%Z; (0)%Z; (1)%Z; (0)%Z; (0)%Z; (0)%Z] [(1)%Z]) src_secondary_probs_row)), map (map qz3) (qmresult (qvdenote (qenv_secondary_bip [[(1 # 1)%Q]; [(1 # 1)%Q]; [(0 # 1)%Q]; [(0 # 1)%Q]; [(0 # 1)%Q]; [(0 # 1)%Q]] 6 1 [(1)%Z; (0)%Z; (1)%Z; (0)%Z; (0)%Z; (0)%Z] [(1)%Z]) src_secondary_probs_col)), map (map qz3) (qmresult (qvdenote (qenv_secondary_bip [[(1 # 1)%Q]; [(1 # 1)%Q]; [(0 # 1)%Q]; [(0 # 1)%Q]; [(0 # 1)%Q]; [(0 # 1)%Q]] 6 1 [(1)%Z; (0)%Z; (1)%Z; (0)%Z; (0)%Z; (0)%Z] [(1)%Z]) src_secondary_aggregate_bip)));
(map (map qz3) (qmresult (qvdenote (qenv_secondary_bip [[(5 # 1)%Q; (0 # 1)%Q]; [(3 # 1)%Q; (2 # 1)%Q]; [(2 # 1)%Q; (2 # 1)%Q]; [(2 # 1)%Q; (2 # 1)%Q]] 4 2 [(0)%Z; (1)%Z; (0)%Z; (2)%Z] [(2)%Z; (1)%Z]) src_secondary_probs_row)), map (map qz3) (qmresult (qvdenote (qenv_secondary_bip [[(5 # 1)%Q; (0 # 1)%Q]; [(3 # 1)%Q; (2 # 1)%Q]; [(2 # 1)%Q; (2 # 1)%Q]; [(2 # 1)%Q; (2 # 1)%Q]] 4 2 [(0)%Z; (1)%Z; (0)%Z; (2)%Z] [(2)%Z; (1)%Z]) src_secondary_probs_col)), map (map qz3) (qmresult (qvdenote (qenv_secondary_bip [[(5 # 1)%Q; (0 # 1)%Q]; [(3 # 1)%Q; (2 # 1)%Q]; [(2 # 1)%Q; (2 # 1)%Q]; [(2 # 1)%Q; (2 # 1)%Q]] 4 2 [(0)%Z; (1)%Z; (0)%Z; (2)%Z] [(2)%Z; (1)%Z]) src_secondary_aggregate_bip)));
(map (map qz3) (qmresult (qvdenote (qenv_secondary_bip [[(0 # 1)%Q; (0 # 1)%Q; (1 # 2)%Q]; [(3 # 2)%Q; (1 # 1)%Q; (3 # 1)%Q]; [(1 # 1)%Q; (2 # 1)%Q; (1 # 2)%Q]; [(3 # 1)%Q; (0 # 1)%Q; (2 # 1)%Q]; [(0 # 1)%Q; (1 # 4)%Q; (0 # 1)%Q]; [(1 # 2)%Q; (1 # 4)%Q; (0 # 1)%Q]] 6 3 [(2)%Z; (2)%Z; (1)%Z; (0)%Z; (3)%Z; (0)%Z] [(0)%Z; (3)%Z; (1)%Z]) src_secondary_probs_row)), map (map qz3) (qmresult (qvdenote (qenv_secondary_bip [[(0 # 1)%Q; (0 # 1)%Q; (1 # 2)%Q]; [(3 # 2)%Q; (1 # 1)%Q; (3 # 1)%Q]; [(1 # 1)%Q; (2 # 1)%Q; (1 # 2)%Q]; [(3 # 1)%Q; (0 # 1)%Q; (2 # 1)%Q]; [(0 # 1)%Q; (1 # 4)%Q; (0 # 1)%Q]; [(1 # 2)%Q; (1 # 4)%Q; (0 # 1)%Q]] 6 3 [(2)%Z; (2)%Z; (1)%Z; (0)%Z; (3)%Z; (0)%Z] [(0)%Z; (3)%Z; (1)%Z]) src_secondary_probs_col)), map (map qz3) (qmresult (qvdenote (qenv_secondary_bip [[(0 # 1)%Q; (0 # 1)%Q; (1 # 2)%Q]; [(3 # 2)%Q; (1 # 1)%Q; (3 # 1)%Q]; [(1 # 1)%Q; (2 # 1)%Q; (1 # 2)%Q]; [(3 # 1)%Q; (0 # 1)%Q; (2 # 1)%Q]; [(0 # 1)%Q; (1 # 4)%Q; (0 # 1)%Q]; [(1 # 2)%Q; (1 # 4)%Q; (0 # 1)%Q]] 6 3 [(2)%Z; (2)%Z; (1)%Z; (0)%Z; (3)%Z; (0)%Z] [(0)%Z; (3)%Z; (1)%Z]) src_secondary_aggregate_bip)))
].
Eval vm_compute in the_cases.
