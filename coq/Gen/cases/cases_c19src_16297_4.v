From SKN Require Import Base.Util Model.Gnn Model.NpExpr Gen.NpGnn.
Set Printing Depth 10000000.
Set Printing Width 1000000.
Definition qout (q : Q) : Z * Z := let r := Qred q in (Qnum r, Zpos (Qden r)).
Definition mout (m : list (list Q)) : list (list (Z * Z)) := map (map qout) m.

Definition the_cases := [
mout (qresult (qdenote [((-3191926235898839 # 1125899906842624)%Q, (4231115697042753 # 72057594037927936)%Q); ((-3108609642792485 # 1125899906842624)%Q, (2278047088708759 # 36028797018963968)%Q); ((-5615988735331009 # 2251799813685248)%Q, (2975221636499435 # 36028797018963968)%Q); ((-4649966615260037 # 2251799813685248)%Q, (285569403072893 # 2251799813685248)%Q); ((-8705458079707169 # 4503599627370496)%Q, (651731243149313 # 4503599627370496)%Q); ((-7075155014599049 # 4503599627370496)%Q, (3744062887414193 # 18014398509481984)%Q); ((-658651445502935 # 562949953421312)%Q, (1397768441031359 # 4503599627370496)%Q); ((-4584664420663165 # 4503599627370496)%Q, (6508905755153647 # 18014398509481984)%Q); ((-1823957849085051 # 2251799813685248)%Q, (2003462621274397 # 4503599627370496)%Q); ((-7998392938210001 # 18014398509481984)%Q, (180556464388061 # 281474976710656)%Q); ((-1224979098644775 # 4503599627370496)%Q, (3431086566354817 # 4503599627370496)%Q); ((8124493727776375 # 9007199254740992)%Q, (2774810989776911 # 1125899906842624)%Q); ((607985949695017 # 562949953421312)%Q, (6630828864452107 # 2251799813685248)%Q); ((1449033180106457 # 1125899906842624)%Q, (8155803939736849 # 2251799813685248)%Q); ((7183241405655941 # 4503599627370496)%Q, (2774402621594359 # 562949953421312)%Q)] [] (qenv_s [[(-1823957849085051 # 2251799813685248)%Q; (-3108609642792485 # 1125899906842624)%Q; (607985949695017 # 562949953421312)%Q]; [(8124493727776375 # 9007199254740992)%Q; (-1224979098644775 # 4503599627370496)%Q; (-658651445502935 # 562949953421312)%Q]; [(-4649966615260037 # 2251799813685248)%Q; (-5615988735331009 # 2251799813685248)%Q; (1449033180106457 # 1125899906842624)%Q]; [(-7998392938210001 # 18014398509481984)%Q; (-3191926235898839 # 1125899906842624)%Q; (-8705458079707169 # 4503599627370496)%Q]; [(-4584664420663165 # 4503599627370496)%Q; (7183241405655941 # 4503599627370496)%Q; (-7075155014599049 # 4503599627370496)%Q]] 5 3) src_softmax_output));
mout (qresult (qdenote [((-3191926235898839 # 1125899906842624)%Q, (4231115697042753 # 72057594037927936)%Q); ((-3108609642792485 # 1125899906842624)%Q, (2278047088708759 # 36028797018963968)%Q); ((-5615988735331009 # 2251799813685248)%Q, (2975221636499435 # 36028797018963968)%Q); ((-4649966615260037 # 2251799813685248)%Q, (285569403072893 # 2251799813685248)%Q); ((-8705458079707169 # 4503599627370496)%Q, (651731243149313 # 4503599627370496)%Q); ((-7075155014599049 # 4503599627370496)%Q, (3744062887414193 # 18014398509481984)%Q); ((-658651445502935 # 562949953421312)%Q, (1397768441031359 # 4503599627370496)%Q); ((-4584664420663165 # 4503599627370496)%Q, (6508905755153647 # 18014398509481984)%Q); ((-1823957849085051 # 2251799813685248)%Q, (2003462621274397 # 4503599627370496)%Q); ((-7998392938210001 # 18014398509481984)%Q, (180556464388061 # 281474976710656)%Q); ((-1224979098644775 # 4503599627370496)%Q, (3431086566354817 # 4503599627370496)%Q); ((8124493727776375 # 9007199254740992)%Q, (2774810989776911 # 1125899906842624)%Q); ((607985949695017 # 562949953421312)%Q, (6630828864452107 # 2251799813685248)%Q); ((1449033180106457 # 1125899906842624)%Q, (8155803939736849 # 2251799813685248)%Q); ((7183241405655941 # 4503599627370496)%Q, (2774402621594359 # 562949953421312)%Q)] [] (qenv_sd [[(-1823957849085051 # 2251799813685248)%Q; (-3108609642792485 # 1125899906842624)%Q; (607985949695017 # 562949953421312)%Q]; [(8124493727776375 # 9007199254740992)%Q; (-1224979098644775 # 4503599627370496)%Q; (-658651445502935 # 562949953421312)%Q]; [(-4649966615260037 # 2251799813685248)%Q; (-5615988735331009 # 2251799813685248)%Q; (1449033180106457 # 1125899906842624)%Q]; [(-7998392938210001 # 18014398509481984)%Q; (-3191926235898839 # 1125899906842624)%Q; (-8705458079707169 # 4503599627370496)%Q]; [(-4584664420663165 # 4503599627370496)%Q; (7183241405655941 # 4503599627370496)%Q; (-7075155014599049 # 4503599627370496)%Q]] [[(8034421735228965 # 9007199254740992)%Q; (-7457960982925541 # 4503599627370496)%Q; (5404319552844595 # 9007199254740992)%Q]; [(2661627379775963 # 2251799813685248)%Q; (-3422735716801577 # 18014398509481984)%Q; (-8286623314361713 # 9007199254740992)%Q]; [(1170935903116329 # 2251799813685248)%Q; (3440750115311059 # 9007199254740992)%Q; (360006495212929 # 281474976710656)%Q]; [(606297099834753 # 562949953421312)%Q; (1170935903116329 # 9007199254740992)%Q; (-4841369599423283 # 4503599627370496)%Q]; [(6458161865649291 # 9007199254740992)%Q; (-2210141517132071 # 1125899906842624)%Q; (1188950301625811 # 2251799813685248)%Q]] 5 3) src_softmax_gradient));
mout (qresult (qdenote [((-6136154492292301 # 2251799813685248)%Q, (2361550833091563 # 36028797018963968)%Q); ((-3949656873203925 # 2251799813685248)%Q, (3117936345715605 # 18014398509481984)%Q); ((5980780305148019 # 18014398509481984)%Q, (6276904809207537 # 4503599627370496)%Q)] [] (qenv_s [[(5980780305148019 # 18014398509481984)%Q; (-3949656873203925 # 2251799813685248)%Q; (-6136154492292301 # 2251799813685248)%Q]] 1 3) src_softmax_output));
mout (qresult (qdenote [((-6136154492292301 # 2251799813685248)%Q, (2361550833091563 # 36028797018963968)%Q); ((-3949656873203925 # 2251799813685248)%Q, (3117936345715605 # 18014398509481984)%Q); ((5980780305148019 # 18014398509481984)%Q, (6276904809207537 # 4503599627370496)%Q)] [] (qenv_sd [[(5980780305148019 # 18014398509481984)%Q; (-3949656873203925 # 2251799813685248)%Q; (-6136154492292301 # 2251799813685248)%Q]] [[(-7196752204538053 # 9007199254740992)%Q; (-5818650718562681 # 4503599627370496)%Q; (255297803876565 # 281474976710656)%Q]] 1 3) src_softmax_gradient));
mout (qresult (qdenote [((-712694641031381 # 281474976710656)%Q, (2864284371477499 # 36028797018963968)%Q); ((-3386706919782613 # 2251799813685248)%Q, (8007019031026667 # 36028797018963968)%Q); ((-5661024731604713 # 4503599627370496)%Q, (5125209259569221 # 18014398509481984)%Q); ((-5057542381537067 # 4503599627370496)%Q, (732515933320963 # 2251799813685248)%Q); ((-2033375231757779 # 2251799813685248)%Q, (7302168474365995 # 18014398509481984)%Q); ((-6962565023914787 # 9007199254740992)%Q, (8315916718426247 # 18014398509481984)%Q); ((8142508126285857 # 9007199254740992)%Q, (2780366165080043 # 1125899906842624)%Q); ((605452674904621 # 281474976710656)%Q, (4837680897683167 # 562949953421312)%Q); ((6487435263227199 # 2251799813685248)%Q, (1254822227112235 # 70368744177664)%Q)] [] (qenv_s [[(-3386706919782613 # 2251799813685248)%Q; (-5057542381537067 # 4503599627370496)%Q; (-712694641031381 # 281474976710656)%Q]; [(-5661024731604713 # 4503599627370496)%Q; (8142508126285857 # 9007199254740992)%Q; (6487435263227199 # 2251799813685248)%Q]; [(-6962565023914787 # 9007199254740992)%Q; (-2033375231757779 # 2251799813685248)%Q; (605452674904621 # 281474976710656)%Q]] 3 3) src_softmax_output));
mout (qresult (qdenote [((-712694641031381 # 281474976710656)%Q, (2864284371477499 # 36028797018963968)%Q); ((-3386706919782613 # 2251799813685248)%Q, (8007019031026667 # 36028797018963968)%Q); ((-5661024731604713 # 4503599627370496)%Q, (5125209259569221 # 18014398509481984)%Q); ((-5057542381537067 # 4503599627370496)%Q, (732515933320963 # 2251799813685248)%Q); ((-2033375231757779 # 2251799813685248)%Q, (7302168474365995 # 18014398509481984)%Q); ((-6962565023914787 # 9007199254740992)%Q, (8315916718426247 # 18014398509481984)%Q); ((8142508126285857 # 9007199254740992)%Q, (2780366165080043 # 1125899906842624)%Q); ((605452674904621 # 281474976710656)%Q, (4837680897683167 # 562949953421312)%Q); ((6487435263227199 # 2251799813685248)%Q, (1254822227112235 # 70368744177664)%Q)] [] (qenv_sd [[(-3386706919782613 # 2251799813685248)%Q; (-5057542381537067 # 4503599627370496)%Q; (-712694641031381 # 281474976710656)%Q]; [(-5661024731604713 # 4503599627370496)%Q; (8142508126285857 # 9007199254740992)%Q; (6487435263227199 # 2251799813685248)%Q]; [(-6962565023914787 # 9007199254740992)%Q; (-2033375231757779 # 2251799813685248)%Q; (605452674904621 # 281474976710656)%Q]] [[(-2470224395612717 # 2251799813685248)%Q; (-3242591731706757 # 9007199254740992)%Q; (-4350477240039899 # 4503599627370496)%Q]; [(7421932185906577 # 72057594037927936)%Q; (6944550625405305 # 4503599627370496)%Q; (1805943450575569 # 4503599627370496)%Q]; [(1206964700135293 # 4503599627370496)%Q; (-5764607523034235 # 1152921504606846976)%Q; (-1134907106097365 # 18014398509481984)%Q]] 3 3) src_softmax_gradient));
mout (qresult (qdenote [((-2455587696823763 # 1125899906842624)%Q, (4068679647492165 # 36028797018963968)%Q); ((-4667981013769519 # 2251799813685248)%Q, (4532703387988455 # 36028797018963968)%Q); ((-536772780587221 # 281474976710656)%Q, (5351187697949131 # 36028797018963968)%Q); ((-5890708312600609 # 4503599627370496)%Q, (4870377041383923 # 18014398509481984)%Q); ((-922112023704109 # 1125899906842624)%Q, (1985512355045093 # 4503599627370496)%Q); ((-7692148163548807 # 18014398509481984)%Q, (5876869221372805 # 9007199254740992)%Q); ((8178536923304821 # 36028797018963968)%Q, (5651251325669211 # 4503599627370496)%Q); ((7998392938210001 # 18014398509481984)%Q, (1755199688535841 # 1125899906842624)%Q); ((2116691824864133 # 4503599627370496)%Q, (7205733252368661 # 4503599627370496)%Q); ((5368290755825631 # 9007199254740992)%Q, (4086667368782909 # 2251799813685248)%Q); ((3686196295002751 # 2251799813685248)%Q, (5786818351784801 # 1125899906842624)%Q); ((3830311483078607 # 2251799813685248)%Q, (6169283057851359 # 1125899906842624)%Q)] [] (qenv_s [[(-922112023704109 # 1125899906842624)%Q; (3686196295002751 # 2251799813685248)%Q; (8178536923304821 # 36028797018963968)%Q]; [(3830311483078607 # 2251799813685248)%Q; (5368290755825631 # 9007199254740992)%Q; (-536772780587221 # 281474976710656)%Q]; [(-7692148163548807 # 18014398509481984)%Q; (2116691824864133 # 4503599627370496)%Q; (-4667981013769519 # 2251799813685248)%Q]; [(-5890708312600609 # 4503599627370496)%Q; (-2455587696823763 # 1125899906842624)%Q; (7998392938210001 # 18014398509481984)%Q]] 4 3) src_softmax_output));
mout (qresult (qdenote [((-2455587696823763 # 1125899906842624)%Q, (4068679647492165 # 36028797018963968)%Q); ((-4667981013769519 # 2251799813685248)%Q, (4532703387988455 # 36028797018963968)%Q); ((-536772780587221 # 281474976710656)%Q, (5351187697949131 # 36028797018963968)%Q); ((-5890708312600609 # 4503599627370496)%Q, (4870377041383923 # 18014398509481984)%Q); ((-922112023704109 # 1125899906842624)%Q, (1985512355045093 # 4503599627370496)%Q); ((-7692148163548807 # 18014398509481984)%Q, (5876869221372805 # 9007199254740992)%Q); ((8178536923304821 # 36028797018963968)%Q, (5651251325669211 # 4503599627370496)%Q); ((7998392938210001 # 18014398509481984)%Q, (1755199688535841 # 1125899906842624)%Q); ((2116691824864133 # 4503599627370496)%Q, (7205733252368661 # 4503599627370496)%Q); ((5368290755825631 # 9007199254740992)%Q, (4086667368782909 # 2251799813685248)%Q); ((3686196295002751 # 2251799813685248)%Q, (5786818351784801 # 1125899906842624)%Q); ((3830311483078607 # 2251799813685248)%Q, (6169283057851359 # 1125899906842624)%Q)] [] (qenv_sd [[(-922112023704109 # 1125899906842624)%Q; (3686196295002751 # 2251799813685248)%Q; (8178536923304821 # 36028797018963968)%Q]; [(3830311483078607 # 2251799813685248)%Q; (5368290755825631 # 9007199254740992)%Q; (-536772780587221 # 281474976710656)%Q]; [(-7692148163548807 # 18014398509481984)%Q; (2116691824864133 # 4503599627370496)%Q; (-4667981013769519 # 2251799813685248)%Q]; [(-5890708312600609 # 4503599627370496)%Q; (-2455587696823763 # 1125899906842624)%Q; (7998392938210001 # 18014398509481984)%Q]] [[(5638506733467861 # 9007199254740992)%Q; (-308496574474879 # 562949953421312)%Q; (-1242993497154257 # 9007199254740992)%Q]; [(7602076171001397 # 9007199254740992)%Q; (607985949695017 # 562949953421312)%Q; (8128997327403745 # 4503599627370496)%Q]; [(-8872091265919877 # 4503599627370496)%Q; (7214766603047535 # 4503599627370496)%Q; (-2632353982198055 # 2251799813685248)%Q]; [(-1152921504606847 # 9007199254740992)%Q; (-5890708312600609 # 18014398509481984)%Q; (8142508126285857 # 72057594037927936)%Q]] 4 3) src_softmax_gradient));
mout (qresult (qdenote [((-6723874243664151 # 2251799813685248)%Q, (1819057547431525 # 36028797018963968)%Q); ((-5010254585449677 # 2251799813685248)%Q, (7787078180715335 # 72057594037927936)%Q); ((-4242390848983007 # 2251799813685248)%Q, (5475691318148049 # 36028797018963968)%Q); ((-6579759055588295 # 4503599627370496)%Q, (4179415295639385 # 18014398509481984)%Q); ((-6088866696204911 # 4503599627370496)%Q, (4660726584138213 # 18014398509481984)%Q); ((-5615988735331009 # 4503599627370496)%Q, (20221556519411 # 70368744177664)%Q); ((-4494592428115755 # 9007199254740992)%Q, (1367152095282335 # 2251799813685248)%Q); ((-535928355657089 # 2251799813685248)%Q, (7099498691804653 # 9007199254740992)%Q); ((-8286623314361713 # 72057594037927936)%Q, (8028712467098963 # 9007199254740992)%Q); ((-7926335344172073 # 72057594037927936)%Q, (4034478277907215 # 4503599627370496)%Q); ((342836521633579 # 281474976710656)%Q, (3806014707221657 # 1125899906842624)%Q); ((1169247053256065 # 562949953421312)%Q, (8985234627030131 # 1125899906842624)%Q); ((21 # 8)%Q, (7771284395047517 # 562949953421312)%Q); ((5944751508129055 # 2251799813685248)%Q, (986091539782125 # 70368744177664)%Q); ((3314649325744685 # 1125899906842624)%Q, (5345677401354125 # 281474976710656)%Q)] [] (qenv_s [[(5944751508129055 # 2251799813685248)%Q; (1169247053256065 # 562949953421312)%Q; (21 # 8)%Q]; [(-4494592428115755 # 9007199254740992)%Q; (342836521633579 # 281474976710656)%Q; (-535928355657089 # 2251799813685248)%Q]; [(-4242390848983007 # 2251799813685248)%Q; (-6088866696204911 # 4503599627370496)%Q; (-7926335344172073 # 72057594037927936)%Q]; [(-6723874243664151 # 2251799813685248)%Q; (-5010254585449677 # 2251799813685248)%Q; (-6579759055588295 # 4503599627370496)%Q]; [(3314649325744685 # 1125899906842624)%Q; (-5615988735331009 # 4503599627370496)%Q; (-8286623314361713 # 72057594037927936)%Q]] 5 3) src_softmax_output));
mout (qresult (qdenote [((-6723874243664151 # 2251799813685248)%Q, (1819057547431525 # 36028797018963968)%Q); ((-5010254585449677 # 2251799813685248)%Q, (7787078180715335 # 72057594037927936)%Q); ((-4242390848983007 # 2251799813685248)%Q, (5475691318148049 # 36028797018963968)%Q); ((-6579759055588295 # 4503599627370496)%Q, (4179415295639385 # 18014398509481984)%Q); ((-6088866696204911 # 4503599627370496)%Q, (4660726584138213 # 18014398509481984)%Q); ((-5615988735331009 # 4503599627370496)%Q, (20221556519411 # 70368744177664)%Q); ((-4494592428115755 # 9007199254740992)%Q, (1367152095282335 # 2251799813685248)%Q); ((-535928355657089 # 2251799813685248)%Q, (7099498691804653 # 9007199254740992)%Q); ((-8286623314361713 # 72057594037927936)%Q, (8028712467098963 # 9007199254740992)%Q); ((-7926335344172073 # 72057594037927936)%Q, (4034478277907215 # 4503599627370496)%Q); ((342836521633579 # 281474976710656)%Q, (3806014707221657 # 1125899906842624)%Q); ((1169247053256065 # 562949953421312)%Q, (8985234627030131 # 1125899906842624)%Q); ((21 # 8)%Q, (7771284395047517 # 562949953421312)%Q); ((5944751508129055 # 2251799813685248)%Q, (986091539782125 # 70368744177664)%Q); ((3314649325744685 # 1125899906842624)%Q, (5345677401354125 # 281474976710656)%Q)] [] (qenv_sd [[(5944751508129055 # 2251799813685248)%Q; (1169247053256065 # 562949953421312)%Q; (21 # 8)%Q]; [(-4494592428115755 # 9007199254740992)%Q; (342836521633579 # 281474976710656)%Q; (-535928355657089 # 2251799813685248)%Q]; [(-4242390848983007 # 2251799813685248)%Q; (-6088866696204911 # 4503599627370496)%Q; (-7926335344172073 # 72057594037927936)%Q]; [(-6723874243664151 # 2251799813685248)%Q; (-5010254585449677 # 2251799813685248)%Q; (-6579759055588295 # 4503599627370496)%Q]; [(3314649325744685 # 1125899906842624)%Q; (-5615988735331009 # 4503599627370496)%Q; (-8286623314361713 # 72057594037927936)%Q]] [[(1820580149364523 # 1125899906842624)%Q; (7111183811618013 # 4503599627370496)%Q; (-5525916742783599 # 4503599627370496)%Q]; [(5530420342410969 # 9007199254740992)%Q; (8250594517342749 # 9007199254740992)%Q; (905786475054891 # 562949953421312)%Q]; [(6052837899185947 # 18014398509481984)%Q; (1805943450575569 # 2251799813685248)%Q; (1733885856537641 # 4503599627370496)%Q]; [(-3470023512888967 # 2251799813685248)%Q; (-6363586273474511 # 4503599627370496)%Q; (7 # 8)%Q]; [(8142508126285857 # 18014398509481984)%Q; (1131529406376837 # 1125899906842624)%Q; (4003700068732371 # 4503599627370496)%Q]] 5 3) src_softmax_gradient));
mout (qresult (qdenote [((-3257228430495711 # 1125899906842624)%Q, (7985384210226815 # 144115188075855872)%Q); ((-360006495212929 # 140737488355328)%Q, (5581545539496939 # 72057594037927936)%Q); ((-4697254411347427 # 2251799813685248)%Q, (4474159603036111 # 36028797018963968)%Q); ((-8345170109517529 # 4503599627370496)%Q, (2824048109213499 # 18014398509481984)%Q); ((-7620090569510879 # 18014398509481984)%Q, (5900423775961409 # 9007199254740992)%Q); ((-7962364141191037 # 36028797018963968)%Q, (7221221885223269 # 9007199254740992)%Q); ((7782220156096217 # 36028797018963968)%Q, (5589428211596061 # 4503599627370496)%Q); ((626000348204499 # 2251799813685248)%Q, (5946941145698765 # 4503599627370496)%Q); ((5332261958806667 # 9007199254740992)%Q, (8140706698198331 # 4503599627370496)%Q); ((7566047373982433 # 9007199254740992)%Q, (5215994726742323 # 2251799813685248)%Q); ((3458764513820541 # 2251799813685248)%Q, (1307724065872103 # 281474976710656)%Q); ((5273715163650851 # 2251799813685248)%Q, (5855816568753737 # 562949953421312)%Q)] [] (qenv_s [[(626000348204499 # 2251799813685248)%Q; (5332261958806667 # 9007199254740992)%Q; (-7962364141191037 # 36028797018963968)%Q]; [(5273715163650851 # 2251799813685248)%Q; (7566047373982433 # 9007199254740992)%Q; (-4697254411347427 # 2251799813685248)%Q]; [(-8345170109517529 # 4503599627370496)%Q; (-3257228430495711 # 1125899906842624)%Q; (7782220156096217 # 36028797018963968)%Q]; [(-7620090569510879 # 18014398509481984)%Q; (3458764513820541 # 2251799813685248)%Q; (-360006495212929 # 140737488355328)%Q]] 4 3) src_softmax_output));
mout (qresult (qdenote [((-3257228430495711 # 1125899906842624)%Q, (7985384210226815 # 144115188075855872)%Q); ((-360006495212929 # 140737488355328)%Q, (5581545539496939 # 72057594037927936)%Q); ((-4697254411347427 # 2251799813685248)%Q, (4474159603036111 # 36028797018963968)%Q); ((-8345170109517529 # 4503599627370496)%Q, (2824048109213499 # 18014398509481984)%Q); ((-7620090569510879 # 18014398509481984)%Q, (5900423775961409 # 9007199254740992)%Q); ((-7962364141191037 # 36028797018963968)%Q, (7221221885223269 # 9007199254740992)%Q); ((7782220156096217 # 36028797018963968)%Q, (5589428211596061 # 4503599627370496)%Q); ((626000348204499 # 2251799813685248)%Q, (5946941145698765 # 4503599627370496)%Q); ((5332261958806667 # 9007199254740992)%Q, (8140706698198331 # 4503599627370496)%Q); ((7566047373982433 # 9007199254740992)%Q, (5215994726742323 # 2251799813685248)%Q); ((3458764513820541 # 2251799813685248)%Q, (1307724065872103 # 281474976710656)%Q); ((5273715163650851 # 2251799813685248)%Q, (5855816568753737 # 562949953421312)%Q)] [] (qenv_sd [[(626000348204499 # 2251799813685248)%Q; (5332261958806667 # 9007199254740992)%Q; (-7962364141191037 # 36028797018963968)%Q]; [(5273715163650851 # 2251799813685248)%Q; (7566047373982433 # 9007199254740992)%Q; (-4697254411347427 # 2251799813685248)%Q]; [(-8345170109517529 # 4503599627370496)%Q; (-3257228430495711 # 1125899906842624)%Q; (7782220156096217 # 36028797018963968)%Q]; [(-7620090569510879 # 18014398509481984)%Q; (3458764513820541 # 2251799813685248)%Q; (-360006495212929 # 140737488355328)%Q]] [[(-6944550625405305 # 9007199254740992)%Q; (-2607584184247517 # 4503599627370496)%Q; (3458764513820541 # 18014398509481984)%Q]; [(-5080060379673919 # 18014398509481984)%Q; (-4823355200913801 # 4503599627370496)%Q; (-589971551185535 # 4503599627370496)%Q]; [(8070450532247929 # 4503599627370496)%Q; (7890306547153109 # 36028797018963968)%Q; (5620492334958379 # 4503599627370496)%Q]; [(3895613677675479 # 2251799813685248)%Q; (-6908521828386341 # 9007199254740992)%Q; (4159074255876653 # 2251799813685248)%Q]] 4 3) src_softmax_gradient));
mout (qresult (qdenote [((-711005791171117 # 281474976710656)%Q, (5763043476188291 # 72057594037927936)%Q); ((-7493989779944505 # 288230376151711744)%Q, (8776030292991925 # 9007199254740992)%Q); ((5100326577997087 # 2251799813685248)%Q, (42358133949921 # 4398046511104)%Q)] [] (qenv_s [[(5100326577997087 # 2251799813685248)%Q; (-7493989779944505 # 288230376151711744)%Q; (-711005791171117 # 281474976710656)%Q]] 1 3) src_softmax_output));
mout (qresult (qdenote [((-711005791171117 # 281474976710656)%Q, (5763043476188291 # 72057594037927936)%Q); ((-7493989779944505 # 288230376151711744)%Q, (8776030292991925 # 9007199254740992)%Q); ((5100326577997087 # 2251799813685248)%Q, (42358133949921 # 4398046511104)%Q)] [] (qenv_sd [[(5100326577997087 # 2251799813685248)%Q; (-7493989779944505 # 288230376151711744)%Q; (-711005791171117 # 281474976710656)%Q]] [[(2224778215921025 # 2251799813685248)%Q; (-660340295363199 # 562949953421312)%Q; (3942901473762869 # 2251799813685248)%Q]] 1 3) src_softmax_gradient));
mout (qresult (qdenote [((-1206964700135293 # 562949953421312)%Q, (8444080948457745 # 72057594037927936)%Q); ((4890909195324359 # 2251799813685248)%Q, (2470173205749843 # 281474976710656)%Q); ((5579959938312045 # 2251799813685248)%Q, (1677225753758487 # 140737488355328)%Q)] [] (qenv_s [[(5579959938312045 # 2251799813685248)%Q; (4890909195324359 # 2251799813685248)%Q; (-1206964700135293 # 562949953421312)%Q]] 1 3) src_softmax_output));
mout (qresult (qdenote [((-1206964700135293 # 562949953421312)%Q, (8444080948457745 # 72057594037927936)%Q); ((4890909195324359 # 2251799813685248)%Q, (2470173205749843 # 281474976710656)%Q); ((5579959938312045 # 2251799813685248)%Q, (1677225753758487 # 140737488355328)%Q)] [] (qenv_sd [[(5579959938312045 # 2251799813685248)%Q; (4890909195324359 # 2251799813685248)%Q; (-1206964700135293 # 562949953421312)%Q]] [[(5800636320053199 # 4503599627370496)%Q; (-7421932185906577 # 36028797018963968)%Q; (7106680211990643 # 9007199254740992)%Q]] 1 3) src_softmax_gradient));
mout (qresult (qdenote [((-7457960982925541 # 9007199254740992)%Q, (7870891665608517 # 18014398509481984)%Q); ((-4746794007248503 # 9007199254740992)%Q, (5317611172401969 # 9007199254740992)%Q); ((976155219232555 # 1125899906842624)%Q, (669843130204901 # 281474976710656)%Q); ((5435844750236189 # 4503599627370496)%Q, (7528755934695611 # 2251799813685248)%Q)] [] (qenv_s [[(5435844750236189 # 4503599627370496)%Q; (976155219232555 # 1125899906842624)%Q; (-4746794007248503 # 9007199254740992)%Q; (-7457960982925541 # 9007199254740992)%Q]] 1 4) src_softmax_output));
mout (qresult (qdenote [((-7457960982925541 # 9007199254740992)%Q, (7870891665608517 # 18014398509481984)%Q); ((-4746794007248503 # 9007199254740992)%Q, (5317611172401969 # 9007199254740992)%Q); ((976155219232555 # 1125899906842624)%Q, (669843130204901 # 281474976710656)%Q); ((5435844750236189 # 4503599627370496)%Q, (7528755934695611 # 2251799813685248)%Q)] [] (qenv_sd [[(5435844750236189 # 4503599627370496)%Q; (976155219232555 # 1125899906842624)%Q; (-4746794007248503 # 9007199254740992)%Q; (-7457960982925541 # 9007199254740992)%Q]] [[(5296233161787703 # 18014398509481984)%Q; (7548032975472951 # 4503599627370496)%Q; (-2531022990582219 # 4503599627370496)%Q; (5579959938312045 # 4503599627370496)%Q]] 1 4) src_softmax_gradient));
mout (qresult (qdenote [((-395613079766827 # 140737488355328)%Q, (270868177647245 # 4503599627370496)%Q); ((-1555430721303085 # 562949953421312)%Q, (2273495547589641 # 36028797018963968)%Q); ((-5728578726015271 # 2251799813685248)%Q, (5660236730098861 # 72057594037927936)%Q); ((-4764808405757985 # 2251799813685248)%Q, (8683856406299119 # 72057594037927936)%Q); ((-8124493727776375 # 4503599627370496)%Q, (1482936397882457 # 9007199254740992)%Q); ((-3152519739159347 # 2251799813685248)%Q, (8884591959344917 # 36028797018963968)%Q); ((-5944751508129055 # 9007199254740992)%Q, (290961434677845 # 562949953421312)%Q); ((-5728578726015271 # 9007199254740992)%Q, (4768463686721299 # 9007199254740992)%Q); ((589971551185535 # 562949953421312)%Q, (6422001399862597 # 2251799813685248)%Q); ((6327557476455547 # 4503599627370496)%Q, (4588635178327731 # 1125899906842624)%Q); ((6494190662668255 # 4503599627370496)%Q, (2380797349861569 # 562949953421312)%Q); ((6296032279063953 # 2251799813685248)%Q, (4610278521370333 # 281474976710656)%Q)] [] (qenv_s [[(6494190662668255 # 4503599627370496)%Q; (-5944751508129055 # 9007199254740992)%Q; (-4764808405757985 # 2251799813685248)%Q; (6296032279063953 # 2251799813685248)%Q]; [(589971551185535 # 562949953421312)%Q; (-5728578726015271 # 2251799813685248)%Q; (6327557476455547 # 4503599627370496)%Q; (-5728578726015271 # 9007199254740992)%Q]; [(-3152519739159347 # 2251799813685248)%Q; (-8124493727776375 # 4503599627370496)%Q; (-395613079766827 # 140737488355328)%Q; (-1555430721303085 # 562949953421312)%Q]] 3 4) src_softmax_output));
mout (qresult (qdenote [((-395613079766827 # 140737488355328)%Q, (270868177647245 # 4503599627370496)%Q); ((-1555430721303085 # 562949953421312)%Q, (2273495547589641 # 36028797018963968)%Q); ((-5728578726015271 # 2251799813685248)%Q, (5660236730098861 # 72057594037927936)%Q); ((-4764808405757985 # 2251799813685248)%Q, (8683856406299119 # 72057594037927936)%Q); ((-8124493727776375 # 4503599627370496)%Q, (1482936397882457 # 9007199254740992)%Q); ((-3152519739159347 # 2251799813685248)%Q, (8884591959344917 # 36028797018963968)%Q); ((-5944751508129055 # 9007199254740992)%Q, (290961434677845 # 562949953421312)%Q); ((-5728578726015271 # 9007199254740992)%Q, (4768463686721299 # 9007199254740992)%Q); ((589971551185535 # 562949953421312)%Q, (6422001399862597 # 2251799813685248)%Q); ((6327557476455547 # 4503599627370496)%Q, (4588635178327731 # 1125899906842624)%Q); ((6494190662668255 # 4503599627370496)%Q, (2380797349861569 # 562949953421312)%Q); ((6296032279063953 # 2251799813685248)%Q, (4610278521370333 # 281474976710656)%Q)] [] (qenv_sd [[(6494190662668255 # 4503599627370496)%Q; (-5944751508129055 # 9007199254740992)%Q; (-4764808405757985 # 2251799813685248)%Q; (6296032279063953 # 2251799813685248)%Q]; [(589971551185535 # 562949953421312)%Q; (-5728578726015271 # 2251799813685248)%Q; (6327557476455547 # 4503599627370496)%Q; (-5728578726015271 # 9007199254740992)%Q]; [(-3152519739159347 # 2251799813685248)%Q; (-8124493727776375 # 4503599627370496)%Q; (-395613079766827 # 140737488355328)%Q; (-1555430721303085 # 562949953421312)%Q]] [[(-3105231943071957 # 2251799813685248)%Q; (-5512405943901487 # 36028797018963968)%Q; (-640637046993453 # 562949953421312)%Q; (3116490942140383 # 2251799813685248)%Q]; [(-1589770668461785 # 4503599627370496)%Q; (-3404721318292095 # 4503599627370496)%Q; (1326310090260611 # 2251799813685248)%Q; (-6106881094714393 # 9007199254740992)%Q]; [(-8511803295730237 # 4503599627370496)%Q; (360006495212929 # 281474976710656)%Q; (-7723673360940401 # 4503599627370496)%Q; (2578310786669609 # 2251799813685248)%Q]] 3 4) src_softmax_gradient));
mout (qresult (qdenote [((-1488439676845949 # 562949953421312)%Q, (5121593988334955 # 72057594037927936)%Q); ((-711850216101249 # 281474976710656)%Q, (718222531692639 # 9007199254740992)%Q); ((-6273514280927101 # 4503599627370496)%Q, (8947002284355917 # 36028797018963968)%Q); ((-1203587000414765 # 1125899906842624)%Q, (6185274307628271 # 18014398509481984)%Q); ((6998593820933751 # 9007199254740992)%Q, (4897524207471639 # 2251799813685248)%Q); ((5147614374084477 # 4503599627370496)%Q, (7062010706991133 # 2251799813685248)%Q); ((5620492334958379 # 4503599627370496)%Q, (7843850222700647 # 2251799813685248)%Q); ((3470023512888967 # 2251799813685248)%Q, (2628558120061255 # 562949953421312)%Q); ((6980579422424269 # 4503599627370496)%Q, (5304643839670717 # 1125899906842624)%Q); ((2272066012008415 # 1125899906842624)%Q, (1058805188170759 # 140737488355328)%Q); ((326088760519295 # 140737488355328)%Q, (1427808985631315 # 140737488355328)%Q); ((748723438050345 # 281474976710656)%Q, (8048095282198167 # 562949953421312)%Q)] [] (qenv_s [[(5147614374084477 # 4503599627370496)%Q; (-1488439676845949 # 562949953421312)%Q; (-711850216101249 # 281474976710656)%Q; (748723438050345 # 281474976710656)%Q]; [(-1203587000414765 # 1125899906842624)%Q; (5620492334958379 # 4503599627370496)%Q; (3470023512888967 # 2251799813685248)%Q; (6980579422424269 # 4503599627370496)%Q]; [(-6273514280927101 # 4503599627370496)%Q; (6998593820933751 # 9007199254740992)%Q; (326088760519295 # 140737488355328)%Q; (2272066012008415 # 1125899906842624)%Q]] 3 4) src_softmax_output));
mout (qresult (qdenote [((-1488439676845949 # 562949953421312)%Q, (5121593988334955 # 72057594037927936)%Q); ((-711850216101249 # 281474976710656)%Q, (718222531692639 # 9007199254740992)%Q); ((-6273514280927101 # 4503599627370496)%Q, (8947002284355917 # 36028797018963968)%Q); ((-1203587000414765 # 1125899906842624)%Q, (6185274307628271 # 18014398509481984)%Q); ((6998593820933751 # 9007199254740992)%Q, (4897524207471639 # 2251799813685248)%Q); ((5147614374084477 # 4503599627370496)%Q, (7062010706991133 # 2251799813685248)%Q); ((5620492334958379 # 4503599627370496)%Q, (7843850222700647 # 2251799813685248)%Q); ((3470023512888967 # 2251799813685248)%Q, (2628558120061255 # 562949953421312)%Q); ((6980579422424269 # 4503599627370496)%Q, (5304643839670717 # 1125899906842624)%Q); ((2272066012008415 # 1125899906842624)%Q, (1058805188170759 # 140737488355328)%Q); ((326088760519295 # 140737488355328)%Q, (1427808985631315 # 140737488355328)%Q); ((748723438050345 # 281474976710656)%Q, (8048095282198167 # 562949953421312)%Q)] [] (qenv_sd [[(5147614374084477 # 4503599627370496)%Q; (-1488439676845949 # 562949953421312)%Q; (-711850216101249 # 281474976710656)%Q; (748723438050345 # 281474976710656)%Q]; [(-1203587000414765 # 1125899906842624)%Q; (5620492334958379 # 4503599627370496)%Q; (3470023512888967 # 2251799813685248)%Q; (6980579422424269 # 4503599627370496)%Q]; [(-6273514280927101 # 4503599627370496)%Q; (6998593820933751 # 9007199254740992)%Q; (326088760519295 # 140737488355328)%Q; (2272066012008415 # 1125899906842624)%Q]] [[(-8250594517342749 # 36028797018963968)%Q; (7656119366529843 # 18014398509481984)%Q; (6124895493223875 # 36028797018963968)%Q; (-2751699372323373 # 2251799813685248)%Q]; [(-7872292148643627 # 18014398509481984)%Q; (-8304637712871195 # 9007199254740992)%Q; (-7566047373982433 # 4503599627370496)%Q; (3404721318292095 # 4503599627370496)%Q]; [(466404036409557 # 281474976710656)%Q; (1452410879826985 # 1125899906842624)%Q; (-5782621921543717 # 9007199254740992)%Q; (1290281293241647 # 1125899906842624)%Q]] 3 4) src_softmax_gradient));
mout (qresult (qdenote [((-3614138700964823 # 2251799813685248)%Q, (452363062318173 # 2251799813685248)%Q); ((-3375447920714187 # 2251799813685248)%Q, (8047154380941309 # 36028797018963968)%Q); ((-5800636320053199 # 4503599627370496)%Q, (4968765184055425 # 18014398509481984)%Q); ((-676665844012417 # 1125899906842624)%Q, (2469157487331945 # 4503599627370496)%Q); ((-5530420342410969 # 18014398509481984)%Q, (6626151544241575 # 9007199254740992)%Q); ((5764607523034235 # 288230376151711744)%Q, (2297289187393689 # 2251799813685248)%Q); ((7890306547153109 # 18014398509481984)%Q, (872350010453249 # 562949953421312)%Q); ((149744687610069 # 140737488355328)%Q, (6525579840118481 # 2251799813685248)%Q); ((5823154318190051 # 4503599627370496)%Q, (4102442930948035 # 1125899906842624)%Q); ((7381399789260243 # 4503599627370496)%Q, (5798403569844691 # 1125899906842624)%Q); ((4021714467241853 # 2251799813685248)%Q, (3358301877188029 # 562949953421312)%Q); ((4032973466310279 # 2251799813685248)%Q, (6750270870799199 # 1125899906842624)%Q); ((4494592428115755 # 2251799813685248)%Q, (8286126689196833 # 1125899906842624)%Q); ((5165628772593959 # 2251799813685248)%Q, (697672077825931 # 70368744177664)%Q); ((2766336071112327 # 1125899906842624)%Q, (3284742531889233 # 281474976710656)%Q); ((2853030363939209 # 1125899906842624)%Q, (1773830072278367 # 140737488355328)%Q)] [] (qenv_s [[(-3614138700964823 # 2251799813685248)%Q; (-5530420342410969 # 18014398509481984)%Q; (5764607523034235 # 288230376151711744)%Q; (4021714467241853 # 2251799813685248)%Q]; [(-3375447920714187 # 2251799813685248)%Q; (5823154318190051 # 4503599627370496)%Q; (-5800636320053199 # 4503599627370496)%Q; (5165628772593959 # 2251799813685248)%Q]; [(4494592428115755 # 2251799813685248)%Q; (-676665844012417 # 1125899906842624)%Q; (149744687610069 # 140737488355328)%Q; (2766336071112327 # 1125899906842624)%Q]; [(4032973466310279 # 2251799813685248)%Q; (2853030363939209 # 1125899906842624)%Q; (7381399789260243 # 4503599627370496)%Q; (7890306547153109 # 18014398509481984)%Q]] 4 4) src_softmax_output));
mout (qresult (qdenote [((-3614138700964823 # 2251799813685248)%Q, (452363062318173 # 2251799813685248)%Q); ((-3375447920714187 # 2251799813685248)%Q, (8047154380941309 # 36028797018963968)%Q); ((-5800636320053199 # 4503599627370496)%Q, (4968765184055425 # 18014398509481984)%Q); ((-676665844012417 # 1125899906842624)%Q, (2469157487331945 # 4503599627370496)%Q); ((-5530420342410969 # 18014398509481984)%Q, (6626151544241575 # 9007199254740992)%Q); ((5764607523034235 # 288230376151711744)%Q, (2297289187393689 # 2251799813685248)%Q); ((7890306547153109 # 18014398509481984)%Q, (872350010453249 # 562949953421312)%Q); ((149744687610069 # 140737488355328)%Q, (6525579840118481 # 2251799813685248)%Q); ((5823154318190051 # 4503599627370496)%Q, (4102442930948035 # 1125899906842624)%Q); ((7381399789260243 # 4503599627370496)%Q, (5798403569844691 # 1125899906842624)%Q); ((4021714467241853 # 2251799813685248)%Q, (3358301877188029 # 562949953421312)%Q); ((4032973466310279 # 2251799813685248)%Q, (6750270870799199 # 1125899906842624)%Q); ((4494592428115755 # 2251799813685248)%Q, (8286126689196833 # 1125899906842624)%Q); ((5165628772593959 # 2251799813685248)%Q, (697672077825931 # 70368744177664)%Q); ((2766336071112327 # 1125899906842624)%Q, (3284742531889233 # 281474976710656)%Q); ((2853030363939209 # 1125899906842624)%Q, (1773830072278367 # 140737488355328)%Q)] [] (qenv_sd [[(-3614138700964823 # 2251799813685248)%Q; (-5530420342410969 # 18014398509481984)%Q; (5764607523034235 # 288230376151711744)%Q; (4021714467241853 # 2251799813685248)%Q]; [(-3375447920714187 # 2251799813685248)%Q; (5823154318190051 # 4503599627370496)%Q; (-5800636320053199 # 4503599627370496)%Q; (5165628772593959 # 2251799813685248)%Q]; [(4494592428115755 # 2251799813685248)%Q; (-676665844012417 # 1125899906842624)%Q; (149744687610069 # 140737488355328)%Q; (2766336071112327 # 1125899906842624)%Q]; [(4032973466310279 # 2251799813685248)%Q; (2853030363939209 # 1125899906842624)%Q; (7381399789260243 # 4503599627370496)%Q; (7890306547153109 # 18014398509481984)%Q]] [[(7926335344172073 # 9007199254740992)%Q; (-4553139223271571 # 4503599627370496)%Q; (-817403332367745 # 562949953421312)%Q; (395190867301761 # 1125899906842624)%Q]; [(-1838594547874005 # 1125899906842624)%Q; (-5053038781909697 # 4503599627370496)%Q; (4980981187871769 # 4503599627370496)%Q; (7331860193359167 # 4503599627370496)%Q]; [(-3740239490531197 # 2251799813685248)%Q; (5053038781909697 # 4503599627370496)%Q; (7908320945662591 # 4503599627370496)%Q; (-7926335344172073 # 18014398509481984)%Q]; [(-3386706919782613 # 9007199254740992)%Q; (3440750115311059 # 4503599627370496)%Q; (-6363586273474511 # 4503599627370496)%Q; (-8727976077844021 # 4503599627370496)%Q]] 4 4) src_softmax_gradient));
mout (qresult (qdenote [((-1558808421023613 # 562949953421312)%Q, (4519790831001483 # 72057594037927936)%Q); ((-1542482872374395 # 562949953421312)%Q, (4652783843316115 # 72057594037927936)%Q); ((-5769111122661605 # 2251799813685248)%Q, (5559263950226271 # 72057594037927936)%Q); ((-5507902344274117 # 4503599627370496)%Q, (2651231303105365 # 9007199254740992)%Q); ((-5453859148745671 # 4503599627370496)%Q, (2683237733247241 # 9007199254740992)%Q); ((-570268302815789 # 562949953421312)%Q, (6541531781023231 # 18014398509481984)%Q); ((-5872693914091127 # 9007199254740992)%Q, (4692775388793977 # 9007199254740992)%Q); ((-7385903388887613 # 18014398509481984)%Q, (5977630038436529 # 9007199254740992)%Q); ((5728578726015271 # 18014398509481984)%Q, (1547410104482825 # 1125899906842624)%Q); ((1401745384019067 # 1125899906842624)%Q, (7820353934087679 # 2251799813685248)%Q); ((3830311483078607 # 2251799813685248)%Q, (6169283057851359 # 1125899906842624)%Q); ((3913628076184961 # 2251799813685248)%Q, (6401821972707439 # 1125899906842624)%Q); ((4183844053827191 # 2251799813685248)%Q, (3609017059299653 # 562949953421312)%Q); ((290059963500331 # 140737488355328)%Q, (1105326859195889 # 140737488355328)%Q); ((5577708138498359 # 2251799813685248)%Q, (1675549366338137 # 140737488355328)%Q); ((6309543077946065 # 2251799813685248)%Q, (2319011671865611 # 140737488355328)%Q)] [] (qenv_s [[(6309543077946065 # 2251799813685248)%Q; (-5507902344274117 # 4503599627370496)%Q; (-1542482872374395 # 562949953421312)%Q; (3830311483078607 # 2251799813685248)%Q]; [(-570268302815789 # 562949953421312)%Q; (-1558808421023613 # 562949953421312)%Q; (5577708138498359 # 2251799813685248)%Q; (-5872693914091127 # 9007199254740992)%Q]; [(-5769111122661605 # 2251799813685248)%Q; (290059963500331 # 140737488355328)%Q; (-5453859148745671 # 4503599627370496)%Q; (3913628076184961 # 2251799813685248)%Q]; [(-7385903388887613 # 18014398509481984)%Q; (5728578726015271 # 18014398509481984)%Q; (1401745384019067 # 1125899906842624)%Q; (4183844053827191 # 2251799813685248)%Q]] 4 4) src_softmax_output));
mout (qresult (qdenote [((-1558808421023613 # 562949953421312)%Q, (4519790831001483 # 72057594037927936)%Q); ((-1542482872374395 # 562949953421312)%Q, (4652783843316115 # 72057594037927936)%Q); ((-5769111122661605 # 2251799813685248)%Q, (5559263950226271 # 72057594037927936)%Q); ((-5507902344274117 # 4503599627370496)%Q, (2651231303105365 # 9007199254740992)%Q); ((-5453859148745671 # 4503599627370496)%Q, (2683237733247241 # 9007199254740992)%Q); ((-570268302815789 # 562949953421312)%Q, (6541531781023231 # 18014398509481984)%Q); ((-5872693914091127 # 9007199254740992)%Q, (4692775388793977 # 9007199254740992)%Q); ((-7385903388887613 # 18014398509481984)%Q, (5977630038436529 # 9007199254740992)%Q); ((5728578726015271 # 18014398509481984)%Q, (1547410104482825 # 1125899906842624)%Q); ((1401745384019067 # 1125899906842624)%Q, (7820353934087679 # 2251799813685248)%Q); ((3830311483078607 # 2251799813685248)%Q, (6169283057851359 # 1125899906842624)%Q); ((3913628076184961 # 2251799813685248)%Q, (6401821972707439 # 1125899906842624)%Q); ((4183844053827191 # 2251799813685248)%Q, (3609017059299653 # 562949953421312)%Q); ((290059963500331 # 140737488355328)%Q, (1105326859195889 # 140737488355328)%Q); ((5577708138498359 # 2251799813685248)%Q, (1675549366338137 # 140737488355328)%Q); ((6309543077946065 # 2251799813685248)%Q, (2319011671865611 # 140737488355328)%Q)] [] (qenv_sd [[(6309543077946065 # 2251799813685248)%Q; (-5507902344274117 # 4503599627370496)%Q; (-1542482872374395 # 562949953421312)%Q; (3830311483078607 # 2251799813685248)%Q]; [(-570268302815789 # 562949953421312)%Q; (-1558808421023613 # 562949953421312)%Q; (5577708138498359 # 2251799813685248)%Q; (-5872693914091127 # 9007199254740992)%Q]; [(-5769111122661605 # 2251799813685248)%Q; (290059963500331 # 140737488355328)%Q; (-5453859148745671 # 4503599627370496)%Q; (3913628076184961 # 2251799813685248)%Q]; [(-7385903388887613 # 18014398509481984)%Q; (5728578726015271 # 18014398509481984)%Q; (1401745384019067 # 1125899906842624)%Q; (4183844053827191 # 2251799813685248)%Q]] [[(-7912824545289961 # 4503599627370496)%Q; (6219471085398655 # 4503599627370496)%Q; (4350477240039899 # 4503599627370496)%Q; (-6656320249253593 # 4503599627370496)%Q]; [(-5512405943901487 # 9007199254740992)%Q; (1607785066971267 # 1125899906842624)%Q; (-7638104968020361 # 72057594037927936)%Q; (8016407336719483 # 18014398509481984)%Q]; [(994169617742037 # 562949953421312)%Q; (8412724103928087 # 18014398509481984)%Q; (5278218763278221 # 4503599627370496)%Q; (5908722711110091 # 9007199254740992)%Q]; [(8583860889768165 # 9007199254740992)%Q; (2907073559467655 # 2251799813685248)%Q; (6530219459687219 # 4503599627370496)%Q; (5597974336821527 # 4503599627370496)%Q]] 4 4) src_softmax_gradient));
mout (qresult (qdenote [((-5649765732536287 # 2251799813685248)%Q, (5861852714161915 # 72057594037927936)%Q); ((-7674133765039325 # 4503599627370496)%Q, (1638898180295549 # 9007199254740992)%Q); ((-7561543774355063 # 4503599627370496)%Q, (6721548341027991 # 36028797018963968)%Q); ((-5116089176692883 # 4503599627370496)%Q, (1446109712861403 # 4503599627370496)%Q); ((-4368491638549381 # 4503599627370496)%Q, (3414476458289885 # 9007199254740992)%Q); ((3170534137668829 # 288230376151711744)%Q, (4553412692850983 # 4503599627370496)%Q); ((4458563631096791 # 4503599627370496)%Q, (6060121283419385 # 2251799813685248)%Q); ((1452410879826985 # 1125899906842624)%Q, (4090154044701225 # 1125899906842624)%Q)] [] (qenv_s [[(-4368491638549381 # 4503599627370496)%Q; (3170534137668829 # 288230376151711744)%Q; (4458563631096791 # 4503599627370496)%Q; (1452410879826985 # 1125899906842624)%Q]; [(-7561543774355063 # 4503599627370496)%Q; (-7674133765039325 # 4503599627370496)%Q; (-5116089176692883 # 4503599627370496)%Q; (-5649765732536287 # 2251799813685248)%Q]] 2 4) src_softmax_output));
mout (qresult (qdenote [((-5649765732536287 # 2251799813685248)%Q, (5861852714161915 # 72057594037927936)%Q); ((-7674133765039325 # 4503599627370496)%Q, (1638898180295549 # 9007199254740992)%Q); ((-7561543774355063 # 4503599627370496)%Q, (6721548341027991 # 36028797018963968)%Q); ((-5116089176692883 # 4503599627370496)%Q, (1446109712861403 # 4503599627370496)%Q); ((-4368491638549381 # 4503599627370496)%Q, (3414476458289885 # 9007199254740992)%Q); ((3170534137668829 # 288230376151711744)%Q, (4553412692850983 # 4503599627370496)%Q); ((4458563631096791 # 4503599627370496)%Q, (6060121283419385 # 2251799813685248)%Q); ((1452410879826985 # 1125899906842624)%Q, (4090154044701225 # 1125899906842624)%Q)] [] (qenv_sd [[(-4368491638549381 # 4503599627370496)%Q; (3170534137668829 # 288230376151711744)%Q; (4458563631096791 # 4503599627370496)%Q; (1452410879826985 # 1125899906842624)%Q]; [(-7561543774355063 # 4503599627370496)%Q; (-7674133765039325 # 4503599627370496)%Q; (-5116089176692883 # 4503599627370496)%Q; (-5649765732536287 # 2251799813685248)%Q]] [[(-7890306547153109 # 36028797018963968)%Q; (-4602678819172647 # 9007199254740992)%Q; (-308496574474879 # 1125899906842624)%Q; (-2170735020392579 # 9007199254740992)%Q]; [(-7349874591868649 # 36028797018963968)%Q; (3440750115311059 # 4503599627370496)%Q; (-4404520435568345 # 4503599627370496)%Q; (5260204364768739 # 4503599627370496)%Q]] 2 4) src_softmax_gradient));
mout (qresult (qdenote [((-6442399266953495 # 2251799813685248)%Q, (8245048983646271 # 144115188075855872)%Q); ((-4877398396442247 # 4503599627370496)%Q, (6099283805344411 # 18014398509481984)%Q); ((-4332462841530417 # 4503599627370496)%Q, (1720950912577599 # 4503599627370496)%Q); ((-6998593820933751 # 9007199254740992)%Q, (4141359745135905 # 9007199254740992)%Q); ((-8358680908399641 # 144115188075855872)%Q, (2124910775822277 # 2251799813685248)%Q); ((7584061772491915 # 18014398509481984)%Q, (6861163228546473 # 4503599627370496)%Q); ((4476578029606273 # 9007199254740992)%Q, (7402938338785803 # 4503599627370496)%Q); ((4057743264260817 # 4503599627370496)%Q, (693009391432569 # 281474976710656)%Q); ((4147815256808227 # 4503599627370496)%Q, (1414018219581267 # 562949953421312)%Q); ((3321404725185741 # 2251799813685248)%Q, (38448037262089 # 8796093022208)%Q); ((3542081106926895 # 2251799813685248)%Q, (2714032272675159 # 562949953421312)%Q); ((448389637900075 # 281474976710656)%Q, (2768859361459059 # 562949953421312)%Q); ((5262456164582425 # 2251799813685248)%Q, (2913305280886621 # 281474976710656)%Q); ((1468736428476203 # 562949953421312)%Q, (7647933285085571 # 562949953421312)%Q); ((3054566447264039 # 1125899906842624)%Q, (8486150252294975 # 562949953421312)%Q); ((6717118844223095 # 2251799813685248)%Q, (2779138788521849 # 140737488355328)%Q)] [] (qenv_s [[(-8358680908399641 # 144115188075855872)%Q; (448389637900075 # 281474976710656)%Q; (3542081106926895 # 2251799813685248)%Q; (6717118844223095 # 2251799813685248)%Q]; [(-6442399266953495 # 2251799813685248)%Q; (1468736428476203 # 562949953421312)%Q; (7584061772491915 # 18014398509481984)%Q; (-4877398396442247 # 4503599627370496)%Q]; [(4057743264260817 # 4503599627370496)%Q; (-6998593820933751 # 9007199254740992)%Q; (4147815256808227 # 4503599627370496)%Q; (4476578029606273 # 9007199254740992)%Q]; [(5262456164582425 # 2251799813685248)%Q; (-4332462841530417 # 4503599627370496)%Q; (3054566447264039 # 1125899906842624)%Q; (3321404725185741 # 2251799813685248)%Q]] 4 4) src_softmax_output));
mout (qresult (qdenote [((-6442399266953495 # 2251799813685248)%Q, (8245048983646271 # 144115188075855872)%Q); ((-4877398396442247 # 4503599627370496)%Q, (6099283805344411 # 18014398509481984)%Q); ((-4332462841530417 # 4503599627370496)%Q, (1720950912577599 # 4503599627370496)%Q); ((-6998593820933751 # 9007199254740992)%Q, (4141359745135905 # 9007199254740992)%Q); ((-8358680908399641 # 144115188075855872)%Q, (2124910775822277 # 2251799813685248)%Q); ((7584061772491915 # 18014398509481984)%Q, (6861163228546473 # 4503599627370496)%Q); ((4476578029606273 # 9007199254740992)%Q, (7402938338785803 # 4503599627370496)%Q); ((4057743264260817 # 4503599627370496)%Q, (693009391432569 # 281474976710656)%Q); ((4147815256808227 # 4503599627370496)%Q, (1414018219581267 # 562949953421312)%Q); ((3321404725185741 # 2251799813685248)%Q, (38448037262089 # 8796093022208)%Q); ((3542081106926895 # 2251799813685248)%Q, (2714032272675159 # 562949953421312)%Q); ((448389637900075 # 281474976710656)%Q, (2768859361459059 # 562949953421312)%Q); ((5262456164582425 # 2251799813685248)%Q, (2913305280886621 # 281474976710656)%Q); ((1468736428476203 # 562949953421312)%Q, (7647933285085571 # 562949953421312)%Q); ((3054566447264039 # 1125899906842624)%Q, (8486150252294975 # 562949953421312)%Q); ((6717118844223095 # 2251799813685248)%Q, (2779138788521849 # 140737488355328)%Q)] [] (qenv_sd [[(-8358680908399641 # 144115188075855872)%Q; (448389637900075 # 281474976710656)%Q; (3542081106926895 # 2251799813685248)%Q; (6717118844223095 # 2251799813685248)%Q]; [(-6442399266953495 # 2251799813685248)%Q; (1468736428476203 # 562949953421312)%Q; (7584061772491915 # 18014398509481984)%Q; (-4877398396442247 # 4503599627370496)%Q]; [(4057743264260817 # 4503599627370496)%Q; (-6998593820933751 # 9007199254740992)%Q; (4147815256808227 # 4503599627370496)%Q; (4476578029606273 # 9007199254740992)%Q]; [(5262456164582425 # 2251799813685248)%Q; (-4332462841530417 # 4503599627370496)%Q; (3054566447264039 # 1125899906842624)%Q; (3321404725185741 # 2251799813685248)%Q]] [[(-1030198414761001 # 562949953421312)%Q; (8381198906536493 # 4503599627370496)%Q; (2206763817411543 # 1125899906842624)%Q; (-6530219459687219 # 9007199254740992)%Q]; [(518758382077739 # 281474976710656)%Q; (7070651414971679 # 9007199254740992)%Q; (8286623314361713 # 36028797018963968)%Q; (-6223974685026025 # 4503599627370496)%Q]; [(-3134505340649865 # 18014398509481984)%Q; (-4075757662770299 # 2251799813685248)%Q; (-7638104968020361 # 72057594037927936)%Q; (5548434740920451 # 36028797018963968)%Q]; [(-941815272073855 # 562949953421312)%Q; (-6399615070493475 # 4503599627370496)%Q; (-8529817694239719 # 9007199254740992)%Q; (535928355657089 # 1125899906842624)%Q]] 4 4) src_softmax_gradient));
mout (qresult (qdenote [((-2758454771764429 # 1125899906842624)%Q, (3109054112024229 # 36028797018963968)%Q); ((-6494190662668255 # 9007199254740992)%Q, (136871639811743 # 281474976710656)%Q); ((4602678819172647 # 9007199254740992)%Q, (3753654180489683 # 2251799813685248)%Q); ((5255700765141369 # 2251799813685248)%Q, (5809156923635355 # 562949953421312)%Q)] [] (qenv_s [[(4602678819172647 # 9007199254740992)%Q; (5255700765141369 # 2251799813685248)%Q; (-2758454771764429 # 1125899906842624)%Q; (-6494190662668255 # 9007199254740992)%Q]] 1 4) src_softmax_output));
mout (qresult (qdenote [((-2758454771764429 # 1125899906842624)%Q, (3109054112024229 # 36028797018963968)%Q); ((-6494190662668255 # 9007199254740992)%Q, (136871639811743 # 281474976710656)%Q); ((4602678819172647 # 9007199254740992)%Q, (3753654180489683 # 2251799813685248)%Q); ((5255700765141369 # 2251799813685248)%Q, (5809156923635355 # 562949953421312)%Q)] [] (qenv_sd [[(4602678819172647 # 9007199254740992)%Q; (5255700765141369 # 2251799813685248)%Q; (-2758454771764429 # 1125899906842624)%Q; (-6494190662668255 # 9007199254740992)%Q]] [[(7998392938210001 # 36028797018963968)%Q; (-1261007895663739 # 18014398509481984)%Q; (-4093772061279781 # 2251799813685248)%Q; (-4032973466310279 # 2251799813685248)%Q]] 1 4) src_softmax_gradient));
mout (qresult (qdenote [((3440750115311059 # 9007199254740992)%Q, (3299364300311773 # 2251799813685248)%Q); ((626000348204499 # 281474976710656)%Q, (5204041069486719 # 562949953421312)%Q)] [((9999999999 # 10000000000)%Q, (-967140735761637 # 9671406556917033397649408)%Q)] (qenv_sl [[(3440750115311059 # 9007199254740992)%Q]; [(626000348204499 # 281474976710656)%Q]] [0; 0] 2 1) src_ce_loss));
mout (qresult (qdenote [((3440750115311059 # 9007199254740992)%Q, (3299364300311773 # 2251799813685248)%Q); ((626000348204499 # 281474976710656)%Q, (5204041069486719 # 562949953421312)%Q)] [] (qenv_sl [[(3440750115311059 # 9007199254740992)%Q]; [(626000348204499 # 281474976710656)%Q]] [0; 0] 2 1) src_ce_loss_gradient));
mout (qresult (qdenote [((-1625799465480749 # 2251799813685248)%Q, (8751029541436475 # 18014398509481984)%Q); ((-7782220156096217 # 144115188075855872)%Q, (4266854881800343 # 4503599627370496)%Q); ((1028509564900737 # 562949953421312)%Q, (6997707763611369 # 1125899906842624)%Q); ((6446902866580865 # 2251799813685248)%Q, (1232437494006695 # 70368744177664)%Q); ((3375447920714187 # 1125899906842624)%Q, (2821140092608831 # 140737488355328)%Q)] [((9999999999 # 10000000000)%Q, (-967140735761637 # 9671406556917033397649408)%Q)] (qenv_sl [[(6446902866580865 # 2251799813685248)%Q]; [(1028509564900737 # 562949953421312)%Q]; [(3375447920714187 # 1125899906842624)%Q]; [(-1625799465480749 # 2251799813685248)%Q]; [(-7782220156096217 # 144115188075855872)%Q]] [0; 0; 0; 0; 0] 5 1) src_ce_loss));
mout (qresult (qdenote [((-1625799465480749 # 2251799813685248)%Q, (8751029541436475 # 18014398509481984)%Q); ((-7782220156096217 # 144115188075855872)%Q, (4266854881800343 # 4503599627370496)%Q); ((1028509564900737 # 562949953421312)%Q, (6997707763611369 # 1125899906842624)%Q); ((6446902866580865 # 2251799813685248)%Q, (1232437494006695 # 70368744177664)%Q); ((3375447920714187 # 1125899906842624)%Q, (2821140092608831 # 140737488355328)%Q)] [] (qenv_sl [[(6446902866580865 # 2251799813685248)%Q]; [(1028509564900737 # 562949953421312)%Q]; [(3375447920714187 # 1125899906842624)%Q]; [(-1625799465480749 # 2251799813685248)%Q]; [(-7782220156096217 # 144115188075855872)%Q]] [0; 0; 0; 0; 0] 5 1) src_ce_loss_gradient));
mout (qresult (qdenote [((-4553139223271571 # 4503599627370496)%Q, (6554627936375245 # 18014398509481984)%Q); ((-290482175965397 # 2251799813685248)%Q, (7917093647398911 # 9007199254740992)%Q); ((-1261007895663739 # 36028797018963968)%Q, (4348700192844509 # 4503599627370496)%Q); ((1997346434738815 # 2251799813685248)%Q, (2733499436171027 # 1125899906842624)%Q)] [((9999999999 # 10000000000)%Q, (-967140735761637 # 9671406556917033397649408)%Q)] (qenv_sl [[(-4553139223271571 # 4503599627370496)%Q]; [(-1261007895663739 # 36028797018963968)%Q]; [(-290482175965397 # 2251799813685248)%Q]; [(1997346434738815 # 2251799813685248)%Q]] [0; 0; 0; 0] 4 1) src_ce_loss));
mout (qresult (qdenote [((-4553139223271571 # 4503599627370496)%Q, (6554627936375245 # 18014398509481984)%Q); ((-290482175965397 # 2251799813685248)%Q, (7917093647398911 # 9007199254740992)%Q); ((-1261007895663739 # 36028797018963968)%Q, (4348700192844509 # 4503599627370496)%Q); ((1997346434738815 # 2251799813685248)%Q, (2733499436171027 # 1125899906842624)%Q)] [] (qenv_sl [[(-4553139223271571 # 4503599627370496)%Q]; [(-1261007895663739 # 36028797018963968)%Q]; [(-290482175965397 # 2251799813685248)%Q]; [(1997346434738815 # 2251799813685248)%Q]] [0; 0; 0; 0] 4 1) src_ce_loss_gradient));
mout (qresult (qdenote [((-5363787156198261 # 2251799813685248)%Q, (51997244745219 # 562949953421312)%Q); ((3278620528725721 # 2251799813685248)%Q, (301795365442433 # 70368744177664)%Q)] [((9999999999 # 10000000000)%Q, (-967140735761637 # 9671406556917033397649408)%Q)] (qenv_sl [[(3278620528725721 # 2251799813685248)%Q]; [(-5363787156198261 # 2251799813685248)%Q]] [0; 0] 2 1) src_ce_loss));
mout (qresult (qdenote [((-5363787156198261 # 2251799813685248)%Q, (51997244745219 # 562949953421312)%Q); ((3278620528725721 # 2251799813685248)%Q, (301795365442433 # 70368744177664)%Q)] [] (qenv_sl [[(3278620528725721 # 2251799813685248)%Q]; [(-5363787156198261 # 2251799813685248)%Q]] [0; 0] 2 1) src_ce_loss_gradient))
].
Eval vm_compute in the_cases.
