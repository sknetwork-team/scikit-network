From SKN Require Import Base.Util Model.Gnn Model.NpExpr Gen.NpGnn.
Set Printing Depth 10000000.
Set Printing Width 1000000.
Definition qout (q : Q) : Z * Z := let r := Qred q in (Qnum r, Zpos (Qden r)).
Definition mout (m : list (list Q)) : list (list (Z * Z)) := map (map qout) m.

Definition the_cases := [
mout (qresult (qdenote [((-1382042135649321 # 562949953421312)%Q, (386693454993679 # 4503599627370496)%Q); ((-678354693872681 # 281474976710656)%Q, (1617968508670983 # 18014398509481984)%Q); ((-1344324488770093 # 562949953421312)%Q, (6615833005831269 # 72057594037927936)%Q); ((5134103575202365 # 18014398509481984)%Q, (748589471792413 # 562949953421312)%Q); ((1871245645172441 # 1125899906842624)%Q, (5933312355813209 # 1125899906842624)%Q); ((5053038781909697 # 2251799813685248)%Q, (5309169672644623 # 562949953421312)%Q)] [((9999999999 # 10000000000)%Q, (-967140735761637 # 9671406556917033397649408)%Q)] (qenv_sl [[(-1344324488770093 # 562949953421312)%Q]; [(-1382042135649321 # 562949953421312)%Q]; [(1871245645172441 # 1125899906842624)%Q]; [(-678354693872681 # 281474976710656)%Q]; [(5134103575202365 # 18014398509481984)%Q]; [(5053038781909697 # 2251799813685248)%Q]] [0; 0; 0; 0; 0; 0] 6 1) src_ce_loss));
mout (qresult (qdenote [((-1382042135649321 # 562949953421312)%Q, (386693454993679 # 4503599627370496)%Q); ((-678354693872681 # 281474976710656)%Q, (1617968508670983 # 18014398509481984)%Q); ((-1344324488770093 # 562949953421312)%Q, (6615833005831269 # 72057594037927936)%Q); ((5134103575202365 # 18014398509481984)%Q, (748589471792413 # 562949953421312)%Q); ((1871245645172441 # 1125899906842624)%Q, (5933312355813209 # 1125899906842624)%Q); ((5053038781909697 # 2251799813685248)%Q, (5309169672644623 # 562949953421312)%Q)] [] (qenv_sl [[(-1344324488770093 # 562949953421312)%Q]; [(-1382042135649321 # 562949953421312)%Q]; [(1871245645172441 # 1125899906842624)%Q]; [(-678354693872681 # 281474976710656)%Q]; [(5134103575202365 # 18014398509481984)%Q]; [(5053038781909697 # 2251799813685248)%Q]] [0; 0; 0; 0; 0; 0] 6 1) src_ce_loss_gradient));
mout (qresult (qdenote [((-11 # 8)%Q, (1138688309450763 # 4503599627370496)%Q); ((7638104968020361 # 18014398509481984)%Q, (3440888812182523 # 2251799813685248)%Q); ((4877398396442247 # 2251799813685248)%Q, (2455396540840041 # 281474976710656)%Q)] [((9999999999 # 10000000000)%Q, (-967140735761637 # 9671406556917033397649408)%Q)] (qenv_sl [[(4877398396442247 # 2251799813685248)%Q]; [(7638104968020361 # 18014398509481984)%Q]; [(-11 # 8)%Q]] [0; 0; 0] 3 1) src_ce_loss));
mout (qresult (qdenote [((-11 # 8)%Q, (1138688309450763 # 4503599627370496)%Q); ((7638104968020361 # 18014398509481984)%Q, (3440888812182523 # 2251799813685248)%Q); ((4877398396442247 # 2251799813685248)%Q, (2455396540840041 # 281474976710656)%Q)] [] (qenv_sl [[(4877398396442247 # 2251799813685248)%Q]; [(7638104968020361 # 18014398509481984)%Q]; [(-11 # 8)%Q]] [0; 0; 0] 3 1) src_ce_loss_gradient));
mout (qresult (qdenote [((-5219671968122405 # 2251799813685248)%Q, (7095535024565709 # 72057594037927936)%Q)] [((9999999999 # 10000000000)%Q, (-967140735761637 # 9671406556917033397649408)%Q)] (qenv_sl [[(-5219671968122405 # 2251799813685248)%Q]] [0] 1 1) src_ce_loss));
mout (qresult (qdenote [((-5219671968122405 # 2251799813685248)%Q, (7095535024565709 # 72057594037927936)%Q)] [] (qenv_sl [[(-5219671968122405 # 2251799813685248)%Q]] [0] 1 1) src_ce_loss_gradient));
mout (qresult (qdenote [((-7435442984788689 # 4503599627370496)%Q, (6912411306543175 # 36028797018963968)%Q); ((-1170935903116329 # 18014398509481984)%Q, (2110088339443745 # 2251799813685248)%Q); ((5566449139429933 # 18014398509481984)%Q, (3067091792127293 # 2251799813685248)%Q); ((324822123124097 # 281474976710656)%Q, (7140121647322799 # 2251799813685248)%Q); ((5435844750236189 # 2251799813685248)%Q, (1573246142367157 # 140737488355328)%Q)] [((9999999999 # 10000000000)%Q, (-967140735761637 # 9671406556917033397649408)%Q)] (qenv_sl [[(-1170935903116329 # 18014398509481984)%Q]; [(5435844750236189 # 2251799813685248)%Q]; [(324822123124097 # 281474976710656)%Q]; [(-7435442984788689 # 4503599627370496)%Q]; [(5566449139429933 # 18014398509481984)%Q]] [0; 0; 0; 0; 0] 5 1) src_ce_loss));
mout (qresult (qdenote [((-7435442984788689 # 4503599627370496)%Q, (6912411306543175 # 36028797018963968)%Q); ((-1170935903116329 # 18014398509481984)%Q, (2110088339443745 # 2251799813685248)%Q); ((5566449139429933 # 18014398509481984)%Q, (3067091792127293 # 2251799813685248)%Q); ((324822123124097 # 281474976710656)%Q, (7140121647322799 # 2251799813685248)%Q); ((5435844750236189 # 2251799813685248)%Q, (1573246142367157 # 140737488355328)%Q)] [] (qenv_sl [[(-1170935903116329 # 18014398509481984)%Q]; [(5435844750236189 # 2251799813685248)%Q]; [(324822123124097 # 281474976710656)%Q]; [(-7435442984788689 # 4503599627370496)%Q]; [(5566449139429933 # 18014398509481984)%Q]] [0; 0; 0; 0; 0] 5 1) src_ce_loss_gradient));
mout (qresult (qdenote [((-783063385209045 # 281474976710656)%Q, (8922827645783451 # 144115188075855872)%Q); ((-5050786982096011 # 2251799813685248)%Q, (3824082372513087 # 36028797018963968)%Q); ((-6854478632857895 # 4503599627370496)%Q, (491511379851607 # 2251799813685248)%Q); ((-6332061076082917 # 9007199254740992)%Q, (8918888715140867 # 18014398509481984)%Q); ((3170534137668829 # 144115188075855872)%Q, (4603776726822871 # 4503599627370496)%Q); ((5974024905706963 # 2251799813685248)%Q, (249748604196201 # 17592186044416)%Q)] [((983022759703214 # 5586799486526085)%Q, (-3912568798780841 # 2251799813685248)%Q); ((3824082372513087 # 21661859802794821)%Q, (-7810298142833089 # 4503599627370496)%Q); ((227326729508364288 # 228318154802340227)%Q, (-5017228920462065 # 1152921504606846976)%Q)] (qenv_sl [[(-5050786982096011 # 2251799813685248)%Q; (-6332061076082917 # 9007199254740992)%Q]; [(3170534137668829 # 144115188075855872)%Q; (-6854478632857895 # 4503599627370496)%Q]; [(-783063385209045 # 281474976710656)%Q; (5974024905706963 # 2251799813685248)%Q]] [0; 1; 1] 3 2) src_ce_loss));
mout (qresult (qdenote [((-783063385209045 # 281474976710656)%Q, (8922827645783451 # 144115188075855872)%Q); ((-5050786982096011 # 2251799813685248)%Q, (3824082372513087 # 36028797018963968)%Q); ((-6854478632857895 # 4503599627370496)%Q, (491511379851607 # 2251799813685248)%Q); ((-6332061076082917 # 9007199254740992)%Q, (8918888715140867 # 18014398509481984)%Q); ((3170534137668829 # 144115188075855872)%Q, (4603776726822871 # 4503599627370496)%Q); ((5974024905706963 # 2251799813685248)%Q, (249748604196201 # 17592186044416)%Q)] [] (qenv_sl [[(-5050786982096011 # 2251799813685248)%Q; (-6332061076082917 # 9007199254740992)%Q]; [(3170534137668829 # 144115188075855872)%Q; (-6854478632857895 # 4503599627370496)%Q]; [(-783063385209045 # 281474976710656)%Q; (5974024905706963 # 2251799813685248)%Q]] [0; 1; 1] 3 2) src_ce_loss_gradient));
mout (qresult (qdenote [((-6615787852607259 # 2251799813685248)%Q, (7634007196446629 # 144115188075855872)%Q); ((-4530621225134719 # 2251799813685248)%Q, (4817805509425549 # 36028797018963968)%Q); ((-7435442984788689 # 4503599627370496)%Q, (6912411306543175 # 36028797018963968)%Q); ((-3224577333197275 # 2251799813685248)%Q, (8604785791713467 # 36028797018963968)%Q); ((7782220156096217 # 288230376151711744)%Q, (289178328356131 # 281474976710656)%Q); ((5098074778183401 # 18014398509481984)%Q, (5976750312241211 # 4503599627370496)%Q); ((3769512888109105 # 4503599627370496)%Q, (325023136942749 # 140737488355328)%Q); ((5 # 4)%Q, (491222101331887 # 140737488355328)%Q); ((3476778912330023 # 2251799813685248)%Q, (5272911269540735 # 1125899906842624)%Q); ((5667780131045769 # 2251799813685248)%Q, (871964916587981 # 70368744177664)%Q); ((5836665117072163 # 2251799813685248)%Q, (7519017309740997 # 562949953421312)%Q); ((3249347131147813 # 1125899906842624)%Q, (2522224099400951 # 140737488355328)%Q)] [((8604785791713467 # 177337946417016987)%Q, (-6813357791557807 # 2251799813685248)%Q); ((7519017309740997 # 17607913707344801)%Q, (-1916085714419085 # 2251799813685248)%Q); ((10400740382167968 # 16377490694409179)%Q, (-8179093193945385 # 18014398509481984)%Q); ((125752857940963072 # 132665269247506247)%Q, (-7711697008965613 # 144115188075855872)%Q); ((148059304118339072 # 155693311314785701)%Q, (-7245423090031871 # 144115188075855872)%Q); ((446446037293046272 # 451263842802471821)%Q, (-6187527873742719 # 576460752303423488)%Q)] (qenv_sl [[(-6615787852607259 # 2251799813685248)%Q; (7782220156096217 # 288230376151711744)%Q]; [(-7435442984788689 # 4503599627370496)%Q; (5 # 4)%Q]; [(3476778912330023 # 2251799813685248)%Q; (-3224577333197275 # 2251799813685248)%Q]; [(-4530621225134719 # 2251799813685248)%Q; (5667780131045769 # 2251799813685248)%Q]; [(3249347131147813 # 1125899906842624)%Q; (5836665117072163 # 2251799813685248)%Q]; [(3769512888109105 # 4503599627370496)%Q; (5098074778183401 # 18014398509481984)%Q]] [1; 1; 1; 1; 1; 0] 6 2) src_ce_loss));
mout (qresult (qdenote [((-6615787852607259 # 2251799813685248)%Q, (7634007196446629 # 144115188075855872)%Q); ((-4530621225134719 # 2251799813685248)%Q, (4817805509425549 # 36028797018963968)%Q); ((-7435442984788689 # 4503599627370496)%Q, (6912411306543175 # 36028797018963968)%Q); ((-3224577333197275 # 2251799813685248)%Q, (8604785791713467 # 36028797018963968)%Q); ((7782220156096217 # 288230376151711744)%Q, (289178328356131 # 281474976710656)%Q); ((5098074778183401 # 18014398509481984)%Q, (5976750312241211 # 4503599627370496)%Q); ((3769512888109105 # 4503599627370496)%Q, (325023136942749 # 140737488355328)%Q); ((5 # 4)%Q, (491222101331887 # 140737488355328)%Q); ((3476778912330023 # 2251799813685248)%Q, (5272911269540735 # 1125899906842624)%Q); ((5667780131045769 # 2251799813685248)%Q, (871964916587981 # 70368744177664)%Q); ((5836665117072163 # 2251799813685248)%Q, (7519017309740997 # 562949953421312)%Q); ((3249347131147813 # 1125899906842624)%Q, (2522224099400951 # 140737488355328)%Q)] [] (qenv_sl [[(-6615787852607259 # 2251799813685248)%Q; (7782220156096217 # 288230376151711744)%Q]; [(-7435442984788689 # 4503599627370496)%Q; (5 # 4)%Q]; [(3476778912330023 # 2251799813685248)%Q; (-3224577333197275 # 2251799813685248)%Q]; [(-4530621225134719 # 2251799813685248)%Q; (5667780131045769 # 2251799813685248)%Q]; [(3249347131147813 # 1125899906842624)%Q; (5836665117072163 # 2251799813685248)%Q]; [(3769512888109105 # 4503599627370496)%Q; (5098074778183401 # 18014398509481984)%Q]] [1; 1; 1; 1; 1; 0] 6 2) src_ce_loss_gradient));
mout (qresult (qdenote [((-4996743786567565 # 2251799813685248)%Q, (489621318622669 # 4503599627370496)%Q); ((-8800033671881949 # 9007199254740992)%Q, (6781317165803917 # 18014398509481984)%Q); ((-6016809102166983 # 9007199254740992)%Q, (4618288466995215 # 9007199254740992)%Q); ((1805943450575569 # 4503599627370496)%Q, (6725303093962347 # 4503599627370496)%Q); ((8088464930757411 # 18014398509481984)%Q, (7055990654348165 # 4503599627370496)%Q); ((5656521131977343 # 9007199254740992)%Q, (2109777798313781 # 1125899906842624)%Q); ((8394709705418605 # 4503599627370496)%Q, (7261472508164507 # 1125899906842624)%Q); ((3257228430495711 # 1125899906842624)%Q, (1269970803513509 # 70368744177664)%Q)] [((489621318622669 # 29535511351280697)%Q, (-4615870222547663 # 1125899906842624)%Q); ((6781317165803917 # 16017894099794347)%Q, (-1935501030341101 # 2251799813685248)%Q); ((7055990654348165 # 13781293748310512)%Q, (-6029735810444139 # 9007199254740992)%Q); ((20319532856216144 # 22429310654529925)%Q, (-444892510744841 # 4503599627370496)%Q)] (qenv_sl [[(-8800033671881949 # 9007199254740992)%Q; (-6016809102166983 # 9007199254740992)%Q]; [(1805943450575569 # 4503599627370496)%Q; (8088464930757411 # 18014398509481984)%Q]; [(3257228430495711 # 1125899906842624)%Q; (5656521131977343 # 9007199254740992)%Q]; [(-4996743786567565 # 2251799813685248)%Q; (8394709705418605 # 4503599627370496)%Q]] [0; 1; 0; 0] 4 2) src_ce_loss));
mout (qresult (qdenote [((-4996743786567565 # 2251799813685248)%Q, (489621318622669 # 4503599627370496)%Q); ((-8800033671881949 # 9007199254740992)%Q, (6781317165803917 # 18014398509481984)%Q); ((-6016809102166983 # 9007199254740992)%Q, (4618288466995215 # 9007199254740992)%Q); ((1805943450575569 # 4503599627370496)%Q, (6725303093962347 # 4503599627370496)%Q); ((8088464930757411 # 18014398509481984)%Q, (7055990654348165 # 4503599627370496)%Q); ((5656521131977343 # 9007199254740992)%Q, (2109777798313781 # 1125899906842624)%Q); ((8394709705418605 # 4503599627370496)%Q, (7261472508164507 # 1125899906842624)%Q); ((3257228430495711 # 1125899906842624)%Q, (1269970803513509 # 70368744177664)%Q)] [] (qenv_sl [[(-8800033671881949 # 9007199254740992)%Q; (-6016809102166983 # 9007199254740992)%Q]; [(1805943450575569 # 4503599627370496)%Q; (8088464930757411 # 18014398509481984)%Q]; [(3257228430495711 # 1125899906842624)%Q; (5656521131977343 # 9007199254740992)%Q]; [(-4996743786567565 # 2251799813685248)%Q; (8394709705418605 # 4503599627370496)%Q]] [0; 1; 0; 0] 4 2) src_ce_loss_gradient));
mout (qresult (qdenote [((-6489687063040885 # 2251799813685248)%Q, (8073708328590577 # 144115188075855872)%Q); ((-5681290929927881 # 2251799813685248)%Q, (5780358566265655 # 72057594037927936)%Q); ((-3105231943071957 # 2251799813685248)%Q, (4536570614342253 # 18014398509481984)%Q); ((-5260204364768739 # 9007199254740992)%Q, (2511491988324033 # 4503599627370496)%Q)] [((8073708328590577 # 19634425461121887)%Q, (-4002220769738349 # 4503599627370496)%Q); ((3348655984432044 # 4860846189212795)%Q, (-6713128098398187 # 18014398509481984)%Q)] (qenv_sl [[(-5681290929927881 # 2251799813685248)%Q; (-6489687063040885 # 2251799813685248)%Q]; [(-3105231943071957 # 2251799813685248)%Q; (-5260204364768739 # 9007199254740992)%Q]] [1; 1] 2 2) src_ce_loss));
mout (qresult (qdenote [((-6489687063040885 # 2251799813685248)%Q, (8073708328590577 # 144115188075855872)%Q); ((-5681290929927881 # 2251799813685248)%Q, (5780358566265655 # 72057594037927936)%Q); ((-3105231943071957 # 2251799813685248)%Q, (4536570614342253 # 18014398509481984)%Q); ((-5260204364768739 # 9007199254740992)%Q, (2511491988324033 # 4503599627370496)%Q)] [] (qenv_sl [[(-5681290929927881 # 2251799813685248)%Q; (-6489687063040885 # 2251799813685248)%Q]; [(-3105231943071957 # 2251799813685248)%Q; (-5260204364768739 # 9007199254740992)%Q]] [1; 1] 2 2) src_ce_loss_gradient));
mout (qresult (qdenote [((-4213117451405099 # 2251799813685248)%Q, (2773670006374637 # 18014398509481984)%Q); ((5080060379673919 # 36028797018963968)%Q, (2592777807804649 # 2251799813685248)%Q); ((6985083022051639 # 4503599627370496)%Q, (5309951136716635 # 1125899906842624)%Q); ((3036552048754557 # 1125899906842624)%Q, (32622860567881 # 2199023255552)%Q)] [((2773670006374637 # 23515892468811829)%Q, (-4813233614126653 # 2251799813685248)%Q); ((16702904610755072 # 22012855747471707)%Q, (-2486383326949123 # 9007199254740992)%Q)] (qenv_sl [[(3036552048754557 # 1125899906842624)%Q; (6985083022051639 # 4503599627370496)%Q]; [(-4213117451405099 # 2251799813685248)%Q; (5080060379673919 # 36028797018963968)%Q]] [0; 0] 2 2) src_ce_loss));
mout (qresult (qdenote [((-4213117451405099 # 2251799813685248)%Q, (2773670006374637 # 18014398509481984)%Q); ((5080060379673919 # 36028797018963968)%Q, (2592777807804649 # 2251799813685248)%Q); ((6985083022051639 # 4503599627370496)%Q, (5309951136716635 # 1125899906842624)%Q); ((3036552048754557 # 1125899906842624)%Q, (32622860567881 # 2199023255552)%Q)] [] (qenv_sl [[(3036552048754557 # 1125899906842624)%Q; (6985083022051639 # 4503599627370496)%Q]; [(-4213117451405099 # 2251799813685248)%Q; (5080060379673919 # 36028797018963968)%Q]] [0; 0] 2 2) src_ce_loss_gradient));
mout (qresult (qdenote [((-5919981710178517 # 2251799813685248)%Q, (1299749242304035 # 18014398509481984)%Q); ((-2949857755927675 # 2251799813685248)%Q, (4860646021564647 # 18014398509481984)%Q); ((-4836865999795913 # 9007199254740992)%Q, (658087507147411 # 1125899906842624)%Q); ((-4728779608739021 # 9007199254740992)%Q, (5328257037062813 # 9007199254740992)%Q); ((7818248953115181 # 9007199254740992)%Q, (1341026616736679 # 562949953421312)%Q); ((4411275835009401 # 2251799813685248)%Q, (1996285636214463 # 281474976710656)%Q); ((2412803500363743 # 1125899906842624)%Q, (2399566922149651 # 281474976710656)%Q); ((6183442288379691 # 2251799813685248)%Q, (2192716292335553 # 140737488355328)%Q)] [((1299749242304035 # 44212600977877763)%Q, (-3970867119598399 # 1125899906842624)%Q); ((4860646021564647 # 15517160095690273)%Q, (-2613833287127115 # 2251799813685248)%Q); ((2399566922149651 # 4395852558364114)%Q, (-5452717252581137 # 9007199254740992)%Q); ((762683927768888 # 791296428079645)%Q, (-1326902853153873 # 36028797018963968)%Q)] (qenv_sl [[(-4836865999795913 # 9007199254740992)%Q; (6183442288379691 # 2251799813685248)%Q]; [(7818248953115181 # 9007199254740992)%Q; (-5919981710178517 # 2251799813685248)%Q]; [(-4728779608739021 # 9007199254740992)%Q; (-2949857755927675 # 2251799813685248)%Q]; [(2412803500363743 # 1125899906842624)%Q; (4411275835009401 # 2251799813685248)%Q]] [1; 1; 1; 0] 4 2) src_ce_loss));
mout (qresult (qdenote [((-5919981710178517 # 2251799813685248)%Q, (1299749242304035 # 18014398509481984)%Q); ((-2949857755927675 # 2251799813685248)%Q, (4860646021564647 # 18014398509481984)%Q); ((-4836865999795913 # 9007199254740992)%Q, (658087507147411 # 1125899906842624)%Q); ((-4728779608739021 # 9007199254740992)%Q, (5328257037062813 # 9007199254740992)%Q); ((7818248953115181 # 9007199254740992)%Q, (1341026616736679 # 562949953421312)%Q); ((4411275835009401 # 2251799813685248)%Q, (1996285636214463 # 281474976710656)%Q); ((2412803500363743 # 1125899906842624)%Q, (2399566922149651 # 281474976710656)%Q); ((6183442288379691 # 2251799813685248)%Q, (2192716292335553 # 140737488355328)%Q)] [] (qenv_sl [[(-4836865999795913 # 9007199254740992)%Q; (6183442288379691 # 2251799813685248)%Q]; [(7818248953115181 # 9007199254740992)%Q; (-5919981710178517 # 2251799813685248)%Q]; [(-4728779608739021 # 9007199254740992)%Q; (-2949857755927675 # 2251799813685248)%Q]; [(2412803500363743 # 1125899906842624)%Q; (4411275835009401 # 2251799813685248)%Q]] [1; 1; 1; 0] 4 2) src_ce_loss_gradient));
mout (qresult (qdenote [((-1291970143101911 # 562949953421312)%Q, (7260623570823435 # 72057594037927936)%Q); ((-3357433522204705 # 2251799813685248)%Q, (4055894906497559 # 18014398509481984)%Q); ((-1503076375634903 # 1125899906842624)%Q, (2370318121846541 # 9007199254740992)%Q); ((-5643010333095231 # 4503599627370496)%Q, (2572875576502593 # 9007199254740992)%Q); ((-5620492334958379 # 4503599627370496)%Q, (5171544337996911 # 18014398509481984)%Q); ((-8250594517342749 # 9007199254740992)%Q, (1801963663072993 # 4503599627370496)%Q); ((-2805742567851819 # 4503599627370496)%Q, (2415429200786057 # 4503599627370496)%Q); ((3566850904877433 # 9007199254740992)%Q, (1672940126211423 # 1125899906842624)%Q); ((2596325185179091 # 2251799813685248)%Q, (3566492547273289 # 1125899906842624)%Q); ((3512807709348987 # 2251799813685248)%Q, (2678978198290705 # 562949953421312)%Q); ((360850920143061 # 140737488355328)%Q, (7311404961769353 # 562949953421312)%Q); ((6280269680368157 # 2251799813685248)%Q, (1144529815112709 # 70368744177664)%Q)] [((5171544337996911 # 90898846683299471)%Q, (-6454955208193281 # 2251799813685248)%Q); ((2370318121846541 # 30902258500032853)%Q, (-5782183039189829 # 2251799813685248)%Q); ((4055894906497559 # 9201646059502745)%Q, (-7378796999028225 # 9007199254740992)%Q); ((6691760504845692 # 9107189705631749)%Q, (-173493961390873 # 562949953421312)%Q); ((58491239694154824 # 60293203357227817)%Q, (-8745598299585049 # 288230376151711744)%Q); ((390666176891804672 # 393086384748745817)%Q, (-3560203423354979 # 576460752303423488)%Q)] (qenv_sl [[(-5643010333095231 # 4503599627370496)%Q; (-3357433522204705 # 2251799813685248)%Q]; [(-8250594517342749 # 9007199254740992)%Q; (360850920143061 # 140737488355328)%Q]; [(-5620492334958379 # 4503599627370496)%Q; (3512807709348987 # 2251799813685248)%Q]; [(2596325185179091 # 2251799813685248)%Q; (-1503076375634903 # 1125899906842624)%Q]; [(3566850904877433 # 9007199254740992)%Q; (-2805742567851819 # 4503599627370496)%Q]; [(6280269680368157 # 2251799813685248)%Q; (-1291970143101911 # 562949953421312)%Q]] [1; 1; 0; 1; 0; 0] 6 2) src_ce_loss));
mout (qresult (qdenote [((-1291970143101911 # 562949953421312)%Q, (7260623570823435 # 72057594037927936)%Q); ((-3357433522204705 # 2251799813685248)%Q, (4055894906497559 # 18014398509481984)%Q); ((-1503076375634903 # 1125899906842624)%Q, (2370318121846541 # 9007199254740992)%Q); ((-5643010333095231 # 4503599627370496)%Q, (2572875576502593 # 9007199254740992)%Q); ((-5620492334958379 # 4503599627370496)%Q, (5171544337996911 # 18014398509481984)%Q); ((-8250594517342749 # 9007199254740992)%Q, (1801963663072993 # 4503599627370496)%Q); ((-2805742567851819 # 4503599627370496)%Q, (2415429200786057 # 4503599627370496)%Q); ((3566850904877433 # 9007199254740992)%Q, (1672940126211423 # 1125899906842624)%Q); ((2596325185179091 # 2251799813685248)%Q, (3566492547273289 # 1125899906842624)%Q); ((3512807709348987 # 2251799813685248)%Q, (2678978198290705 # 562949953421312)%Q); ((360850920143061 # 140737488355328)%Q, (7311404961769353 # 562949953421312)%Q); ((6280269680368157 # 2251799813685248)%Q, (1144529815112709 # 70368744177664)%Q)] [] (qenv_sl [[(-5643010333095231 # 4503599627370496)%Q; (-3357433522204705 # 2251799813685248)%Q]; [(-8250594517342749 # 9007199254740992)%Q; (360850920143061 # 140737488355328)%Q]; [(-5620492334958379 # 4503599627370496)%Q; (3512807709348987 # 2251799813685248)%Q]; [(2596325185179091 # 2251799813685248)%Q; (-1503076375634903 # 1125899906842624)%Q]; [(3566850904877433 # 9007199254740992)%Q; (-2805742567851819 # 4503599627370496)%Q]; [(6280269680368157 # 2251799813685248)%Q; (-1291970143101911 # 562949953421312)%Q]] [1; 1; 0; 1; 0; 0] 6 2) src_ce_loss_gradient));
mout (qresult (qdenote [((-2254051613498933 # 1125899906842624)%Q, (4866225259774303 # 36028797018963968)%Q); ((-6314046677573435 # 9007199254740992)%Q, (8936744342246379 # 18014398509481984)%Q); ((-7602076171001397 # 18014398509481984)%Q, (5906327150932909 # 9007199254740992)%Q); ((-817403332367745 # 2251799813685248)%Q, (3132642802710497 # 4503599627370496)%Q); ((5908722711110091 # 144115188075855872)%Q, (1173021188577447 # 1125899906842624)%Q); ((4440549232587309 # 4503599627370496)%Q, (6035929214679271 # 2251799813685248)%Q); ((1149543804886319 # 1125899906842624)%Q, (6250927255641285 # 2251799813685248)%Q); ((2398166801574789 # 2251799813685248)%Q, (1633027170959097 # 562949953421312)%Q); ((1730508156817113 # 1125899906842624)%Q, (2618064888036033 # 562949953421312)%Q); ((4591419820104221 # 2251799813685248)%Q, (2162550413096405 # 281474976710656)%Q)] [((2978914780748793 # 9235027786495177)%Q, (-2547786639974957 # 2251799813685248)%Q); ((6035929214679271 # 12286856470320556)%Q, (-6402319912116893 # 9007199254740992)%Q); ((4325100826192810 # 6943165714228843)%Q, (-2131654461647179 # 4503599627370496)%Q); ((26128434735345552 # 32034761886278461)%Q, (-3671288432190729 # 18014398509481984)%Q); ((25061142421683976 # 29927367681458279)%Q, (-3196742078094593 # 18014398509481984)%Q)] (qenv_sl [[(-7602076171001397 # 18014398509481984)%Q; (2398166801574789 # 2251799813685248)%Q]; [(-817403332367745 # 2251799813685248)%Q; (-2254051613498933 # 1125899906842624)%Q]; [(4440549232587309 # 4503599627370496)%Q; (1149543804886319 # 1125899906842624)%Q]; [(5908722711110091 # 144115188075855872)%Q; (-6314046677573435 # 9007199254740992)%Q]; [(4591419820104221 # 2251799813685248)%Q; (1730508156817113 # 1125899906842624)%Q]] [1; 0; 0; 1; 0] 5 2) src_ce_loss));
mout (qresult (qdenote [((-2254051613498933 # 1125899906842624)%Q, (4866225259774303 # 36028797018963968)%Q); ((-6314046677573435 # 9007199254740992)%Q, (8936744342246379 # 18014398509481984)%Q); ((-7602076171001397 # 18014398509481984)%Q, (5906327150932909 # 9007199254740992)%Q); ((-817403332367745 # 2251799813685248)%Q, (3132642802710497 # 4503599627370496)%Q); ((5908722711110091 # 144115188075855872)%Q, (1173021188577447 # 1125899906842624)%Q); ((4440549232587309 # 4503599627370496)%Q, (6035929214679271 # 2251799813685248)%Q); ((1149543804886319 # 1125899906842624)%Q, (6250927255641285 # 2251799813685248)%Q); ((2398166801574789 # 2251799813685248)%Q, (1633027170959097 # 562949953421312)%Q); ((1730508156817113 # 1125899906842624)%Q, (2618064888036033 # 562949953421312)%Q); ((4591419820104221 # 2251799813685248)%Q, (2162550413096405 # 281474976710656)%Q)] [] (qenv_sl [[(-7602076171001397 # 18014398509481984)%Q; (2398166801574789 # 2251799813685248)%Q]; [(-817403332367745 # 2251799813685248)%Q; (-2254051613498933 # 1125899906842624)%Q]; [(4440549232587309 # 4503599627370496)%Q; (1149543804886319 # 1125899906842624)%Q]; [(5908722711110091 # 144115188075855872)%Q; (-6314046677573435 # 9007199254740992)%Q]; [(4591419820104221 # 2251799813685248)%Q; (1730508156817113 # 1125899906842624)%Q]] [1; 0; 0; 1; 0] 5 2) src_ce_loss_gradient));
mout (qresult (qdenote [((-6541478458755645 # 2251799813685248)%Q, (7890132254459423 # 144115188075855872)%Q); ((-6446902866580865 # 2251799813685248)%Q, (8228575364789043 # 144115188075855872)%Q); ((-2993767852294537 # 1125899906842624)%Q, (5045343387708035 # 72057594037927936)%Q); ((-2910451259188183 # 1125899906842624)%Q, (1358215023987341 # 18014398509481984)%Q); ((-1575133969672831 # 1125899906842624)%Q, (8893480995081377 # 36028797018963968)%Q); ((-6818449835838931 # 9007199254740992)%Q, (2112510380760257 # 4503599627370496)%Q); ((-1787929052066087 # 4503599627370496)%Q, (6055846534615481 # 9007199254740992)%Q); ((-7493989779944505 # 72057594037927936)%Q, (8117515827286005 # 9007199254740992)%Q); ((-3170534137668829 # 72057594037927936)%Q, (8619474972572669 # 9007199254740992)%Q); ((-5476377146882523 # 288230376151711744)%Q, (2209419505090161 # 2251799813685248)%Q); ((6674334647763075 # 9007199254740992)%Q, (4724349188836141 # 2251799813685248)%Q); ((2817001566920245 # 2251799813685248)%Q, (7867417106018565 # 2251799813685248)%Q); ((3159275138600403 # 2251799813685248)%Q, (4579467079126309 # 1125899906842624)%Q); ((7385903388887613 # 4503599627370496)%Q, (2902102436791481 # 562949953421312)%Q); ((2737062673534419 # 1125899906842624)%Q, (6400879818299933 # 562949953421312)%Q); ((175710754211627 # 70368744177664)%Q, (1709397708819149 # 140737488355328)%Q); ((5757852123593179 # 2251799813685248)%Q, (3630201919610151 # 281474976710656)%Q); ((5854679515581645 # 2251799813685248)%Q, (7579410699680949 # 562949953421312)%Q)] [((8893480995081377 # 158995540829840341)%Q, (-3246597256685073 # 1125899906842624)%Q); ((2945892673453548 # 46075255014180611)%Q, (-6192143585594353 # 2251799813685248)%Q); ((8450041523041028 # 47603050057717497)%Q, (-7785487430710835 # 4503599627370496)%Q); ((875211626915404288 # 1251726082212421891)%Q, (-3222893231046699 # 9007199254740992)%Q); ((1858663382840397312 # 2452725301223024287)%Q, (-4996152124473409 # 18014398509481984)%Q); ((1638625233484782848 # 1784765408410734595)%Q, (-384739655079577 # 4503599627370496)%Q)] (qenv_sl [[(-6818449835838931 # 9007199254740992)%Q; (-2910451259188183 # 1125899906842624)%Q; (6674334647763075 # 9007199254740992)%Q]; [(-1787929052066087 # 4503599627370496)%Q; (2817001566920245 # 2251799813685248)%Q; (-1575133969672831 # 1125899906842624)%Q]; [(-5476377146882523 # 288230376151711744)%Q; (-7493989779944505 # 72057594037927936)%Q; (5854679515581645 # 2251799813685248)%Q]; [(-6446902866580865 # 2251799813685248)%Q; (-3170534137668829 # 72057594037927936)%Q; (2737062673534419 # 1125899906842624)%Q]; [(5757852123593179 # 2251799813685248)%Q; (3159275138600403 # 2251799813685248)%Q; (-6541478458755645 # 2251799813685248)%Q]; [(7385903388887613 # 4503599627370496)%Q; (-2993767852294537 # 1125899906842624)%Q; (175710754211627 # 70368744177664)%Q]] [0; 2; 0; 2; 0; 2] 6 3) src_ce_loss));
mout (qresult (qdenote [((-6541478458755645 # 2251799813685248)%Q, (7890132254459423 # 144115188075855872)%Q); ((-6446902866580865 # 2251799813685248)%Q, (8228575364789043 # 144115188075855872)%Q); ((-2993767852294537 # 1125899906842624)%Q, (5045343387708035 # 72057594037927936)%Q); ((-2910451259188183 # 1125899906842624)%Q, (1358215023987341 # 18014398509481984)%Q); ((-1575133969672831 # 1125899906842624)%Q, (8893480995081377 # 36028797018963968)%Q); ((-6818449835838931 # 9007199254740992)%Q, (2112510380760257 # 4503599627370496)%Q); ((-1787929052066087 # 4503599627370496)%Q, (6055846534615481 # 9007199254740992)%Q); ((-7493989779944505 # 72057594037927936)%Q, (8117515827286005 # 9007199254740992)%Q); ((-3170534137668829 # 72057594037927936)%Q, (8619474972572669 # 9007199254740992)%Q); ((-5476377146882523 # 288230376151711744)%Q, (2209419505090161 # 2251799813685248)%Q); ((6674334647763075 # 9007199254740992)%Q, (4724349188836141 # 2251799813685248)%Q); ((2817001566920245 # 2251799813685248)%Q, (7867417106018565 # 2251799813685248)%Q); ((3159275138600403 # 2251799813685248)%Q, (4579467079126309 # 1125899906842624)%Q); ((7385903388887613 # 4503599627370496)%Q, (2902102436791481 # 562949953421312)%Q); ((2737062673534419 # 1125899906842624)%Q, (6400879818299933 # 562949953421312)%Q); ((175710754211627 # 70368744177664)%Q, (1709397708819149 # 140737488355328)%Q); ((5757852123593179 # 2251799813685248)%Q, (3630201919610151 # 281474976710656)%Q); ((5854679515581645 # 2251799813685248)%Q, (7579410699680949 # 562949953421312)%Q)] [] (qenv_sl [[(-6818449835838931 # 9007199254740992)%Q; (-2910451259188183 # 1125899906842624)%Q; (6674334647763075 # 9007199254740992)%Q]; [(-1787929052066087 # 4503599627370496)%Q; (2817001566920245 # 2251799813685248)%Q; (-1575133969672831 # 1125899906842624)%Q]; [(-5476377146882523 # 288230376151711744)%Q; (-7493989779944505 # 72057594037927936)%Q; (5854679515581645 # 2251799813685248)%Q]; [(-6446902866580865 # 2251799813685248)%Q; (-3170534137668829 # 72057594037927936)%Q; (2737062673534419 # 1125899906842624)%Q]; [(5757852123593179 # 2251799813685248)%Q; (3159275138600403 # 2251799813685248)%Q; (-6541478458755645 # 2251799813685248)%Q]; [(7385903388887613 # 4503599627370496)%Q; (-2993767852294537 # 1125899906842624)%Q; (175710754211627 # 70368744177664)%Q]] [0; 2; 0; 2; 0; 2] 6 3) src_ce_loss_gradient));
mout (qresult (qdenote [((-3039929748475085 # 1125899906842624)%Q, (2421333777055841 # 36028797018963968)%Q); ((-2877800161889747 # 1125899906842624)%Q, (2796359900556397 # 36028797018963968)%Q); ((-7268809798575981 # 4503599627370496)%Q, (7172960969962619 # 36028797018963968)%Q); ((-6800435437329449 # 4503599627370496)%Q, (7959120755362241 # 36028797018963968)%Q); ((-781374535348781 # 562949953421312)%Q, (8991849319935361 # 36028797018963968)%Q); ((-8457760100201791 # 9007199254740992)%Q, (7043965940175623 # 18014398509481984)%Q); ((-220113431787733 # 281474976710656)%Q, (8241409254472903 # 18014398509481984)%Q); ((-1344324488770093 # 2251799813685248)%Q, (1239526948452605 # 2251799813685248)%Q); ((-4638707616191611 # 9007199254740992)%Q, (336362931909543 # 562949953421312)%Q); ((-781374535348781 # 2251799813685248)%Q, (6366336425930163 # 9007199254740992)%Q); ((-1080863910568919 # 72057594037927936)%Q, (8873099528229159 # 9007199254740992)%Q); ((1571756269952303 # 4503599627370496)%Q, (3192262182683127 # 2251799813685248)%Q); ((5458362748373041 # 9007199254740992)%Q, (4127739058656595 # 2251799813685248)%Q); ((4129800858298745 # 4503599627370496)%Q, (5633493775123633 # 2251799813685248)%Q); ((5960514106824851 # 2251799813685248)%Q, (993018396273679 # 70368744177664)%Q)] [((2421333777055841 # 35845800236138734)%Q, (-379274565827375 # 140737488355328)%Q); ((14087931880351246 # 72337087773243897)%Q, (-3683986001124937 # 2251799813685248)%Q); ((8241409254472903 # 28921238663199119)%Q, (-353365057031153 # 281474976710656)%Q); ((66043824938505520 # 165171574660419009)%Q, (-8256595511381595 # 9007199254740992)%Q); ((508425418892123648 # 546714176905596681)%Q, (-5231929070152641 # 72057594037927936)%Q)] (qenv_sl [[(-781374535348781 # 2251799813685248)%Q; (-6800435437329449 # 4503599627370496)%Q; (-3039929748475085 # 1125899906842624)%Q]; [(-4638707616191611 # 9007199254740992)%Q; (-220113431787733 # 281474976710656)%Q; (-1344324488770093 # 2251799813685248)%Q]; [(-2877800161889747 # 1125899906842624)%Q; (-1080863910568919 # 72057594037927936)%Q; (5960514106824851 # 2251799813685248)%Q]; [(4129800858298745 # 4503599627370496)%Q; (-781374535348781 # 562949953421312)%Q; (5458362748373041 # 9007199254740992)%Q]; [(1571756269952303 # 4503599627370496)%Q; (-8457760100201791 # 9007199254740992)%Q; (-7268809798575981 # 4503599627370496)%Q]] [2; 1; 2; 2; 1] 5 3) src_ce_loss));
mout (qresult (qdenote [((-3039929748475085 # 1125899906842624)%Q, (2421333777055841 # 36028797018963968)%Q); ((-2877800161889747 # 1125899906842624)%Q, (2796359900556397 # 36028797018963968)%Q); ((-7268809798575981 # 4503599627370496)%Q, (7172960969962619 # 36028797018963968)%Q); ((-6800435437329449 # 4503599627370496)%Q, (7959120755362241 # 36028797018963968)%Q); ((-781374535348781 # 562949953421312)%Q, (8991849319935361 # 36028797018963968)%Q); ((-8457760100201791 # 9007199254740992)%Q, (7043965940175623 # 18014398509481984)%Q); ((-220113431787733 # 281474976710656)%Q, (8241409254472903 # 18014398509481984)%Q); ((-1344324488770093 # 2251799813685248)%Q, (1239526948452605 # 2251799813685248)%Q); ((-4638707616191611 # 9007199254740992)%Q, (336362931909543 # 562949953421312)%Q); ((-781374535348781 # 2251799813685248)%Q, (6366336425930163 # 9007199254740992)%Q); ((-1080863910568919 # 72057594037927936)%Q, (8873099528229159 # 9007199254740992)%Q); ((1571756269952303 # 4503599627370496)%Q, (3192262182683127 # 2251799813685248)%Q); ((5458362748373041 # 9007199254740992)%Q, (4127739058656595 # 2251799813685248)%Q); ((4129800858298745 # 4503599627370496)%Q, (5633493775123633 # 2251799813685248)%Q); ((5960514106824851 # 2251799813685248)%Q, (993018396273679 # 70368744177664)%Q)] [] (qenv_sl [[(-781374535348781 # 2251799813685248)%Q; (-6800435437329449 # 4503599627370496)%Q; (-3039929748475085 # 1125899906842624)%Q]; [(-4638707616191611 # 9007199254740992)%Q; (-220113431787733 # 281474976710656)%Q; (-1344324488770093 # 2251799813685248)%Q]; [(-2877800161889747 # 1125899906842624)%Q; (-1080863910568919 # 72057594037927936)%Q; (5960514106824851 # 2251799813685248)%Q]; [(4129800858298745 # 4503599627370496)%Q; (-781374535348781 # 562949953421312)%Q; (5458362748373041 # 9007199254740992)%Q]; [(1571756269952303 # 4503599627370496)%Q; (-8457760100201791 # 9007199254740992)%Q; (-7268809798575981 # 4503599627370496)%Q]] [2; 1; 2; 2; 1] 5 3) src_ce_loss_gradient));
mout (qresult (qdenote [((-782218960278913 # 281474976710656)%Q, (4474818160814033 # 72057594037927936)%Q); ((-6129399092851245 # 2251799813685248)%Q, (4737292246409081 # 72057594037927936)%Q); ((-3057944146984567 # 2251799813685248)%Q, (4632845950177119 # 18014398509481984)%Q); ((-2087418427286225 # 2251799813685248)%Q, (1782250682942059 # 4503599627370496)%Q); ((2314850208468435 # 2251799813685248)%Q, (3147418626059721 # 1125899906842624)%Q); ((5890708312600609 # 4503599627370496)%Q, (8328886832091505 # 2251799813685248)%Q); ((7196752204538053 # 4503599627370496)%Q, (5565476653530241 # 1125899906842624)%Q); ((7795730954978329 # 4503599627370496)%Q, (6357165698205549 # 1125899906842624)%Q); ((4697254411347427 # 2251799813685248)%Q, (4533233367421285 # 562949953421312)%Q)] [((4737292246409081 # 786425955344155705)%Q, (-5755637317598635 # 1125899906842624)%Q); ((4474818160814033 # 627189702613677617)%Q, (-2782539647888165 # 562949953421312)%Q); ((4632845950177119 # 113476499853234139)%Q, (-1800552872859699 # 562949953421312)%Q)] (qenv_sl [[(-2087418427286225 # 2251799813685248)%Q; (-3057944146984567 # 2251799813685248)%Q; (7795730954978329 # 4503599627370496)%Q]; [(4697254411347427 # 2251799813685248)%Q; (-6129399092851245 # 2251799813685248)%Q; (2314850208468435 # 2251799813685248)%Q]; [(5890708312600609 # 4503599627370496)%Q; (-782218960278913 # 281474976710656)%Q; (7196752204538053 # 4503599627370496)%Q]] [1; 1; 1] 3 3) src_ce_loss));
mout (qresult (qdenote [((-782218960278913 # 281474976710656)%Q, (4474818160814033 # 72057594037927936)%Q); ((-6129399092851245 # 2251799813685248)%Q, (4737292246409081 # 72057594037927936)%Q); ((-3057944146984567 # 2251799813685248)%Q, (4632845950177119 # 18014398509481984)%Q); ((-2087418427286225 # 2251799813685248)%Q, (1782250682942059 # 4503599627370496)%Q); ((2314850208468435 # 2251799813685248)%Q, (3147418626059721 # 1125899906842624)%Q); ((5890708312600609 # 4503599627370496)%Q, (8328886832091505 # 2251799813685248)%Q); ((7196752204538053 # 4503599627370496)%Q, (5565476653530241 # 1125899906842624)%Q); ((7795730954978329 # 4503599627370496)%Q, (6357165698205549 # 1125899906842624)%Q); ((4697254411347427 # 2251799813685248)%Q, (4533233367421285 # 562949953421312)%Q)] [] (qenv_sl [[(-2087418427286225 # 2251799813685248)%Q; (-3057944146984567 # 2251799813685248)%Q; (7795730954978329 # 4503599627370496)%Q]; [(4697254411347427 # 2251799813685248)%Q; (-6129399092851245 # 2251799813685248)%Q; (2314850208468435 # 2251799813685248)%Q]; [(5890708312600609 # 4503599627370496)%Q; (-782218960278913 # 281474976710656)%Q; (7196752204538053 # 4503599627370496)%Q]] [1; 1; 1] 3 3) src_ce_loss_gradient));
mout (qresult (qdenote [((-255297803876565 # 140737488355328)%Q, (2936361868368233 # 18014398509481984)%Q); ((-5710564327505789 # 18014398509481984)%Q, (1640055058693291 # 2251799813685248)%Q); ((4285175045443027 # 2251799813685248)%Q, (7550264781826533 # 1125899906842624)%Q)] [((13120440469546328 # 136861038847139089)%Q, (-5280008360355085 # 2251799813685248)%Q)] (qenv_sl [[(-5710564327505789 # 18014398509481984)%Q; (4285175045443027 # 2251799813685248)%Q; (-255297803876565 # 140737488355328)%Q]] [0] 1 3) src_ce_loss));
mout (qresult (qdenote [((-255297803876565 # 140737488355328)%Q, (2936361868368233 # 18014398509481984)%Q); ((-5710564327505789 # 18014398509481984)%Q, (1640055058693291 # 2251799813685248)%Q); ((4285175045443027 # 2251799813685248)%Q, (7550264781826533 # 1125899906842624)%Q)] [] (qenv_sl [[(-5710564327505789 # 18014398509481984)%Q; (4285175045443027 # 2251799813685248)%Q; (-255297803876565 # 140737488355328)%Q]] [0] 1 3) src_ce_loss_gradient));
mout (qresult (qdenote [((-324822123124097 # 281474976710656)%Q, (2840625216974643 # 9007199254740992)%Q); ((1344324488770093 # 2251799813685248)%Q, (2045378040083329 # 1125899906842624)%Q); ((1679842661009195 # 562949953421312)%Q, (5563838634686141 # 281474976710656)%Q)] [((946875072324881 # 65748828615865929)%Q, (-4774299707151501 # 1125899906842624)%Q)] (qenv_sl [[(-324822123124097 # 281474976710656)%Q; (1679842661009195 # 562949953421312)%Q; (1344324488770093 # 2251799813685248)%Q]] [0] 1 3) src_ce_loss));
mout (qresult (qdenote [((-324822123124097 # 281474976710656)%Q, (2840625216974643 # 9007199254740992)%Q); ((1344324488770093 # 2251799813685248)%Q, (2045378040083329 # 1125899906842624)%Q); ((1679842661009195 # 562949953421312)%Q, (5563838634686141 # 281474976710656)%Q)] [] (qenv_sl [[(-324822123124097 # 281474976710656)%Q; (1679842661009195 # 562949953421312)%Q; (1344324488770093 # 2251799813685248)%Q]] [0] 1 3) src_ce_loss_gradient));
mout (qresult (qdenote [((-3123246341581439 # 1125899906842624)%Q, (8994496560374279 # 144115188075855872)%Q); ((-2737062673534419 # 1125899906842624)%Q, (6337381791067171 # 72057594037927936)%Q); ((-2643612981266481 # 1125899906842624)%Q, (3442915136363399 # 36028797018963968)%Q); ((-8854076867410395 # 9007199254740992)%Q, (1685187770689103 # 4503599627370496)%Q); ((-7286824197085463 # 9007199254740992)%Q, (125341692872561 # 281474976710656)%Q); ((-6142909891733357 # 9007199254740992)%Q, (4554082916001479 # 9007199254740992)%Q); ((3332663724254167 # 9007199254740992)%Q, (6520017071129117 # 4503599627370496)%Q); ((7692148163548807 # 18014398509481984)%Q, (3451226978114345 # 2251799813685248)%Q); ((6579759055588295 # 4503599627370496)%Q, (1213232484027935 # 281474976710656)%Q); ((7633601368392991 # 4503599627370496)%Q, (6132378184837843 # 1125899906842624)%Q); ((8381198906536493 # 4503599627370496)%Q, (3619860367307083 # 562949953421312)%Q); ((2401544501295317 # 1125899906842624)%Q, (4751381664688531 # 562949953421312)%Q); ((4942700591039119 # 2251799813685248)%Q, (1263822794164949 # 140737488355328)%Q); ((2491616493842727 # 1125899906842624)%Q, (2573555155472501 # 281474976710656)%Q); ((5255700765141369 # 2251799813685248)%Q, (5809156923635355 # 562949953421312)%Q); ((2997145552015065 # 1125899906842624)%Q, (8064207579689287 # 562949953421312)%Q); ((3101854243351429 # 1125899906842624)%Q, (8850159243967825 # 562949953421312)%Q); ((6631550451303055 # 2251799813685248)%Q, (1337756438121337 # 70368744177664)%Q)] [((4554082916001479 # 239103141597652359)%Q, (-2229772054251949 # 562949953421312)%Q); ((250683385745122 # 9017654063997207)%Q, (-1008454125504899 # 281474976710656)%Q); ((53926008662051296 # 684095537044728295)%Q, (-5720662940138951 # 2251799813685248)%Q); ((104320273138065872 # 1142876225129361779)%Q, (-5390443178787061 # 2251799813685248)%Q); ((690245395622869 # 6944302001308831)%Q, (-5198571626973943 # 2251799813685248)%Q); ((684931296318124544 # 1011912846760714887)%Q, (-3515322433370409 # 9007199254740992)%Q)] (qenv_sl [[(2997145552015065 # 1125899906842624)%Q; (3332663724254167 # 9007199254740992)%Q; (-2737062673534419 # 1125899906842624)%Q]; [(-8854076867410395 # 9007199254740992)%Q; (-3123246341581439 # 1125899906842624)%Q; (6579759055588295 # 4503599627370496)%Q]; [(6631550451303055 # 2251799813685248)%Q; (-2643612981266481 # 1125899906842624)%Q; (4942700591039119 # 2251799813685248)%Q]; [(3101854243351429 # 1125899906842624)%Q; (5255700765141369 # 2251799813685248)%Q; (-6142909891733357 # 9007199254740992)%Q]; [(7692148163548807 # 18014398509481984)%Q; (2401544501295317 # 1125899906842624)%Q; (7633601368392991 # 4503599627370496)%Q]; [(8381198906536493 # 4503599627370496)%Q; (-7286824197085463 # 9007199254740992)%Q; (2491616493842727 # 1125899906842624)%Q]] [1; 0; 0; 2; 0; 1] 6 3) src_ce_loss));
mout (qresult (qdenote [((-3123246341581439 # 1125899906842624)%Q, (8994496560374279 # 144115188075855872)%Q); ((-2737062673534419 # 1125899906842624)%Q, (6337381791067171 # 72057594037927936)%Q); ((-2643612981266481 # 1125899906842624)%Q, (3442915136363399 # 36028797018963968)%Q); ((-8854076867410395 # 9007199254740992)%Q, (1685187770689103 # 4503599627370496)%Q); ((-7286824197085463 # 9007199254740992)%Q, (125341692872561 # 281474976710656)%Q); ((-6142909891733357 # 9007199254740992)%Q, (4554082916001479 # 9007199254740992)%Q); ((3332663724254167 # 9007199254740992)%Q, (6520017071129117 # 4503599627370496)%Q); ((7692148163548807 # 18014398509481984)%Q, (3451226978114345 # 2251799813685248)%Q); ((6579759055588295 # 4503599627370496)%Q, (1213232484027935 # 281474976710656)%Q); ((7633601368392991 # 4503599627370496)%Q, (6132378184837843 # 1125899906842624)%Q); ((8381198906536493 # 4503599627370496)%Q, (3619860367307083 # 562949953421312)%Q); ((2401544501295317 # 1125899906842624)%Q, (4751381664688531 # 562949953421312)%Q); ((4942700591039119 # 2251799813685248)%Q, (1263822794164949 # 140737488355328)%Q); ((2491616493842727 # 1125899906842624)%Q, (2573555155472501 # 281474976710656)%Q); ((5255700765141369 # 2251799813685248)%Q, (5809156923635355 # 562949953421312)%Q); ((2997145552015065 # 1125899906842624)%Q, (8064207579689287 # 562949953421312)%Q); ((3101854243351429 # 1125899906842624)%Q, (8850159243967825 # 562949953421312)%Q); ((6631550451303055 # 2251799813685248)%Q, (1337756438121337 # 70368744177664)%Q)] [] (qenv_sl [[(2997145552015065 # 1125899906842624)%Q; (3332663724254167 # 9007199254740992)%Q; (-2737062673534419 # 1125899906842624)%Q]; [(-8854076867410395 # 9007199254740992)%Q; (-3123246341581439 # 1125899906842624)%Q; (6579759055588295 # 4503599627370496)%Q]; [(6631550451303055 # 2251799813685248)%Q; (-2643612981266481 # 1125899906842624)%Q; (4942700591039119 # 2251799813685248)%Q]; [(3101854243351429 # 1125899906842624)%Q; (5255700765141369 # 2251799813685248)%Q; (-6142909891733357 # 9007199254740992)%Q]; [(7692148163548807 # 18014398509481984)%Q; (2401544501295317 # 1125899906842624)%Q; (7633601368392991 # 4503599627370496)%Q]; [(8381198906536493 # 4503599627370496)%Q; (-7286824197085463 # 9007199254740992)%Q; (2491616493842727 # 1125899906842624)%Q]] [1; 0; 0; 2; 0; 1] 6 3) src_ce_loss_gradient));
mout (qresult (qdenote [((-6723874243664151 # 2251799813685248)%Q, (1819057547431525 # 36028797018963968)%Q); ((-2820379266640773 # 1125899906842624)%Q, (5885347082429281 # 72057594037927936)%Q); ((-7836263351624663 # 4503599627370496)%Q, (3161894443258509 # 18014398509481984)%Q); ((8926134461448323 # 9007199254740992)%Q, (6066184435773719 # 2251799813685248)%Q); ((1131529406376837 # 1125899906842624)%Q, (1537927071988699 # 562949953421312)%Q); ((6165427889870209 # 2251799813685248)%Q, (4350489084360117 # 281474976710656)%Q)] [((3638115094863050 # 206378127391845803)%Q, (-4546658925771277 # 1125899906842624)%Q); ((48529475486189752 # 330122671328495749)%Q, (-2158679966582625 # 1125899906842624)%Q)] (qenv_sl [[(-6723874243664151 # 2251799813685248)%Q; (-2820379266640773 # 1125899906842624)%Q; (1131529406376837 # 1125899906842624)%Q]; [(8926134461448323 # 9007199254740992)%Q; (6165427889870209 # 2251799813685248)%Q; (-7836263351624663 # 4503599627370496)%Q]] [0; 0] 2 3) src_ce_loss));
mout (qresult (qdenote [((-6723874243664151 # 2251799813685248)%Q, (1819057547431525 # 36028797018963968)%Q); ((-2820379266640773 # 1125899906842624)%Q, (5885347082429281 # 72057594037927936)%Q); ((-7836263351624663 # 4503599627370496)%Q, (3161894443258509 # 18014398509481984)%Q); ((8926134461448323 # 9007199254740992)%Q, (6066184435773719 # 2251799813685248)%Q); ((1131529406376837 # 1125899906842624)%Q, (1537927071988699 # 562949953421312)%Q); ((6165427889870209 # 2251799813685248)%Q, (4350489084360117 # 281474976710656)%Q)] [] (qenv_sl [[(-6723874243664151 # 2251799813685248)%Q; (-2820379266640773 # 1125899906842624)%Q; (1131529406376837 # 1125899906842624)%Q]; [(8926134461448323 # 9007199254740992)%Q; (6165427889870209 # 2251799813685248)%Q; (-7836263351624663 # 4503599627370496)%Q]] [0; 0] 2 3) src_ce_loss_gradient));
mout (qresult (qdenote [((-2362138004555825 # 1125899906842624)%Q, (8841581085179091 # 72057594037927936)%Q); ((589971551185535 # 4503599627370496)%Q, (5133958475131051 # 4503599627370496)%Q); ((8178536923304821 # 36028797018963968)%Q, (5651251325669211 # 4503599627370496)%Q)] [((8841581085179091 # 181404937897983283)%Q, (-6803286310270141 # 2251799813685248)%Q)] (qenv_sl [[(-2362138004555825 # 1125899906842624)%Q; (589971551185535 # 4503599627370496)%Q; (8178536923304821 # 36028797018963968)%Q]] [0] 1 3) src_ce_loss));
mout (qresult (qdenote [((-2362138004555825 # 1125899906842624)%Q, (8841581085179091 # 72057594037927936)%Q); ((589971551185535 # 4503599627370496)%Q, (5133958475131051 # 4503599627370496)%Q); ((8178536923304821 # 36028797018963968)%Q, (5651251325669211 # 4503599627370496)%Q)] [] (qenv_sl [[(-2362138004555825 # 1125899906842624)%Q; (589971551185535 # 4503599627370496)%Q; (8178536923304821 # 36028797018963968)%Q]] [0] 1 3) src_ce_loss_gradient))
].
Eval vm_compute in the_cases.
