From SKN Require Import Base.Util Model.Gnn Model.NpExpr Gen.NpGnn.
Set Printing Depth 10000000.
Set Printing Width 1000000.
Definition qout (q : Q) : Z * Z := let r := Qred q in (Qnum r, Zpos (Qden r)).
Definition mout (m : list (list Q)) : list (list (Z * Z)) := map (map qout) m.

Definition the_cases := [
mout (qresult (qdenote [((-3350678122763649 # 1125899906842624)%Q, (7349357518875717 # 144115188075855872)%Q); ((-5697053528623677 # 2251799813685248)%Q, (5740037345220307 # 72057594037927936)%Q); ((-5645262132908917 # 2251799813685248)%Q, (5873588151115379 # 72057594037927936)%Q); ((-2697656176794927 # 1125899906842624)%Q, (1640779371254255 # 18014398509481984)%Q); ((-6800435437329449 # 9007199254740992)%Q, (4233479258721257 # 9007199254740992)%Q); ((-5692549928996307 # 36028797018963968)%Q, (7690795119807267 # 9007199254740992)%Q); ((6746392241801003 # 9007199254740992)%Q, (2381147782736459 # 1125899906842624)%Q); ((6764406640310485 # 9007199254740992)%Q, (2385914843773949 # 1125899906842624)%Q); ((678354693872681 # 562949953421312)%Q, (7513713470304765 # 2251799813685248)%Q); ((5908722711110091 # 4503599627370496)%Q, (2090567274861225 # 562949953421312)%Q); ((4998995586381251 # 2251799813685248)%Q, (2591633241041511 # 281474976710656)%Q); ((2589569785738035 # 1125899906842624)%Q, (5614965548353613 # 562949953421312)%Q); ((2599702884899619 # 1125899906842624)%Q, (5665728328149579 # 562949953421312)%Q); ((2961116754996101 # 1125899906842624)%Q, (3905119060091015 # 281474976710656)%Q); ((6201456686889173 # 2251799813685248)%Q, (4420656754164411 # 281474976710656)%Q); ((800233358788395 # 281474976710656)%Q, (4832134386235459 # 281474976710656)%Q)] [] (qenv_s [[(3350678122763649 # 1125899906842624)%Q; (-2961116754996101 # 1125899906842624)%Q; (-6746392241801003 # 9007199254740992)%Q; (-2589569785738035 # 1125899906842624)%Q]; [(-6764406640310485 # 9007199254740992)%Q; (-678354693872681 # 562949953421312)%Q; (-2599702884899619 # 1125899906842624)%Q; (5697053528623677 # 2251799813685248)%Q]; [(6800435437329449 # 9007199254740992)%Q; (2697656176794927 # 1125899906842624)%Q; (-5908722711110091 # 4503599627370496)%Q; (-800233358788395 # 281474976710656)%Q]; [(-4998995586381251 # 2251799813685248)%Q; (5645262132908917 # 2251799813685248)%Q; (5692549928996307 # 36028797018963968)%Q; (-6201456686889173 # 2251799813685248)%Q]] 4 4) src_sigmoid_output));
mout (qresult (qdenote [((-3350678122763649 # 1125899906842624)%Q, (7349357518875717 # 144115188075855872)%Q); ((-5697053528623677 # 2251799813685248)%Q, (5740037345220307 # 72057594037927936)%Q); ((-5645262132908917 # 2251799813685248)%Q, (5873588151115379 # 72057594037927936)%Q); ((-2697656176794927 # 1125899906842624)%Q, (1640779371254255 # 18014398509481984)%Q); ((-6800435437329449 # 9007199254740992)%Q, (4233479258721257 # 9007199254740992)%Q); ((-5692549928996307 # 36028797018963968)%Q, (7690795119807267 # 9007199254740992)%Q); ((6746392241801003 # 9007199254740992)%Q, (2381147782736459 # 1125899906842624)%Q); ((6764406640310485 # 9007199254740992)%Q, (2385914843773949 # 1125899906842624)%Q); ((678354693872681 # 562949953421312)%Q, (7513713470304765 # 2251799813685248)%Q); ((5908722711110091 # 4503599627370496)%Q, (2090567274861225 # 562949953421312)%Q); ((4998995586381251 # 2251799813685248)%Q, (2591633241041511 # 281474976710656)%Q); ((2589569785738035 # 1125899906842624)%Q, (5614965548353613 # 562949953421312)%Q); ((2599702884899619 # 1125899906842624)%Q, (5665728328149579 # 562949953421312)%Q); ((2961116754996101 # 1125899906842624)%Q, (3905119060091015 # 281474976710656)%Q); ((6201456686889173 # 2251799813685248)%Q, (4420656754164411 # 281474976710656)%Q); ((800233358788395 # 281474976710656)%Q, (4832134386235459 # 281474976710656)%Q)] [] (qenv_sd [[(3350678122763649 # 1125899906842624)%Q; (-2961116754996101 # 1125899906842624)%Q; (-6746392241801003 # 9007199254740992)%Q; (-2589569785738035 # 1125899906842624)%Q]; [(-6764406640310485 # 9007199254740992)%Q; (-678354693872681 # 562949953421312)%Q; (-2599702884899619 # 1125899906842624)%Q; (5697053528623677 # 2251799813685248)%Q]; [(6800435437329449 # 9007199254740992)%Q; (2697656176794927 # 1125899906842624)%Q; (-5908722711110091 # 4503599627370496)%Q; (-800233358788395 # 281474976710656)%Q]; [(-4998995586381251 # 2251799813685248)%Q; (5645262132908917 # 2251799813685248)%Q; (5692549928996307 # 36028797018963968)%Q; (-6201456686889173 # 2251799813685248)%Q]] [[(-4165829655317709 # 4503599627370496)%Q; (-3823556083637551 # 2251799813685248)%Q; (2029997532037251 # 1125899906842624)%Q; (6314046677573435 # 4503599627370496)%Q]; [(3339419123695223 # 2251799813685248)%Q; (-7196752204538053 # 9007199254740992)%Q; (-8286623314361713 # 9007199254740992)%Q; (-360850920143061 # 281474976710656)%Q]; [(-4242390848983007 # 9007199254740992)%Q; (-8088464930757411 # 4503599627370496)%Q; (6764406640310485 # 9007199254740992)%Q; (-414049690741375 # 281474976710656)%Q]; [(6674334647763075 # 9007199254740992)%Q; (-8088464930757411 # 18014398509481984)%Q; (8376695306909123 # 18014398509481984)%Q; (-781374535348781 # 2251799813685248)%Q]] 4 4) src_sigmoid_gradient));
mout (qresult (qdenote [((-4093772061279781 # 2251799813685248)%Q, (1462319940249905 # 9007199254740992)%Q); ((-7926335344172073 # 4503599627370496)%Q, (6198569476835985 # 36028797018963968)%Q); ((-1679842661009195 # 1125899906842624)%Q, (8103682077725403 # 36028797018963968)%Q); ((-2823756966361301 # 2251799813685248)%Q, (2570303986935173 # 9007199254740992)%Q); ((-4548635623644201 # 9007199254740992)%Q, (5435894969218473 # 9007199254740992)%Q); ((-2260807012939989 # 4503599627370496)%Q, (5452227140133375 # 9007199254740992)%Q); ((-8250594517342749 # 36028797018963968)%Q, (447730160891333 # 562949953421312)%Q); ((-7998392938210001 # 36028797018963968)%Q, (901750534093219 # 1125899906842624)%Q); ((-3512807709348987 # 18014398509481984)%Q, (1852858929704307 # 2251799813685248)%Q); ((5260204364768739 # 72057594037927936)%Q, (2422329822600061 # 2251799813685248)%Q); ((1751900255047123 # 4503599627370496)%Q, (6645081747567017 # 4503599627370496)%Q); ((4602678819172647 # 2251799813685248)%Q, (8693560968606227 # 1125899906842624)%Q)] [] (qenv_s [[(2823756966361301 # 2251799813685248)%Q; (2260807012939989 # 4503599627370496)%Q; (-5260204364768739 # 72057594037927936)%Q; (4548635623644201 # 9007199254740992)%Q]; [(3512807709348987 # 18014398509481984)%Q; (1679842661009195 # 1125899906842624)%Q; (8250594517342749 # 36028797018963968)%Q; (-1751900255047123 # 4503599627370496)%Q]; [(4093772061279781 # 2251799813685248)%Q; (7998392938210001 # 36028797018963968)%Q; (-4602678819172647 # 2251799813685248)%Q; (7926335344172073 # 4503599627370496)%Q]] 3 4) src_sigmoid_output));
mout (qresult (qdenote [((-4093772061279781 # 2251799813685248)%Q, (1462319940249905 # 9007199254740992)%Q); ((-7926335344172073 # 4503599627370496)%Q, (6198569476835985 # 36028797018963968)%Q); ((-1679842661009195 # 1125899906842624)%Q, (8103682077725403 # 36028797018963968)%Q); ((-2823756966361301 # 2251799813685248)%Q, (2570303986935173 # 9007199254740992)%Q); ((-4548635623644201 # 9007199254740992)%Q, (5435894969218473 # 9007199254740992)%Q); ((-2260807012939989 # 4503599627370496)%Q, (5452227140133375 # 9007199254740992)%Q); ((-8250594517342749 # 36028797018963968)%Q, (447730160891333 # 562949953421312)%Q); ((-7998392938210001 # 36028797018963968)%Q, (901750534093219 # 1125899906842624)%Q); ((-3512807709348987 # 18014398509481984)%Q, (1852858929704307 # 2251799813685248)%Q); ((5260204364768739 # 72057594037927936)%Q, (2422329822600061 # 2251799813685248)%Q); ((1751900255047123 # 4503599627370496)%Q, (6645081747567017 # 4503599627370496)%Q); ((4602678819172647 # 2251799813685248)%Q, (8693560968606227 # 1125899906842624)%Q)] [] (qenv_sd [[(2823756966361301 # 2251799813685248)%Q; (2260807012939989 # 4503599627370496)%Q; (-5260204364768739 # 72057594037927936)%Q; (4548635623644201 # 9007199254740992)%Q]; [(3512807709348987 # 18014398509481984)%Q; (1679842661009195 # 1125899906842624)%Q; (8250594517342749 # 36028797018963968)%Q; (-1751900255047123 # 4503599627370496)%Q]; [(4093772061279781 # 2251799813685248)%Q; (7998392938210001 # 36028797018963968)%Q; (-4602678819172647 # 2251799813685248)%Q; (7926335344172073 # 4503599627370496)%Q]] [[(449234062830207 # 562949953421312)%Q; (4584664420663165 # 9007199254740992)%Q; (5602477936448897 # 18014398509481984)%Q; (-8525314094612349 # 4503599627370496)%Q]; [(1290281293241647 # 2251799813685248)%Q; (-607985949695017 # 1125899906842624)%Q; (5224175567749775 # 36028797018963968)%Q; (-8579357290140795 # 4503599627370496)%Q]; [(-6332061076082917 # 9007199254740992)%Q; (2758454771764429 # 2251799813685248)%Q; (-5818650718562681 # 9007199254740992)%Q; (413205265811243 # 281474976710656)%Q]] 3 4) src_sigmoid_gradient));
mout (qresult (qdenote [((-2553540988719071 # 1125899906842624)%Q, (7459330884649673 # 72057594037927936)%Q); ((-1242993497154257 # 4503599627370496)%Q, (6834779264440481 # 9007199254740992)%Q); ((4147815256808227 # 4503599627370496)%Q, (1414018219581267 # 562949953421312)%Q); ((5692549928996307 # 4503599627370496)%Q, (7970361215315113 # 2251799813685248)%Q)] [] (qenv_s [[(-4147815256808227 # 4503599627370496)%Q; (1242993497154257 # 4503599627370496)%Q; (-5692549928996307 # 4503599627370496)%Q; (2553540988719071 # 1125899906842624)%Q]] 1 4) src_sigmoid_output));
mout (qresult (qdenote [((-2553540988719071 # 1125899906842624)%Q, (7459330884649673 # 72057594037927936)%Q); ((-1242993497154257 # 4503599627370496)%Q, (6834779264440481 # 9007199254740992)%Q); ((4147815256808227 # 4503599627370496)%Q, (1414018219581267 # 562949953421312)%Q); ((5692549928996307 # 4503599627370496)%Q, (7970361215315113 # 2251799813685248)%Q)] [] (qenv_sd [[(-4147815256808227 # 4503599627370496)%Q; (1242993497154257 # 4503599627370496)%Q; (-5692549928996307 # 4503599627370496)%Q; (2553540988719071 # 1125899906842624)%Q]] [[(-535928355657089 # 2251799813685248)%Q; (817403332367745 # 562949953421312)%Q; (6931039826523193 # 4503599627370496)%Q; (-535928355657089 # 2251799813685248)%Q]] 1 4) src_sigmoid_gradient));
mout (qresult (qdenote [((-2931843357418193 # 1125899906842624)%Q, (2665305102048993 # 36028797018963968)%Q); ((-1131529406376837 # 562949953421312)%Q, (2413725381241187 # 18014398509481984)%Q); ((-7813745353487811 # 4503599627370496)%Q, (6355487010221133 # 36028797018963968)%Q); ((-5363787156198261 # 4503599627370496)%Q, (1368721365534595 # 4503599627370496)%Q); ((-2260807012939989 # 2251799813685248)%Q, (3300335647838599 # 9007199254740992)%Q); ((-166914661189419 # 281474976710656)%Q, (155561873212107 # 281474976710656)%Q); ((8142508126285857 # 36028797018963968)%Q, (1411400724756891 # 1125899906842624)%Q); ((8034421735228965 # 18014398509481984)%Q, (3517427201307453 # 2251799813685248)%Q); ((5170132372221329 # 9007199254740992)%Q, (3997742447414303 # 2251799813685248)%Q); ((8304637712871195 # 9007199254740992)%Q, (2830865890091373 # 1125899906842624)%Q); ((5530420342410969 # 4503599627370496)%Q, (7688531581908071 # 2251799813685248)%Q); ((801077783718527 # 562949953421312)%Q, (2335989225366537 # 562949953421312)%Q); ((7385903388887613 # 4503599627370496)%Q, (2902102436791481 # 562949953421312)%Q); ((1856608946383487 # 1125899906842624)%Q, (5856678494543067 # 1125899906842624)%Q); ((8709961679334539 # 4503599627370496)%Q, (7787988672959007 # 1125899906842624)%Q); ((2737062673534419 # 1125899906842624)%Q, (6400879818299933 # 562949953421312)%Q)] [] (qenv_s [[(-8142508126285857 # 36028797018963968)%Q; (-5530420342410969 # 4503599627370496)%Q; (-5170132372221329 # 9007199254740992)%Q; (1131529406376837 # 562949953421312)%Q]; [(-1856608946383487 # 1125899906842624)%Q; (-8034421735228965 # 18014398509481984)%Q; (2931843357418193 # 1125899906842624)%Q; (7813745353487811 # 4503599627370496)%Q]; [(-8709961679334539 # 4503599627370496)%Q; (-8304637712871195 # 9007199254740992)%Q; (-801077783718527 # 562949953421312)%Q; (2260807012939989 # 2251799813685248)%Q]; [(166914661189419 # 281474976710656)%Q; (-2737062673534419 # 1125899906842624)%Q; (5363787156198261 # 4503599627370496)%Q; (-7385903388887613 # 4503599627370496)%Q]] 4 4) src_sigmoid_output));
mout (qresult (qdenote [((-2931843357418193 # 1125899906842624)%Q, (2665305102048993 # 36028797018963968)%Q); ((-1131529406376837 # 562949953421312)%Q, (2413725381241187 # 18014398509481984)%Q); ((-7813745353487811 # 4503599627370496)%Q, (6355487010221133 # 36028797018963968)%Q); ((-5363787156198261 # 4503599627370496)%Q, (1368721365534595 # 4503599627370496)%Q); ((-2260807012939989 # 2251799813685248)%Q, (3300335647838599 # 9007199254740992)%Q); ((-166914661189419 # 281474976710656)%Q, (155561873212107 # 281474976710656)%Q); ((8142508126285857 # 36028797018963968)%Q, (1411400724756891 # 1125899906842624)%Q); ((8034421735228965 # 18014398509481984)%Q, (3517427201307453 # 2251799813685248)%Q); ((5170132372221329 # 9007199254740992)%Q, (3997742447414303 # 2251799813685248)%Q); ((8304637712871195 # 9007199254740992)%Q, (2830865890091373 # 1125899906842624)%Q); ((5530420342410969 # 4503599627370496)%Q, (7688531581908071 # 2251799813685248)%Q); ((801077783718527 # 562949953421312)%Q, (2335989225366537 # 562949953421312)%Q); ((7385903388887613 # 4503599627370496)%Q, (2902102436791481 # 562949953421312)%Q); ((1856608946383487 # 1125899906842624)%Q, (5856678494543067 # 1125899906842624)%Q); ((8709961679334539 # 4503599627370496)%Q, (7787988672959007 # 1125899906842624)%Q); ((2737062673534419 # 1125899906842624)%Q, (6400879818299933 # 562949953421312)%Q)] [] (qenv_sd [[(-8142508126285857 # 36028797018963968)%Q; (-5530420342410969 # 4503599627370496)%Q; (-5170132372221329 # 9007199254740992)%Q; (1131529406376837 # 562949953421312)%Q]; [(-1856608946383487 # 1125899906842624)%Q; (-8034421735228965 # 18014398509481984)%Q; (2931843357418193 # 1125899906842624)%Q; (7813745353487811 # 4503599627370496)%Q]; [(-8709961679334539 # 4503599627370496)%Q; (-8304637712871195 # 9007199254740992)%Q; (-801077783718527 # 562949953421312)%Q; (2260807012939989 # 2251799813685248)%Q]; [(166914661189419 # 281474976710656)%Q; (-2737062673534419 # 1125899906842624)%Q; (5363787156198261 # 4503599627370496)%Q; (-7385903388887613 # 4503599627370496)%Q]] [[(3656922897424843 # 9007199254740992)%Q; (589971551185535 # 4503599627370496)%Q; (8273112515479601 # 4503599627370496)%Q; (-7530018576963469 # 36028797018963968)%Q]; [(-1012184016251519 # 562949953421312)%Q; (-7800234554605699 # 9007199254740992)%Q; (-4656722014701093 # 9007199254740992)%Q; (4746794007248503 # 4503599627370496)%Q]; [(-7998392938210001 # 72057594037927936)%Q; (-3620894100405879 # 9007199254740992)%Q; (-3188548536178311 # 18014398509481984)%Q; (-6530219459687219 # 4503599627370496)%Q]; [(-571957152676053 # 562949953421312)%Q; (-1751900255047123 # 4503599627370496)%Q; (-3769512888109105 # 2251799813685248)%Q; (5332261958806667 # 9007199254740992)%Q]] 4 4) src_sigmoid_gradient));
mout (qresult (qdenote [((-1557119571163349 # 562949953421312)%Q, (4533370562907549 # 72057594037927936)%Q); ((7349874591868649 # 36028797018963968)%Q, (5522755906950517 # 4503599627370496)%Q)] [] (qenv_s [[(7349874591868649 # 36028797018963968)%Q]; [(-1557119571163349 # 562949953421312)%Q]] 2 1) src_softmax_output));
mout (qresult (qdenote [((-1557119571163349 # 562949953421312)%Q, (4533370562907549 # 72057594037927936)%Q); ((7349874591868649 # 36028797018963968)%Q, (5522755906950517 # 4503599627370496)%Q)] [] (qenv_sd [[(7349874591868649 # 36028797018963968)%Q]; [(-1557119571163349 # 562949953421312)%Q]] [[(2084040727565697 # 1125899906842624)%Q]; [(-6512205061177737 # 4503599627370496)%Q]] 2 1) src_softmax_gradient));
mout (qresult (qdenote [((-4962966789362287 # 4503599627370496)%Q, (5984491394265703 # 18014398509481984)%Q); ((3584865303386915 # 9007199254740992)%Q, (6705157418303203 # 4503599627370496)%Q); ((5561945539802563 # 4503599627370496)%Q, (7742540112303159 # 2251799813685248)%Q); ((6710363444782039 # 4503599627370496)%Q, (2497862715749025 # 562949953421312)%Q); ((2509630892352209 # 1125899906842624)%Q, (5230126433900701 # 562949953421312)%Q)] [] (qenv_s [[(-4962966789362287 # 4503599627370496)%Q]; [(6710363444782039 # 4503599627370496)%Q]; [(5561945539802563 # 4503599627370496)%Q]; [(2509630892352209 # 1125899906842624)%Q]; [(3584865303386915 # 9007199254740992)%Q]] 5 1) src_softmax_output));
mout (qresult (qdenote [((-4962966789362287 # 4503599627370496)%Q, (5984491394265703 # 18014398509481984)%Q); ((3584865303386915 # 9007199254740992)%Q, (6705157418303203 # 4503599627370496)%Q); ((5561945539802563 # 4503599627370496)%Q, (7742540112303159 # 2251799813685248)%Q); ((6710363444782039 # 4503599627370496)%Q, (2497862715749025 # 562949953421312)%Q); ((2509630892352209 # 1125899906842624)%Q, (5230126433900701 # 562949953421312)%Q)] [] (qenv_sd [[(-4962966789362287 # 4503599627370496)%Q]; [(6710363444782039 # 4503599627370496)%Q]; [(5561945539802563 # 4503599627370496)%Q]; [(2509630892352209 # 1125899906842624)%Q]; [(3584865303386915 # 9007199254740992)%Q]] [[(835417730877227 # 2251799813685248)%Q]; [(-571957152676053 # 1125899906842624)%Q]; [(5080060379673919 # 18014398509481984)%Q]; [(5710564327505789 # 4503599627370496)%Q]; [(-6070852297695429 # 9007199254740992)%Q]] 5 1) src_softmax_gradient));
mout (qresult (qdenote [((-6753147641242059 # 2251799813685248)%Q, (7182251383034291 # 144115188075855872)%Q); ((3152519739159347 # 18014398509481984)%Q, (5364896017241929 # 4503599627370496)%Q); ((7453457383298171 # 4503599627370496)%Q, (5891924196880293 # 1125899906842624)%Q); ((6104629294900707 # 2251799813685248)%Q, (2117298728195419 # 140737488355328)%Q)] [] (qenv_s [[(-6753147641242059 # 2251799813685248)%Q]; [(3152519739159347 # 18014398509481984)%Q]; [(7453457383298171 # 4503599627370496)%Q]; [(6104629294900707 # 2251799813685248)%Q]] 4 1) src_softmax_output));
mout (qresult (qdenote [((-6753147641242059 # 2251799813685248)%Q, (7182251383034291 # 144115188075855872)%Q); ((3152519739159347 # 18014398509481984)%Q, (5364896017241929 # 4503599627370496)%Q); ((7453457383298171 # 4503599627370496)%Q, (5891924196880293 # 1125899906842624)%Q); ((6104629294900707 # 2251799813685248)%Q, (2117298728195419 # 140737488355328)%Q)] [] (qenv_sd [[(-6753147641242059 # 2251799813685248)%Q]; [(3152519739159347 # 18014398509481984)%Q]; [(7453457383298171 # 4503599627370496)%Q]; [(6104629294900707 # 2251799813685248)%Q]] [[(871446527896191 # 562949953421312)%Q]; [(6840967833975783 # 4503599627370496)%Q]; [(-2116691824864133 # 4503599627370496)%Q]; [(7439946584416059 # 18014398509481984)%Q]] 4 1) src_softmax_gradient));
mout (qresult (qdenote [((7219270202674905 # 4503599627370496)%Q, (5593373721348571 # 1125899906842624)%Q)] [] (qenv_s [[(7219270202674905 # 4503599627370496)%Q]] 1 1) src_softmax_output));
mout (qresult (qdenote [((7219270202674905 # 4503599627370496)%Q, (5593373721348571 # 1125899906842624)%Q)] [] (qenv_sd [[(7219270202674905 # 4503599627370496)%Q]] [[(5548434740920451 # 9007199254740992)%Q]] 1 1) src_softmax_gradient));
mout (qresult (qdenote [((-6926536226895823 # 4503599627370496)%Q, (1934839108120149 # 9007199254740992)%Q); ((-430375239390593 # 281474976710656)%Q, (7809325026759805 # 36028797018963968)%Q); ((-4764808405757985 # 9007199254740992)%Q, (5306986578192905 # 9007199254740992)%Q); ((8547832092749201 # 9007199254740992)%Q, (5816680938842567 # 2251799813685248)%Q)] [] (qenv_s [[(-4764808405757985 # 9007199254740992)%Q]; [(8547832092749201 # 9007199254740992)%Q]; [(-6926536226895823 # 4503599627370496)%Q]; [(-430375239390593 # 281474976710656)%Q]] 4 1) src_softmax_output));
mout (qresult (qdenote [((-6926536226895823 # 4503599627370496)%Q, (1934839108120149 # 9007199254740992)%Q); ((-430375239390593 # 281474976710656)%Q, (7809325026759805 # 36028797018963968)%Q); ((-4764808405757985 # 9007199254740992)%Q, (5306986578192905 # 9007199254740992)%Q); ((8547832092749201 # 9007199254740992)%Q, (5816680938842567 # 2251799813685248)%Q)] [] (qenv_sd [[(-4764808405757985 # 9007199254740992)%Q]; [(8547832092749201 # 9007199254740992)%Q]; [(-6926536226895823 # 4503599627370496)%Q]; [(-430375239390593 # 281474976710656)%Q]] [[(-5620492334958379 # 4503599627370496)%Q]; [(5782621921543717 # 9007199254740992)%Q]; [(-5512405943901487 # 9007199254740992)%Q]; [(-8565846491258683 # 9007199254740992)%Q]] 4 1) src_softmax_gradient));
mout (qresult (qdenote [((-2188749418902061 # 2251799813685248)%Q, (1703827164887931 # 4503599627370496)%Q); ((-835417730877227 # 1125899906842624)%Q, (134027305415379 # 281474976710656)%Q); ((-5296233161787703 # 9007199254740992)%Q, (2501466085544163 # 4503599627370496)%Q); ((1134907106097365 # 1125899906842624)%Q, (6170191123209419 # 2251799813685248)%Q)] [] (qenv_s [[(-5296233161787703 # 9007199254740992)%Q]; [(1134907106097365 # 1125899906842624)%Q]; [(-835417730877227 # 1125899906842624)%Q]; [(-2188749418902061 # 2251799813685248)%Q]] 4 1) src_softmax_output));
mout (qresult (qdenote [((-2188749418902061 # 2251799813685248)%Q, (1703827164887931 # 4503599627370496)%Q); ((-835417730877227 # 1125899906842624)%Q, (134027305415379 # 281474976710656)%Q); ((-5296233161787703 # 9007199254740992)%Q, (2501466085544163 # 4503599627370496)%Q); ((1134907106097365 # 1125899906842624)%Q, (6170191123209419 # 2251799813685248)%Q)] [] (qenv_sd [[(-5296233161787703 # 9007199254740992)%Q]; [(1134907106097365 # 1125899906842624)%Q]; [(-835417730877227 # 1125899906842624)%Q]; [(-2188749418902061 # 2251799813685248)%Q]] [[(-5332261958806667 # 18014398509481984)%Q]; [(-8268608915852231 # 18014398509481984)%Q]; [(-8142508126285857 # 72057594037927936)%Q]; [(6237485483908137 # 4503599627370496)%Q]] 4 1) src_softmax_gradient));
mout (qresult (qdenote [((-5068801380605493 # 2251799813685248)%Q, (7587223516997615 # 72057594037927936)%Q); ((-7669630165411955 # 4503599627370496)%Q, (3281075796396305 # 18014398509481984)%Q); ((-2913828958908711 # 2251799813685248)%Q, (2469520926058425 # 9007199254740992)%Q)] [] (qenv_s [[(-5068801380605493 # 2251799813685248)%Q]; [(-7669630165411955 # 4503599627370496)%Q]; [(-2913828958908711 # 2251799813685248)%Q]] 3 1) src_softmax_output));
mout (qresult (qdenote [((-5068801380605493 # 2251799813685248)%Q, (7587223516997615 # 72057594037927936)%Q); ((-7669630165411955 # 4503599627370496)%Q, (3281075796396305 # 18014398509481984)%Q); ((-2913828958908711 # 2251799813685248)%Q, (2469520926058425 # 9007199254740992)%Q)] [] (qenv_sd [[(-5068801380605493 # 2251799813685248)%Q]; [(-7669630165411955 # 4503599627370496)%Q]; [(-2913828958908711 # 2251799813685248)%Q]] [[(465559611479425 # 281474976710656)%Q]; [(8430738502437569 # 9007199254740992)%Q]; [(8358680908399641 # 36028797018963968)%Q]] 3 1) src_softmax_gradient));
mout (qresult (qdenote [((-7926335344172073 # 4503599627370496)%Q, (6198569476835985 # 36028797018963968)%Q); ((2737062673534419 # 1125899906842624)%Q, (6400879818299933 # 562949953421312)%Q)] [] (qenv_s [[(-7926335344172073 # 4503599627370496)%Q]; [(2737062673534419 # 1125899906842624)%Q]] 2 1) src_softmax_output));
mout (qresult (qdenote [((-7926335344172073 # 4503599627370496)%Q, (6198569476835985 # 36028797018963968)%Q); ((2737062673534419 # 1125899906842624)%Q, (6400879818299933 # 562949953421312)%Q)] [] (qenv_sd [[(-7926335344172073 # 4503599627370496)%Q]; [(2737062673534419 # 1125899906842624)%Q]] [[(-4656722014701093 # 4503599627370496)%Q]; [(-7764205757586735 # 9007199254740992)%Q]] 2 1) src_softmax_gradient));
mout (qresult (qdenote [((-3350678122763649 # 1125899906842624)%Q, (7349357518875717 # 144115188075855872)%Q); ((-1259319045803475 # 562949953421312)%Q, (7694191676209167 # 72057594037927936)%Q); ((-7723673360940401 # 4503599627370496)%Q, (202621136385945 # 1125899906842624)%Q); ((-3404721318292095 # 2251799813685248)%Q, (3971609210743085 # 18014398509481984)%Q); ((-4386506037058863 # 9007199254740992)%Q, (5534627001201787 # 9007199254740992)%Q); ((-1553741871442821 # 4503599627370496)%Q, (3189540919973785 # 4503599627370496)%Q); ((4692750811720057 # 9007199254740992)%Q, (1895689516089895 # 1125899906842624)%Q); ((4931441591970693 # 4503599627370496)%Q, (6731041009536345 # 2251799813685248)%Q); ((4949455990480175 # 4503599627370496)%Q, (6758019093772193 # 2251799813685248)%Q); ((783063385209045 # 281474976710656)%Q, (4546184328291105 # 281474976710656)%Q)] [] (qenv_s [[(-3404721318292095 # 2251799813685248)%Q; (4949455990480175 # 4503599627370496)%Q]; [(-3350678122763649 # 1125899906842624)%Q; (783063385209045 # 281474976710656)%Q]; [(-4386506037058863 # 9007199254740992)%Q; (-1553741871442821 # 4503599627370496)%Q]; [(4692750811720057 # 9007199254740992)%Q; (4931441591970693 # 4503599627370496)%Q]; [(-7723673360940401 # 4503599627370496)%Q; (-1259319045803475 # 562949953421312)%Q]] 5 2) src_softmax_output));
mout (qresult (qdenote [((-3350678122763649 # 1125899906842624)%Q, (7349357518875717 # 144115188075855872)%Q); ((-1259319045803475 # 562949953421312)%Q, (7694191676209167 # 72057594037927936)%Q); ((-7723673360940401 # 4503599627370496)%Q, (202621136385945 # 1125899906842624)%Q); ((-3404721318292095 # 2251799813685248)%Q, (3971609210743085 # 18014398509481984)%Q); ((-4386506037058863 # 9007199254740992)%Q, (5534627001201787 # 9007199254740992)%Q); ((-1553741871442821 # 4503599627370496)%Q, (3189540919973785 # 4503599627370496)%Q); ((4692750811720057 # 9007199254740992)%Q, (1895689516089895 # 1125899906842624)%Q); ((4931441591970693 # 4503599627370496)%Q, (6731041009536345 # 2251799813685248)%Q); ((4949455990480175 # 4503599627370496)%Q, (6758019093772193 # 2251799813685248)%Q); ((783063385209045 # 281474976710656)%Q, (4546184328291105 # 281474976710656)%Q)] [] (qenv_sd [[(-3404721318292095 # 2251799813685248)%Q; (4949455990480175 # 4503599627370496)%Q]; [(-3350678122763649 # 1125899906842624)%Q; (783063385209045 # 281474976710656)%Q]; [(-4386506037058863 # 9007199254740992)%Q; (-1553741871442821 # 4503599627370496)%Q]; [(4692750811720057 # 9007199254740992)%Q; (4931441591970693 # 4503599627370496)%Q]; [(-7723673360940401 # 4503599627370496)%Q; (-1259319045803475 # 562949953421312)%Q]] [[(1206964700135293 # 1125899906842624)%Q; (7349874591868649 # 72057594037927936)%Q]; [(3170534137668829 # 72057594037927936)%Q; (4003700068732371 # 2251799813685248)%Q]; [(-4589168020290535 # 4503599627370496)%Q; (-536772780587221 # 281474976710656)%Q]; [(8764004874862985 # 9007199254740992)%Q; (-7111183811618013 # 4503599627370496)%Q]; [(4805340802404319 # 4503599627370496)%Q; (-3296634927235203 # 18014398509481984)%Q]] 5 2) src_softmax_gradient));
mout (qresult (qdenote [((-5620492334958379 # 2251799813685248)%Q, (1484638569852365 # 18014398509481984)%Q); ((-7818248953115181 # 4503599627370496)%Q, (3174567349947717 # 18014398509481984)%Q); ((-7669630165411955 # 4503599627370496)%Q, (3281075796396305 # 18014398509481984)%Q); ((2134706223373615 # 2251799813685248)%Q, (5810867165274989 # 2251799813685248)%Q)] [] (qenv_s [[(-5620492334958379 # 2251799813685248)%Q; (2134706223373615 # 2251799813685248)%Q]; [(-7669630165411955 # 4503599627370496)%Q; (-7818248953115181 # 4503599627370496)%Q]] 2 2) src_softmax_output));
mout (qresult (qdenote [((-5620492334958379 # 2251799813685248)%Q, (1484638569852365 # 18014398509481984)%Q); ((-7818248953115181 # 4503599627370496)%Q, (3174567349947717 # 18014398509481984)%Q); ((-7669630165411955 # 4503599627370496)%Q, (3281075796396305 # 18014398509481984)%Q); ((2134706223373615 # 2251799813685248)%Q, (5810867165274989 # 2251799813685248)%Q)] [] (qenv_sd [[(-5620492334958379 # 2251799813685248)%Q; (2134706223373615 # 2251799813685248)%Q]; [(-7669630165411955 # 4503599627370496)%Q; (-7818248953115181 # 4503599627370496)%Q]] [[(-5566449139429933 # 18014398509481984)%Q; (2476979795053773 # 9007199254740992)%Q]; [(3314649325744685 # 144115188075855872)%Q; (4782822804267467 # 9007199254740992)%Q]] 2 2) src_softmax_gradient));
mout (qresult (qdenote [((-2174112720113107 # 1125899906842624)%Q, (1306072019935015 # 9007199254740992)%Q); ((-4087016661838725 # 2251799813685248)%Q, (366678371773941 # 2251799813685248)%Q); ((-6620291452234629 # 4503599627370496)%Q, (517746164704955 # 2251799813685248)%Q); ((-8745990476353503 # 9007199254740992)%Q, (3411063688500887 # 9007199254740992)%Q); ((4944952390852805 # 9007199254740992)%Q, (7798075669399151 # 4503599627370496)%Q); ((1961317637719851 # 1125899906842624)%Q, (1606870135882123 # 281474976710656)%Q)] [] (qenv_s [[(-2174112720113107 # 1125899906842624)%Q; (4944952390852805 # 9007199254740992)%Q]; [(-4087016661838725 # 2251799813685248)%Q; (-8745990476353503 # 9007199254740992)%Q]; [(1961317637719851 # 1125899906842624)%Q; (-6620291452234629 # 4503599627370496)%Q]] 3 2) src_softmax_output));
mout (qresult (qdenote [((-2174112720113107 # 1125899906842624)%Q, (1306072019935015 # 9007199254740992)%Q); ((-4087016661838725 # 2251799813685248)%Q, (366678371773941 # 2251799813685248)%Q); ((-6620291452234629 # 4503599627370496)%Q, (517746164704955 # 2251799813685248)%Q); ((-8745990476353503 # 9007199254740992)%Q, (3411063688500887 # 9007199254740992)%Q); ((4944952390852805 # 9007199254740992)%Q, (7798075669399151 # 4503599627370496)%Q); ((1961317637719851 # 1125899906842624)%Q, (1606870135882123 # 281474976710656)%Q)] [] (qenv_sd [[(-2174112720113107 # 1125899906842624)%Q; (4944952390852805 # 9007199254740992)%Q]; [(-4087016661838725 # 2251799813685248)%Q; (-8745990476353503 # 9007199254740992)%Q]; [(1961317637719851 # 1125899906842624)%Q; (-6620291452234629 # 4503599627370496)%Q]] [[(7367888990378131 # 9007199254740992)%Q; (-2272066012008415 # 2251799813685248)%Q]; [(-5435844750236189 # 4503599627370496)%Q; (-6579759055588295 # 4503599627370496)%Q]; [(7286824197085463 # 9007199254740992)%Q; (-5512405943901487 # 18014398509481984)%Q]] 3 2) src_softmax_gradient));
mout (qresult (qdenote [((6016809102166983 # 9007199254740992)%Q, (8783517854547515 # 4503599627370496)%Q); ((7106680211990643 # 9007199254740992)%Q, (4956648534432845 # 2251799813685248)%Q)] [] (qenv_s [[(7106680211990643 # 9007199254740992)%Q; (6016809102166983 # 9007199254740992)%Q]] 1 2) src_softmax_output));
mout (qresult (qdenote [((6016809102166983 # 9007199254740992)%Q, (8783517854547515 # 4503599627370496)%Q); ((7106680211990643 # 9007199254740992)%Q, (4956648534432845 # 2251799813685248)%Q)] [] (qenv_sd [[(7106680211990643 # 9007199254740992)%Q; (6016809102166983 # 9007199254740992)%Q]] [[(-1131529406376837 # 1125899906842624)%Q; (3170534137668829 # 288230376151711744)%Q]] 1 2) src_softmax_gradient));
mout (qresult (qdenote [((-2581688486390137 # 1125899906842624)%Q, (7275159348897895 # 72057594037927936)%Q); ((7124694610500125 # 4503599627370496)%Q, (5477137623868973 # 1125899906842624)%Q)] [] (qenv_s [[(-2581688486390137 # 1125899906842624)%Q; (7124694610500125 # 4503599627370496)%Q]] 1 2) src_softmax_output));
mout (qresult (qdenote [((-2581688486390137 # 1125899906842624)%Q, (7275159348897895 # 72057594037927936)%Q); ((7124694610500125 # 4503599627370496)%Q, (5477137623868973 # 1125899906842624)%Q)] [] (qenv_sd [[(-2581688486390137 # 1125899906842624)%Q; (7124694610500125 # 4503599627370496)%Q]] [[(-3285375928166777 # 2251799813685248)%Q; (-5908722711110091 # 144115188075855872)%Q]] 1 2) src_softmax_gradient));
mout (qresult (qdenote [((-4913427193461211 # 2251799813685248)%Q, (8129226003013107 # 72057594037927936)%Q); ((-202099033278251 # 562949953421312)%Q, (6290396937024117 # 9007199254740992)%Q); ((4787326403894837 # 2251799813685248)%Q, (4718238130740515 # 562949953421312)%Q); ((729020189680599 # 281474976710656)%Q, (7503994303135787 # 562949953421312)%Q)] [] (qenv_s [[(4787326403894837 # 2251799813685248)%Q; (729020189680599 # 281474976710656)%Q]; [(-4913427193461211 # 2251799813685248)%Q; (-202099033278251 # 562949953421312)%Q]] 2 2) src_softmax_output));
mout (qresult (qdenote [((-4913427193461211 # 2251799813685248)%Q, (8129226003013107 # 72057594037927936)%Q); ((-202099033278251 # 562949953421312)%Q, (6290396937024117 # 9007199254740992)%Q); ((4787326403894837 # 2251799813685248)%Q, (4718238130740515 # 562949953421312)%Q); ((729020189680599 # 281474976710656)%Q, (7503994303135787 # 562949953421312)%Q)] [] (qenv_sd [[(4787326403894837 # 2251799813685248)%Q; (729020189680599 # 281474976710656)%Q]; [(-4913427193461211 # 2251799813685248)%Q; (-202099033278251 # 562949953421312)%Q]] [[(-4998995586381251 # 9007199254740992)%Q; (-7142709009009607 # 4503599627370496)%Q]; [(-1553741871442821 # 2251799813685248)%Q; (-1928666540421415 # 1125899906842624)%Q]] 2 2) src_softmax_gradient));
mout (qresult (qdenote [((-4159074255876653 # 2251799813685248)%Q, (5682086665106319 # 36028797018963968)%Q); ((3206562934687793 # 18014398509481984)%Q, (2690507435742941 # 2251799813685248)%Q)] [] (qenv_s [[(3206562934687793 # 18014398509481984)%Q; (-4159074255876653 # 2251799813685248)%Q]] 1 2) src_softmax_output));
mout (qresult (qdenote [((-4159074255876653 # 2251799813685248)%Q, (5682086665106319 # 36028797018963968)%Q); ((3206562934687793 # 18014398509481984)%Q, (2690507435742941 # 2251799813685248)%Q)] [] (qenv_sd [[(3206562934687793 # 18014398509481984)%Q; (-4159074255876653 # 2251799813685248)%Q]] [[(8764004874862985 # 9007199254740992)%Q; (-8813544470764061 # 4503599627370496)%Q]] 1 2) src_softmax_gradient));
mout (qresult (qdenote [((-6525715860059849 # 2251799813685248)%Q, (993194617540485 # 18014398509481984)%Q); ((-5807391719494255 # 2251799813685248)%Q, (5465555243883477 # 72057594037927936)%Q); ((-3170534137668829 # 2251799813685248)%Q, (8813798773974891 # 36028797018963968)%Q); ((-6854478632857895 # 9007199254740992)%Q, (4208154433618667 # 9007199254740992)%Q); ((3 # 4)%Q, (595882530372511 # 281474976710656)%Q); ((1206964700135293 # 1125899906842624)%Q, (1644498463839819 # 562949953421312)%Q); ((6804939036956819 # 4503599627370496)%Q, (5101744974572217 # 1125899906842624)%Q); ((8160522524795339 # 4503599627370496)%Q, (3446762733893303 # 562949953421312)%Q); ((643170321783849 # 281474976710656)%Q, (1382842400535751 # 140737488355328)%Q); ((6753147641242059 # 2251799813685248)%Q, (5647925287483587 # 281474976710656)%Q)] [] (qenv_s [[(-6525715860059849 # 2251799813685248)%Q; (3 # 4)%Q]; [(643170321783849 # 281474976710656)%Q; (-6854478632857895 # 9007199254740992)%Q]; [(6804939036956819 # 4503599627370496)%Q; (8160522524795339 # 4503599627370496)%Q]; [(1206964700135293 # 1125899906842624)%Q; (-5807391719494255 # 2251799813685248)%Q]; [(-3170534137668829 # 2251799813685248)%Q; (6753147641242059 # 2251799813685248)%Q]] 5 2) src_softmax_output));
mout (qresult (qdenote [((-6525715860059849 # 2251799813685248)%Q, (993194617540485 # 18014398509481984)%Q); ((-5807391719494255 # 2251799813685248)%Q, (5465555243883477 # 72057594037927936)%Q); ((-3170534137668829 # 2251799813685248)%Q, (8813798773974891 # 36028797018963968)%Q); ((-6854478632857895 # 9007199254740992)%Q, (4208154433618667 # 9007199254740992)%Q); ((3 # 4)%Q, (595882530372511 # 281474976710656)%Q); ((1206964700135293 # 1125899906842624)%Q, (1644498463839819 # 562949953421312)%Q); ((6804939036956819 # 4503599627370496)%Q, (5101744974572217 # 1125899906842624)%Q); ((8160522524795339 # 4503599627370496)%Q, (3446762733893303 # 562949953421312)%Q); ((643170321783849 # 281474976710656)%Q, (1382842400535751 # 140737488355328)%Q); ((6753147641242059 # 2251799813685248)%Q, (5647925287483587 # 281474976710656)%Q)] [] (qenv_sd [[(-6525715860059849 # 2251799813685248)%Q; (3 # 4)%Q]; [(643170321783849 # 281474976710656)%Q; (-6854478632857895 # 9007199254740992)%Q]; [(6804939036956819 # 4503599627370496)%Q; (8160522524795339 # 4503599627370496)%Q]; [(1206964700135293 # 1125899906842624)%Q; (-5807391719494255 # 2251799813685248)%Q]; [(-3170534137668829 # 2251799813685248)%Q; (6753147641242059 # 2251799813685248)%Q]] [[(6039327100303835 # 4503599627370496)%Q; (5332261958806667 # 72057594037927936)%Q]; [(4267160646933545 # 2251799813685248)%Q; (-3787527286618587 # 2251799813685248)%Q]; [(4913427193461211 # 4503599627370496)%Q; (7651615766902473 # 4503599627370496)%Q]; [(-8818048070391431 # 4503599627370496)%Q; (8980177656976769 # 9007199254740992)%Q]; [(6404118670120845 # 4503599627370496)%Q; (-6931039826523193 # 4503599627370496)%Q]] 5 2) src_softmax_gradient))
].
Eval vm_compute in the_cases.
