From SKN Require Import Base.Util Model.NpExpr Model.NpVec Gen.NpRso.
Set Printing Depth 10000000.
Set Printing Width 1000000.
Definition qz3 (q : Q) : Z * Z := (Qnum q, Zpos (Qden q)).

Definition the_cases := [
map qz3 (qvresult (qvdenote (qenv_rso [[(0 # 1)%Q; (0 # 1)%Q; (0 # 1)%Q]; [(0 # 1)%Q; (0 # 1)%Q; (0 # 1)%Q]; [(0 # 1)%Q; (0 # 1)%Q; (0 # 1)%Q]] 3 [(1 # 2)%Q; (1 # 2)%Q; (0 # 1)%Q] [(1 # 4)%Q; (-3 # 4)%Q; (-1 # 2)%Q] (1 # 4)%Q) src_rso_matvec));
map qz3 (qvresult (qvdenote (qenv_rso [[(0 # 1)%Q; (3 # 1)%Q; (0 # 1)%Q; (0 # 1)%Q; (0 # 1)%Q; (1 # 1)%Q; (0 # 1)%Q]; [(2 # 1)%Q; (0 # 1)%Q; (0 # 1)%Q; (0 # 1)%Q; (3 # 1)%Q; (0 # 1)%Q; (0 # 1)%Q]; [(0 # 1)%Q; (0 # 1)%Q; (0 # 1)%Q; (1 # 2)%Q; (1 # 1)%Q; (0 # 1)%Q; (0 # 1)%Q]; [(0 # 1)%Q; (0 # 1)%Q; (2 # 1)%Q; (0 # 1)%Q; (0 # 1)%Q; (0 # 1)%Q; (3 # 1)%Q]; [(0 # 1)%Q; (1 # 1)%Q; (1 # 2)%Q; (0 # 1)%Q; (0 # 1)%Q; (0 # 1)%Q; (0 # 1)%Q]; [(1 # 1)%Q; (0 # 1)%Q; (0 # 1)%Q; (0 # 1)%Q; (0 # 1)%Q; (0 # 1)%Q; (1 # 2)%Q]; [(0 # 1)%Q; (0 # 1)%Q; (0 # 1)%Q; (1 # 2)%Q; (0 # 1)%Q; (1 # 1)%Q; (0 # 1)%Q]] 7 [(3602879701896397 # 18014398509481984)%Q; (0 # 1)%Q; (3602879701896397 # 18014398509481984)%Q; (3602879701896397 # 18014398509481984)%Q; (3602879701896397 # 18014398509481984)%Q; (0 # 1)%Q; (3602879701896397 # 18014398509481984)%Q] [(0 # 1)%Q; (-1 # 1)%Q; (5 # 4)%Q; (1 # 2)%Q; (3 # 2)%Q; (0 # 1)%Q; (3 # 4)%Q] (1 # 4)%Q) src_rso_matvec));
map qz3 (qvresult (qvdenote (qenv_rso [[(0 # 1)%Q; (0 # 1)%Q; (0 # 1)%Q; (0 # 1)%Q; (0 # 1)%Q; (0 # 1)%Q; (1 # 2)%Q]; [(0 # 1)%Q; (0 # 1)%Q; (0 # 1)%Q; (0 # 1)%Q; (0 # 1)%Q; (1 # 2)%Q; (0 # 1)%Q]; [(0 # 1)%Q; (0 # 1)%Q; (0 # 1)%Q; (0 # 1)%Q; (0 # 1)%Q; (1 # 1)%Q; (0 # 1)%Q]; [(0 # 1)%Q; (0 # 1)%Q; (0 # 1)%Q; (0 # 1)%Q; (1 # 2)%Q; (0 # 1)%Q; (0 # 1)%Q]; [(0 # 1)%Q; (0 # 1)%Q; (0 # 1)%Q; (0 # 1)%Q; (0 # 1)%Q; (0 # 1)%Q; (3 # 1)%Q]; [(1 # 1)%Q; (0 # 1)%Q; (0 # 1)%Q; (0 # 1)%Q; (0 # 1)%Q; (0 # 1)%Q; (0 # 1)%Q]; [(0 # 1)%Q; (0 # 1)%Q; (2 # 1)%Q; (2 # 1)%Q; (0 # 1)%Q; (0 # 1)%Q; (0 # 1)%Q]] 7 [(3602879701896397 # 36028797018963968)%Q; (3602879701896397 # 36028797018963968)%Q; (3602879701896397 # 36028797018963968)%Q; (5404319552844595 # 18014398509481984)%Q; (0 # 1)%Q; (5404319552844595 # 18014398509481984)%Q; (3602879701896397 # 36028797018963968)%Q] [(-3 # 4)%Q; (5 # 4)%Q; (-1 # 4)%Q; (1 # 1)%Q; (1 # 4)%Q; (0 # 1)%Q; (0 # 1)%Q] (7656119366529843 # 9007199254740992)%Q) src_rso_matvec));
map qz3 (qvresult (qvdenote (qenv_rso [[(0 # 1)%Q; (1 # 1)%Q; (1 # 1)%Q]; [(1 # 1)%Q; (0 # 1)%Q; (1 # 2)%Q]; [(1 # 2)%Q; (2 # 1)%Q; (0 # 1)%Q]] 3 [(0 # 1)%Q; (5404319552844595 # 9007199254740992)%Q; (3602879701896397 # 9007199254740992)%Q] [(1 # 4)%Q; (-1 # 4)%Q; (5 # 4)%Q] (1 # 4)%Q) src_rso_matvec));
map qz3 (qvresult (qvdenote (qenv_rso [[(0 # 1)%Q; (1 # 1)%Q; (1 # 1)%Q; (0 # 1)%Q]; [(0 # 1)%Q; (0 # 1)%Q; (0 # 1)%Q; (0 # 1)%Q]; [(0 # 1)%Q; (0 # 1)%Q; (0 # 1)%Q; (0 # 1)%Q]; [(0 # 1)%Q; (0 # 1)%Q; (0 # 1)%Q; (0 # 1)%Q]] 4 [(1 # 4)%Q; (1 # 4)%Q; (1 # 4)%Q; (1 # 4)%Q] [(-1 # 4)%Q; (7 # 4)%Q; (1 # 4)%Q; (2 # 1)%Q] (7656119366529843 # 9007199254740992)%Q) src_rso_matvec));
map qz3 (qvresult (qvdenote (qenv_rso [[(0 # 1)%Q; (0 # 1)%Q; (0 # 1)%Q]; [(0 # 1)%Q; (0 # 1)%Q; (2 # 1)%Q]; [(0 # 1)%Q; (0 # 1)%Q; (0 # 1)%Q]] 3 [(7720456504063707 # 18014398509481984)%Q; (2573485501354569 # 18014398509481984)%Q; (7720456504063707 # 18014398509481984)%Q] [(3 # 2)%Q; (-1 # 2)%Q; (7 # 4)%Q] (0 # 1)%Q) src_rso_matvec));
map qz3 (qvresult (qvdenote (qenv_rso [[(0 # 1)%Q; (1 # 1)%Q; (3 # 1)%Q; (2 # 1)%Q]; [(0 # 1)%Q; (0 # 1)%Q; (1 # 1)%Q; (0 # 1)%Q]; [(0 # 1)%Q; (2 # 1)%Q; (0 # 1)%Q; (0 # 1)%Q]; [(0 # 1)%Q; (0 # 1)%Q; (2 # 1)%Q; (0 # 1)%Q]] 4 [(0 # 1)%Q; (6004799503160661 # 36028797018963968)%Q; (1 # 2)%Q; (6004799503160661 # 18014398509481984)%Q] [(0 # 1)%Q; (-3 # 4)%Q; (1 # 2)%Q; (0 # 1)%Q] (1 # 2)%Q) src_rso_matvec));
map qz3 (qvresult (qvdenote (qenv_rso [[(0 # 1)%Q; (0 # 1)%Q; (0 # 1)%Q]; [(2 # 1)%Q; (0 # 1)%Q; (1 # 2)%Q]; [(0 # 1)%Q; (0 # 1)%Q; (0 # 1)%Q]] 3 [(1 # 2)%Q; (1 # 4)%Q; (1 # 4)%Q] [(2 # 1)%Q; (1 # 1)%Q; (0 # 1)%Q] (1 # 4)%Q) src_rso_matvec));
map qz3 (qvresult (qvdenote (qenv_rso [[(0 # 1)%Q; (1 # 1)%Q; (0 # 1)%Q]; [(2 # 1)%Q; (0 # 1)%Q; (1 # 1)%Q]; [(0 # 1)%Q; (3 # 1)%Q; (0 # 1)%Q]] 3 [(3 # 8)%Q; (1 # 4)%Q; (3 # 8)%Q] [(2 # 1)%Q; (1 # 2)%Q; (2 # 1)%Q] (7656119366529843 # 9007199254740992)%Q) src_rso_matvec));
map qz3 (qvresult (qvdenote (qenv_rso [[(0 # 1)%Q; (1 # 2)%Q; (1 # 1)%Q; (0 # 1)%Q; (0 # 1)%Q; (3 # 1)%Q; (0 # 1)%Q]; [(1 # 2)%Q; (0 # 1)%Q; (0 # 1)%Q; (0 # 1)%Q; (1 # 1)%Q; (1 # 1)%Q; (0 # 1)%Q]; [(1 # 2)%Q; (0 # 1)%Q; (0 # 1)%Q; (3 # 1)%Q; (1 # 2)%Q; (1 # 2)%Q; (0 # 1)%Q]; [(0 # 1)%Q; (0 # 1)%Q; (1 # 2)%Q; (0 # 1)%Q; (1 # 1)%Q; (0 # 1)%Q; (3 # 1)%Q]; [(0 # 1)%Q; (2 # 1)%Q; (1 # 2)%Q; (3 # 1)%Q; (0 # 1)%Q; (0 # 1)%Q; (0 # 1)%Q]; [(1 # 2)%Q; (3 # 1)%Q; (1 # 2)%Q; (0 # 1)%Q; (0 # 1)%Q; (0 # 1)%Q; (0 # 1)%Q]; [(0 # 1)%Q; (0 # 1)%Q; (0 # 1)%Q; (1 # 1)%Q; (0 # 1)%Q; (0 # 1)%Q; (0 # 1)%Q]] 7 [(6004799503160661 # 72057594037927936)%Q; (6004799503160661 # 36028797018963968)%Q; (1 # 4)%Q; (1 # 4)%Q; (0 # 1)%Q; (6004799503160661 # 36028797018963968)%Q; (6004799503160661 # 72057594037927936)%Q] [(2 # 1)%Q; (7 # 4)%Q; (5 # 4)%Q; (7 # 4)%Q; (1 # 1)%Q; (-1 # 4)%Q; (-1 # 2)%Q] (7656119366529843 # 9007199254740992)%Q) src_rso_matvec));
map qz3 (qvresult (qvdenote (qenv_rso [[(0 # 1)%Q; (1 # 1)%Q; (0 # 1)%Q; (1 # 1)%Q; (0 # 1)%Q; (0 # 1)%Q; (0 # 1)%Q]; [(0 # 1)%Q; (0 # 1)%Q; (1 # 1)%Q; (0 # 1)%Q; (0 # 1)%Q; (0 # 1)%Q; (0 # 1)%Q]; [(0 # 1)%Q; (0 # 1)%Q; (0 # 1)%Q; (0 # 1)%Q; (0 # 1)%Q; (0 # 1)%Q; (0 # 1)%Q]; [(0 # 1)%Q; (0 # 1)%Q; (0 # 1)%Q; (0 # 1)%Q; (2 # 1)%Q; (0 # 1)%Q; (3 # 1)%Q]; [(0 # 1)%Q; (0 # 1)%Q; (0 # 1)%Q; (0 # 1)%Q; (0 # 1)%Q; (3 # 1)%Q; (0 # 1)%Q]; [(0 # 1)%Q; (0 # 1)%Q; (0 # 1)%Q; (0 # 1)%Q; (0 # 1)%Q; (0 # 1)%Q; (0 # 1)%Q]; [(0 # 1)%Q; (0 # 1)%Q; (0 # 1)%Q; (0 # 1)%Q; (0 # 1)%Q; (0 # 1)%Q; (0 # 1)%Q]] 7 [(4803839602528529 # 36028797018963968)%Q; (3602879701896397 # 18014398509481984)%Q; (3602879701896397 # 18014398509481984)%Q; (4803839602528529 # 72057594037927936)%Q; (4803839602528529 # 36028797018963968)%Q; (3602879701896397 # 18014398509481984)%Q; (4803839602528529 # 72057594037927936)%Q] [(1 # 1)%Q; (7 # 4)%Q; (3 # 2)%Q; (5 # 4)%Q; (-3 # 4)%Q; (1 # 4)%Q; (7 # 4)%Q] (0 # 1)%Q) src_rso_matvec));
map qz3 (qvresult (qvdenote (qenv_rso [[(0 # 1)%Q; (0 # 1)%Q; (0 # 1)%Q; (0 # 1)%Q; (0 # 1)%Q]; [(0 # 1)%Q; (0 # 1)%Q; (0 # 1)%Q; (0 # 1)%Q; (0 # 1)%Q]; [(0 # 1)%Q; (0 # 1)%Q; (0 # 1)%Q; (0 # 1)%Q; (2 # 1)%Q]; [(0 # 1)%Q; (0 # 1)%Q; (0 # 1)%Q; (0 # 1)%Q; (0 # 1)%Q]; [(1 # 1)%Q; (0 # 1)%Q; (0 # 1)%Q; (0 # 1)%Q; (0 # 1)%Q]] 5 [(1 # 4)%Q; (6004799503160661 # 36028797018963968)%Q; (6004799503160661 # 36028797018963968)%Q; (6004799503160661 # 36028797018963968)%Q; (1 # 4)%Q] [(3 # 4)%Q; (-1 # 2)%Q; (5 # 4)%Q; (3 # 4)%Q; (3 # 2)%Q] (1 # 4)%Q) src_rso_matvec));
map qz3 (qvresult (qvdenote (qenv_rso [[(0 # 1)%Q; (1 # 1)%Q; (1 # 1)%Q; (3 # 1)%Q; (2 # 1)%Q; (0 # 1)%Q; (0 # 1)%Q]; [(0 # 1)%Q; (0 # 1)%Q; (0 # 1)%Q; (0 # 1)%Q; (0 # 1)%Q; (0 # 1)%Q; (0 # 1)%Q]; [(0 # 1)%Q; (0 # 1)%Q; (0 # 1)%Q; (0 # 1)%Q; (0 # 1)%Q; (1 # 2)%Q; (0 # 1)%Q]; [(0 # 1)%Q; (0 # 1)%Q; (0 # 1)%Q; (0 # 1)%Q; (0 # 1)%Q; (0 # 1)%Q; (3 # 1)%Q]; [(0 # 1)%Q; (0 # 1)%Q; (0 # 1)%Q; (0 # 1)%Q; (0 # 1)%Q; (0 # 1)%Q; (0 # 1)%Q]; [(0 # 1)%Q; (0 # 1)%Q; (0 # 1)%Q; (0 # 1)%Q; (0 # 1)%Q; (0 # 1)%Q; (0 # 1)%Q]; [(0 # 1)%Q; (0 # 1)%Q; (0 # 1)%Q; (0 # 1)%Q; (0 # 1)%Q; (0 # 1)%Q; (0 # 1)%Q]] 7 [(1385722962267845 # 18014398509481984)%Q; (4157168886803535 # 18014398509481984)%Q; (1385722962267845 # 9007199254740992)%Q; (4157168886803535 # 18014398509481984)%Q; (1385722962267845 # 18014398509481984)%Q; (0 # 1)%Q; (4157168886803535 # 18014398509481984)%Q] [(2 # 1)%Q; (1 # 2)%Q; (0 # 1)%Q; (-1 # 2)%Q; (1 # 1)%Q; (0 # 1)%Q; (-1 # 4)%Q] (1 # 4)%Q) src_rso_matvec));
map qz3 (qvresult (qvdenote (qenv_rso [[(0 # 1)%Q; (1 # 1)%Q]; [(1 # 1)%Q; (0 # 1)%Q]] 2 [(1 # 2)%Q; (1 # 2)%Q] [(-3 # 4)%Q; (-1 # 1)%Q] (1 # 4)%Q) src_rso_matvec));
map qz3 (qvresult (qvdenote (qenv_rso [[(0 # 1)%Q; (2 # 1)%Q; (0 # 1)%Q; (0 # 1)%Q]; [(0 # 1)%Q; (0 # 1)%Q; (0 # 1)%Q; (0 # 1)%Q]; [(0 # 1)%Q; (0 # 1)%Q; (0 # 1)%Q; (0 # 1)%Q]; [(0 # 1)%Q; (0 # 1)%Q; (0 # 1)%Q; (0 # 1)%Q]] 4 [(1 # 2)%Q; (6004799503160661 # 36028797018963968)%Q; (0 # 1)%Q; (6004799503160661 # 18014398509481984)%Q] [(-3 # 4)%Q; (-1 # 4)%Q; (1 # 4)%Q; (3 # 2)%Q] (0 # 1)%Q) src_rso_matvec));
map qz3 (qvresult (qvdenote (qenv_rso [[(0 # 1)%Q; (3 # 1)%Q; (2 # 1)%Q; (0 # 1)%Q; (0 # 1)%Q; (0 # 1)%Q]; [(2 # 1)%Q; (0 # 1)%Q; (0 # 1)%Q; (3 # 1)%Q; (0 # 1)%Q; (0 # 1)%Q]; [(1 # 2)%Q; (0 # 1)%Q; (0 # 1)%Q; (3 # 1)%Q; (3 # 1)%Q; (0 # 1)%Q]; [(0 # 1)%Q; (3 # 1)%Q; (1 # 1)%Q; (0 # 1)%Q; (0 # 1)%Q; (1 # 1)%Q]; [(0 # 1)%Q; (0 # 1)%Q; (1 # 1)%Q; (0 # 1)%Q; (0 # 1)%Q; (1 # 1)%Q]; [(0 # 1)%Q; (0 # 1)%Q; (0 # 1)%Q; (2 # 1)%Q; (1 # 2)%Q; (0 # 1)%Q]] 6 [(2001599834386887 # 9007199254740992)%Q; (6004799503160661 # 18014398509481984)%Q; (0 # 1)%Q; (2001599834386887 # 9007199254740992)%Q; (2001599834386887 # 18014398509481984)%Q; (2001599834386887 # 18014398509481984)%Q] [(-1 # 2)%Q; (7 # 4)%Q; (2 # 1)%Q; (1 # 2)%Q; (1 # 2)%Q; (7 # 4)%Q] (1 # 4)%Q) src_rso_matvec));
map qz3 (qvresult (qvdenote (qenv_rso [[(0 # 1)%Q; (0 # 1)%Q; (0 # 1)%Q; (0 # 1)%Q]; [(1 # 2)%Q; (0 # 1)%Q; (3 # 1)%Q; (2 # 1)%Q]; [(0 # 1)%Q; (0 # 1)%Q; (0 # 1)%Q; (0 # 1)%Q]; [(0 # 1)%Q; (0 # 1)%Q; (0 # 1)%Q; (0 # 1)%Q]] 4 [(2573485501354569 # 18014398509481984)%Q; (2573485501354569 # 18014398509481984)%Q; (2573485501354569 # 9007199254740992)%Q; (7720456504063707 # 18014398509481984)%Q] [(-3 # 4)%Q; (1 # 4)%Q; (7 # 4)%Q; (-3 # 4)%Q] (1 # 1)%Q) src_rso_matvec));
map qz3 (qvresult (qvdenote (qenv_rso [[(0 # 1)%Q; (0 # 1)%Q; (0 # 1)%Q; (0 # 1)%Q]; [(0 # 1)%Q; (0 # 1)%Q; (0 # 1)%Q; (1 # 1)%Q]; [(0 # 1)%Q; (0 # 1)%Q; (0 # 1)%Q; (0 # 1)%Q]; [(0 # 1)%Q; (3 # 1)%Q; (0 # 1)%Q; (0 # 1)%Q]] 4 [(1 # 2)%Q; (0 # 1)%Q; (0 # 1)%Q; (1 # 2)%Q] [(3 # 4)%Q; (1 # 4)%Q; (3 # 4)%Q; (7 # 4)%Q] (7656119366529843 # 9007199254740992)%Q) src_rso_matvec));
map qz3 (qvresult (qvdenote (qenv_rso [[(0 # 1)%Q; (1 # 1)%Q; (2 # 1)%Q]; [(0 # 1)%Q; (0 # 1)%Q; (1 # 2)%Q]; [(3 # 1)%Q; (1 # 1)%Q; (0 # 1)%Q]] 3 [(0 # 1)%Q; (1 # 4)%Q; (3 # 4)%Q] [(1 # 1)%Q; (5 # 4)%Q; (-1 # 4)%Q] (1 # 2)%Q) src_rso_matvec));
map qz3 (qvresult (qvdenote (qenv_rso [[(0 # 1)%Q; (0 # 1)%Q; (1 # 1)%Q; (0 # 1)%Q]; [(0 # 1)%Q; (0 # 1)%Q; (1 # 1)%Q; (0 # 1)%Q]; [(1 # 1)%Q; (1 # 2)%Q; (0 # 1)%Q; (1 # 2)%Q]; [(0 # 1)%Q; (0 # 1)%Q; (3 # 1)%Q; (0 # 1)%Q]] 4 [(1 # 2)%Q; (0 # 1)%Q; (1 # 4)%Q; (1 # 4)%Q] [(0 # 1)%Q; (0 # 1)%Q; (3 # 4)%Q; (2 # 1)%Q] (1 # 4)%Q) src_rso_matvec));
map qz3 (qvresult (qvdenote (qenv_rso [[(0 # 1)%Q; (1 # 1)%Q]; [(1 # 1)%Q; (0 # 1)%Q]] 2 [(0 # 1)%Q; (1 # 1)%Q] [(1 # 1)%Q; (1 # 1)%Q] (1 # 1)%Q) src_rso_matvec));
map qz3 (qvresult (qvdenote (qenv_rso [[(0 # 1)%Q; (2 # 1)%Q]; [(0 # 1)%Q; (0 # 1)%Q]] 2 [(0 # 1)%Q; (1 # 1)%Q] [(5 # 4)%Q; (1 # 2)%Q] (0 # 1)%Q) src_rso_matvec));
map qz3 (qvresult (qvdenote (qenv_rso [[(0 # 1)%Q; (0 # 1)%Q; (1 # 1)%Q]; [(0 # 1)%Q; (0 # 1)%Q; (1 # 1)%Q]; [(1 # 1)%Q; (1 # 1)%Q; (0 # 1)%Q]] 3 [(1 # 4)%Q; (3 # 4)%Q; (0 # 1)%Q] [(3 # 4)%Q; (-1 # 2)%Q; (3 # 2)%Q] (1 # 2)%Q) src_rso_matvec));
map qz3 (qvresult (qvdenote (qenv_rso [[(0 # 1)%Q; (1 # 1)%Q]; [(1 # 1)%Q; (0 # 1)%Q]] 2 [(0 # 1)%Q; (1 # 1)%Q] [(1 # 2)%Q; (7 # 4)%Q] (1 # 2)%Q) src_rso_matvec));
map qz3 (qvresult (qvdenote (qenv_rso [[(0 # 1)%Q; (1 # 1)%Q; (3 # 1)%Q; (1 # 2)%Q; (1 # 1)%Q; (1 # 2)%Q; (1 # 1)%Q]; [(0 # 1)%Q; (0 # 1)%Q; (1 # 1)%Q; (2 # 1)%Q; (2 # 1)%Q; (1 # 2)%Q; (1 # 1)%Q]; [(0 # 1)%Q; (0 # 1)%Q; (0 # 1)%Q; (1 # 1)%Q; (2 # 1)%Q; (3 # 1)%Q; (1 # 2)%Q]; [(0 # 1)%Q; (0 # 1)%Q; (0 # 1)%Q; (0 # 1)%Q; (3 # 1)%Q; (1 # 2)%Q; (2 # 1)%Q]; [(0 # 1)%Q; (3 # 1)%Q; (0 # 1)%Q; (2 # 1)%Q; (0 # 1)%Q; (3 # 1)%Q; (1 # 1)%Q]; [(3 # 1)%Q; (1 # 1)%Q; (1 # 1)%Q; (0 # 1)%Q; (0 # 1)%Q; (0 # 1)%Q; (2 # 1)%Q]; [(0 # 1)%Q; (1 # 2)%Q; (0 # 1)%Q; (0 # 1)%Q; (1 # 2)%Q; (0 # 1)%Q; (0 # 1)%Q]] 7 [(3602879701896397 # 18014398509481984)%Q; (4803839602528529 # 72057594037927936)%Q; (4803839602528529 # 36028797018963968)%Q; (3602879701896397 # 18014398509481984)%Q; (3602879701896397 # 18014398509481984)%Q; (3602879701896397 # 18014398509481984)%Q; (0 # 1)%Q] [(2 # 1)%Q; (1 # 4)%Q; (1 # 4)%Q; (5 # 4)%Q; (1 # 1)%Q; (-1 # 1)%Q; (1 # 4)%Q] (1 # 2)%Q) src_rso_matvec));
map qz3 (qvresult (qvdenote (qenv_rso [[(0 # 1)%Q; (1 # 2)%Q; (0 # 1)%Q]; [(0 # 1)%Q; (0 # 1)%Q; (1 # 1)%Q]; [(1 # 1)%Q; (0 # 1)%Q; (0 # 1)%Q]] 3 [(1 # 1)%Q; (0 # 1)%Q; (0 # 1)%Q] [(0 # 1)%Q; (1 # 2)%Q; (-1 # 1)%Q] (1 # 4)%Q) src_rso_matvec));
map qz3 (qvresult (qvdenote (qenv_rso [[(0 # 1)%Q; (0 # 1)%Q; (0 # 1)%Q; (0 # 1)%Q; (0 # 1)%Q; (0 # 1)%Q]; [(0 # 1)%Q; (0 # 1)%Q; (1 # 2)%Q; (1 # 1)%Q; (3 # 1)%Q; (3 # 1)%Q]; [(0 # 1)%Q; (0 # 1)%Q; (0 # 1)%Q; (1 # 2)%Q; (2 # 1)%Q; (0 # 1)%Q]; [(0 # 1)%Q; (0 # 1)%Q; (0 # 1)%Q; (0 # 1)%Q; (3 # 1)%Q; (0 # 1)%Q]; [(0 # 1)%Q; (0 # 1)%Q; (0 # 1)%Q; (0 # 1)%Q; (0 # 1)%Q; (1 # 1)%Q]; [(0 # 1)%Q; (0 # 1)%Q; (0 # 1)%Q; (0 # 1)%Q; (0 # 1)%Q; (0 # 1)%Q]] 6 [(0 # 1)%Q; (0 # 1)%Q; (7720456504063707 # 18014398509481984)%Q; (2573485501354569 # 9007199254740992)%Q; (2573485501354569 # 18014398509481984)%Q; (2573485501354569 # 18014398509481984)%Q] [(1 # 4)%Q; (1 # 1)%Q; (5 # 4)%Q; (-1 # 2)%Q; (-1 # 1)%Q; (0 # 1)%Q] (7656119366529843 # 9007199254740992)%Q) src_rso_matvec));
map qz3 (qvresult (qvdenote (qenv_rso [[(0 # 1)%Q; (0 # 1)%Q; (0 # 1)%Q; (0 # 1)%Q; (0 # 1)%Q; (0 # 1)%Q; (0 # 1)%Q]; [(0 # 1)%Q; (0 # 1)%Q; (0 # 1)%Q; (0 # 1)%Q; (0 # 1)%Q; (0 # 1)%Q; (0 # 1)%Q]; [(0 # 1)%Q; (0 # 1)%Q; (0 # 1)%Q; (0 # 1)%Q; (0 # 1)%Q; (0 # 1)%Q; (3 # 1)%Q]; [(0 # 1)%Q; (0 # 1)%Q; (0 # 1)%Q; (0 # 1)%Q; (0 # 1)%Q; (0 # 1)%Q; (0 # 1)%Q]; [(0 # 1)%Q; (0 # 1)%Q; (0 # 1)%Q; (0 # 1)%Q; (0 # 1)%Q; (0 # 1)%Q; (0 # 1)%Q]; [(0 # 1)%Q; (0 # 1)%Q; (0 # 1)%Q; (0 # 1)%Q; (0 # 1)%Q; (0 # 1)%Q; (0 # 1)%Q]; [(0 # 1)%Q; (0 # 1)%Q; (3 # 1)%Q; (0 # 1)%Q; (0 # 1)%Q; (0 # 1)%Q; (0 # 1)%Q]] 7 [(3275345183542179 # 36028797018963968)%Q; (0 # 1)%Q; (1228254443828317 # 4503599627370496)%Q; (3275345183542179 # 36028797018963968)%Q; (1228254443828317 # 4503599627370496)%Q; (0 # 1)%Q; (1228254443828317 # 4503599627370496)%Q] [(-1 # 4)%Q; (1 # 2)%Q; (7 # 4)%Q; (5 # 4)%Q; (1 # 1)%Q; (2 # 1)%Q; (-1 # 2)%Q] (1 # 1)%Q) src_rso_matvec));
map qz3 (qvresult (qvdenote (qenv_rso [[(0 # 1)%Q; (1 # 1)%Q; (3 # 1)%Q; (3 # 1)%Q; (2 # 1)%Q; (1 # 2)%Q; (1 # 1)%Q]; [(0 # 1)%Q; (0 # 1)%Q; (1 # 2)%Q; (1 # 2)%Q; (1 # 1)%Q; (3 # 1)%Q; (1 # 1)%Q]; [(0 # 1)%Q; (2 # 1)%Q; (0 # 1)%Q; (1 # 1)%Q; (1 # 1)%Q; (3 # 1)%Q; (1 # 1)%Q]; [(1 # 1)%Q; (0 # 1)%Q; (3 # 1)%Q; (0 # 1)%Q; (1 # 1)%Q; (3 # 1)%Q; (2 # 1)%Q]; [(0 # 1)%Q; (2 # 1)%Q; (0 # 1)%Q; (1 # 2)%Q; (0 # 1)%Q; (2 # 1)%Q; (1 # 1)%Q]; [(0 # 1)%Q; (0 # 1)%Q; (0 # 1)%Q; (0 # 1)%Q; (1 # 1)%Q; (0 # 1)%Q; (1 # 1)%Q]; [(0 # 1)%Q; (1 # 1)%Q; (2 # 1)%Q; (0 # 1)%Q; (0 # 1)%Q; (1 # 1)%Q; (0 # 1)%Q]] 7 [(0 # 1)%Q; (0 # 1)%Q; (2573485501354569 # 9007199254740992)%Q; (0 # 1)%Q; (7720456504063707 # 18014398509481984)%Q; (2573485501354569 # 9007199254740992)%Q; (0 # 1)%Q] [(1 # 4)%Q; (7 # 4)%Q; (-1 # 2)%Q; (1 # 1)%Q; (3 # 4)%Q; (7 # 4)%Q; (1 # 4)%Q] (1 # 2)%Q) src_rso_matvec));
map qz3 (qvresult (qvdenote (qenv_rso [[(0 # 1)%Q; (1 # 2)%Q; (1 # 1)%Q; (2 # 1)%Q]; [(1 # 1)%Q; (0 # 1)%Q; (1 # 1)%Q; (2 # 1)%Q]; [(3 # 1)%Q; (0 # 1)%Q; (0 # 1)%Q; (3 # 1)%Q]; [(3 # 1)%Q; (0 # 1)%Q; (0 # 1)%Q; (0 # 1)%Q]] 4 [(2573485501354569 # 18014398509481984)%Q; (2573485501354569 # 9007199254740992)%Q; (2573485501354569 # 9007199254740992)%Q; (2573485501354569 # 9007199254740992)%Q] [(1 # 2)%Q; (2 # 1)%Q; (1 # 2)%Q; (-1 # 2)%Q] (7656119366529843 # 9007199254740992)%Q) src_rso_matvec));
map qz3 (qvresult (qvdenote (qenv_rso [[(0 # 1)%Q; (0 # 1)%Q; (0 # 1)%Q; (0 # 1)%Q; (0 # 1)%Q; (0 # 1)%Q]; [(0 # 1)%Q; (0 # 1)%Q; (1 # 1)%Q; (1 # 1)%Q; (0 # 1)%Q; (0 # 1)%Q]; [(0 # 1)%Q; (3 # 1)%Q; (0 # 1)%Q; (0 # 1)%Q; (0 # 1)%Q; (0 # 1)%Q]; [(0 # 1)%Q; (1 # 2)%Q; (0 # 1)%Q; (0 # 1)%Q; (0 # 1)%Q; (0 # 1)%Q]; [(0 # 1)%Q; (0 # 1)%Q; (0 # 1)%Q; (0 # 1)%Q; (0 # 1)%Q; (0 # 1)%Q]; [(0 # 1)%Q; (0 # 1)%Q; (0 # 1)%Q; (0 # 1)%Q; (0 # 1)%Q; (0 # 1)%Q]] 6 [(4803839602528529 # 36028797018963968)%Q; (4803839602528529 # 72057594037927936)%Q; (3602879701896397 # 18014398509481984)%Q; (3602879701896397 # 18014398509481984)%Q; (3602879701896397 # 18014398509481984)%Q; (3602879701896397 # 18014398509481984)%Q] [(3 # 2)%Q; (-3 # 4)%Q; (-3 # 4)%Q; (7 # 4)%Q; (1 # 1)%Q; (3 # 4)%Q] (1 # 4)%Q) src_rso_matvec));
map qz3 (qvresult (qvdenote (qenv_rso [[(0 # 1)%Q; (1 # 1)%Q; (0 # 1)%Q]; [(0 # 1)%Q; (0 # 1)%Q; (1 # 1)%Q]; [(0 # 1)%Q; (0 # 1)%Q; (0 # 1)%Q]] 3 [(6004799503160661 # 36028797018963968)%Q; (6004799503160661 # 18014398509481984)%Q; (1 # 2)%Q] [(2 # 1)%Q; (5 # 4)%Q; (-3 # 4)%Q] (1 # 2)%Q) src_rso_matvec));
map qz3 (qvresult (qvdenote (qenv_rso [[(1 # 1)%Q; (0 # 1)%Q; (0 # 1)%Q; (0 # 1)%Q; (0 # 1)%Q]; [(0 # 1)%Q; (2 # 1)%Q; (0 # 1)%Q; (0 # 1)%Q; (0 # 1)%Q]; [(0 # 1)%Q; (0 # 1)%Q; (1 # 2)%Q; (0 # 1)%Q; (0 # 1)%Q]; [(0 # 1)%Q; (0 # 1)%Q; (0 # 1)%Q; (0 # 1)%Q; (0 # 1)%Q]; [(0 # 1)%Q; (0 # 1)%Q; (3 # 1)%Q; (3 # 1)%Q; (0 # 1)%Q]] 5 [(0 # 1)%Q; (3 # 8)%Q; (1 # 4)%Q; (1 # 4)%Q; (1 # 8)%Q] [(3 # 2)%Q; (1 # 2)%Q; (3 # 4)%Q; (1 # 2)%Q; (3 # 4)%Q] (0 # 1)%Q) src_rso_matvec));
map qz3 (qvresult (qvdenote (qenv_rso [[(0 # 1)%Q; (0 # 1)%Q]; [(0 # 1)%Q; (0 # 1)%Q]] 2 [(0 # 1)%Q; (1 # 1)%Q] [(7 # 4)%Q; (3 # 4)%Q] (1 # 1)%Q) src_rso_matvec));
map qz3 (qvresult (qvdenote (qenv_rso [[(0 # 1)%Q; (0 # 1)%Q; (1 # 2)%Q; (0 # 1)%Q; (0 # 1)%Q; (0 # 1)%Q]; [(0 # 1)%Q; (0 # 1)%Q; (1 # 1)%Q; (0 # 1)%Q; (0 # 1)%Q; (1 # 1)%Q]; [(1 # 1)%Q; (2 # 1)%Q; (0 # 1)%Q; (0 # 1)%Q; (1 # 1)%Q; (0 # 1)%Q]; [(0 # 1)%Q; (0 # 1)%Q; (3 # 1)%Q; (0 # 1)%Q; (0 # 1)%Q; (1 # 1)%Q]; [(0 # 1)%Q; (0 # 1)%Q; (0 # 1)%Q; (0 # 1)%Q; (0 # 1)%Q; (1 # 1)%Q]; [(0 # 1)%Q; (0 # 1)%Q; (0 # 1)%Q; (0 # 1)%Q; (0 # 1)%Q; (0 # 1)%Q]] 6 [(0 # 1)%Q; (3602879701896397 # 36028797018963968)%Q; (5404319552844595 # 18014398509481984)%Q; (3602879701896397 # 18014398509481984)%Q; (5404319552844595 # 18014398509481984)%Q; (3602879701896397 # 36028797018963968)%Q] [(7 # 4)%Q; (3 # 2)%Q; (1 # 1)%Q; (3 # 2)%Q; (-1 # 1)%Q; (0 # 1)%Q] (1 # 1)%Q) src_rso_matvec));
map qz3 (qvresult (qvdenote (qenv_rso [[(0 # 1)%Q; (0 # 1)%Q; (3 # 1)%Q]; [(1 # 2)%Q; (0 # 1)%Q; (0 # 1)%Q]; [(0 # 1)%Q; (0 # 1)%Q; (0 # 1)%Q]] 3 [(0 # 1)%Q; (1 # 2)%Q; (1 # 2)%Q] [(5 # 4)%Q; (1 # 2)%Q; (3 # 2)%Q] (1 # 4)%Q) src_rso_matvec));
map qz3 (qvresult (qvdenote (qenv_rso [[(0 # 1)%Q; (0 # 1)%Q; (1 # 1)%Q; (0 # 1)%Q; (0 # 1)%Q]; [(0 # 1)%Q; (0 # 1)%Q; (0 # 1)%Q; (1 # 2)%Q; (0 # 1)%Q]; [(0 # 1)%Q; (0 # 1)%Q; (0 # 1)%Q; (0 # 1)%Q; (0 # 1)%Q]; [(0 # 1)%Q; (0 # 1)%Q; (0 # 1)%Q; (0 # 1)%Q; (2 # 1)%Q]; [(2 # 1)%Q; (0 # 1)%Q; (0 # 1)%Q; (0 # 1)%Q; (0 # 1)%Q]] 5 [(0 # 1)%Q; (0 # 1)%Q; (6004799503160661 # 18014398509481984)%Q; (0 # 1)%Q; (6004799503160661 # 9007199254740992)%Q] [(1 # 2)%Q; (1 # 4)%Q; (1 # 1)%Q; (5 # 4)%Q; (7 # 4)%Q] (1 # 1)%Q) src_rso_matvec));
map qz3 (qvresult (qvdenote (qenv_rso [[(0 # 1)%Q; (0 # 1)%Q; (0 # 1)%Q; (0 # 1)%Q; (0 # 1)%Q; (0 # 1)%Q]; [(2 # 1)%Q; (0 # 1)%Q; (1 # 1)%Q; (1 # 1)%Q; (1 # 1)%Q; (3 # 1)%Q]; [(0 # 1)%Q; (0 # 1)%Q; (0 # 1)%Q; (0 # 1)%Q; (0 # 1)%Q; (0 # 1)%Q]; [(0 # 1)%Q; (0 # 1)%Q; (0 # 1)%Q; (0 # 1)%Q; (0 # 1)%Q; (0 # 1)%Q]; [(0 # 1)%Q; (0 # 1)%Q; (0 # 1)%Q; (0 # 1)%Q; (0 # 1)%Q; (0 # 1)%Q]; [(0 # 1)%Q; (0 # 1)%Q; (0 # 1)%Q; (0 # 1)%Q; (0 # 1)%Q; (0 # 1)%Q]] 6 [(1385722962267845 # 9007199254740992)%Q; (0 # 1)%Q; (4157168886803535 # 18014398509481984)%Q; (1385722962267845 # 9007199254740992)%Q; (4157168886803535 # 18014398509481984)%Q; (4157168886803535 # 18014398509481984)%Q] [(1 # 2)%Q; (-1 # 2)%Q; (2 # 1)%Q; (2 # 1)%Q; (5 # 4)%Q; (7 # 4)%Q] (0 # 1)%Q) src_rso_matvec));
map qz3 (qvresult (qvdenote (qenv_rso [[(0 # 1)%Q; (1 # 1)%Q; (0 # 1)%Q; (0 # 1)%Q; (0 # 1)%Q]; [(1 # 1)%Q; (0 # 1)%Q; (0 # 1)%Q; (2 # 1)%Q; (0 # 1)%Q]; [(0 # 1)%Q; (0 # 1)%Q; (0 # 1)%Q; (1 # 1)%Q; (1 # 1)%Q]; [(0 # 1)%Q; (2 # 1)%Q; (2 # 1)%Q; (0 # 1)%Q; (0 # 1)%Q]; [(0 # 1)%Q; (0 # 1)%Q; (3 # 1)%Q; (0 # 1)%Q; (0 # 1)%Q]] 5 [(0 # 1)%Q; (0 # 1)%Q; (0 # 1)%Q; (1 # 1)%Q; (0 # 1)%Q] [(0 # 1)%Q; (1 # 2)%Q; (1 # 1)%Q; (2 # 1)%Q; (1 # 2)%Q] (1 # 1)%Q) src_rso_matvec));
map qz3 (qvresult (qvdenote (qenv_rso [[(0 # 1)%Q; (0 # 1)%Q; (0 # 1)%Q; (0 # 1)%Q; (0 # 1)%Q; (0 # 1)%Q]; [(0 # 1)%Q; (0 # 1)%Q; (0 # 1)%Q; (0 # 1)%Q; (3 # 1)%Q; (0 # 1)%Q]; [(0 # 1)%Q; (0 # 1)%Q; (0 # 1)%Q; (2 # 1)%Q; (0 # 1)%Q; (0 # 1)%Q]; [(0 # 1)%Q; (0 # 1)%Q; (0 # 1)%Q; (0 # 1)%Q; (0 # 1)%Q; (2 # 1)%Q]; [(0 # 1)%Q; (0 # 1)%Q; (1 # 2)%Q; (0 # 1)%Q; (0 # 1)%Q; (0 # 1)%Q]; [(1 # 2)%Q; (0 # 1)%Q; (0 # 1)%Q; (0 # 1)%Q; (0 # 1)%Q; (0 # 1)%Q]] 6 [(2573485501354569 # 18014398509481984)%Q; (7720456504063707 # 18014398509481984)%Q; (0 # 1)%Q; (2573485501354569 # 18014398509481984)%Q; (0 # 1)%Q; (2573485501354569 # 9007199254740992)%Q] [(-1 # 4)%Q; (0 # 1)%Q; (-1 # 4)%Q; (3 # 4)%Q; (1 # 2)%Q; (-1 # 1)%Q] (7656119366529843 # 9007199254740992)%Q) src_rso_matvec));
map qz3 (qvresult (qvdenote (qenv_rso [[(0 # 1)%Q; (0 # 1)%Q; (0 # 1)%Q; (0 # 1)%Q; (1 # 1)%Q; (0 # 1)%Q]; [(0 # 1)%Q; (0 # 1)%Q; (2 # 1)%Q; (0 # 1)%Q; (0 # 1)%Q; (0 # 1)%Q]; [(0 # 1)%Q; (2 # 1)%Q; (0 # 1)%Q; (1 # 2)%Q; (0 # 1)%Q; (0 # 1)%Q]; [(0 # 1)%Q; (0 # 1)%Q; (2 # 1)%Q; (0 # 1)%Q; (0 # 1)%Q; (2 # 1)%Q]; [(3 # 1)%Q; (0 # 1)%Q; (0 # 1)%Q; (0 # 1)%Q; (0 # 1)%Q; (2 # 1)%Q]; [(0 # 1)%Q; (0 # 1)%Q; (0 # 1)%Q; (1 # 2)%Q; (1 # 1)%Q; (0 # 1)%Q]] 6 [(6004799503160661 # 18014398509481984)%Q; (0 # 1)%Q; (2001599834386887 # 9007199254740992)%Q; (2001599834386887 # 18014398509481984)%Q; (6004799503160661 # 18014398509481984)%Q; (0 # 1)%Q] [(-3 # 4)%Q; (3 # 2)%Q; (-1 # 2)%Q; (-3 # 4)%Q; (0 # 1)%Q; (3 # 2)%Q] (1 # 2)%Q) src_rso_matvec));
map qz3 (qvresult (qvdenote (qenv_rso [[(0 # 1)%Q; (0 # 1)%Q; (0 # 1)%Q; (0 # 1)%Q; (0 # 1)%Q; (0 # 1)%Q]; [(0 # 1)%Q; (0 # 1)%Q; (1 # 2)%Q; (1 # 2)%Q; (0 # 1)%Q; (0 # 1)%Q]; [(0 # 1)%Q; (3 # 1)%Q; (0 # 1)%Q; (1 # 1)%Q; (0 # 1)%Q; (0 # 1)%Q]; [(0 # 1)%Q; (2 # 1)%Q; (3 # 1)%Q; (0 # 1)%Q; (0 # 1)%Q; (0 # 1)%Q]; [(0 # 1)%Q; (0 # 1)%Q; (0 # 1)%Q; (0 # 1)%Q; (0 # 1)%Q; (0 # 1)%Q]; [(0 # 1)%Q; (0 # 1)%Q; (0 # 1)%Q; (0 # 1)%Q; (0 # 1)%Q; (0 # 1)%Q]] 6 [(2573485501354569 # 18014398509481984)%Q; (2573485501354569 # 9007199254740992)%Q; (2573485501354569 # 9007199254740992)%Q; (0 # 1)%Q; (2573485501354569 # 9007199254740992)%Q; (0 # 1)%Q] [(-1 # 4)%Q; (7 # 4)%Q; (-1 # 1)%Q; (1 # 1)%Q; (3 # 2)%Q; (-1 # 1)%Q] (1 # 1)%Q) src_rso_matvec));
map qz3 (qvresult (qvdenote (qenv_rso [[(0 # 1)%Q; (1 # 1)%Q]; [(1 # 2)%Q; (0 # 1)%Q]] 2 [(0 # 1)%Q; (1 # 1)%Q] [(7 # 4)%Q; (-1 # 2)%Q] (0 # 1)%Q) src_rso_matvec));
map qz3 (qvresult (qvdenote (qenv_rso [[(0 # 1)%Q; (0 # 1)%Q; (0 # 1)%Q; (3 # 1)%Q; (0 # 1)%Q; (0 # 1)%Q; (1 # 1)%Q]; [(0 # 1)%Q; (0 # 1)%Q; (2 # 1)%Q; (0 # 1)%Q; (0 # 1)%Q; (0 # 1)%Q; (0 # 1)%Q]; [(0 # 1)%Q; (2 # 1)%Q; (0 # 1)%Q; (0 # 1)%Q; (2 # 1)%Q; (0 # 1)%Q; (0 # 1)%Q]; [(1 # 1)%Q; (0 # 1)%Q; (0 # 1)%Q; (0 # 1)%Q; (0 # 1)%Q; (0 # 1)%Q; (0 # 1)%Q]; [(0 # 1)%Q; (0 # 1)%Q; (1 # 1)%Q; (0 # 1)%Q; (0 # 1)%Q; (1 # 1)%Q; (0 # 1)%Q]; [(0 # 1)%Q; (0 # 1)%Q; (0 # 1)%Q; (0 # 1)%Q; (1 # 2)%Q; (0 # 1)%Q; (1 # 2)%Q]; [(1 # 2)%Q; (0 # 1)%Q; (0 # 1)%Q; (0 # 1)%Q; (0 # 1)%Q; (1 # 1)%Q; (0 # 1)%Q]] 7 [(5404319552844595 # 18014398509481984)%Q; (3602879701896397 # 18014398509481984)%Q; (5404319552844595 # 18014398509481984)%Q; (3602879701896397 # 36028797018963968)%Q; (3602879701896397 # 36028797018963968)%Q; (0 # 1)%Q; (0 # 1)%Q] [(7 # 4)%Q; (-1 # 2)%Q; (1 # 1)%Q; (-1 # 4)%Q; (5 # 4)%Q; (7 # 4)%Q; (1 # 1)%Q] (1 # 1)%Q) src_rso_matvec));
map qz3 (qvresult (qvdenote (qenv_rso [[(0 # 1)%Q; (0 # 1)%Q]; [(0 # 1)%Q; (0 # 1)%Q]] 2 [(0 # 1)%Q; (1 # 1)%Q] [(2 # 1)%Q; (-1 # 2)%Q] (0 # 1)%Q) src_rso_matvec));
map qz3 (qvresult (qvdenote (qenv_rso [[(0 # 1)%Q; (0 # 1)%Q; (3 # 1)%Q]; [(1 # 1)%Q; (0 # 1)%Q; (0 # 1)%Q]; [(0 # 1)%Q; (0 # 1)%Q; (0 # 1)%Q]] 3 [(6004799503160661 # 18014398509481984)%Q; (6004799503160661 # 18014398509481984)%Q; (6004799503160661 # 18014398509481984)%Q] [(3 # 4)%Q; (-1 # 2)%Q; (-1 # 2)%Q] (0 # 1)%Q) src_rso_matvec));
map qz3 (qvresult (qvdenote (qenv_rso [[(0 # 1)%Q; (0 # 1)%Q; (0 # 1)%Q; (0 # 1)%Q; (0 # 1)%Q; (0 # 1)%Q; (0 # 1)%Q]; [(0 # 1)%Q; (0 # 1)%Q; (0 # 1)%Q; (0 # 1)%Q; (3 # 1)%Q; (0 # 1)%Q; (2 # 1)%Q]; [(1 # 2)%Q; (0 # 1)%Q; (0 # 1)%Q; (0 # 1)%Q; (0 # 1)%Q; (0 # 1)%Q; (0 # 1)%Q]; [(1 # 2)%Q; (0 # 1)%Q; (0 # 1)%Q; (0 # 1)%Q; (0 # 1)%Q; (0 # 1)%Q; (0 # 1)%Q]; [(1 # 1)%Q; (0 # 1)%Q; (0 # 1)%Q; (0 # 1)%Q; (0 # 1)%Q; (0 # 1)%Q; (0 # 1)%Q]; [(0 # 1)%Q; (0 # 1)%Q; (1 # 2)%Q; (0 # 1)%Q; (0 # 1)%Q; (0 # 1)%Q; (0 # 1)%Q]; [(2 # 1)%Q; (0 # 1)%Q; (3 # 1)%Q; (1 # 2)%Q; (0 # 1)%Q; (0 # 1)%Q; (0 # 1)%Q]] 7 [(1 # 8)%Q; (0 # 1)%Q; (1 # 8)%Q; (1 # 4)%Q; (1 # 8)%Q; (0 # 1)%Q; (3 # 8)%Q] [(-1 # 1)%Q; (1 # 2)%Q; (-3 # 4)%Q; (7 # 4)%Q; (1 # 4)%Q; (1 # 4)%Q; (1 # 2)%Q] (0 # 1)%Q) src_rso_matvec));
map qz3 (qvresult (qvdenote (qenv_rso [[(0 # 1)%Q; (1 # 1)%Q; (1 # 1)%Q; (0 # 1)%Q; (1 # 1)%Q]; [(0 # 1)%Q; (0 # 1)%Q; (0 # 1)%Q; (1 # 2)%Q; (0 # 1)%Q]; [(0 # 1)%Q; (0 # 1)%Q; (0 # 1)%Q; (0 # 1)%Q; (0 # 1)%Q]; [(0 # 1)%Q; (0 # 1)%Q; (0 # 1)%Q; (0 # 1)%Q; (0 # 1)%Q]; [(0 # 1)%Q; (0 # 1)%Q; (0 # 1)%Q; (0 # 1)%Q; (0 # 1)%Q]] 5 [(4157168886803535 # 18014398509481984)%Q; (4157168886803535 # 18014398509481984)%Q; (4157168886803535 # 18014398509481984)%Q; (1385722962267845 # 18014398509481984)%Q; (4157168886803535 # 18014398509481984)%Q] [(-3 # 4)%Q; (1 # 4)%Q; (1 # 4)%Q; (-1 # 2)%Q; (0 # 1)%Q] (1 # 1)%Q) src_rso_matvec));
map qz3 (qvresult (qvdenote (qenv_rso [[(0 # 1)%Q; (0 # 1)%Q; (0 # 1)%Q]; [(0 # 1)%Q; (0 # 1)%Q; (0 # 1)%Q]; [(0 # 1)%Q; (0 # 1)%Q; (0 # 1)%Q]] 3 [(0 # 1)%Q; (1 # 1)%Q; (0 # 1)%Q] [(7 # 4)%Q; (0 # 1)%Q; (0 # 1)%Q] (1 # 2)%Q) src_rso_matvec));
map qz3 (qvresult (qvdenote (qenv_rso [[(0 # 1)%Q; (1 # 2)%Q]; [(0 # 1)%Q; (0 # 1)%Q]] 2 [(1 # 1)%Q; (0 # 1)%Q] [(-1 # 4)%Q; (5 # 4)%Q] (1 # 1)%Q) src_rso_matvec));
map qz3 (qvresult (qvdenote (qenv_rso [[(0 # 1)%Q; (0 # 1)%Q; (0 # 1)%Q; (1 # 2)%Q; (0 # 1)%Q; (0 # 1)%Q]; [(1 # 2)%Q; (0 # 1)%Q; (0 # 1)%Q; (1 # 2)%Q; (0 # 1)%Q; (0 # 1)%Q]; [(0 # 1)%Q; (3 # 1)%Q; (0 # 1)%Q; (0 # 1)%Q; (0 # 1)%Q; (0 # 1)%Q]; [(3 # 1)%Q; (3 # 1)%Q; (1 # 1)%Q; (0 # 1)%Q; (0 # 1)%Q; (0 # 1)%Q]; [(2 # 1)%Q; (2 # 1)%Q; (1 # 2)%Q; (0 # 1)%Q; (0 # 1)%Q; (0 # 1)%Q]; [(0 # 1)%Q; (0 # 1)%Q; (2 # 1)%Q; (3 # 1)%Q; (1 # 1)%Q; (0 # 1)%Q]] 6 [(1 # 8)%Q; (3 # 8)%Q; (0 # 1)%Q; (3 # 8)%Q; (0 # 1)%Q; (1 # 8)%Q] [(7 # 4)%Q; (3 # 2)%Q; (-3 # 4)%Q; (1 # 2)%Q; (2 # 1)%Q; (1 # 2)%Q] (1 # 4)%Q) src_rso_matvec));
map qz3 (qvresult (qvdenote (qenv_rso [[(0 # 1)%Q; (2 # 1)%Q; (0 # 1)%Q; (0 # 1)%Q; (0 # 1)%Q]; [(0 # 1)%Q; (0 # 1)%Q; (0 # 1)%Q; (3 # 1)%Q; (0 # 1)%Q]; [(1 # 2)%Q; (0 # 1)%Q; (0 # 1)%Q; (0 # 1)%Q; (0 # 1)%Q]; [(0 # 1)%Q; (0 # 1)%Q; (0 # 1)%Q; (0 # 1)%Q; (2 # 1)%Q]; [(0 # 1)%Q; (0 # 1)%Q; (3 # 1)%Q; (0 # 1)%Q; (0 # 1)%Q]] 5 [(5404319552844595 # 18014398509481984)%Q; (3602879701896397 # 18014398509481984)%Q; (0 # 1)%Q; (3602879701896397 # 18014398509481984)%Q; (5404319552844595 # 18014398509481984)%Q] [(-1 # 1)%Q; (-1 # 4)%Q; (-1 # 4)%Q; (3 # 2)%Q; (2 # 1)%Q] (1 # 4)%Q) src_rso_matvec));
map qz3 (qvresult (qvdenote (qenv_rso [[(0 # 1)%Q; (0 # 1)%Q; (0 # 1)%Q]; [(0 # 1)%Q; (0 # 1)%Q; (0 # 1)%Q]; [(2 # 1)%Q; (1 # 1)%Q; (0 # 1)%Q]] 3 [(0 # 1)%Q; (6004799503160661 # 18014398509481984)%Q; (6004799503160661 # 9007199254740992)%Q] [(3 # 4)%Q; (1 # 2)%Q; (3 # 2)%Q] (1 # 1)%Q) src_rso_matvec));
map qz3 (qvresult (qvdenote (qenv_rso [[(0 # 1)%Q; (3 # 1)%Q; (1 # 1)%Q; (0 # 1)%Q; (0 # 1)%Q; (0 # 1)%Q]; [(0 # 1)%Q; (0 # 1)%Q; (2 # 1)%Q; (0 # 1)%Q; (0 # 1)%Q; (0 # 1)%Q]; [(0 # 1)%Q; (0 # 1)%Q; (0 # 1)%Q; (2 # 1)%Q; (0 # 1)%Q; (0 # 1)%Q]; [(0 # 1)%Q; (0 # 1)%Q; (0 # 1)%Q; (0 # 1)%Q; (1 # 1)%Q; (1 # 1)%Q]; [(0 # 1)%Q; (0 # 1)%Q; (0 # 1)%Q; (0 # 1)%Q; (0 # 1)%Q; (3 # 1)%Q]; [(0 # 1)%Q; (0 # 1)%Q; (0 # 1)%Q; (0 # 1)%Q; (0 # 1)%Q; (0 # 1)%Q]] 6 [(0 # 1)%Q; (1 # 4)%Q; (0 # 1)%Q; (3 # 8)%Q; (0 # 1)%Q; (3 # 8)%Q] [(3 # 4)%Q; (3 # 4)%Q; (3 # 2)%Q; (-3 # 4)%Q; (-3 # 4)%Q; (1 # 2)%Q] (0 # 1)%Q) src_rso_matvec));
map qz3 (qvresult (qvdenote (qenv_rso [[(0 # 1)%Q; (3 # 1)%Q; (0 # 1)%Q]; [(0 # 1)%Q; (0 # 1)%Q; (1 # 1)%Q]; [(0 # 1)%Q; (0 # 1)%Q; (0 # 1)%Q]] 3 [(7720456504063707 # 18014398509481984)%Q; (2573485501354569 # 18014398509481984)%Q; (7720456504063707 # 18014398509481984)%Q] [(2 # 1)%Q; (5 # 4)%Q; (-1 # 2)%Q] (7656119366529843 # 9007199254740992)%Q) src_rso_matvec));
map qz3 (qvresult (qvdenote (qenv_rso [[(0 # 1)%Q; (1 # 1)%Q; (0 # 1)%Q]; [(1 # 1)%Q; (0 # 1)%Q; (1 # 2)%Q]; [(0 # 1)%Q; (2 # 1)%Q; (0 # 1)%Q]] 3 [(6004799503160661 # 18014398509481984)%Q; (6004799503160661 # 18014398509481984)%Q; (6004799503160661 # 18014398509481984)%Q] [(7 # 4)%Q; (5 # 4)%Q; (0 # 1)%Q] (7656119366529843 # 9007199254740992)%Q) src_rso_matvec));
map qz3 (qvresult (qvdenote (qenv_rso [[(0 # 1)%Q; (1 # 1)%Q; (1 # 2)%Q; (0 # 1)%Q; (0 # 1)%Q; (0 # 1)%Q]; [(0 # 1)%Q; (0 # 1)%Q; (2 # 1)%Q; (0 # 1)%Q; (0 # 1)%Q; (0 # 1)%Q]; [(0 # 1)%Q; (0 # 1)%Q; (0 # 1)%Q; (3 # 1)%Q; (0 # 1)%Q; (0 # 1)%Q]; [(0 # 1)%Q; (0 # 1)%Q; (0 # 1)%Q; (0 # 1)%Q; (2 # 1)%Q; (3 # 1)%Q]; [(0 # 1)%Q; (0 # 1)%Q; (0 # 1)%Q; (0 # 1)%Q; (0 # 1)%Q; (2 # 1)%Q]; [(0 # 1)%Q; (0 # 1)%Q; (0 # 1)%Q; (0 # 1)%Q; (0 # 1)%Q; (0 # 1)%Q]] 6 [(3275345183542179 # 18014398509481984)%Q; (1228254443828317 # 4503599627370496)%Q; (0 # 1)%Q; (3275345183542179 # 36028797018963968)%Q; (3275345183542179 # 18014398509481984)%Q; (1228254443828317 # 4503599627370496)%Q] [(-3 # 4)%Q; (0 # 1)%Q; (-1 # 1)%Q; (-3 # 4)%Q; (7 # 4)%Q; (-1 # 1)%Q] (7656119366529843 # 9007199254740992)%Q) src_rso_matvec));
map qz3 (qvresult (qvdenote (qenv_rso [[(0 # 1)%Q; (3 # 1)%Q; (0 # 1)%Q; (1 # 1)%Q; (3 # 1)%Q]; [(3 # 1)%Q; (0 # 1)%Q; (3 # 1)%Q; (0 # 1)%Q; (0 # 1)%Q]; [(0 # 1)%Q; (1 # 2)%Q; (0 # 1)%Q; (0 # 1)%Q; (0 # 1)%Q]; [(1 # 1)%Q; (0 # 1)%Q; (0 # 1)%Q; (0 # 1)%Q; (1 # 2)%Q]; [(3 # 1)%Q; (0 # 1)%Q; (0 # 1)%Q; (1 # 1)%Q; (0 # 1)%Q]] 5 [(0 # 1)%Q; (1 # 4)%Q; (1 # 4)%Q; (1 # 4)%Q; (1 # 4)%Q] [(1 # 2)%Q; (-1 # 2)%Q; (1 # 2)%Q; (-1 # 2)%Q; (2 # 1)%Q] (1 # 2)%Q) src_rso_matvec));
map qz3 (qvresult (qvdenote (qenv_rso [[(0 # 1)%Q; (0 # 1)%Q; (2 # 1)%Q; (0 # 1)%Q; (1 # 1)%Q; (0 # 1)%Q]; [(0 # 1)%Q; (0 # 1)%Q; (0 # 1)%Q; (0 # 1)%Q; (3 # 1)%Q; (0 # 1)%Q]; [(1 # 2)%Q; (2 # 1)%Q; (0 # 1)%Q; (1 # 1)%Q; (0 # 1)%Q; (0 # 1)%Q]; [(0 # 1)%Q; (1 # 1)%Q; (0 # 1)%Q; (0 # 1)%Q; (0 # 1)%Q; (0 # 1)%Q]; [(0 # 1)%Q; (1 # 1)%Q; (0 # 1)%Q; (0 # 1)%Q; (0 # 1)%Q; (1 # 1)%Q]; [(0 # 1)%Q; (0 # 1)%Q; (3 # 1)%Q; (1 # 2)%Q; (0 # 1)%Q; (0 # 1)%Q]] 6 [(3275345183542179 # 18014398509481984)%Q; (0 # 1)%Q; (3275345183542179 # 36028797018963968)%Q; (1228254443828317 # 4503599627370496)%Q; (1228254443828317 # 4503599627370496)%Q; (3275345183542179 # 18014398509481984)%Q] [(0 # 1)%Q; (1 # 4)%Q; (5 # 4)%Q; (-1 # 4)%Q; (-1 # 2)%Q; (-1 # 4)%Q] (1 # 1)%Q) src_rso_matvec));
map qz3 (qvresult (qvdenote (qenv_rso [[(0 # 1)%Q; (1 # 1)%Q; (0 # 1)%Q]; [(0 # 1)%Q; (0 # 1)%Q; (3 # 1)%Q]; [(0 # 1)%Q; (0 # 1)%Q; (0 # 1)%Q]] 3 [(3602879701896397 # 18014398509481984)%Q; (3602879701896397 # 9007199254740992)%Q; (3602879701896397 # 9007199254740992)%Q] [(5 # 4)%Q; (1 # 4)%Q; (3 # 2)%Q] (7656119366529843 # 9007199254740992)%Q) src_rso_matvec))
].
Eval vm_compute in the_cases.
