(** Proofs about Model/Cycles.v: is_acyclic on undirected graphs (the edge-count criterion,
    [forest_iff_count_lemma]), get_cycles (soundness, no duplicates, completeness for directed graphs, totality),
    the meaning of the brute-force postcondition [bc_post] (sound for both branches, exact for the directed one),
    break_cycles on the enumerated graphs with at most 4 nodes (corollaries of the theorems of
    BreakCyclesProofs.v for the canonical oracle answers) and the refutation of the undirected branch
    without the visit of the other components ([visit_others = false]). *)
From SKN Require Import Base.Util Model.Bfs Model.Structure Model.Cycles Proofs.BfsProofs Proofs.StructureProofs
  Proofs.PathProofs Proofs.BreakCyclesProofs.
From Coq Require Import Permutation.

(** * Simple paths *)

(** A simple path: non-empty, distinct nodes, consecutive ones related, given end points. *)
Definition spath (E : nat -> nat -> Prop) (u v : nat) (p : list nat) : Prop :=
  hd 0 p = u /\ last p 0 = v /\ p <> [] /\ NoDup p /\ chain E p.

Lemma spath_reach (E : nat -> nat -> Prop) u v p : spath E u v p -> reach E u v.
Proof.
  intros [P1 [P2 [P3 [_ P5]]]]. destruct p as [|x t]; [congruence|]. simpl in P1. subst u. rewrite <- P2.
  exact (chain_reach_last E x t P5).
Qed.

Lemma resolve_directed_true g : resolve_directed g (Some true) = Ok true.
Proof. reflexivity. Qed.

(** * get_cycles: the depth budget suffices, what is returned is sound *)

Definition good_path (g : graph) (path : list nat) (cur : nat) : Prop :=
  ugood g path cur /\ forall x, In x path -> x < length g.

Definition cycle_ok (g : graph) (directed : bool) (c : list nat) : Prop :=
  simple_cycle (edge g) c /\ (directed = false -> length c <> 2) /\ forall x, In x c -> x < length g.

(** One scan: a cycle for every neighbour on the path (the predecessor excepted in an undirected graph), the
    other neighbours pushed. *)
Lemma gc_scan_eq directed prev path nbrs :
  gc_scan directed prev path nbrs =
  (map (fun v => skipn (index_of v path) path)
       (filter (fun v => negb (negb directed && is_prev prev v) && memn v path) nbrs),
   filter (fun v => negb (negb directed && is_prev prev v) && negb (memn v path)) nbrs).
Proof.
  induction nbrs as [|v t IH]; simpl; [reflexivity|]. rewrite IH.
  destruct (negb directed && is_prev prev v); simpl; [reflexivity|]. destruct (memn v path); reflexivity.
Qed.

Lemma gc_scan_spec directed prev path nbrs :
  let r := gc_scan directed prev path nbrs in
  (forall c, In c (fst r) <-> exists v, In v nbrs /\ negb directed && is_prev prev v = false /\ In v path /\
                                       c = skipn (index_of v path) path) /\
  (forall v, In v (snd r) <-> In v nbrs /\ negb directed && is_prev prev v = false /\ ~ In v path).
Proof.
  cbv zeta. rewrite gc_scan_eq. cbn [fst snd]. split.
  - intros c. rewrite in_map_iff. split.
    + intros [v [Ec Hv]]. apply filter_In in Hv. rewrite andb_true_iff, negb_true_iff, memn_In in Hv.
      exists v. intuition.
    + intros [v [H1 [H2 [H3 Ec]]]]. exists v. split; [auto|]. apply filter_In.
      rewrite andb_true_iff, negb_true_iff, memn_In. auto.
  - intros v. rewrite filter_In, andb_true_iff, !negb_true_iff, memn_false. tauto.
Qed.

Lemma back_edge_cycle g directed path cur v :
  good_path g path cur -> In v (row g cur) -> In v path ->
  (directed = false -> is_prev (prev_of path) v = false) ->
  cycle_ok g directed (skipn (index_of v path) path).
Proof.
  intros [[Hne [Hlast [Hnd Hch]]] Hlt] Hedge Hin Hprev.
  destruct (index_of_split v path Hin) as [pre [suf [H1 [H2 [H3 H4]]]]]. rewrite H2.
  assert (Hsub : forall x, In x (v :: suf) -> In x path).
  { intros x Hx. rewrite H1. apply in_or_app. right. exact Hx. }
  split; [|split].
  - split; [discriminate|]. split.
    + rewrite H1 in Hnd. eapply NoDup_app_r; eauto.
    + apply chain_app. split; [|split; [simpl; auto|]].
      * rewrite H1 in Hch. apply chain_app in Hch. tauto.
      * intros _ _. cbn [hd]. rewrite H1 in Hlast. rewrite last_app_cons in Hlast. rewrite Hlast. exact Hedge.
  - intros Hd Hlen2. specialize (Hprev Hd).
    destruct suf as [|q [|q' suf']]; simpl in Hlen2; try lia.
    rewrite H1 in Hprev. rewrite prev_of_app in Hprev. simpl in Hprev. rewrite Nat.eqb_refl in Hprev. discriminate.
  - intros x Hx. apply Hlt. apply Hsub. exact Hx.
Qed.

Lemma good_path_extend g path cur v :
  wf_graph g -> good_path g path cur -> In v (row g cur) -> ~ In v path -> good_path g (path ++ [v]) v.
Proof.
  intros Hwf [Hu Hlt] Hedge Hout. split; [exact (ugood_extend g path cur v Hu Hedge Hout)|].
  intros x Hx. apply in_app_or in Hx. destruct Hx as [Hx|[Hx|[]]]; [apply Hlt; exact Hx|].
  subst x. eapply Hwf; eauto.
Qed.

Lemma concat_opt_all {A} (P : A -> Prop) (l : list (option (list A))) :
  (forall o, In o l -> exists a, o = Some a /\ forall c, In c a -> P c) ->
  exists r, concat_opt l = Some r /\ forall c, In c r -> P c.
Proof.
  induction l as [|o t IH]; intros H; [exists []; split; [reflexivity | intros c []]|].
  destruct (H o (or_introl eq_refl)) as [a [Ea Pa]]. subst o.
  destruct IH as [r [Er Pr]]; [intros o Ho; apply H; right; exact Ho|].
  exists (a ++ r). simpl. rewrite Er. split; [reflexivity|].
  intros c Hc. apply in_app_or in Hc. destruct Hc; auto.
Qed.

(** A path never repeats a node, so the depth budget suffices; and what is recorded is a cycle. *)
Lemma gc_visit_correct g directed : wf_graph g -> forall d path cur,
  good_path g path cur -> length g < d + length path ->
  exists cs, gc_visit d g directed cur path = Some cs /\ forall c, In c cs -> cycle_ok g directed c.
Proof.
  intros Hwf. induction d as [|d IH]; intros path cur Hgp Hd.
  - destruct Hgp as [[_ [_ [Hnd _]]] Hlt]. pose proof (NoDup_lt_length path (length g) Hnd Hlt). lia.
  - cbn [gc_visit]. cbv zeta.
    destruct (gc_scan_spec directed (prev_of path) path (row g cur)) as [S1 S2].
    destruct (concat_opt_all (cycle_ok g directed)
                (map (fun v => gc_visit d g directed v (path ++ [v]))
                     (rev (snd (gc_scan directed (prev_of path) path (row g cur)))))) as [r [Er Pr]].
    + intros o Ho. apply in_map_iff in Ho. destruct Ho as [v [Ev Hv]]. apply in_rev in Hv.
      apply S2 in Hv. destruct Hv as [A [_ B]]. subst o. apply IH.
      * exact (good_path_extend g path cur v Hwf Hgp A B).
      * rewrite app_length. simpl. lia.
    + rewrite Er. eexists. split; [reflexivity|]. intros c Hc. apply in_app_or in Hc.
      destruct Hc as [Hc|Hc]; [|exact (Pr c Hc)].
      apply S1 in Hc. destruct Hc as [v [A [D [B C]]]]. subst c.
      apply (back_edge_cycle g directed path cur v Hgp A B). intros Hd'. subst directed. exact D.
Qed.

(** The traversals from the start nodes (a start outside the graph has an empty row: nothing is found). *)
Lemma starts_found g d (starts : list nat) : wf_graph g ->
  exists found, concat_opt (map (fun s => gc_visit (S (length g)) g d s [s]) starts) = Some found /\
                forall c, In c found -> cycle_ok g d c.
Proof.
  intros Hwf. apply concat_opt_all. intros o Ho. apply in_map_iff in Ho. destruct Ho as [s [Es _]]. subst o.
  destruct (Nat.lt_ge_cases s (length g)) as [Hlt|Hge].
  - apply gc_visit_correct; [exact Hwf | split; [apply ugood_single | intros x [<-|[]]; exact Hlt] | simpl; lia].
  - simpl. rewrite (row_oob g s Hge). simpl. exists []. split; [reflexivity | intros c []].
Qed.

Definition loops_of (g : graph) : list (list nat) := map (fun u => [u]) (filter (fun u => edgeb g u u) (nodes g)).

Lemma loops_In g u : In u (row g u) -> In [u] (loops_of g).
Proof.
  intros H. apply in_map_iff. exists u. split; auto. apply filter_In. split.
  - apply nodes_In. eapply row_nonempty_lt; eauto.
  - apply edgeb_true. exact H.
Qed.

(** One of the two shortcuts (only the self-loops are returned), or the traversals from one start node per
    component, followed by the de-duplication. *)
Lemma get_cycles_cases g directed comp d : wf_graph g -> resolve_directed g directed = Ok d ->
  let quick := if d then n_labels comp =? length g else count_criterion g comp in
  (quick = true /\ get_cycles g directed comp = Ok (loops_of g)) \/
  (quick = false /\ exists found,
     concat_opt (map (fun s => gc_visit (S (length g)) g d s [s])
                     (map (first_with_label comp)
                          (if d then filter (fun l => 1 <? count comp l) (np_unique comp) else np_unique comp))) = Some found /\
     (forall c, In c found -> cycle_ok g d c) /\
     get_cycles g directed comp = Ok (dedup d (loops_of g ++ found) [])).
Proof.
  intros Hwf Hd. unfold get_cycles. rewrite Hd. cbv zeta. fold (loops_of g).
  destruct (starts_found g d (map (first_with_label comp)
              (if d then filter (fun l => 1 <? count comp l) (np_unique comp) else np_unique comp)) Hwf) as [found [Ef Hf]].
  destruct d; cbn [andb negb] in *.
  - destruct (n_labels comp =? length g); [left; auto|]. right. split; [reflexivity|]. exists found. rewrite Ef. auto.
  - destruct (count_criterion g comp); [left; auto|]. right. split; [reflexivity|]. exists found. rewrite Ef. auto.
Qed.

Lemma fold_min_spec : forall t x,
  let m := fold_left Nat.min t x in In m (x :: t) /\ forall y, In y (x :: t) -> m <= y.
Proof.
  induction t as [|a t IH]; intros x; simpl.
  - split; [left; reflexivity | intros y [<-|[]]; lia].
  - destruct (IH (Nat.min x a)) as [H1 H2]. pose proof (H2 _ (or_introl eq_refl)) as Hle. split.
    + destruct H1 as [H1|H1]; [|right; right; exact H1].
      destruct (Nat.min_spec x a) as [[_ E]|[_ E]]; [left | right; left]; congruence.
    + intros y [<-|[<-|Hy]]; [lia | lia | apply H2; right; exact Hy].
Qed.

Lemma list_min_spec (l : list nat) : l <> [] -> In (list_min l) l /\ forall y, In y l -> list_min l <= y.
Proof. destruct l as [|x t]; [congruence|]. intros _. apply fold_min_spec. Qed.

Lemma list_min_perm (a b : list nat) : a <> [] -> Permutation a b -> list_min a = list_min b.
Proof.
  intros Ha Hp. assert (Hb : b <> []) by (intros E; subst; apply Permutation_sym, Permutation_nil in Hp; congruence).
  destruct (list_min_spec a Ha) as [A1 A2]. destruct (list_min_spec b Hb) as [B1 B2].
  apply Nat.le_antisymm.
  - apply A2. eapply Permutation_in; [apply Permutation_sym; exact Hp | exact B1].
  - apply B2. eapply Permutation_in; [exact Hp | exact A1].
Qed.

Lemma roll_min_rot c : roll_min c = rot (index_of (list_min c) c) c.
Proof. reflexivity. Qed.

Definition min_first (c : list nat) : Prop := c <> [] /\ hd 0 c = list_min c.

Lemma roll_min_min_first c : c <> [] -> min_first (roll_min c).
Proof.
  intros Hne. destruct (list_min_spec c Hne) as [Hin _].
  destruct (index_of_split _ _ Hin) as [pre [suf [H1 [H2 [H3 H4]]]]].
  assert (E : roll_min c = list_min c :: suf ++ pre).
  { unfold roll_min. cbv zeta. rewrite H2, H3. reflexivity. }
  split; [rewrite E; discriminate|]. rewrite E at 1. cbn [hd].
  apply list_min_perm; auto. apply Permutation_sym. rewrite roll_min_rot. apply rot_perm.
Qed.

(** Two rotations of a duplicate-free list that both start with its minimum are equal: otherwise the minimum
    would head both parts of the list. *)
Lemma min_first_rot_eq (a b : list nat) k :
  NoDup a -> min_first a -> min_first b -> b = rot k a -> a = b.
Proof.
  intros Hnd [_ Hma] [_ Hmb] E. unfold rot in E. rewrite <- (firstn_skipn k a) in Hnd, Hma |- *.
  destruct (firstn k a) as [|x l1]; [rewrite app_nil_r in E; symmetry; exact E|].
  destruct (skipn k a) as [|y l2]; [rewrite app_nil_r; symmetry; exact E|].
  exfalso. subst b.
  rewrite (list_min_perm ((y :: l2) ++ x :: l1) _ ltac:(discriminate) (Permutation_app_comm _ _)) in Hmb.
  cbn [app hd] in Hma, Hmb.
  apply (NoDup_app_disjoint (x :: l1) (y :: l2) x Hnd); [left; reflexivity | left; congruence].
Qed.

Lemma insert_comm x y l : insert x (insert y l) = insert y (insert x l).
Proof.
  induction l as [|z t IH]; simpl.
  - destruct (x <=? y) eqn:A, (y <=? x) eqn:B; auto.
    + apply Nat.leb_le in A, B. f_equal; try lia. f_equal. lia.
    + apply Nat.leb_gt in A, B. lia.
  - destruct (x <=? z) eqn:A, (y <=? z) eqn:B; simpl; rewrite ?A, ?B.
    + destruct (x <=? y) eqn:C, (y <=? x) eqn:D; auto.
      * apply Nat.leb_le in C, D. assert (x = y) by lia. subst. reflexivity.
      * apply Nat.leb_gt in C, D. lia.
    + destruct (y <=? x) eqn:D; auto. apply Nat.leb_le in A, D. apply Nat.leb_gt in B. lia.
    + destruct (x <=? y) eqn:C; auto. apply Nat.leb_le in B, C. apply Nat.leb_gt in A. lia.
    + f_equal. exact IH.
Qed.

Lemma isort_perm (a b : list nat) : Permutation a b -> isort a = isort b.
Proof.
  intros H. induction H as [|x l l' H IH|x y l|l l' l'' H1 IH1 H2 IH2]; simpl; auto.
  - unfold isort in *. simpl. rewrite IH. reflexivity.
  - apply insert_comm.
  - congruence.
Qed.

Lemma list_eqb_eq a b : list_eqb a b = true <-> a = b.
Proof.
  revert b; induction a as [|x a IH]; intros [|y b]; simpl; split; intros H; try discriminate; auto.
  - apply andb_true_iff in H. destruct H as [H1 H2]. apply Nat.eqb_eq in H1. apply IH in H2. congruence.
  - inversion H; subst. rewrite Nat.eqb_refl. apply IH. reflexivity.
Qed.

(** De-duplication keeps canonical rotations of input cycles, with pairwise distinct keys, and loses no key. *)
Definition okey (directed : bool) (x : list nat) : list nat := if directed then x else isort x.

Lemma dedup_spec directed : forall cycles visited,
  let out := dedup directed cycles visited in
  (forall x, In x out -> exists c, In c cycles /\ x = roll_min c) /\
  NoDup (map (okey directed) out) /\
  (forall x, In x out -> ~ In (okey directed x) visited) /\
  (forall c, In c cycles ->
     In (cycle_key directed c) visited \/ exists x, In x out /\ okey directed x = cycle_key directed c).
Proof.
  assert (Ekey : forall y, cycle_key directed y = okey directed (roll_min y)) by (destruct directed; reflexivity).
  induction cycles as [|c rest IH]; intros visited; simpl.
  - split; [intros x []|]. split; [constructor|]. split; [intros x [] | intros x []].
  - destruct (existsb (list_eqb (cycle_key directed c)) visited) eqn:Ex.
    + destruct (IH visited) as [I1 [I2 [I3 I4]]]. split; [|split; [exact I2|split; [exact I3|]]].
      * intros x Hx. destruct (I1 x Hx) as [c' [A B]]. exists c'. split; [right; exact A | exact B].
      * intros c' [Hc|Hc]; [|exact (I4 c' Hc)]. subst c'. left.
        apply existsb_exists in Ex. destruct Ex as [k [Hk E]]. apply list_eqb_eq in E. subst. exact Hk.
    + destruct (IH (cycle_key directed c :: visited)) as [I1 [I2 [I3 I4]]]. split; [|split; [|split]].
      * intros x [Hx|Hx]; [exists c; split; [left; reflexivity | symmetry; exact Hx]|].
        destruct (I1 x Hx) as [c' [A B]]. exists c'. split; [right; exact A | exact B].
      * simpl. constructor; auto. intros Hin. apply in_map_iff in Hin. destruct Hin as [x [E Hx]].
        apply (I3 x Hx). left. rewrite Ekey. symmetry. exact E.
      * intros x [Hx|Hx] Hin; [|exact (I3 x Hx (or_intror Hin))]. subst x. rewrite <- Ekey in Hin.
        assert (existsb (list_eqb (cycle_key directed c)) visited = true); [|congruence].
        apply existsb_exists. exists (cycle_key directed c). split; auto. apply list_eqb_eq. reflexivity.
      * intros c' [Hc|Hc].
        -- subst c'. right. exists (roll_min c). split; [left; reflexivity | symmetry; apply Ekey].
        -- destruct (I4 c' Hc) as [[Hv|Hv]|[x [Hx Ex']]].
           ++ right. exists (roll_min c). split; [left; reflexivity|]. rewrite <- Ekey. exact Hv.
           ++ left. exact Hv.
           ++ right. exists x. split; [right; exact Hx | exact Ex'].
Qed.

Lemma cycle_ok_roll g directed c : cycle_ok g directed c -> cycle_ok g directed (roll_min c).
Proof.
  intros [H1 [H2 H3]]. rewrite roll_min_rot. split; [apply simple_cycle_rot; exact H1|]. split.
  - intros Hd. rewrite rot_length. apply H2. exact Hd.
  - intros x Hx. apply H3. eapply Permutation_in; [apply rot_perm | exact Hx].
Qed.

Lemma same_ucycle_perm a b : same_ucycle a b -> Permutation a b.
Proof.
  intros [[k E]|[k E]]; subst b.
  - apply Permutation_sym, rot_perm.
  - eapply Permutation_trans; [apply Permutation_rev|]. apply Permutation_sym, rot_perm.
Qed.

(** Lists that start with their minimum and have pairwise different keys are pairwise different cycles. *)
Lemma distinct_keys d (cs : list (list nat)) :
  NoDup (map (okey d) cs) -> (forall x, In x cs -> NoDup x /\ min_first x) ->
  forall i j, i < j < length cs ->
    if d then ~ same_dcycle (nth i cs []) (nth j cs []) else ~ same_ucycle (nth i cs []) (nth j cs []).
Proof.
  intros D Hall i j Hij.
  assert (Hkeys : okey d (nth i cs []) <> okey d (nth j cs [])).
  { intros E. pose proof (proj1 (NoDup_nth (map (okey d) cs) []) D i j) as Hinj.
    rewrite map_length in Hinj. rewrite !(nth_map_lt (okey d) cs _ [] []) in Hinj by lia.
    specialize (Hinj ltac:(lia) ltac:(lia) E). lia. }
  destruct d.
  - intros [k E]. apply Hkeys. cbn [okey].
    destruct (Hall (nth i cs []) ltac:(apply nth_In; lia)) as [NDi Mi].
    destruct (Hall (nth j cs []) ltac:(apply nth_In; lia)) as [_ Mj].
    exact (min_first_rot_eq _ _ k NDi Mi Mj E).
  - intros H. apply Hkeys. cbn [okey]. apply isort_perm, same_ucycle_perm. exact H.
Qed.

Theorem get_cycles_sound_lemma (g : graph) (directed : option bool) (comp : list nat) (d : bool) cs :
  wf_graph g -> resolve_directed g directed = Ok d ->
  get_cycles g directed comp = Ok cs ->
  (forall c, In c cs -> cycle_ok g d c) /\
  (forall i j, i < j < length cs ->
     if d then ~ same_dcycle (nth i cs []) (nth j cs []) else ~ same_ucycle (nth i cs []) (nth j cs [])).
Proof.
  intros Hwf Hd Hrun.
  assert (Hloops : forall c, In c (loops_of g) -> cycle_ok g d c).
  { intros c Hc. apply in_map_iff in Hc. destruct Hc as [u [E Hu]]. subst c.
    apply filter_In in Hu. destruct Hu as [Hu Huu]. apply nodes_In in Hu. apply edgeb_true in Huu.
    split; [|split].
    - exact (loop_cycle _ u Huu).
    - simpl. intros _; lia.
    - intros x [Hx|[]]. subst. exact Hu. }
  destruct (get_cycles_cases g directed comp d Hwf Hd) as [[_ E]|[_ [found [_ [Hfound E]]]]];
    rewrite E in Hrun; inversion Hrun; subst cs.
  - split; [exact Hloops|]. apply distinct_keys.
    + unfold loops_of. rewrite map_map, (map_ext _ (fun u => [u])) by (intros u; destruct d; reflexivity).
      apply FinFun.Injective_map_NoDup; [intros a b E'; injection E'; auto | apply NoDup_filter, seq_NoDup].
    + intros x Hx. apply in_map_iff in Hx. destruct Hx as [u [E' _]]. subst x.
      split; [apply NoDup_single | split; [discriminate | reflexivity]].
  - destruct (dedup_spec d (loops_of g ++ found) []) as [D1 [D2 _]].
    assert (Hall : forall x, In x (dedup d (loops_of g ++ found) []) -> cycle_ok g d x).
    { intros x Hx. destruct (D1 x Hx) as [c [Hc E']]. subst x. apply cycle_ok_roll.
      apply in_app_or in Hc. destruct Hc; auto. }
    split; [exact Hall|]. apply distinct_keys; [exact D2|].
    intros x Hx. destruct (D1 x Hx) as [c [_ E']]. destruct (Hall x Hx) as [[Nx [NDx _]] _].
    split; [exact NDx|]. rewrite E'. apply roll_min_min_first. intros E0. subst c x. apply Nx. reflexivity.
Qed.

(** * [forest_iff_count_lemma]: a simple undirected graph is acyclic iff #components = n - m *)

(** Undirected simple graphs as edge lists (each edge once, in one orientation). *)
Definition adj (es : list (nat * nat)) (u v : nat) : Prop := In (u, v) es \/ In (v, u) es.
Definition econn (es : list (nat * nat)) : nat -> nat -> Prop := reach (adj es).
Inductive simple_edges (n : nat) : list (nat * nat) -> Prop :=
| se_nil : simple_edges n []
| se_cons u v rest : u < n -> v < n -> u <> v -> ~ adj rest u v -> simple_edges n rest ->
                     simple_edges n ((u, v) :: rest).
Definition forest (es : list (nat * nat)) : Prop := ~ exists c, 3 <= length c /\ simple_cycle (adj es) c.

(** Naive union-find: processing an edge relabels the class of one end point into the other's. *)
Definition relabel (a b : nat) (lab : list nat) : list nat := map (fun x => if x =? a then b else x) lab.
Fixpoint uf (n : nat) (es : list (nat * nat)) : list nat :=
  match es with
  | [] => seq 0 n
  | (u, v) :: rest => let lab := uf n rest in relabel (nthn lab u) (nthn lab v) lab
  end.
(** Number of edges that joined two different classes when they were added. *)
Fixpoint merges (n : nat) (es : list (nat * nat)) : nat :=
  match es with
  | [] => 0
  | (u, v) :: rest => let lab := uf n rest in (if nthn lab u =? nthn lab v then 0 else 1) + merges n rest
  end.

Lemma adj_sym es u v : adj es u v -> adj es v u.
Proof. unfold adj. tauto. Qed.

Lemma adj_cons e es x y : adj (e :: es) x y <-> adj es x y \/ e = (x, y) \/ e = (y, x).
Proof. unfold adj. simpl. tauto. Qed.

Lemma econn_sym es u v : econn es u v -> econn es v u.
Proof. apply reach_sym. apply adj_sym. Qed.

Lemma econn_mono e es u v : econn es u v -> econn (e :: es) u v.
Proof. apply reach_mono. intros a b H. apply adj_cons. left. exact H. Qed.

Lemma simple_edges_range n es u v : simple_edges n es -> adj es u v -> u < n /\ v < n.
Proof.
  intros H. induction H as [|a b rest Ha Hb Hab Hn Hs IH]; intros Hadj.
  - destruct Hadj as [[]|[]].
  - apply adj_cons in Hadj. destruct Hadj as [H|[H|H]]; [apply IH; exact H| |]; inversion H; subst; auto.
Qed.

Lemma uf_length n es : length (uf n es) = n.
Proof.
  induction es as [|[u v] rest IH]; simpl; [apply seq_length|].
  unfold relabel. rewrite map_length. exact IH.
Qed.

Lemma nthn_relabel a b lab x : x < length lab ->
  nthn (relabel a b lab) x = if nthn lab x =? a then b else nthn lab x.
Proof. intros H. unfold nthn, relabel. rewrite (nth_map_lt _ lab x 0 0) by exact H. reflexivity. Qed.

Lemma nthn_seq n x : x < n -> nthn (seq 0 n) x = x.
Proof. intros H. unfold nthn. rewrite seq_nth by exact H. reflexivity. Qed.

Lemma uf_conn n es : simple_edges n es ->
  forall x y, x < n -> y < n -> (nthn (uf n es) x = nthn (uf n es) y <-> econn es x y).
Proof.
  intros Hs. induction Hs as [|u v rest Hu Hv Huv Hn Hs IH]; intros x y Hx Hy.
  - simpl. rewrite !nthn_seq by assumption. split.
    + intros E; subst. apply reach_refl.
    + intros H. inversion H as [|? z ? Hxz _]; auto. destruct Hxz as [[]|[]].
  - cbn [uf]. cbv zeta. set (lab := uf n rest) in *.
    assert (Hl : length lab = n) by apply uf_length.
    rewrite !nthn_relabel by lia.
    assert (Euv : adj ((u, v) :: rest) u v) by (apply adj_cons; right; left; reflexivity).
    split.
    + (* the new label of z is the old label of a node joined to z: v if z was in the class of u, else z *)
      assert (Hrep : forall z, z < n -> exists z', z' < n /\ econn ((u, v) :: rest) z z' /\
                (if nthn lab z =? nthn lab u then nthn lab v else nthn lab z) = nthn lab z').
      { intros z Hz. destruct (Nat.eqb_spec (nthn lab z) (nthn lab u)) as [Ez|Ez].
        - exists v. split; [exact Hv|]. split; [|reflexivity].
          apply (reach_step_right _ z u v); [apply econn_mono, IH; auto | exact Euv].
        - exists z. split; [exact Hz|]. split; [apply reach_refl | reflexivity]. }
      destruct (Hrep x Hx) as [x' [Hx' [Rx Ex]]]. destruct (Hrep y Hy) as [y' [Hy' [Ry Ey]]]. rewrite Ex, Ey. intros E.
      apply (IH x' y' Hx' Hy') in E.
      eapply reach_trans; [exact Rx|]. eapply reach_trans; [apply econn_mono; exact E | apply econn_sym; exact Ry].
    + intros H.
      assert (Hstep : forall a b, a < n -> b < n -> adj ((u, v) :: rest) a b ->
                (if nthn lab a =? nthn lab u then nthn lab v else nthn lab a) =
                (if nthn lab b =? nthn lab u then nthn lab v else nthn lab b)).
      { intros a b Ha Hb Hab. apply adj_cons in Hab. destruct Hab as [Hab|[Hab|Hab]].
        - assert (E : nthn lab a = nthn lab b) by (apply IH; auto; apply reach_one; exact Hab).
          rewrite E. reflexivity.
        - inversion Hab; subst a b. rewrite Nat.eqb_refl.
          destruct (nthn lab v =? nthn lab u); reflexivity.
        - inversion Hab; subst a b. rewrite Nat.eqb_refl.
          destruct (nthn lab v =? nthn lab u); reflexivity. }
      assert (Hse : simple_edges n ((u, v) :: rest)) by (constructor; auto).
      revert Hx. induction H as [a|a z b Haz Hzb IHr]; intros Ha; [reflexivity|].
      destruct (simple_edges_range n _ a z Hse Haz) as [_ Hz].
      rewrite (Hstep a z Ha Hz Haz). apply IHr; auto.
Qed.

Lemma relabel_same a lab : relabel a a lab = lab.
Proof.
  unfold relabel. induction lab as [|x t IH]; simpl; auto. rewrite IH.
  destruct (Nat.eqb_spec x a); congruence.
Qed.

Lemma In_relabel a b lab x : In b lab -> a <> b -> (In x (relabel a b lab) <-> x <> a /\ In x lab).
Proof.
  intros Hb Hab. unfold relabel. rewrite in_map_iff. split.
  - intros [y [E Hy]]. destruct (Nat.eqb_spec y a) as [Ey|Ey]; subst; split; auto.
  - intros [Hx Hin]. exists x. split; auto. destruct (Nat.eqb_spec x a); congruence.
Qed.

Lemma n_labels_relabel a b lab :
  a <> b -> In a lab -> In b lab -> S (n_labels (relabel a b lab)) = n_labels lab.
Proof.
  intros Hab Ha Hb. unfold n_labels.
  change (S (length (nodup Nat.eq_dec (relabel a b lab)))) with (length (a :: nodup Nat.eq_dec (relabel a b lab))).
  apply Permutation_length. apply NoDup_Permutation.
  - constructor; [|apply NoDup_nodup]. rewrite nodup_In, In_relabel by assumption. intros [H _]; congruence.
  - apply NoDup_nodup.
  - intros x. simpl. rewrite !nodup_In, In_relabel by assumption.
    destruct (Nat.eq_dec x a); subst; intuition congruence.
Qed.

Lemma n_labels_seq n : n_labels (seq 0 n) = n.
Proof. unfold n_labels. rewrite nodup_fixed_point by apply seq_NoDup. apply seq_length. Qed.

Lemma uf_count n es : simple_edges n es -> n_labels (uf n es) + merges n es = n.
Proof.
  intros Hs. induction Hs as [|u v rest Hu Hv Huv Hn Hs IH]; simpl; [rewrite n_labels_seq; lia|].
  set (lab := uf n rest) in *. assert (Hl : length lab = n) by apply uf_length.
  destruct (Nat.eqb_spec (nthn lab u) (nthn lab v)) as [E|E].
  - rewrite E, relabel_same. simpl. exact IH.
  - pose proof (n_labels_relabel _ _ lab E (nthn_In lab u ltac:(lia)) (nthn_In lab v ltac:(lia))). lia.
Qed.

Lemma merges_le n es : merges n es <= length es.
Proof.
  induction es as [|[u v] rest IH]; simpl; auto.
  destruct (nthn (uf n rest) u =? nthn (uf n rest) v); simpl; lia.
Qed.

Lemma n_labels_kernel : forall (l1 l2 : list nat),
  length l1 = length l2 ->
  (forall i j, i < length l1 -> j < length l1 -> (nthn l1 i = nthn l1 j <-> nthn l2 i = nthn l2 j)) ->
  n_labels l1 = n_labels l2.
Proof.
  induction l1 as [|x1 t1 IH]; intros [|x2 t2] Hlen Hk; simpl in Hlen; try lia.
  assert (IHt : n_labels t1 = n_labels t2).
  { apply IH; [lia|]. intros i j Hi Hj. apply (Hk (S i) (S j)); simpl; lia. }
  unfold n_labels in *. simpl.
  assert (Hin : In x1 t1 <-> In x2 t2).
  { assert (G : forall a s b t, length s = length t ->
              (forall i, i < length s -> nthn s i = a -> nthn t i = b) -> In a s -> In b t).
    { intros a s b t L H Ha. apply In_nthn in Ha. destruct Ha as [i [Hi Ei]].
      rewrite <- (H i Hi Ei). apply nthn_In. lia. }
    split; apply G; try lia; intros i Hi E; apply (Hk (S i) 0); simpl; try lia; exact E. }
  destruct (in_dec Nat.eq_dec x1 t1) as [H1|H1]; destruct (in_dec Nat.eq_dec x2 t2) as [H2|H2];
    try tauto; simpl; lia.
Qed.

Lemma adj_cons_split u v rest a b :
  adj ((u, v) :: rest) a b -> adj rest a b \/ (a = u /\ b = v) \/ (a = v /\ b = u).
Proof.
  intros H. apply adj_cons in H. destruct H as [H|[H|H]]; auto; inversion H; subst; auto.
Qed.

Lemma cycle_uses_new_edge u v rest c :
  simple_cycle (adj ((u, v) :: rest)) c -> 3 <= length c ->
  (exists c', 3 <= length c' /\ simple_cycle (adj rest) c') \/ econn rest u v.
Proof.
  intros Hcy Hlen. pose proof Hcy as [Hne [Hnd Hch]].
  destruct (chain_find _ (adj rest) (fun a b => (a = u /\ b = v) \/ (a = v /\ b = u)) (adj_cons_split u v rest) _ Hch)
    as [HR|[l1 [a [b [l2 [E Hp]]]]]].
  - left. exists c. split; [exact Hlen|]. split; [exact Hne|]. split; [exact Hnd | exact HR].
  - (* the cycle, turned so that it starts with the new edge, joins its ends by old edges *)
    right. destruct (closed_chain_rot c l1 a b l2 ltac:(lia) E) as [r Er].
    pose proof (simple_cycle_rot _ (length l1) c Hcy) as Hrot. rewrite Er in Hrot.
    destruct r as [|w t].
    { apply (f_equal (@length nat)) in Er. rewrite rot_length in Er. simpl in Er. lia. }
    assert (Hba : econn rest b a).
    { eapply reach_mono; [|exact (cycle_avoids_edge _ a b w t Hrot)]. intros p q [A [B C]].
      destruct (adj_cons_split _ _ _ _ _ A) as [Hr|Hq]; [exact Hr|]. exfalso.
      destruct Hp as [[P1 P2]|[P1 P2]], Hq as [[Q1 Q2]|[Q1 Q2]]; subst; tauto. }
    destruct Hp as [[P1 P2]|[P1 P2]]; subst; [apply econn_sym|]; exact Hba.
Qed.

Lemma forest_mono e es : forest (e :: es) -> forest es.
Proof.
  intros H [c [Hl [Hne [Hnd Hch]]]]. apply H. exists c. split; auto. split; auto. split; auto.
  eapply chain_mono; [|exact Hch]. intros a b Hab. apply adj_cons. left. exact Hab.
Qed.

Lemma forest_merges n es : simple_edges n es -> (forest es <-> merges n es = length es).
Proof.
  intros Hs. induction Hs as [|u v rest Hu Hv Huv Hn Hs IH].
  - simpl. split; auto. intros _ [c [Hl [Hne [Hnd Hch]]]].
    destruct c as [|x [|y t]]; simpl in Hl; try lia. simpl in Hch. destruct Hch as [[[]|[]] _].
  - cbn [merges length]. cbv zeta. pose proof (merges_le n rest) as Hle.
    pose proof (uf_conn n rest Hs u v Hu Hv) as Hconn.
    split.
    + intros Hf. apply forest_mono in Hf as Hfr. apply IH in Hfr.
      destruct (Nat.eqb_spec (nthn (uf n rest) u) (nthn (uf n rest) v)) as [E|E]; [|simpl; lia].
      exfalso. apply Hconn in E. destruct (reach_simple_path _ _ _ E) as [p [P1 [P2 [P3 [P4 P5]]]]].
      apply Hf. exists p. split.
      * destruct p as [|x [|y [|z t]]]; simpl in *; try lia; try congruence.
        subst. exfalso. apply Hn. tauto.
      * split; auto. split; auto. apply chain_app. split.
        -- eapply chain_mono; [|exact P5]. intros a b Hab. apply adj_cons. left. exact Hab.
        -- split; [simpl; auto|]. intros _ _. cbn [hd]. rewrite P1, P2. apply adj_cons. right. right. reflexivity.
    + intros Hm.
      destruct (Nat.eqb_spec (nthn (uf n rest) u) (nthn (uf n rest) v)) as [E|E]; [simpl in Hm; lia|].
      assert (Hmr : merges n rest = length rest) by (simpl in Hm; lia).
      apply IH in Hmr. intros [c [Hl Hc]].
      destruct (cycle_uses_new_edge u v rest c Hc Hl) as [Hcyc|Hcon].
      * apply Hmr. exact Hcyc.
      * apply E. apply Hconn. exact Hcon.
Qed.

Theorem forest_iff_count_lemma (n : nat) (es : list (nat * nat)) (comp : list nat) :
  simple_edges n es -> length comp = n ->
  (forall x y, x < n -> y < n -> (nthn comp x = nthn comp y <-> econn es x y)) ->
  (forest es <-> n_labels comp + length es = n).
Proof.
  intros Hs Hlen Hc.
  assert (Hk : n_labels comp = n_labels (uf n es)).
  { apply n_labels_kernel; [rewrite uf_length; exact Hlen|].
    intros i j Hi Hj. rewrite Hlen in Hi, Hj. rewrite (Hc i j Hi Hj), (uf_conn n es Hs i j Hi Hj). reflexivity. }
  pose proof (uf_count n es Hs) as Hcount. pose proof (merges_le n es) as Hle.
  rewrite (forest_merges n es Hs). rewrite Hk. lia.
Qed.

(** * Bridge to the model: the edge list of a symmetric loop-free pattern *)
(** The stored entries (u, v) of a pattern that satisfy [p]; the edge list keeps those with u < v. *)
Definition pairs_of (p : nat -> nat -> bool) (g : graph) : list (nat * nat) :=
  flat_map (fun u => map (fun v => (u, v)) (filter (p u) (row g u))) (nodes g).
Definition edges_of (g : graph) : list (nat * nat) := pairs_of Nat.ltb g.

Lemma pairs_of_In p g u v : In (u, v) (pairs_of p g) <-> In v (row g u) /\ p u v = true.
Proof.
  unfold pairs_of. rewrite in_flat_map. split.
  - intros [x [_ H]]. apply in_map_iff in H. destruct H as [y [E Hy]]. inversion E; subst.
    apply filter_In in Hy. exact Hy.
  - intros [Hin Hp]. exists u. split; [apply nodes_In; eapply row_nonempty_lt; eauto|].
    apply in_map_iff. exists v. split; auto. apply filter_In. auto.
Qed.

Lemma edges_of_In g u v : In (u, v) (edges_of g) <-> u < v /\ In v (row g u).
Proof. unfold edges_of. rewrite pairs_of_In, Nat.ltb_lt. tauto. Qed.

Definition sym_graph (g : graph) : Prop := forall u v, In v (row g u) -> In u (row g v).
Definition loop_free (g : graph) : Prop := forall u, ~ In u (row g u).

Lemma adj_edges_of g u v : sym_graph g -> loop_free g -> (adj (edges_of g) u v <-> edge g u v).
Proof.
  intros Hs Hl. unfold adj, edge. rewrite !edges_of_In. split.
  - intros [[_ H]|[_ H]]; auto.
  - intros H. destruct (Nat.lt_total u v) as [Hlt|[E|Hgt]]; [left; auto | subst; exfalso; eapply Hl; eauto | right; auto].
Qed.

Lemma NoDup_flat_map_fst (L : list nat) (f : nat -> list nat) :
  NoDup L -> (forall u, NoDup (f u)) -> NoDup (flat_map (fun u => map (fun v => (u, v)) (f u)) L).
Proof.
  intros HL Hf. induction HL as [|a L' Ha HL' IH]; simpl; [constructor|].
  apply NoDup_app_intro; auto.
  - apply FinFun.Injective_map_NoDup; [intros x y E; injection E; auto | apply Hf].
  - intros [x y] H1 H2. apply in_map_iff in H1. destruct H1 as [v [E _]]. inversion E; subst.
    apply in_flat_map in H2. destruct H2 as [u [Hu H2]]. apply in_map_iff in H2. destruct H2 as [w [E2 _]].
    inversion E2; subst. contradiction.
Qed.

Lemma pairs_of_NoDup p g : (forall u, NoDup (row g u)) -> NoDup (pairs_of p g).
Proof. intros H. apply NoDup_flat_map_fst; [apply seq_NoDup | intros u; apply NoDup_filter, H]. Qed.

Lemma simple_edges_of_ordered n es :
  NoDup es -> (forall a b, In (a, b) es -> a < b /\ b < n) -> simple_edges n es.
Proof.
  intros Hnd. induction Hnd as [|[u v] rest Hx Hnd IH]; intros Hr; [constructor|].
  destruct (Hr u v (or_introl eq_refl)) as [Huv Hv]. constructor; try lia.
  - intros [H|H]; [contradiction|]. destruct (Hr v u (or_intror H)). lia.
  - apply IH. intros a b H. apply Hr. right. exact H.
Qed.

Lemma simple_edges_of g :
  wf_graph g -> (forall u, NoDup (row g u)) -> simple_edges (length g) (edges_of g).
Proof.
  intros Hwf Hnd. apply simple_edges_of_ordered.
  - apply pairs_of_NoDup. exact Hnd.
  - intros a b H. apply edges_of_In in H. destruct H as [Hlt Hin]. split; auto. eapply Hwf; eauto.
Qed.

Lemma flat_map_length {A B} (f : A -> list B) (l : list A) :
  length (flat_map f l) = sumn (map (fun x => length (f x)) l).
Proof. induction l as [|x t IH]; simpl; auto. rewrite app_length, IH. reflexivity. Qed.

Lemma filter_split_length {A} (p : A -> bool) (l : list A) :
  length l = length (filter p l) + length (filter (fun x => negb (p x)) l).
Proof. induction l as [|x t IH]; simpl; auto. destruct (p x); simpl; lia. Qed.

Lemma sumn_map_add {A} (f h : A -> nat) (l : list A) :
  sumn (map (fun x => f x + h x) l) = sumn (map f l) + sumn (map h l).
Proof. induction l as [|x t IH]; simpl; auto. rewrite IH. lia. Qed.

Lemma nnz_rows g : nnz g = sumn (map (fun u => length (row g u)) (nodes g)).
Proof. unfold nnz, nodes. rewrite <- (map_nth_seq g []) at 1. rewrite map_map. reflexivity. Qed.

Lemma pairs_of_length p g :
  length (pairs_of p g) = sumn (map (fun u => length (filter (p u) (row g u))) (nodes g)).
Proof. unfold pairs_of. rewrite flat_map_length. f_equal. apply map_ext_in. intros u _. apply map_length. Qed.

(** Every stored entry lies above or below the diagonal, and transposition maps one half onto the other. *)
Lemma nnz_edges_of g :
  sym_graph g -> loop_free g -> (forall u, NoDup (row g u)) -> nnz g = 2 * length (edges_of g).
Proof.
  intros Hs Hl Hnd. set (below := pairs_of (fun u v => v <? u) g).
  assert (Hsplit : nnz g = length (edges_of g) + length below).
  { unfold below, edges_of. rewrite nnz_rows, !pairs_of_length, <- sumn_map_add. f_equal. apply map_ext_in. intros u _.
    rewrite (filter_split_length (Nat.ltb u) (row g u)). f_equal. f_equal. apply filter_ext_in. intros v Hv.
    assert (v <> u) by (intros E; subst; eapply Hl; eauto).
    destruct (Nat.ltb_spec u v), (Nat.ltb_spec v u); simpl; auto; lia. }
  assert (Hperm : Permutation (map (fun e => (snd e, fst e)) (edges_of g)) below).
  { apply NoDup_Permutation.
    - apply FinFun.Injective_map_NoDup; [|apply pairs_of_NoDup; exact Hnd].
      intros [a b] [a' b'] E. simpl in E. congruence.
    - apply pairs_of_NoDup; exact Hnd.
    - intros [a b]. unfold below. rewrite in_map_iff, pairs_of_In. split.
      + intros [[x y] [E H]]. simpl in E. inversion E; subst. apply pairs_of_In in H.
        split; [apply Hs; exact (proj1 H) | exact (proj2 H)].
      + intros [H1 H2]. exists (b, a). split; [reflexivity|]. apply pairs_of_In. split; [apply Hs; exact H1 | exact H2]. }
  apply Permutation_length in Hperm. rewrite map_length in Hperm. lia.
Qed.

(** is_acyclic on an undirected graph (canonical rows: no duplicate column index). *)
Theorem is_acyclic_undirected_lemma (g : graph) (directed : option bool) (comp : list nat) (b : bool) :
  wf_graph g -> (forall u, NoDup (row g u)) -> components_contract g false comp ->
  resolve_directed g directed = Ok false ->
  is_acyclic g directed comp = Ok b ->
  (b = true <-> ~ exists c, ucycle g c).
Proof.
  intros Hwf Hnd [Hlen Hc] Hd. pose proof (resolve_directed_false g directed Hd) as Hsym0.
  pose proof (proj1 (is_symmetric_spec g) Hsym0) as Hsym. intros Hrun.
  destruct (is_acyclic_cases g directed comp false Hd) as [[Ea [u Hu]]|[Ea Hlf]];
    rewrite Ea in Hrun; inversion Hrun; subst b.
  - split; [discriminate|]. intros Hn. destruct Hn. exists [u]. split; [exact (loop_cycle _ u Hu) | simpl; lia].
  - pose proof (nnz_edges_of g Hsym Hlf Hnd) as Hnnz.
    pose proof (simple_edges_of g Hwf Hnd) as Hse.
    assert (Hconn : forall x y, x < length g -> y < length g ->
              (nthn comp x = nthn comp y <-> econn (edges_of g) x y)).
    { intros x y Hx Hy. rewrite (Hc x y Hx Hy). unfold wconn, econn. split; apply reach_mono; intros a c0 Hac.
      - apply adj_edges_of; auto. destruct Hac as [Hac|Hac]; [exact Hac | apply Hsym; exact Hac].
      - left. apply adj_edges_of in Hac; auto. }
    pose proof (forest_iff_count_lemma (length g) (edges_of g) comp Hse Hlen Hconn) as Hf.
    unfold count_criterion. rewrite Hnnz. rewrite Nat.mul_comm, Nat.div_mul by lia.
    rewrite Z.eqb_eq. split.
    + intros E [c [Hcy Hl2]]. assert (Hfo : forest (edges_of g)) by (apply Hf; lia).
      apply Hfo. exists c. split.
      * exact (ucycle_length g c (conj Hcy Hl2) Hlf).
      * eapply simple_cycle_ext; [|exact Hcy]. intros a c0 Hac. apply adj_edges_of; auto.
    + intros Hno. assert (Hfo : forest (edges_of g)).
      { intros [c [Hl3 Hcy]]. apply Hno. exists c. split; [|lia].
        eapply simple_cycle_ext; [|exact Hcy]. intros a c0 Hac. apply adj_edges_of in Hac; auto. }
      apply Hf in Hfo. lia.
Qed.

(** An accepted undirected graph has no cycle: what the early exit of break_cycles relies on. *)
Lemma is_acyclic_undirected_sound g directed comp :
  wf_graph g -> (forall u, NoDup (row g u)) -> components_contract g false comp ->
  resolve_directed g directed = Ok false ->
  is_acyclic g directed comp = Ok true -> forall c, ~ ucycle g c.
Proof.
  intros Hwf Hnd Hc Hd Hac c Hcy.
  apply (proj1 (is_acyclic_undirected_lemma g directed comp true Hwf Hnd Hc Hd Hac) eq_refl). exists c. exact Hcy.
Qed.

(** * get_cycles: completeness *)

Lemma same_dcycle_split a b : same_dcycle a b <-> exists l1 l2, a = l1 ++ l2 /\ b = l2 ++ l1.
Proof.
  split.
  - intros [k E]. exists (firstn k a), (skipn k a). split; [symmetry; apply firstn_skipn | exact E].
  - intros [l1 [l2 [E1 E2]]]. exists (length l1). subst. unfold rot.
    rewrite skipn_app_exact, firstn_app_exact. reflexivity.
Qed.

Lemma same_dcycle_refl a : same_dcycle a a.
Proof. exists 0. unfold rot. simpl. rewrite app_nil_r. reflexivity. Qed.

Lemma same_dcycle_sym a b : same_dcycle a b -> same_dcycle b a.
Proof.
  intros H. apply same_dcycle_split in H. destruct H as [l1 [l2 [E1 E2]]].
  apply same_dcycle_split. exists l2, l1. auto.
Qed.

Lemma same_dcycle_trans a b c : same_dcycle a b -> same_dcycle b c -> same_dcycle a c.
Proof.
  intros H1 H2. apply same_dcycle_split in H1, H2.
  destruct H1 as [l1 [l2 [E1 E2]]]. destruct H2 as [m1 [m2 [F1 F2]]]. subst a b c.
  apply app_eq_app in F1. destruct F1 as [l [[A B]|[A B]]]; subst; apply same_dcycle_split.
  - exists (l1 ++ m1), l. rewrite <- !app_assoc. auto.
  - exists l, (m2 ++ l2). rewrite <- !app_assoc. auto.
Qed.

Lemma concat_opt_incl {A} (l : list (option (list A))) r :
  concat_opt l = Some r -> forall o, In o l -> exists a, o = Some a /\ forall c, In c a -> In c r.
Proof.
  revert r; induction l as [|o t IH]; intros r H o' Ho; [destruct Ho|]. simpl in H.
  destruct o as [a|]; [|discriminate]. destruct (concat_opt t) as [b|] eqn:E; [|discriminate].
  inversion H; subst r. destruct Ho as [Ho|Ho].
  - subst o'. exists a. split; auto. intros c Hc. apply in_or_app. left. exact Hc.
  - destruct (IH b eq_refl o' Ho) as [a' [E' Hs]]. exists a'. split; auto.
    intros c Hc. apply in_or_app. right. apply Hs. exact Hc.
Qed.

(** The traversal reaches every simple extension of its path and records every back edge there. *)
Lemma gc_visit_complete g directed : forall d path cur cs,
  gc_visit d g directed cur path = Some cs ->
  forall ext w,
    chain (edge g) (cur :: ext) -> NoDup (path ++ ext) ->
    In w (row g (last (cur :: ext) 0)) -> In w (path ++ ext) ->
    (directed = false -> is_prev (prev_of (path ++ ext)) w = false) ->
    In (skipn (index_of w (path ++ ext)) (path ++ ext)) cs.
Proof.
  induction d as [|d IH]; intros path cur cs H ext w Hch Hnd Hw Hin Hprev; [discriminate|].
  cbn [gc_visit] in H. cbv zeta in H.
  destruct (concat_opt _) as [sub|] eqn:Esub; [|discriminate]. inversion H; subst cs. clear H.
  destruct (gc_scan_spec directed (prev_of path) path (row g cur)) as [S1 S2].
  destruct ext as [|v ext'].
  - rewrite app_nil_r in *. cbn [last] in Hw. apply in_or_app. left. apply S1. exists w.
    split; [exact Hw|]. split; [destruct directed; simpl; auto | auto].
  - apply chain_cons in Hch. destruct Hch as [Hcv Hch']. specialize (Hcv ltac:(discriminate)). cbn [hd] in Hcv.
    assert (Hvp : ~ In v path).
    { intros Hvin. eapply (NoDup_app_disjoint path (v :: ext') v); eauto. left. reflexivity. }
    assert (Hskip : negb directed && is_prev (prev_of path) v = false).
    { rewrite is_prev_notin by exact Hvp. apply andb_false_r. }
    assert (Hpush : In v (snd (gc_scan directed (prev_of path) path (row g cur)))) by (apply S2; auto).
    assert (Hmem : In (gc_visit d g directed v (path ++ [v]))
                      (map (fun v0 => gc_visit d g directed v0 (path ++ [v0]))
                           (rev (snd (gc_scan directed (prev_of path) path (row g cur)))))).
    { apply in_map_iff. exists v. split; auto. apply in_rev. rewrite rev_involutive. exact Hpush. }
    destruct (concat_opt_incl _ _ Esub _ Hmem) as [a [Ea Hsub]].
    apply in_or_app. right. apply Hsub.
    assert (Eq : path ++ v :: ext' = (path ++ [v]) ++ ext') by (rewrite <- app_assoc; reflexivity).
    rewrite Eq in *. eapply IH; eauto.
Qed.

Lemma skipn_index_of_app (pre : list nat) w r :
  ~ In w pre -> skipn (index_of w (pre ++ w :: r)) (pre ++ w :: r) = w :: r.
Proof.
  induction pre as [|a t IH]; intros H; simpl.
  - rewrite Nat.eqb_refl. reflexivity.
  - destruct (Nat.eqb_spec w a) as [E|E]; [exfalso; apply H; left; auto|]. apply IH. intros Hin. apply H. right. exact Hin.
Qed.

(** Every simple cycle reachable from the start node is recorded, up to rotation. *)
Lemma found_complete g directed s c cs :
  gc_visit (S (length g)) g directed s [s] = Some cs ->
  simple_cycle (edge g) c -> (directed = false -> length c <> 2) ->
  reach (edge g) s (hd 0 c) ->
  exists c', In c' cs /\ same_dcycle c c'.
Proof.
  intros Hrun Hcy Hlen2 Hreach.
  destruct (cycle_entry (edge g) s c Hcy Hreach) as [pre [w [r [Hsame [[ext Eq] [Hnd [Hch Hclose]]]]]]].
  exists (w :: r). split; [|exact Hsame].
  assert (Hw : In w (pre ++ w :: r)) by (apply in_or_app; right; left; reflexivity).
  assert (Hpw : ~ In w pre) by (intros Hin; exact (NoDup_app_disjoint pre (w :: r) w Hnd Hin (or_introl eq_refl))).
  assert (Hprev : directed = false -> is_prev (prev_of (pre ++ w :: r)) w = false).
  { intros Hd. apply is_prev_entry; [exact Hnd|]. destruct Hsame as [k Ek]. rewrite Ek, rot_length. exact (Hlen2 Hd). }
  rewrite <- (skipn_index_of_app pre w r Hpw). rewrite Eq in *.
  apply (gc_visit_complete g directed (S (length g)) [s] s cs Hrun ext w); auto.
  change (s :: ext) with ([s] ++ ext). rewrite <- Eq, last_app_cons. exact Hclose.
Qed.

Lemma dedup_nonempty directed c rest : dedup directed (c :: rest) [] <> [].
Proof. simpl. discriminate. Qed.

Lemma dedup_keeps_directed (cycles : list (list nat)) c c0 :
  In c0 cycles -> same_dcycle c c0 -> exists c', In c' (dedup true cycles []) /\ same_dcycle c c'.
Proof.
  intros Hin Hs. destruct (proj2 (proj2 (proj2 (dedup_spec true cycles []))) c0 Hin) as [[]|[x [Hx Ex]]].
  cbn [okey cycle_key] in Ex. subst x. exists (roll_min c0). split; auto.
  eapply same_dcycle_trans; [exact Hs|]. exists (index_of (list_min c0) c0). reflexivity.
Qed.

(** A cycle is found from the start node of its component. *)
Lemma found_from_component g d comp labels found c :
  components_contract g d comp -> (d = false -> sym_graph g) ->
  concat_opt (map (fun s => gc_visit (S (length g)) g d s [s]) (map (first_with_label comp) labels)) = Some found ->
  simple_cycle (edge g) c -> (d = false -> length c <> 2) ->
  hd 0 c < length g -> In (nthn comp (hd 0 c)) labels ->
  exists c', In c' found /\ same_dcycle c c'.
Proof.
  intros Hcon Hsym Ef Hcy Hl2 Hx Hl.
  pose proof (first_with_label_conn g d comp (hd 0 c) Hcon Hx) as Hconn.
  set (s := first_with_label comp (nthn comp (hd 0 c))) in *.
  assert (Hreach : reach (edge g) s (hd 0 c)).
  { destruct d; [exact (proj1 Hconn)|]. eapply reach_mono; [|exact Hconn].
    intros a b [Hab|Hab]; [exact Hab | apply (Hsym eq_refl); exact Hab]. }
  destruct (concat_opt_incl _ _ Ef (gc_visit (S (length g)) g d s [s])) as [a [Ea Hsub]].
  { apply in_map_iff. exists s. split; [reflexivity | apply in_map; exact Hl]. }
  destruct (found_complete g d s c a Ea Hcy Hl2 Hreach) as [c' [Hc' Hsame]].
  exists c'. split; [apply Hsub; exact Hc' | exact Hsame].
Qed.

Theorem get_cycles_complete_directed_lemma (g : graph) (directed : option bool) (comp : list nat) cs :
  wf_graph g -> components_contract g true comp -> resolve_directed g directed = Ok true ->
  get_cycles g directed comp = Ok cs ->
  forall c, dcycle g c -> exists c', In c' cs /\ same_dcycle c c'.
Proof.
  intros Hwf Hcon Hd Hrun c Hcy. pose proof Hcon as [Hlen _]. pose proof Hcy as [Hne [Hnd Hch]].
  destruct (get_cycles_cases g directed comp true Hwf Hd) as [[Enl E]|[_ [found [Ef [_ E]]]]];
    rewrite E in Hrun; inversion Hrun; subst cs; destruct c as [|x [|y t]]; try congruence.
  - exists [x]. split; [|apply same_dcycle_refl]. apply loops_In. simpl in Hch. tauto.
  - exfalso. destruct (long_cycle_same_label g comp x y t Hwf Hcon Hcy) as [Hx [Hy [Hxy [El _]]]].
    apply Nat.eqb_eq in Enl. rewrite <- Hlen in Enl. apply n_labels_full in Enl.
    apply Hxy. apply (proj1 (NoDup_nth comp 0) Enl); auto; lia.
  - apply (dedup_keeps_directed _ [x] [x]); [|apply same_dcycle_refl].
    apply in_or_app. left. apply loops_In. simpl in Hch. tauto.
  - destruct (long_cycle_same_label g comp x y t Hwf Hcon Hcy) as [Hx [_ [_ [_ Hcnt]]]].
    destruct (found_from_component g true comp _ found (x :: y :: t) Hcon ltac:(discriminate)
                Ef Hcy ltac:(discriminate) Hx) as [c' [Hc' Hsame]].
    { cbn [hd]. apply filter_In. split; [apply np_unique_In, nthn_In; lia | apply Nat.ltb_lt; exact Hcnt]. }
    apply (dedup_keeps_directed _ _ c'); auto. apply in_or_app. right. exact Hc'.
Qed.

(** Nothing is returned exactly for acyclic graphs (self-loops count as cycles; undirected graphs are
    taken with canonical rows, i.e. without repeated column indices). *)
Theorem get_cycles_empty_iff_acyclic_lemma (g : graph) (directed : option bool) (comp : list nat) (d : bool) cs :
  wf_graph g -> (forall u, NoDup (row g u)) -> resolve_directed g directed = Ok d ->
  components_contract g d comp ->
  get_cycles g directed comp = Ok cs ->
  (cs = [] <-> ~ has_cycle g d).
Proof.
  intros Hwf Hnd Hd Hcon Hrun.
  assert (Hsound : cs <> [] -> has_cycle g d).
  { intros Hne. destruct cs as [|c0 rest]; [congruence|].
    destruct (get_cycles_sound_lemma g directed comp d (c0 :: rest) Hwf Hd Hrun) as [Hall _].
    destruct (Hall c0 (or_introl eq_refl)) as [H1 [H2 _]]. exists c0. destruct d; [exact H1|].
    split; auto. }
  split.
  2:{ intros Hno. destruct cs as [|c0 rest]; auto. exfalso. apply Hno. apply Hsound. discriminate. }
  intros Ecs [c Hcy]. subst cs. destruct d.
  - destruct (get_cycles_complete_directed_lemma g directed comp [] Hwf Hcon Hd Hrun c Hcy) as [c' [[] _]].
  - destruct Hcy as [Hcy Hl2]. pose proof (simple_cycle_hd_lt g c Hcy) as Hx.
    pose proof (proj1 (is_symmetric_spec g) (resolve_directed_false g directed Hd)) as Hsym.
    destruct (get_cycles_cases g directed comp false Hwf Hd) as [[Ecrit E]|[_ [found [Ef [_ E]]]]];
      rewrite E in Hrun; inversion Hrun as [Ecs].
    + (* no self-loop was returned and the count criterion holds: is_acyclic accepts g *)
      destruct (is_acyclic_cases g directed comp false Hd) as [[_ [u Hu]]|[Hacy _]].
      { apply loops_In in Hu. rewrite Ecs in Hu. destruct Hu. }
      rewrite Ecrit in Hacy.
      exact (is_acyclic_undirected_sound g directed comp Hwf Hnd Hcon Hd Hacy c (conj Hcy Hl2)).
    + destruct (found_from_component g false comp (np_unique comp) found c Hcon (fun _ => Hsym) Ef Hcy
                  (fun _ => Hl2) Hx) as [c' [Hc' _]].
      { apply np_unique_In, nthn_In. rewrite (proj1 Hcon). exact Hx. }
      destruct (loops_of g ++ found) as [|z zs] eqn:Ez; [|exact (dedup_nonempty false z zs Ecs)].
      apply app_eq_nil in Ez. destruct Ez as [_ Ez]. subst found. destruct Hc'.
Qed.

(** * What the brute-force postcondition [bc_post] says, and that it is exact in the directed case *)

Lemma acyclic_dir_b_sound h : acyclic_dir_b h = true -> ~ exists c, dcycle h c.
Proof.
  unfold acyclic_dir_b. rewrite forallb_forall. intros H [c Hcy]. pose proof Hcy as [Hne [Hnd Hch]].
  destruct c as [|u t]; [congruence|].
  assert (Hedge : exists y, In y (row h u) /\ reach (edge h) y u).
  { destruct t as [|y t'].
    - exists u. simpl in Hch. split; [tauto | apply reach_refl].
    - exists y. split; [simpl in Hch; tauto|].
      destruct (simple_cycle_hd_reach (edge h) (u :: y :: t') y Hcy (or_intror (or_introl eq_refl))) as [_ R].
      exact R. }
  destruct Hedge as [y [Hy Hr]].
  assert (Hu : u < length h) by (eapply row_nonempty_lt; eauto).
  specialize (H u (proj2 (nodes_In h u) Hu)). apply negb_true_iff in H.
  rewrite existsb_false in H. specialize (H y Hy).
  assert (Ht : nthb (reach_from h [y]) u = true); [|congruence].
  apply reach_from_iff; auto. exists y. split; [left; reflexivity|]. split; auto.
  (* y < length h: it has an outgoing walk to u unless y = u *)
  inversion Hr as [|? x ? Hyx _]; subst; auto. eapply row_nonempty_lt; eauto.
Qed.

Lemma acyclic_dir_b_complete h : (forall c, ~ dcycle h c) -> acyclic_dir_b h = true.
Proof.
  intros Hno. unfold acyclic_dir_b. apply forallb_forall. intros u Hu. apply nodes_In in Hu.
  apply negb_true_iff. apply existsb_false. intros v Hv.
  destruct (nthb (reach_from h [v]) u) eqn:E; [exfalso | reflexivity].
  apply (reach_from_iff h [v] u Hu) in E. destruct E as [s [[Es|[]] [_ Hr]]]. subst s.
  destruct (cycle_from_back_edge (edge h) u v Hv Hr) as [c [Hc _]]. exact (Hno c Hc).
Qed.

Lemma subgraph_b_sound h g : subgraph_b h g = true ->
  length h = length g /\ forall u v, In v (row h u) -> In v (row g u).
Proof.
  unfold subgraph_b. intros H. apply andb_true_iff in H. destruct H as [H1 H2].
  apply Nat.eqb_eq in H1. split; auto. rewrite forallb_forall in H2. intros u v Hv.
  assert (Hu : u < length h) by (eapply row_nonempty_lt; eauto).
  specialize (H2 u (proj2 (nodes_In h u) Hu)). rewrite forallb_forall in H2.
  apply edgeb_true. apply H2. exact Hv.
Qed.

Lemma subgraph_b_complete h g :
  length h = length g -> (forall u v, edge h u v -> edge g u v) -> subgraph_b h g = true.
Proof.
  intros L H. unfold subgraph_b. rewrite L, Nat.eqb_refl. apply forallb_forall. intros u _.
  apply forallb_forall. intros v Hv. apply edgeb_true. apply H. exact Hv.
Qed.

Lemma keeps_reach_b_sound g h root : wf_graph g -> length h = length g ->
  keeps_reach_b g h root = true ->
  forall r v, In r root -> r < length g -> reach (edge g) r v ->
    exists r', In r' root /\ reach (edge h) r' v.
Proof.
  intros Hwf Hlen H r v Hr Hrl Hrv. unfold keeps_reach_b in H. cbv zeta in H. rewrite forallb_forall in H.
  assert (Hv : v < length g) by (eapply reach_lt; eauto).
  specialize (H v (proj2 (nodes_In g v) Hv)).
  assert (Ha : nthb (reach_from g root) v = true) by (apply reach_from_iff; auto; exists r; auto).
  rewrite Ha in H. simpl in H. apply reach_from_iff in H; [|lia].
  destruct H as [s [Hs [_ Hsv]]]. exists s. auto.
Qed.

Lemma keeps_reach_b_complete g h root :
  length h = length g -> (forall r, In r root -> r < length g) ->
  (forall r v, In r root -> reach (edge g) r v -> exists r', In r' root /\ reach (edge h) r' v) ->
  keeps_reach_b g h root = true.
Proof.
  intros L Hroot H. unfold keeps_reach_b. cbv zeta. apply forallb_forall. intros v Hv. apply nodes_In in Hv.
  destruct (nthb (reach_from g root) v) eqn:E; [|reflexivity]. cbn [implb].
  apply (reach_from_iff g root v Hv) in E. destruct E as [r [Hr [_ Hrv]]].
  destruct (H r v Hr Hrv) as [r' [Hr' Hrv']]. apply reach_from_iff; [lia|].
  exists r'. split; [exact Hr'|]. split; [rewrite L; apply Hroot; exact Hr' | exact Hrv'].
Qed.

Theorem bc_post_directed_sound g root h : wf_graph g -> bc_post g root true h = true ->
  length h = length g /\
  (forall u v, edge h u v -> edge g u v) /\
  (~ exists c, dcycle h c) /\
  (forall r v, In r root -> r < length g -> reach (edge g) r v -> exists r', In r' root /\ reach (edge h) r' v).
Proof.
  intros Hwf H. unfold bc_post in H. cbn [orb acyclic_b] in H. rewrite andb_true_r in H.
  apply andb_true_iff in H. destruct H as [H H3]. apply andb_true_iff in H. destruct H as [H1 H2].
  destruct (subgraph_b_sound h g H1) as [Hlen Hsub]. split; auto. split; [exact Hsub|].
  split; [apply acyclic_dir_b_sound; exact H2|]. apply keeps_reach_b_sound; auto.
Qed.

Theorem bc_post_directed_complete g root h :
  length h = length g -> (forall u v, edge h u v -> edge g u v) -> (forall c, ~ dcycle h c) ->
  (forall r, In r root -> r < length g) ->
  (forall r v, In r root -> reach (edge g) r v -> exists r', In r' root /\ reach (edge h) r' v) ->
  bc_post g root true h = true.
Proof.
  intros L Hsub Hno Hroot Hkeep. unfold bc_post. cbn [acyclic_b orb].
  rewrite (subgraph_b_complete h g L Hsub), (acyclic_dir_b_complete h Hno), (keeps_reach_b_complete g h root L Hroot Hkeep).
  reflexivity.
Qed.

(** The brute-force test "v still reaches u without the edge u - v" fires on every cycle through that edge. *)
Lemma cycle_without_edge h u v w t :
  simple_cycle (edge h) (u :: v :: w :: t) ->
  nthb (reach_from (remove_edge (remove_edge h u v) v u) [v]) u = true.
Proof.
  intros Hcy. pose proof Hcy as [_ [_ Hch]].
  assert (Hu : u < length h) by (eapply row_nonempty_lt; simpl in Hch; apply (proj1 Hch)).
  assert (Hv : v < length h) by (eapply row_nonempty_lt; simpl in Hch; apply (proj1 (proj2 Hch))).
  apply reach_from_iff; [rewrite !remove_edge_length; exact Hu|]. exists v. split; [left; reflexivity|].
  split; [rewrite !remove_edge_length; exact Hv|].
  eapply reach_mono; [|exact (cycle_avoids_edge _ u v w t Hcy)].
  intros a b [A [B C]]. apply remove_edge2_iff. tauto.
Qed.

Lemma acyclic_und_b_sound h : acyclic_und_b h = true -> ~ exists c, ucycle h c.
Proof.
  unfold acyclic_und_b. intros H. apply andb_true_iff in H. destruct H as [Hl H].
  apply negb_true_iff in Hl. pose proof (proj1 (has_loops_false h) Hl) as Hlf.
  rewrite forallb_forall in H. intros [c [Hcy Hl2]]. pose proof Hcy as [Hne [Hnd Hch]].
  destruct c as [|u [|v [|w t]]]; [congruence | | simpl in Hl2; lia |].
  - simpl in Hch. apply (Hlf u). tauto.
  - assert (Huv : In v (row h u)) by (simpl in Hch; tauto).
    assert (Hu : u < length h) by (eapply row_nonempty_lt; eauto).
    specialize (H u (proj2 (nodes_In h u) Hu)). rewrite forallb_forall in H. specialize (H v Huv).
    apply negb_true_iff in H. rewrite (cycle_without_edge h u v w t Hcy) in H. discriminate.
Qed.

Theorem bc_post_undirected_sound g root h : wf_graph g -> bc_post g root false h = true ->
  length h = length g /\
  (forall u v, edge h u v -> edge g u v) /\
  (forall u v, edge h u v -> edge h v u) /\
  (~ exists c, ucycle h c) /\
  (forall r v, In r root -> r < length g -> reach (edge g) r v -> exists r', In r' root /\ reach (edge h) r' v).
Proof.
  intros Hwf H. unfold bc_post in H. cbn [orb acyclic_b] in H.
  apply andb_true_iff in H. destruct H as [H H4]. apply andb_true_iff in H. destruct H as [H H3].
  apply andb_true_iff in H. destruct H as [H1 H2].
  destruct (subgraph_b_sound h g H1) as [Hlen Hsub]. split; auto. split; [exact Hsub|].
  split; [exact (proj1 (is_symmetric_spec h) H3)|].
  split; [apply acyclic_und_b_sound; exact H2|]. apply keeps_reach_b_sound; auto.
Qed.

(** * break_cycles with the canonical oracle answers *)

Definition out_degree (g : graph) (root : list nat) : nat := sumn (map (fun r => length (row g r)) root).

(** The model run with the canonical oracle answers (labels = smallest node of the class).
    [vo] is the model's [visit_others]: does the undirected branch visit the components without root
    (the value for the source is [bc_und_visits_other_components], Gen/CyclesCode.v). *)
Definition bc_run (vo : bool) (directed : option bool) (d : bool) (g : graph) (root : list nat) : result graph :=
  break_cycles vo g root directed (canon_labels g d) (canon_labels (drop_loops g) d).

(** The canonical labels are admissible oracle answers for both calls of break_cycles. *)
Lemma canon_contracts g d : wf_graph g ->
  components_contract g d (canon_labels g d) /\ components_contract (drop_loops g) d (canon_labels (drop_loops g) d) /\
  length (canon_labels (drop_loops g) d) = length g.
Proof.
  intros Hwf. pose proof (canon_labels_contract (drop_loops g) d (wf_sub _ g Hwf (drop_loops_sub g))) as Hc2.
  split; [exact (canon_labels_contract g d Hwf)|]. split; [exact Hc2|]. rewrite (proj1 Hc2). apply drop_loops_length.
Qed.

(** * The enumerated graphs on at most 4 nodes *)

Lemma sublists_incl l : forall s, In s (sublists l) -> incl s l.
Proof.
  induction l as [|x t IH]; intros s Hs; cbn [sublists] in Hs; cbv zeta in Hs.
  - destruct Hs as [<-|[]]. intros y [].
  - apply in_app_or in Hs. destruct Hs as [Hs|Hs].
    + apply incl_tl. apply IH. exact Hs.
    + apply in_map_iff in Hs. destruct Hs as [s' [<- Hs']].
      apply incl_cons; [left; reflexivity | apply incl_tl; apply IH; exact Hs'].
Qed.

Lemma nonempty_sublists_lt g root :
  In root (nonempty_sublists (nodes g)) -> forall r, In r root -> r < length g.
Proof.
  unfold nonempty_sublists. intros H r Hr. apply filter_In in H. destruct H as [H _].
  apply nodes_In. exact (sublists_incl _ _ H r Hr).
Qed.

Lemma all_graphs_rows_In : forall rows g, In g (all_graphs_rows rows) ->
  length g = length rows /\ forall r, In r g -> exists choices, In choices rows /\ In r choices.
Proof.
  induction rows as [|ch rest IH]; intros g Hg; cbn [all_graphs_rows] in Hg.
  - destruct Hg as [<-|[]]. split; [reflexivity | intros r []].
  - apply in_flat_map in Hg. destruct Hg as [r0 [Hr0 Hg]]. apply in_map_iff in Hg. destruct Hg as [g' [<- Hg']].
    destruct (IH g' Hg') as [L H]. split; [simpl; congruence|]. intros r [<-|Hr].
    + exists ch. split; [left; reflexivity | exact Hr0].
    + destruct (H r Hr) as [c [Hc Hrc]]. exists c. split; [right; exact Hc | exact Hrc].
Qed.

Lemma all_digraphs_wf n loops g : In g (all_digraphs n loops) -> wf_graph g.
Proof.
  unfold all_digraphs. intros Hg. apply all_graphs_rows_In in Hg. destruct Hg as [L H].
  rewrite map_length, seq_length in L. intros u v Hv.
  assert (Hu : u < length g) by (eapply row_nonempty_lt; eauto).
  destruct (H (row g u) (nth_In g [] Hu)) as [ch [Hch Hr]].
  apply in_map_iff in Hch. destruct Hch as [u' [<- _]].
  apply sublists_incl in Hr. apply Hr in Hv. apply filter_In in Hv. destruct Hv as [Hv _]. apply in_seq in Hv. lia.
Qed.

Definition small_digraphs : list graph :=
  all_digraphs 0 true ++ all_digraphs 1 true ++ all_digraphs 2 true ++ all_digraphs 3 true ++ all_digraphs 4 false.

Lemma small_digraphs_wf g : In g small_digraphs -> wf_graph g.
Proof.
  unfold small_digraphs. rewrite !in_app_iff. intros [H|[H|[H|[H|H]]]]; exact (all_digraphs_wf _ _ g H).
Qed.

Lemma close_sym_length g : length (close_sym g) = length g.
Proof. apply map_nodes_length. Qed.

Lemma close_sym_edge g u v :
  edge (close_sym g) u v <-> u < length g /\ v < length g /\ (edge g u v \/ edge g v u).
Proof.
  unfold close_sym. rewrite edge_map_nodes, filter_In, nodes_In, orb_true_iff, !edgeb_true. unfold edge. tauto.
Qed.

Definition small_undirected : list graph :=
  all_undirected 0 ++ all_undirected 1 ++ all_undirected 2 ++ all_undirected 3 ++ all_undirected 4.

(** Every member is a symmetric closure, hence well formed, symmetric and with duplicate-free rows. *)
Lemma small_undirected_spec g :
  In g small_undirected -> wf_graph g /\ is_symmetric g = true /\ forall u, NoDup (row g u).
Proof.
  intros Hg. assert (Hc : exists g0, g = close_sym g0).
  { unfold small_undirected, all_undirected in Hg. rewrite !in_app_iff, !in_map_iff in Hg.
    destruct Hg as [[g0 [E _]]|[[g0 [E _]]|[[g0 [E _]]|[[g0 [E _]]|[g0 [E _]]]]]]; exists g0; auto. }
  destruct Hc as [g0 ->]. split; [|split].
  - intros u v H. apply close_sym_edge in H. rewrite close_sym_length. tauto.
  - apply is_symmetric_spec. intros u v H. apply close_sym_edge in H. apply close_sym_edge. tauto.
  - intros u. destruct (Nat.lt_ge_cases u (length g0)) as [Hu|Hu].
    + unfold close_sym. rewrite row_map_nodes by exact Hu. apply NoDup_filter. apply seq_NoDup.
    + rewrite row_oob by (rewrite close_sym_length; exact Hu). constructor.
Qed.

Theorem break_cycles_ok_upto_4_lemma (vo : bool) (g : graph) (root : list nat) (directed : option bool) :
  In g small_digraphs -> In root (nonempty_sublists (nodes g)) -> 0 < out_degree g root ->
  directed = Some true \/ (directed = None /\ is_symmetric g = false) ->
  exists h, bc_run vo directed true g root = Ok h /\ bc_post g root true h = true.
Proof.
  intros Hg Hr Hd Hflag. pose proof (small_digraphs_wf g Hg) as Hwf.
  assert (Hres : resolve_directed g directed = Ok true).
  { destruct Hflag as [E|[E Hsym]]; subst directed; simpl; [reflexivity | rewrite Hsym; reflexivity]. }
  destruct (canon_contracts g true Hwf) as [Hc1 [Hc2 Hl2]]. unfold bc_run.
  destruct (break_cycles_directed_total_lemma vo g root directed (canon_labels g true) _ Hres Hl2
              (nonempty_sublists_lt g root Hr) Hd) as [h Hh].
  exists h. split; [exact Hh|].
  destruct (proj2 (break_cycles_directed_correct_lemma vo g root directed _ _ Hwf Hres Hc1 Hc2) h Hh) as [L [Hs [Hn Hk]]].
  apply bc_post_directed_complete; auto; [intros u v Huv; apply Hs; exact Huv | exact (nonempty_sublists_lt g root Hr)].
Qed.

(** Undirected branch. With [vo = false] the positive statement needs the
    hypothesis that every node lying on a cycle (of length >= 3) is reachable from the root set: cycles
    elsewhere are never visited. With [vo = true] no hypothesis is needed. *)
Definition on_ucycle_b (g : graph) (u : nat) : bool :=
  existsb (fun v => negb (v =? u) && nthb (reach_from (remove_edge (remove_edge g u v) v u) [v]) u) (row g u).
Definition cycles_covered (g : graph) (root : list nat) : bool :=
  let r := reach_from g root in forallb (fun u => implb (on_ucycle_b g u) (nthb r u)) (nodes g).

Lemma cycles_covered_reach g root c :
  cycles_covered g root = true -> simple_cycle (edge g) c -> 3 <= length c ->
  exists s, In s root /\ reach (edge g) s (hd 0 c).
Proof.
  intros Hcov Hcy Hlen. destruct c as [|u [|v [|w t]]]; simpl in Hlen; try lia. cbn [hd].
  pose proof Hcy as [_ [Hnd Hch]].
  assert (Huv : edge g u v) by (simpl in Hch; tauto).
  assert (Hu : u < length g) by (eapply row_nonempty_lt; eauto).
  unfold cycles_covered in Hcov. cbv zeta in Hcov. rewrite forallb_forall in Hcov.
  specialize (Hcov u (proj2 (nodes_In g u) Hu)).
  assert (Hon : on_ucycle_b g u = true).
  { unfold on_ucycle_b. apply existsb_exists. exists v. split; [exact Huv|]. apply andb_true_iff. split.
    - apply negb_true_iff, Nat.eqb_neq. intros E. subst v. inversion Hnd as [|? ? Hni _]. apply Hni. left; reflexivity.
    - exact (cycle_without_edge g u v w t Hcy). }
  rewrite Hon in Hcov. cbn [implb] in Hcov. apply (reach_from_iff g root u Hu) in Hcov.
  destruct Hcov as [s [Hs [_ Hr]]]. exists s. auto.
Qed.

Theorem break_cycles_undirected_ok_upto_4_prop_lemma (vo : bool) (g : graph) (root : list nat) (directed : option bool) :
  In g small_undirected -> In root (nonempty_sublists (nodes g)) -> 0 < out_degree g root ->
  (vo = false -> cycles_covered g root = true) ->
  directed = None \/ directed = Some false ->
  exists h, bc_run vo directed false g root = Ok h /\
    length h = length g /\
    (forall u v, edge h u v -> edge g u v) /\
    (forall u v, edge h u v -> edge h v u) /\
    (~ exists c, ucycle h c) /\
    (forall r v, In r root -> r < length g -> reach (edge g) r v -> exists r', In r' root /\ reach (edge h) r' v).
Proof.
  intros Hg Hr Hd Hcov Hflag. destruct (small_undirected_spec g Hg) as [Hwf [Hsym Hrows]].
  assert (Hres : resolve_directed g directed = Ok false).
  { destruct Hflag as [E|E]; subst directed; simpl; rewrite Hsym; reflexivity. }
  destruct (canon_contracts g false Hwf) as [Hc1 [Hc2 Hl2]]. unfold bc_run.
  destruct (break_cycles_undirected_total_lemma vo g root directed (canon_labels g false) _ Hwf Hres Hl2
              (nonempty_sublists_lt g root Hr) Hd) as [h Hh].
  destruct (proj2 (break_cycles_undirected_correct_lemma vo g root directed _ _ Hwf Hres
                     (is_acyclic_undirected_sound g directed _ Hwf Hrows Hc1 Hres) Hc2) h Hh)
    as [L [Hs [Hy [Hc [Hvo Hk]]]]].
  exists h. split; [exact Hh|]. split; [exact L|]. split; [intros u v Huv; apply Hs; exact Huv|].
  split; [exact Hy|]. split.
  - intros [c Hc']. destruct vo; [exact (Hvo eq_refl c Hc')|].
    (* a cycle left in h is a cycle of g on at least 3 nodes, which some root reaches *)
    assert (Hlen : 3 <= length c).
    { apply (ucycle_length h c Hc'). intros x Hxx. destruct (Hs x x Hxx) as [_ N]. congruence. }
    destruct (cycles_covered_reach g root c (Hcov eq_refl)) as [s [Hs' Hr']]; [|exact Hlen|].
    + eapply simple_cycle_ext; [|exact (proj1 Hc')]. intros a b Hab. apply Hs. exact Hab.
    + exact (Hc c s Hc' Hs' Hr').
  - intros r v Hr' _ Hrv. exists r. split; [exact Hr' | apply Hk; exact Hrv].
Qed.

Definition wf_b (g : graph) : bool := forallb (fun r => forallb (fun v => v <? length g) r) g.
Lemma wf_b_sound g : wf_b g = true -> wf_graph g.
Proof.
  unfold wf_b. rewrite forallb_forall. intros H u v Hv.
  assert (Hu : u < length g) by (eapply row_nonempty_lt; eauto).
  specialize (H (row g u) (nth_In g [] Hu)). rewrite forallb_forall in H. apply Nat.ltb_lt. apply H. exact Hv.
Qed.

(** Refutation (D22): triangle {0,2,3}, separate root 1 carrying a self-loop. The undirected branch
    with [visit_others = false] returns the triangle untouched: the result is not acyclic. The coverage
    hypothesis above fails. *)
Definition d22_graph : graph := [[2; 3]; [1]; [0; 3]; [0; 2]].

Theorem break_cycles_undirected_refuted_lemma :
  exists g root comp h,
    wf_graph g /\ is_symmetric g = true /\ In root (nonempty_sublists (nodes g)) /\ 0 < out_degree g root /\
    components_contract_b g false comp = true /\
    (forall comp2, break_cycles false g root None comp comp2 = Ok h) /\
    ucycle h [0; 2; 3] /\ acyclic_b h false = false /\ bc_post g root false h = false /\
    cycles_covered g root = false.
Proof.
  exists d22_graph, [1], [0; 1; 0; 0], [[2; 3]; []; [0; 3]; [0; 2]].
  split; [apply wf_b_sound; reflexivity|].
  split; [reflexivity|]. split; [vm_compute; tauto|]. split; [vm_compute; lia|].
  split; [reflexivity|]. split; [intros comp2; reflexivity|].
  split.
  { split; [|simpl; lia]. split; [discriminate|]. split.
    - repeat constructor; simpl; intuition lia.
    - simpl. unfold edge. simpl. tauto. }
  split; [reflexivity|]. split; reflexivity.
Qed.
