(** C17 — proofs about the checked flat models of Model/Safety.v (and Model/Vote.v, Model/Bfs.v):
    on well-formed CSR input and the stated argument contracts no access is out of bounds and the
    stated fuel suffices. *)
From SKN Require Import Base.Util Model.Bfs Proofs.BfsProofs Model.Vote Proofs.VoteProofs Model.Safety.
From Coq Require Import Lia.

Lemma rd_ok {A} (l : list A) i d : i < length l -> rd l i = KOk (nth i l d).
Proof. intros H. unfold rd. rewrite (nth_error_nth' l d H). reflexivity. Qed.

(** [set_nth] is [Vote.upd] under another name (the same fixpoint): facts about one hold of the other by conversion. *)
Lemma set_nth_length {A} (l : list A) i x : length (set_nth l i x) = length l.
Proof. exact (upd_length l i x). Qed.

Lemma wr_ok {A} (l : list A) i x : i < length l -> wr l i x = KOk (set_nth l i x).
Proof. intros H. unfold wr. apply Nat.ltb_lt in H. rewrite H. reflexivity. Qed.

(** The next access of the goal is in range by arithmetic on the hypotheses: step over it.
    [d] is the default of the [nth] that stands for the value read. *)
Ltac step_rd d := rewrite (rd_ok _ _ d) by (rewrite ?set_nth_length, ?repeat_length; lia); cbn [kbind].
Ltac step_wr := rewrite wr_ok by (rewrite ?set_nth_length, ?repeat_length; lia); cbn [kbind].

Lemma Forall_set_nth {A} (P : A -> Prop) (l : list A) i x :
  Forall P l -> P x -> Forall P (set_nth l i x).
Proof.
  revert i; induction l as [|a t IH]; intros [|i] HF Hx; simpl; auto;
    inversion HF; subst; constructor; auto.
Qed.

Lemma Forall_nth_lt {A} (P : A -> Prop) (l : list A) i d : Forall P l -> i < length l -> P (nth i l d).
Proof. intros HF. apply Forall_nth. exact HF. Qed.

Lemma rd_Forall {A} (P : A -> Prop) (l : list A) i :
  Forall P l -> i < length l -> exists x, rd l i = KOk x /\ P x.
Proof.
  intros HF Hi. destruct l as [|d t] eqn:E; [simpl in Hi; lia|]. rewrite <- E in *.
  exists (nth i l d). split; [apply rd_ok; exact Hi | apply Forall_nth_lt; assumption].
Qed.

Lemma Forall_In {A} (P : A -> Prop) l x : Forall P l -> In x l -> P x.
Proof. intros H Hin. rewrite Forall_forall in H. apply H. exact Hin. Qed.

Lemma Forall_app_one {A} (P : A -> Prop) l x : Forall P l -> P x -> Forall P (l ++ [x]).
Proof. intros H Hx. apply Forall_app. split; [exact H|]. constructor; [exact Hx|constructor]. Qed.

Lemma Forall_repeat {A} (P : A -> Prop) x n : P x -> Forall P (repeat x n).
Proof. intros Hx. apply Forall_forall. intros y Hy. apply repeat_spec in Hy. subst y. exact Hx. Qed.

Lemma Forall_set_insert (P : nat -> Prop) x s : P x -> Forall P s -> Forall P (set_insert x s).
Proof.
  intros Hx Hs. apply Forall_forall. intros u Hu. apply set_insert_In in Hu.
  destruct Hu as [->|Hu]; [exact Hx | exact (Forall_In _ _ _ Hs Hu)].
Qed.

Lemma In_tail {A} (P : A -> Prop) (a : A) t : (forall x, In x (a :: t) -> P x) -> forall x, In x t -> P x.
Proof. intros H x Hx. apply H. right. exact Hx. Qed.

(** A [for] loop whose body is a function of its own: what every iteration keeps holds at the end. *)
Lemma for_inv {K S} (body : K -> S -> kres S) (loop : list K -> S -> kres S) (P : K -> Prop) (I : S -> Prop) :
  (forall st, loop [] st = KOk st) ->
  (forall k t st, loop (k :: t) st = (do st' <- body k st ;; loop t st')) ->
  (forall k st, P k -> I st -> exists st', body k st = KOk st' /\ I st') ->
  forall ks st, (forall k, In k ks -> P k) -> I st -> exists st', loop ks st = KOk st' /\ I st'.
Proof.
  intros Hnil Hcons Hbody. induction ks as [|k t IH]; intros st Hks HI.
  - exists st. auto.
  - destruct (Hbody k st (Hks k (or_introl eq_refl)) HI) as (st1 & E & HI1).
    rewrite Hcons, E. apply IH; [exact (In_tail _ _ _ Hks) | exact HI1].
Qed.

Lemma csr_mono n indptr indices :
  csr_pat_wf n indptr indices -> forall i j, i <= j -> j <= n -> ip indptr i <= ip indptr j.
Proof.
  intros (_ & _ & Hm & _ & _) i j Hij. induction Hij as [|j Hij IH]; intros Hj; [lia|].
  specialize (Hm j). lia.
Qed.

Lemma csr_le_nnz n indptr indices i :
  csr_pat_wf n indptr indices -> i <= n -> ip indptr i <= length indices.
Proof.
  intros Hwf Hi. pose proof (csr_mono _ _ _ Hwf i n Hi (le_n _)) as H.
  destruct Hwf as (_ & _ & _ & Hl & _). lia.
Qed.

Lemma csr_rd_indptr n indptr indices i :
  csr_pat_wf n indptr indices -> i <= n -> rd indptr i = KOk (ip indptr i).
Proof. intros (Hl & _) Hi. apply rd_ok. lia. Qed.

Lemma csr_rd_indices n indptr indices k :
  csr_pat_wf n indptr indices -> k < length indices ->
  rd indices k = KOk (nth k indices 0) /\ nth k indices 0 < n.
Proof. intros (_ & _ & _ & _ & Hi) Hk. split; [apply rd_ok; exact Hk | apply Hi; exact Hk]. Qed.

Lemma row_range_lt n indptr indices i :
  csr_pat_wf n indptr indices -> i < n ->
  forall k, In k (seq (ip indptr i) (ip indptr (S i) - ip indptr i)) -> k < length indices.
Proof.
  intros Hwf Hi k Hk. apply in_seq in Hk.
  pose proof (csr_le_nnz _ _ _ (S i) Hwf ltac:(lia)).
  pose proof (csr_mono _ _ _ Hwf i (S i) ltac:(lia) ltac:(lia)). lia.
Qed.

(** [for k in range(indptr[i], indptr[i + 1])]: the two reads that open the loop over row [i]. *)
Lemma csr_row_rd {B n indptr indices i} :
  csr_pat_wf n indptr indices -> i < n -> forall f : nat -> nat -> kres B,
  (do a <- rd indptr i ;; do b <- rd indptr (S i) ;; f a b) = f (ip indptr i) (ip indptr (S i)).
Proof. intros Hwf Hi f. rewrite !(csr_rd_indptr _ _ _ _ Hwf) by lia. reflexivity. Qed.

Lemma csr_pat_wf_b_sound n indptr indices :
  csr_pat_wf_b n indptr indices = true -> csr_pat_wf n indptr indices.
Proof.
  unfold csr_pat_wf_b. rewrite !andb_true_iff.
  intros ((((H1 & H2) & H3) & H4) & H5).
  apply Nat.eqb_eq in H1, H2, H4. rewrite forallb_forall in H3, H5.
  repeat split; auto.
  - intros i Hi. apply Nat.leb_le. apply H3. apply in_seq. lia.
  - intros k Hk. apply Nat.ltb_lt. apply H5. apply nth_In. exact Hk.
Qed.

Lemma csr_wf_b_sound {W} n indptr indices (data : list W) :
  csr_wf_b n indptr indices data = true -> csr_wf n indptr indices data.
Proof.
  unfold csr_wf_b. rewrite andb_true_iff. intros [H1 H2]. split.
  - apply csr_pat_wf_b_sound. exact H1.
  - apply Nat.eqb_eq. exact H2.
Qed.

Section Triangles.
  Context (n : nat) (indptr indices : list nat) (Hwf : csr_pat_wf n indptr indices).

  Lemma tri_while_ok node neighbor : node < n -> neighbor < n ->
    forall fuel i j acc,
      (ip indptr (S node) - i) + (ip indptr (S neighbor) - j) <= fuel ->
      exists r, tri_while fuel indptr indices node neighbor i j acc = KOk r.
  Proof.
    intros Hnode Hnb.
    pose proof (csr_le_nnz _ _ _ (S node) Hwf ltac:(lia)) as He1.
    pose proof (csr_le_nnz _ _ _ (S neighbor) Hwf ltac:(lia)) as He2.
    induction fuel as [|f IH]; intros i j acc Hf; cbn [tri_while];
      rewrite (csr_rd_indptr _ _ _ (S node) Hwf) by lia; cbn [kbind];
      (destruct (i <? ip indptr (S node)) eqn:Ei; [|eexists; reflexivity]);
      rewrite (csr_rd_indptr _ _ _ (S neighbor) Hwf) by lia; cbn [kbind];
      (destruct (j <? ip indptr (S neighbor)) eqn:Ej; [|eexists; reflexivity]);
      apply Nat.ltb_lt in Ei, Ej; [lia|].
    step_rd 0. step_rd 0.
    destruct (nth i indices 0 =? nth j indices 0); [apply IH; lia|].
    destruct (nth i indices 0 <? nth j indices 0); apply IH; lia.
  Qed.

  Lemma tri_for_ok node : node < n ->
    forall ks acc, (forall k, In k ks -> k < length indices) ->
      exists r, tri_for ks indptr indices node acc = KOk r.
  Proof.
    intros Hnode. induction ks as [|k t IH]; intros acc Hks; cbn [tri_for]; [eexists; reflexivity|].
    destruct (csr_rd_indices _ _ _ k Hwf (Hks k (or_introl eq_refl))) as [Hr Hlt].
    rewrite Hr. cbn [kbind].
    rewrite (csr_rd_indptr _ _ _ node Hwf) by lia. cbn [kbind].
    rewrite (csr_rd_indptr _ _ _ (nth k indices 0) Hwf) by lia. cbn [kbind].
    destruct (tri_while_ok node (nth k indices 0) Hnode Hlt
                (row_len indptr node + row_len indptr (nth k indices 0))
                (ip indptr node) (ip indptr (nth k indices 0)) acc (le_n _)) as [r Hr2].
    rewrite Hr2. cbn [kbind]. apply IH. exact (In_tail _ _ _ Hks).
  Qed.

  Lemma count_local_ok node : node < n -> exists r, count_local_triangles_flat node indptr indices = KOk r.
  Proof.
    intros Hnode. unfold count_local_triangles_flat. rewrite (csr_row_rd Hwf Hnode).
    apply tri_for_ok; [exact Hnode|]. apply (row_range_lt n); auto.
  Qed.

  Theorem count_triangles_flat_ok : exists t, count_triangles_flat indptr indices = KOk t.
  Proof.
    pose proof Hwf as (Hl & _). unfold count_triangles_flat.
    assert (H : forall nodes acc, (forall v, In v nodes -> v < n) ->
                  exists r, tri_nodes nodes indptr indices acc = KOk r).
    { induction nodes as [|v t IH]; intros acc Hn; cbn [tri_nodes]; [eexists; reflexivity|].
      destruct (count_local_ok v (Hn v (or_introl eq_refl))) as [c Hc].
      rewrite Hc. cbn [kbind]. apply IH. exact (In_tail _ _ _ Hn). }
    apply H. intros v Hv. apply in_seq in Hv. lia.
  Qed.
End Triangles.

(** * vote_update (Model/Vote.v, [repaired_kernel]) *)

Definition vinv (n m : nat) (st : vstate) : Prop :=
  let '(labels, votes, _) := st in
  length labels = n /\ length votes = m /\ Forall (fun l => (l < Z.of_nat m)%Z) labels.

Section Vote.
  Context (n m : nat) (indptr indices : list nat) (data : list Q) (Hwf : csr_wf n indptr indices data).

  Lemma gather_safe (P : Z -> Prop) labels : length labels = n -> Forall P labels ->
    forall js ln vn,
      (forall j, In j js -> j < length indices) -> length ln = length vn -> Forall P ln ->
      exists ln' vn', gather repaired_kernel indices data labels js ln vn = VOk (ln', vn') /\
                      length ln' = length vn' /\ Forall P ln'.
  Proof.
    destruct Hwf as [(_ & _ & _ & _ & Hidx) Hd].
    intros Hl HP. induction js as [|j t IH]; intros ln vn Hjs Hlen Hln; cbn [gather].
    - exists ln, vn. auto.
    - assert (Hj : j < length indices) by (apply Hjs; left; reflexivity).
      rewrite (nth_error_nth' indices 0 Hj).
      pose proof (Hidx j Hj) as Hjj.
      rewrite (nth_error_nth' labels 0%Z) by lia.
      cbn [wpos repaired_kernel].
      rewrite (nth_error_nth' data 0%Q) by lia.
      apply IH; [exact (In_tail _ _ _ Hjs) | rewrite !app_length; simpl; lia |].
      apply Forall_app_one; [exact Hln|]. apply Forall_nth_lt; [exact HP|lia].
  Qed.

  Lemma tally_safe : forall ln p vn uniq votes,
    length votes = m -> p + length ln <= length vn ->
    Forall (fun l => (l < Z.of_nat m)%Z) ln -> Forall (fun u => u < m) uniq ->
    exists uniq' votes', tally ln p vn uniq votes = VOk (uniq', votes') /\
                         length votes' = m /\ Forall (fun u => u < m) uniq'.
  Proof.
    induction ln as [|l t IH]; intros p vn uniq votes Hv Hp Hl Hu; cbn [tally].
    - exists uniq, votes. auto.
    - simpl in Hp. apply Forall_cons_iff in Hl. destruct Hl as [Hlm Hl]. destruct (l <? 0)%Z eqn:El.
      + apply IH; auto; lia.
      + apply Z.ltb_ge in El.
        rewrite (nth_error_nth' vn 0%Q) by lia.
        rewrite (nth_error_nth' votes 0%Q) by lia.
        apply IH; [rewrite upd_length; exact Hv | lia | exact Hl |].
        apply Forall_set_insert; [lia | exact Hu].
  Qed.

  Lemma select_safe : forall uniq i best labels votes,
    length votes = m -> Forall (fun u => u < m) uniq -> length labels = n -> i < n ->
    Forall (fun l => (l < Z.of_nat m)%Z) labels ->
    exists labels' votes', select uniq i best labels votes = VOk (labels', votes') /\
                           length labels' = n /\ length votes' = m /\
                           Forall (fun l => (l < Z.of_nat m)%Z) labels'.
  Proof.
    induction uniq as [|l t IH]; intros i best labels votes Hv Hu HLn Hi HL; cbn [select].
    - exists labels, votes. auto.
    - inversion Hu as [|? ? Hlm Hu']; subst.
      rewrite (nth_error_nth' votes 0%Q) by lia.
      destruct (Qle_bool (nth l votes 0%Q) best).
      + apply IH; auto. rewrite upd_length. reflexivity.
      + rewrite (proj2 (Nat.ltb_lt _ _)) by lia.
        apply IH; auto; rewrite ?upd_length; auto.
        apply Forall_forall. intros x Hx. apply In_upd in Hx.
        destruct Hx as [->|Hx]; [lia | exact (Forall_In _ _ _ HL Hx)].
  Qed.

  Lemma vote_node_safe i st : i < n -> vinv n m st ->
    exists st', vote_node repaired_kernel indptr indices data i st = VOk st' /\ vinv n m st'.
  Proof.
    intros Hi Hinv. destruct st as [[labels votes] vn]. destruct Hinv as (HL & HV & HF).
    unfold vote_node. pose proof Hwf as [Hpat _]. pose proof Hpat as (Hlen & _).
    rewrite (nth_error_nth' indptr 0) by lia.
    rewrite (nth_error_nth' indptr 0) by lia.
    fold (ip indptr i). fold (ip indptr (S i)).
    cbn [clr repaired_kernel].
    destruct (gather_safe _ labels HL HF _ [] []
                (row_range_lt n _ _ i Hpat Hi) eq_refl (Forall_nil _)) as (ln & vn' & Hg & Hlen' & Hln).
    rewrite Hg.
    destruct (tally_safe ln 0 vn' [] votes HV ltac:(lia) Hln (Forall_nil _)) as (uniq & votes' & Ht & HV' & HU).
    rewrite Ht.
    destruct (select_safe uniq i (-1)%Q labels votes' HV' HU HL Hi HF)
      as (labels' & votes'' & Hs & HL' & HV'' & HF').
    rewrite Hs. eexists. split; [reflexivity|]. unfold vinv. auto.
  Qed.

  Lemma vote_loop_safe : forall index st, (forall i, In i index -> i < n) -> vinv n m st ->
    exists st', vote_loop repaired_kernel indptr indices data index st = VOk st' /\ vinv n m st'.
  Proof.
    induction index as [|i t IH]; intros st Hidx Hinv; cbn [vote_loop].
    - exists st. auto.
    - destruct (vote_node_safe i st (Hidx i (or_introl eq_refl)) Hinv) as (st' & Hn & Hinv').
      rewrite Hn. apply IH; [exact (In_tail _ _ _ Hidx) | exact Hinv'].
  Qed.
End Vote.

Lemma zmax_ge labels l : In l labels -> (l <= fold_right Z.max (-1)%Z labels)%Z.
Proof.
  induction labels as [|a t IH]; intros H; [destruct H|]. simpl.
  destruct H as [->|H]; [lia|]. specialize (IH H). lia.
Qed.

(** vote_update with [repaired_kernel]: no out-of-bounds access on well-formed input. The contract
    [labels >= -1] of the caller is not needed. There is no while loop in the kernel (three nested
    [for] loops over finite ranges): the model is a structural recursion and needs no fuel. *)
Theorem vote_update_safe_ok n indptr indices (data : list Q) labels index :
  csr_wf n indptr indices data -> length labels = n -> (forall i, In i index -> i < n) ->
  exists labels', vote_update repaired_kernel indptr indices data labels index = VOk labels' /\
                  length labels' = n.
Proof.
  intros Hwf HL Hidx. unfold vote_update.
  destruct (vote_loop_safe n (votes_size repaired_kernel labels) indptr indices data Hwf index
              (labels, repeat 0%Q (votes_size repaired_kernel labels), []) Hidx)
    as ([[labels' votes'] vn'] & Hl & Hinv).
  { unfold vinv. split; [exact HL|]. split; [apply repeat_length|].
    apply Forall_forall. intros l Hl. pose proof (zmax_ge labels l Hl) as Hm.
    unfold votes_size. cbn [vlab repaired_kernel]. lia. }
  rewrite Hl. exists labels'. split; [reflexivity|]. destruct Hinv as (H & _). exact H.
Qed.

(** The legacy kernel (weight read at [data[jj]], jj the neighbour NODE; [votes] sized n) *)
Definition leg1_indptr := [0; 1; 1; 1].
Definition leg1_indices := [2].
Definition leg1_data : list Q := [1%Q].
Definition leg1_labels : list Z := [-1; 0; 1]%Z.
Definition leg1_index := [0].

Definition leg2_indptr := [0; 1; 2].
Definition leg2_indices := [1; 0].
Definition leg2_data : list Q := [1%Q; 1%Q].
Definition leg2_labels : list Z := [-1; 5]%Z.
Definition leg2_index := [0].

Lemma Forall_repeat0 n : Forall (fun v => v < n) (repeat 0 n).
Proof.
  destruct n as [|n]; [constructor|apply Forall_repeat; lia].
Qed.

Lemma hinv_resize n : hinv n (cheap_resize n).
Proof.
  unfold hinv, cheap_resize; cbn [c_val c_pos c_size]. rewrite !repeat_length.
  repeat split; auto using Forall_repeat0. lia.
Qed.

Lemma cparent_lt i : (0 <= cparent i)%Z -> Z.to_nat (cparent i) < i.
Proof. unfold cparent. intros H. Z.div_mod_to_equations. lia. Qed.

(** a heap of storage size n and logical size s *)
Definition hsized (n s : nat) (h : cheap) : Prop := hinv n h /\ c_size h = s.

Section Heap.
  Context (n : nat) (scores : list Z) (Hs : length scores = n).

  Lemma cscore_ok h i : hinv n h -> i < n -> exists s, cscore h scores i = KOk s.
  Proof.
    intros (Hv & _ & _ & HFv & _) Hi. unfold cscore.
    destruct (rd_Forall _ (c_val h) i HFv ltac:(lia)) as (v & Hr & Hvn).
    rewrite Hr. cbn [kbind]. step_rd 0%Z. eexists. reflexivity.
  Qed.

  Lemma cscorez_ok h (p : Z) :
    hinv n h -> (0 <= p)%Z -> Z.to_nat p < n -> exists s, cscorez h scores p = KOk s.
  Proof.
    intros Hh Hp Hpn. unfold cscorez, rdz.
    assert (E : (p <? 0)%Z = false) by (apply Z.ltb_ge; exact Hp). rewrite E.
    exact (cscore_ok h (Z.to_nat p) Hh Hpn).
  Qed.

  Lemma cswap_ok s h x y :
    hsized n s h -> x < n -> y < n -> exists h', cswap h x y = KOk h' /\ hsized n s h'.
  Proof.
    intros [(Hv & Hp & Hsz & HFv & HFp) Es] Hx Hy. unfold cswap.
    destruct (rd_Forall _ (c_val h) x HFv ltac:(lia)) as (tmp & Hr1 & Htmp). rewrite Hr1. cbn [kbind].
    destruct (rd_Forall _ (c_val h) y HFv ltac:(lia)) as (vy & Hr2 & Hvy). rewrite Hr2. cbn [kbind].
    step_wr. step_wr.
    set (val2 := set_nth (set_nth (c_val h) x vy) y tmp).
    assert (HF2 : Forall (fun v => v < n) val2) by (unfold val2; auto using Forall_set_nth).
    assert (HL2 : length val2 = n) by (unfold val2; rewrite !set_nth_length; exact Hv).
    destruct (rd_Forall _ val2 x HF2 ltac:(lia)) as (vx' & Hr3 & Hvx'). rewrite Hr3. cbn [kbind].
    step_wr.
    destruct (rd_Forall _ val2 y HF2 ltac:(lia)) as (vy' & Hr4 & Hvy'). rewrite Hr4. cbn [kbind].
    step_wr.
    eexists. split; [reflexivity|]. split; [|exact Es].
    unfold hinv; cbn [c_val c_pos c_size]. rewrite !set_nth_length.
    repeat split; auto using Forall_set_nth.
  Qed.

  Lemma cinsert_loop_ok s : forall fuel h i, hsized n s h -> i < n -> i <= fuel ->
    exists h', cinsert_loop fuel h scores i (cparent i) = KOk h' /\ hsized n s h'.
  Proof.
    induction fuel as [|f IH]; intros h i Hh Hi Hf; cbn [cinsert_loop];
      (destruct (0 <=? cparent i)%Z eqn:Ep; [|exists h; auto]);
      apply Z.leb_le in Ep; pose proof (cparent_lt i Ep) as Hlt; [lia|].
    destruct (cscorez_ok h (cparent i) (proj1 Hh) Ep ltac:(lia)) as (sp & Hsp). rewrite Hsp. cbn [kbind].
    destruct (cscore_ok h i (proj1 Hh) Hi) as (si & Hsi). rewrite Hsi. cbn [kbind].
    destruct (sp >? si)%Z; [|exists h; auto].
    destruct (cswap_ok s h i (Z.to_nat (cparent i)) Hh Hi ltac:(lia)) as (h1 & Hsw & Hh1).
    rewrite Hsw. cbn [kbind]. apply IH; [exact Hh1|lia|lia].
  Qed.

  Lemma cinsert_key_ok s h k :
    hsized n s h -> s < n -> k < n -> exists h', cinsert_key h k scores = KOk h' /\ hsized n (S s) h'.
  Proof.
    intros [(Hv & Hp & Hsz & HFv & HFp) <-] Hlt Hk. unfold cinsert_key.
    step_wr. step_wr.
    apply cinsert_loop_ok; auto. split; [|reflexivity].
    unfold hinv; cbn [c_val c_pos c_size]. rewrite !set_nth_length.
    repeat split; auto using Forall_set_nth.
  Qed.

  (** The sift-up loop of decrease_key is the one of insert_key: its guard [pos != 0] says [parent >= 0]. *)
  Lemma cdecrease_loop_insert : forall fuel h pos,
    cdecrease_loop fuel h scores pos (cparent pos) = cinsert_loop fuel h scores pos (cparent pos).
  Proof.
    assert (Hg : forall pos, negb (pos =? 0) = (0 <=? cparent pos)%Z).
    { intros pos. unfold cparent. destruct (Nat.eqb_spec pos 0) as [->|Hne]; [reflexivity|].
      symmetry. apply Z.leb_le. Z.div_mod_to_equations. lia. }
    induction fuel as [|f IH]; intros h pos; cbn [cdecrease_loop cinsert_loop]; rewrite Hg; [reflexivity|].
    destruct (cswap h pos (Z.to_nat (cparent pos))) as [h'| |]; cbn [kbind]; try reflexivity.
    rewrite IH. reflexivity.
  Qed.

  Lemma cdecrease_key_ok s h i :
    hsized n s h -> i < n -> exists h', cdecrease_key h i scores = KOk h' /\ hsized n s h'.
  Proof.
    intros Hh Hi. pose proof Hh as [(Hv & Hp & Hsz & HFv & HFp) _]. unfold cdecrease_key.
    destruct (rd_Forall _ (c_pos h) i HFp ltac:(lia)) as (pos & Hr & Hpos). rewrite Hr. cbn [kbind].
    destruct (pos <? c_size h); [|exists h; auto].
    rewrite cdecrease_loop_insert. apply cinsert_loop_ok; auto.
  Qed.

  (** [smallest = child if child < size and score[child] < score[cur] else cur] *)
  Lemma csmaller_ok h child cur : hinv n h -> cur < c_size h ->
    exists sm, (if child <? c_size h
                then do sc <- cscore h scores child ;; do ss <- cscore h scores cur ;;
                     KOk (if (sc <? ss)%Z then child else cur)
                else KOk cur) = KOk sm /\ (sm = cur \/ (sm = child /\ sm < c_size h)).
  Proof.
    intros Hh Hc. pose proof Hh as (_ & _ & Hsz & _).
    destruct (child <? c_size h) eqn:El; [|exists cur; auto]. apply Nat.ltb_lt in El.
    destruct (cscore_ok h child Hh ltac:(lia)) as (sc & Hsc). rewrite Hsc. cbn [kbind].
    destruct (cscore_ok h cur Hh ltac:(lia)) as (ss & Hss). rewrite Hss. cbn [kbind].
    destruct (sc <? ss)%Z; eexists; split; try reflexivity; auto.
  Qed.

  (** min_heapify: the recursion descends ([smallest] is a child of [i] below [size]), so [size - i] units
      of fuel suffice. *)
  Lemma cmin_heapify_ok s : forall fuel h i, hsized n s h -> i < s -> s - i <= fuel ->
    exists h', cmin_heapify fuel h i scores = KOk h' /\ hsized n s h'.
  Proof.
    induction fuel as [|f IH]; intros h i Hh Hi Hf; [lia|].
    pose proof Hh as [Hinv Es]. pose proof Hinv as (_ & _ & Hsz & _). rewrite <- Es in Hi.
    cbn [cmin_heapify]. unfold cleft, cright.
    destruct (csmaller_ok h (2 * i + 1) i Hinv Hi) as (sm1 & E1 & Hsm1). rewrite E1. cbn [kbind].
    destruct (csmaller_ok h (2 * i + 2) sm1 Hinv ltac:(lia)) as (sm2 & E2 & Hsm2). rewrite E2. cbn [kbind].
    destruct (sm2 =? i) eqn:E; cbn [negb]; [exists h; auto|].
    apply Nat.eqb_neq in E.
    destruct (cswap_ok s h i sm2 Hh ltac:(lia) ltac:(lia)) as (h1 & Hsw & Hh1).
    rewrite Hsw. cbn [kbind]. apply IH; [exact Hh1|lia|lia].
  Qed.

  Lemma cpop_min_ok s h :
    hsized n s h -> 1 <= s ->
    exists r h', cpop_min h scores = KOk (r, h') /\ hsized n (s - 1) h' /\ r < n.
  Proof.
    intros [Hh <-] H1. pose proof Hh as (Hv & Hp & Hsz & HFv & HFp). unfold cpop_min.
    destruct (rd_Forall _ (c_val h) 0 HFv ltac:(lia)) as (root & Hr & Hroot).
    destruct (c_size h =? 1) eqn:E1.
    - apply Nat.eqb_eq in E1. rewrite Hr. cbn [kbind]. eexists. eexists. split; [reflexivity|].
      split; [|exact Hroot]. split; [|cbn [c_size]; lia].
      unfold hinv; cbn [c_val c_pos c_size]. repeat split; auto. lia.
    - apply Nat.eqb_neq in E1. rewrite Hr. cbn [kbind].
      destruct (c_size h) as [|s] eqn:Esz; [lia|].
      destruct (rd_Forall _ (c_val h) s HFv ltac:(lia)) as (last & Hr2 & Hlast). rewrite Hr2. cbn [kbind].
      step_wr.
      assert (HF1 : Forall (fun v => v < n) (set_nth (c_val h) 0 last)) by auto using Forall_set_nth.
      destruct (rd_Forall _ _ 0 HF1 ltac:(rewrite set_nth_length; lia)) as (v0 & Hr3 & Hv0).
      rewrite Hr3. cbn [kbind]. step_wr.
      set (h1 := {| c_val := set_nth (c_val h) 0 last; c_pos := set_nth (c_pos h) v0 0;
                    c_size := s; c_cap := c_cap h |}).
      assert (Hh1 : hsized n s h1).
      { split; [|reflexivity]. unfold hinv, h1; cbn [c_val c_pos c_size]. rewrite !set_nth_length.
        repeat split; auto using Forall_set_nth; try lia. apply Forall_set_nth; auto. lia. }
      destruct (cmin_heapify_ok s s h1 0 Hh1 ltac:(lia) ltac:(lia)) as (h2 & Hm & Hh2).
      rewrite Hm. cbn [kbind]. exists root, h2. split; [reflexivity|]. split; [|exact Hroot].
      replace (S s - 1) with s by lia. exact Hh2.
  Qed.
End Heap.

Section Core.
  Context (n : nat) (indptr indices : list nat) (Hwf : csr_pat_wf n indptr indices).

  Lemma ccore_inner_ok s : forall ks degrees mh,
    (forall k, In k ks -> k < length indices) -> length degrees = n -> hsized n s mh ->
    exists degrees' mh', ccore_inner ks indices degrees mh = KOk (degrees', mh') /\
                         length degrees' = n /\ hsized n s mh'.
  Proof.
    induction ks as [|k t IH]; intros degrees mh Hks Hd Hh; cbn [ccore_inner].
    - exists degrees, mh. auto.
    - destruct (csr_rd_indices _ _ _ k Hwf (Hks k (or_introl eq_refl))) as [Hr Hlt].
      rewrite Hr. cbn [kbind]. step_rd 0%Z. step_wr.
      set (degrees1 := set_nth degrees _ _).
      assert (Hd1 : length degrees1 = n) by (unfold degrees1; rewrite set_nth_length; exact Hd).
      destruct (cdecrease_key_ok n degrees1 Hd1 s mh (nth k indices 0) Hh Hlt) as (mh1 & Hdk & Hh1).
      rewrite Hdk. cbn [kbind]. apply IH; [exact (In_tail _ _ _ Hks) | exact Hd1 | exact Hh1].
  Qed.

  Lemma ccore_loop_ok T : forall fuel degrees s mh cv labels pops,
    hsized n s mh -> length degrees = n -> length labels = n -> s <= fuel -> pops + s = T ->
    exists labels', ccore_loop fuel indptr indices degrees mh cv labels pops = KOk (labels', T) /\
                    length labels' = n.
  Proof.
    induction fuel as [|f IH]; intros degrees s mh cv labels pops Hh Hd Hl Hf HT; cbn [ccore_loop];
      pose proof Hh as [_ Es]; rewrite Es;
      (destruct (s =? 0) eqn:E0; [apply Nat.eqb_eq in E0; exists labels; rewrite <- HT, E0, Nat.add_0_r; auto|]);
      apply Nat.eqb_neq in E0; [lia|].
    destruct (cpop_min_ok n degrees Hd s mh Hh ltac:(lia)) as (r & mh1 & Hp & Hh1 & Hr).
    rewrite Hp. cbn [kbind fst snd]. step_rd 0%Z. rewrite (csr_row_rd Hwf Hr).
    destruct (ccore_inner_ok _ _ degrees mh1
                (row_range_lt n _ _ r Hwf Hr) Hd Hh1) as (d' & mh2 & Hi & Hd' & Hh2).
    rewrite Hi. cbn [kbind fst snd]. step_wr.
    apply (IH d' (s - 1)); auto; [rewrite set_nth_length; exact Hl | lia | lia].
  Qed.

  Lemma cinsert_all_ok degrees : length degrees = n ->
    forall keys s mh, hsized n s mh -> (forall k, In k keys -> k < n) -> s + length keys <= n ->
      exists mh', cinsert_all keys mh degrees = KOk mh' /\ hsized n (s + length keys) mh'.
  Proof.
    intros Hd. induction keys as [|k t IH]; intros s mh Hh Hk Hsz; cbn [cinsert_all length].
    - exists mh. rewrite Nat.add_0_r. auto.
    - simpl in Hsz.
      destruct (cinsert_key_ok n degrees Hd s mh k Hh ltac:(lia) (Hk k (or_introl eq_refl))) as (mh1 & Hi & Hh1).
      rewrite Hi. cbn [kbind]. rewrite <- Nat.add_succ_comm.
      apply IH; [exact Hh1 | exact (In_tail _ _ _ Hk) | lia].
  Qed.

  (** compute_core with the repaired MinHeap ([resize(n)]): no access out of bounds, n units of fuel
      suffice, and exactly n pops are performed. *)
  Theorem ccompute_core_ok :
    exists labels, ccompute_core cheap_resize indptr indices = KOk (labels, n) /\ length labels = n.
  Proof.
    pose proof Hwf as (Hlen & _). unfold ccompute_core.
    replace (length indptr - 1) with n by lia.
    set (degrees := map _ (seq 0 n)).
    assert (Hd : length degrees = n) by (unfold degrees; rewrite map_length, seq_length; reflexivity).
    destruct (cinsert_all_ok degrees Hd (seq 0 n) 0 (cheap_resize n) (conj (hinv_resize n) eq_refl))
      as (mh & Ha & Hh & Hsz).
    { intros k Hk. apply in_seq in Hk. lia. }
    { rewrite seq_length. lia. }
    rewrite Ha. cbn [kbind]. rewrite seq_length in Hsz.
    apply (ccore_loop_ok n n degrees n mh); auto using repeat_length. split; assumption.
  Qed.
End Core.

(** * BFS of get_distances: the fuel n + 1 of Model/Bfs.v is never exhausted *)

Theorem bfs_never_out_of_fuel (g : graph) (src : list bool) :
  length src = length g -> bfs g src <> None.
Proof. intros H. destruct (bfs_exact g src H) as (d & Hd & _). rewrite Hd. discriminate. Qed.

Lemma set_mask_length n off idx mask mk : set_mask n off idx mask = Ok mk -> length mk = n.
Proof.
  unfold set_mask. destruct (forallb _ idx); [|discriminate].
  intros H. inversion H. rewrite map_length, seq_length. reflexivity.
Qed.

Lemma set_mask_cases n off idx mask :
  (exists mk, set_mask n off idx mask = Ok mk /\ length mk = n) \/ set_mask n off idx mask = Err IndexError.
Proof.
  unfold set_mask. destruct (forallb _ idx); [left|right; reflexivity].
  eexists. split; [reflexivity|]. rewrite map_length, seq_length. reflexivity.
Qed.

(** get_distances as a whole never reports OutOfFuel, whatever the arguments. *)
Theorem get_distances_never_out_of_fuel m0 source source_row source_col tf fb :
  get_distances m0 source source_row source_col tf fb <> Err Bfs.OutOfFuel.
Proof.
  unfold get_distances.
  set (m := if tf then transpose m0 else m0).
  set (fb' := match source_row, source_col with None, None => fb | _, _ => true end).
  assert (Hfin : forall (bip : bool) g mk, length mk = length g ->
            match bfs g mk with
            | Some dist => if bip then Ok (firstn (p_nrow m) dist, Some (skipn (p_nrow m) dist))
                           else Ok (dist, None)
            | None => Err Bfs.OutOfFuel
            end <> Err Bfs.OutOfFuel).
  { intros bip g mk Hl. pose proof (bfs_never_out_of_fuel g mk Hl) as Hb.
    destruct (bfs g mk); [|congruence]. destruct bip; discriminate. }
  destruct (fb' || negb (p_nrow m =? p_ncol m)); clear fb'.
  - set (g := block_undirected m). pose proof (repeat_length false (length g)) as Hrep.
    destruct source as [s|], source_row as [sr|], source_col as [sc|]; try discriminate;
      repeat match goal with
             | |- context [set_mask ?n ?o ?i ?k] =>
                 destruct (set_mask_cases n o i k) as [(? & -> & ?) | ->]
             end; try discriminate; apply (Hfin true); assumption.
  - set (g := p_rows m).
    destruct source as [s|]; try discriminate.
    destruct (set_mask_cases (length g) 0 s (repeat false (length g))) as [(mk & -> & Hl) | ->];
      [apply (Hfin false); assumption | discriminate].
Qed.

Definition dinv (n : nat) (st : dstate) : Prop :=
  let '(scores, fluid, _) := st in length scores = n /\ length fluid = n.

Section Diteration.
  Context (n : nat) (indptr indices : list nat) (data : list Q) (damping : Q).
  Context (Hwf : csr_wf n indptr indices data).

  Lemma dit_row_ok tmp : forall jjs fluid,
    (forall k, In k jjs -> k < length indices) -> length fluid = n ->
    exists fluid', dit_row jjs indices data fluid tmp = KOk fluid' /\ length fluid' = n.
  Proof.
    destruct Hwf as [Hpat Hd]. induction jjs as [|jj t IH]; intros fluid Hjs Hf; cbn [dit_row].
    - exists fluid. auto.
    - pose proof (Hjs jj (or_introl eq_refl)) as Hjj.
      destruct (csr_rd_indices _ _ _ jj Hpat Hjj) as [Hr Hlt].
      rewrite Hr. cbn [kbind]. step_rd 0%Q. step_rd 0%Q. step_wr.
      apply IH; [exact (In_tail _ _ _ Hjs)|]. rewrite set_nth_length. exact Hf.
  Qed.

  Lemma dit_node_ok i st : i < n -> dinv n st ->
    exists st', dit_node indptr indices data damping i st = KOk st' /\ dinv n st'.
  Proof.
    intros Hi Hinv. pose proof Hwf as [Hpat Hd].
    destruct st as [[scores fluid] residu]. destruct Hinv as [Hs Hf].
    unfold dit_node.
    step_rd 0%Q.
    destruct (Qlt_le_dec 0 (nth i fluid 0%Q)); [|eexists; split; [reflexivity|split; assumption]].
    step_rd 0%Q. step_wr. step_wr. rewrite (csr_row_rd Hpat Hi).
    destruct (negb (ip indptr (S i) =? ip indptr i)).
    - destruct (dit_row_ok (nth i fluid 0%Q * damping)%Q _ (set_nth fluid i 0%Q)
                  (row_range_lt n _ _ i Hpat Hi)) as (fluid2 & Hr & Hl2).
      { rewrite set_nth_length. exact Hf. }
      rewrite Hr. cbn [kbind]. eexists. split; [reflexivity|].
      split; [rewrite set_nth_length; exact Hs | exact Hl2].
    - eexists. split; [reflexivity|]. split; rewrite set_nth_length; assumption.
  Qed.

  Lemma dit_iter_ok tol T : forall k st sweeps, dinv n st -> sweeps + k <= T ->
    exists st' s, dit_iter k n indptr indices data damping tol st sweeps = KOk (st', s) /\
                  dinv n st' /\ s <= T.
  Proof.
    induction k as [|k IH]; intros st sweeps Hinv HT; cbn [dit_iter].
    - exists st, sweeps. split; [reflexivity|]. split; [exact Hinv|lia].
    - destruct (for_inv (dit_node indptr indices data damping)
                  (fun nodes st => dit_sweep nodes indptr indices data damping st) (fun i => i < n) (dinv n)
                  (fun _ => eq_refl) (fun _ _ _ => eq_refl) dit_node_ok (seq 0 n) st) as (st1 & H1 & Hinv1); auto.
      { intros i Hi. apply in_seq in Hi. lia. }
      rewrite H1. cbn [kbind]. destruct st1 as [[sc fl] residu].
      destruct (Qlt_le_dec residu (tol * (1 - damping))%Q); [|apply IH; [exact Hinv1|lia]].
      eexists. eexists. split; [reflexivity|]. split; [exact Hinv1|lia].
  Qed.
End Diteration.

(** diffusion (D-iteration): no access out of bounds; the outer loop runs at most n_iter sweeps
    (it is a [for] over range(n_iter): structural, no fuel). *)
Theorem diteration_ok n indptr indices (data scores fluid : list Q) damping n_iter tol :
  csr_wf n indptr indices data -> length scores = n -> length fluid = n ->
  exists st s, diteration indptr indices data scores fluid damping n_iter tol = KOk (st, s) /\
               s <= n_iter.
Proof.
  intros Hwf Hs Hf. unfold diteration. rewrite Hf.
  destruct (dit_iter_ok n indptr indices data damping Hwf tol n_iter n_iter
              (scores, fluid, (1 - damping)%Q) 0 (conj Hs Hf) (le_n _)) as (st & s & Hi & _ & Hle).
  exists st, s. auto.
Qed.

(** push_pagerank. The first loop keeps every entrywise property [P] of the residuals that its two updates
    keep: [fun _ => True] when only the accesses matter, non-negativity for the termination argument. *)
Section PushInit.
  Context (P Ps : Q -> Prop) (n : nat) (rev_indptr rev_indices degrees : list nat) (seeds : list Q) (damping : Q).
  Context (Hwf : csr_pat_wf n rev_indptr rev_indices) (Hdg : length degrees = n).
  Context (Hsd : length seeds = n) (Hseeds : Forall Ps seeds).
  Context (Hadd : forall r dg, P r -> P (r + / inject_Z (Z.of_nat dg))%Q).
  Context (Hmul : forall r s, P r -> Ps s -> P (r * ((1 - damping) * damping * (1 + s)))%Q).

  Lemma push_init_row_ok vertex : vertex < n ->
    forall js residuals, (forall k, In k js -> k < length rev_indices) ->
      length residuals = n -> Forall P residuals ->
      exists r, push_init_row js rev_indices degrees residuals vertex = KOk r /\ length r = n /\ Forall P r.
  Proof.
    intros Hv. induction js as [|j t IH]; intros residuals Hjs Hr HP; cbn [push_init_row].
    - exists residuals. auto.
    - destruct (csr_rd_indices _ _ _ j Hwf (Hjs j (or_introl eq_refl))) as [Hrd Hlt].
      rewrite Hrd. cbn [kbind]. step_rd 0. step_rd 0%Q. step_wr.
      apply IH; [exact (In_tail _ _ _ Hjs) | rewrite set_nth_length; exact Hr |].
      apply Forall_set_nth; [exact HP|]. apply Hadd, Forall_nth_lt; [exact HP|lia].
  Qed.

  Lemma push_init_ok : forall vs residuals,
    (forall v, In v vs -> v < n) -> length residuals = n -> Forall P residuals ->
    exists r, push_init vs rev_indptr rev_indices degrees seeds damping residuals = KOk r /\
              length r = n /\ Forall P r.
  Proof.
    induction vs as [|v t IH]; intros residuals Hvs Hr HP; cbn [push_init].
    - exists residuals. auto.
    - assert (Hv : v < n) by (apply Hvs; left; reflexivity).
      rewrite (csr_row_rd Hwf Hv).
      destruct (push_init_row_ok v Hv _
                  residuals (row_range_lt n _ _ v Hwf Hv) Hr HP) as (res1 & H1 & Hl1 & HP1).
      rewrite H1. cbn [kbind]. step_rd 0%Q. step_rd 0%Q. step_wr.
      apply IH; [exact (In_tail _ _ _ Hvs) | rewrite set_nth_length; exact Hl1 |].
      apply Forall_set_nth; [exact HP1|]. apply Hmul; apply Forall_nth_lt; auto; lia.
  Qed.
End PushInit.

Section Push.
  Context (n : nat) (indptr indices degrees : list nat) (damping tol : Q).
  Context (Hwf : csr_pat_wf n indptr indices) (Hdg : length degrees = n).

  Lemma push_row_ok vertex : vertex < n ->
    forall js residuals worklist,
      (forall k, In k js -> k < length indices) -> length residuals = n ->
      Forall (fun v => v < n) worklist ->
      exists r w, push_row js indices degrees damping tol vertex residuals worklist = KOk (r, w) /\
                  length r = n /\ Forall (fun v => v < n) w.
  Proof.
    intros Hv. induction js as [|j t IH]; intros residuals worklist Hjs Hr Hw; cbn [push_row].
    - exists residuals, worklist. auto.
    - destruct (csr_rd_indices _ _ _ j Hwf (Hjs j (or_introl eq_refl))) as [Hrd Hlt].
      rewrite Hrd. cbn [kbind].
      step_rd 0%Q. step_rd 0%Q. step_rd 0. step_wr. step_rd 0%Q.
      apply IH.
      + exact (In_tail _ _ _ Hjs).
      + rewrite set_nth_length. exact Hr.
      + destruct (Qlt_le_dec tol _); [|exact Hw].
        destruct (Qlt_le_dec _ tol); [|exact Hw]. apply Forall_app_one; assumption.
  Qed.

  Lemma push_loop_safe : forall fuel scores residuals worklist,
    length scores = n -> length residuals = n -> Forall (fun v => v < n) worklist ->
    push_loop fuel indptr indices degrees damping tol scores residuals worklist <> OOB.
  Proof.
    induction fuel as [|f IH]; intros scores residuals worklist Hs Hr Hw;
      destruct worklist as [|v rest]; cbn [push_loop]; try discriminate.
    apply Forall_cons_iff in Hw. destruct Hw as [Hv Hrest].
    step_rd 0%Q. step_rd 0%Q. step_wr. rewrite (csr_row_rd Hwf Hv).
    destruct (push_row_ok v Hv _ residuals rest
                (row_range_lt n _ _ v Hwf Hv) Hr Hrest) as (r & w & H1 & Hl1 & Hw1).
    rewrite H1. cbn [kbind fst snd]. apply IH; auto. rewrite set_nth_length. exact Hs.
  Qed.
End Push.

(** * The driver loop of Propagation.fit *)

(** With a finite n_iter the loop runs at most n_iter sweeps: fuel n_iter - t suffices, for ANY sweep
    function that is safe on the labellings satisfying an invariant [I]. *)
Lemma prop_loop_finite (I : list Z -> Prop) S_ idx m :
  (forall l, I l -> exists l', S_ l = VOk l' /\ I l') ->
  forall fuel t lr labels, I labels -> t <= m -> m - t <= fuel ->
    exists l' t', prop_loop fuel (Some m) S_ idx t lr labels = KOk (l', t') /\ t' <= m.
Proof.
  intros HS. induction fuel as [|f IH]; intros t lr labels HI Ht Hf; cbn [prop_loop].
  - assert (E : t <? m = false) by (apply Nat.ltb_ge; lia). rewrite E. cbn [andb]. eauto.
  - destruct (t <? m) eqn:E; cbn [andb]; [|eauto].
    apply Nat.ltb_lt in E.
    destruct (negb (zlist_eqb lr (take labels idx))); [|eauto].
    destruct (HS labels HI) as (l' & Hl' & HI'). rewrite Hl'. apply IH; [exact HI'|lia|lia].
Qed.

(** Without n_iter the loop goes on as long as the sweep changes the labels of the free nodes: between two
    labellings that the sweep exchanges it never ends. *)
Lemma prop_loop_moves S_ idx a b lr :
  S_ a = VOk b -> zlist_eqb lr (take a idx) = false ->
  forall fuel t, prop_loop fuel None S_ idx t lr a =
                 match fuel with O => OutOfFuel | S f => prop_loop f None S_ idx (S t) (take a idx) b end.
Proof. intros HS E [|f] t; cbn [prop_loop]; rewrite E, ?HS; reflexivity. Qed.

Lemma prop_loop_two_cycle S_ idx a b :
  S_ a = VOk b -> S_ b = VOk a ->
  zlist_eqb (take b idx) (take a idx) = false -> zlist_eqb (take a idx) (take b idx) = false ->
  forall fuel t, prop_loop fuel None S_ idx t (take b idx) a = OutOfFuel /\
                 prop_loop fuel None S_ idx t (take a idx) b = OutOfFuel.
Proof.
  intros Hab Hba E1 E2. induction fuel as [|f IH]; intros t;
    (split; [rewrite (prop_loop_moves _ _ a b _ Hab E1) | rewrite (prop_loop_moves _ _ b a _ Hba E2)]);
    try reflexivity; apply IH.
Qed.

(** Oscillation witness (found by search with the real implementation, see the report):
    5 nodes, seeds {0: 0, 1: 1}, directed weighted edges
      2 -> 0 (1), 2 -> 3 (3), 3 -> 1 (1), 3 -> 4 (3), 4 -> 0 (1), 4 -> 2 (3). *)
Definition osc_indptr := [0; 0; 0; 2; 4; 6].
Definition osc_indices := [0; 3; 1; 4; 0; 2].
Definition osc_data : list Q := [1; 3; 1; 3; 1; 3]%Q.
Definition osc_labels0 : list Z := [0; 1; -1; -1; -1]%Z.
Definition osc_index := [2; 3; 4].
Definition osc_l1 : list Z := [0; 1; 0; 1; 0]%Z.
Definition osc_l2 : list Z := [0; 1; 1; 0; 1]%Z.
Definition osc_S := sweep osc_indptr osc_indices osc_data osc_index.

Lemma osc_S0 : osc_S osc_labels0 = VOk osc_l1. Proof. vm_compute. reflexivity. Qed.
Lemma osc_S1 : osc_S osc_l1 = VOk osc_l2. Proof. vm_compute. reflexivity. Qed.
Lemma osc_S2 : osc_S osc_l2 = VOk osc_l1. Proof. vm_compute. reflexivity. Qed.

Lemma kok_not_oob {A} (x : kres A) : (exists r, x = KOk r) -> x <> OOB.
Proof. intros [r ->]. discriminate. Qed.
Lemma kok_not_fuel {A} (x : kres A) : (exists r, x = KOk r) -> x <> OutOfFuel.
Proof. intros [r ->]. discriminate. Qed.

(** * optimize_core (Louvain) *)

Definition linv (n : nat) (st : lstate) : Prop :=
  length (l_labels st) = n /\ Forall (fun l => l < n) (l_labels st) /\
  length (l_ocw st) = n /\ length (l_icw st) = n /\ length (l_cw st) = n.

Lemma lv_gather_ok n indptr indices (data : list Q) labels :
  csr_wf n indptr indices data -> length labels = n -> Forall (fun l => l < n) labels ->
  forall js lset cw, (forall k, In k js -> k < length indices) ->
    Forall (fun l => l < n) lset -> length cw = n ->
    exists lset' cw', lv_gather js indices data labels lset cw = KOk (lset', cw') /\
                      Forall (fun l => l < n) lset' /\ length cw' = n.
Proof.
  intros [Hwf Hd] Hl HF. induction js as [|j t IH]; intros lset cw Hjs Hls Hcw; cbn [lv_gather].
  - exists lset, cw. auto.
  - assert (Hj : j < length indices) by (apply Hjs; left; reflexivity).
    destruct (csr_rd_indices _ _ _ j Hwf Hj) as [Hr Hlt]. rewrite Hr. cbn [kbind].
    destruct (rd_Forall _ labels (nth j indices 0) HF ltac:(lia)) as (lt & Hr2 & Hlt2).
    rewrite Hr2. cbn [kbind].
    step_rd 0%Q. step_rd 0%Q. step_wr.
    apply IH.
    + exact (In_tail _ _ _ Hjs).
    + apply Forall_set_insert; assumption.
    + rewrite set_nth_length. exact Hcw.
Qed.

Lemma lv_select_ok n res ow iw delta icw ocw :
  length icw = n -> length ocw = n ->
  forall ls cw dbest lbest, Forall (fun l => l < n) ls -> length cw = n -> lbest < n ->
    exists db lb cw', lv_select ls res ow iw delta icw ocw cw dbest lbest = KOk (db, lb, cw') /\
                      lb < n /\ length cw' = n.
Proof.
  intros Hi Ho. induction ls as [|lt t IH]; intros cw dbest lbest Hls Hcw Hlb; cbn [lv_select].
  - exists dbest, lbest, cw. auto.
  - apply Forall_cons_iff in Hls. destruct Hls as [Hlt Hls].
    step_rd 0%Q. step_rd 0%Q. step_rd 0%Q. step_wr.
    destruct (Qlt_le_dec dbest _); apply IH; auto; rewrite set_nth_length; exact Hcw.
Qed.

Lemma Forall_remove n x (l : list nat) :
  Forall (fun u => u < n) l -> Forall (fun u => u < n) (remove Nat.eq_dec x l).
Proof.
  apply incl_Forall. intros u Hu. apply in_remove in Hu. exact (proj1 Hu).
Qed.

Section Louvain.
  Context (n : nat) (indptr indices : list nat) (data ow_ iw_ sl_ : list Q) (res : Q).
  Context (Hwf : csr_wf n indptr indices data).
  Context (How : length ow_ = n) (Hiw : length iw_ = n) (Hsl : length sl_ = n).

  Lemma lv_node_ok i st : i < n -> linv n st ->
    exists st', lv_node indptr indices data ow_ iw_ sl_ res i st = KOk st' /\ linv n st'.
  Proof.
    intros Hi (HL & HF & HO & HI & HC). pose proof Hwf as [Hpat Hd].
    unfold lv_node.
    destruct (rd_Forall _ (l_labels st) i HF ltac:(lia)) as (label & Hr & Hlab). rewrite Hr. cbn [kbind].
    rewrite (csr_row_rd Hpat Hi).
    destruct (lv_gather_ok n indptr indices data (l_labels st) Hwf HL HF
                _ [] (l_cw st) (row_range_lt n _ _ i Hpat Hi) (Forall_nil _) HC) as (lset0 & cw1 & Hg & Hls0 & Hcw1).
    rewrite Hg. cbn [kbind fst snd].
    pose proof (Forall_remove n label lset0 Hls0) as Hls.
    match goal with |- exists st', (do st1 <- ?X ;; _) = _ /\ _ =>
      assert (H1 : exists st1, X = KOk st1 /\ linv n st1) end.
    { destruct (remove Nat.eq_dec label lset0) as [|l0 lrest] eqn:Erm.
      - eexists. split; [reflexivity|]. unfold linv; cbn [l_labels l_ocw l_icw l_cw]. auto.
      - do 6 step_rd 0%Q.
        match goal with |- context [lv_select ?ls ?r ?o ?w ?d ?ic ?oc ?c ?db ?lb] =>
          destruct (lv_select_ok n r o w d ic oc HI HO ls c db lb Hls Hcw1 Hlab)
            as (db' & lb' & cw2 & Hs & Hlb' & Hcw2) end.
        rewrite Hs. cbn [kbind fst snd].
        destruct (negb (lb' =? label)).
        + repeat first [step_rd 0%Q | step_wr].
          eexists. split; [reflexivity|]. unfold linv; cbn [l_labels l_ocw l_icw l_cw].
          rewrite !set_nth_length. repeat split; auto. apply Forall_set_nth; auto.
        + eexists. split; [reflexivity|]. unfold linv; cbn [l_labels l_ocw l_icw l_cw]. auto. }
    destruct H1 as (st1 & E1 & (HL1 & HF1 & HO1 & HI1 & HC1)). rewrite E1. cbn [kbind].
    step_wr. eexists. split; [reflexivity|]. unfold linv; cbn [l_labels l_ocw l_icw l_cw].
    rewrite set_nth_length. auto.
  Qed.

  Lemma lv_loop_safe tol : forall fuel st increase passes, linv n st ->
    lv_loop fuel n indptr indices data ow_ iw_ sl_ res tol st increase passes <> OOB.
  Proof.
    induction fuel as [|f IH]; intros st increase passes Hinv; cbn [lv_loop]; [discriminate|].
    destruct (for_inv (lv_node indptr indices data ow_ iw_ sl_ res)
                (fun nodes st => lv_pass nodes indptr indices data ow_ iw_ sl_ res st) (fun i => i < n) (linv n)
                (fun _ => eq_refl) (fun _ _ _ => eq_refl) lv_node_ok (seq 0 n)
                {| l_labels := l_labels st; l_ocw := l_ocw st; l_icw := l_icw st; l_cw := l_cw st;
                   l_inc := 0%Q |}) as (st' & H1 & Hinv').
    { intros i Hi. apply in_seq in Hi. lia. }
    { exact Hinv. }
    rewrite H1. cbn [kbind]. destruct (Qlt_le_dec tol (l_inc st')); [apply IH; exact Hinv'|discriminate].
  Qed.
End Louvain.

