(** C16 — fit history: soundness of the stale-read / stale-output analysis: noninterference
    ([fit_noninterference]), refit = fresh fit ([refit_equals_fresh_fit]), and the frame lemmas behind
    C16.fit_leaves_the_rest. *)
From Coq Require Import List Bool Arith ZArith String.
From SKN Require Import Model.FitState.
Import ListNotations.
Open Scope string_scope.
Open Scope list_scope.

Lemma mem_In (a : attr) (l : list attr) : mem a l = true <-> In a l.
Proof.
  unfold mem. rewrite existsb_exists. split.
  - intros [b [Hin Heq]]. apply String.eqb_eq in Heq. subst b. exact Hin.
  - intros Hin. exists a. split; [exact Hin | apply String.eqb_refl].
Qed.

Lemma inter_In (a : attr) (l1 l2 : list attr) : In a (inter l1 l2) <-> In a l1 /\ In a l2.
Proof.
  unfold inter. rewrite filter_In. rewrite mem_In. tauto.
Qed.

Lemma upd_same (s : store) (a : attr) (v : option val) : upd s a v a = v.
Proof. unfold upd. rewrite String.eqb_refl. reflexivity. Qed.

Lemma upd_other (s : store) (a b : attr) (v : option val) : b <> a -> upd s a v b = s b.
Proof.
  intros Hne. unfold upd. destruct (String.eqb b a) eqn:E; [|reflexivity].
  apply String.eqb_eq in E. contradiction.
Qed.

Lemma agree_upd (A D : list attr) (s1 s2 : store) (a : attr) (v : option val) :
  agree (A ++ D) s1 s2 -> agree (A ++ a :: D) (upd s1 a v) (upd s2 a v).
Proof.
  intros Hag b Hb. unfold upd. destruct (String.eqb b a) eqn:E; [reflexivity|].
  apply Hag. apply in_app_or in Hb. apply in_or_app. destruct Hb as [Hb | [Hb | Hb]].
  - left. exact Hb.
  - subst b. rewrite String.eqb_refl in E. discriminate.
  - right. exact Hb.
Qed.

Lemma agree_sub (A B : list attr) (s1 s2 : store) :
  (forall a, In a B -> In a A) -> agree A s1 s2 -> agree B s1 s2.
Proof. intros Hsub Hag a Ha. apply Hag. apply Hsub. exact Ha. Qed.

Lemma agree_app_sub (A D D' : list attr) (s1 s2 : store) :
  (forall a, In a D' -> In a D) -> agree (A ++ D) s1 s2 -> agree (A ++ D') s1 s2.
Proof.
  intros Hsub. apply agree_sub. intros a Ha. apply in_app_or in Ha. apply in_or_app.
  destruct Ha as [Ha | Ha]; [left; exact Ha | right; apply Hsub; exact Ha].
Qed.

(** * The analysis only ever adds to the definitely-written set *)
Lemma ana_mono (p : prog) : forall D a, In a D -> In a (snd (ana p D)).
Proof.
  induction p as [| b k IHk | b f k IHk | c p1 IH1 p2 IH2 k IHk | n body IHb k IHk]; intros D a Ha; cbn [ana snd fst].
  - exact Ha.
  - apply IHk. exact Ha.
  - apply IHk. right. exact Ha.
  - apply IHk. apply inter_In. split; [apply IH1 | apply IH2]; exact Ha.
  - apply IHk. exact Ha.
Qed.

Lemma iter_ni (F : env * store -> env * store) (A : list attr) :
  (forall e s1 s2, agree A s1 s2 ->
     fst (F (e, s1)) = fst (F (e, s2)) /\ agree A (snd (F (e, s1))) (snd (F (e, s2)))) ->
  forall n e s1 s2, agree A s1 s2 ->
    fst (iter n F (e, s1)) = fst (iter n F (e, s2)) /\ agree A (snd (iter n F (e, s1))) (snd (iter n F (e, s2))).
Proof.
  intros HF n. induction n as [| n IHn]; intros e s1 s2 Hag; cbn [iter].
  - split; [reflexivity | exact Hag].
  - destruct (HF e s1 s2 Hag) as [He Hs].
    destruct (F (e, s1)) as [e1 t1] eqn:E1. destruct (F (e, s2)) as [e2 t2] eqn:E2.
    cbn [fst snd] in He, Hs. subst e2. apply IHn. exact Hs.
Qed.

Lemma exec_ni (config : list attr) (x : input) (p : prog) :
  forall D e s1 s2,
    incl (fst (ana p D)) config ->
    agree (config ++ D) s1 s2 ->
    fst (exec p x e s1) = fst (exec p x e s2) /\
    agree (config ++ snd (ana p D)) (snd (exec p x e s1)) (snd (exec p x e s2)).
Proof.
  induction p as [| b k IHk | b f k IHk | c p1 IH1 p2 IH2 k IHk | n body IHb k IHk];
    intros D e s1 s2 Hst Hag; cbn [exec ana fst snd] in *.
  - split; [reflexivity | exact Hag].
  - (* Read: the attribute is definitely written, or a stale read and so a parameter *)
    apply incl_app_inv in Hst. destruct Hst as [Hb Hk].
    assert (Eb : s1 b = s2 b).
    { apply Hag. apply in_or_app. destruct (mem b D) eqn:Em.
      - right. apply mem_In. exact Em.
      - left. apply Hb. left. reflexivity. }
    rewrite Eb. apply IHk; assumption.
  - (* Write *)
    apply IHk; [exact Hst | apply agree_upd; exact Hag].
  - (* If *)
    apply incl_app_inv in Hst. destruct Hst as [H1 Hst].
    apply incl_app_inv in Hst. destruct Hst as [H2 Hk].
    destruct (c e x).
    + destruct (IH1 D e s1 s2 H1 Hag) as [He Hs]. rewrite He. apply IHk; [exact Hk|].
      eapply agree_app_sub; [|exact Hs]. intros a Ha. apply inter_In in Ha. exact (proj1 Ha).
    + destruct (IH2 D e s1 s2 H2 Hag) as [He Hs]. rewrite He. apply IHk; [exact Hk|].
      eapply agree_app_sub; [|exact Hs]. intros a Ha. apply inter_In in Ha. exact (proj2 Ha).
  - (* Repeat: the body keeps agreement on [config ++ D], whatever it adds to [D] is forgotten *)
    apply incl_app_inv in Hst. destruct Hst as [Hb Hk].
    set (F := fun es : env * store => exec body x (fst es) (snd es)).
    assert (HF : forall e0 t1 t2, agree (config ++ D) t1 t2 ->
               fst (F (e0, t1)) = fst (F (e0, t2)) /\ agree (config ++ D) (snd (F (e0, t1))) (snd (F (e0, t2)))).
    { intros e0 t1 t2 Ht. unfold F. cbn [fst snd].
      destruct (IHb D e0 t1 t2 Hb Ht) as [He Hs]. split; [exact He|].
      eapply agree_app_sub; [|exact Hs]. apply ana_mono. }
    destruct (iter_ni F (config ++ D) HF (n e x) e s1 s2 Hag) as [He Hs].
    rewrite He. apply IHk; assumption.
Qed.

(** Whatever the two estimators looked like before — any two fit / set_params histories that end with the same
    constructor parameters — if every stale read of [fit] is a constructor parameter, the two estimators agree after
    [fit x] on the parameters and on everything [fit] definitely writes. *)
Theorem fit_noninterference (config : list attr) (p : prog) :
  (forall a, In a (stale_reads_of p) -> In a config) ->
  forall (s1 s2 : store) (x : input),
    agree config s1 s2 ->
    agree (config ++ definite_of p) (fit p s1 x) (fit p s2 x).
Proof.
  intros Hst s1 s2 x Hag. unfold fit, definite_of.
  apply (exec_ni config x p [] [] s1 s2).
  - exact Hst.
  - rewrite app_nil_r. exact Hag.
Qed.

(** * Frame lemmas: attributes that the program never writes are unchanged by [fit] (stated in Props/C16.v) *)
Lemma iter_frame (F : env * store -> env * store) (a : attr) :
  (forall e s, snd (F (e, s)) a = s a) ->
  forall n e s, snd (iter n F (e, s)) a = s a.
Proof.
  intros HF n. induction n as [| n IHn]; intros e s; cbn [iter].
  - reflexivity.
  - destruct (F (e, s)) as [e1 t1] eqn:E1. rewrite IHn. specialize (HF e s). rewrite E1 in HF. exact HF.
Qed.

Lemma not_in_app (a : attr) (l1 l2 : list attr) : ~ In a (l1 ++ l2) -> ~ In a l1 /\ ~ In a l2.
Proof. intros H. split; intros Hin; apply H; apply in_or_app; [left | right]; exact Hin. Qed.

Lemma exec_frame (x : input) (a : attr) (p : prog) :
  ~ In a (writes_of p) -> forall e s, snd (exec p x e s) a = s a.
Proof.
  induction p as [| b k IHk | b f k IHk | c p1 IH1 p2 IH2 k IHk | n body IHb k IHk];
    intros Hn e s; cbn [exec writes_of fst snd] in *.
  - reflexivity.
  - apply IHk. exact Hn.
  - apply not_in_cons in Hn. destruct Hn as [Hab Hk].
    rewrite IHk by exact Hk. apply upd_other. exact Hab.
  - apply not_in_app in Hn. destruct Hn as [H1 Hn]. apply not_in_app in Hn. destruct Hn as [H2 Hk].
    rewrite IHk by exact Hk. destruct (c e x); [apply IH1; exact H1 | apply IH2; exact H2].
  - apply not_in_app in Hn. destruct Hn as [Hb Hk]. rewrite IHk by exact Hk.
    apply (iter_frame (fun es => exec body x (fst es) (snd es)) a).
    intros e0 s0. cbn [fst snd]. apply IHb. exact Hb.
Qed.

Lemma history_keeps_config (config : list attr) (p : prog) :
  (forall a, In a (writes_of p) -> ~ In a config) ->
  forall xs s0, agree config (after_history p s0 xs) s0.
Proof.
  intros Hw xs. induction xs as [| x0 xs IH]; intros s0; unfold after_history in *; cbn [fold_left].
  - intros a Ha. reflexivity.
  - intros a Ha. rewrite (IH (fit p s0 x0) a Ha). unfold fit. apply exec_frame.
    intros Hin. exact (Hw a Hin Ha).
Qed.

(** Refit = fresh fit: no stale read outside the constructor parameters, no write of a constructor parameter. Then after
    ANY sequence of earlier fits the estimator fitted on [x] agrees with the freshly constructed estimator fitted on [x]
    on the parameters and on every attribute [fit] definitely writes. *)
Theorem refit_equals_fresh_fit (config : list attr) (p : prog) :
  (forall a, In a (stale_reads_of p) -> In a config) ->
  (forall a, In a (writes_of p) -> ~ In a config) ->
  forall (s0 : store) (history : list input) (x : input),
    agree (config ++ definite_of p) (fit p (after_history p s0 history) x) (fit p s0 x).
Proof.
  intros Hst Hw s0 history x. apply fit_noninterference.
  - exact Hst.
  - apply history_keeps_config. exact Hw.
Qed.

Lemma unwritten_nil_definite (p : prog) :
  unwritten_of p = [] -> forall a, In a (writes_of p) -> In a (definite_of p).
Proof.
  intros Hu a Ha. destruct (mem a (definite_of p)) eqn:Em.
  - apply mem_In. exact Em.
  - assert (Hin : In a (unwritten_of p)).
    { unfold unwritten_of. apply filter_In. split; [exact Ha|]. rewrite Em. reflexivity. }
    rewrite Hu in Hin. destruct Hin.
Qed.

(** If moreover there is no stale output, the two estimators agree on every attribute that any run of [fit] can write. *)
Theorem refit_equals_fresh_fit_all_outputs (config : list attr) (p : prog) :
  (forall a, In a (stale_reads_of p) -> In a config) ->
  (forall a, In a (writes_of p) -> ~ In a config) ->
  unwritten_of p = [] ->
  forall (s0 : store) (history : list input) (x : input),
    agree (config ++ writes_of p) (fit p (after_history p s0 history) x) (fit p s0 x).
Proof.
  intros Hst Hw Hu s0 history x.
  eapply agree_app_sub; [| apply (refit_equals_fresh_fit config p Hst Hw s0 history x)].
  apply unwritten_nil_definite. exact Hu.
Qed.

(** Boolean form of the hypotheses (what the check evaluates). *)
Lemma history_safe_spec (config : list attr) (p : prog) :
  history_safe config p = true ->
  (forall a, In a (stale_reads_of p) -> In a config) /\ (forall a, In a (writes_of p) -> ~ In a config).
Proof.
  unfold history_safe. intros H. apply andb_true_iff in H. destruct H as [H1 H2].
  rewrite forallb_forall in H1, H2. split.
  - intros a Ha. apply mem_In. apply H1. exact Ha.
  - intros a Ha Hc. specialize (H2 a Ha). apply mem_In in Hc. rewrite Hc in H2. discriminate.
Qed.

Theorem history_safe_refit (config : list attr) (p : prog) :
  history_safe config p = true -> unwritten_of p = [] ->
  forall (s0 : store) (history : list input) (x : input),
    agree (config ++ writes_of p) (fit p (after_history p s0 history) x) (fit p s0 x).
Proof.
  intros H Hu. destruct (history_safe_spec config p H) as [Hst Hw].
  apply refit_equals_fresh_fit_all_outputs; assumption.
Qed.
