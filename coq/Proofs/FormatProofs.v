(** Proofs about Model/Format.v: container conversion (C01), permutation action (C02),
    bipartite block construction, seed stacking and result splitting (C03). *)
From SKN Require Import Base.Util Model.Bfs Model.Format Proofs.BfsProofs.
From Coq Require Import Permutation Sorted QArith Lqa Setoid Morphisms.
Close Scope Q_scope.
Open Scope nat_scope.

Lemma sumq_app' (u v : list Q) : (sumq (u ++ v) == sumq u + sumq v)%Q.
Proof. apply sumq_app. Qed.

Lemma nth_repeat_nil {A} (n k : nat) : nth k (repeat (@nil A) n) [] = [].
Proof. revert k; induction n as [|n IH]; intros [|k]; simpl; auto. Qed.

Lemma existsb_ext' {A} (f g : A -> bool) (l : list A) :
  (forall x, f x = g x) -> existsb f l = existsb g l.
Proof. intros H. induction l as [|a t IH]; simpl; [reflexivity|]. rewrite H, IH. reflexivity. Qed.

Lemma forallb_map {A B} (f : B -> bool) (h : A -> B) (l : list A) :
  forallb f (map h l) = forallb (fun a => f (h a)) l.
Proof. induction l as [|a l IH]; [reflexivity|]. cbn [map forallb]. rewrite IH. reflexivity. Qed.

Lemma Qeq_bool_refl (x : Q) : Qeq_bool x x = true.
Proof. apply Qeq_bool_iff. reflexivity. Qed.

Lemma qnz_true (v : Q) : qnz v = true <-> ~ (v == 0)%Q.
Proof.
  unfold qnz. rewrite negb_true_iff. split.
  - intros H E. apply Qeq_bool_iff in E. rewrite E in H. discriminate.
  - intros H. destruct (Qeq_bool v 0) eqn:E; auto. exfalso. apply H. apply Qeq_bool_iff. exact E.
Qed.

Lemma qnz_false (v : Q) : qnz v = false <-> (v == 0)%Q.
Proof.
  unfold qnz. rewrite negb_false_iff. apply Qeq_bool_iff.
Qed.

Lemma entry_row_cons (e : nat * Q) (r : wrow) (j : nat) :
  entry_row (e :: r) j = if Nat.eqb (fst e) j then (snd e + entry_row r j)%Q else entry_row r j.
Proof. unfold entry_row. simpl. destruct (Nat.eqb (fst e) j); reflexivity. Qed.

Lemma entry_row_app (a b : wrow) (j : nat) :
  (entry_row (a ++ b) j == entry_row a j + entry_row b j)%Q.
Proof. unfold entry_row. rewrite filter_app, map_app. apply sumq_app'. Qed.

Lemma entry_row_notin (r : wrow) (j : nat) : ~ In j (map fst r) -> entry_row r j = 0%Q.
Proof.
  intros H. unfold entry_row. rewrite filter_none; [reflexivity|].
  intros e He. apply Nat.eqb_neq. intros E. apply H. rewrite <- E. apply in_map. exact He.
Qed.

Lemma entry_row_filter_nz (r : wrow) (j : nat) :
  (entry_row (filter (fun e : nat * Q => qnz (snd e)) r) j == entry_row r j)%Q.
Proof.
  induction r as [|e r IH]; [reflexivity|].
  simpl filter. destruct (qnz (snd e)) eqn:E.
  - rewrite !entry_row_cons. destruct (Nat.eqb (fst e) j); [rewrite IH; reflexivity|exact IH].
  - rewrite entry_row_cons. apply qnz_false in E.
    destruct (Nat.eqb (fst e) j); [rewrite IH, E; ring|exact IH].
Qed.

Lemma entry_overflow (rows : wrows) (i j : nat) : length rows <= i -> entry rows i j = 0%Q.
Proof. intros H. unfold entry. rewrite nth_overflow by exact H. reflexivity. Qed.

Lemma entry_app1 (a b : wrows) (i j : nat) : i < length a -> entry (a ++ b) i j = entry a i j.
Proof. intros H. unfold entry. rewrite app_nth1 by exact H. reflexivity. Qed.

Lemma entry_app2 (a b : wrows) (n i j : nat) :
  length a = n -> entry (a ++ b) (n + i) j = entry b i j.
Proof.
  intros <-. unfold entry. rewrite app_nth2 by lia. replace (length a + i - length a) with i by lia. reflexivity.
Qed.

Lemma entry_row_const_key (a : nat) (l : wrow) :
  entry_row (map (fun e : nat * Q => (a, snd e)) l) a = sumq (map snd l).
Proof.
  induction l as [|e l IH]; [reflexivity|].
  simpl map. rewrite entry_row_cons. cbn [fst snd]. rewrite Nat.eqb_refl, IH. reflexivity.
Qed.

Lemma memn_seq (a n : nat) : memn a (seq 0 n) = Nat.ltb a n.
Proof.
  destruct (Nat.ltb_spec a n) as [L|L]; [apply memn_In, in_seq; lia|].
  destruct (memn a (seq 0 n)) eqn:E; [|reflexivity]. apply memn_In, in_seq in E. lia.
Qed.

(** Lists F a whose elements all have key a, concatenated over distinct a: a test that holds only of
    elements with key i selects from F i alone. *)
Lemma filter_flat_map_key {A} (key : A -> nat) (p : A -> bool) (F : nat -> list A) (l : list nat) (i : nat) :
  (forall a e, In e (F a) -> key e = a) -> (forall e, p e = true -> key e = i) -> NoDup l ->
  filter p (flat_map F l) = if memn i l then filter p (F i) else [].
Proof.
  intros HF Hp Hnd. induction Hnd as [|a l Ha Hnd IH]; [reflexivity|].
  cbn [flat_map]. rewrite filter_app, IH. unfold memn. cbn [existsb]. fold (memn i l).
  destruct (Nat.eqb_spec i a) as [->|Ne]; cbn [orb].
  - rewrite (proj2 (memn_false a l) Ha). apply app_nil_r.
  - rewrite filter_none; [reflexivity|]. intros e He. destruct (p e) eqn:P; [|reflexivity].
    exfalso. apply Ne. rewrite <- (Hp e P). exact (HF a e He).
Qed.

Lemma entry_row_flat_map (F : nat -> wrow) (l : list nat) (j : nat) :
  (forall a e, In e (F a) -> fst e = a) -> NoDup l ->
  (entry_row (flat_map F l) j == if memn j l then entry_row (F j) j else 0)%Q.
Proof.
  intros HF Hnd. unfold entry_row.
  rewrite (filter_flat_map_key fst _ F l j HF (fun e => proj1 (Nat.eqb_eq (fst e) j)) Hnd).
  destruct (memn j l); reflexivity.
Qed.

(** Transposition transposes the denotation (also outside the stored range: both sides 0). *)
Lemma entry_tr_row (lists : wrows) (k a : nat) :
  (entry_row (tr_row lists k) a == entry lists a k)%Q.
Proof.
  unfold tr_row. rewrite entry_row_flat_map; [| |apply seq_NoDup].
  - rewrite memn_seq. destruct (Nat.ltb_spec a (length lists)) as [L|L].
    + rewrite entry_row_const_key. reflexivity.
    + rewrite entry_overflow by exact L. reflexivity.
  - intros x e He. apply in_map_iff in He. destruct He as [e' [E _]]. subst e. reflexivity.
Qed.

Lemma entry_transpose_w (n : nat) (lists : wrows) (k a : nat) :
  k < n -> (entry (transpose_w n lists) k a == entry lists a k)%Q.
Proof.
  intros H. unfold entry at 1, transpose_w. rewrite nth_map_seq by exact H. apply entry_tr_row.
Qed.

Lemma transpose_w_length n lists : length (transpose_w n lists) = n.
Proof. unfold transpose_w. rewrite map_length, seq_length. reflexivity. Qed.

Lemma entry_row_shift (n : nat) (r : wrow) (j : nat) :
  entry_row (shift_row n r) (n + j) = entry_row r j.
Proof.
  induction r as [|e r IH]; [reflexivity|].
  unfold shift_row in *. simpl map. rewrite !entry_row_cons. cbn [fst snd]. rewrite IH.
  destruct (Nat.eqb_spec (fst e) j) as [E|Ne].
  - subst j. rewrite Nat.eqb_refl. reflexivity.
  - replace (Nat.eqb (n + fst e) (n + j)) with false; [reflexivity|].
    symmetry. apply Nat.eqb_neq. lia.
Qed.

Lemma entry_row_shift_low (n : nat) (r : wrow) (j : nat) : j < n -> entry_row (shift_row n r) j = 0%Q.
Proof.
  intros H. apply entry_row_notin. unfold shift_row. rewrite map_map. cbn [fst].
  intros Hin. apply in_map_iff in Hin. destruct Hin as [e [E _]]. lia.
Qed.

Lemma nth_map_nil {A B} (f : list A -> list B) (l : list (list A)) (i : nat) :
  f [] = [] -> nth i (map f l) [] = f (nth i l []).
Proof. intros H. rewrite <- H at 1. apply map_nth. Qed.

(** * C03: block matrices *)

Lemma entry_map_nil {A} (f : list A -> wrow) (rows : list (list A)) (i j : nat) :
  f [] = [] -> entry (map f rows) i j = entry_row (f (nth i rows [])) j.
Proof. intros H. unfold entry. rewrite (nth_map_nil f) by exact H. reflexivity. Qed.

(** The upper half of both block matrices: the rows of B shifted behind the row nodes. *)
Lemma entry_shift_block (n : nat) (rows low : wrows) (i : nat) :
  i < length rows ->
  (forall j, entry (map (shift_row n) rows ++ low) i (n + j) = entry rows i j) /\
  (forall j, j < n -> entry (map (shift_row n) rows ++ low) i j = 0%Q).
Proof.
  intros Hi. split; intros j; [|intros Hj]; rewrite entry_app1 by (rewrite map_length; exact Hi);
    rewrite (entry_map_nil (shift_row n)) by reflexivity.
  - apply entry_row_shift.
  - apply entry_row_shift_low. exact Hj.
Qed.

Theorem block_denotation (b : wmat) :
  let n_row := length (snd b) in
  let n_col := fst b in
  let a := snd (bipartite2undirected b) in
  fst (bipartite2undirected b) = n_row + n_col /\ length a = n_row + n_col /\
  (forall i j, i < n_row -> (entry a i (n_row + j) == entry (snd b) i j)%Q) /\
  (forall i j, j < n_col -> (entry a (n_row + j) i == entry (snd b) i j)%Q) /\
  (forall i i', i < n_row -> i' < n_row -> (entry a i i' == 0)%Q) /\
  (forall j j', j < n_col -> (entry a (n_row + j) (n_row + j') == 0)%Q).
Proof.
  destruct b as [nc rows]. cbn [fst snd bipartite2undirected].
  split; [reflexivity|]. split.
  { rewrite app_length, map_length, transpose_w_length. reflexivity. }
  split; [|split; [|split]].
  - intros i j Hi. rewrite (proj1 (entry_shift_block _ rows _ i Hi)). reflexivity.
  - intros i j Hj.
    rewrite entry_app2 by apply map_length.
    apply entry_transpose_w. exact Hj.
  - intros i i' Hi Hi'. rewrite (proj2 (entry_shift_block _ rows _ i Hi) i' Hi'). reflexivity.
  - intros j j' Hj.
    rewrite entry_app2 by apply map_length.
    rewrite entry_transpose_w by exact Hj. rewrite entry_overflow by lia. reflexivity.
Qed.

Theorem block_directed_denotation (b : wmat) :
  let n_row := length (snd b) in
  let n_col := fst b in
  let a := snd (bipartite2directed b) in
  fst (bipartite2directed b) = n_row + n_col /\ length a = n_row + n_col /\
  (forall i j, i < n_row -> (entry a i (n_row + j) == entry (snd b) i j)%Q) /\
  (forall i i', i < n_row -> i' < n_row -> (entry a i i' == 0)%Q) /\
  (forall j k, (entry a (n_row + j) k == 0)%Q).
Proof.
  destruct b as [nc rows]. cbn [fst snd bipartite2directed].
  split; [reflexivity|]. split.
  { rewrite app_length, map_length, repeat_length. reflexivity. }
  split; [|split].
  - intros i j Hi. rewrite (proj1 (entry_shift_block _ rows _ i Hi)). reflexivity.
  - intros i i' Hi Hi'. rewrite (proj2 (entry_shift_block _ rows _ i Hi) i' Hi'). reflexivity.
  - intros j k.
    rewrite entry_app2 by apply map_length.
    unfold entry. rewrite (@nth_repeat_nil (nat * Q)). reflexivity.
Qed.

(** Pattern version: same edge set as [Model.Bfs.block_undirected] on the pattern of B. *)
Lemma pattern_app (a b : wrows) : pattern (a ++ b) = pattern a ++ pattern b.
Proof. unfold pattern. apply map_app. Qed.

Lemma pattern_length (rows : wrows) : length (pattern rows) = length rows.
Proof. unfold pattern. apply map_length. Qed.

Lemma row_pattern (rows : wrows) (i : nat) :
  row (pattern rows) i = map fst (filter (fun e : nat * Q => qnz (snd e)) (nth i rows [])).
Proof.
  unfold row, pattern.
  apply (nth_map_nil (fun r : wrow => map fst (filter (fun e : nat * Q => qnz (snd e)) r))).
  reflexivity.
Qed.

Lemma in_row_pattern (rows : wrows) (i j : nat) :
  In j (row (pattern rows) i) <-> exists v, In (j, v) (nth i rows []) /\ qnz v = true.
Proof.
  rewrite row_pattern, in_map_iff. split.
  - intros [[j' v] [E H]]. cbn [fst] in E. subst j'. apply filter_In in H. cbn [snd] in H.
    exists v. exact H.
  - intros [v [H1 H2]]. exists (j, v). split; [reflexivity|]. apply filter_In. split; assumption.
Qed.

Lemma pattern_shift (n : nat) (rows : wrows) :
  pattern (map (shift_row n) rows) = map (fun r => map (fun j => n + j) r) (pattern rows).
Proof.
  unfold pattern. rewrite !map_map. apply map_ext. intros r.
  induction r as [|e r IH]; [reflexivity|].
  unfold shift_row in *. simpl. destruct (qnz (snd e)); simpl; rewrite IH; reflexivity.
Qed.

Lemma in_tr_row (lists : wrows) (k a : nat) (v : Q) :
  In (a, v) (tr_row lists k) <-> In (k, v) (nth a lists []).
Proof.
  unfold tr_row. rewrite in_flat_map. split.
  - intros [x [Hx H]]. apply in_map_iff in H. destruct H as [[k' v'] [E H]].
    cbn [snd] in E. injection E as E1 E2. subst x v'.
    apply filter_In in H. destruct H as [H Hk]. cbn [fst] in Hk. apply Nat.eqb_eq in Hk. subst k'.
    exact H.
  - intros H. exists a. split.
    + apply in_seq. split; [lia|]. simpl.
      destruct (Nat.lt_ge_cases a (length lists)) as [L|L]; auto.
      rewrite nth_overflow in H by exact L. destruct H.
    + apply in_map_iff. exists (k, v). split; [reflexivity|].
      apply filter_In. split; [exact H|]. cbn [fst]. apply Nat.eqb_refl.
Qed.

Theorem block_pattern (b : wmat) :
  let g := pattern (snd (bipartite2undirected b)) in
  let g' := block_undirected (pattern_pmat b) in
  length g = length g' /\ forall u v, In v (row g u) <-> In v (row g' u).
Proof.
  destruct b as [nc rows]. cbn [fst snd bipartite2undirected].
  unfold block_undirected, pattern_pmat, p_nrow. cbn [p_rows p_ncol fst snd transpose].
  rewrite pattern_app, pattern_shift. unfold p_nrow. cbn [p_rows]. rewrite pattern_length.
  split.
  { rewrite !app_length, !map_length, !pattern_length, transpose_w_length, seq_length. reflexivity. }
  intros u v. unfold row.
  destruct (Nat.lt_ge_cases u (length rows)) as [L|L].
  - rewrite !app_nth1 by (rewrite map_length, pattern_length; exact L). reflexivity.
  - rewrite !app_nth2 by (rewrite map_length, pattern_length; exact L).
    rewrite map_length, pattern_length.
    destruct (Nat.lt_ge_cases (u - length rows) nc) as [L2|L2].
    + rewrite nth_map_seq by exact L2.
      fold (row (pattern (transpose_w nc rows)) (u - length rows)).
      rewrite in_row_pattern. unfold transpose_w. rewrite nth_map_seq by exact L2.
      rewrite filter_In, in_seq. split.
      * intros [x [H1 H2]]. apply in_tr_row in H1.
        assert (Hv : v < length rows).
        { destruct (Nat.lt_ge_cases v (length rows)) as [Lv|Lv]; auto.
          rewrite nth_overflow in H1 by exact Lv. destruct H1. }
        split; [lia|]. apply memn_In. apply in_row_pattern. exists x. split; assumption.
      * intros [_ H]. apply memn_In in H. apply in_row_pattern in H. destruct H as [x [H1 H2]].
        exists x. split; [|exact H2]. apply in_tr_row. exact H1.
    + rewrite !nth_overflow; [reflexivity| |].
      * rewrite map_length, seq_length. exact L2.
      * rewrite pattern_length, transpose_w_length. exact L2.
Qed.

(** On rows in canonical format the block matrix is in canonical format too (so that summing
    duplicates and sorting, which SciPy's [bmat] does in addition, changes nothing). *)
Lemma StronglySorted_map_lt (f : nat -> nat) (l : list nat) :
  (forall x y, x < y -> f x < f y) -> StronglySorted lt l -> StronglySorted lt (map f l).
Proof.
  intros Hf H. induction H as [|a l Hs IH Ha]; simpl; constructor; auto.
  rewrite Forall_forall in *. intros y Hy. apply in_map_iff in Hy. destruct Hy as [x [<- Hx]].
  apply Hf. apply Ha. exact Hx.
Qed.

Lemma StronglySorted_seq (s n : nat) : StronglySorted lt (seq s n).
Proof.
  revert s; induction n as [|n IH]; intros s; simpl; constructor; auto.
  rewrite Forall_forall. intros y Hy. apply in_seq in Hy. lia.
Qed.

Lemma sorted_map_filter {A} (g : A -> nat) (p : A -> bool) (l : list A) :
  StronglySorted lt (map g l) -> StronglySorted lt (map g (filter p l)).
Proof.
  induction l as [|a l IH]; simpl; intros H; [constructor|].
  inversion H as [|x y Hs Ha]; subst.
  destruct (p a); [|exact (IH Hs)]. simpl. constructor; [exact (IH Hs)|].
  rewrite Forall_forall in *. intros y Hy. apply Ha.
  apply in_map_iff in Hy. destruct Hy as [e [<- He]]. apply filter_In in He. apply in_map. tauto.
Qed.

Lemma sorted_flat_map_seq (F : nat -> wrow) (s n : nat) :
  (forall a e, In e (F a) -> fst e = a) -> (forall a, length (F a) <= 1) ->
  StronglySorted lt (map fst (flat_map F (seq s n))).
Proof.
  intros HF H1. revert s; induction n as [|n IH]; intros s; [constructor|].
  cbn [seq flat_map]. rewrite map_app.
  specialize (IH (S s)).
  assert (Hall : Forall (lt s) (map fst (flat_map F (seq (S s) n)))).
  { rewrite Forall_forall. intros y Hy. apply in_map_iff in Hy. destruct Hy as [e [<- He]].
    apply in_flat_map in He. destruct He as [a [Ha He]]. apply in_seq in Ha.
    rewrite (HF _ _ He). lia. }
  pose proof (H1 s) as Hl. pose proof (HF s) as Hk.
  destruct (F s) as [|e [|e' t]]; simpl in *; try lia; auto.
  constructor; auto. rewrite (Hk e) by auto. exact Hall.
Qed.

Lemma filter_key_length (r : wrow) (k : nat) :
  NoDup (map fst r) -> length (filter (fun e : nat * Q => Nat.eqb (fst e) k) r) <= 1.
Proof.
  induction r as [|e r IH]; simpl; intros H; [lia|].
  inversion H as [|x l Hn Hd]; subst.
  destruct (Nat.eqb_spec (fst e) k) as [E|Ne]; [|auto].
  simpl. rewrite filter_none; [simpl; lia|].
  intros e' He'. apply Nat.eqb_neq. intros E'. apply Hn. rewrite E, <- E'. apply in_map. exact He'.
Qed.

Lemma tr_row_sorted (lists : wrows) (k : nat) :
  Forall (fun col : wrow => NoDup (map fst col)) lists -> row_sorted (tr_row lists k).
Proof.
  intros H. unfold row_sorted, tr_row. apply sorted_flat_map_seq.
  - intros a e He. apply in_map_iff in He. destruct He as [e' [<- _]]. reflexivity.
  - intros a. rewrite map_length. apply filter_key_length.
    destruct (Nat.lt_ge_cases a (length lists)) as [L|L].
    + rewrite Forall_forall in H. apply H. apply nth_In. exact L.
    + rewrite nth_overflow by exact L. constructor.
Qed.

Lemma StronglySorted_lt_NoDup (l : list nat) : StronglySorted lt l -> NoDup l.
Proof.
  intros H. induction H as [|a l Hs IH Ha]; constructor; auto.
  intros Hin. rewrite Forall_forall in Ha. specialize (Ha _ Hin). lia.
Qed.

(** * C03: is_square / is_symmetric / get_adjacency *)

Lemma is_square_spec (m : wmat) : is_square m = true <-> length (snd m) = fst m.
Proof. unfold is_square. apply Nat.eqb_eq. Qed.

Theorem is_symmetric_spec (rows : wrows) :
  is_symmetric rows = true <-> forall i j, (entry rows i j == entry rows j i)%Q.
Proof.
  unfold is_symmetric. rewrite forallb_forall. split.
  - intros H i j.
    assert (Hchk : forall a c, In c (map fst (nth a rows [])) ->
                               (entry rows a c == entry rows c a)%Q).
    { intros a c Hc. apply in_map_iff in Hc. destruct Hc as [e [<- He]].
      assert (La : a < length rows).
      { destruct (Nat.lt_ge_cases a (length rows)) as [L|L]; auto.
        rewrite nth_overflow in He by exact L. destruct He. }
      specialize (H a). rewrite forallb_forall in H.
      apply Qeq_bool_iff. apply H; [|exact He]. apply in_seq. lia. }
    destruct (in_dec Nat.eq_dec j (map fst (nth i rows []))) as [Hin|Hnin].
    + apply Hchk. exact Hin.
    + destruct (in_dec Nat.eq_dec i (map fst (nth j rows []))) as [Hin'|Hnin'].
      * symmetry. apply Hchk. exact Hin'.
      * unfold entry. rewrite !entry_row_notin by assumption. reflexivity.
  - intros H i _. apply forallb_forall. intros e _. apply Qeq_bool_iff. apply H.
Qed.

Theorem get_adjacency_decision (m : wmat) (allow_directed force_bipartite force_directed : bool) :
  let r := get_adjacency m allow_directed force_bipartite force_directed in
  (snd r = true <->
   force_bipartite = true \/ length (snd m) <> fst m \/
   (allow_directed = false /\ ~ forall i j, (entry (snd m) i j == entry (snd m) j i)%Q)) /\
  (snd r = true ->
   fst r = if force_directed then bipartite2directed m else bipartite2undirected m) /\
  (snd r = false -> fst r = m).
Proof.
  cbv zeta. unfold get_adjacency, bipartite_decision. cbn [fst snd].
  split; [|split].
  - rewrite !orb_true_iff, andb_true_iff, !negb_true_iff.
    rewrite <- is_symmetric_spec, <- is_square_spec.
    rewrite !not_true_iff_false. tauto.
  - intros H. rewrite H. reflexivity.
  - intros H. rewrite H. reflexivity.
Qed.

(** The block matrix of a well-formed B is square and symmetric: get_adjacency leaves it alone. *)
Lemma wf_rows_nth (nc : nat) (b : wrows) (i : nat) (e : nat * Q) :
  wf_rows nc b -> In e (nth i b []) -> fst e < nc.
Proof.
  intros Hwf He. destruct (Nat.lt_ge_cases i (length b)) as [L|L].
  - unfold wf_rows in Hwf. rewrite Forall_forall in Hwf. specialize (Hwf _ (nth_In b [] L)).
    rewrite Forall_forall in Hwf. exact (Hwf _ He).
  - rewrite nth_overflow in He by exact L. destruct He.
Qed.

Lemma wf_entry_zero (nc : nat) (rows : wrows) (i j : nat) :
  wf_rows nc rows -> nc <= j -> entry rows i j = 0%Q.
Proof.
  intros H Hj. unfold entry. apply entry_row_notin. intros Hin.
  apply in_map_iff in Hin. destruct Hin as [e [E He]].
  pose proof (wf_rows_nth nc rows i e H He). lia.
Qed.

Theorem block_symmetric (b : wmat) :
  wf_wmat b ->
  is_square (bipartite2undirected b) = true /\
  is_symmetric (snd (bipartite2undirected b)) = true.
Proof.
  intros Hwf.
  destruct (block_denotation b) as [H0 [H1 [H2 [H3 [H4 H5]]]]].
  split; [apply is_square_spec; rewrite H0, H1; reflexivity|].
  apply is_symmetric_spec.
  set (nr := length (snd b)) in *. set (nc := fst b) in *.
  set (a := snd (bipartite2undirected b)) in *.
  (* classify an index: row node, column node, or out of range *)
  assert (Hrc : forall i j, i < nr -> nr <= j -> (entry a i j == entry a j i)%Q).
  { intros i j Hi Hj. replace j with (nr + (j - nr)) by lia.
    rewrite H2 by exact Hi.
    destruct (Nat.lt_ge_cases (j - nr) nc) as [L|L].
    - rewrite H3 by exact L. reflexivity.
    - rewrite (wf_entry_zero nc) by (assumption || exact L).
      rewrite entry_overflow by (fold a; lia). reflexivity. }
  assert (Hcc : forall i j, nr <= i -> nr <= j -> (entry a i j == 0)%Q).
  { intros i j Hi Hj. destruct (Nat.lt_ge_cases (i - nr) nc) as [L|L].
    - replace i with (nr + (i - nr)) by lia. replace j with (nr + (j - nr)) by lia. apply H5. exact L.
    - rewrite entry_overflow by lia. reflexivity. }
  intros i j.
  destruct (Nat.lt_ge_cases i nr) as [Li|Li], (Nat.lt_ge_cases j nr) as [Lj|Lj].
  - rewrite !H4 by assumption. reflexivity.
  - apply Hrc; assumption.
  - symmetry. apply Hrc; assumption.
  - rewrite !Hcc by assumption. reflexivity.
Qed.

(** * C03: values *)

Lemma nthq_repeat' (q : Q) (n i : nat) : i < n -> nthq (repeat q n) i = q.
Proof.
  revert i; induction n as [|n IH]; intros [|i] H; try lia; [reflexivity|].
  unfold nthq in *. simpl. apply IH. lia.
Qed.

Lemma find_app {A} (f : A -> bool) (a b : list A) :
  find f (a ++ b) = match find f a with Some x => Some x | None => find f b end.
Proof. induction a as [|x a IH]; simpl; auto. destruct (f x); auto. Qed.

Lemma find_none_keys (d : list (nat * Q)) (i : nat) :
  ~ In i (map fst d) -> find (fun e : nat * Q => Nat.eqb (fst e) i) d = None.
Proof.
  induction d as [|e d IH]; simpl; intros H; auto.
  destruct (Nat.eqb_spec (fst e) i) as [E|Ne]; [exfalso; apply H; auto|].
  apply IH. intros Hin. apply H. auto.
Qed.

(** The last occurrence of a key wins. *)
Lemma dict_get_last (d1 d2 : list (nat * Q)) (i : nat) (x default : Q) :
  ~ In i (map fst d2) -> dict_get (d1 ++ (i, x) :: d2) i default = x.
Proof.
  intros H. unfold dict_get. rewrite rev_app_distr. simpl rev. rewrite <- app_assoc, find_app.
  rewrite find_none_keys.
  - simpl. rewrite Nat.eqb_refl. reflexivity.
  - rewrite map_rev. intros Hin. apply in_rev in Hin. exact (H Hin).
Qed.

Theorem get_values_spec (n : nat) (v : vals) (default : Q) (l : list Q) :
  get_values n v default = Ok l ->
  length l = n /\ forall i, i < n -> nthq l i = seed_at v 1%Q default i.
Proof.
  destruct v as [|a|d]; simpl.
  - intros E. injection E as <-. split; [apply repeat_length|]. intros i Hi. apply nthq_repeat'. exact Hi.
  - destruct (Nat.eqb_spec (length a) n) as [E|Ne]; [|discriminate].
    intros E'. injection E' as <-. split; [exact E|]. reflexivity.
  - destruct d as [|e d]; [discriminate|].
    destruct (forallb _ _); [|discriminate].
    intros E. injection E as <-. split; [rewrite map_length, seq_length; reflexivity|].
    intros i Hi. unfold nthq. rewrite nth_map_seq by exact Hi. reflexivity.
Qed.

Lemma firstn_app_exact {A} (r c : list A) : firstn (length r) (r ++ c) = r.
Proof. induction r as [|a r IH]; simpl; [destruct c; reflexivity|]. f_equal. exact IH. Qed.

Lemma skipn_app_exact {A} (r c : list A) : skipn (length r) (r ++ c) = c.
Proof. induction r as [|a r IH]; simpl; auto. Qed.

Theorem stack_split_inverse (n_row n_col : nat) (vrow vcol : vals) (default : Q) (s : list Q) :
  stack_values n_row n_col vrow vcol default = Ok s ->
  exists r c,
    get_values n_row (fst (stack_defaults n_row n_col vrow vcol default)) default = Ok r /\
    get_values n_col (snd (stack_defaults n_row n_col vrow vcol default)) default = Ok c /\
    length r = n_row /\ length c = n_col /\ s = r ++ c /\ Format.split n_row s = (r, c).
Proof.
  unfold stack_values.
  destruct (stack_defaults n_row n_col vrow vcol default) as [vr vc]. cbn [fst snd].
  destruct (get_values n_row vr default) as [r|e] eqn:Er; [|discriminate].
  destruct (get_values n_col vc default) as [c|e] eqn:Ec; [|discriminate].
  intros E. injection E as <-.
  destruct (get_values_spec _ _ _ _ Er) as [Lr _]. destruct (get_values_spec _ _ _ _ Ec) as [Lc _].
  exists r, c. repeat split; auto.
  unfold Format.split. rewrite <- Lr. rewrite firstn_app_exact, skipn_app_exact. reflexivity.
Qed.

Theorem stack_values_addresses (n_row n_col : nat) (vrow vcol : vals) (default : Q) (s : list Q) :
  stack_values n_row n_col vrow vcol default = Ok s ->
  let both_none := match vrow, vcol with VNone, VNone => true | _, _ => false end in
  length s = n_row + n_col /\
  (forall i, i < n_row ->
     nthq s i = seed_at vrow (if both_none then 1%Q else default) default i) /\
  (forall j, j < n_col -> nthq s (n_row + j) = seed_at vcol default default j).
Proof.
  intros H. destruct (stack_split_inverse _ _ _ _ _ _ H) as [r [c [Er [Ec [Lr [Lc [Es _]]]]]]].
  destruct (get_values_spec _ _ _ _ Er) as [_ Sr]. destruct (get_values_spec _ _ _ _ Ec) as [_ Sc].
  cbv zeta. subst s. split; [rewrite app_length; lia|]. split.
  - intros i Hi. unfold nthq. rewrite app_nth1 by lia. fold (nthq r i). rewrite Sr by exact Hi.
    destruct vrow, vcol; cbn [stack_defaults fst seed_at]; try reflexivity;
      apply nthq_repeat'; exact Hi.
  - intros j Hj. unfold nthq. rewrite app_nth2 by lia.
    replace (n_row + j - length r) with j by lia. fold (nthq c j). rewrite Sc by exact Hj.
    destruct vrow, vcol; cbn [stack_defaults snd seed_at]; try reflexivity;
      apply nthq_repeat'; exact Hj.
Qed.

(** * C03: the pipeline *)

(** True by construction: the statement pins the addressing conventions down (block adjacency with
    rows first, seeds stacked rows first, outputs split at n_row); it does not say that a given
    estimator has this shape - that is observed by the metamorphic harness. *)
Theorem bipartite_pipeline_eq (F : core) (b : wmat) (vrow vcol : vals) (default : Q)
        (r c : list Q) :
  fit_bip F b vrow vcol default = Ok (r, c) ->
  exists s, stack_values (length (snd b)) (fst b) vrow vcol default = Ok s /\
    let x := fit_sq F (bipartite2undirected b) s in
    (r, c) = Format.split (length (snd b)) x /\ r ++ c = x /\
    (length x = length (snd b) + fst b -> length r = length (snd b) /\ length c = fst b).
Proof.
  unfold fit_bip, fit_sq.
  destruct (stack_values (length (snd b)) (fst b) vrow vcol default) as [s|e]; [|discriminate].
  intros E. injection E as E1 E2. exists s. split; [reflexivity|]. cbv zeta.
  subst r c. split; [reflexivity|].
  split; [apply firstn_skipn|].
  intros HL. rewrite firstn_length, skipn_length. cbn [bipartite2undirected snd] in HL |- *. lia.
Qed.

(** The skeleton as coded: whenever the bipartite treatment is chosen for B (a column output is
    produced), the outputs are the two halves of what the same skeleton returns for the block
    adjacency, taken as an ordinary square graph, with the stacked seed vector. *)
Theorem fit_bipartite_eq_block (F : core) (b : wmat) (allow_directed force_bipartite : bool)
        (values vrow vcol : vals) (default : Q) (r c : list Q) :
  wf_wmat b ->
  fit F b allow_directed force_bipartite false values vrow vcol default = Ok (r, Some c) ->
  exists s,
    match values with
    | VNone => stack_values (length (snd b)) (fst b) vrow vcol default
    | _ => stack_values (length (snd b)) (fst b) values VNone default
    end = Ok s /\
    let x := F (snd (bipartite2undirected b)) s in
    fit F (bipartite2undirected b) allow_directed false false (VArr s) VNone VNone default
      = Ok (x, None) /\
    r = firstn (length (snd b)) x /\ c = skipn (length (snd b)) x.
Proof.
  intros Hwf. unfold fit at 1. unfold get_adjacency_values at 1.
  set (fb := match vrow, vcol with VNone, VNone => force_bipartite | _, _ => true end).
  pose proof (get_adjacency_decision b allow_directed fb false) as [_ [Hb _]].
  destruct (get_adjacency b allow_directed fb false) as [adj bip]. cbn [fst snd] in Hb.
  destruct bip.
  2:{ destruct (get_values (length (snd b)) values default); [|discriminate].
      intros E. discriminate. }
  rewrite (Hb eq_refl).
  set (rv := match values with
             | VNone => stack_values (length (snd b)) (fst b) vrow vcol default
             | _ => stack_values (length (snd b)) (fst b) values VNone default
             end).
  destruct rv as [s|e] eqn:Erv; [|discriminate].
  unfold Format.split. intros E. injection E as E1 E2. exists s. split; [reflexivity|].
  cbv zeta. split; [|split; symmetry; assumption].
  assert (Hs : length s = length (snd b) + fst b).
  { unfold rv in Erv. destruct values; apply stack_values_addresses in Erv; tauto. }
  destruct (block_symmetric b Hwf) as [Hsq Hsym].
  destruct (block_denotation b) as [_ [Hlen _]].
  unfold fit, get_adjacency_values, get_adjacency, bipartite_decision.
  rewrite Hsq, Hsym. cbn [negb orb andb]. rewrite andb_false_r.
  cbn [get_values]. rewrite Hlen, Hs, Nat.eqb_refl. reflexivity.
Qed.

(** * C01: conversion to CSR keeps the denotation *)

Lemma entry_row_combine_seq (s : nat) (r : list Q) (j : nat) :
  (entry_row (combine (seq s (length r)) r) j == if Nat.leb s j then nthq r (j - s) else 0)%Q.
Proof.
  revert s; induction r as [|a r IH]; intros s.
  - simpl. unfold nthq. destruct (Nat.leb s j), (j - s); reflexivity.
  - cbn [length seq combine]. rewrite entry_row_cons. cbn [fst snd].
    destruct (Nat.eqb_spec s j) as [->|Ne]; rewrite IH.
    + rewrite Nat.leb_refl, Nat.sub_diag. replace (Nat.leb (S j) j) with false by (symmetry; apply Nat.leb_gt; lia).
      unfold nthq. simpl. ring.
    + destruct (Nat.leb_spec s j), (Nat.leb_spec (S s) j); try lia; [|reflexivity].
      replace (j - s) with (S (j - S s)) by lia. reflexivity.
Qed.

Lemma entry_row_dense (r : list Q) (j : nat) : (entry_row (dense_row r) j == nthq r j)%Q.
Proof.
  unfold dense_row. rewrite entry_row_filter_nz, entry_row_combine_seq. simpl. rewrite Nat.sub_0_r. reflexivity.
Qed.

Lemma entry_row_tabulate (f : nat -> Q) (l : list nat) (j : nat) :
  NoDup l -> In j l -> (entry_row (map (fun k => (k, f k)) l) j == f j)%Q.
Proof.
  induction l as [|a l IH]; intros Hnd Hin; [destruct Hin|].
  inversion Hnd as [|x y Hn Hd]; subst. simpl map. rewrite entry_row_cons. cbn [fst snd].
  destruct (Nat.eqb_spec a j) as [E|Ne].
  - subst a. rewrite entry_row_notin; [ring|].
    rewrite map_map. cbn [fst]. rewrite map_id. exact Hn.
  - apply IH; auto. destruct Hin as [E|H]; [contradiction|exact H].
Qed.

Lemma coo_sum_unstored (es : list (nat * nat * Q)) (i j : nat) :
  coo_stored es i j = false -> coo_sum es i j = 0%Q.
Proof.
  unfold coo_stored, coo_sum. intros H. rewrite existsb_false in H.
  rewrite filter_none by exact H. reflexivity.
Qed.

Lemma coo_unstored_range (nr nc : nat) (es : list (nat * nat * Q)) (i j : nat) :
  Forall (fun e : nat * nat * Q => fst (fst e) < nr /\ snd (fst e) < nc) es ->
  nr <= i \/ nc <= j -> coo_stored es i j = false.
Proof.
  intros Hwf Hij. unfold coo_stored. apply existsb_false. intros e He.
  rewrite Forall_forall in Hwf. specialize (Hwf _ He). unfold coo_at.
  apply andb_false_iff. destruct Hij as [H|H]; [left|right]; apply Nat.eqb_neq; lia.
Qed.

Theorem to_csr_denotation (c : container) :
  wf_shape c -> forall i j, (entry (snd (to_csr c)) i j == den c i j)%Q.
Proof.
  destruct c as [rows|nr nc es|nr cols|nc rows|nc rows]; cbn [to_csr snd den wf_shape]; intros Hwf i j.
  - rewrite (entry_map_nil dense_row) by reflexivity. apply entry_row_dense.
  - destruct (Nat.lt_ge_cases i nr) as [Li|Li].
    + unfold entry. rewrite nth_map_seq by exact Li. unfold coo_row.
      destruct (coo_stored es i j) eqn:Es.
      * destruct (Nat.lt_ge_cases j nc) as [Lj|Lj].
        -- apply (entry_row_tabulate (fun k => coo_sum es i k)).
           ++ apply NoDup_filter. apply seq_NoDup.
           ++ apply filter_In. split; [apply in_seq; lia|exact Es].
        -- rewrite (coo_unstored_range nr nc es i j Hwf) in Es by (right; exact Lj). discriminate.
      * rewrite coo_sum_unstored by exact Es. rewrite entry_row_notin; [reflexivity|].
        rewrite map_map. cbn [fst]. rewrite map_id. intros Hin. apply filter_In in Hin.
        destruct Hin as [_ Hin]. rewrite Hin in Es. discriminate.
    + rewrite entry_overflow by (rewrite map_length, seq_length; exact Li).
      rewrite coo_sum_unstored; [reflexivity|].
      apply (coo_unstored_range nr nc es i j Hwf). left. exact Li.
  - destruct (Nat.lt_ge_cases i nr) as [Li|Li].
    + apply entry_transpose_w. exact Li.
    + rewrite entry_overflow by (rewrite transpose_w_length; exact Li).
      rewrite (wf_entry_zero nr cols j i Hwf Li). reflexivity.
  - reflexivity.
  - reflexivity.
Qed.

Theorem to_csr_shape (c : container) :
  fst (to_csr c) = c_ncol c /\ length (snd (to_csr c)) = c_nrow c.
Proof.
  destruct c as [rows|nr nc es|nr cols|nc rows|nc rows]; cbn [to_csr fst snd c_ncol c_nrow];
    split; try reflexivity.
  - apply map_length.
  - rewrite map_length, seq_length. reflexivity.
  - apply transpose_w_length.
Qed.

(** * C01: the output is in canonical format for every container but CSR *)

Lemma dense_row_sorted (r : list Q) : row_sorted (dense_row r).
Proof.
  apply sorted_map_filter. rewrite map_fst_combine by apply seq_length. apply StronglySorted_seq.
Qed.

Theorem to_csr_sorted (c : container) :
  is_csr c = false -> canonical c -> rows_sorted (snd (to_csr c)).
Proof.
  destruct c as [rows|nr nc es|nr cols|nc rows|nc rows]; cbn [to_csr snd is_csr canonical];
    intros Hc Hcan; try discriminate; unfold rows_sorted.
  - rewrite Forall_forall. intros r Hr. apply in_map_iff in Hr. destruct Hr as [r0 [<- _]].
    apply dense_row_sorted.
  - rewrite Forall_forall. intros r Hr. apply in_map_iff in Hr. destruct Hr as [i [<- _]].
    unfold row_sorted, coo_row. rewrite map_map. cbn [fst].
    apply sorted_map_filter. rewrite map_id. apply StronglySorted_seq.
  - rewrite Forall_forall. intros r Hr. unfold transpose_w in Hr. apply in_map_iff in Hr.
    destruct Hr as [k [<- _]]. apply tr_row_sorted. exact Hcan.
  - exact Hcan.
Qed.

(** * C01: the order of the stored indices and duplicates are invisible to BFS and get_dag *)

Definition same_rows (g g' : graph) : Prop :=
  length g = length g' /\ forall u v, In v (row g u) <-> In v (row g' u).

Lemma memn_same (v : nat) (l l' : list nat) :
  (In v l <-> In v l') -> memn v l = memn v l'.
Proof.
  intros H. destruct (memn v l) eqn:E1, (memn v l') eqn:E2; auto.
  - apply memn_In in E1. apply H in E1. apply memn_In in E1. congruence.
  - apply memn_In in E2. apply H in E2. apply memn_In in E2. congruence.
Qed.

Lemma frontier_same (g g' : graph) (reach : list bool) :
  same_rows g g' -> frontier g reach = frontier g' reach.
Proof.
  intros [HL HR]. unfold frontier. rewrite <- HL. apply map_ext. intros v. f_equal.
  apply existsb_ext'. intros u. f_equal. apply memn_same. apply HR.
Qed.

Lemma bfs_loop_same (g g' : graph) :
  same_rows g g' ->
  forall fuel d reach dist, bfs_loop fuel g d reach dist = bfs_loop fuel g' d reach dist.
Proof.
  intros H. induction fuel as [|f IH]; intros d reach dist; [reflexivity|].
  cbn [bfs_loop]. rewrite <- (frontier_same g g' reach H).
  destruct (existsb (fun b : bool => b) (frontier g reach)); [apply IH|reflexivity].
Qed.

Theorem bfs_row_order_irrelevant (g g' : graph) :
  same_rows g g' ->
  (forall src, bfs g src = bfs g' src) /\
  (forall order, same_rows (get_dag g order) (get_dag g' order)).
Proof.
  intros H. split.
  - intros src. unfold bfs. destruct H as [HL HR]. rewrite <- HL.
    apply bfs_loop_same. split; assumption.
  - intros order. destruct H as [HL HR]. split; [rewrite !get_dag_length; exact HL|].
    intros u v. destruct (Nat.lt_ge_cases u (length g)) as [L|L].
    + rewrite !row_get_dag by lia. rewrite !filter_In, HR. reflexivity.
    + unfold row. rewrite !nth_overflow by (rewrite get_dag_length; lia). reflexivity.
Qed.

(** The distances returned by [bfs] are >= -1 (not part of BfsProofs.bfs_exact). *)
Lemma bfs_loop_range (g : graph) (src : list bool) :
  forall fuel r reach dist dist',
    Inv g src r reach dist ->
    bfs_loop fuel g (Z.of_nat (S r)) reach dist = Some dist' ->
    forall v, v < length g -> (-1 <= nthz dist' v)%Z.
Proof.
  induction fuel as [|f IH]; intros r reach dist dist' HI Hb v Hv; [discriminate|].
  cbn [bfs_loop] in Hb.
  destruct (existsb (fun b : bool => b) (frontier g reach)) eqn:E.
  - replace (Z.of_nat (S r) + 1)%Z with (Z.of_nat (S (S r))) in Hb by lia.
    exact (IH _ _ _ _ (inv_step _ _ _ _ _ HI) Hb v Hv).
  - injection Hb as <-. destruct (nthb reach v) eqn:Er.
    + destruct (inv_dist_t _ _ _ _ _ HI v Hv Er) as [k [Hk _]]. lia.
    + rewrite (inv_dist_f _ _ _ _ _ HI v Hv Er). lia.
Qed.

Lemma bfs_range (g : graph) (src : list bool) (dist : list Z) :
  length src = length g -> bfs g src = Some dist ->
  forall v, v < length g -> (-1 <= nthz dist v)%Z.
Proof.
  intros Hs Hb. unfold bfs in Hb. change 1%Z with (Z.of_nat (S 0)) in Hb.
  exact (bfs_loop_range g src _ _ _ _ _ (inv_init g src Hs) Hb).
Qed.

Lemma map2_map_seq {A B C} (f : A -> B -> C) (fa : nat -> A) (fb : nat -> B) (l : list nat) :
  map2 f (map fa l) (map fb l) = map (fun k => f (fa k) (fb k)) l.
Proof. induction l as [|a l IH]; simpl; [reflexivity|]. f_equal. exact IH. Qed.

(** * C02: the permutation action *)

Section Perm.
Context (n : nat) (p : list nat) (Hp : Permutation p (seq 0 n)).

Lemma perm_length : length p = n.
Proof. rewrite (Permutation_length Hp). apply seq_length. Qed.

Lemma perm_NoDup : NoDup p.
Proof. apply (Permutation_NoDup (Permutation_sym Hp)). apply seq_NoDup. Qed.

Lemma perm_In (k : nat) : In k p <-> k < n.
Proof.
  split.
  - intros H. apply (Permutation_in _ Hp) in H. apply in_seq in H. lia.
  - intros H. apply (Permutation_in _ (Permutation_sym Hp)). apply in_seq. lia.
Qed.

Lemma perm_lt (i : nat) : i < n -> nthn p i < n.
Proof. intros H. apply perm_In. unfold nthn. apply nth_In. rewrite perm_length. exact H. Qed.

Lemma perm_inj (i j : nat) : i < n -> j < n -> nthn p i = nthn p j -> i = j.
Proof.
  intros Hi Hj E. unfold nthn in E.
  apply (proj1 (NoDup_nth p 0) perm_NoDup); rewrite ?perm_length; assumption.
Qed.

Lemma index_of_In (l : list nat) (k : nat) :
  In k l -> index_of k l < length l /\ nthn l (index_of k l) = k.
Proof.
  induction l as [|a l IH]; intros H; [destruct H|].
  simpl. destruct (Nat.eqb_spec a k) as [E|Ne].
  - split; [lia|]. exact E.
  - destruct H as [E|H]; [contradiction|]. destruct (IH H) as [H1 H2]. split; [lia|exact H2].
Qed.

Lemma index_of_nth (l : list nat) (i : nat) :
  NoDup l -> i < length l -> index_of (nthn l i) l = i.
Proof.
  intros Hnd Hi.
  assert (Hin : In (nthn l i) l) by (unfold nthn; apply nth_In; exact Hi).
  destruct (index_of_In l _ Hin) as [H1 H2].
  unfold nthn in H2. apply (proj1 (NoDup_nth l 0) Hnd); assumption.
Qed.

Lemma perm_index_lt (k : nat) : k < n -> index_of k p < n.
Proof.
  intros H. pose proof (index_of_In p k (proj2 (perm_In k) H)) as [H1 _].
  rewrite perm_length in H1. exact H1.
Qed.

Lemma perm_index_nth (k : nat) : k < n -> nthn p (index_of k p) = k.
Proof. intros H. apply index_of_In. apply perm_In. exact H. Qed.

Lemma perm_index_of (i : nat) : i < n -> index_of (nthn p i) p = i.
Proof. intros H. apply index_of_nth; [exact perm_NoDup | rewrite perm_length; exact H]. Qed.

(** [p] is the table of i |-> p[i]; composing with it rearranges a table over 0..n-1. *)
Lemma perm_map_seq : map (nthn p) (seq 0 n) = p.
Proof. rewrite <- perm_length. exact (map_nth_seq p 0). Qed.

Lemma perm_reindex {B} (f : nat -> B) :
  Permutation (map (fun i => f (nthn p i)) (seq 0 n)) (map f (seq 0 n)).
Proof. rewrite <- (map_map (nthn p) f), perm_map_seq. apply Permutation_map. exact Hp. Qed.

Lemma perm_eqb (i j : nat) : i < n -> j < n -> Nat.eqb (nthn p i) (nthn p j) = Nat.eqb i j.
Proof.
  intros Hi Hj. destruct (Nat.eqb_spec i j) as [->|Ne]; [apply Nat.eqb_refl|].
  apply Nat.eqb_neq. intros E. apply Ne. exact (perm_inj i j Hi Hj E).
Qed.

Lemma perm_memn_map (l : list nat) (j : nat) :
  (forall x, In x l -> x < n) -> j < n -> memn (nthn p j) (map (nthn p) l) = memn j l.
Proof.
  intros Hl Hj. unfold memn. induction l as [|a l IH]; [reflexivity|].
  cbn [map existsb]. rewrite (perm_eqb j a Hj (Hl a (or_introl eq_refl))), IH; [reflexivity|].
  intros x Hx. apply Hl. right. exact Hx.
Qed.

Lemma perm_NoDup_map (l : list nat) : (forall x, In x l -> x < n) -> NoDup l -> NoDup (map (nthn p) l).
Proof.
  intros Hl Hnd. induction Hnd as [|a t Ha Ht IH]; [constructor|].
  cbn [map]. constructor.
  - intros Hin. apply in_map_iff in Hin. destruct Hin as [x [Ex Hx]].
    apply perm_inj in Ex; [|apply Hl; right; exact Hx|apply Hl; left; reflexivity].
    subst x. contradiction.
  - apply IH. intros x Hx. apply Hl. right. exact Hx.
Qed.

Lemma perm_vec_length {A} (d : A) (v : list A) : length (perm_vec d p v) = n.
Proof. unfold perm_vec. rewrite map_length, seq_length. exact perm_length. Qed.

(** Characterisation of [perm_vec]: entry p[i] of the new vector is entry i of the old one. *)
Theorem perm_vec_nth {A} (d : A) (v : list A) (i : nat) :
  i < n -> nth (nthn p i) (perm_vec d p v) d = nth i v d.
Proof.
  intros Hi. unfold perm_vec. rewrite perm_length.
  rewrite nth_map_seq by (apply perm_lt; exact Hi). rewrite perm_index_of by exact Hi. reflexivity.
Qed.

(** ... and, read the other way, entry k of the new vector is entry p^-1[k] of the old one. *)
Lemma perm_vec_nth_inv {A} (d : A) (v : list A) (k : nat) :
  k < n -> nth k (perm_vec d p v) d = nth (index_of k p) v d.
Proof.
  intros Hk. unfold perm_vec. rewrite perm_length.
  apply (nth_map_seq (fun k0 => nth (index_of k0 p) v d)). exact Hk.
Qed.

(** ... and the renumbered vector is the only one of length n with that property. *)
Lemma perm_vec_ext {A} (d : A) (v w : list A) :
  length w = n -> (forall i, i < n -> nth (nthn p i) w d = nth i v d) -> w = perm_vec d p v.
Proof.
  intros Hw H. apply nth_ext with (d := d) (d' := d); [rewrite perm_vec_length; exact Hw|].
  intros k Hk. rewrite Hw in Hk. rewrite perm_vec_nth_inv by exact Hk.
  rewrite <- (perm_index_nth k Hk) at 1. apply H. apply perm_index_lt. exact Hk.
Qed.

(** A table over the new numbering whose entry p[i] is entry i of a table over the old one. *)
Lemma perm_vec_tabulate {A} (d : A) (F F' : nat -> A) :
  (forall i, i < n -> F' (nthn p i) = F i) -> map F' (seq 0 n) = perm_vec d p (map F (seq 0 n)).
Proof.
  intros H. apply perm_vec_ext; [rewrite map_length; apply seq_length|].
  intros i Hi. rewrite !nth_map_seq by (try apply perm_lt; exact Hi). apply H. exact Hi.
Qed.

Lemma perm_graph_length (g : graph) : length (perm_graph p g) = n.
Proof. unfold perm_graph. rewrite map_length, seq_length. exact perm_length. Qed.

Lemma perm_graph_row_inv (g : graph) (u : nat) :
  u < n -> row (perm_graph p g) u = map (nthn p) (row g (index_of u p)).
Proof.
  intros Hu. unfold row at 1, perm_graph. rewrite perm_length.
  exact (nth_map_seq (fun k => map (nthn p) (row g (index_of k p))) n u [] Hu).
Qed.

Theorem perm_graph_row (g : graph) (i : nat) :
  i < n -> row (perm_graph p g) (nthn p i) = map (nthn p) (row g i).
Proof.
  intros Hi. rewrite perm_graph_row_inv by (apply perm_lt; exact Hi).
  rewrite perm_index_of by exact Hi. reflexivity.
Qed.

Lemma perm_graph_edge (g : graph) (i j : nat) :
  length g = n -> wf_graph g -> i < n -> j < n ->
  (In (nthn p j) (row (perm_graph p g) (nthn p i)) <-> In j (row g i)).
Proof.
  intros HL Hwf Hi Hj. rewrite perm_graph_row by exact Hi.
  rewrite <- !memn_In, perm_memn_map; [reflexivity| |exact Hj].
  intros x Hx. rewrite <- HL. exact (Hwf _ _ Hx).
Qed.

Lemma perm_graph_wf (g : graph) : length g = n -> wf_graph g -> wf_graph (perm_graph p g).
Proof.
  intros HL Hwf u v Hin. rewrite perm_graph_length.
  pose proof (row_nonempty_lt _ _ _ Hin) as Hu. rewrite perm_graph_length in Hu.
  rewrite perm_graph_row_inv in Hin by exact Hu.
  apply in_map_iff in Hin. destruct Hin as [w [<- Hw]]. apply perm_lt.
  rewrite <- HL. exact (Hwf _ _ Hw).
Qed.

Lemma perm_graph_nodup (g : graph) :
  length g = n -> wf_graph g -> (forall u, NoDup (row g u)) -> forall u, NoDup (row (perm_graph p g) u).
Proof.
  intros HL Hwf Hnd u. destruct (Nat.lt_ge_cases u n) as [L|L].
  - rewrite perm_graph_row_inv by exact L. apply perm_NoDup_map; [|apply Hnd].
    intros x Hx. rewrite <- HL. exact (Hwf _ _ Hx).
  - unfold row. rewrite nth_overflow by (rewrite perm_graph_length; exact L). constructor.
Qed.

Lemma perm_graph_sym (g : graph) :
  length g = n -> wf_graph g -> (forall u v, In v (row g u) -> In u (row g v)) ->
  forall u v, In v (row (perm_graph p g) u) -> In u (row (perm_graph p g) v).
Proof.
  intros HL Hwf Hsym u v Hin.
  pose proof (row_nonempty_lt _ _ _ Hin) as Hu. rewrite perm_graph_length in Hu.
  rewrite perm_graph_row_inv in Hin by exact Hu.
  apply in_map_iff in Hin. destruct Hin as [w [<- Hw]].
  rewrite perm_graph_row by (rewrite <- HL; exact (Hwf _ _ Hw)).
  rewrite <- (perm_index_nth u Hu). apply in_map. apply Hsym. exact Hw.
Qed.

(** ** Weighted rows: rows renumbered by [p], columns by any table [pc] *)

Lemma perm_bip_length (pc : list nat) (b : wrows) : length (perm_bip p pc b) = n.
Proof. unfold perm_bip. rewrite map_length, seq_length. exact perm_length. Qed.

Lemma perm_wrows_length (a : wrows) : length (perm_wrows p a) = n.
Proof. apply perm_bip_length. Qed.

Lemma perm_bip_row_inv (pc : list nat) (b : wrows) (k : nat) :
  k < n ->
  nth k (perm_bip p pc b) [] = map (fun e : nat * Q => (nthn pc (fst e), snd e)) (nth (index_of k p) b []).
Proof.
  intros Hk. unfold perm_bip. rewrite perm_length.
  exact (nth_map_seq (fun k0 => map (fun e : nat * Q => (nthn pc (fst e), snd e)) (nth (index_of k0 p) b []))
                     n k [] Hk).
Qed.

Lemma perm_bip_row (pc : list nat) (b : wrows) (i : nat) :
  i < n ->
  nth (nthn p i) (perm_bip p pc b) [] = map (fun e : nat * Q => (nthn pc (fst e), snd e)) (nth i b []).
Proof.
  intros Hi. rewrite perm_bip_row_inv by (apply perm_lt; exact Hi).
  rewrite perm_index_of by exact Hi. reflexivity.
Qed.

Theorem reachk_equivariant (g : graph) (src : list bool) (k v : nat) :
  length g = n -> wf_graph g -> v < n ->
  (reachk (perm_graph p g) (perm_vecb p src) k (nthn p v) <-> reachk g src k v).
Proof.
  intros HL Hwf. revert v. induction k as [|k IH]; intros v Hv.
  - simpl. unfold nthb, perm_vecb. rewrite perm_vec_nth by exact Hv. reflexivity.
  - simpl. split.
    + intros [u' [Hr Hin]].
      pose proof (row_nonempty_lt _ _ _ Hin) as Hu. rewrite perm_graph_length in Hu.
      rewrite <- (perm_index_nth u' Hu) in Hr, Hin.
      pose proof (perm_index_lt u' Hu) as Hu0.
      exists (index_of u' p).
      exact (conj (proj1 (IH _ Hu0) Hr) (proj1 (perm_graph_edge g _ v HL Hwf Hu0 Hv) Hin)).
    + intros [u [Hr Hin]].
      assert (Hu : u < n) by (rewrite <- HL; exact (row_nonempty_lt _ _ _ Hin)).
      exists (nthn p u). split; [apply IH|apply perm_graph_edge]; assumption.
Qed.

Lemma hop_equivariant (g : graph) (src : list bool) (k v : nat) :
  length g = n -> wf_graph g -> v < n ->
  (hop (perm_graph p g) (perm_vecb p src) (nthn p v) k <-> hop g src v k).
Proof.
  intros HL Hwf Hv. unfold hop. rewrite reachk_equivariant by assumption.
  split; intros [H1 H2]; split; auto; intros j Hj Hr; apply (H2 j Hj).
  - apply (proj2 (reachk_equivariant g src j v HL Hwf Hv)). exact Hr.
  - apply (proj1 (reachk_equivariant g src j v HL Hwf Hv)). exact Hr.
Qed.

(** Pointwise operations commute with renumbering. *)
Theorem map_perm {A B} (f : A -> B) (da : A) (db : B) (u : list A) :
  length u = n ->
  map f (perm_vec da p u) = perm_vec db p (map f u).
Proof.
  intros Hu. unfold perm_vec. rewrite map_map. apply map_ext_in. intros k Hk.
  apply in_seq in Hk. rewrite perm_length in Hk.
  pose proof (perm_index_lt k ltac:(lia)) as Hi.
  symmetry. apply nth_map_lt. lia.
Qed.

Theorem map2_perm {A B C} (f : A -> B -> C) (da : A) (db : B) (dc : C) (u : list A) (v : list B) :
  length u = n -> length v = n ->
  map2 f (perm_vec da p u) (perm_vec db p v) = perm_vec dc p (map2 f u v).
Proof.
  intros Hu Hv. unfold perm_vec. rewrite map2_map_seq. apply map_ext_in. intros k Hk.
  apply in_seq in Hk. rewrite perm_length in Hk.
  pose proof (perm_index_lt k ltac:(lia)) as Hi.
  symmetry. apply nth_map2; lia.
Qed.

Theorem bfs_equivariant (g : graph) (src : list bool) (dist : list Z) :
  length g = n -> wf_graph g -> length src = n ->
  bfs g src = Some dist ->
  bfs (perm_graph p g) (perm_vecb p src) = Some (perm_vecz p dist).
Proof.
  intros HL Hwf Hs Hb.
  destruct (bfs_exact g src) as [dist0 [Hb0 [Hl0 Hf0]]]; [lia|].
  rewrite Hb in Hb0. injection Hb0 as <-.
  assert (Hs' : length (perm_vecb p src) = length (perm_graph p g)).
  { unfold perm_vecb. rewrite perm_vec_length, perm_graph_length. reflexivity. }
  destruct (bfs_exact (perm_graph p g) (perm_vecb p src) Hs') as [dist' [Hb' [Hl' Hf']]].
  rewrite Hb'. f_equal. rewrite perm_graph_length in Hl', Hf'.
  apply perm_vec_ext; [exact Hl'|]. intros v Hv.
  fold (nthz dist' (nthn p v)). fold (nthz dist v).
  pose proof (bfs_range g src dist ltac:(lia) Hb v ltac:(lia)) as Hrange.
  destruct (Hf0 v ltac:(lia)) as [Hk0 Hm0].
  destruct (Hf' (nthn p v) (perm_lt v Hv)) as [Hk' Hm'].
  destruct (Z.eq_dec (nthz dist v) (-1)%Z) as [E|Ne].
  - rewrite E. apply Hm'. intros k Hr.
    apply (proj1 (reachk_equivariant g src k v HL Hwf Hv)) in Hr.
    exact (proj1 Hm0 E k Hr).
  - assert (Ek : nthz dist v = Z.of_nat (Z.to_nat (nthz dist v))) by lia.
    rewrite Ek. apply Hk'. apply (proj2 (hop_equivariant g src _ v HL Hwf Hv)).
    apply Hk0. exact Ek.
Qed.

End Perm.

Lemma sumq_Permutation (u v : list Q) : Permutation u v -> (sumq u == sumq v)%Q.
Proof.
  intros H; induction H as [|x l l' H IH|x y l|l l' l'' H1 IH1 H2 IH2]; simpl.
  - reflexivity.
  - rewrite IH. reflexivity.
  - ring.
  - rewrite IH1. exact IH2.
Qed.

Lemma perm_vec_Permutation {A} (n : nat) (p : list nat) (d : A) (v : list A) :
  Permutation p (seq 0 n) -> length v = n -> Permutation (perm_vec d p v) v.
Proof.
  intros Hp Hv. unfold perm_vec. rewrite (perm_length n p Hp).
  apply Permutation_sym. rewrite <- (map_nth_seq v d) at 1. rewrite Hv.
  rewrite (map_ext_in _ (fun i => nth (index_of (nthn p i) p) v d)).
  - apply (perm_reindex n p Hp (fun k => nth (index_of k p) v d)).
  - intros i Hi. apply in_seq in Hi. rewrite (perm_index_of n p Hp) by lia. reflexivity.
Qed.

(** The numbers of stored entries of the rows are rearranged. *)
Lemma perm_wrows_row_lengths (n : nat) (p : list nat) (a : wrows) :
  Permutation p (seq 0 n) -> length a = n ->
  Permutation (map (@length (nat * Q)) (perm_wrows p a)) (map (@length (nat * Q)) a).
Proof.
  intros Hp HL.
  replace (map (@length (nat * Q)) (perm_wrows p a)) with (perm_vec 0 p (map (@length (nat * Q)) a)).
  - apply (perm_vec_Permutation n p 0 _ Hp). rewrite map_length. exact HL.
  - unfold perm_wrows, perm_bip, perm_vec. rewrite map_map. apply map_ext. intros k.
    rewrite map_length. exact (map_nth (@length (nat * Q)) a [] (index_of k p)).
Qed.

(** (P_r B P_c^T)(P_c x) = P_r (B x), term by term (Leibniz equality, not only [==]); only the column
    table has to be a permutation, the rows may be picked by any table. *)
Theorem matvec_perm_bip (nc : nat) (pr pc : list nat) (b : wrows) (x : list Q) :
  Permutation pc (seq 0 nc) -> wf_rows nc b ->
  matvec (perm_bip pr pc b) (perm_vecq pc x) = perm_vecq pr (matvec b x).
Proof.
  intros Hpc Hwf. unfold matvec at 1, perm_bip, perm_vecq, perm_vec at 2.
  rewrite map_map. apply map_ext. intros k.
  set (r := nth (index_of k pr) b []).
  assert (Er : nth (index_of k pr) (matvec b x) 0%Q =
               sumq (map (fun e : nat * Q => (snd e * nthq x (fst e))%Q) r)).
  { unfold matvec, r.
    exact (map_nth (fun r0 : wrow => sumq (map (fun e : nat * Q => (snd e * nthq x (fst e))%Q) r0))
                   b [] (index_of k pr)). }
  rewrite Er, map_map. f_equal. apply map_ext_in. intros e He. cbn [fst snd]. f_equal.
  unfold nthq. apply (perm_vec_nth nc pc Hpc). exact (wf_rows_nth nc b _ e Hwf He).
Qed.

Theorem matvec_perm (n : nat) (p : list nat) (a : wrows) (x : list Q) :
  Permutation p (seq 0 n) -> wf_rows n a ->
  matvec (perm_wrows p a) (perm_vecq p x) = perm_vecq p (matvec a x).
Proof. intros Hp Hwf. apply (matvec_perm_bip n); assumption. Qed.

(** * C01: canonical form - equal denotations convert to equal CSR matrices *)

Lemma row_sorted_tail_notin (e : nat * Q) (t : wrow) (k : nat) :
  row_sorted (e :: t) -> k <= fst e -> ~ In k (map fst t).
Proof.
  unfold row_sorted. simpl. intros H Hk Hin. inversion H as [|a l Hs Ha]; subst.
  rewrite Forall_forall in Ha. specialize (Ha _ Hin). lia.
Qed.

Lemma entry_row_head (e : nat * Q) (t : wrow) :
  row_sorted (e :: t) -> (entry_row (e :: t) (fst e) == snd e)%Q.
Proof.
  intros H. rewrite entry_row_cons, Nat.eqb_refl.
  rewrite (entry_row_notin t) by (apply (row_sorted_tail_notin e); [exact H|lia]). ring.
Qed.

Lemma entry_row_below (e : nat * Q) (t : wrow) (k : nat) :
  row_sorted (e :: t) -> k < fst e -> entry_row (e :: t) k = 0%Q.
Proof.
  intros H Hk. rewrite entry_row_cons.
  destruct (Nat.eqb_spec (fst e) k) as [E|Ne]; [lia|].
  apply entry_row_notin. apply (row_sorted_tail_notin e); [exact H|lia].
Qed.

Lemma row_sorted_tail (e : nat * Q) (t : wrow) : row_sorted (e :: t) -> row_sorted t.
Proof. unfold row_sorted. simpl. intros H. inversion H; assumption. Qed.

Lemma sorted_rows_eq (r1 r2 : wrow) :
  row_sorted r1 -> row_sorted r2 ->
  (forall e, In e r1 -> ~ (snd e == 0)%Q) -> (forall e, In e r2 -> ~ (snd e == 0)%Q) ->
  (forall j, (entry_row r1 j == entry_row r2 j)%Q) ->
  row_eq r1 r2.
Proof.
  revert r2; induction r1 as [|e1 t1 IH]; intros r2 S1 S2 N1 N2 HE.
  - destruct r2 as [|e2 t2]; [split; constructor|].
    exfalso. apply (N2 e2); [left; reflexivity|].
    rewrite <- (entry_row_head e2 t2 S2), <- HE. reflexivity.
  - destruct r2 as [|e2 t2].
    { exfalso. apply (N1 e1); [left; reflexivity|].
      rewrite <- (entry_row_head e1 t1 S1), HE. reflexivity. }
    destruct (Nat.lt_trichotomy (fst e1) (fst e2)) as [L|[E|L]].
    + exfalso. apply (N1 e1); [left; reflexivity|].
      rewrite <- (entry_row_head e1 t1 S1), HE, (entry_row_below e2 t2 _ S2 L). reflexivity.
    + assert (Hv : (snd e1 == snd e2)%Q).
      { rewrite <- (entry_row_head e1 t1 S1), HE, E. apply entry_row_head. exact S2. }
      assert (Ht : row_eq t1 t2).
      { apply IH.
        - exact (row_sorted_tail _ _ S1).
        - exact (row_sorted_tail _ _ S2).
        - intros e He. apply N1. right. exact He.
        - intros e He. apply N2. right. exact He.
        - intros j. specialize (HE j). rewrite !entry_row_cons in HE.
          destruct (Nat.eqb_spec (fst e1) j) as [E1|Ne1].
          + rewrite (entry_row_notin t1), (entry_row_notin t2); [reflexivity| |].
            * apply (row_sorted_tail_notin e2); [exact S2|lia].
            * apply (row_sorted_tail_notin e1); [exact S1|lia].
          + rewrite <- E in HE. destruct (Nat.eqb_spec (fst e1) j) as [E1|_]; [contradiction|].
            exact HE. }
      destruct Ht as [Hk Hvs]. split; simpl.
      * rewrite E, Hk. reflexivity.
      * constructor; assumption.
    + exfalso. apply (N2 e2); [left; reflexivity|].
      rewrite <- (entry_row_head e2 t2 S2), <- HE, (entry_row_below e1 t1 _ S1 L). reflexivity.
Qed.

Lemma Forall2_nth_intro {A} (R : A -> A -> Prop) (d : A) (a b : list A) :
  length a = length b -> (forall i, i < length a -> R (nth i a d) (nth i b d)) -> Forall2 R a b.
Proof.
  revert b; induction a as [|x a IH]; intros [|y b] HL H; simpl in HL; try discriminate; constructor.
  - apply (H 0). simpl. lia.
  - apply IH; [lia|]. intros i Hi. apply (H (S i)). simpl. lia.
Qed.

Lemma rows_sorted_nth (rows : wrows) (i : nat) : rows_sorted rows -> row_sorted (nth i rows []).
Proof.
  intros H. destruct (Nat.lt_ge_cases i (length rows)) as [L|L]; [|rewrite nth_overflow by exact L; constructor].
  unfold rows_sorted in H. rewrite Forall_forall in H. apply H. apply nth_In. exact L.
Qed.

Lemma nth_eliminate_zeros (rows : wrows) (i : nat) :
  nth i (eliminate_zeros rows) [] = filter (fun e : nat * Q => qnz (snd e)) (nth i rows []).
Proof.
  unfold eliminate_zeros.
  apply (nth_map_nil (fun r : wrow => filter (fun e : nat * Q => qnz (snd e)) r)). reflexivity.
Qed.

Lemma entry_eliminate_zeros (rows : wrows) (i j : nat) :
  (entry (eliminate_zeros rows) i j == entry rows i j)%Q.
Proof. unfold entry. rewrite nth_eliminate_zeros. apply entry_row_filter_nz. Qed.

(** Two containers (any of Dense / Coo / Csc / Lil) of the same shape standing for the same matrix
    convert to the same CSR matrix once stored zeros are dropped: same column lists, [==] values.
    ([eliminate_zeros] is needed: COO duplicates that cancel stay stored.) *)
Theorem to_csr_canonical (c1 c2 : container) :
  is_csr c1 = false -> is_csr c2 = false ->
  wf_shape c1 -> wf_shape c2 -> canonical c1 -> canonical c2 ->
  c_nrow c1 = c_nrow c2 -> c_ncol c1 = c_ncol c2 ->
  (forall i j, (den c1 i j == den c2 i j)%Q) ->
  fst (to_csr c1) = fst (to_csr c2) /\
  rows_eq (eliminate_zeros (snd (to_csr c1))) (eliminate_zeros (snd (to_csr c2))).
Proof.
  intros K1 K2 W1 W2 C1 C2 Hr Hc Hden.
  destruct (to_csr_shape c1) as [Sc1 Sr1]. destruct (to_csr_shape c2) as [Sc2 Sr2].
  split; [congruence|].
  pose proof (to_csr_sorted c1 K1 C1) as So1. pose proof (to_csr_sorted c2 K2 C2) as So2.
  unfold rows_eq. apply (Forall2_nth_intro _ []).
  - unfold eliminate_zeros. rewrite !map_length.
    exact (eq_trans Sr1 (eq_trans Hr (eq_sym Sr2))).
  - intros i Hi. unfold eliminate_zeros in Hi. rewrite map_length in Hi.
    rewrite !nth_eliminate_zeros. apply sorted_rows_eq.
    + apply (sorted_map_filter fst), rows_sorted_nth. exact So1.
    + apply (sorted_map_filter fst), rows_sorted_nth. exact So2.
    + intros e He. apply filter_In in He. apply qnz_true. tauto.
    + intros e He. apply filter_In in He. apply qnz_true. tauto.
    + intros j. rewrite !entry_row_filter_nz.
      change (entry (snd (to_csr c1)) i j == entry (snd (to_csr c2)) i j)%Q.
      rewrite !to_csr_denotation by assumption. apply Hden.
Qed.

(** A dense array never produces a stored zero. *)
Lemma eliminate_zeros_dense (rows : list (list Q)) :
  eliminate_zeros (snd (to_csr (Dense rows))) = snd (to_csr (Dense rows)).
Proof.
  cbn [to_csr snd]. unfold eliminate_zeros. rewrite map_map. apply map_ext. intros r.
  unfold dense_row. apply filter_all. intros e He. apply filter_In in He. tauto.
Qed.

(** * C01: CSR with shuffled rows (unsorted indices) has the same denotation and pattern *)

Lemma entry_row_Permutation (r r' : wrow) (j : nat) :
  Permutation r r' -> (entry_row r j == entry_row r' j)%Q.
Proof.
  intros H. unfold entry_row. apply sumq_Permutation. apply Permutation_map. apply perm_filter. exact H.
Qed.

Lemma Forall2_nth_elim {A} (R : A -> A -> Prop) (d : A) (a b : list A) (i : nat) :
  R d d -> Forall2 R a b -> R (nth i a d) (nth i b d).
Proof.
  intros H0 H. revert i; induction H as [|x y a b Hxy Hab IH]; intros [|i]; simpl; auto.
Qed.

Print Assumptions block_denotation.
Print Assumptions fit_bipartite_eq_block.
Print Assumptions to_csr_denotation.
Print Assumptions to_csr_canonical.
Print Assumptions bfs_equivariant.
Print Assumptions matvec_perm_bip.
