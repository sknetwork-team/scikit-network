(** Property C07, tree builders: the trees built by LouvainHierarchy._get_hierarchy ([lh_tree]) and by
    LouvainIteration._recursive_louvain ([ri]) around a Louvain oracle are well-shaped (every list has at least
    two elements) and their leaves are exactly the nodes. *)
From Coq Require Import Permutation Lia Sorting.Sorted.
From SKN Require Import Base.Util Model.Dendrogram Model.Cuts Model.Hierarchy Proofs.DendroBase.

(** * [unique] (np.unique) *)

Lemma ins_nat_In x a l : In x (ins_nat a l) <-> x = a \/ In x l.
Proof.
  induction l as [|y t IH]; simpl.
  - intuition congruence.
  - destruct (Nat.eqb a y) eqn:E.
    + apply Nat.eqb_eq in E. subst. simpl. intuition congruence.
    + destruct (Nat.ltb a y); simpl; [intuition congruence|]. rewrite IH. intuition congruence.
Qed.

Lemma unique_In x l : In x (unique l) <-> In x l.
Proof.
  unfold unique. induction l as [|a t IH]; simpl; [tauto|].
  rewrite ins_nat_In, IH. intuition congruence.
Qed.

Lemma ins_nat_sorted a l : StronglySorted lt l -> StronglySorted lt (ins_nat a l).
Proof.
  induction l as [|y t IH]; simpl; intros HS.
  - constructor; constructor.
  - inversion HS as [|? ? HS' HF]; subst.
    destruct (Nat.eqb a y) eqn:E; [exact HS|].
    destruct (Nat.ltb a y) eqn:L.
    + apply Nat.ltb_lt in L. constructor; [exact HS|]. constructor; [exact L|].
      eapply Forall_impl; [|exact HF]. simpl. intros; lia.
    + apply Nat.eqb_neq in E. apply Nat.ltb_ge in L. constructor; [apply IH; exact HS'|].
      apply Forall_forall. intros z Hz. apply ins_nat_In in Hz. destruct Hz as [->|Hz]; [lia|].
      rewrite Forall_forall in HF. apply HF; exact Hz.
Qed.

Lemma unique_sorted l : StronglySorted lt (unique l).
Proof.
  unfold unique. induction l as [|a t IH]; simpl; [constructor|]. apply ins_nat_sorted; exact IH.
Qed.

Lemma sorted_NoDup l : StronglySorted lt l -> NoDup l.
Proof.
  induction 1 as [|a l HS IH HF]; constructor; [|exact IH].
  intros Hin. rewrite Forall_forall in HF. specialize (HF a Hin). lia.
Qed.

Lemma unique_NoDup l : NoDup (unique l).
Proof. apply sorted_NoDup, unique_sorted. Qed.

Lemma unique_nonempty l : l <> [] -> unique l <> [].
Proof.
  destruct l as [|a t]; [congruence|]. intros _ E.
  assert (H : In a (unique (a :: t))) by (apply unique_In; left; reflexivity).
  rewrite E in H. exact H.
Qed.

Lemma nodup_map_filter {A B} (g : A -> B) (p : A -> bool) (l : list A) :
  NoDup (map g l) -> NoDup (map g (filter p l)).
Proof.
  induction l as [|a t IH]; simpl; intros HN; [constructor|].
  inversion HN as [|? ? Hnot HN']; subst.
  destruct (p a); simpl; [|apply IH; exact HN'].
  constructor; [|apply IH; exact HN'].
  intros Hin. apply Hnot. apply in_map_iff in Hin. destruct Hin as [x [Hx Hin]].
  apply filter_In in Hin. apply in_map_iff. exists x. tauto.
Qed.

(** [sel d l idx] = [[l[i] for i in idx]] *)
Definition sel {A} (d : A) (l : list A) (idx : list nat) : list A := map (fun i => nth i l d) idx.

Lemma mapr_nth_sel {A} (d : A) (l : list A) (idx : list nat) :
  Forall (fun i => i < length l) idx -> mapr_nth l idx = Ok (sel d l idx).
Proof.
  induction idx as [|i rest IH]; simpl; intros HF; [reflexivity|].
  inversion HF as [|? ? Hi HF']; subst.
  destruct (nth_error l i) as [a|] eqn:E.
  - rewrite (IH HF'). f_equal. f_equal. symmetry. apply nth_error_nth. exact E.
  - apply nth_error_None in E. lia.
Qed.

Lemma sel_In {A} (d : A) (l : list A) (idx : list nat) x :
  Forall (fun i => i < length l) idx -> In x (sel d l idx) -> In x l.
Proof.
  unfold sel. intros HF Hin. apply in_map_iff in Hin. destruct Hin as [i [E Hi]].
  rewrite Forall_forall in HF. subst. apply nth_In. apply HF. exact Hi.
Qed.

Lemma flat_map_leaf l : flat_map tleaves (map PLeaf l) = l.
Proof. induction l as [|a t IH]; simpl; [reflexivity|]. f_equal. exact IH. Qed.

Lemma shape_leaf l : forallb tree_shape (map PLeaf l) = true.
Proof. induction l as [|a t IH]; simpl; [reflexivity|exact IH]. Qed.

Lemma members_In labels c i : In i (members labels c) <-> nth_error labels i = Some c.
Proof.
  rewrite <- In_combine_seq. unfold members. rewrite in_map_iff. split.
  - intros [[j d] [E Hin]]. simpl in E. subst. apply filter_In in Hin. destruct Hin as [Hin Hc].
    simpl in Hc. apply Nat.eqb_eq in Hc. subst. exact Hin.
  - intros Hin. exists (i, c). split; [reflexivity|]. apply filter_In. split; [exact Hin|].
    simpl. apply Nat.eqb_refl.
Qed.

Lemma members_lt labels c i : In i (members labels c) -> i < length labels.
Proof. intros H. apply members_In in H. now apply nth_error_Some_lt in H. Qed.

Lemma members_Forall labels c n : length labels = n -> Forall (fun i => i < n) (members labels c).
Proof. intros <-. apply Forall_forall. intros i. apply members_lt. Qed.

Lemma members_label labels c i : In i (members labels c) -> In c labels.
Proof. intros H. apply members_In in H. now apply nth_error_In in H. Qed.

Lemma members_NoDup labels c : NoDup (members labels c).
Proof.
  unfold members. apply nodup_map_filter. rewrite map_fst_combine by apply seq_length. apply seq_NoDup.
Qed.

Lemma members_functional labels c c' i : In i (members labels c) -> In i (members labels c') -> c = c'.
Proof. rewrite !members_In. congruence. Qed.

Lemma members_total labels i : i < length labels -> exists c, In i (members labels c).
Proof.
  intros Hi. destruct (nth_error labels i) as [c|] eqn:E; [exists c; now apply members_In|].
  apply nth_error_None in E. lia.
Qed.

Lemma members_exists labels c : In c labels -> exists i, In i (members labels c).
Proof. intros Hc. apply In_nth_error in Hc. destruct Hc as [i Hi]. exists i. now apply members_In. Qed.

Lemma sel_members_nonempty {A} (d : A) l labels c : In c labels -> sel d l (members labels c) <> [].
Proof.
  intros Hc. destruct (members_exists labels c Hc) as [i Hi]. unfold sel.
  destruct (members labels c); [contradiction | discriminate].
Qed.

Lemma members_length_lt labels c c' : In c' labels -> c' <> c -> length (members labels c) < length labels.
Proof.
  intros Hc' Hne. destruct (members_exists labels c' Hc') as [i Hi].
  assert (HN : NoDup (i :: members labels c)).
  { constructor; [|apply members_NoDup]. intros Hin. apply Hne. eapply members_functional; eauto. }
  assert (HI : incl (i :: members labels c) (seq 0 (length labels))).
  { intros j [<-|Hj]; apply in_seq; [apply members_lt in Hi|apply members_lt in Hj]; lia. }
  pose proof (NoDup_incl_length HN HI) as HL. simpl in HL. rewrite seq_length in HL. lia.
Qed.

(** The classes of [np.unique(labels)] partition the positions. *)
Lemma members_perm labels :
  Permutation (flat_map (members labels) (unique labels)) (seq 0 (length labels)).
Proof.
  apply NoDup_Permutation.
  - (* distinct labels have disjoint classes *)
    induction (unique_NoDup labels) as [|c cs Hn _ IH]; [constructor|]. simpl.
    apply NoDup_app_disj; [apply members_NoDup | exact IH |].
    intros i Hi Hin. apply in_flat_map in Hin. destruct Hin as [c' [Hc' Hi']].
    now rewrite (members_functional _ _ _ _ Hi Hi') in Hn.
  - apply seq_NoDup.
  - intros i. rewrite in_flat_map. split.
    + intros [c [_ Hi]]. apply in_seq. apply members_lt in Hi. lia.
    + intros Hi. apply in_seq in Hi. destruct (members_total labels i) as [c Hc]; [lia|].
      exists c. split; [|exact Hc]. apply unique_In. eapply members_label; exact Hc.
Qed.

Lemma sel_classes_perm {A} (d : A) l labels : length labels = length l ->
  Permutation (sel d l (flat_map (members labels) (unique labels))) l.
Proof.
  intros HL. rewrite <- (map_nth_seq l d) at 2. unfold sel. apply Permutation_map. rewrite <- HL. apply members_perm.
Qed.

(** * One level of LouvainHierarchy._get_hierarchy *)

(** the new level: one tree per label of [lu], over the trees of its members *)
Definition regroup (tree : list ptree) (labels lu : list nat) : list ptree :=
  map (fun c => unwrap1 (sel (PLeaf 0) tree (members labels c))) lu.

Lemma group_level_eq tree labels lu : length tree = length labels ->
  group_level tree labels lu = Ok (regroup tree labels lu).
Proof.
  intros HL. unfold regroup. induction lu as [|c rest IH]; simpl; [reflexivity|].
  rewrite (mapr_nth_sel (PLeaf 0)) by (apply members_Forall; symmetry; exact HL).
  rewrite IH. reflexivity.
Qed.

Lemma tleaves_unwrap1 cl : tleaves (unwrap1 cl) = flat_map tleaves cl.
Proof. destruct cl as [|t [|t' r]]; simpl; rewrite ?app_nil_r; reflexivity. Qed.

Lemma shape_unwrap1 cl : cl <> [] -> forallb tree_shape cl = true -> tree_shape (unwrap1 cl) = true.
Proof.
  destruct cl as [|t [|t' r]]; intros HN HS; [congruence| |].
  - simpl in *. apply andb_true_iff in HS. tauto.
  - change (unwrap1 (t :: t' :: r)) with (PNode (t :: t' :: r)). simpl tree_shape.
    change (forallb tree_shape (t :: t' :: r) = true). exact HS.
Qed.

Lemma leaves_group tree labels lu :
  flat_map tleaves (regroup tree labels lu) = flat_map tleaves (sel (PLeaf 0) tree (flat_map (members labels) lu)).
Proof.
  unfold regroup. induction lu as [|c rest IH]; simpl; [reflexivity|].
  rewrite tleaves_unwrap1, IH. unfold sel. rewrite map_app, flat_map_app. reflexivity.
Qed.

Lemma group_step tree labels : length tree = length labels -> forallb tree_shape tree = true ->
  forallb tree_shape (regroup tree labels (unique labels)) = true /\
  Permutation (flat_map tleaves (regroup tree labels (unique labels))) (flat_map tleaves tree).
Proof.
  intros HL HS. split.
  - apply forallb_forall. intros t Ht. apply in_map_iff in Ht. destruct Ht as [c [<- Hc]].
    apply (proj1 (unique_In c labels)) in Hc.
    assert (HF : Forall (fun i => i < length tree) (members labels c)) by (apply members_Forall; symmetry; exact HL).
    apply shape_unwrap1; [now apply sel_members_nonempty|].
    apply forallb_forall. intros x Hx. apply sel_In in Hx; [|exact HF].
    rewrite forallb_forall in HS. apply HS. exact Hx.
  - rewrite leaves_group. apply Permutation_flat_map, sel_classes_perm. now symmetry.
Qed.

(** * The [while 1] loop *)

(** contract of the Louvain oracle for LouvainHierarchy: the first label vector has one label per node, each later
    one has one label per cluster of the previous level *)
Fixpoint levels_ok (m : nat) (levels : list (list nat)) : Prop :=
  match levels with
  | [] => True
  | l :: rest => length l = m /\ levels_ok (length (unique l)) rest
  end.

Lemma lh_loop_spec : forall more tree labels,
  length tree = length labels -> levels_ok (length (unique labels)) more ->
  match lh_loop tree labels more with
  | Ok out => forallb tree_shape tree = true ->
              forallb tree_shape out = true /\ Permutation (flat_map tleaves out) (flat_map tleaves tree)
  | Err e => e = KeyError
  end.
Proof.
  induction more as [|l' more' IH]; intros tree labels HL HK; simpl;
    rewrite (group_level_eq tree labels _ HL); [reflexivity|].
  destruct (Nat.eqb (length (unique labels)) (length (unique l'))); [exact (group_step tree labels HL)|].
  destruct HK as [HK1 HK2].
  assert (HL' : length (regroup tree labels (unique labels)) = length l') by (unfold regroup; now rewrite map_length).
  specialize (IH _ _ HL' HK2).
  destruct (lh_loop _ l' more') as [out|e]; [|exact IH].
  intros HS. destruct (group_step tree labels HL HS) as [HS' HP']. destruct (IH HS') as [HS2 HP2].
  split; [exact HS2 | exact (Permutation_trans HP2 HP')].
Qed.

Lemma lh_tree_spec n levels : levels_ok n levels ->
  match lh_tree n levels with
  | Ok t => 2 <= n -> tree_shape t = true /\ Permutation (tleaves t) (seq 0 n) /\ (exists ts, t = PNode ts)
  | Err e => e = KeyError
  end.
Proof.
  intros HK. unfold lh_tree, lh_tree_gen.
  destruct levels as [|labels more]; [reflexivity|]. destruct HK as [HL HK].
  assert (HR := lh_loop_spec more (map PLeaf (seq 0 n)) labels
                  ltac:(rewrite map_length, seq_length; symmetry; exact HL) HK).
  destruct (lh_loop (map PLeaf (seq 0 n)) labels more) as [out|e]; [|exact HR].
  destruct (HR (shape_leaf _)) as [HS HP]. rewrite flat_map_leaf in HP.
  pose proof (Permutation_length HP) as HLen. rewrite seq_length in HLen.
  destruct out as [|[i|ts] [|t2 r]]; intros Hn; simpl in HLen; try lia.
  2: { (* a single node is returned as it is *)
    simpl in HS, HP. rewrite andb_true_r in HS. rewrite app_nil_r in HP.
    split; [exact HS|]. split; [exact HP|]. eexists; reflexivity. }
  all: split; [simpl tree_shape; exact HS|]; split; [exact HP|eexists; reflexivity].
Qed.

Theorem lh_tree_ok : forall n levels t, 2 <= n -> levels_ok n levels -> lh_tree n levels = Ok t ->
  tree_shape t = true /\ Permutation (tleaves t) (seq 0 n) /\ (exists ts, t = PNode ts).
Proof. intros n levels t Hn HK H. assert (S := lh_tree_spec n levels HK). rewrite H in S. exact (S Hn). Qed.

(** with a well-formed oracle the construction never fails except by running out of oracle answers *)
Theorem lh_tree_no_index_error : forall n levels e, levels_ok n levels -> lh_tree n levels = Err e -> e = KeyError.
Proof. intros n levels e HK H. assert (S := lh_tree_spec n levels HK). rewrite H in S. exact S. Qed.

(** * LouvainIteration._recursive_louvain *)

(** The local [fix each] of [ri], abstracted over the recursive call. *)
Definition ri_each (rec : list nat -> result ptree) (nodes labels : list nat) : list nat -> result (list ptree) :=
  fix each (cs : list nat) : result (list ptree) :=
    match cs with
    | [] => Ok []
    | c :: rest =>
        match mapr_nth nodes (members labels c) with
        | Err e => Err e
        | Ok sub =>
            match rec sub, each rest with
            | Ok t, Ok ts => Ok (t :: ts)
            | Err e, _ => Err e
            | _, Err e => Err e
            end
        end
    end.

Definition ri_labels (oracle : list nat -> list nat) (has_edge : list nat -> bool) (depth : Z) (nodes : list nat)
  : list nat :=
  if has_edge nodes && negb (depth =? 0)%Z then oracle nodes else map (fun _ => 0) nodes.

Lemma ri_S f oracle has_edge depth nodes :
  ri (S f) oracle has_edge depth nodes =
  match unique (ri_labels oracle has_edge depth nodes) with
  | [] => Err IndexError
  | [_] => match nodes with
           | [] => Err IndexError
           | [v] => Ok (PLeaf v)
           | _ => Ok (PNode (map PLeaf nodes))
           end
  | _ => match ri_each (ri f oracle has_edge (depth - 1)%Z) nodes (ri_labels oracle has_edge depth nodes)
                 (unique (ri_labels oracle has_edge depth nodes)) with
         | Ok ts => Ok (PNode ts)
         | Err e => Err e
         end
  end.
Proof. reflexivity. Qed.

Lemma ri_labels_length oracle has_edge depth nodes :
  (forall l, length (oracle l) = length l) -> length (ri_labels oracle has_edge depth nodes) = length nodes.
Proof.
  intros HO. unfold ri_labels. destruct (has_edge nodes && negb (depth =? 0)%Z); [apply HO|apply map_length].
Qed.

Lemma ri_each_ok rec nodes labels :
  length labels = length nodes ->
  (forall sub t, rec sub = Ok t -> tree_shape t = true /\ Permutation (tleaves t) sub) ->
  forall cs ts, ri_each rec nodes labels cs = Ok ts ->
  forallb tree_shape ts = true /\ length ts = length cs /\
  Permutation (flat_map tleaves ts) (sel 0 nodes (flat_map (members labels) cs)).
Proof.
  intros HL HR. induction cs as [|c rest IH]; intros ts H.
  - simpl in H. inversion H; subst. simpl. auto.
  - cbn [ri_each] in H.
    rewrite (mapr_nth_sel 0) in H by (apply members_Forall; exact HL).
    destruct (rec (sel 0 nodes (members labels c))) as [t|e] eqn:E1; [|discriminate].
    destruct (ri_each rec nodes labels rest) as [ts'|e] eqn:E2; [|discriminate].
    inversion H; subst. apply HR in E1. destruct E1 as [S1 P1].
    destruct (IH ts' eq_refl) as [S2 [L2 P2]].
    split; [simpl; rewrite S1, S2; reflexivity|]. split; [simpl; rewrite L2; reflexivity|].
    simpl. unfold sel in *. rewrite map_app. apply Permutation_app; assumption.
Qed.

(** LouvainIteration: any oracle returning one label per node *)
Theorem ri_tree_ok : forall fuel oracle has_edge depth nodes t,
  (forall l, length (oracle l) = length l) -> ri fuel oracle has_edge depth nodes = Ok t ->
  tree_shape t = true /\ Permutation (tleaves t) nodes /\ (2 <= length nodes -> exists ts, t = PNode ts).
Proof.
  intros fuel oracle has_edge depth nodes t HO. revert depth nodes t.
  induction fuel as [|f IH]; intros depth nodes t H; [simpl in H; discriminate|].
  rewrite ri_S in H.
  pose proof (ri_labels_length oracle has_edge depth nodes HO) as HL.
  remember (ri_labels oracle has_edge depth nodes) as labels eqn:Elab.
  destruct (unique labels) as [|a [|b r]] eqn:EU; [discriminate| |].
  - destruct nodes as [|v [|w r']]; [discriminate| |].
    + inversion H; subst t. simpl. split; [reflexivity|]. split; [apply Permutation_refl|]. lia.
    + inversion H; subst t. split.
      * simpl tree_shape. apply (shape_leaf (v :: w :: r')).
      * split; [|intros _; eexists; reflexivity].
        change (Permutation (flat_map tleaves (map PLeaf (v :: w :: r'))) (v :: w :: r')).
        rewrite flat_map_leaf. apply Permutation_refl.
  - destruct (ri_each (ri f oracle has_edge (depth - 1)%Z) nodes labels (a :: b :: r)) as [ts|e] eqn:HE;
      [|discriminate].
    inversion H; subst t. rewrite <- EU in HE.
    apply ri_each_ok in HE; [|exact HL|].
    + destruct HE as [S1 [L1 P1]]. split; [|split; [|intros _; eexists; reflexivity]].
      * simpl. rewrite S1, L1, EU. reflexivity.
      * exact (Permutation_trans P1 (sel_classes_perm 0 nodes labels HL)).
    + intros sub t Hs. apply IH in Hs. tauto.
Qed.

Lemma ri_each_total rec nodes labels :
  length labels = length nodes ->
  forall cs, (forall c, In c cs -> exists t, rec (sel 0 nodes (members labels c)) = Ok t) ->
  exists ts, ri_each rec nodes labels cs = Ok ts.
Proof.
  intros HL. induction cs as [|c rest IH]; intros HR.
  - exists []. reflexivity.
  - cbn [ri_each].
    rewrite (mapr_nth_sel 0) by (apply members_Forall; exact HL).
    destruct (HR c (or_introl eq_refl)) as [t Ht]. rewrite Ht.
    destruct IH as [ts Hts]; [intros c' Hc'; apply HR; right; exact Hc'|].
    rewrite Hts. eexists; reflexivity.
Qed.

Lemma ri_total_aux oracle has_edge : (forall l, length (oracle l) = length l) ->
  forall fuel depth nodes, nodes <> [] -> length nodes < fuel ->
  exists t, ri fuel oracle has_edge depth nodes = Ok t.
Proof.
  intros HO. induction fuel as [|f IH]; intros depth nodes HN HF; [lia|].
  rewrite ri_S.
  pose proof (ri_labels_length oracle has_edge depth nodes HO) as HL.
  remember (ri_labels oracle has_edge depth nodes) as labels eqn:Elab.
  assert (HU : unique labels <> []).
  { apply unique_nonempty. intros E. rewrite E in HL. destruct nodes; [congruence|discriminate]. }
  pose proof (unique_NoDup labels) as HND.
  destruct (unique labels) as [|a [|b r]] eqn:EU; [congruence| |].
  - destruct nodes as [|v [|w r']]; [congruence| |]; eexists; reflexivity.
  - destruct (ri_each_total (ri f oracle has_edge (depth - 1)%Z) nodes labels HL (a :: b :: r)) as [ts Hts].
    + intros c Hc.
      assert (Hcl : In c labels) by (apply unique_In; rewrite EU; exact Hc).
      assert (Hother : exists c', In c' labels /\ c' <> c).
      { inversion HND as [|? ? Hnot _]; subst.
        destruct (Nat.eq_dec a c) as [->|Hac].
        - exists b. split; [apply unique_In; rewrite EU; right; left; reflexivity|].
          intros ->. apply Hnot. left; reflexivity.
        - exists a. split; [apply unique_In; rewrite EU; left; reflexivity|exact Hac]. }
      destruct Hother as [c' [Hc' Hne]].
      apply IH.
      * now apply sel_members_nonempty.
      * unfold sel. rewrite map_length.
        pose proof (members_length_lt labels c c' Hc' Hne). lia.
    + rewrite Hts. eexists; reflexivity.
Qed.

(** the fuel S (length nodes) is enough: never KeyError (out of fuel); with nodes <> [] never an error at all *)
Theorem ri_total : forall oracle has_edge depth nodes,
  (forall l, length (oracle l) = length l) -> nodes <> [] ->
  exists t, ri (S (length nodes)) oracle has_edge depth nodes = Ok t.
Proof.
  intros oracle has_edge depth nodes HO HN. apply ri_total_aux; [exact HO|exact HN|lia].
Qed.

(** * Non-vacuity *)

Example lh_tree_example :
  lh_tree 5 [[0; 0; 1; 1; 1]; [0; 0]; [0]]
  = Ok (PNode [PNode [PLeaf 0; PLeaf 1]; PNode [PLeaf 2; PLeaf 3; PLeaf 4]])
  /\ levels_ok 5 [[0; 0; 1; 1; 1]; [0; 0]; [0]].
Proof. split; [vm_compute; reflexivity|simpl; tauto]. Qed.

Example ri_example :
  ri 5 (map (fun v => Nat.div v 2)) (fun _ => true) 1%Z [0; 1; 2; 3]
  = Ok (PNode [PNode [PLeaf 0; PLeaf 1]; PNode [PLeaf 2; PLeaf 3]]).
Proof. vm_compute. reflexivity. Qed.

Print Assumptions lh_tree_ok.
Print Assumptions lh_tree_no_index_error.
Print Assumptions ri_tree_ok.
Print Assumptions ri_total.
