(** Tree sampling divergence over the real numbers (C08, last clause: the normalised TSD lies in [0, 1]).

    Part 1 (abstract, lists of pairs of reals): Gibbs' inequality [kl_nonneg_gen], the log-sum inequality
    [log_sum_inequality], and the coarse-graining (data-processing) inequality [kl_coarse_le].
    Part 2 (model): the pairs (edge_sampling[t], node_sampling[t]) computed by the model of
    [get_sampling_distributions] (Model/Cuts.v) are the images, under (u, v) |-> merge at which u and v meet,
    of the pair-level distributions a(u,v) = A_uv / w and b(u,v) = w_row[u] * w_col[v]; both sum to 1.
    Part 3: [tsd_real] = the formula of [tree_sampling_divergence] (Model/Cuts.v) on the SAME rational terms
    ([tsd_terms], [mi_terms]) with the real logarithm [ln] in place of the oracle; bounds [tsd_real_bounds_lemma].

    This file uses the standard library Reals: its theorems depend on the axioms of that library
    (ClassicalDedekindReals.sig_not_dec, sig_forall_dec, functional_extensionality_dep, possibly classic). *)
From Coq Require Import Reals Lra Qreals Permutation Lqa Psatz Qreduction.
From SKN Require Import Base.Util Model.Dendrogram Model.Cuts Proofs.CutsProofs.
Set Warnings "-notation-overridden".

(** * Part 1: finite distributions as lists of pairs (a_i, b_i) of reals *)
Section Abstract.
Local Open Scope R_scope.

Definition sumR (l : list R) : R := fold_right Rplus 0 l.

(** One term a * ln (a / b) of a divergence.  [ln] of the standard library is 0 on non-positive arguments, so
    a term with a = 0 is 0: summing over all indices or only over those with a <> 0 (as the code does) is the same
    ([kl_filter]). *)
Definition klt (x : R * R) : R := fst x * ln (fst x / snd x).
Definition kl (l : list (R * R)) : R := sumR (map klt l).
Definition mass1 (l : list (R * R)) : R := sumR (map fst l).
Definition mass2 (l : list (R * R)) : R := sumR (map snd l).

(** a >= 0, b >= 0 and b > 0 wherever a > 0 (absolute continuity). *)
Definition okpair (x : R * R) : Prop := 0 <= fst x /\ 0 <= snd x /\ (0 < fst x -> 0 < snd x).

Lemma sumR_cons a l : sumR (a :: l) = a + sumR l.
Proof. reflexivity. Qed.

Lemma sumR_app l1 l2 : sumR (l1 ++ l2) = sumR l1 + sumR l2.
Proof. induction l1 as [|a l1 IH]; simpl; [lra | rewrite IH; lra]. Qed.

Lemma sumR_perm l l' : Permutation l l' -> sumR l = sumR l'.
Proof. induction 1; simpl; lra. Qed.

Lemma sumR_ext {A} (f g : A -> R) l : (forall x, In x l -> f x = g x) -> sumR (map f l) = sumR (map g l).
Proof.
  induction l as [|a l IH]; intros H; [reflexivity|]. simpl. rewrite (H a (or_introl eq_refl)), IH; [reflexivity|].
  intros x Hx. apply H. now right.
Qed.

Lemma sumR_zero {A} (f : A -> R) l : (forall x, In x l -> f x = 0) -> sumR (map f l) = 0.
Proof.
  induction l as [|a l IH]; intros H; [reflexivity|]. simpl. rewrite (H a (or_introl eq_refl)), IH; [lra|].
  intros x Hx. apply H. now right.
Qed.

Lemma sumR_nonneg l : (forall x, In x l -> 0 <= x) -> 0 <= sumR l.
Proof.
  induction l as [|a l IH]; intros H; simpl; [lra|].
  assert (H1 := H a (or_introl eq_refl)). assert (H2 : 0 <= sumR l) by (apply IH; intros x Hx; apply H; now right). lra.
Qed.

Lemma kl_app l1 l2 : kl (l1 ++ l2) = kl l1 + kl l2.
Proof. unfold kl. now rewrite map_app, sumR_app. Qed.
Lemma mass1_app l1 l2 : mass1 (l1 ++ l2) = mass1 l1 + mass1 l2.
Proof. unfold mass1. now rewrite map_app, sumR_app. Qed.
Lemma mass2_app l1 l2 : mass2 (l1 ++ l2) = mass2 l1 + mass2 l2.
Proof. unfold mass2. now rewrite map_app, sumR_app. Qed.

Lemma kl_perm l l' : Permutation l l' -> kl l = kl l'.
Proof. intros P. unfold kl. apply sumR_perm. now apply Permutation_map. Qed.
Lemma mass1_perm l l' : Permutation l l' -> mass1 l = mass1 l'.
Proof. intros P. unfold mass1. apply sumR_perm. now apply Permutation_map. Qed.
Lemma mass2_perm l l' : Permutation l l' -> mass2 l = mass2 l'.
Proof. intros P. unfold mass2. apply sumR_perm. now apply Permutation_map. Qed.

Lemma klt_zero b : klt (0, b) = 0.
Proof. unfold klt. simpl. lra. Qed.

(** Dropping the terms with a = 0 (what [np.where(edge_sampling)] does) changes nothing. *)
Lemma kl_filter (f : R * R -> bool) l : (forall x, In x l -> f x = false -> fst x = 0) -> kl (filter f l) = kl l.
Proof.
  induction l as [|x l IH]; intros H; [reflexivity|]. simpl.
  assert (IH' : kl (filter f l) = kl l) by (apply IH; intros y Hy; apply H; now right).
  destruct (f x) eqn:E.
  - unfold kl in *. simpl. now rewrite IH'.
  - unfold kl in *. simpl. rewrite IH'. assert (E0 := H x (or_introl eq_refl) E). unfold klt at 2. rewrite E0. lra.
Qed.

Lemma ln_le_sub1 x : 0 < x -> ln x <= x - 1.
Proof. intros Hx. assert (H := exp_ineq1_le (ln x)). rewrite (exp_ln x Hx) in H. lra. Qed.

(** a - b c <= a ln (a / b) - a ln c for every scale c > 0, from ln x <= x - 1 at x = b c / a.  Summed, with c = 1 this
    is Gibbs' inequality and with c = (sum a) / (sum b) the log-sum inequality. *)
Lemma klt_ge_scaled x c : okpair x -> 0 < c -> fst x - snd x * c <= klt x - fst x * ln c.
Proof.
  intros (Ha & Hb & Hab) Hc. unfold klt. destruct (Rle_lt_or_eq_dec 0 (fst x) Ha) as [Hpos|<-].
  2:{ assert (0 <= snd x * c) by (apply Rmult_le_pos; lra). lra. }
  assert (Hbp := Hab Hpos). set (a := fst x) in *. set (b := snd x) in *.
  assert (Hr : 0 < b * c / a) by (apply Rdiv_lt_0_compat; [apply Rmult_lt_0_compat|]; assumption).
  assert (E : ln (b * c / a) = ln c - ln (a / b)).
  { replace (b * c / a) with (c * / (a / b)) by (field; split; lra).
    assert (Hq : 0 < a / b) by (apply Rdiv_lt_0_compat; assumption).
    rewrite ln_mult, ln_Rinv; [lra | assumption || now apply Rinv_0_lt_compat ..]. }
  assert (H := ln_le_sub1 _ Hr). rewrite E in H.
  assert (H2 : a * (b * c / a - 1) = b * c - a) by (field; lra).
  assert (H3 : a * (ln c - ln (a / b)) <= a * (b * c / a - 1)) by (apply Rmult_le_compat_l; lra). lra.
Qed.

Lemma kl_ge_scaled l c : Forall okpair l -> 0 < c -> mass1 l - mass2 l * c <= kl l - mass1 l * ln c.
Proof.
  intros Hl Hc. induction Hl as [|x l Hx _ IH]; unfold mass1, mass2, kl in *; simpl; [lra|].
  assert (H := klt_ge_scaled x c Hx Hc). lra.
Qed.

(** Gibbs' inequality: D(p || q) >= 0 when the mass of q does not exceed the mass of p
    (in particular for two probability vectors). *)
Theorem kl_nonneg_gen l : Forall okpair l -> mass2 l <= mass1 l -> 0 <= kl l.
Proof. intros H Hm. assert (H1 := kl_ge_scaled l 1 H Rlt_0_1). rewrite ln_1 in H1. lra. Qed.

Lemma mass1_nonneg l : Forall okpair l -> 0 <= mass1 l.
Proof. induction 1 as [|x l (H1 & _) _ IH]; unfold mass1 in *; simpl; lra. Qed.
Lemma mass2_nonneg l : Forall okpair l -> 0 <= mass2 l.
Proof. induction 1 as [|x l (_ & H1 & _) _ IH]; unfold mass2 in *; simpl; lra. Qed.

Lemma mass_pos l : Forall okpair l -> 0 < mass1 l -> 0 < mass2 l.
Proof.
  induction 1 as [|x l (H1 & H2 & H3) Hl IH]; unfold mass1, mass2 in *; simpl; [lra|]. intros Hp.
  assert (Hm := mass2_nonneg l Hl). unfold mass2 in Hm.
  destruct (Rle_lt_or_eq_dec 0 (fst x) H1) as [Hpos|E]; [specialize (H3 Hpos); lra|].
  rewrite <- E in Hp. assert (0 < sumR (map snd l)) by (apply IH; lra). lra.
Qed.

Lemma kl_mass_zero l : Forall okpair l -> mass1 l = 0 -> kl l = 0.
Proof.
  induction 1 as [|x l (H1 & H2 & H3) Hl IH]; unfold mass1, kl in *; simpl; [reflexivity|]. intros E.
  assert (Hm := mass1_nonneg l Hl). unfold mass1 in Hm.
  assert (E1 : fst x = 0) by lra. assert (E2 : sumR (map fst l) = 0) by lra.
  rewrite (IH E2). unfold klt. rewrite E1. lra.
Qed.

(** The log-sum inequality: (sum a) ln (sum a / sum b) <= sum a_i ln (a_i / b_i). *)
Theorem log_sum_inequality l : Forall okpair l -> mass1 l * ln (mass1 l / mass2 l) <= kl l.
Proof.
  intros Hl. assert (HA := mass1_nonneg l Hl).
  destruct (Rle_lt_or_eq_dec 0 (mass1 l) HA) as [HApos|E].
  2:{ rewrite (kl_mass_zero l Hl (eq_sym E)), <- E. lra. }
  assert (HB := mass_pos l Hl HApos).
  assert (H := kl_ge_scaled l (mass1 l / mass2 l) Hl (Rdiv_lt_0_compat _ _ HApos HB)).
  assert (E : mass2 l * (mass1 l / mass2 l) = mass1 l) by (field; lra). lra.
Qed.

(** Coarse-graining.  [groups]: the fine-level pairs (a_k, b_k), grouped by the value of a map k |-> j;
    the coarse pair of a group is (sum of its a's, sum of its b's). *)
Definition coarse (groups : list (list (R * R))) : list (R * R) := map (fun g => (mass1 g, mass2 g)) groups.

Lemma coarse_mass1 groups : mass1 (coarse groups) = mass1 (concat groups).
Proof. induction groups as [|g gs IH]; [reflexivity|]. simpl. rewrite mass1_app, <- IH. reflexivity. Qed.
Lemma coarse_mass2 groups : mass2 (coarse groups) = mass2 (concat groups).
Proof. induction groups as [|g gs IH]; [reflexivity|]. simpl. rewrite mass2_app, <- IH. reflexivity. Qed.

Lemma coarse_ok groups : Forall (Forall okpair) groups -> Forall okpair (coarse groups).
Proof.
  induction 1 as [|g gs Hg _ IH]; [constructor|]. simpl. constructor; [|exact IH].
  split; [now apply mass1_nonneg|]. split; [now apply mass2_nonneg | now apply mass_pos].
Qed.

(** Data-processing inequality: the divergence of the images is at most the divergence of the originals. *)
Theorem kl_coarse_le groups : Forall (Forall okpair) groups -> kl (coarse groups) <= kl (concat groups).
Proof.
  induction 1 as [|g gs Hg _ IH]; [unfold kl; simpl; lra|]. simpl. rewrite kl_app.
  assert (H := log_sum_inequality g Hg). unfold kl in *. simpl. unfold klt at 1. simpl. lra.
Qed.

(** The value returned with normalized=True: score / mi when mi > 0, score otherwise. *)
Definition normalise (score mi : R) : R := if Rle_dec mi 0 then score else score / mi.

Lemma normalise_unit score mi : 0 <= score <= mi -> 0 <= normalise score mi <= 1.
Proof.
  intros [H1 H2]. unfold normalise. destruct (Rle_dec mi 0) as [H|H]; [lra|].
  assert (Hm : 0 < mi) by lra. split.
  - apply Rmult_le_pos; [lra | apply Rlt_le, Rinv_0_lt_compat; lra].
  - apply (Rmult_le_reg_r mi); [lra|]. unfold Rdiv. rewrite Rmult_assoc, Rinv_l by lra. lra.
Qed.

(** Everything at once, for distributions given as lists:
    fine-level pairs in groups, fine-level masses (1, <= 1): 0 <= D(coarse) <= D(fine), normalised in [0, 1]. *)
Theorem coarse_divergence_bounds groups :
  Forall (Forall okpair) groups -> mass2 (concat groups) <= mass1 (concat groups) ->
  0 <= kl (coarse groups) <= kl (concat groups) /\
  0 <= normalise (kl (coarse groups)) (kl (concat groups)) <= 1.
Proof.
  intros Hg Hm.
  assert (H0 : 0 <= kl (coarse groups)).
  { apply kl_nonneg_gen; [now apply coarse_ok|]. now rewrite coarse_mass1, coarse_mass2. }
  assert (H1 := kl_coarse_le groups Hg). split; [lra|]. apply normalise_unit. lra.
Qed.
End Abstract.

(** * Part 2, preliminaries: [Q2R] of sums, sums over products, lists.  The statements of Part 2 (the sampling
    distributions of the model are images of pair-level distributions) are in [Section Model] below. *)

Lemma Q2R_0' : Q2R 0 = 0%R.
Proof. unfold Q2R. simpl. lra. Qed.

Lemma Q2R_sumq l : Q2R (sumq l) = sumR (map Q2R l).
Proof.
  induction l as [|a l IH]; [exact Q2R_0'|]. rewrite sumq_cons, Q2R_plus, IH. reflexivity.
Qed.

Lemma sumq_list_prod {A B} (f : A * B -> Q) (l1 : list A) (l2 : list B) :
  (sumq (map f (list_prod l1 l2)) == sumq (map (fun u => sumq (map (fun v => f (u, v)) l2)) l1))%Q.
Proof.
  induction l1 as [|a l1 IH]; [reflexivity|]. cbn [list_prod map]. rewrite map_app, sumq_app, sumq_cons, IH, map_map.
  reflexivity.
Qed.

Lemma sumq_prod {A B} (f : A -> Q) (g : B -> Q) l1 l2 :
  (sumq (map f l1) * sumq (map g l2) == sumq (map (fun u => sumq (map (fun v => f u * g v) l2)) l1))%Q.
Proof.
  rewrite Qmult_comm, <- sumq_scale. apply sumq_ext. intros u _. rewrite Qmult_comm, <- sumq_scale. reflexivity.
Qed.

Lemma NoDup_list_prod {A B} (l1 : list A) (l2 : list B) : NoDup l1 -> NoDup l2 -> NoDup (list_prod l1 l2).
Proof.
  intros H1 H2. induction H1 as [|a l1 Ha H1 IH]; [constructor|]. cbn [list_prod].
  apply NoDup_app_intro_aux; [|exact IH|].
  - apply FinFun.Injective_map_NoDup; [|exact H2]. intros x y E. now inversion E.
  - intros [x y] Hx Hy. apply in_map_iff in Hx. destruct Hx as (z & E & _). inversion E; subst.
    apply in_prod_iff in Hy. tauto.
Qed.

Lemma NoDup_concat_map {A B} (f : A -> list B) (l : list A) :
  (forall i a, nth_error l i = Some a -> NoDup (f a)) ->
  (forall i j a b x, nth_error l i = Some a -> nth_error l j = Some b -> In x (f a) -> In x (f b) -> i = j) ->
  NoDup (concat (map f l)).
Proof.
  induction l as [|a l IH]; intros H1 H2; [constructor|]. cbn [map concat]. apply NoDup_app_intro_aux.
  - exact (H1 0 a eq_refl).
  - apply IH.
    + intros i b Hi. exact (H1 (S i) b Hi).
    + intros i j b c x Hi Hj Hxi Hxj. assert (E := H2 (S i) (S j) b c x Hi Hj Hxi Hxj). lia.
  - intros x Hx Hc. apply in_concat in Hc. destruct Hc as (l' & Hl' & Hxl'). apply in_map_iff in Hl'.
    destruct Hl' as (b & <- & Hb). destruct (In_nth_error _ _ Hb) as [j Hj].
    assert (E := H2 0 (S j) a b x eq_refl Hj Hx Hxl'). discriminate.
Qed.

Lemma sumR_support {A} (f : A -> R) (l l' : list A) : NoDup l -> NoDup l' -> incl l l' ->
  (forall x, In x l' -> ~ In x l -> f x = 0%R) -> sumR (map f l) = sumR (map f l').
Proof.
  revert l'. induction l as [|a l IH]; intros l' Hnd Hnd' Hincl Hz.
  - simpl. symmetry. apply sumR_zero. intros x Hx. apply Hz; [exact Hx | intros []].
  - inversion Hnd as [|? ? Hn Hnd1]; subst.
    assert (Ha : In a l') by (apply Hincl; now left). apply in_split in Ha. destruct Ha as (l1 & l2 & ->).
    assert (Hnd2 := NoDup_remove_1 _ _ _ Hnd'). assert (Hna := NoDup_remove_2 _ _ _ Hnd').
    assert (Hincl' : incl l (l1 ++ l2)).
    { intros x Hx. assert (H := Hincl x (or_intror Hx)). apply in_app_iff in H. apply in_app_iff.
      destruct H as [H|[H|H]]; [now left | subst; tauto | now right]. }
    rewrite map_app. cbn [map]. rewrite sumR_app, !sumR_cons.
    rewrite (IH (l1 ++ l2) Hnd1 Hnd2 Hincl').
    + rewrite map_app, sumR_app. lra.
    + intros x Hx Hnx. apply Hz.
      * apply in_app_iff in Hx. apply in_app_iff. destruct Hx; [now left | right; now right].
      * intros [<-|H]; [exact (Hna Hx) | exact (Hnx H)].
Qed.

Lemma Rabs_le_inv' a b : (Rabs a <= b)%R -> (- b <= a <= b)%R.
Proof. unfold Rabs. destruct (Rcase_abs a); lra. Qed.

Lemma Forall2_len {A B} (P : A -> B -> Prop) l1 l2 : Forall2 P l1 l2 -> length l1 = length l2.
Proof. induction 1; simpl; congruence. Qed.

Lemma Forall2_in_l {A B} (P : A -> B -> Prop) l1 l2 x : Forall2 P l1 l2 -> In x l1 -> exists y, In y l2 /\ P x y.
Proof.
  induction 1 as [|a b l1 l2 Hab _ IH]; intros Hx; [destruct Hx|]. destruct Hx as [<-|Hx].
  - exists b. split; [now left | exact Hab].
  - destruct (IH Hx) as (y & Hy & Hp). exists y. split; [now right | exact Hp].
Qed.

(** * Part 3 (definitions): the formula of [tree_sampling_divergence] with the real logarithm.
    Same terms as the model ([tsd_terms], [mi_terms] of Model/Cuts.v, exact rationals), injected into R by [Q2R];
    [ln] instead of the oracle; [mutual_information > 0] decided over the reals. *)
Definition q2 (x : Q * Q) : R * R := (Q2R (fst x), Q2R (snd x)).

Definition tsd_real (degree : bool) (n : nat) (G : wgraph) (D : dendrogram) (normalized : bool) : result R :=
  match tsd_terms degree n G D with
  | Err e => Err e
  | Ok ts =>
      let score := kl (map q2 ts) in
      if normalized then Ok (normalise score (kl (map q2 (mi_terms degree n G)))) else Ok score
  end.

Lemma klQ_exact (lnq : Q -> Q) l :
  (forall x, In x l -> Q2R (lnq (fst x / snd x)%Q) = ln (Q2R (fst x) / Q2R (snd x))) ->
  Q2R (sumq (map (fun x => (fst x * lnq (fst x / snd x))%Q) l)) = kl (map q2 l).
Proof.
  intros H. unfold kl. rewrite Q2R_sumq, !map_map. apply sumR_ext. intros x Hx.
  rewrite Q2R_mult, (H x Hx). reflexivity.
Qed.

Lemma klQ_within (lnq : Q -> Q) (eps : R) l : (forall x, In x l -> (0 <= Q2R (fst x))%R) ->
  (forall x, In x l -> (Rabs (Q2R (lnq (fst x / snd x)%Q) - ln (Q2R (fst x) / Q2R (snd x))) <= eps)%R) ->
  (Rabs (Q2R (sumq (map (fun x => (fst x * lnq (fst x / snd x))%Q) l)) - kl (map q2 l)) <= eps * mass1 (map q2 l))%R.
Proof.
  induction l as [|x l IH]; intros H1 H2.
  - unfold kl, mass1. simpl. rewrite Q2R_0', Rminus_0_r, Rabs_R0. lra.
  - cbn [map]. rewrite sumq_cons, Q2R_plus, Q2R_mult. unfold kl, mass1 in *. cbn [map]. rewrite !sumR_cons.
    assert (Ha := H1 x (or_introl eq_refl)). assert (Hb := H2 x (or_introl eq_refl)).
    assert (IH' := IH (fun y Hy => H1 y (or_intror Hy)) (fun y Hy => H2 y (or_intror Hy))).
    unfold klt at 1. change (fst (q2 x)) with (Q2R (fst x)). change (snd (q2 x)) with (Q2R (snd x)).
    apply Rabs_le_inv' in Hb. apply Rabs_le_inv' in IH'. apply Rabs_le.
    set (d := (Q2R (lnq (fst x / snd x)%Q) - ln (Q2R (fst x) / Q2R (snd x)))%R) in *.
    set (p := Q2R (fst x)) in *.
    assert (E : (p * Q2R (lnq (fst x / snd x)%Q) = p * ln (p / Q2R (snd x)) + p * d)%R) by (unfold d; ring).
    assert (N1 : (0 <= p * (eps - d))%R) by (apply Rmult_le_pos; lra).
    assert (N2 : (0 <= p * (eps + d))%R) by (apply Rmult_le_pos; lra).
    rewrite E. split; lra.
Qed.

(** The model's [if mi <= 0 then score else score / mi] over Q is [normalise] over R. *)
Lemma normalise_Q2R score mi : normalise (Q2R score) (Q2R mi) = Q2R (if Qle_bool mi 0 then score else score / mi).
Proof.
  unfold normalise. destruct (Qle_bool mi 0) eqn:Eb.
  - apply Qle_bool_iff in Eb. apply Qle_Rle in Eb. rewrite Q2R_0' in Eb.
    destruct (Rle_dec (Q2R mi) 0) as [_|Hc]; [reflexivity | contradiction].
  - assert (Hlt : (0 < mi)%Q) by (apply Qnot_le_lt; intros Hle; apply Qle_bool_iff in Hle; congruence).
    assert (Hr := Qlt_Rlt _ _ Hlt). rewrite Q2R_0' in Hr.
    destruct (Rle_dec (Q2R mi) 0) as [Hc|_]; [lra|]. symmetry. apply Q2R_div. intros E. rewrite E in Hlt. lra.
Qed.

Section Model.
Context (degree : bool) (n : nat) (G : wgraph) (D : dendrogram) (Hv : valid n D = true).
Context (HG : forall e, In e G -> e_src e < n /\ e_dst e < n).
Context (Hpos : forall e, In e G -> (0 <= e_w e)%Q).
Context (Hw : (0 < total_weight G)%Q) (Hn : 2 <= n).

Notation L := (leaves n D).
Notation W := (total_weight G).

(** w_row[u], w_col[v] *)
Definition pir (u : nat) : Q := nthq (probs_row degree n G) u.
Definition pic (u : nat) : Q := nthq (probs_col degree n G) u.

(** The pair-level distributions: a(u, v) = A_uv / w (edge sampling), b(u, v) = w_row[u] w_col[v] (node sampling). *)
Definition aQ (p : nat * nat) : Q := (adj G (fst p) (snd p) / W)%Q.
Definition bQ (p : nat * nat) : Q := (pir (fst p) * pic (snd p))%Q.

(** The ordered pairs charged to merge r = (i, j): those with one end below i and the other below j, and the
    diagonal pair (x, x) of a child x that is a leaf (self-loops are charged to the first merge of their node). *)
Definition selfs (r : drow) : list nat := filter (fun x => Nat.ltb x n) [r_left r; r_right r].
Definition swap (p : nat * nat) : nat * nat := (snd p, fst p).
Definition pairs (r : drow) : list (nat * nat) :=
  list_prod (L (r_left r)) (L (r_right r)) ++ map swap (list_prod (L (r_left r)) (L (r_right r))) ++
  map (fun x => (x, x)) (selfs r).

Notation NS := (NS degree n G D).
Notation sd_spec := (sd_spec degree n G D).

Definition pi2 (x : Q * Q * Q) : Q * Q := (fst (fst x), snd (fst x)).

Lemma W_neq0 : ~ (W == 0)%Q.
Proof. intros E. rewrite E in Hw. lra. Qed.

(** edge_sampling[t] and node_sampling[t] are the sums of a and b over the pairs charged to merge t. *)
Lemma ES_pairs r : (ES n G D r == sumq (map aQ (pairs r)))%Q.
Proof.
  assert (HW0 := W_neq0). unfold ES, pairs. fold (selfs r).
  rewrite !map_app, !sumq_app, !map_map, !sumq_list_prod.
  set (Li := L (r_left r)). set (Lj := L (r_right r)).
  assert (E1 : (2 * cross n G D (r_left r) (r_right r) ==
                sumq (map (fun u => sumq (map (fun v => aQ (u, v) + aQ (v, u)) Lj)) Li))%Q).
  { unfold cross. fold Li Lj. rewrite <- (sumq2_scale (fun u v => sw G u v)).
    apply sumq_ext; intros u _. apply sumq_ext; intros v _. unfold sw, aQ. cbn [fst snd].
    rewrite Qred_correct. field. exact HW0. }
  rewrite E1, (sumq2_plus (fun u v => aQ (u, v)) (fun u v => aQ (v, u))).
  rewrite <- Qplus_assoc. apply Qplus_comp; [reflexivity|]. apply Qplus_comp; [reflexivity|].
  apply sumq_ext. intros x _. unfold sw, aQ. cbn [fst snd]. rewrite Qred_correct. field. exact HW0.
Qed.

Lemma NS_pairs r : (NS r == sumq (map bQ (pairs r)))%Q.
Proof.
  unfold NS, pairs. rewrite !map_app, !sumq_app, !map_map, !sumq_list_prod.
  unfold PR, PC. rewrite !sumq_prod. rewrite <- Qplus_assoc.
  apply Qplus_comp; [reflexivity|]. apply Qplus_comp; [|reflexivity].
  rewrite sumq_swap. apply sumq_ext; intros u _. apply sumq_ext; intros v _. unfold bQ, swap, pir, pic. cbn [fst snd]. ring.
Qed.

(** ** Every ordered pair of leaves is charged to exactly one merge *)
Lemma leaf_merged u : u < n -> exists t r, nth_error D t = Some r /\ In u (children r).
Proof.
  intros Hu. destruct (valid_rows n D Hv) as [Hlen _].
  assert (Hin : In u (flat_map children D)) by (apply (non_root_is_child n D u Hv); lia).
  apply in_flat_map in Hin. destruct Hin as (r & Hr & Hc). destruct (In_nth_error _ _ Hr) as [t Ht]. now exists t, r.
Qed.

Lemma in_swap u v l : In (u, v) (map swap l) <-> In (v, u) l.
Proof.
  rewrite in_map_iff. split; [intros ([a b] & E & H); now inversion E; subst | intros H; now exists (v, u)].
Qed.

Lemma in_selfs r u v : In (u, v) (map (fun x => (x, x)) (selfs r)) <-> u = v /\ u < n /\ In u (children r).
Proof.
  unfold selfs, children. rewrite in_map_iff. split.
  - intros (x & E & H). inversion E; subst. apply filter_In in H. destruct H as [H1 H2]. apply Nat.ltb_lt in H2. tauto.
  - intros (-> & Hn' & H). exists v. split; [reflexivity|]. apply filter_In. split; [exact H | now apply Nat.ltb_lt].
Qed.

Lemma in_pairs r u v : In (u, v) (pairs r) <-> sep n D r u v \/ (u = v /\ u < n /\ In u (children r)).
Proof. unfold pairs, sep. rewrite !in_app_iff, in_swap, !in_prod_iff, in_selfs. tauto. Qed.

Lemma pairs_NoDup t r : nth_error D t = Some r -> NoDup (pairs r).
Proof.
  intros Hr. destruct (row_children_facts n D Hv Hn t r Hr) as (N1 & N2 & Hdisj & _).
  destruct (valid_rows n D Hv) as [_ Hrows]. destruct (Hrows t r Hr) as (Hne & _).
  assert (NP := NoDup_list_prod _ _ N1 N2).
  unfold pairs. apply NoDup_app_intro_aux; [exact NP| |].
  - apply NoDup_app_intro_aux.
    + apply FinFun.Injective_map_NoDup; [|exact NP]. intros [a b] [c d] E. unfold swap in E. simpl in E. now inversion E.
    + apply FinFun.Injective_map_NoDup; [intros x y E; now inversion E|]. unfold selfs. apply NoDup_filter.
      constructor; [intros [H|[]]; congruence|]. constructor; [intros []|constructor].
    + intros [u v] H1 H2. apply in_swap, in_prod_iff in H1. apply in_selfs in H2.
      destruct H1, H2 as [-> _]. eapply Hdisj; eassumption.
  - intros [u v] H1 H2. apply in_prod_iff in H1. rewrite in_app_iff, in_swap, in_prod_iff, in_selfs in H2.
    destruct H1, H2 as [[]|[-> _]]; eapply Hdisj; eassumption.
Qed.

Lemma pairs_range r u v : In r D -> In (u, v) (pairs r) -> u < n /\ v < n.
Proof.
  intros Hr H. destruct (In_nth_error _ _ Hr) as [t Ht]. destruct (row_children_facts n D Hv Hn t r Ht) as (_ & _ & _ & Hb).
  apply in_pairs in H. destruct H as [[[H1 H2]|[H1 H2]]|(-> & H1 & _)]; [split; apply Hb; tauto .. | tauto].
Qed.

Lemma pairs_unique t t' r r' p : nth_error D t = Some r -> nth_error D t' = Some r' ->
  In p (pairs r) -> In p (pairs r') -> t = t'.
Proof.
  intros Hr Hr' H H'. destruct p as [u v].
  destruct (pairs_range r u v (nth_error_In _ _ Hr) H) as [Hu Hvv].
  destruct (row_children_facts n D Hv Hn t r Hr) as (_ & _ & Hd & _).
  destruct (row_children_facts n D Hv Hn t' r' Hr') as (_ & _ & Hd' & _).
  apply in_pairs in H. apply in_pairs in H'.
  destruct (Nat.eq_dec u v) as [<-|Hne].
  - destruct H as [[[H1 H2]|[H1 H2]]|(_ & _ & H)]; [exfalso; eauto .. |].
    destruct H' as [[[H1 H2]|[H1 H2]]|(_ & _ & H')]; [exfalso; eauto .. |].
    exact (child_unique n D t t' r r' u (proj2 (valid_rows n D Hv)) Hr Hr' H H').
  - destruct H as [H|(E & _)]; [|congruence]. destruct H' as [H'|(E & _)]; [|congruence].
    destruct (meeting_merge n D Hv u v Hu Hvv Hne) as (t0 & r0 & _ & _ & Huniq & _).
    rewrite (Huniq t r Hr H), (Huniq t' r' Hr' H'). reflexivity.
Qed.

Lemma pairs_cover u v : u < n -> v < n -> exists t r, nth_error D t = Some r /\ In (u, v) (pairs r).
Proof.
  intros Hu Hvv. destruct (Nat.eq_dec u v) as [<-|Hne].
  - destruct (leaf_merged u Hu) as (t & r & Hr & Hc). exists t, r. split; [exact Hr|]. apply in_pairs. right. tauto.
  - destruct (meeting_merge n D Hv u v Hu Hvv Hne) as (t & r & Hr & Hsep & _). exists t, r. split; [exact Hr|].
    apply in_pairs. now left.
Qed.

Notation allpairs := (list_prod (seq 0 n) (seq 0 n)).

Lemma pairs_partition : Permutation (concat (map pairs D)) allpairs.
Proof.
  apply NoDup_Permutation.
  - apply NoDup_concat_map; [exact pairs_NoDup | exact pairs_unique].
  - apply NoDup_list_prod; apply seq_NoDup.
  - intros [u v]. rewrite <- flat_map_concat_map, in_flat_map, in_prod_iff, !in_seq. split.
    + intros (r & Hr & Hx). destruct (pairs_range r u v Hr Hx). lia.
    + intros [H1 H2]. destruct (pairs_cover u v ltac:(lia) ltac:(lia)) as (t & r & Hr & Hin).
      exists r. split; [now apply nth_error_In in Hr | exact Hin].
Qed.

(** ** Both pair-level distributions are probability distributions; b > 0 wherever a > 0 *)
Lemma adj_nonneg u v : (0 <= adj G u v)%Q.
Proof.
  rewrite adj_indicator. apply sumq_nonneg. intros x Hx. apply in_map_iff in Hx. destruct Hx as (e & <- & He).
  apply ite_nonneg. now apply Hpos.
Qed.

Lemma adj_le_weights u v : (adj G u v <= out_weight G u)%Q /\ (adj G u v <= in_weight G v)%Q.
Proof.
  rewrite adj_indicator, out_weight_ind, in_weight_ind.
  split; apply sumq_le; intros e He; assert (H := Hpos e He);
    destruct (Nat.eqb (e_src e) u), (Nat.eqb (e_dst e) v); cbn [andb ite]; lra.
Qed.

Lemma pir_total : (sumq (map pir (seq 0 n)) == 1)%Q.
Proof.
  rewrite (sumq_ext pir (kprob e_src degree n G)).
  - apply kprob_total; try assumption. intros e He. now destruct (HG e He).
  - intros u Hu. apply in_seq in Hu. apply probs_row_nth. lia.
Qed.

Lemma pic_total : (sumq (map pic (seq 0 n)) == 1)%Q.
Proof.
  rewrite (sumq_ext pic (kprob e_dst degree n G)).
  - apply kprob_total; try assumption. intros e He. now destruct (HG e He).
  - intros u Hu. apply in_seq in Hu. apply probs_col_nth. lia.
Qed.

Lemma aQ_total : (sumq (map aQ allpairs) == 1)%Q.
Proof.
  assert (HW0 := W_neq0). rewrite sumq_list_prod.
  transitivity (sumq (map (fun u => sumq (map (fun v => / W * adj G u v) (seq 0 n))) (seq 0 n)))%Q.
  { apply sumq_ext; intros u _. apply sumq_ext; intros v _. unfold aQ, Qdiv. cbn [fst snd]. ring. }
  rewrite (sumq2_scale (fun u v => adj G u v)), (block_sum G _ _ (seq_NoDup n 0) (seq_NoDup n 0)).
  rewrite (sumq_ext _ e_w).
  - rewrite <- qsum_sumq. fold W. field. exact HW0.
  - intros e He. destruct (HG e He) as [H1 H2].
    replace (memn (e_src e) (seq 0 n)) with true by (symmetry; apply memn_In, in_seq; lia).
    replace (memn (e_dst e) (seq 0 n)) with true by (symmetry; apply memn_In, in_seq; lia). reflexivity.
Qed.

Lemma bQ_total : (sumq (map bQ allpairs) == 1)%Q.
Proof.
  rewrite sumq_list_prod. unfold bQ. cbn [fst snd]. rewrite <- (sumq_prod pir pic), pir_total, pic_total. ring.
Qed.

Lemma aQ_nonneg p : (0 <= aQ p)%Q.
Proof. unfold aQ. apply Qle_shift_div_l; [exact Hw|]. rewrite Qmult_0_l. apply adj_nonneg. Qed.

Lemma bQ_nonneg u v : u < n -> v < n -> (0 <= bQ (u, v))%Q.
Proof.
  intros Hu Hvv. unfold bQ, pir, pic. cbn [fst snd]. rewrite probs_row_nth, probs_col_nth by lia.
  apply Qmult_le_0_compat; [now apply (kprob_nonneg e_src) | now apply (kprob_nonneg e_dst)].
Qed.

Lemma bQ_pos u v : u < n -> v < n -> (0 < aQ (u, v))%Q -> (0 < bQ (u, v))%Q.
Proof.
  intros Hu Hvv Ha. assert (Hnq := nQ_pos n Hn).
  assert (Hadj : (0 < adj G u v)%Q).
  { unfold aQ in Ha. cbn [fst snd] in Ha. assert (E : (adj G u v == adj G u v / W * W)%Q) by (field; exact W_neq0).
    rewrite E. apply Qmult_lt_0_compat; assumption. }
  unfold bQ, pir, pic. cbn [fst snd]. rewrite probs_row_nth, probs_col_nth by lia. destruct degree.
  - destruct (adj_le_weights u v) as [H1 H2].
    apply Qmult_lt_0_compat; apply Qlt_shift_div_l; try exact Hw; lra.
  - apply Qmult_lt_0_compat; apply Qlt_shift_div_l; try exact Hnq; lra.
Qed.

Definition ab (p : nat * nat) : R * R := (Q2R (aQ p), Q2R (bQ p)).

Lemma ab_ok u v : u < n -> v < n -> okpair (ab (u, v)).
Proof.
  intros Hu Hvv. unfold okpair, ab. cbn [fst snd]. split; [|split].
  - rewrite <- Q2R_0'. apply Qle_Rle, aQ_nonneg.
  - rewrite <- Q2R_0'. now apply Qle_Rle, bQ_nonneg.
  - rewrite <- Q2R_0'. intros H. apply Rlt_Qlt in H. apply Qlt_Rlt. now apply bQ_pos.
Qed.

Lemma mass1_ab l : mass1 (map ab l) = Q2R (sumq (map aQ l)).
Proof. unfold mass1. rewrite Q2R_sumq, !map_map. reflexivity. Qed.
Lemma mass2_ab l : mass2 (map ab l) = Q2R (sumq (map bQ l)).
Proof. unfold mass2. rewrite Q2R_sumq, !map_map. reflexivity. Qed.

Definition groups : list (list (R * R)) := map (fun r => map ab (pairs r)) D.

Lemma groups_concat : Permutation (concat groups) (map ab allpairs).
Proof.
  unfold groups. rewrite <- (map_map pairs (map ab)), <- concat_map. apply Permutation_map, pairs_partition.
Qed.

Lemma groups_ok : Forall (Forall okpair) groups.
Proof.
  unfold groups. apply Forall_forall. intros g Hg. apply in_map_iff in Hg. destruct Hg as (r & <- & Hr).
  apply Forall_forall. intros x Hx. apply in_map_iff in Hx.
  destruct Hx as ([u v] & <- & Hp). destruct (pairs_range r u v Hr Hp). now apply ab_ok.
Qed.

Lemma Q2R_1' : Q2R 1 = 1%R.
Proof. unfold Q2R. simpl. lra. Qed.

Lemma fine_mass1 : mass1 (concat groups) = 1%R.
Proof. rewrite (mass1_perm _ _ groups_concat), mass1_ab, (Qeq_eqR _ _ aQ_total). exact Q2R_1'. Qed.
Lemma fine_mass2 : mass2 (concat groups) = 1%R.
Proof. rewrite (mass2_perm _ _ groups_concat), mass2_ab, (Qeq_eqR _ _ bQ_total). exact Q2R_1'. Qed.

(** The pairs (edge_sampling[t], node_sampling[t]) are the coarse pairs of the groups. *)
Lemma coarse_groups : coarse groups = map (fun r => (Q2R (ES n G D r), Q2R (NS r))) D.
Proof.
  unfold coarse, groups. rewrite map_map. apply map_ext. intros r.
  now rewrite mass1_ab, mass2_ab, (Qeq_eqR _ _ (ES_pairs r)), (Qeq_eqR _ _ (NS_pairs r)).
Qed.

(** The terms kept by the model (edge_sampling[t] <> 0) against all the rows: the same sum for every [f] that
    vanishes on a zero first component, such as [klt] and [fst]. *)
Lemma sumR_terms (f : R * R -> R) xs rows : (forall b, f (0%R, b) = 0%R) -> Forall2 sd_spec xs rows ->
  sumR (map f (map q2 (map pi2 (filter (fun x => negb (Qeq_bool (fst (fst x)) 0)) xs)))) =
  sumR (map f (map (fun r => (Q2R (ES n G D r), Q2R (NS r))) rows)).
Proof.
  intros Hf. induction 1 as [|x r xs rows (E1 & E2 & _) _ IH]; [reflexivity|]. cbn [filter map]. rewrite sumR_cons, <- IH.
  destruct (Qeq_bool (fst (fst x)) 0) eqn:Eb; cbn [negb map].
  - apply Qeq_bool_eq in Eb.
    assert (E0 : Q2R (ES n G D r) = 0%R) by (rewrite <- (Qeq_eqR _ _ E1), (Qeq_eqR _ _ Eb); exact Q2R_0').
    rewrite E0, Hf. lra.
  - rewrite sumR_cons. unfold q2, pi2. cbn [fst snd]. now rewrite (Qeq_eqR _ _ E1), (Qeq_eqR _ _ E2).
Qed.

Lemma sumq_concat_map {A} (f : A -> Q) (ls : list (list A)) :
  (sumq (map f (concat ls)) == sumq (map (fun l => sumq (map f l)) ls))%Q.
Proof.
  induction ls as [|l ls IH]; cbn [concat map]; [reflexivity|]. rewrite map_app, sumq_app, sumq_cons, IH. reflexivity.
Qed.

Lemma sumq_pairs (f : nat * nat -> Q) : (sumq (map (fun r => sumq (map f (pairs r))) D) == sumq (map f allpairs))%Q.
Proof.
  rewrite <- (map_map pairs (fun l => sumq (map f l))), <- sumq_concat_map.
  exact (sumq_perm _ _ (Permutation_map f pairs_partition)).
Qed.

Lemma ES_nonneg r : (0 <= ES n G D r)%Q.
Proof.
  rewrite ES_pairs. apply sumq_nonneg. intros x Hx. apply in_map_iff in Hx. destruct Hx as (p & <- & _). apply aQ_nonneg.
Qed.

Lemma NS_nonneg r : In r D -> (0 <= NS r)%Q.
Proof.
  intros Hr. rewrite NS_pairs. apply sumq_nonneg. intros x Hx. apply in_map_iff in Hx. destruct Hx as ([u v] & <- & Hp).
  destruct (pairs_range r u v Hr Hp). now apply bQ_nonneg.
Qed.

Lemma tsd_terms_coarse : G <> [] ->
  exists ts, tsd_terms degree n G D = Ok ts /\ kl (map q2 ts) = kl (coarse groups) /\ mass1 (map q2 ts) = 1%R /\
    forall x, In x ts -> (0 <= Q2R (fst x))%R.
Proof.
  intros HGne. assert (Hlen0 : length G <> 0) by (destruct G; [congruence | discriminate]).
  unfold tsd_terms.
  replace (Nat.eqb (length G) 0) with false by (symmetry; now apply Nat.eqb_neq).
  replace (Nat.ltb n 2) with false by (symmetry; apply Nat.ltb_ge; lia).
  destruct (sampling_distributions_spec degree n G D Hv) as [xs [-> HF]].
  eexists. split; [reflexivity|]. split; [|split].
  - rewrite coarse_groups. exact (sumR_terms klt xs D klt_zero HF).
  - rewrite <- fine_mass1, <- coarse_mass1, coarse_groups. exact (sumR_terms fst xs D (fun _ => eq_refl) HF).
  - intros x Hx. apply in_map_iff in Hx. destruct Hx as (y & <- & Hy). apply filter_In in Hy. destruct Hy as [Hy _].
    destruct (Forall2_in_l _ _ _ y HF Hy) as (r & _ & E1 & _).
    unfold pi2. cbn [fst]. rewrite (Qeq_eqR _ _ E1), <- Q2R_0'. apply Qle_Rle, ES_nonneg.
Qed.

(** Exact rational statement (no real numbers): both sampling distributions returned by the model of
    [get_sampling_distributions] are probability vectors. *)
Theorem sampling_distributions_probabilities_lemma :
  exists sd, get_sampling_distributions degree n G D = Ok sd /\ length sd = n - 1 /\
    (forall x, In x sd -> (0 <= fst (fst x))%Q /\ (0 <= snd (fst x))%Q) /\
    (sumq (map (fun x => fst (fst x)) sd) == 1)%Q /\ (sumq (map (fun x => snd (fst x)) sd) == 1)%Q.
Proof.
  destruct (valid_rows n D Hv) as [Hlen _].
  destruct (sampling_distributions_spec degree n G D Hv) as [xs [-> HF]].
  exists xs. split; [reflexivity|]. split; [rewrite (Forall2_len _ _ _ HF); lia|]. split; [|split].
  - intros x Hx. destruct (Forall2_in_l _ _ _ x HF Hx) as (r & Hr & E1 & E2 & _).
    rewrite E1, E2. split; [apply ES_nonneg | exact (NS_nonneg r Hr)].
  - rewrite (sumq_map_Forall2 sd_spec _ (fun r => sumq (map aQ (pairs r))) xs D
               (fun x r H => Qeq_trans _ _ _ (proj1 H) (ES_pairs r)) HF), sumq_pairs. exact aQ_total.
  - rewrite (sumq_map_Forall2 sd_spec _ (fun r => sumq (map bQ (pairs r))) xs D
               (fun x r H => Qeq_trans _ _ _ (proj1 (proj2 H)) (NS_pairs r)) HF), sumq_pairs. exact bQ_total.
Qed.

(** ** The normaliser (mutual information) is the divergence of the pair-level distributions *)
Context (Hnd : NoDup (map fst G)).

Lemma adj_edge e : In e G -> (adj G (e_src e) (e_dst e) == e_w e)%Q.
Proof.
  intros He. destruct (In_nth_error _ _ He) as [t0 Ht0]. rewrite adj_indicator.
  rewrite (sumq_single _ G t0 e Ht0).
  - now rewrite !Nat.eqb_refl.
  - intros t a Ha Hne.
    destruct (Nat.eqb (e_src a) (e_src e)) eqn:E1, (Nat.eqb (e_dst a) (e_dst e)) eqn:E2; cbn [andb ite]; try reflexivity.
    exfalso. apply Hne. apply Nat.eqb_eq in E1, E2.
    assert (Hlt : t < length (map fst G)) by (rewrite map_length; apply nth_error_Some; congruence).
    apply (proj1 (NoDup_nth_error (map fst G)) Hnd t t0 Hlt). rewrite !nth_error_map, Ha, Ht0. simpl. f_equal.
    destruct a as [[a1 a2] aw], e as [[b1 b2] bw]. unfold e_src, e_dst in *. simpl in *. congruence.
Qed.

Lemma adj_absent u v : ~ In (u, v) (map fst G) -> (adj G u v == 0)%Q.
Proof.
  intros H. rewrite adj_indicator. apply sumq_zero. intros e He.
  destruct (Nat.eqb (e_src e) u) eqn:E1, (Nat.eqb (e_dst e) v) eqn:E2; cbn [andb ite]; try reflexivity.
  exfalso. apply H. apply Nat.eqb_eq in E1, E2. apply in_map_iff. exists e. split; [|exact He].
  destruct e as [[b1 b2] bw]. unfold e_src, e_dst in *. simpl in *. congruence.
Qed.

Lemma mi_is_fine_divergence : kl (map q2 (mi_terms degree n G)) = kl (concat groups).
Proof.
  rewrite (kl_perm _ _ groups_concat). unfold kl, mi_terms. rewrite !map_map.
  transitivity (sumR (map (fun p => klt (ab p)) (map fst G))).
  - rewrite map_map. apply sumR_ext. intros e He. unfold q2, ab. cbn [fst snd]. f_equal. f_equal.
    + apply Qeq_eqR. rewrite Qred_correct. unfold aQ. destruct e as [[b1 b2] bw]. cbn [fst snd].
      assert (E := adj_edge (b1, b2, bw) He). unfold e_src, e_dst, e_w in E. cbn [fst snd] in E. now rewrite E.
    + apply Qeq_eqR. rewrite Qred_correct. reflexivity.
  - apply sumR_support.
    + exact Hnd.
    + apply NoDup_list_prod; apply seq_NoDup.
    + intros [u v] H. apply in_map_iff in H. destruct H as (e & E & He). destruct (HG e He) as [H1 H2].
      destruct e as [[b1 b2] bw]. unfold e_src, e_dst in *. simpl in *. inversion E; subst.
      apply in_prod_iff. rewrite !in_seq. lia.
    + intros [u v] _ Hnin. unfold ab, klt. cbn [fst snd].
      assert (E : (aQ (u, v) == 0)%Q) by (unfold aQ; cbn [fst snd]; rewrite (adj_absent u v Hnin); unfold Qdiv; ring).
      rewrite (Qeq_eqR _ _ E), Q2R_0'. lra.
Qed.

Theorem tsd_real_bounds_lemma : G <> [] ->
  exists score, tsd_real degree n G D false = Ok score /\
    tsd_real degree n G D true = Ok (normalise score (kl (map q2 (mi_terms degree n G)))) /\
    (0 <= score <= kl (map q2 (mi_terms degree n G)))%R /\
    (0 <= normalise score (kl (map q2 (mi_terms degree n G))) <= 1)%R.
Proof.
  intros HGne. destruct (tsd_terms_coarse HGne) as (ts & Hts & Hkl & _).
  unfold tsd_real. rewrite Hts. eexists. split; [reflexivity|]. split; [reflexivity|].
  rewrite Hkl, mi_is_fine_divergence.
  apply coarse_divergence_bounds; [exact groups_ok|]. rewrite fine_mass1, fine_mass2. lra.
Qed.

(** ** Link with the rational model and its [ln] oracle (unnormalised score).
    If the oracle is within eps of the real logarithm on the ratios edge_sampling[t] / node_sampling[t] it is
    applied to, the score computed by the model is within eps of [tsd_real] (the edge-sampling probabilities
    sum to 1), hence >= -eps and <= mutual information + eps. *)
Theorem tsd_model_within_eps_lemma (lnq : Q -> Q) (eps : R) s : G <> [] ->
  (forall ts x, tsd_terms degree n G D = Ok ts -> In x ts ->
     (Rabs (Q2R (lnq (fst x / snd x)%Q) - ln (Q2R (fst x) / Q2R (snd x))) <= eps)%R) ->
  tree_sampling_divergence lnq degree n G D false = Ok s ->
  exists sr, tsd_real degree n G D false = Ok sr /\ (Rabs (Q2R s - sr) <= eps)%R.
Proof.
  intros HGne Horacle Hs. destruct (tsd_terms_coarse HGne) as (ts & Hts & _ & Hm & Hnn).
  assert (H := klQ_within lnq eps ts Hnn (fun x => Horacle ts x Hts)). rewrite Hm in H.
  unfold tree_sampling_divergence in Hs. unfold tsd_real. rewrite Hts in *.
  injection Hs as <-. eexists. split; [reflexivity | lra].
Qed.
End Model.

(** ** Shape lemma: with an idealised oracle that agrees with [ln] on every ratio it is applied to, the rational
    model returns exactly [tsd_real] (so [tsd_real] is the model's formula, term for term).  No real oracle
    Q -> Q satisfies the hypothesis except on ratios equal to 1; see [tsd_model_within_eps_lemma] for approximate oracles. *)
Theorem tsd_real_of_exact_oracle_lemma (lnq : Q -> Q) degree n G D normalized s :
  (forall ts x, tsd_terms degree n G D = Ok ts -> In x (ts ++ mi_terms degree n G) ->
     Q2R (lnq (fst x / snd x)%Q) = ln (Q2R (fst x) / Q2R (snd x))) ->
  tree_sampling_divergence lnq degree n G D normalized = Ok s ->
  tsd_real degree n G D normalized = Ok (Q2R s).
Proof.
  intros Horacle Hs. unfold tree_sampling_divergence in Hs. unfold tsd_real.
  destruct (tsd_terms degree n G D) as [ts|e]; [|discriminate]. specialize (Horacle ts).
  assert (E1 := klQ_exact lnq ts (fun x Hx => Horacle x eq_refl (in_or_app _ _ _ (or_introl Hx)))).
  assert (E2 := klQ_exact lnq (mi_terms degree n G) (fun x Hx => Horacle x eq_refl (in_or_app _ _ _ (or_intror Hx)))).
  destruct normalized; injection Hs as <-; [|now rewrite E1].
  now rewrite <- E1, <- E2, normalise_Q2R.
Qed.
