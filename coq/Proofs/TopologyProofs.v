(** Proofs about Model/Topology.v (C11): triangle counting, schedule independence, core numbers,
    clustering coefficient, clique counting; the index arithmetic of the MinHeap ([par]) and a first statement
    on it ([heap_pop_is_min_partial]: under the heap invariant the popped node has minimum score); the full
    specifications are in Proofs/HeapProofs.v. *)
From SKN Require Import Base.Util Model.Bfs Model.Topology Proofs.BfsProofs.
From Coq Require Import Permutation Sorted Lia QArith Lqa.
Close Scope Q_scope.
Open Scope nat_scope.

Definition b2n (b : bool) : nat := if b then 1 else 0.

Lemma sumn_cons a l : sumn (a :: l) = a + sumn l.
Proof. reflexivity. Qed.

Lemma sumn_map_ext_in {A} (f h : A -> nat) (l : list A) :
  (forall x, In x l -> f x = h x) -> sumn (map f l) = sumn (map h l).
Proof.
  induction l as [|a t IH]; simpl; intros H; [reflexivity|].
  rewrite (H a) by (left; reflexivity). rewrite IH; [reflexivity|].
  intros x Hx. apply H. right. exact Hx.
Qed.

Lemma sumn_concat {A} (f : A -> nat) (ll : list (list A)) :
  sumn (map (fun c => sumn (map f c)) ll) = sumn (map f (concat ll)).
Proof.
  induction ll as [|c t IH]; simpl; auto.
  rewrite map_app, sumn_app, IH. reflexivity.
Qed.

Lemma length_filter_sum {A} (p : A -> bool) (l : list A) :
  length (filter p l) = sumn (map (fun x => b2n (p x)) l).
Proof. induction l as [|a t IH]; simpl; auto. destruct (p a); simpl; rewrite IH; reflexivity. Qed.

Lemma sumn_map_filter {A} (p : A -> bool) (f : A -> nat) (l : list A) :
  sumn (map f (filter p l)) = sumn (map (fun x => b2n (p x) * f x) l).
Proof.
  induction l as [|a t IH]; simpl; auto.
  destruct (p a); simpl; rewrite IH; lia.
Qed.

Lemma length_filter_flat_map {A B} (p : B -> bool) (f : A -> list B) (l : list A) :
  length (filter p (flat_map f l)) = sumn (map (fun x => length (filter p (f x))) l).
Proof.
  induction l as [|a t IH]; simpl; auto.
  rewrite filter_app, app_length, IH. reflexivity.
Qed.

Lemma filter_filter {A} (p q : A -> bool) (l : list A) :
  filter p (filter q l) = filter (fun x => q x && p x) l.
Proof.
  induction l as [|a t IH]; simpl; auto.
  destruct (q a); simpl; [destruct (p a); simpl|]; rewrite IH; reflexivity.
Qed.

Lemma sumn_map_mul {A} (c : nat) (f : A -> nat) (l : list A) :
  c * sumn (map f l) = sumn (map (fun x => c * f x) l).
Proof. induction l as [|a t IH]; simpl; [lia|]. rewrite <- IH. lia. Qed.

Lemma b2n_mul_sum {A} (b : bool) (f : A -> nat) (l : list A) :
  b2n b * sumn (map f l) = sumn (map (fun x => b2n b * f x) l).
Proof. apply sumn_map_mul. Qed.

Lemma b2n_and a b : b2n a * b2n b = b2n (a && b).
Proof. destruct a, b; reflexivity. Qed.

Lemma memn_cons x a l : memn x (a :: l) = (x =? a) || memn x l.
Proof. reflexivity. Qed.

Lemma memn_filter x p l : memn x (filter p l) = p x && memn x l.
Proof.
  induction l as [|a t IH]; simpl.
  - rewrite andb_false_r. reflexivity.
  - destruct (p a) eqn:E; rewrite ?memn_cons, IH;
      destruct (Nat.eqb_spec x a) as [->|Ne]; simpl; rewrite ?E; reflexivity.
Qed.

Lemma memn_seq x n : x < n -> memn x (seq 0 n) = true.
Proof. intros H. apply memn_In. apply in_seq. lia. Qed.

Lemma row_overflow (g : graph) u : length g <= u -> row g u = [].
Proof. intros H. unfold row. apply nth_overflow. exact H. Qed.

Lemma sorted_seq a n : StronglySorted lt (seq a n).
Proof.
  revert a; induction n as [|n IH]; intros a; simpl; constructor; auto.
  apply Forall_forall. intros x Hx. apply in_seq in Hx. lia.
Qed.

Lemma sorted_filter {A} (R : A -> A -> Prop) (p : A -> bool) (l : list A) :
  StronglySorted R l -> StronglySorted R (filter p l).
Proof.
  induction 1 as [|a t Ht IH Ha]; simpl; [constructor|].
  destruct (p a); auto. constructor; auto.
  rewrite Forall_forall in *. intros x Hx. apply filter_In in Hx. apply Ha. tauto.
Qed.

(** * The two-pointer merge loop computes |l1 /\ l2| on strictly sorted lists *)

Lemma merge_count_inter (fuel : nat) (l1 l2 : list nat) :
  StronglySorted lt l1 -> StronglySorted lt l2 -> length l1 + length l2 <= fuel ->
  merge_count fuel l1 l2 = length (filter (fun x => memn x l2) l1).
Proof.
  revert l1 l2. induction fuel as [|f IH]; intros l1 l2 S1 S2 Hf.
  - destruct l1; simpl in *; [reflexivity|lia].
  - destruct l1 as [|a t1]; [reflexivity|].
    destruct l2 as [|b t2].
    + simpl. rewrite filter_none; [reflexivity|]. intros x _. reflexivity.
    + pose proof (StronglySorted_inv S1) as [S1t S1a].
      pose proof (StronglySorted_inv S2) as [S2t S2b].
      rewrite Forall_forall in S1a, S2b.
      cbn [merge_count].
      destruct (Nat.eqb_spec a b) as [E|Ne].
      * subst b. rewrite IH by (auto; simpl in Hf; lia).
        cbn [filter]. rewrite memn_cons, Nat.eqb_refl. cbn [orb length]. f_equal.
        f_equal. apply filter_ext_in. intros x Hx. rewrite memn_cons.
        specialize (S1a x Hx). destruct (Nat.eqb_spec x a); [lia|reflexivity].
      * destruct (Nat.ltb_spec a b) as [L|L].
        -- rewrite IH by (auto; simpl in *; lia).
           cbn [filter]. rewrite memn_cons.
           destruct (Nat.eqb_spec a b) as [E|_]; [contradiction|]. cbn [orb].
           assert (Hm : memn a t2 = false).
           { apply memn_false. intros M. specialize (S2b a M). lia. }
           rewrite Hm. reflexivity.
        -- rewrite IH by (auto; simpl in *; lia).
           f_equal. apply filter_ext_in. intros x Hx. rewrite memn_cons.
           assert (Hx' : a <= x). { destruct Hx as [->|Hx]; [lia|]. specialize (S1a x Hx). lia. }
           destruct (Nat.eqb_spec x b); [lia|reflexivity].
Qed.

(** Per-node count = sum over out-neighbours v of |N+(u) /\ N+(v)|. *)
Theorem count_local_correct (d : graph) (u : nat) :
  (forall v, StronglySorted lt (row d v)) ->
  count_local d u =
  sumn (map (fun v => length (filter (fun x => memn x (row d v)) (row d u))) (row d u)).
Proof.
  intros HS. unfold count_local. apply sumn_map_ext_in. intros v _.
  apply merge_count_inter; auto.
Qed.

(** * Schedule independence of the prange reduction *)

Lemma fold_left_add {A} (f : A -> nat) (l : list A) (acc : nat) :
  fold_left (fun a x => a + f x) l acc = acc + sumn (map f l).
Proof. revert acc; induction l as [|x t IH]; intros acc; simpl; [lia|]. rewrite IH. lia. Qed.

Theorem count_triangles_schedule_independent (d : graph) (sched : list (list nat)) :
  Permutation (concat sched) (seq 0 (length d)) ->
  count_triangles_sched d sched = count_triangles_from_dag d.
Proof.
  intros HP. unfold count_triangles_sched, count_triangles_from_dag.
  rewrite (sumn_map_ext_in _ (fun c => sumn (map (count_local d) c))).
  - rewrite sumn_concat. apply sumn_perm. apply Permutation_map. exact HP.
  - intros c _. rewrite fold_left_add. reflexivity.
Qed.

(** * count_triangles = number of triples a < b < c pairwise adjacent *)

Definition out_p (g : graph) (u j : nat) : bool := (u <? j) && adjb g u j.

Lemma sym_rows_length g : length (sym_rows g) = length g.
Proof. unfold sym_rows. rewrite map_length, seq_length. reflexivity. Qed.

Lemma row_sym_rows g u : u < length g -> row (sym_rows g) u = filter (adjb g u) (seq 0 (length g)).
Proof. intros H. unfold row, sym_rows. rewrite nth_map_seq by exact H. reflexivity. Qed.

Lemma tri_dag_length g : length (tri_dag g) = length g.
Proof. unfold tri_dag. rewrite get_dag_length, sym_rows_length. reflexivity. Qed.

Lemma nthz_id_order n u : u < n -> nthz (id_order n) u = Z.of_nat u.
Proof.
  intros H. unfold nthz, id_order. rewrite nth_map_lt with (da := 0) by (rewrite seq_length; exact H).
  rewrite seq_nth by exact H. reflexivity.
Qed.

Lemma id_order_length n : length (id_order n) = n.
Proof. unfold id_order. rewrite map_length, seq_length. reflexivity. Qed.

Lemma row_tri_dag g u : u < length g ->
  row (tri_dag g) u = filter (out_p g u) (seq 0 (length g)).
Proof.
  intros Hu. unfold tri_dag. rewrite row_get_dag by (rewrite sym_rows_length; exact Hu).
  rewrite row_sym_rows by exact Hu. rewrite filter_filter.
  apply filter_ext_in. intros j Hj. apply in_seq in Hj. unfold out_p.
  rewrite andb_comm. f_equal.
  apply eq_true_iff_eq. rewrite negb_true_iff, Nat.ltb_lt, dag_removed_false by (rewrite id_order_length; exact Hu).
  rewrite !nthz_id_order by lia. lia.
Qed.

Lemma tri_dag_sorted g v : StronglySorted lt (row (tri_dag g) v).
Proof.
  destruct (Nat.lt_ge_cases v (length g)) as [L|L].
  - rewrite row_tri_dag by exact L. apply sorted_filter. apply sorted_seq.
  - rewrite row_overflow by (rewrite tri_dag_length; exact L). constructor.
Qed.

Lemma triangles_spec_sum adj n :
  triangles_spec adj n =
  sumn (map (fun a => sumn (map (fun b => sumn (map (fun c =>
    b2n ((a <? b) && (b <? c) && adj a b && adj a c && adj b c)) (seq 0 n))) (seq 0 n))) (seq 0 n)).
Proof.
  unfold triangles_spec, all_triples.
  rewrite length_filter_flat_map. apply sumn_map_ext_in. intros a _.
  rewrite length_filter_flat_map. apply sumn_map_ext_in. intros b _.
  rewrite filter_map_comm, map_length, length_filter_sum. reflexivity.
Qed.

Theorem count_triangles_exact (g : graph) :
  count_triangles g = triangles_spec (adjb g) (length g).
Proof.
  rewrite triangles_spec_sum.
  unfold count_triangles, count_triangles_from_dag. rewrite tri_dag_length.
  apply sumn_map_ext_in. intros u Hu. apply in_seq in Hu.
  rewrite count_local_correct by (apply tri_dag_sorted).
  rewrite row_tri_dag by lia.
  rewrite sumn_map_filter. apply sumn_map_ext_in. intros v Hv. apply in_seq in Hv.
  rewrite length_filter_sum, sumn_map_filter, b2n_mul_sum.
  apply sumn_map_ext_in. intros w Hw. apply in_seq in Hw.
  rewrite row_tri_dag by lia. rewrite memn_filter, memn_seq by lia.
  rewrite andb_true_r, !b2n_and. f_equal. unfold out_p.
  destruct (Nat.ltb_spec u v), (Nat.ltb_spec v w), (Nat.ltb_spec u w);
    destruct (adjb g u v), (adjb g u w), (adjb g v w); simpl; try reflexivity; lia.
Qed.

(** * Core decomposition, level L1: every admissible peeling sequence yields the core numbers *)

Lemma upd_nil {A} i (x : A) : upd [] i x = [].
Proof. unfold upd. destruct i; reflexivity. Qed.

Lemma upd_cons_0 {A} (a : A) l x : upd (a :: l) 0 x = x :: l.
Proof. reflexivity. Qed.

Lemma upd_cons_S {A} (a : A) l i x : upd (a :: l) (S i) x = a :: upd l i x.
Proof. reflexivity. Qed.

Lemma upd_length {A} (l : list A) i x : length (upd l i x) = length l.
Proof.
  revert i; induction l as [|a t IH]; intros i.
  - rewrite upd_nil. reflexivity.
  - destruct i; [reflexivity|]. rewrite upd_cons_S. simpl. rewrite IH. reflexivity.
Qed.

Lemma nth_upd_same {A} (l : list A) i x d : i < length l -> nth i (upd l i x) d = x.
Proof.
  revert i; induction l as [|a t IH]; intros i H; simpl in H; [lia|].
  destruct i; [reflexivity|]. rewrite upd_cons_S. simpl. apply IH. lia.
Qed.

Lemma nth_upd_other {A} (l : list A) i j x d : i <> j -> nth j (upd l i x) d = nth j l d.
Proof.
  revert i j; induction l as [|a t IH]; intros i j H.
  - rewrite upd_nil. reflexivity.
  - destruct i.
    + destruct j; [contradiction|]. reflexivity.
    + rewrite upd_cons_S. destruct j; [reflexivity|]. simpl. apply IH. lia.
Qed.

Lemma nthn_upd_same (l : list nat) i x : i < length l -> nthn (upd l i x) i = x.
Proof. apply nth_upd_same. Qed.

Lemma nthn_upd_other (l : list nat) i j x : i <> j -> nthn (upd l i x) j = nthn l j.
Proof. apply nth_upd_other. Qed.

Lemma nthl_upd_same (ll : list (list nat)) i r : i < length ll -> nthl (upd ll i r) i = r.
Proof. apply nth_upd_same. Qed.

Lemma nthl_upd_other (ll : list (list nat)) i j r : i <> j -> nthl (upd ll i r) j = nthl ll j.
Proof. apply nth_upd_other. Qed.

Lemma swap_list_nth (l : list nat) x y q : x < length l -> y < length l ->
  nthn (upd (upd l x (nthn l y)) y (nthn l x)) q =
  if q =? y then nthn l x else if q =? x then nthn l y else nthn l q.
Proof.
  intros Hx Hy. destruct (Nat.eqb_spec q y) as [->|Ny].
  - apply nthn_upd_same. rewrite upd_length. exact Hy.
  - rewrite nthn_upd_other by lia. destruct (Nat.eqb_spec q x) as [->|Nx].
    + apply nthn_upd_same. exact Hx.
    + apply nthn_upd_other. lia.
Qed.

Lemma length_filter_le {A} (p q : A -> bool) (l : list A) :
  (forall x, In x l -> p x = true -> q x = true) -> length (filter p l) <= length (filter q l).
Proof.
  induction l as [|a t IH]; intros H; simpl; [lia|].
  assert (IH' : length (filter p t) <= length (filter q t)).
  { apply IH. intros x Hx. apply H. right. exact Hx. }
  destruct (p a) eqn:Ep.
  - rewrite (H a (or_introl eq_refl) Ep). simpl. lia.
  - destruct (q a); simpl; lia.
Qed.

Lemma deg_in_mono g (t a : list nat) v :
  (forall w, In w t -> In w a) -> deg_in g t v <= deg_in g a v.
Proof.
  intros H. unfold deg_in. apply length_filter_le.
  intros x _ Hx. apply memn_In. apply H. apply memn_In. exact Hx.
Qed.

Lemma in_core_mono g k k' v : k' <= k -> in_core g k v -> in_core g k' v.
Proof.
  intros Hk [s [Hv Hs]]. exists s. split; [exact Hv|].
  intros u Hu. specialize (Hs u Hu). lia.
Qed.

Lemma deg_in_overflow g s v : length g <= v -> deg_in g s v = 0.
Proof. intros H. unfold deg_in. rewrite row_overflow by exact H. reflexivity. Qed.

Lemma peel_run_inv (g : graph) (choice : list nat) :
  forall alive c labels out,
  peel_run g choice alive c labels = Some out ->
  (exists s, (forall v, In v alive -> In v s) /\ kcore_set g c s) ->
  (forall k t, c < k -> kcore_set g k t -> forall v, In v t -> In v alive) ->
  length out = length labels /\
  forall v, v < length labels ->
    (In v alive -> core_number g v (nthn out v)) /\
    (~ In v alive -> nthn out v = nthn labels v).
Proof.
  induction choice as [|v0 rest IH]; intros alive c labels out Hrun Ha Hb.
  - simpl in Hrun. destruct alive as [|x xs]; [|discriminate].
    injection Hrun as <-. split; [reflexivity|]. intros v _. split; [intros []|reflexivity].
  - simpl in Hrun.
    destruct (memn v0 alive && forallb (fun u => deg_in g alive v0 <=? deg_in g alive u) alive) eqn:Eg;
      [|discriminate].
    apply andb_true_iff in Eg. destruct Eg as [Hmem Hmin].
    apply memn_In in Hmem. rewrite forallb_forall in Hmin.
    set (d := deg_in g alive v0) in *.
    set (c' := Nat.max c d) in *.
    (* a witness for c' containing the whole current alive set *)
    assert (Ha' : exists s, (forall v, In v alive -> In v s) /\ kcore_set g c' s).
    { destruct (Nat.le_gt_cases d c) as [L|L].
      - replace c' with c by (unfold c'; lia). exact Ha.
      - replace c' with d by (unfold c'; lia). exists alive. split; [auto|].
        intros u Hu. specialize (Hmin u Hu). apply Nat.leb_le in Hmin. exact Hmin. }
    (* nothing outside alive (and not v0 either) lies in a k-core witness for k > c' *)
    assert (Hb0 : forall k t, c' < k -> kcore_set g k t -> forall v, In v t -> In v alive).
    { intros k t Hk Ht v Hv. apply (Hb k t); auto. unfold c' in Hk. lia. }
    assert (Hv0 : forall k t, c' < k -> kcore_set g k t -> ~ In v0 t).
    { intros k t Hk Ht Hin.
      pose proof (Ht v0 Hin) as H1.
      pose proof (deg_in_mono g t alive v0 (Hb0 k t Hk Ht)) as H2.
      fold d in H2. unfold c' in Hk. lia. }
    specialize (IH (remove Nat.eq_dec v0 alive) c' (upd labels v0 c') out Hrun).
    destruct IH as [Hlen Hout].
    { destruct Ha' as [s [Hs1 Hs2]]. exists s. split; [|exact Hs2].
      intros v Hv. apply in_remove in Hv. apply Hs1. tauto. }
    { intros k t Hk Ht v Hv. apply in_in_remove.
      - intros E. subst v. exact (Hv0 k t Hk Ht Hv).
      - exact (Hb0 k t Hk Ht v Hv). }
    rewrite upd_length in Hlen, Hout. split; [exact Hlen|].
    intros v Hv. specialize (Hout v Hv). destruct Hout as [Hin Hnot]. split.
    + intros Hal. destruct (Nat.eq_dec v v0) as [E|Ne].
      * subst v. rewrite Hnot by (apply remove_In).
        unfold nthn. rewrite nth_upd_same by exact Hv. split.
        -- destruct Ha' as [s [Hs1 Hs2]]. exists s. split; [apply Hs1; exact Hal|exact Hs2].
        -- intros k' [t [Ht1 Ht2]].
           destruct (Nat.le_gt_cases k' c') as [L|L]; [exact L|].
           exfalso. exact (Hv0 k' t L Ht2 Ht1).
      * apply Hin. apply in_in_remove; auto.
    + intros Hal. rewrite Hnot.
      * unfold nthn. apply nth_upd_other. intros E. subst v. contradiction.
      * intros Hr. apply in_remove in Hr. tauto.
Qed.

Theorem peel_is_core_number (g : graph) (choice labels : list nat) :
  peel g choice = Some labels ->
  length labels = length g /\ forall v, v < length g -> core_number g v (nthn labels v).
Proof.
  intros Hrun. unfold peel in Hrun.
  apply peel_run_inv in Hrun.
  - destruct Hrun as [Hlen Hout]. rewrite repeat_length in Hlen, Hout. split; [exact Hlen|].
    intros v Hv. apply (Hout v Hv). apply in_seq. lia.
  - exists (seq 0 (length g)). split; [auto|]. intros u _. lia.
  - intros k t Hk Ht v Hv. apply in_seq.
    destruct (Nat.lt_ge_cases v (length g)) as [L|L]; [lia|].
    specialize (Ht v Hv). rewrite deg_in_overflow in Ht by exact L. lia.
Qed.

Lemma core_number_unique g v k1 k2 : core_number g v k1 -> core_number g v k2 -> k1 = k2.
Proof.
  intros [A1 B1] [A2 B2]. apply Nat.le_antisymm; auto.
Qed.

Lemma sym_degrees_spec g :
  sym_degrees g = map (degree_spec (adjb g) (length g)) (seq 0 (length g)).
Proof. unfold sym_degrees, sym_rows. rewrite map_map. reflexivity. Qed.

Lemma sum_dd1_spec g : sum_dd1 (sym_degrees g) = triples_spec2 (adjb g) (length g).
Proof.
  rewrite sym_degrees_spec. unfold sum_dd1, triples_spec2.
  rewrite filter_map_comm, map_map, sumn_map_filter.
  apply sumn_map_ext_in. intros v _. cbv zeta.
  destruct (1 <? degree_spec (adjb g) (length g) v); simpl; lia.
Qed.

Lemma qnat_zero n : (qnat n == 0)%Q -> n = 0.
Proof. unfold qnat, Qeq. simpl. lia. Qed.

Theorem clustering_coefficient_def (g : graph) :
  match clustering_coefficient g with
  | Some q => triples_spec2 (adjb g) (length g) <> 0 /\ (q == clustering_spec (adjb g) (length g))%Q
  | None => triples_spec2 (adjb g) (length g) = 0
  end.
Proof.
  unfold clustering_coefficient, n_edge_pairs, clustering_spec.
  rewrite sum_dd1_spec, count_triangles_exact.
  set (P := triples_spec2 (adjb g) (length g)).
  destruct (Qeq_bool (qnat P / 2) 0) eqn:E.
  - apply Qeq_bool_iff in E. apply qnat_zero.
    assert (H : (qnat P == (qnat P / 2) * 2)%Q) by field.
    rewrite H, E. reflexivity.
  - split.
    + intros HP. rewrite HP in E. vm_compute in E. discriminate.
    + apply Qred_correct.
Qed.

(** The denominator is the number of connected triples: sum_v d_v (d_v - 1) = 2 #{b - v - c, b < c}. *)
Lemma pairs_sorted (p : nat -> bool) (l : list nat) :
  StronglySorted lt l ->
  2 * sumn (map (fun b => sumn (map (fun c => b2n ((b <? c) && p b && p c)) l)) l) =
  length (filter p l) * (length (filter p l) - 1).
Proof.
  induction 1 as [|a t Ht IH Ha]; [reflexivity|].
  rewrite Forall_forall in Ha.
  set (f := fun b c => b2n ((b <? c) && p b && p c)).
  change (2 * sumn (map (fun b => sumn (map (f b) (a :: t))) (a :: t)) =
          length (filter p (a :: t)) * (length (filter p (a :: t)) - 1)).
  change (2 * sumn (map (fun b => sumn (map (f b) t)) t) =
          length (filter p t) * (length (filter p t) - 1)) in IH.
  rewrite map_cons, sumn_cons. rewrite map_cons, sumn_cons.
  assert (Haa : f a a = 0) by (unfold f; rewrite Nat.ltb_irrefl; reflexivity).
  rewrite Haa.
  rewrite (sumn_map_ext_in (fun b => sumn (map (f b) (a :: t))) (fun b => sumn (map (f b) t)) t).
  2:{ intros b Hb. rewrite map_cons, sumn_cons. specialize (Ha b Hb). unfold f at 1.
      destruct (Nat.ltb_spec b a); [lia|]. reflexivity. }
  rewrite (sumn_map_ext_in (f a) (fun c => b2n (p a) * b2n (p c)) t).
  2:{ intros c Hc. specialize (Ha c Hc). unfold f. destruct (Nat.ltb_spec a c); [|lia]. rewrite b2n_and. reflexivity. }
  rewrite <- b2n_mul_sum, <- length_filter_sum.
  cbn [filter]. destruct (p a); cbn [b2n length]; nia.
Qed.

(** * Cliques, level L1: the recursion counts the k-subsets that are cliques *)

Lemma sublists_k_0 l : sublists_k 0 l = [[]].
Proof. destruct l; reflexivity. Qed.

Lemma filter_forallb_sublists (p : nat -> bool) (l : list nat) :
  forall k, filter (forallb p) (sublists_k k l) = sublists_k k (filter p l).
Proof.
  induction l as [|a t IH]; intros k.
  - destruct k; reflexivity.
  - destruct k as [|k].
    + rewrite !sublists_k_0. reflexivity.
    + change (sublists_k (S k) (a :: t)) with (map (cons a) (sublists_k k t) ++ sublists_k (S k) t).
      rewrite filter_app, filter_map_comm. cbn [filter forallb].
      destruct (p a) eqn:E.
      * cbn [andb]. change (fun x => forallb p x) with (forallb p).
        rewrite !IH. reflexivity.
      * rewrite (filter_none (fun x => false && forallb p x)) by (intros; reflexivity).
        rewrite IH. reflexivity.
Qed.

Lemma count_sub_0 adj l : count_sub adj 0 l = 1.
Proof. unfold count_sub. rewrite sublists_k_0. reflexivity. Qed.

Lemma count_sub_S_nil adj k : count_sub adj (S k) [] = 0.
Proof. reflexivity. Qed.

Lemma count_sub_cons adj k a t :
  count_sub adj (S k) (a :: t) = count_sub adj k (filter (adj a) t) + count_sub adj (S k) t.
Proof.
  unfold count_sub.
  change (sublists_k (S k) (a :: t)) with (map (cons a) (sublists_k k t) ++ sublists_k (S k) t).
  rewrite filter_app, app_length, filter_map_comm, map_length. f_equal.
  rewrite <- filter_forallb_sublists, filter_filter. reflexivity.
Qed.

Lemma count_sub_1 adj l : count_sub adj 1 l = length l.
Proof.
  induction l as [|a t IH]; [reflexivity|].
  rewrite count_sub_cons, count_sub_0, IH. reflexivity.
Qed.

Lemma filter_comm {A} (p q : A -> bool) (l : list A) :
  filter p (filter q l) = filter q (filter p l).
Proof. rewrite !filter_filter. apply filter_ext. intros x. apply andb_comm. Qed.

Lemma count_sub_perm adj :
  (forall a b, adj a b = adj b a) ->
  forall k (l l' : list nat), Permutation l l' -> count_sub adj k l = count_sub adj k l'.
Proof.
  intros Hsym. induction k as [|k IHk]; intros l l' HP.
  - rewrite !count_sub_0. reflexivity.
  - induction HP as [|x l l' HP IH|x y l|l l' l'' HP1 IH1 HP2 IH2].
    + reflexivity.
    + rewrite !count_sub_cons, IH. f_equal. apply IHk. apply perm_filter. exact HP.
    + assert (E : adj y x = adj x y) by apply Hsym.
      rewrite !count_sub_cons. cbn [filter]. rewrite E.
      destruct (adj x y); [|lia].
      destruct k as [|k]; [rewrite !count_sub_0; lia|].
      rewrite !count_sub_cons. rewrite (filter_comm (adj x) (adj y) l). lia.
    + rewrite IH1, IH2. reflexivity.
Qed.

Lemma inter_perm l (s s' : list nat) : Permutation s s' -> inter l s = inter l s'.
Proof.
  intros HP. unfold inter. apply filter_ext. intros w. apply eq_true_iff_eq. rewrite !memn_In.
  split; apply Permutation_in; [|symmetry]; exact HP.
Qed.

(** [hc d j s]: what the recursion computes on a candidate list at depth j (0: its length). *)
Definition hc (d : graph) (j : nat) (s : list nat) : nat :=
  match j with O => length s | S j' => cliques_rec d j' s end.

Lemma cliques_rec_hc d j s :
  cliques_rec d j s = sumn (map (fun u => hc d j (inter (row d u) s)) s).
Proof. destruct j; reflexivity. Qed.

(** The DAG [d] orients the symmetric relation [adj] on the nodes < n by the injective key [ord]. *)
Definition dag_of (adj : nat -> nat -> bool) (ord : nat -> nat) (n : nat) (d : graph) : Prop :=
  (forall a b, adj a b = adj b a) /\
  (forall a b, a < n -> b < n -> ord a = ord b -> a = b) /\
  (forall u, u < n -> NoDup (row d u) /\
     forall w, In w (row d u) <-> (w < n /\ adj u w = true /\ ord u < ord w)).

Lemma ord_min (ord : nat -> nat) (s : list nat) :
  s <> [] -> exists a, In a s /\ forall w, In w s -> ord a <= ord w.
Proof.
  induction s as [|x t IH]; intros H; [contradiction|].
  destruct t as [|y t'].
  - exists x. split; [left; reflexivity|]. intros w [<-|[]]. lia.
  - destruct (IH ltac:(discriminate)) as [a [Ha Hmin]].
    destruct (Nat.le_gt_cases (ord x) (ord a)) as [L|L].
    + exists x. split; [left; reflexivity|]. intros w [<-|Hw]; [lia|]. specialize (Hmin w Hw). lia.
    + exists a. split; [right; exact Ha|]. intros w [<-|Hw]; [lia|]. apply Hmin, Hw.
Qed.

Lemma inter_nodup l s : NoDup l -> NoDup (inter l s).
Proof. intros H. unfold inter. apply NoDup_filter. exact H. Qed.

Lemma in_inter x l s : In x (inter l s) <-> In x l /\ In x s.
Proof. unfold inter. rewrite filter_In, memn_In. reflexivity. Qed.

(** Key step: the node of least key is taken out first. Its candidates are exactly its neighbours among
    the others, and it is an out-neighbour of none of them. *)
Lemma cliques_step adj ord n d :
  dag_of adj ord n d ->
  forall k s, NoDup s -> (forall x, In x s -> x < n) ->
  sumn (map (fun u => count_sub adj k (inter (row d u) s)) s) = count_sub adj (S k) s.
Proof.
  intros [Hsym [Hinj HR]] k s. remember (length s) as m eqn:Em. revert s Em.
  induction m as [|m IH]; intros s Em Hnd Hlt.
  - destruct s; [reflexivity|discriminate].
  - destruct (ord_min ord s) as [a [Ha Hmin]]; [intros ->; discriminate|].
    destruct (in_split a s Ha) as [l1 [l2 Es]].
    assert (HP : Permutation s (a :: l1 ++ l2)) by (rewrite Es; symmetry; apply Permutation_middle).
    set (t := l1 ++ l2) in *.
    rewrite (count_sub_perm adj Hsym (S k) s (a :: t) HP), (sumn_perm _ _ (Permutation_map _ HP)).
    rewrite (sumn_map_ext_in _ (fun u => count_sub adj k (inter (row d u) (a :: t))))
      by (intros u _; rewrite (inter_perm _ _ _ HP); reflexivity).
    pose proof (Permutation_NoDup HP Hnd) as Hnd'. apply NoDup_cons_iff in Hnd'. destruct Hnd' as [Hat Hndt].
    assert (Hin : forall x, In x (a :: t) -> In x s) by (intros x; apply (Permutation_in _ (Permutation_sym HP))).
    assert (Han : a < n) by (apply Hlt, Ha).
    assert (Hltt : forall x, In x t -> x < n) by (intros x Hx; apply Hlt, Hin; right; exact Hx).
    assert (Hlt_a : forall w, In w t -> ord a < ord w).
    { intros w Hw. pose proof (Hmin w (Hin w (or_intror Hw))) as Hle.
      destruct (Nat.eq_dec (ord a) (ord w)) as [E|Ne]; [|lia].
      apply Hinj in E; auto. subst w. contradiction. }
    rewrite count_sub_cons. cbn [map]. rewrite sumn_cons. f_equal.
    + apply count_sub_perm; [exact Hsym|].
      destruct (HR a Han) as [Hnda Hrow].
      apply NoDup_Permutation; [apply inter_nodup; exact Hnda|apply NoDup_filter; exact Hndt|].
      intros w. rewrite in_inter, filter_In, Hrow. split.
      * intros [[Hwn [Hadj Hord]] [E|Hw]]; [subst w; lia|]. split; assumption.
      * intros [Hw Hadj]. split; [|right; exact Hw].
        split; [apply Hltt; exact Hw|]. split; [exact Hadj|apply Hlt_a; exact Hw].
    + rewrite <- (IH t); [|pose proof (Permutation_length HP) as El; simpl in El; lia|exact Hndt|exact Hltt].
      apply sumn_map_ext_in. intros u Hu. f_equal.
      unfold inter. apply filter_ext_in. intros w Hw. rewrite memn_cons.
      destruct (Nat.eqb_spec w a) as [E|Ne]; [|reflexivity]. exfalso. subst w.
      destruct (HR u (Hltt u Hu)) as [_ Hrow]. apply Hrow in Hw.
      specialize (Hlt_a u Hu). lia.
Qed.

Lemma hc_count_sub adj ord n d :
  dag_of adj ord n d ->
  forall j s, NoDup s -> (forall x, In x s -> x < n) -> hc d j s = count_sub adj (S j) s.
Proof.
  intros Hd. induction j as [|j IH]; intros s Hnd Hlt.
  - simpl. rewrite count_sub_1. reflexivity.
  - change (hc d (S j) s) with (cliques_rec d j s). rewrite cliques_rec_hc.
    rewrite <- (cliques_step adj ord n d Hd (S j) s Hnd Hlt).
    apply sumn_map_ext_in. intros u Hu. apply IH.
    + apply inter_nodup. destruct Hd as [_ [_ HR]]. apply (HR u). apply Hlt. exact Hu.
    + intros x Hx. apply in_inter in Hx. apply Hlt. tauto.
Qed.

(** L1 recursion = number of k-subsets of the nodes that are cliques, for every k >= 2 and every
    orientation of the edges by an injective key. *)
Theorem cliques_L1_exact adj ord (d : graph) (k : nat) :
  dag_of adj ord (length d) d -> 2 <= k ->
  count_cliques_from_dag_L1 d k = cliques_spec adj (length d) k.
Proof.
  intros Hd Hk. unfold count_cliques_from_dag_L1, cliques_spec.
  replace k with (S (S (k - 2))) at 2 by lia.
  rewrite <- (hc_count_sub adj ord (length d) d Hd (S (k - 2))).
  - reflexivity.
  - apply seq_NoDup.
  - intros x Hx. apply in_seq in Hx. lia.
Qed.

Lemma adjb_sym g a b : adjb g a b = adjb g b a.
Proof. unfold adjb. apply orb_comm. Qed.

Lemma nthz_map_of_nat (l : list nat) u : nthz (map Z.of_nat l) u = Z.of_nat (nthn l u).
Proof. unfold nthz, nthn. change 0%Z with (Z.of_nat 0). apply map_nth. Qed.

Lemma dag_of_get_dag (g : graph) (argsort : list nat) :
  wf_graph g -> (forall u, NoDup (row g u)) -> (forall u v, In v (row g u) -> In u (row g v)) ->
  NoDup argsort -> length argsort = length g ->
  dag_of (adjb g) (nthn argsort) (length g) (get_dag g (map Z.of_nat argsort)).
Proof.
  intros Hwf Hnd Hsym Hnda Hlen. split; [apply adjb_sym|]. split.
  - intros a b Ha Hb E. unfold nthn in E.
    apply (proj1 (NoDup_nth argsort 0) Hnda a b); [lia|lia|exact E].
  - intros u Hu. split.
    + rewrite row_get_dag by exact Hu. apply NoDup_filter. apply Hnd.
    + intros w. rewrite get_dag_exact; [|exact Hwf|rewrite map_length; exact Hlen|exact Hu].
      rewrite !nthz_map_of_nat. split.
      * intros [Hin [_ Hlt]]. split; [exact (Hwf _ _ Hin)|]. split; [|lia].
        unfold adjb. apply orb_true_iff. left. apply memn_In. exact Hin.
      * intros [_ [Hadj Hlt]]. split; [|lia].
        unfold adjb in Hadj. apply orb_true_iff in Hadj.
        destruct Hadj as [H|H]; apply memn_In in H; [exact H|apply Hsym; exact H].
Qed.

(** count_cliques at level L1 on an undirected graph (symmetric pattern, duplicate-free rows), for
    every answer of argsort that is a permutation of the nodes, and every k >= 2. *)
Theorem count_cliques_L1_exact (g : graph) (k : nat) (argsort : list nat) :
  wf_graph g -> (forall u, NoDup (row g u)) -> (forall u v, In v (row g u) -> In u (row g v)) ->
  NoDup argsort -> length argsort = length g -> 2 <= k ->
  count_cliques_L1 g k argsort = Ok (cliques_spec (adjb g) (length g) k).
Proof.
  intros Hwf Hnd Hsym Hnda Hlen Hk. unfold count_cliques_L1.
  destruct (Nat.ltb_spec k 2) as [L|_]; [lia|]. f_equal.
  pose proof (dag_of_get_dag g argsort Hwf Hnd Hsym Hnda Hlen) as Hd.
  rewrite <- (get_dag_length g (map Z.of_nat argsort)) in Hd at 1.
  rewrite (cliques_L1_exact (adjb g) (nthn argsort) _ k Hd Hk).
  rewrite get_dag_length. reflexivity.
Qed.

(** * MinHeap, level L0 (partial): under the heap invariant the popped node has minimum score *)

Definition par (i : nat) : nat := Z.to_nat (parent i).

Lemma par_spec i : 0 < i -> i = 2 * par i + 1 \/ i = 2 * par i + 2.
Proof.
  intros H. unfold par, parent.
  pose proof (Z.div_mod (Z.of_nat i - 1) 2 ltac:(lia)) as E.
  pose proof (Z.mod_pos_bound (Z.of_nat i - 1) 2 ltac:(lia)) as B.
  assert (P : (0 <= (Z.of_nat i - 1) / 2)%Z) by (apply Z.div_pos; lia).
  lia.
Qed.

Lemma par_lt i : 0 < i -> par i < i.
Proof. intros H. pose proof (par_spec i H). lia. Qed.

Lemma parent_0 : parent 0 = (-1)%Z.
Proof. reflexivity. Qed.

Lemma heap_root_min (h : heap) (scores : list Z) :
  heap_ok h scores -> forall i, i < h_size h -> (score_at h scores 0 <= score_at h scores i)%Z.
Proof.
  intros [_ [_ Hord]] i. induction i as [i IH] using lt_wf_ind. intros Hi.
  destruct (Nat.eq_dec i 0) as [->|Ne]; [lia|].
  pose proof (par_lt i ltac:(lia)) as Hp.
  specialize (Hord i ltac:(lia) Hi). fold (par i) in Hord.
  specialize (IH _ Hp ltac:(lia)). lia.
Qed.

Lemma pop_min_root (h : heap) (scores : list Z) : fst (pop_min h scores) = nthn (h_val h) 0.
Proof. unfold pop_min. destruct (h_size h =? 1); reflexivity. Qed.

Theorem heap_pop_is_min_partial (h : heap) (scores : list Z) :
  heap_ok h scores -> 0 < h_size h ->
  let m := fst (pop_min h scores) in
  m = nthn (h_val h) 0 /\
  forall i, i < h_size h -> (nthz scores m <= nthz scores (nthn (h_val h) i))%Z.
Proof.
  intros Hok Hs. cbv zeta. rewrite pop_min_root. split; [reflexivity|].
  intros i Hi. exact (heap_root_min h scores Hok i Hi).
Qed.
