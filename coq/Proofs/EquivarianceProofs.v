(** C02 / C01 corollaries: equivariance (renumbering the nodes) and independence of the stored form (order of
    the stored indices, duplicates, container) of the REAL kernel models, each obtained as
        X_equivariant := X_exact o spec_equivariant_X
    (a schema, not Coq names) from the exactness theorem of the kernel against its textbook specification
    (C04, C06, C08, C11, C14) and the equivariance of that specification, or, for iteration models, by
    induction on the coded loop.
    One module per model family (the model files define clashing names: wrow, entry, result, matvec ...):
    every module imports its model inside the module only.  EqT: Model/Topology.v (triangles, cliques, core
    numbers; renumbering and row order).  EqDen: Model/Diffusion.v depends on the denotation of the stored
    rows only; EqDenPR: the same for Model/PageRank.v.  EqA: PageRank, Katz, closeness, Brandes betweenness
    under renumbering.  EqB_Mod: Model/Modularity.v.  EqB_Das: Dasgupta's cost (Model/Cuts.v).  EqC:
    Model/Diffusion.v (the diffusion and Dirichlet iterations and the harmonic solution under renumbering
    and row order).  EqC_Vote: Model/Vote.v (order of the stored entries). *)
From Coq Require Import Permutation Sorted Lia Lqa Qreduction Qabs Setoid Morphisms.
From SKN Require Import Base.Util Model.Bfs Model.Format Proofs.BfsProofs Proofs.FormatProofs.
From SKN Require Model.Topology Proofs.TopologyProofs Proofs.HeapProofs Proofs.CliqueProofs Model.Diffusion Proofs.DiffusionProofs Model.PageRank Proofs.PageRankProofs Model.Centrality Proofs.CentralityProofs Proofs.BrandesProofs Model.Modularity Proofs.ModularityProofs Model.Dendrogram Model.Cuts Proofs.CutsProofs Model.Vote Proofs.VoteProofs.
Set Warnings "-notation-overridden".

Module EqT.
Import Topology TopologyProofs HeapProofs CliqueProofs.

(** Relabelling the elements of the list and the relation together does not change the number of
    k-subsets that are cliques. *)
Lemma count_sub_map (adj adj' : nat -> nat -> bool) (f : nat -> nat) :
  forall k l,
    (forall a b, In a l -> In b l -> adj' (f a) (f b) = adj a b) ->
    count_sub adj' k (map f l) = count_sub adj k l.
Proof.
  induction k as [|k IHk]; intros l H.
  - rewrite !count_sub_0. reflexivity.
  - induction l as [|a t IHl]; [reflexivity|].
    cbn [map]. rewrite !count_sub_cons. f_equal.
    + rewrite filter_map_comm.
      rewrite (filter_ext_in (fun x => adj' (f a) (f x)) (adj a)).
      * apply IHk. intros x y Hx Hy. apply filter_In in Hx. apply filter_In in Hy.
        apply H; right; tauto.
      * intros x Hx. apply H; [left; reflexivity|right; exact Hx].
    + apply IHl. intros x y Hx Hy. apply H; right; assumption.
Qed.

(** On a strictly increasing list, the (k+1)-cliques are found from their least element. *)
Lemma count_sub_sorted (adj : nat -> nat -> bool) (k : nat) (l : list nat) :
  StronglySorted lt l ->
  count_sub adj (S k) l =
  sumn (map (fun a => count_sub adj k (filter (fun b => (a <? b) && adj a b) l)) l).
Proof.
  induction 1 as [|x t Ht IH Hx]; [reflexivity|].
  rewrite count_sub_cons. cbn [map sumn fold_right]. fold (sumn (map (fun a => count_sub adj k
     (filter (fun b => (a <? b) && adj a b) (x :: t))) t)).
  rewrite Forall_forall in Hx. f_equal.
  - cbn [filter]. rewrite Nat.ltb_irrefl. cbn [andb]. f_equal.
    apply filter_ext_in. intros b Hb. specialize (Hx b Hb).
    apply Nat.ltb_lt in Hx. rewrite Hx. reflexivity.
  - rewrite IH. apply sumn_map_ext_in. intros a Ha. specialize (Hx a Ha).
    cbn [filter]. destruct (Nat.ltb_spec a x) as [L|L]; [lia|]. reflexivity.
Qed.

(** The triple enumeration of [triangles_spec] counts the 3-subsets that are cliques. *)
Lemma triangles_spec_cliques (adj : nat -> nat -> bool) (n : nat) :
  triangles_spec adj n = cliques_spec adj n 3.
Proof.
  rewrite triangles_spec_sum. unfold cliques_spec.
  rewrite count_sub_sorted by apply sorted_seq.
  apply sumn_map_ext_in. intros a _.
  rewrite count_sub_sorted by (apply sorted_filter; apply sorted_seq).
  rewrite sumn_map_filter. apply sumn_map_ext_in. intros b _.
  rewrite count_sub_1, filter_filter, length_filter_sum, b2n_mul_sum.
  apply sumn_map_ext_in. intros c _. rewrite b2n_and. f_equal.
  destruct (Nat.ltb_spec a b), (Nat.ltb_spec b c), (Nat.ltb_spec a c);
    destruct (adj a b), (adj a c), (adj b c); simpl; try reflexivity; lia.
Qed.

(** The specification [core_number] (largest k such that the node lies in a set whose members all have at
    least k neighbours inside the set) is carried along any map that carries the rows. *)
Lemma in_core_transport (g1 g2 : graph) (f : nat -> nat) (n : nat) :
  (forall u, u < n -> row g2 (f u) = map f (row g1 u)) ->
  (forall u x, In x (row g1 u) -> x < n) ->
  (forall a b, a < n -> b < n -> f a = f b -> a = b) ->
  forall k v, v < n -> in_core g1 k v -> in_core g2 k (f v).
Proof.
  intros Hrow Hlt Hinj k v Hv [s [Hvs Hs]].
  set (s' := map f (filter (fun u => u <? n) s)).
  assert (Hmem : forall x, x < n -> memn (f x) s' = memn x s).
  { intros x Hx. destruct (memn x s) eqn:E.
    - apply memn_In. apply memn_In in E. apply in_map. apply filter_In. split; [exact E|].
      apply Nat.ltb_lt. exact Hx.
    - destruct (memn (f x) s') eqn:E'; [|reflexivity].
      apply memn_In in E'. apply in_map_iff in E'. destruct E' as [y [Ey Hy]].
      apply filter_In in Hy. destruct Hy as [Hy Hyn]. apply Nat.ltb_lt in Hyn.
      apply Hinj in Ey; [|assumption|assumption]. subst y.
      apply memn_In in Hy. congruence. }
  exists s'. split.
  - apply in_map. apply filter_In. split; [exact Hvs|apply Nat.ltb_lt; exact Hv].
  - intros u' Hu'. apply in_map_iff in Hu'. destruct Hu' as [u [<- Hu]].
    apply filter_In in Hu. destruct Hu as [Hus Hun]. apply Nat.ltb_lt in Hun.
    specialize (Hs u Hus). unfold deg_in in *. rewrite Hrow by exact Hun.
    rewrite filter_map_comm, map_length.
    rewrite (filter_ext_in (fun x => memn (f x) s') (fun w => memn w s)); [exact Hs|].
    intros x Hx. apply Hmem. exact (Hlt _ _ Hx).
Qed.

Section Renumber.
Context (n : nat) (p : list nat) (Hp : Permutation p (seq 0 n)).
Context (g : graph) (HL : length g = n) (Hwf : wf_graph g).

Lemma row_lt (u x : nat) : In x (row g u) -> x < n.
Proof. intros H. rewrite <- HL. exact (Hwf _ _ H). Qed.

(** Adjacency in the associated undirected graph is carried by the renumbering. *)
Lemma adjb_perm (i j : nat) : i < n -> j < n ->
  adjb (perm_graph p g) (nthn p i) (nthn p j) = adjb g i j.
Proof.
  intros Hi Hj. unfold adjb.
  rewrite !(perm_graph_row n p Hp) by assumption.
  rewrite !(perm_memn_map n p Hp) by (try assumption; apply row_lt). reflexivity.
Qed.

(** SPECIFICATION: the number of k-subsets of the nodes that are pairwise adjacent is invariant. *)
Theorem cliques_spec_invariant (k : nat) :
  cliques_spec (adjb (perm_graph p g)) n k = cliques_spec (adjb g) n k.
Proof.
  unfold cliques_spec.
  rewrite (count_sub_perm (adjb (perm_graph p g)) (adjb_sym _) k (seq 0 n) p)
    by (apply Permutation_sym; exact Hp).
  rewrite <- (perm_map_seq n p Hp) at 2.
  apply count_sub_map. intros a b Ha Hb. apply in_seq in Ha. apply in_seq in Hb.
  apply adjb_perm; lia.
Qed.

Theorem triangles_spec_invariant :
  triangles_spec (adjb (perm_graph p g)) n = triangles_spec (adjb g) n.
Proof. rewrite !triangles_spec_cliques. apply cliques_spec_invariant. Qed.

(** CODE: count_triangles (directed2undirected, get_dag, merge loops) through its exactness theorem. *)
Theorem count_triangles_invariant :
  count_triangles (perm_graph p g) = count_triangles g.
Proof.
  rewrite !count_triangles_exact. rewrite (perm_graph_length n p Hp), HL.
  apply triangles_spec_invariant.
Qed.

(** CODE: count_cliques (np.argsort of the core values, get_dag, ListingBox kernel) for every clique size
    k >= 2 and ANY admissible answers of argsort on the two sides. *)
Theorem count_cliques_invariant (k : nat) (argsort argsort' : list nat) :
  (forall u, NoDup (row g u)) -> (forall u v, In v (row g u) -> In u (row g v)) ->
  NoDup argsort -> length argsort = n -> NoDup argsort' -> length argsort' = n -> 2 <= k ->
  count_cliques (perm_graph p g) k argsort' = count_cliques g k argsort.
Proof.
  intros Hnd Hsym Ha La Ha' La' Hk.
  rewrite (count_cliques_L0_exact g k argsort) by (try assumption; lia).
  rewrite (count_cliques_L0_exact (perm_graph p g) k argsort');
    try assumption.
  - rewrite (perm_graph_length n p Hp), HL. f_equal. apply cliques_spec_invariant.
  - apply (perm_graph_wf n p Hp); assumption.
  - apply (perm_graph_nodup n p Hp); assumption.
  - apply (perm_graph_sym n p Hp); assumption.
  - rewrite (perm_graph_length n p Hp). exact La'.
Qed.

Lemma degree_spec_perm (v : nat) : v < n ->
  degree_spec (adjb (perm_graph p g)) n (nthn p v) = degree_spec (adjb g) n v.
Proof.
  intros Hv. unfold degree_spec.
  rewrite (Permutation_length (perm_filter (adjb (perm_graph p g) (nthn p v)) _ _ (Permutation_sym Hp))).
  set (P0 := adjb (perm_graph p g) (nthn p v)).
  rewrite <- (perm_map_seq n p Hp).
  rewrite filter_map_comm, map_length. unfold P0. f_equal.
  apply filter_ext_in. intros x Hx. apply in_seq in Hx. apply adjb_perm; lia.
Qed.

Lemma triples_spec2_invariant :
  triples_spec2 (adjb (perm_graph p g)) n = triples_spec2 (adjb g) n.
Proof.
  unfold triples_spec2. rewrite <- (sumn_perm _ _ (perm_reindex n p Hp _)).
  apply sumn_map_ext_in. intros v Hv. apply in_seq in Hv.
  rewrite degree_spec_perm by lia. reflexivity.
Qed.

Lemma in_core_perm (k v : nat) : v < n -> in_core g k v -> in_core (perm_graph p g) k (nthn p v).
Proof.
  apply (in_core_transport g (perm_graph p g) (nthn p) n).
  - intros u Hu. apply (perm_graph_row n p Hp). exact Hu.
  - intros u x Hx. exact (row_lt u x Hx).
  - intros a b Ha Hb E. exact (perm_inj n p Hp a b Ha Hb E).
Qed.

Lemma in_core_perm_inv (k v : nat) : v < n -> in_core (perm_graph p g) k (nthn p v) -> in_core g k v.
Proof.
  intros Hv H.
  rewrite <- (perm_index_of n p Hp v Hv).
  revert H. apply (in_core_transport (perm_graph p g) g (fun u => index_of u p) n).
  - intros u Hu. rewrite (perm_graph_row_inv n p Hp g u Hu), map_map.
    rewrite (map_ext_in _ (fun x => x)); [symmetry; apply map_id|].
    intros x Hx. apply (perm_index_of n p Hp). exact (row_lt _ x Hx).
  - intros u x Hx. pose proof (perm_graph_wf n p Hp g HL Hwf u x Hx) as H0.
    rewrite (perm_graph_length n p Hp) in H0. exact H0.
  - intros a b Ha Hb E. rewrite <- (perm_index_nth n p Hp a Ha), <- (perm_index_nth n p Hp b Hb), E.
    reflexivity.
  - apply (perm_lt n p Hp). exact Hv.
Qed.

(** SPECIFICATION: the core number of the renumbered node in the renumbered graph is the core number. *)
Theorem core_number_equivariant (v k : nat) : v < n ->
  (core_number (perm_graph p g) (nthn p v) k <-> core_number g v k).
Proof.
  intros Hv. unfold core_number. split; intros [H1 H2]; split.
  - apply in_core_perm_inv; assumption.
  - intros k' Hk'. apply H2. apply in_core_perm; assumption.
  - apply in_core_perm; assumption.
  - intros k' Hk'. apply H2. apply in_core_perm_inv; assumption.
Qed.

(** CODE: compute_core (MinHeap arrays included) through its exactness theorem. *)
Theorem core_equivariant (labels : list Z) :
  (forall u, NoDup (row g u)) -> (forall u v, In v (row g u) -> In u (row g v)) ->
  compute_core g = Some labels ->
  compute_core (perm_graph p g) = Some (perm_vecz p labels).
Proof.
  intros Hnd Hsym Hc.
  destruct (compute_core_exact g Hnd Hsym) as [l [Hl [Ll Cl]]].
  destruct (compute_core_exact (perm_graph p g) (perm_graph_nodup n p Hp g HL Hwf Hnd)
                               (perm_graph_sym n p Hp g HL Hwf Hsym)) as [l' [Hl' [Ll' Cl']]].
  rewrite (perm_graph_length n p Hp) in Ll', Cl'. rewrite HL in Ll, Cl.
  rewrite Hc in Hl. injection Hl as ->. rewrite Hl'. f_equal.
  apply (perm_vec_ext n p Hp); [rewrite map_length; exact Ll'|]. intros v Hv.
  rewrite (nth_map_lt Z.of_nat l' (nthn p v) 0 0%Z) by (rewrite Ll'; apply (perm_lt n p Hp); exact Hv).
  rewrite (nth_map_lt Z.of_nat l v 0 0%Z) by (rewrite Ll; exact Hv).
  f_equal. apply (core_number_unique g v).
  - apply core_number_equivariant; [exact Hv|]. apply Cl'. apply (perm_lt n p Hp). exact Hv.
  - apply Cl. exact Hv.
Qed.

End Renumber.

Lemma adjb_same (g g' : graph) : same_rows g g' -> forall i j, adjb g i j = adjb g' i j.
Proof.
  intros [_ HR] i j. unfold adjb. f_equal; apply memn_same; apply HR.
Qed.

Lemma cliques_spec_same (g g' : graph) (n k : nat) :
  same_rows g g' -> cliques_spec (adjb g) n k = cliques_spec (adjb g') n k.
Proof.
  intros H. unfold cliques_spec. rewrite <- (map_id (seq 0 n)) at 1.
  apply count_sub_map. intros a b _ _. apply adjb_same. exact H.
Qed.

Lemma core_number_perm_rows (g g' : graph) :
  (forall u, Permutation (row g u) (row g' u)) ->
  forall v k, core_number g v k -> core_number g' v k.
Proof.
  intros HP.
  assert (Hin : forall g1 g2 : graph, (forall u, Permutation (row g1 u) (row g2 u)) ->
                forall k v, in_core g1 k v -> in_core g2 k v).
  { intros g1 g2 H12 k v [s [Hv Hs]]. exists s. split; [exact Hv|].
    intros u Hu. unfold deg_in. rewrite <- (Permutation_length (perm_filter _ _ _ (H12 u))). exact (Hs u Hu). }
  intros v k [H1 H2]. split.
  - apply (Hin g g'); assumption.
  - intros k' Hk'. apply H2. apply (Hin g' g); [|exact Hk'].
    intros u. apply Permutation_sym. apply HP.
Qed.

(** Duplicate-free rows with a symmetric pattern, and the same rows stored in another order. *)
Section RowOrder.
Context (g g' : graph) (HLen : length g = length g') (HP : forall u, Permutation (row g u) (row g' u))
        (Hnd : forall u, NoDup (row g u)) (Hsym : forall u v, In v (row g u) -> In u (row g v)).

Lemma rows_same : same_rows g g'.
Proof.
  split; [exact HLen|]. intros u v. split; intros H.
  - exact (Permutation_in _ (HP u) H).
  - exact (Permutation_in _ (Permutation_sym (HP u)) H).
Qed.

Lemma rows_nodup' (u : nat) : NoDup (row g' u).
Proof. exact (Permutation_NoDup (HP u) (Hnd u)). Qed.

Lemma rows_sym' (u v : nat) : In v (row g' u) -> In u (row g' v).
Proof. intros Hin. apply (proj2 rows_same). apply Hsym. apply (proj2 rows_same). exact Hin. Qed.

Theorem count_cliques_row_order_irrelevant (k : nat) (argsort argsort' : list nat) :
  NoDup argsort -> length argsort = length g -> NoDup argsort' -> length argsort' = length g -> 2 <= k ->
  count_cliques g' k argsort' = count_cliques g k argsort.
Proof.
  intros Ha La Ha' La' Hk.
  assert (Hwf : wf_graph g).
  { intros u v Hin. exact (row_nonempty_lt _ _ _ (Hsym _ _ Hin)). }
  rewrite (count_cliques_L0_exact g k argsort) by assumption.
  rewrite (count_cliques_L0_exact g' k argsort').
  - rewrite <- HLen. f_equal. symmetry. apply cliques_spec_same. exact rows_same.
  - intros u v Hin. rewrite <- HLen. apply (Hwf u). apply (proj2 rows_same). exact Hin.
  - exact rows_nodup'.
  - exact rows_sym'.
  - exact Ha'.
  - rewrite <- HLen. exact La'.
  - exact Hk.
Qed.

(** compute_core returns the same labels (the order in which the heap pops the nodes may differ, the
    result may not). *)
Theorem core_row_order_irrelevant : compute_core g' = compute_core g.
Proof.
  destruct (compute_core_exact g Hnd Hsym) as [l [Hl [Ll Cl]]].
  destruct (compute_core_exact g' rows_nodup' rows_sym') as [l' [Hl' [Ll' Cl']]].
  rewrite Hl, Hl'. do 2 f_equal.
  apply nth_ext with (d := 0) (d' := 0); [lia|].
  intros v Hv. fold (nthn l' v). fold (nthn l v).
  apply (core_number_unique g' v).
  - apply Cl'. lia.
  - apply (core_number_perm_rows g g' HP). apply Cl. lia.
Qed.

End RowOrder.

End EqT.

(** Linear-algebra kernels depend on the DENOTATION of the stored rows only
    (order of the stored entries, duplicate positions that are summed, explicit zeros). *)

Lemma Qeq_bool_0_ext (a b : Q) : (a == b)%Q -> Qeq_bool a 0 = Qeq_bool b 0.
Proof. intros E. rewrite E. reflexivity. Qed.

Lemma sumq_map_plus {A} (f h : A -> Q) (l : list A) :
  (sumq (map (fun x => f x + h x) l) == sumq (map f l) + sumq (map h l))%Q.
Proof. induction l as [|a t IH]; simpl; [reflexivity|]. rewrite IH. ring. Qed.

Lemma sumq_indicator_in (k : nat) (c : Q) (f : nat -> Q) (l : list nat) :
  NoDup l -> In k l -> (sumq (map (fun j => (if Nat.eqb k j then c else 0) * f j) l) == c * f k)%Q.
Proof.
  induction 1 as [|a t Ha Ht IH]; intros Hin; [destruct Hin|].
  simpl. destruct (Nat.eqb_spec k a) as [E|Ne].
  - subst a. rewrite sumq_zero; [ring|].
    intros j Hj. destruct (Nat.eqb_spec k j) as [->|_]; [contradiction|ring].
  - destruct Hin as [E|Hin]; [congruence|]. rewrite IH by exact Hin. ring.
Qed.

(** A sparse dot product, accumulated in stored order, is the dense one over the denotation of the row. *)
Lemma dot_row_denotation (n : nat) (r : wrow) (x : list Q) :
  Forall (fun e : nat * Q => fst e < n) r ->
  (sumq (map (fun e : nat * Q => snd e * nthq x (fst e)) r) ==
   sumq (map (fun j => entry_row r j * nthq x j) (seq 0 n)))%Q.
Proof.
  induction 1 as [|e t He Ht IH].
  - simpl. symmetry. apply sumq_zero. intros j _. unfold entry_row. simpl. ring.
  - cbn [map sumq fold_right]. fold (sumq (map (fun e0 : nat * Q => (snd e0 * nthq x (fst e0))%Q) t)).
    rewrite IH.
    rewrite (sumq_ext (fun j => (entry_row (e :: t) j * nthq x j)%Q)
               (fun j => ((if Nat.eqb (fst e) j then snd e else 0) * nthq x j + entry_row t j * nthq x j)%Q)).
    + rewrite sumq_map_plus. rewrite sumq_indicator_in; [reflexivity|apply seq_NoDup|].
      apply in_seq. lia.
    + intros j _. rewrite entry_row_cons. destruct (Nat.eqb (fst e) j); ring.
Qed.

(** [matvec] (the product every iterative algorithm is built from): two stored matrices with the same
    denotation give the same product, entry by entry. *)
Theorem matvec_depends_on_denotation (n : nat) (a a' : wrows) (x : list Q) :
  wf_rows n a -> wf_rows n a' -> length a = length a' ->
  (forall i j, (entry a i j == entry a' i j)%Q) ->
  Forall2 Qeq (matvec a x) (matvec a' x).
Proof.
  intros Hwf Hwf' HL Hden. apply (Forall2_nth_intro Qeq 0%Q).
  - unfold matvec. rewrite !map_length. exact HL.
  - intros i Hi. unfold matvec in Hi. rewrite map_length in Hi.
    unfold nthq, matvec.
    rewrite (nth_map_lt _ a i [] 0%Q) by exact Hi.
    rewrite (nth_map_lt _ a' i [] 0%Q) by lia.
    unfold wf_rows in Hwf, Hwf'. rewrite Forall_forall in Hwf, Hwf'.
    rewrite (dot_row_denotation n (nth i a [])) by (apply Hwf; apply nth_In; exact Hi).
    rewrite (dot_row_denotation n (nth i a' [])) by (apply Hwf'; apply nth_In; lia).
    apply sumq_ext. intros j _. specialize (Hden i j). unfold entry in Hden. rewrite Hden. reflexivity.
Qed.

Module EqDen.
Import Diffusion DiffusionProofs.

(** An iteration is carried along any map that commutes with its step. *)
Lemma iterate_comm {A B} (f : A -> A) (g : B -> B) (h : A -> B) :
  (forall x, g (h x) = h (f x)) -> forall k x, iterate k g (h x) = h (iterate k f x).
Proof. intros H. induction k as [|k IH]; intros x; simpl; [reflexivity|]. rewrite H. apply IH. Qed.

Lemma wf_row_lt (n : nat) (rows : list wrow) (i : nat) :
  wf_rows n rows -> Forall (fun e : nat * Q => fst e < n) (wrow_of rows i).
Proof. intros H. apply Forall_forall. intros e He. exact (proj1 (wf_rows_wrow_of n rows i e H He)). Qed.

(** For non-negative weights the row norm is the sum of the denotation. *)
Lemma row_norm_denotation (n : nat) (r : wrow) :
  (forall e, In e r -> fst e < n /\ (0 <= snd e)%Q) ->
  (row_norm r == sumq (map (Format.entry_row r) (seq 0 n)))%Q.
Proof.
  intros H.
  assert (HF : Forall (fun e : nat * Q => fst e < n) r).
  { apply Forall_forall. intros e He. exact (proj1 (H e He)). }
  pose proof (dot_row_denotation n r (repeat 1%Q n) HF) as E.
  rewrite (sumq_ext (fun j => (Format.entry_row r j * nthq (repeat 1%Q n) j)%Q) (Format.entry_row r)) in E.
  - rewrite <- E. unfold row_norm. apply sumq_ext. intros e He. destruct (H e He) as [H1 H2].
    rewrite nthq_repeat' by exact H1. rewrite Qabs.Qabs_pos by exact H2. ring.
  - intros j Hj. apply in_seq in Hj. rewrite nthq_repeat' by lia. ring.
Qed.

Lemma dot_row_scaled (r : wrow) (s : Q) (v : list Q) :
  (dot_row (map (fun e : nat * Q => (fst e, (snd e / s)%Q)) r) v == dot_row r v / s)%Q.
Proof.
  unfold dot_row. induction r as [|e t IH]; simpl.
  - unfold Qdiv. ring.
  - rewrite IH. unfold Qdiv. ring.
Qed.

Lemma dot_normalize_row_denotation (n : nat) (r r' : wrow) (v : list Q) :
  (forall e, In e r -> fst e < n /\ (0 <= snd e)%Q) ->
  (forall e, In e r' -> fst e < n /\ (0 <= snd e)%Q) ->
  (forall j, (Format.entry_row r j == Format.entry_row r' j)%Q) ->
  (dot_row (normalize_row r) v == dot_row (normalize_row r') v)%Q.
Proof.
  intros H H' Hden.
  assert (Es : (row_norm r == row_norm r')%Q).
  { rewrite (row_norm_denotation n r H), (row_norm_denotation n r' H').
    apply sumq_ext. intros j _. apply Hden. }
  assert (Ed : (dot_row r v == dot_row r' v)%Q).
  { unfold dot_row.
    rewrite (dot_row_denotation n r v) by (apply Forall_forall; intros e He; exact (proj1 (H e He))).
    rewrite (dot_row_denotation n r' v) by (apply Forall_forall; intros e He; exact (proj1 (H' e He))).
    apply sumq_ext. intros j _. rewrite Hden. reflexivity. }
  unfold normalize_row. rewrite (Qeq_bool_0_ext _ _ Es).
  destruct (Qeq_bool (row_norm r') 0); [reflexivity|].
  rewrite !dot_row_scaled. rewrite Ed, Es. reflexivity.
Qed.

Lemma matvec_normalize_denotation (n : nat) (rows rows' : list wrow) (v : list Q) :
  wf_rows n rows -> wf_rows n rows' -> length rows = length rows' ->
  (forall i j, (Format.entry rows i j == Format.entry rows' i j)%Q) ->
  matvec (normalize rows) v = matvec (normalize rows') v.
Proof.
  intros Hwf Hwf' HL Hden.
  apply nth_ext with (d := 0%Q) (d' := 0%Q).
  - rewrite !matvec_length, !normalize_length. exact HL.
  - intros i Hi. rewrite matvec_length, normalize_length in Hi.
    fold (nthq (matvec (normalize rows) v) i). fold (nthq (matvec (normalize rows') v) i).
    rewrite !nth_matvec by (rewrite normalize_length; lia).
    rewrite !wrow_of_normalize. apply Qred_complete.
    apply (dot_normalize_row_denotation n).
    + intros e. exact (wf_rows_wrow_of n rows i e Hwf).
    + intros e. exact (wf_rows_wrow_of n rows' i e Hwf').
    + intros j. exact (Hden i j).
Qed.

(** Dirichlet.fit's iteration on two stored matrices (non-negative weights, column indices in range) with the
    same denotation: identical values after every number of iterations (the model stores reduced fractions,
    so the equality is literal). *)
Theorem dirichlet_depends_on_denotation (n k : nat) (rows rows' : list wrow) (border : list bool) (temps : list Q) :
  wf_rows n rows -> wf_rows n rows' -> length rows = length rows' ->
  (forall i j, (Format.entry rows i j == Format.entry rows' i j)%Q) ->
  dirichlet_core k rows border temps = dirichlet_core k rows' border temps.
Proof.
  intros Hwf Hwf' HL Hden. unfold dirichlet_core. apply (iterate_comm _ _ (fun v => v)). intros v.
  unfold dirichlet_step. rewrite (matvec_normalize_denotation n rows rows' v Hwf Hwf' HL Hden). reflexivity.
Qed.

End EqDen.

Module EqDenPR.
Import PageRank PageRankProofs.

Definition same_den (g g' : wgraph) : Prop :=
  forall i j, (entry (wrow_of g i) j == entry (wrow_of g' i) j)%Q.

Lemma wf_graph_row (g : wgraph) (i : nat) : wf_graph g = true -> wf_row (length g) (wrow_of g i) = true.
Proof. intros H. unfold wrow_of. apply (forallb_nth (wf_row (length g))); [exact H|reflexivity]. Qed.

Lemma nonneg_graph_row (g : wgraph) (i : nat) : nonneg_graph g = true -> nonneg_row (wrow_of g i) = true.
Proof. intros H. unfold wrow_of. apply (forallb_nth nonneg_row); [exact H|reflexivity]. Qed.

Lemma entry_scaled (r : wrow) (s : Q) (j : nat) :
  (entry (map (fun e : nat * Q => (fst e, Qred (snd e / s))) r) j == entry r j / s)%Q.
Proof.
  induction r as [|e t IH]; [cbn; unfold Qdiv; ring|].
  cbn [map]. rewrite !entry_cons, IH. cbn [fst snd].
  destruct (Nat.eqb (fst e) j); [rewrite (Qred_correct (snd e / s))|]; unfold Qdiv; ring.
Qed.

Lemma row_sum_den (n : nat) (r r' : wrow) :
  wf_row n r = true -> wf_row n r' = true -> (forall j, (entry r j == entry r' j)%Q) ->
  (sumq (map snd r) == sumq (map snd r'))%Q.
Proof.
  intros H H' Hd. rewrite <- (bsum_entry n r H), <- (bsum_entry n r' H').
  apply bsum_ext. intros j _. apply Hd.
Qed.

Lemma entry_normalize_den (n : nat) (r r' : wrow) (j : nat) :
  wf_row n r = true -> nonneg_row r = true -> wf_row n r' = true -> nonneg_row r' = true ->
  (forall k, (entry r k == entry r' k)%Q) ->
  (entry (normalize_row r) j == entry (normalize_row r') j)%Q.
Proof.
  intros Hw Hn Hw' Hn' Hd.
  assert (Es : (Qred (row_norm r) == Qred (row_norm r'))%Q).
  { rewrite !Qred_correct, (row_norm_nonneg_eq r Hn), (row_norm_nonneg_eq r' Hn').
    exact (row_sum_den n r r' Hw Hw' Hd). }
  unfold normalize_row. rewrite (Qeq_bool_0_ext _ _ Es).
  destruct (Qeq_bool (Qred (row_norm r')) 0); [reflexivity|].
  rewrite !entry_scaled. rewrite (Hd j), Es. reflexivity.
Qed.

Section Den.
Context (g g' : wgraph) (Hg : good_graph g) (Hg' : good_graph g') (HL : length g = length g')
        (Hden : same_den g g').

Lemma P_den (i j : nat) : (P g i j == P g' i j)%Q.
Proof.
  unfold P, Pn. rewrite !wrow_of_normalize.
  destruct Hg as [Hw Hn], Hg' as [Hw' Hn'].
  apply (entry_normalize_den (length g)).
  - exact (wf_graph_row g i Hw).
  - exact (nonneg_graph_row g i Hn).
  - rewrite HL. exact (wf_graph_row g' i Hw').
  - exact (nonneg_graph_row g' i Hn').
  - exact (Hden i).
Qed.

Lemma has_out_den (i : nat) : has_out g i = has_out g' i.
Proof.
  unfold has_out.
  pose proof (wf_graph_row g' i (proj1 Hg')) as H1'. rewrite <- HL in H1'.
  rewrite (Qeq_bool_0_ext _ _ (row_sum_den (length g) _ _ (wf_graph_row g i (proj1 Hg)) H1' (Hden i))). reflexivity.
Qed.

Lemma tab_ext (n : nat) (f h : vec) : (forall j, j < n -> (f j == h j)%Q) -> tab n f = tab n h.
Proof.
  intros H. unfold tab. apply map_ext_in. intros j Hj. apply in_seq in Hj.
  apply Qred_complete. apply H. lia.
Qed.

Lemma mv_Ma_den (alpha : Q) (z : vec) (j : nat) :
  (mv (length g) (Ma (normalize g) alpha) z j == mv (length g') (Ma (normalize g') alpha) z j)%Q.
Proof.
  rewrite <- HL. unfold mv, Ma. apply bsum_ext. intros i _.
  pose proof (P_den i j) as E. unfold P in E. rewrite E. reflexivity.
Qed.

(** RandomSurferOperator._matvec. *)
Theorem surfer_matvec_den (alpha : Q) (y x : list Q) :
  surfer_matvec g alpha y x = surfer_matvec g' alpha y x.
Proof.
  unfold surfer_matvec. rewrite <- HL at 1. apply tab_ext. intros j Hj.
  rewrite mv_Ma_den. rewrite <- HL.
  rewrite !Qred_correct.
  rewrite (bsum_ext (length g) (fun i => restart g alpha i * V x i)%Q (fun i => restart g' alpha i * V x i)%Q).
  - reflexivity.
  - intros i _. unfold restart. rewrite has_out_den. reflexivity.
Qed.

Lemma piteration_loop_ext (op op' : list Q -> list Q) (tol : Q) :
  (forall x, op x = op' x) -> forall k s, piteration_loop k op tol s = piteration_loop k op' tol s.
Proof.
  intros H. induction k as [|k IH]; intros s; [reflexivity|].
  cbn [piteration_loop]. unfold piteration_step. rewrite H.
  destruct (Qltb _ tol); [reflexivity|apply IH].
Qed.

Lemma fold_left_ext {A B} (f h : A -> B -> A) : (forall a b, f a b = h a b) ->
  forall l a, fold_left f l a = fold_left h l a.
Proof. intros H. induction l as [|b l IH]; intros a; simpl; [reflexivity|]. rewrite H. apply IH. Qed.

(** get_pagerank, solver = 'RH' (Polynome / Ruffini-Horner). *)
Theorem rh_den (alpha : Q) (y : list Q) (n_iter : nat) :
  rh g alpha y n_iter = rh g' alpha y n_iter.
Proof.
  unfold rh, horner. destruct (rev (repeat 1%Q (S n_iter))) as [|c rest]; [reflexivity|].
  apply fold_left_ext. intros a b. f_equal. unfold mvl. rewrite <- HL at 1. apply tab_ext.
  intros j _. rewrite mv_Ma_den. rewrite <- HL. reflexivity.
Qed.

End Den.
End EqDenPR.

Module EqA.
Import PageRank PageRankProofs Centrality CentralityProofs BrandesProofs.
Close Scope Q_scope.
Open Scope nat_scope.

(** Renumbering of the column index of a stored entry (the function [perm_bip] maps over a row). *)
Definition relab (p : list nat) : nat * Q -> nat * Q := fun e => (nthn p (fst e), snd e).

Lemma bsum_sumq (n : nat) (f : nat -> Q) : (bsum n f == sumq (map f (seq 0 n)))%Q.
Proof.
  induction n as [|n IH]; [reflexivity|].
  rewrite seq_S, map_app, sumq_app. cbn [bsum Nat.add map sumq fold_right]. rewrite IH. ring.
Qed.

Lemma wf_row_In (n : nat) (r : wrow) (e : nat * Q) : wf_row n r = true -> In e r -> fst e < n.
Proof. intros H He. unfold wf_row in H. rewrite forallb_forall in H. apply Nat.ltb_lt. exact (H e He). Qed.

Lemma wf_row_normalize (n : nat) (r : wrow) : wf_row n r = true -> wf_row n (normalize_row r) = true.
Proof.
  intros H. unfold normalize_row. destruct (Qeq_bool _ _); [reflexivity|].
  rewrite (wf_row_map n (fun w => Qred (w / Qred (row_norm r))%Q)). exact H.
Qed.

Lemma normalize_length (g : wgraph) : length (normalize g) = length g.
Proof. apply map_length. Qed.

Lemma is_solution_ext (n : nat) (M : mat) (alpha : Q) (y y' x : vec) :
  (forall j, j < n -> (y j == y' j)%Q) -> is_solution n M alpha y x -> is_solution n M alpha y' x.
Proof. intros Hy H j Hj. rewrite <- (Hy j Hj). exact (H j Hj). Qed.

Lemma is_pagerank_ext (n : nat) (M : mat) (alpha : Q) (y y' x x' : vec) :
  (forall j, j < n -> (y j == y' j)%Q) -> (forall j, j < n -> (x j == x' j)%Q) ->
  is_pagerank n M alpha y x -> is_pagerank n M alpha y' x'.
Proof.
  intros Hy Hx (z & Hz & Hs & Hp). exists z. split; [exact (is_solution_ext n M alpha y y' z Hy Hz)|].
  split; [exact Hs|]. intros j Hj. rewrite <- (Hx j Hj). exact (Hp j Hj).
Qed.

Lemma existsb_Permutation {A} (f : A -> bool) (u v : list A) : Permutation u v -> existsb f u = existsb f v.
Proof.
  intros H; induction H as [|x l l' H IH|x y l|l l' l'' H1 IH1 H2 IH2]; cbn [existsb].
  - reflexivity.
  - rewrite IH. reflexivity.
  - destruct (f x), (f y); reflexivity.
  - rewrite IH1. exact IH2.
Qed.

Lemma sumz_Permutation (u v : list Z) : Permutation u v -> sumz u = sumz v.
Proof.
  intros H; induction H as [|x l l' H IH|x y l|l l' l'' H1 IH1 H2 IH2]; cbn [sumz fold_right].
  - reflexivity.
  - fold (sumz l). fold (sumz l'). rewrite IH. reflexivity.
  - fold (sumz l). lia.
  - rewrite IH1. exact IH2.
Qed.

(** Executable admissibility test for a renumbering (used by the examples of Props/C02.v). *)
Definition is_perm (p : list nat) (n : nat) : bool :=
  Nat.eqb (length p) n && forallb (fun k => memn k p) (seq 0 n).

Lemma is_perm_sound (p : list nat) (n : nat) : is_perm p n = true -> Permutation p (seq 0 n).
Proof.
  intros H. unfold is_perm in H. apply andb_prop in H. destruct H as [HL Hin]. apply Nat.eqb_eq in HL.
  apply Permutation_sym. apply NoDup_Permutation_bis.
  - apply seq_NoDup.
  - rewrite seq_length, HL. apply le_n.
  - intros k Hk. rewrite forallb_forall in Hin. apply memn_In. exact (Hin k Hk).
Qed.

(** Lists of [Qred] normal forms: pointwise [==] is Leibniz equality *)
Definition qreduced (x : Q) : Prop := Qred x = x.

Lemma Qred_reduced (x : Q) : qreduced (Qred x).
Proof. unfold qreduced. apply Qred_complete. apply Qred_correct. Qed.

Lemma reduced_eq (a b : list Q) :
  Forall qreduced a -> Forall qreduced b -> length a = length b ->
  (forall k, k < length a -> (V a k == V b k)%Q) -> a = b.
Proof.
  intros Ha Hb HL H. apply nth_ext with (d := 0%Q) (d' := 0%Q); [exact HL|]. intros k Hk.
  rewrite Forall_forall in Ha, Hb.
  rewrite <- (Ha (nth k a 0%Q) (nth_In a 0%Q Hk)).
  rewrite <- (Hb (nth k b 0%Q) (nth_In b 0%Q ltac:(rewrite <- HL; exact Hk))).
  apply Qred_complete. exact (H k Hk).
Qed.

Lemma upd_reduced (l : list Q) (j : nat) (v : Q) : Forall qreduced l -> qreduced v -> Forall qreduced (upd l j v).
Proof.
  intros Hl Hv. revert j. induction Hl as [|x l Hx Hl IH]; intros j; [destruct j; constructor|].
  destruct j as [|j]; cbn [upd]; constructor; auto.
Qed.

Lemma fold_left_reduced {A} (f : list Q -> A -> list Q) (l : list A) (acc : list Q) :
  (forall acc a, Forall qreduced acc -> Forall qreduced (f acc a)) ->
  Forall qreduced acc -> Forall qreduced (fold_left f l acc).
Proof. intros Hf. revert acc. induction l as [|a l IH]; intros acc H; cbn [fold_left]; auto. Qed.

Lemma brandes_source_reduced (q : graph) (scores : list Q) (s : nat) :
  Forall qreduced scores -> Forall qreduced (brandes_source q scores s).
Proof.
  intros H. rewrite brandes_source_eq.
  generalize (repeat 0%Q (length q), scores) (H : Forall qreduced (snd (repeat 0%Q (length q), scores))).
  generalize (snd (brandes_forward q s)).
  intros seen. induction seen as [|j seen IH]; intros acc Hacc; cbn [fold_left]; [exact Hacc|].
  apply IH. destruct acc as [delta sc]. cbn [snd back_step] in Hacc |- *.
  destruct (Nat.eqb j s); [exact Hacc|]. apply upd_reduced; [exact Hacc|apply Qred_reduced].
Qed.

Lemma betweenness_reduced (g : wgraph) : Forall qreduced (betweenness g).
Proof.
  unfold betweenness. cbv zeta.
  assert (H : Forall qreduced (fold_left (brandes_source (pattern g)) (seq 0 (length (pattern g)))
                                         (repeat 0%Q (length (pattern g))))).
  { apply fold_left_reduced; [intros acc s; apply brandes_source_reduced|].
    apply Forall_forall. intros x Hx. apply repeat_spec in Hx. subst x. reflexivity. }
  destruct (is_symmetric g); [|exact H].
  apply Forall_forall. intros x Hx. apply in_map_iff in Hx. destruct Hx as [y [<- _]]. apply Qred_reduced.
Qed.

Section EqPerm.
Context (n : nat) (p : list nat) (Hp : Permutation p (seq 0 n)).

Lemma wrow_of_perm_inv (g : wgraph) (k : nat) :
  k < n -> wrow_of (perm_wrows p g) k = map (relab p) (wrow_of g (index_of k p)).
Proof. exact (perm_bip_row_inv n p Hp p g k). Qed.

End EqPerm.

Section Renumber.
Context (n : nat) (p : list nat) (Hp : Permutation p (seq 0 n)).

Lemma bsum_reindex (f : nat -> Q) : (bsum n f == bsum n (fun i => f (nthn p i)))%Q.
Proof. rewrite !bsum_sumq. apply sumq_Permutation. apply Permutation_sym. apply (perm_reindex n p Hp). Qed.

Lemma bsum_reindex_inv (f : nat -> Q) : (bsum n f == bsum n (fun k => f (index_of k p)))%Q.
Proof.
  rewrite (bsum_reindex (fun k => f (index_of k p))). apply bsum_ext. intros i Hi.
  rewrite (perm_index_of n p Hp i Hi). reflexivity.
Qed.

Lemma wrow_of_perm (g : wgraph) (i : nat) :
  i < n -> wrow_of (perm_wrows p g) (nthn p i) = map (relab p) (wrow_of g i).
Proof. exact (perm_bip_row n p Hp p g i). Qed.

Lemma wf_row_relab (r : wrow) : wf_row n r = true -> wf_row n (map (relab p) r) = true.
Proof.
  intros H. unfold wf_row. apply forallb_forall. intros e He. apply in_map_iff in He.
  destruct He as [e0 [<- He0]]. apply Nat.ltb_lt. cbn [relab fst]. apply (perm_lt n p Hp).
  exact (wf_row_In n r e0 H He0).
Qed.

Lemma nonneg_row_relab (r : wrow) : nonneg_row (map (relab p) r) = nonneg_row r.
Proof. unfold nonneg_row. induction r as [|e r IH]; [reflexivity|]. cbn [map forallb relab snd]. rewrite IH. reflexivity. Qed.

(** The entry function of a renumbered row (Leibniz: the same stored values are added in the same order). *)
Lemma entry_relab (r : wrow) (j : nat) :
  wf_row n r = true -> j < n -> entry (map (relab p) r) (nthn p j) = entry r j.
Proof.
  intros Hwf Hj. unfold entry. f_equal.
  induction r as [|e r IH]; [reflexivity|].
  cbn [wf_row forallb] in Hwf. apply andb_prop in Hwf. destruct Hwf as [He Hr]. apply Nat.ltb_lt in He.
  cbn [map filter relab fst]. rewrite (perm_eqb n p Hp _ _ He Hj).
  destruct (Nat.eqb (fst e) j); cbn [map snd]; [f_equal|]; exact (IH Hr).
Qed.

Lemma normalize_row_relab (r : wrow) : normalize_row (map (relab p) r) = map (relab p) (normalize_row r).
Proof.
  unfold normalize_row.
  assert (E : row_norm (map (relab p) r) = row_norm r) by (unfold row_norm; rewrite map_map; reflexivity).
  rewrite E. destruct (Qeq_bool (Qred (row_norm r)) 0); [reflexivity|].
  rewrite !map_map. apply map_ext. intros e. reflexivity.
Qed.

Lemma normalize_perm (g : wgraph) : normalize (perm_wrows p g) = perm_wrows p (normalize g).
Proof.
  unfold normalize, perm_wrows, perm_bip. rewrite map_map. apply map_ext. intros k.
  change (fun e : nat * Q => (nthn p (fst e), snd e)) with (relab p).
  rewrite normalize_row_relab. f_equal. exact (eq_sym (wrow_of_normalize g (index_of k p))).
Qed.

Lemma Pn_perm (pr : wgraph) (i j : nat) :
  (forall u, wf_row n (wrow_of pr u) = true) -> i < n -> j < n ->
  Pn (perm_wrows p pr) (nthn p i) (nthn p j) = Pn pr i j.
Proof. intros Hwf Hi Hj. unfold Pn. rewrite wrow_of_perm by exact Hi. apply entry_relab; [apply Hwf|exact Hj]. Qed.

Theorem has_out_perm (g : wgraph) (i : nat) : i < n -> has_out (perm_wrows p g) (nthn p i) = has_out g i.
Proof.
  intros Hi. unfold has_out. rewrite wrow_of_perm by exact Hi. rewrite map_map.
  change (map (fun x : nat * Q => snd (relab p x)) (wrow_of g i)) with (map snd (wrow_of g i)). reflexivity.
Qed.

Theorem nonneg_graph_perm (g : wgraph) : nonneg_graph g = true -> nonneg_graph (perm_wrows p g) = true.
Proof.
  intros Hnn. unfold nonneg_graph. apply forallb_forall. intros r Hr.
  unfold perm_wrows, perm_bip in Hr. apply in_map_iff in Hr. destruct Hr as [k [<- _]].
  change (nonneg_row (map (relab p) (wrow_of g (index_of k p))) = true).
  rewrite (nonneg_row_relab (wrow_of g (index_of k p))). apply EqDenPR.nonneg_graph_row. exact Hnn.
Qed.

(** Matrices and vectors as functions of the index: M' = P M P^T, x' = P x *)
Definition mat_equiv (M M' : mat) : Prop :=
  forall i j, i < n -> j < n -> (M' (nthn p i) (nthn p j) == M i j)%Q.
Definition vec_equiv (x x' : vec) : Prop := forall i, i < n -> (x' (nthn p i) == x i)%Q.

Lemma vec_equiv_inv (x x' : vec) : vec_equiv x x' -> forall k, k < n -> (x (index_of k p) == x' k)%Q.
Proof.
  intros H k Hk. rewrite <- (perm_index_nth n p Hp k Hk) at 2. symmetry. apply H.
  exact (perm_index_lt n p Hp k Hk).
Qed.

Lemma vec_equiv_index (x : vec) : vec_equiv x (fun k => x (index_of k p)).
Proof. intros i Hi. rewrite (perm_index_of n p Hp i Hi). reflexivity. Qed.

Lemma mv_perm (M M' : mat) (x x' : vec) : mat_equiv M M' -> vec_equiv x x' -> vec_equiv (mv n M x) (mv n M' x').
Proof.
  intros HM Hx i Hi. unfold mv. rewrite (bsum_reindex (fun j => (M' (nthn p i) j * x' j)%Q)).
  apply bsum_ext. intros j Hj. rewrite (HM i j Hi Hj), (Hx j Hj). reflexivity.
Qed.

Lemma vsum_perm_inv (x : vec) : (vsum n (fun k => x (index_of k p)) == vsum n x)%Q.
Proof. unfold vsum. symmetry. apply bsum_reindex_inv. Qed.

Lemma V_perm (x : list Q) (k : nat) : k < n -> V (perm_vecq p x) k = V x (index_of k p).
Proof. exact (perm_vec_nth_inv n p Hp 0%Q x k). Qed.

Lemma V_perm_nth (x : list Q) (i : nat) : i < n -> V (perm_vecq p x) (nthn p i) = V x i.
Proof. exact (perm_vec_nth n p Hp 0%Q x i). Qed.

Lemma V_equiv (x : list Q) : vec_equiv (V x) (V (perm_vecq p x)).
Proof. intros i Hi. rewrite V_perm_nth by exact Hi. reflexivity. Qed.

Lemma perm_vecq_length (x : list Q) : length (perm_vecq p x) = n.
Proof. exact (perm_vec_length n p Hp 0%Q x). Qed.

(** A predicate on (right-hand side, solution) that is carried by the renumbering and has at most one
    solution on the renumbered graph: its solutions correspond. *)
Lemma equivariant_of_unique (S S' : vec -> vec -> Prop) :
  (forall y x, S y x -> S' (fun k => y (index_of k p)) (fun k => x (index_of k p))) ->
  (forall y y' x, (forall k, k < n -> (y k == y' k)%Q) -> S' y x -> S' y' x) ->
  (forall y x x', S' y x -> S' y x' -> forall k, k < n -> (x k == x' k)%Q) ->
  forall y y' x x', vec_equiv y y' -> S y x -> S' y' x' -> vec_equiv x x'.
Proof.
  intros Hperm Hext Huniq y y' x x' Hy Hx Hx' j Hj.
  rewrite (Huniq y' x' (fun k => x (index_of k p)) Hx'
             (Hext _ y' _ (vec_equiv_inv y y' Hy) (Hperm y x Hx)) (nthn p j) (perm_lt n p Hp j Hj)).
  rewrite (perm_index_of n p Hp j Hj). reflexivity.
Qed.

Lemma tab_perm (F F' : vec) : vec_equiv F F' -> tab n F' = perm_vecq p (tab n F).
Proof.
  intros H. unfold tab. apply (perm_vec_tabulate n p Hp). intros i Hi. apply Qred_complete. exact (H i Hi).
Qed.

Lemma repeat_perm (c : Q) : perm_vecq p (repeat c n) = repeat c n.
Proof.
  symmetry. apply (perm_vec_ext n p Hp); [apply repeat_length|]. intros i Hi.
  change (nthq (repeat c n) (nthn p i) = nthq (repeat c n) i).
  rewrite !nthq_repeat; [reflexivity|exact Hi|exact (perm_lt n p Hp i Hi)].
Qed.

Lemma bsum_V_perm (f : Q -> Q) (a : list Q) :
  (bsum n (fun i => f (V (perm_vecq p a) i)) == bsum n (fun i => f (V a i)))%Q.
Proof.
  rewrite (bsum_reindex_inv (fun i => f (V a i))). apply bsum_ext. intros k Hk.
  rewrite V_perm by exact Hk. reflexivity.
Qed.

Lemma lsum_perm (a : list Q) : length a = n -> lsum (perm_vecq p a) = lsum a.
Proof.
  intros Ha. unfold lsum. rewrite perm_vecq_length, Ha. apply Qred_complete.
  exact (bsum_V_perm (fun q => q) a).
Qed.

Lemma lnorm1_perm (a : list Q) : length a = n -> lnorm1 (perm_vecq p a) = lnorm1 a.
Proof.
  intros Ha. unfold lnorm1, norm1. rewrite perm_vecq_length, Ha. apply Qred_complete.
  exact (bsum_V_perm Qabs a).
Qed.

Lemma vnormalize_length (a : list Q) : length (vnormalize a) = length a.
Proof. unfold vnormalize. apply map_length. Qed.

Lemma vnormalize_perm (a : list Q) : length a = n -> vnormalize (perm_vecq p a) = perm_vecq p (vnormalize a).
Proof.
  intros Ha. unfold vnormalize. rewrite lsum_perm by exact Ha. cbv zeta.
  exact (map_perm n p Hp (fun x => Qred (x / lsum a)%Q) 0%Q 0%Q a Ha).
Qed.

Lemma vscale_perm (c : Q) (a : list Q) : length a = n -> vscale c (perm_vecq p a) = perm_vecq p (vscale c a).
Proof. intros Ha. exact (map_perm n p Hp (fun x => Qred (c * x)%Q) 0%Q 0%Q a Ha). Qed.

Lemma vadd_perm (a b : list Q) :
  length a = n -> length b = n -> vadd (perm_vecq p a) (perm_vecq p b) = perm_vecq p (vadd a b).
Proof. intros Ha Hb. exact (map2_perm n p Hp (fun x y => Qred (x + y)%Q) 0%Q 0%Q 0%Q a b Ha Hb). Qed.

Lemma vsub_perm (a b : list Q) :
  length a = n -> length b = n -> vsub (perm_vecq p a) (perm_vecq p b) = perm_vecq p (vsub a b).
Proof. intros Ha Hb. exact (map2_perm n p Hp (fun x y => Qred (x - y)%Q) 0%Q 0%Q 0%Q a b Ha Hb). Qed.

Lemma vadd_length (a b : list Q) : length a = n -> length b = n -> length (vadd a b) = n.
Proof. intros Ha Hb. unfold vadd. rewrite map2_length, Ha, Hb. apply Nat.min_id. Qed.

Lemma mvl_perm (M M' : mat) (x : list Q) :
  mat_equiv M M' -> mvl n M' (perm_vecq p x) = perm_vecq p (mvl n M x).
Proof. intros HM. unfold mvl. apply tab_perm. apply mv_perm; [exact HM|apply V_equiv]. Qed.

(** One power-iteration step, the whole loop with its early exit, and Horner's scheme, for any pair of
    operators that commute with the renumbering. *)
Section Operators.
Context (op op' : list Q -> list Q)
        (Hop : forall x, length x = n -> op' (perm_vecq p x) = perm_vecq p (op x))
        (Hlen : forall x, length (op x) = n).

Lemma piteration_step_perm (x : list Q) :
  length x = n -> piteration_step op' (perm_vecq p x) = perm_vecq p (piteration_step op x).
Proof. intros Hx. unfold piteration_step. rewrite (Hop x Hx). apply vnormalize_perm. apply Hlen. Qed.

Lemma piteration_step_length (x : list Q) : length (piteration_step op x) = n.
Proof. unfold piteration_step. rewrite vnormalize_length. apply Hlen. Qed.

Lemma piteration_loop_perm (tol : Q) (k : nat) (x : list Q) :
  length x = n -> piteration_loop k op' tol (perm_vecq p x) = perm_vecq p (piteration_loop k op tol x).
Proof.
  revert x. induction k as [|k IH]; intros x Hx; cbn [piteration_loop]; [reflexivity|].
  rewrite (piteration_step_perm x Hx), (vsub_perm x _ Hx (piteration_step_length x)).
  rewrite lnorm1_perm by (rewrite vsub_length_same; rewrite ?piteration_step_length; assumption).
  destruct (Qltb (lnorm1 (vsub x (piteration_step op x))) tol); [reflexivity|].
  apply IH. apply piteration_step_length.
Qed.

Lemma piteration_loop_length (tol : Q) (k : nat) (x : list Q) :
  length x = n -> length (piteration_loop k op tol x) = n.
Proof.
  revert x. induction k as [|k IH]; intros x Hx; cbn [piteration_loop]; [exact Hx|].
  destruct (Qltb _ _); [exact Hx|]. apply IH. apply piteration_step_length.
Qed.

Lemma horner_perm (coeffs x : list Q) :
  coeffs <> [] -> length x = n ->
  horner op' coeffs (perm_vecq p x) = perm_vecq p (horner op coeffs x) /\ length (horner op coeffs x) = n.
Proof.
  intros Hc Hx. unfold horner. destruct (rev coeffs) as [|c rest] eqn:E.
  - exfalso. apply Hc. rewrite <- (rev_involutive coeffs), E. reflexivity.
  - rewrite (vscale_perm c x Hx).
    assert (Hs : length (vscale c x) = n) by (rewrite vscale_length; exact Hx).
    generalize (vscale c x) Hs. clear E Hs. induction rest as [|a rest IH]; intros y0 Hy0; cbn [fold_left].
    + split; [reflexivity|exact Hy0].
    + rewrite (Hop y0 Hy0). rewrite (vscale_perm a x Hx).
      assert (Hax : length (vscale a x) = n) by (rewrite vscale_length; exact Hx).
      rewrite (vadd_perm (op y0) (vscale a x) (Hlen y0) Hax).
      apply IH. apply vadd_length; [apply Hlen|exact Hax].
Qed.

End Operators.

Lemma mvl_length (m : nat) (M : mat) (x : list Q) : length (mvl m M x) = m.
Proof. unfold mvl. apply tab_length. Qed.

Lemma row_pattern (g : wgraph) (u : nat) : row (pattern g) u = map fst (wrow_of g u).
Proof.
  unfold row, pattern, wrow_of. change (@nil nat) with (map (@fst nat Q) []). apply map_nth.
Qed.

Theorem pattern_perm (g : wgraph) : pattern (perm_wrows p g) = perm_graph p (pattern g).
Proof.
  unfold pattern at 1, perm_wrows, perm_bip, perm_graph. rewrite map_map. apply map_ext. intros k.
  rewrite row_pattern, !map_map. reflexivity.
Qed.

Lemma pattern_wf (g : wgraph) : wf_graph g = true -> BfsProofs.wf_graph (pattern g).
Proof.
  intros Hwf u v Hin. rewrite pattern_length. rewrite row_pattern in Hin.
  apply in_map_iff in Hin. destruct Hin as [e [<- He]].
  exact (wf_row_In (length g) _ e (EqDenPR.wf_graph_row g u Hwf) He).
Qed.

Lemma wf_graph_of_pattern (g : wgraph) :
  (forall u v, In v (row (pattern g) u) -> v < length g) -> wf_graph g = true.
Proof.
  intros H. unfold wf_graph. apply forallb_forall. intros r Hr.
  destruct (In_nth g r [] Hr) as [u [Hu Er]].
  unfold wf_row. apply forallb_forall. intros e He. apply Nat.ltb_lt. apply (H u).
  rewrite row_pattern. unfold wrow_of. rewrite Er. apply in_map. exact He.
Qed.

Lemma single_source_perm (s : nat) :
  s < n -> single_source n (nthn p s) = perm_vecb p (single_source n s).
Proof.
  intros Hs. unfold single_source. apply (perm_vec_tabulate n p Hp). intros i Hi.
  exact (perm_eqb n p Hp s i Hs Hi).
Qed.

Lemma closeness_of_Permutation (m : nat) (u v : list Z) :
  Permutation u v -> closeness_of m u = closeness_of m v.
Proof.
  intros H. unfold closeness_of. rewrite (existsb_Permutation _ u v H), (sumz_Permutation u v H),
    (Permutation_length H). reflexivity.
Qed.

Lemma forallb_Permutation {A} (f : A -> bool) (u v : list A) : Permutation u v -> forallb f u = forallb f v.
Proof.
  intros H; induction H as [|x l l' H IH|x y l|l l' l'' H1 IH1 H2 IH2]; cbn [forallb].
  - reflexivity.
  - rewrite IH. reflexivity.
  - destruct (f x), (f y); reflexivity.
  - rewrite IH1. exact IH2.
Qed.

Lemma forallb_ext_in {A} (f h : A -> bool) (l : list A) : (forall a, In a l -> f a = h a) -> forallb f l = forallb h l.
Proof.
  induction l as [|a l IH]; intros H; [reflexivity|]. cbn [forallb].
  rewrite (H a (or_introl eq_refl)). rewrite IH; [reflexivity|]. intros b Hb. apply H. right. exact Hb.
Qed.

Lemma forallb_reindex (f : nat -> bool) : forallb f (seq 0 n) = forallb (fun i => f (nthn p i)) (seq 0 n).
Proof.
  rewrite <- (forallb_map f (nthn p)), (perm_map_seq n p Hp). symmetry. apply forallb_Permutation. exact Hp.
Qed.

Lemma perm_vecq_reduced (l : list Q) : Forall qreduced l -> Forall qreduced (perm_vecq p l).
Proof.
  intros H. apply Forall_forall. intros x Hx. unfold perm_vecq, perm_vec in Hx.
  apply in_map_iff in Hx. destruct Hx as [k [<- _]].
  destruct (Nat.lt_ge_cases (index_of k p) (length l)) as [L|L].
  - rewrite Forall_forall in H. apply H. apply nth_In. exact L.
  - rewrite nth_overflow by exact L. reflexivity.
Qed.

Section Pattern.
Context (q : graph) (HL : length q = n) (Hwf : BfsProofs.wf_graph q).

Lemma BT_equiv : mat_equiv (BT q) (BT (perm_graph p q)).
Proof.
  intros j i Hj Hi. unfold BT. rewrite (perm_graph_row n p Hp q i Hi).
  rewrite (perm_memn_map n p Hp); [reflexivity| |exact Hj].
  intros v Hv. rewrite <- HL. exact (Hwf i v Hv).
Qed.

Lemma A01_equiv : mat_equiv (A01 q) (A01 (perm_graph p q)).
Proof. intros i j Hi Hj. exact (BT_equiv j i Hj Hi). Qed.

Theorem walks_to_perm (k j : nat) :
  j < n -> (walks_to (perm_graph p q) k (nthn p j) == walks_to q k j)%Q.
Proof.
  revert j. induction k as [|k IH]; intros j Hj; cbn [walks_to]; [reflexivity|].
  rewrite (perm_graph_length n p Hp), HL. exact (mv_perm _ _ _ _ BT_equiv IH j Hj).
Qed.

Theorem katz_spec_perm (alpha : Q) (K j : nat) :
  j < n -> (katz_spec (perm_graph p q) alpha K (nthn p j) == katz_spec q alpha K j)%Q.
Proof.
  intros Hj. unfold katz_spec. apply bsum_ext. intros k _.
  rewrite (walks_to_perm (S k) j Hj). reflexivity.
Qed.

Lemma dist_row_perm (s : nat) :
  s < n ->
  exists dist, bfs q (single_source n s) = Some dist /\ length dist = n /\
               bfs (perm_graph p q) (single_source n (nthn p s)) = Some (perm_vecz p dist).
Proof.
  intros Hs.
  destruct (bfs_exact q (single_source n s)) as (dist & Hb & Ld & _).
  { rewrite single_source_length. symmetry. exact HL. }
  exists dist. split; [exact Hb|]. split; [rewrite Ld; exact HL|].
  rewrite (single_source_perm s Hs).
  exact (bfs_equivariant n p Hp q _ dist HL Hwf (single_source_length n _) Hb).
Qed.

Theorem closeness_equivariant : closeness_exact (perm_graph p q) = perm_vecq p (closeness_exact q).
Proof.
  unfold closeness_exact, dist_rows. rewrite (perm_graph_length n p Hp), HL. rewrite !map_map.
  apply (perm_vec_tabulate n p Hp). intros s Hs.
  destruct (dist_row_perm s Hs) as (dist & Hb & Ld & Hb'). rewrite Hb, Hb'.
  apply closeness_of_Permutation. exact (perm_vec_Permutation n p 0%Z dist Hp Ld).
Qed.

(** Approximate closeness (sampled sources; the sample is an oracle, renumbered with the graph). *)
Theorem closeness_approx_equivariant (sources : list nat) :
  (forall s, In s sources -> s < n) ->
  closeness_approx (perm_graph p q) (map (nthn p) sources) = perm_vecq p (closeness_approx q sources).
Proof.
  intros Hsrc. unfold closeness_approx. cbv zeta. rewrite (perm_graph_length n p Hp), HL.
  assert (Ed : dist_rows (perm_graph p q) (map (nthn p) sources) = map (perm_vecz p) (dist_rows q sources)).
  { unfold dist_rows. rewrite (perm_graph_length n p Hp), HL. rewrite !map_map. apply map_ext_in. intros s Hs.
    destruct (dist_row_perm s (Hsrc s Hs)) as (dist & Hb & _ & Hb'). rewrite Hb, Hb'. reflexivity. }
  rewrite Ed. apply (perm_vec_tabulate n p Hp). intros v Hv.
  f_equal. unfold column. rewrite map_map. apply map_ext. intros r.
  exact (perm_vec_nth n p Hp 0%Z r v Hv).
Qed.

Lemma nw_perm (k s t : nat) :
  s < n -> t < n -> (nw (perm_graph p q) k (nthn p s) (nthn p t) == nw q k s t)%Q.
Proof.
  intros Hs. revert t. induction k as [|k IH]; intros t Ht; cbn [nw].
  - rewrite (perm_eqb n p Hp) by assumption. reflexivity.
  - rewrite (perm_graph_length n p Hp), HL.
    etransitivity; [apply bsum_reindex|]. apply bsum_ext. intros u Hu. cbv beta.
    rewrite (IH u Hu). rewrite (A01_equiv u t Hu Ht). reflexivity.
Qed.

Theorem nwalks_perm (k s t : nat) :
  s < n -> t < n -> (V (nwalks (perm_graph p q) k (nthn p s)) (nthn p t) == V (nwalks q k s) t)%Q.
Proof.
  intros Hs Ht.
  rewrite nwalks_nw by (rewrite (perm_graph_length n p Hp); apply (perm_lt n p Hp); exact Ht).
  rewrite nwalks_nw by (rewrite HL; exact Ht). apply nw_perm; assumption.
Qed.

Theorem sp_info_perm (s t : nat) :
  s < n -> t < n -> sp_match (sp_info (perm_graph p q) (nthn p s) (nthn p t)) (sp_info q s t).
Proof.
  intros Hs Ht. rewrite !sp_info_unfold. rewrite (perm_graph_length n p Hp), HL.
  assert (E : filter (nzb (perm_graph p q) (nthn p s) (nthn p t)) (seq 0 n) = filter (nzb q s t) (seq 0 n)).
  { apply filter_ext. intros k. unfold nzb. rewrite (nwalks_perm k s t Hs Ht). reflexivity. }
  rewrite E. destruct (filter (nzb q s t) (seq 0 n)) as [|k r]; cbn [sp_match]; [exact I|].
  split; [reflexivity|apply nwalks_perm; assumption].
Qed.

Theorem pair_dependency_perm (s t v : nat) :
  s < n -> t < n -> v < n ->
  (pair_dependency (perm_graph p q) (nthn p s) (nthn p t) (nthn p v) == pair_dependency q s t v)%Q.
Proof.
  intros Hs Ht Hv. unfold pair_dependency.
  pose proof (sp_info_perm s t Hs Ht) as H1.
  pose proof (sp_info_perm s v Hs Hv) as H2.
  pose proof (sp_info_perm v t Hv Ht) as H3.
  destruct (sp_info (perm_graph p q) (nthn p s) (nthn p t)) as [[d x]|], (sp_info q s t) as [[d' x']|];
    cbn [sp_match] in H1; try contradiction; [|reflexivity].
  destruct (sp_info (perm_graph p q) (nthn p s) (nthn p v)) as [[d1 x1]|], (sp_info q s v) as [[d1' x1']|];
    cbn [sp_match] in H2; try contradiction; [|reflexivity].
  destruct (sp_info (perm_graph p q) (nthn p v) (nthn p t)) as [[d2 x2]|], (sp_info q v t) as [[d2' x2']|];
    cbn [sp_match] in H3; try contradiction; [|reflexivity].
  destruct H1 as [<- E1]. destruct H2 as [<- E2]. destruct H3 as [<- E3].
  destruct (Nat.eqb (d1 + d2) d); [|reflexivity]. rewrite E1, E2, E3. reflexivity.
Qed.

Theorem betweenness_ordered_perm (v : nat) :
  v < n -> betweenness_ordered (perm_graph p q) (nthn p v) = betweenness_ordered q v.
Proof.
  intros Hv. unfold betweenness_ordered. rewrite (perm_graph_length n p Hp), HL. cbv zeta.
  apply Qred_complete.
  etransitivity; [apply bsum_reindex|]. apply bsum_ext. intros s Hs. cbv beta.
  etransitivity; [apply bsum_reindex|]. apply bsum_ext. intros t Ht. cbv beta.
  rewrite !(perm_eqb n p Hp) by assumption.
  destruct (Nat.eqb s v || Nat.eqb t v || Nat.eqb s t); [reflexivity|].
  apply pair_dependency_perm; assumption.
Qed.

End Pattern.

Section Graph.
Context (g : wgraph) (HL : length g = n) (Hwf : wf_graph g = true).

Theorem P_perm (i j : nat) : i < n -> j < n -> P (perm_wrows p g) (nthn p i) (nthn p j) = P g i j.
Proof.
  intros Hi Hj. unfold P. rewrite normalize_perm. apply Pn_perm; try assumption.
  intros u. rewrite <- HL, wrow_of_normalize. apply wf_row_normalize. apply EqDenPR.wf_graph_row. exact Hwf.
Qed.

Theorem wf_graph_perm : wf_graph (perm_wrows p g) = true.
Proof.
  unfold wf_graph. rewrite (perm_wrows_length n p Hp). apply forallb_forall. intros r Hr.
  unfold perm_wrows, perm_bip in Hr. apply in_map_iff in Hr. destruct Hr as [k [<- _]].
  apply (wf_row_relab (wrow_of g (index_of k p))). rewrite <- HL. apply EqDenPR.wf_graph_row. exact Hwf.
Qed.

Lemma PT_equiv (alpha : Q) : mat_equiv (PT alpha (P g)) (PT alpha (P (perm_wrows p g))).
Proof. intros i j Hi Hj. unfold PT. rewrite P_perm by assumption. reflexivity. Qed.

Theorem is_solution_perm (alpha : Q) (y x : vec) :
  is_solution n (P g) alpha y x ->
  is_solution n (P (perm_wrows p g)) alpha (fun k => y (index_of k p)) (fun k => x (index_of k p)).
Proof.
  intros Hs k Hk. cbv beta.
  rewrite <- (vec_equiv_inv _ _ (mv_perm _ _ x _ (PT_equiv alpha) (vec_equiv_index x)) k Hk).
  apply Hs. exact (perm_index_lt n p Hp k Hk).
Qed.

Theorem is_pagerank_perm (alpha : Q) (y x : vec) :
  is_pagerank n (P g) alpha y x ->
  is_pagerank n (P (perm_wrows p g)) alpha (fun k => y (index_of k p)) (fun k => x (index_of k p)).
Proof.
  intros (z & Hz & Hs & Hx). exists (fun k => z (index_of k p)).
  split; [exact (is_solution_perm alpha y z Hz)|].
  split; [rewrite vsum_perm_inv; exact Hs|]. intros k Hk. rewrite vsum_perm_inv. apply Hx. exact (perm_index_lt n p Hp k Hk).
Qed.

(** RandomSurferOperator._matvec commutes with the renumbering. *)
Theorem surfer_matvec_perm (alpha : Q) (y x : list Q) :
  surfer_matvec (perm_wrows p g) alpha (perm_vecq p y) (perm_vecq p x) =
  perm_vecq p (surfer_matvec g alpha y x).
Proof.
  unfold surfer_matvec. rewrite (perm_wrows_length n p Hp), HL. cbv zeta.
  apply tab_perm. intros i Hi. rewrite !Qred_correct.
  rewrite (mv_perm _ _ (V x) _ (PT_equiv alpha) (V_equiv x) i Hi), (V_perm_nth y i Hi).
  rewrite (bsum_reindex (fun i => (restart (perm_wrows p g) alpha i * V (perm_vecq p x) i)%Q)).
  rewrite (bsum_ext n _ (fun i => restart g alpha i * V x i)%Q); [reflexivity|].
  intros j Hj. unfold restart. rewrite has_out_perm, V_perm_nth by exact Hj. reflexivity.
Qed.

Lemma surfer_matvec_length_n (alpha : Q) (y z : list Q) : length (surfer_matvec g alpha y z) = n.
Proof. rewrite surfer_matvec_length. exact HL. Qed.

(** The power-iteration solver as coded, for every n_iter and tol. *)
Theorem piteration_equivariant (alpha : Q) (y : list Q) (n_iter : nat) (tol : Q) :
  length y = n ->
  piteration (perm_wrows p g) alpha (perm_vecq p y) n_iter tol = perm_vecq p (piteration g alpha y n_iter tol).
Proof.
  unfold piteration.
  apply piteration_loop_perm; [intros z _; apply surfer_matvec_perm|apply surfer_matvec_length_n].
Qed.

(** The RH (Ruffini-Horner) solver as coded (with the length of its result). *)
Lemma rh_perm_length (alpha : Q) (y : list Q) (n_iter : nat) :
  length y = n ->
  rh (perm_wrows p g) alpha (perm_vecq p y) n_iter = perm_vecq p (rh g alpha y n_iter) /\
  length (rh g alpha y n_iter) = n.
Proof.
  intros Hy. unfold rh. rewrite (perm_wrows_length n p Hp), HL. cbv zeta.
  apply (horner_perm (mvl n (Ma (normalize g) alpha)) (mvl n (Ma (normalize (perm_wrows p g)) alpha))).
  - intros z _. apply mvl_perm. exact (PT_equiv alpha).
  - intros z. apply mvl_length.
  - cbn [repeat]. discriminate.
  - exact Hy.
Qed.

Lemma pattern_length_n : length (pattern g) = n.
Proof. rewrite pattern_length. exact HL. Qed.

(** The coded Katz (Horner loop on the 0/1 pattern), Leibniz equality. *)
Theorem katz_equivariant (alpha : Q) (K : nat) : katz (perm_wrows p g) alpha K = perm_vecq p (katz g alpha K).
Proof.
  unfold katz. rewrite (perm_wrows_length n p Hp), HL. cbv zeta.
  rewrite <- (repeat_perm 1%Q) at 1. rewrite pattern_perm.
  apply (horner_perm (mvl n (BT (pattern g))) (mvl n (BT (perm_graph p (pattern g))))).
  - intros z _. apply mvl_perm. exact (BT_equiv (pattern g) pattern_length_n (pattern_wf g Hwf)).
  - intros z. apply mvl_length.
  - rewrite katz_coefs_shape. discriminate.
  - apply repeat_length.
Qed.

Theorem is_symmetric_perm : is_symmetric (perm_wrows p g) = is_symmetric g.
Proof.
  unfold is_symmetric. rewrite (perm_wrows_length n p Hp), HL. cbv zeta.
  etransitivity; [apply forallb_reindex|]. apply forallb_ext_in. intros i Hi. apply in_seq in Hi.
  etransitivity; [apply forallb_reindex|]. apply forallb_ext_in. intros j Hj. apply in_seq in Hj.
  rewrite !wrow_of_perm by lia.
  rewrite !entry_relab; try lia; try (rewrite <- HL; apply EqDenPR.wf_graph_row; exact Hwf). reflexivity.
Qed.

(** The textbook betweenness of the renumbered graph is the renumbered textbook betweenness (Leibniz). *)
Theorem betweenness_spec_perm : betweenness_spec (perm_wrows p g) = perm_vecq p (betweenness_spec g).
Proof.
  unfold betweenness_spec. cbv zeta.
  rewrite is_symmetric_perm, pattern_perm, (perm_graph_length n p Hp), pattern_length, HL.
  apply (perm_vec_tabulate n p Hp). intros v Hv.
  rewrite (betweenness_ordered_perm (pattern g) pattern_length_n (pattern_wf g Hwf) v Hv). reflexivity.
Qed.

End Graph.

(** Betweenness.fit as coded, under the hypotheses of [brandes_exact_explicit]. *)
Section Brandes.
Context (g : wgraph) (HL : length g = n) (H1 : forall u v, In v (row (pattern g) u) -> v < length g)
        (H2 : forall u, NoDup (row (pattern g) u)).

Theorem brandes_hyps_perm :
  (forall u v, In v (row (pattern (perm_wrows p g)) u) -> v < length (perm_wrows p g)) /\
  (forall u, NoDup (row (pattern (perm_wrows p g)) u)).
Proof.
  pose proof (pattern_wf g (wf_graph_of_pattern g H1)) as Hq.
  pose proof (pattern_length_n g HL) as Lq.
  rewrite pattern_perm, (perm_wrows_length n p Hp). split.
  - intros u v Hin. pose proof (perm_graph_wf n p Hp (pattern g) Lq Hq u v Hin) as H.
    rewrite (perm_graph_length n p Hp) in H. exact H.
  - exact (perm_graph_nodup n p Hp (pattern g) Lq Hq H2).
Qed.

Theorem betweenness_equivariant (v : nat) :
  v < n -> (V (betweenness (perm_wrows p g)) (nthn p v) == V (betweenness g) v)%Q.
Proof.
  intros Hv. pose proof (wf_graph_of_pattern g H1) as Hwf.
  destruct brandes_hyps_perm as [H1' H2'].
  destruct (brandes_exact_explicit g H1 H2) as [_ He].
  destruct (brandes_exact_explicit (perm_wrows p g) H1' H2') as [_ He'].
  rewrite (perm_wrows_length n p Hp) in He'. rewrite HL in He.
  rewrite (proj1 (He' (nthn p v) (perm_lt n p Hp v Hv))). rewrite (proj1 (He v Hv)).
  rewrite (betweenness_spec_perm g HL Hwf). rewrite V_perm_nth by exact Hv. reflexivity.
Qed.

(** ... with Leibniz equality: every stored score is a [Qred] normal form. *)
Theorem betweenness_equivariant_eq : betweenness (perm_wrows p g) = perm_vecq p (betweenness g).
Proof.
  destruct brandes_hyps_perm as [H1' H2'].
  destruct (brandes_exact_explicit (perm_wrows p g) H1' H2') as [L' _]. rewrite (perm_wrows_length n p Hp) in L'.
  apply reduced_eq.
  - apply betweenness_reduced.
  - apply perm_vecq_reduced. apply betweenness_reduced.
  - rewrite L', perm_vecq_length. reflexivity.
  - intros k Hk. rewrite L' in Hk. rewrite V_perm by exact Hk.
    rewrite <- (perm_index_nth n p Hp k Hk) at 1.
    apply betweenness_equivariant. exact (perm_index_lt n p Hp k Hk).
Qed.

End Brandes.

End Renumber.

(** D-iteration is a sequential sweep in node order: a FINITE number of sweeps is not equivariant
      (only its limit, the PageRank vector, is).  Path 0 -> 1 -> 2, restart at 0, one sweep: in the
      original numbering the fluid travels down the whole path within the sweep; after reversing the
      numbering it moves one node per sweep. *)
Lemma diteration_not_equivariant_exactly :
  exists (p : list nat) (g : wgraph) (alpha : Q) (y : list Q),
    Permutation p (seq 0 3) /\ length g = 3 /\ good_graph g /\ (0 <= alpha < 1)%Q /\
    diteration g alpha y 1 0 = [1 # 2; 1 # 4; 1 # 8]%Q /\
    perm_vecq p (diteration g alpha y 1 0) = [1 # 8; 1 # 4; 1 # 2]%Q /\
    diteration (perm_wrows p g) alpha (perm_vecq p y) 1 0 = [0; 0; 1 # 2]%Q.
Proof.
  exists [2; 1; 0], [[(1, 1%Q)]; [(2, 1%Q)]; []], (1 # 2)%Q, [1; 0; 0]%Q.
  split; [|repeat split; try reflexivity; try (cbn; lra); vm_compute; reflexivity].
  apply Permutation_sym. cbn [seq].
  apply perm_trans with (l' := [1; 0; 2]); [apply perm_swap|].
  apply perm_trans with (l' := [1; 2; 0]); [apply perm_skip; apply perm_swap|apply perm_swap].
Qed.

End EqA.

Module EqB_Mod.
Import Modularity ModularityProofs.
Local Open Scope Q_scope.

Lemma sumq_qsum_nth (l : list Q) : sumq l == qsum (length l) (nthq l).
Proof.
  rewrite <- (map_nth_seq l 0) at 1. apply sumq_map_seq.
Qed.

Section ModRenumber.
Context (n : nat) (p : list nat) (Hp : Permutation p (seq 0 n)).

Lemma qsum_reindex (f : nat -> Q) : qsum n f == qsum n (fun i => f (nthn p i)).
Proof.
  rewrite <- (sumq_map_seq n f), <- (sumq_map_seq n (fun i => f (nthn p i))).
  apply sumq_Permutation. apply Permutation_sym. apply (perm_reindex n p Hp).
Qed.

Lemma qsum2_perm_ext (F G : nat -> nat -> Q) :
  (forall i j, (i < n)%nat -> (j < n)%nat -> F (nthn p i) (nthn p j) == G i j) ->
  qsum n (fun i => qsum n (fun j => F i j)) == qsum n (fun i => qsum n (fun j => G i j)).
Proof.
  intros H. rewrite (qsum_reindex (fun i => qsum n (fun j => F i j))). apply qsum_ext. intros i Hi.
  rewrite (qsum_reindex (fun j => F (nthn p i) j)). apply qsum_ext. intros j Hj. apply H; assumption.
Qed.

Lemma qsum_perm_ext (f g : nat -> Q) :
  (forall i, (i < n)%nat -> f (nthn p i) == g i) -> qsum n f == qsum n g.
Proof.
  intros H. rewrite (qsum_reindex f). apply qsum_ext. exact H.
Qed.

Lemma pw_row (g : wgraph) (i : nat) :
  (i < n)%nat ->
  wrow_of (perm_wrows p g) (nthn p i) = map (fun e : nat * Q => (nthn p (fst e), snd e)) (wrow_of g i).
Proof. exact (perm_bip_row n p Hp p g i). Qed.

Lemma pw_rsum (g : wgraph) (i : nat) (h : nat -> Q) :
  (i < n)%nat ->
  rsum (wrow_of (perm_wrows p g) (nthn p i)) h == rsum (wrow_of g i) (fun j => h (nthn p j)).
Proof. intros Hi. rewrite (pw_row g i Hi). apply rsum_map_fst. Qed.

Lemma pv_lab (labels : list nat) (i : nat) :
  (i < n)%nat -> lab (perm_vec 0%nat p labels) (nthn p i) = lab labels i.
Proof. intros Hi. exact (perm_vec_nth n p Hp 0%nat labels i Hi). Qed.

Lemma pv_delta (labels : list nat) (i j : nat) :
  (i < n)%nat -> (j < n)%nat ->
  delta (perm_vec 0%nat p labels) (nthn p i) (nthn p j) = delta labels i j.
Proof. intros Hi Hj. unfold delta. rewrite !pv_lab by assumption. reflexivity. Qed.

Lemma fit_term_spec (g : wgraph) (labels : list nat) :
  wf_wgraph g -> length labels = length g -> fit_term g labels == spec_fit g labels.
Proof.
  intros Hwf Hlen. unfold fit_term, spec_fit.
  rewrite (fit_num_spec _ _ Hwf Hlen), (data_sum_spec _ Hwf). reflexivity.
Qed.

(** [ws'] is [ws] renumbered (up to [==]). *)
Definition vperm (ws ws' : list Q) : Prop :=
  length ws = n /\ length ws' = n /\ forall i, (i < n)%nat -> nthq ws' (nthn p i) == nthq ws i.

Lemma vperm_sumq (ws ws' : list Q) : vperm ws ws' -> sumq ws' == sumq ws.
Proof.
  intros [H1 [H2 H3]]. rewrite (sumq_qsum_nth ws'), (sumq_qsum_nth ws), H1, H2.
  apply qsum_perm_ext. exact H3.
Qed.

Lemma vperm_existsb (f : Q -> bool) (ws ws' : list Q) :
  (forall x y, x == y -> f x = f y) -> vperm ws ws' -> existsb f ws' = existsb f ws.
Proof.
  intros Hf [H1 [H2 H3]]. apply eq_true_iff_eq. rewrite !existsb_exists.
  split; intros [x [Hin Hx]]; apply (In_nth _ _ 0) in Hin; destruct Hin as [k [Hk E]].
  - rewrite H2 in Hk. pose proof (perm_index_lt n p Hp k Hk) as Hi.
    exists (nthq ws (index_of k p)). split.
    + unfold nthq. apply nth_In. lia.
    + rewrite <- Hx. apply Hf. rewrite <- (H3 _ Hi).
      rewrite (perm_index_nth n p Hp k Hk). unfold nthq. rewrite E. reflexivity.
  - rewrite H1 in Hk. exists (nthq ws' (nthn p k)). split.
    + unfold nthq. apply nth_In. rewrite H2. apply (perm_lt n p Hp). exact Hk.
    + rewrite <- Hx. apply Hf. rewrite (H3 _ Hk). unfold nthq. rewrite E. reflexivity.
Qed.

(** get_probs commutes with the renumbering: same error, or probabilities renumbered with Leibniz
    equality (they are stored reduced). *)
Lemma get_probs_perm (ws ws' : list Q) :
  vperm ws ws' ->
  match get_probs_of ws, get_probs_of ws' with
  | MOk pr, MOk pr' => forall i, (i < n)%nat -> nthq pr' (nthn p i) = nthq pr i
  | MErr e, MErr e' => e = e'
  | _, _ => False
  end.
Proof.
  intros Hv. unfold get_probs_of.
  rewrite (vperm_existsb (fun x => negb (Qle_bool 0 x)) ws ws') by (exact Hv || (intros x y E; rewrite E; reflexivity)).
  rewrite (Qleb_comp _ _ (vperm_sumq _ _ Hv) 0 0 (Qeq_refl 0)).
  destruct (existsb (fun x : Q => negb (Qle_bool 0 x)) ws || Qle_bool (sumq ws) 0); [reflexivity|].
  destruct Hv as [H1 [H2 H3]]. intros i Hi.
  rewrite (nthq_map _ ws') by (rewrite H2; apply (perm_lt n p Hp); exact Hi).
  rewrite (nthq_map _ ws) by lia.
  apply Qred_complete. rewrite (H3 i Hi), (vperm_sumq ws ws' (conj H1 (conj H2 H3))). reflexivity.
Qed.

Lemma out_deg_perm (g : wgraph) (i : nat) :
  (i < n)%nat -> out_deg (perm_wrows p g) (nthn p i) == out_deg g i.
Proof. intros Hi. unfold out_deg. rewrite (pw_rsum g i _ Hi). reflexivity. Qed.

Lemma vperm_tab (f f' : nat -> Q) :
  (forall i, (i < n)%nat -> f' (nthn p i) == f i) -> vperm (map f (seq 0 n)) (map f' (seq 0 n)).
Proof.
  intros H. split; [|split]; [rewrite map_length, seq_length; reflexivity ..|].
  intros i Hi. rewrite !nthq_map_seq by (try apply (perm_lt n p Hp); exact Hi). exact (H i Hi).
Qed.

Lemma vperm_repeat (c : Q) : vperm (repeat c n) (repeat c n).
Proof.
  split; [|split]; [apply repeat_length ..|].
  intros i Hi. rewrite !nthq_repeat by (try apply (perm_lt n p Hp); exact Hi). reflexivity.
Qed.

Lemma make_weights_out_perm (wk : weighting) (g : wgraph) :
  length g = n -> vperm (make_weights_out wk g) (make_weights_out wk (perm_wrows p g)).
Proof.
  intros HL. destruct wk; cbn [make_weights_out]; rewrite (perm_wrows_length n p Hp), HL.
  - apply vperm_tab. intros i Hi. apply out_deg_perm. exact Hi.
  - apply vperm_repeat.
Qed.

Lemma div_term_invariant (labels : list nat) (pr pc pr' pc' : list Q) :
  length labels = n ->
  (forall i, (i < n)%nat -> nthq pr' (nthn p i) = nthq pr i) ->
  (forall i, (i < n)%nat -> nthq pc' (nthn p i) = nthq pc i) ->
  div_term n (perm_vec 0%nat p labels) pr' pc' == div_term n labels pr pc.
Proof.
  intros Hl Hr Hc. unfold div_term.
  rewrite (div_spec n (perm_vec 0%nat p labels) (nthq pr') (nthq pc')
             (perm_vec_length n p Hp 0%nat labels)).
  rewrite (div_spec n labels (nthq pr) (nthq pc) Hl).
  apply qsum2_perm_ext. intros i j Hi Hj.
  rewrite (Hr i Hi), (Hc j Hj), (pv_delta labels i j Hi Hj). reflexivity.
Qed.

Lemma pw_nnz (g : wgraph) : length g = n -> nnz (perm_wrows p g) = nnz g.
Proof.
  intros HL. unfold nnz. apply Util.sumn_perm. exact (perm_wrows_row_lengths n p g Hp HL).
Qed.

Section Graph.
Context (g : wgraph) (HL : length g = n) (Hwf : wf_wgraph g).

Lemma pw_wf : wf_wgraph (perm_wrows p g).
Proof.
  intros i j w Hin. rewrite (perm_wrows_length n p Hp).
  destruct (Nat.lt_ge_cases i n) as [Hi|Hi].
  - rewrite <- (perm_index_nth n p Hp i Hi) in Hin.
    rewrite pw_row in Hin by (apply (perm_index_lt n p Hp); exact Hi).
    apply in_map_iff in Hin. destruct Hin as [[j0 w0] [E Hin]]. cbn [fst snd] in E.
    injection E as <- <-. apply (perm_lt n p Hp). rewrite <- HL. exact (Hwf _ _ _ Hin).
  - unfold wrow_of in Hin. rewrite nth_overflow in Hin by (rewrite (perm_wrows_length n p Hp); lia). destruct Hin.
Qed.

Lemma pw_entry (i j : nat) :
  (i < n)%nat -> (j < n)%nat -> entry (perm_wrows p g) (nthn p i) (nthn p j) == entry g i j.
Proof.
  intros Hi Hj. unfold entry. rewrite (pw_rsum g i _ Hi).
  apply rsum_ext. intros j0 w Hin.
  rewrite (perm_eqb n p Hp j0 j) by (try exact Hj; rewrite <- HL; exact (Hwf _ _ _ Hin)). reflexivity.
Qed.

Lemma pw_total_weight : total_weight (perm_wrows p g) == total_weight g.
Proof.
  unfold total_weight. rewrite (perm_wrows_length n p Hp), HL.
  apply qsum2_perm_ext. intros i j Hi Hj. apply pw_entry; assumption.
Qed.

Lemma pw_spec_out_deg (i : nat) :
  (i < n)%nat -> spec_out_deg (perm_wrows p g) (nthn p i) == spec_out_deg g i.
Proof.
  intros Hi. unfold spec_out_deg. rewrite (perm_wrows_length n p Hp), HL.
  apply qsum_perm_ext. intros j Hj. apply pw_entry; assumption.
Qed.

Lemma pw_spec_in_deg (j : nat) :
  (j < n)%nat -> spec_in_deg (perm_wrows p g) (nthn p j) == spec_in_deg g j.
Proof.
  intros Hj. unfold spec_in_deg. rewrite (perm_wrows_length n p Hp), HL.
  apply qsum_perm_ext. intros i Hi. apply pw_entry; assumption.
Qed.

Theorem spec_modularity_invariant (labels : list nat) (gamma : Q) :
  spec_modularity (perm_wrows p g) (perm_vec 0%nat p labels) gamma == spec_modularity g labels gamma.
Proof.
  unfold spec_modularity. rewrite (perm_wrows_length n p Hp), HL.
  rewrite pw_total_weight at 1.
  apply Qmult_comp; [reflexivity|].
  apply qsum2_perm_ext. intros i j Hi Hj.
  rewrite (pw_entry i j Hi Hj), (pw_spec_out_deg i Hi), (pw_spec_in_deg j Hj),
    (pv_delta labels i j Hi Hj), pw_total_weight.
  reflexivity.
Qed.

Theorem spec_modularity_uniform_invariant (labels : list nat) (gamma : Q) :
  spec_modularity_uniform (perm_wrows p g) (perm_vec 0%nat p labels) gamma
  == spec_modularity_uniform g labels gamma.
Proof.
  unfold spec_modularity_uniform. rewrite (perm_wrows_length n p Hp), HL.
  apply qsum2_perm_ext. intros i j Hi Hj.
  rewrite (pw_entry i j Hi Hj), (pv_delta labels i j Hi Hj), pw_total_weight.
  reflexivity.
Qed.

Theorem spec_fit_invariant (labels : list nat) :
  spec_fit (perm_wrows p g) (perm_vec 0%nat p labels) == spec_fit g labels.
Proof.
  unfold spec_fit. rewrite (perm_wrows_length n p Hp), HL.
  rewrite pw_total_weight.
  apply Qmult_comp; [|reflexivity].
  apply qsum2_perm_ext. intros i j Hi Hj.
  rewrite (pw_entry i j Hi Hj), (pv_delta labels i j Hi Hj). reflexivity.
Qed.

Lemma fit_term_invariant (labels : list nat) :
  length labels = n -> fit_term (perm_wrows p g) (perm_vec 0%nat p labels) == fit_term g labels.
Proof.
  intros Hl.
  rewrite (fit_term_spec g labels Hwf) by lia.
  rewrite (fit_term_spec (perm_wrows p g) _ pw_wf)
    by (rewrite (perm_wrows_length n p Hp); exact (perm_vec_length n p Hp 0%nat labels)).
  apply spec_fit_invariant.
Qed.

Lemma make_weights_in_perm (wk : weighting) : vperm (make_weights_in wk g) (make_weights_in wk (perm_wrows p g)).
Proof.
  destruct wk; cbn [make_weights_in]; rewrite (perm_wrows_length n p Hp), HL.
  - apply vperm_tab. intros i Hi. exact (pw_spec_in_deg i Hi).
  - apply vperm_repeat.
Qed.

End Graph.

(** get_modularity is invariant: same answer (value or error), with Leibniz equality. *)
Theorem get_modularity_invariant (m : wmat) (labels : list nat) (lc : option (list nat))
        (wk : weighting) (gamma : Q) :
  w_nrow m = n -> w_ncol m = n -> wf_wgraph (w_rows m) -> length labels = n ->
  get_modularity {| w_ncol := n; w_rows := perm_wrows p (w_rows m) |} (perm_vec 0%nat p labels) lc wk gamma
  = get_modularity m labels lc wk gamma.
Proof.
  intros Hr Hc Hwf Hl. unfold w_nrow in Hr. unfold get_modularity.
  cbn [w_rows]. rewrite (pw_nnz _ Hr).
  destruct (Nat.eqb (nnz (w_rows m)) 0); [reflexivity|].
  unfold get_adjacency_default, w_nrow. cbn [w_rows w_ncol].
  rewrite (perm_wrows_length n p Hp), Hr, Hc, Nat.eqb_refl.
  rewrite (perm_wrows_length n p Hp), (perm_vec_length n p Hp 0%nat labels), Hr, Hl, Nat.eqb_refl.
  cbn [negb].
  pose proof (get_probs_perm _ _ (make_weights_out_perm wk _ Hr)) as Ho.
  pose proof (get_probs_perm _ _ (make_weights_in_perm _ Hr Hwf wk)) as Hi.
  destruct (get_probs_of (make_weights_out wk (w_rows m))) as [pr|e];
    destruct (get_probs_of (make_weights_out wk (perm_wrows p (w_rows m)))) as [pr'|e'];
    try contradiction.
  - destruct (get_probs_of (make_weights_in wk (w_rows m))) as [pc|e];
      destruct (get_probs_of (make_weights_in wk (perm_wrows p (w_rows m)))) as [pc'|e'];
      try contradiction.
    + rewrite (Qred_complete _ _ (fit_term_invariant _ Hr Hwf labels Hl)),
        (Qred_complete _ _ (div_term_invariant labels pr pc pr' pc' Hl Ho Hi)). reflexivity.
    + rewrite Hi. reflexivity.
  - rewrite Ho. reflexivity.
Qed.

End ModRenumber.

Section ModPerm.
Context (n : nat) (p : list nat) (Hp : Permutation p (seq 0 n)).

Theorem spec_of_invariant (wk : weighting) (g : wgraph) (labels : list nat) (gamma : Q) :
  length g = n -> wf_wgraph g ->
  spec_of wk (perm_wrows p g) (perm_vec 0%nat p labels) gamma == spec_of wk g labels gamma.
Proof.
  intros HL Hwf.
  destruct wk; [apply (spec_modularity_invariant n p Hp g HL Hwf) | apply (spec_modularity_uniform_invariant n p Hp g HL Hwf)].
Qed.

End ModPerm.
End EqB_Mod.

Module EqB_Das.
Import Dendrogram Cuts CutsProofs.

(** The permutation action on this model: a child id below n is a leaf (a node) and is renumbered,
    an id n + t is the cluster created by row t and is kept; edges have their endpoints renumbered. *)
Definition relabel_id (n : nat) (p : list nat) (c : nat) : nat := if Nat.ltb c n then nthn p c else c.
Definition relabel_row (n : nat) (p : list nat) (r : drow) : drow :=
  (relabel_id n p (r_left r), relabel_id n p (r_right r), r_height r, r_size r).
Definition relabel_dendrogram (n : nat) (p : list nat) (D : dendrogram) : dendrogram :=
  map (relabel_row n p) D.
Definition relabel_edge (p : list nat) (e : nat * nat * Q) : nat * nat * Q :=
  (nthn p (e_src e), nthn p (e_dst e), e_w e).
Definition relabel_edges (p : list nat) (G : wgraph) : wgraph := map (relabel_edge p) G.

(** The inverse permutation, as an image list: entry p[i] is i. *)
Definition inv_perm (p : list nat) : list nat := perm_vec 0 p (seq 0 (length p)).

Lemma filter_map_comm {A B} (f : A -> B) (g : B -> bool) (h : A -> bool) (l : list A) :
  (forall a, In a l -> g (f a) = h a) -> filter g (map f l) = map f (filter h l).
Proof. intros H. rewrite Util.filter_map_comm. f_equal. apply filter_ext_in. exact H. Qed.

Lemma r_size_nth_map (f : drow -> drow) (D : dendrogram) (i : nat) :
  (forall r, r_size (f r) = r_size r) -> r_size (nth i (map f D) drow0) = r_size (nth i D drow0).
Proof.
  intros Hf. revert i. induction D as [|r D IH]; intros [|i]; simpl; try reflexivity; [apply Hf | apply IH].
Qed.

Lemma flat_map_children_map (f : drow -> drow) (g : nat -> nat) (L : dendrogram) :
  (forall r, r_left (f r) = g (r_left r) /\ r_right (f r) = g (r_right r)) ->
  flat_map children (map f L) = map g (flat_map children L).
Proof.
  intros Hf. induction L as [|r L IH]; simpl; [reflexivity|].
  destruct (Hf r) as [E1 E2]. rewrite E1, E2, IH. reflexivity.
Qed.

Lemma leaves_f_lt (n : nat) (D : dendrogram) :
  forall fuel k u, In u (leaves_f fuel n D k) -> u < n.
Proof.
  induction fuel as [|f IH]; intros k u H; simpl in H; [destruct H|].
  destruct (Nat.ltb k n) eqn:E.
  - destruct H as [<-|[]]. apply Nat.ltb_lt. exact E.
  - destruct (nth_error D (k - n)) as [r|]; [|destruct H].
    apply in_app_iff in H. destruct H as [H|H]; exact (IH _ _ H).
Qed.

Lemma tree_clusters_lt (n : nat) (D : dendrogram) (c : list nat) (x : nat) :
  In c (tree_clusters n D) -> In x c -> x < n.
Proof.
  unfold tree_clusters. intros Hc Hx. apply in_map_iff in Hc. destruct Hc as [t [<- _]].
  exact (leaves_f_lt n D _ _ _ Hx).
Qed.

(** A fold that keeps one of its two arguments at every step returns the start value or a member. *)
Lemma fold_right_choice {A} (sel : A -> A -> A) (d : A) (l : list A) :
  (forall c b, sel c b = c \/ sel c b = b) -> fold_right sel d l = d \/ In (fold_right sel d l) l.
Proof.
  intros Hsel. induction l as [|c l IH]; cbn [fold_right]; [left; reflexivity|].
  destruct (Hsel c (fold_right sel d l)) as [E|E]; rewrite E; [right; left; reflexivity|].
  destruct IH as [IH|IH]; [left; exact IH|right; right; exact IH].
Qed.

Lemma fold_right_map_comm {A B} (h : A -> B) (sel : A -> A -> A) (sel' : B -> B -> B) (d : A) (l : list A) :
  (forall c b, sel' (h c) (h b) = h (sel c b)) ->
  fold_right sel' (h d) (map h l) = h (fold_right sel d l).
Proof. intros H. induction l as [|c l IH]; [reflexivity|]. cbn [map fold_right]. rewrite IH. apply H. Qed.

Lemma smallest_common_lt (n : nat) (D : dendrogram) (u v x : nat) :
  In x (smallest_common n D u v) -> x < n.
Proof.
  assert (H : smallest_common n D u v = [] \/
              In (smallest_common n D u v) (filter (fun c => memn u c && memn v c) (tree_clusters n D))).
  { apply fold_right_choice. intros c [|b0 bs]; [left; reflexivity|].
    destruct (Nat.leb (length c) (length (b0 :: bs))); [left|right]; reflexivity. }
  intros Hx. destruct H as [E|Hin]; [rewrite E in Hx; destruct Hx|].
  apply filter_In in Hin. exact (tree_clusters_lt n D _ x (proj1 Hin) Hx).
Qed.

Lemma dasgupta_cost_inv (degree : bool) (n : nat) (G : wgraph) (D : dendrogram) (c : Q) :
  dasgupta_cost degree n G D false = Ok c ->
  exists x, dasgupta_cost degree n G D true = Ok x /\ Qred x = x /\
            c = Qred (x * (if degree then total_weight G else inject_Z (Z.of_nat n)))%Q.
Proof.
  unfold dasgupta_cost. intros H.
  destruct (Nat.eqb (length G) 0); [discriminate|]. destruct (Nat.ltb n 2); [discriminate|].
  destruct (get_sampling_distributions degree n G D) as [sd|e]; [|discriminate].
  injection H as <-. eexists. split; [reflexivity|]. split.
  - generalize (map (fun x : Q * Q * Q => (fst (fst x) * snd x)%Q) sd). intros l.
    destruct l as [|a l]; [reflexivity|]. cbn [qsum fold_right]. apply Qred_complete, Qred_correct.
  - destruct degree; reflexivity.
Qed.

Section DasPerm.
Context (n : nat) (p : list nat) (Hp : Permutation p (seq 0 n)).

Notation rl := (relabel_id n p).
Notation P := (nthn p).

Lemma rl_lt (c : nat) : c < n -> rl c = P c.
Proof. intros H. unfold relabel_id. apply Nat.ltb_lt in H. rewrite H. reflexivity. Qed.

Lemma rl_ge (c : nat) : n <= c -> rl c = c.
Proof. intros H. unfold relabel_id. apply Nat.ltb_ge in H. rewrite H. reflexivity. Qed.

Lemma rl_bound (c m : nat) : n <= m -> (rl c < m <-> c < m).
Proof.
  intros Hm. destruct (Nat.lt_ge_cases c n) as [H|H].
  - rewrite (rl_lt c H). pose proof (perm_lt n p Hp c H). lia.
  - rewrite (rl_ge c H). reflexivity.
Qed.

Lemma rl_inj (a b : nat) : rl a = rl b -> a = b.
Proof.
  intros E. destruct (Nat.lt_ge_cases a n) as [Ha|Ha]; destruct (Nat.lt_ge_cases b n) as [Hb|Hb].
  - rewrite (rl_lt a Ha), (rl_lt b Hb) in E. exact (perm_inj n p Hp a b Ha Hb E).
  - rewrite (rl_lt a Ha), (rl_ge b Hb) in E. pose proof (perm_lt n p Hp a Ha). lia.
  - rewrite (rl_ge a Ha), (rl_lt b Hb) in E. pose proof (perm_lt n p Hp b Hb). lia.
  - rewrite (rl_ge a Ha), (rl_ge b Hb) in E. exact E.
Qed.

Lemma relabel_row_fields (r : drow) :
  r_left (relabel_row n p r) = rl (r_left r) /\ r_right (relabel_row n p r) = rl (r_right r).
Proof. split; reflexivity. Qed.

Lemma relabel_length (D : dendrogram) : length (relabel_dendrogram n p D) = length D.
Proof. apply map_length. Qed.

Lemma relabel_nth_error (D : dendrogram) (t : nat) :
  nth_error (relabel_dendrogram n p D) t = option_map (relabel_row n p) (nth_error D t).
Proof. apply nth_error_map. Qed.

Lemma wsz_relabel (D : dendrogram) (x : nat) :
  wsz n (repeat 1 n) (relabel_dendrogram n p D) (rl x) = wsz n (repeat 1 n) D x.
Proof.
  unfold wsz. destruct (Nat.lt_ge_cases x n) as [H|H].
  - rewrite (rl_lt x H). pose proof (perm_lt n p Hp x H) as H'.
    apply Nat.ltb_lt in H, H'. rewrite H, H'. apply Nat.ltb_lt in H, H'.
    rewrite !nth_repeat_lt_aux by assumption. reflexivity.
  - rewrite (rl_ge x H). apply Nat.ltb_ge in H. rewrite H.
    apply r_size_nth_map. intros r. reflexivity.
Qed.

Lemma relabel_valid (D : dendrogram) :
  valid n D = true -> valid n (relabel_dendrogram n p D) = true.
Proof.
  intros Hv. unfold valid.
  destruct (valid_rows n D Hv) as [Hlen Hrows].
  pose proof (validw_sizes (repeat 1 n) D Hv) as Hsz. rewrite repeat_length in Hsz.
  pose proof (static_validw (repeat 1 n) (relabel_dendrogram n p D)) as Hs.
  rewrite repeat_length, relabel_length in Hs. apply Hs; [exact Hlen|]. clear Hs.
  intros t r' Hr'. rewrite relabel_nth_error in Hr'.
  destruct (nth_error D t) as [r|] eqn:Hr; [|discriminate]. cbn [option_map] in Hr'. injection Hr' as <-.
  destruct (Hrows t r Hr) as (Hne & Hl & Hrr & Hnl & Hnr).
  destruct (relabel_row_fields r) as [El Er]. split.
  - unfold row_ok. rewrite El, Er.
    unfold relabel_dendrogram. rewrite firstn_map.
    rewrite (flat_map_children_map (relabel_row n p) rl _ relabel_row_fields).
    repeat split.
    + intros E. apply Hne. exact (rl_inj _ _ E).
    + apply rl_bound; [lia|exact Hl].
    + apply rl_bound; [lia|exact Hrr].
    + intros Hin. apply in_map_iff in Hin. destruct Hin as [x [E Hx]]. apply rl_inj in E. subst x. exact (Hnl Hx).
    + intros Hin. apply in_map_iff in Hin. destruct Hin as [x [E Hx]]. apply rl_inj in E. subst x. exact (Hnr Hx).
  - rewrite El, Er, !wsz_relabel. exact (Hsz t r Hr).
Qed.

Lemma relabel_ids_lt (D : dendrogram) : ids_lt n D -> ids_lt n (relabel_dendrogram n p D).
Proof.
  intros H t r' Hr'. rewrite relabel_nth_error in Hr'.
  destruct (nth_error D t) as [r|] eqn:Hr; [|discriminate]. cbn [option_map] in Hr'. injection Hr' as <-.
  destruct (H t r Hr) as [H1 H2]. destruct (relabel_row_fields r) as [El Er]. rewrite El, Er.
  split; apply rl_bound; (lia || assumption).
Qed.

Theorem leaves_relabel (D : dendrogram) :
  ids_lt n D ->
  forall c, c < n + length D ->
  leaves n (relabel_dendrogram n p D) (rl c) = map P (leaves n D c).
Proof.
  intros Hids c. induction c as [c IH] using lt_wf_ind. intros Hc.
  destruct (Nat.lt_ge_cases c n) as [H|H].
  - rewrite (rl_lt c H), (leaves_leaf n D c H).
    rewrite leaves_leaf by (apply (perm_lt n p Hp); exact H). reflexivity.
  - rewrite (rl_ge c H). replace c with (n + (c - n)) by lia.
    destruct (nth_error D (c - n)) as [r|] eqn:Hr.
    2:{ apply nth_error_None in Hr. lia. }
    rewrite (leaves_node n D (c - n) r Hids Hr).
    assert (Hr' : nth_error (relabel_dendrogram n p D) (c - n) = Some (relabel_row n p r))
      by (rewrite relabel_nth_error, Hr; reflexivity).
    rewrite (leaves_node n _ (c - n) _ (relabel_ids_lt D Hids) Hr').
    destruct (relabel_row_fields r) as [El Er]. rewrite El, Er.
    destruct (Hids _ _ Hr) as [H1 H2].
    rewrite (IH (r_left r)) by lia. rewrite (IH (r_right r)) by lia.
    rewrite map_app. reflexivity.
Qed.

Theorem tree_clusters_relabel (D : dendrogram) :
  ids_lt n D ->
  tree_clusters n (relabel_dendrogram n p D) = map (map P) (tree_clusters n D).
Proof.
  intros Hids. unfold tree_clusters. rewrite relabel_length, map_map. apply map_ext_in.
  intros t Ht. apply in_seq in Ht.
  rewrite <- (rl_ge (n + t)) at 1 by lia. apply leaves_relabel; [exact Hids|lia].
Qed.

Theorem smallest_common_relabel (D : dendrogram) (u v : nat) :
  ids_lt n D -> u < n -> v < n ->
  smallest_common n (relabel_dendrogram n p D) (P u) (P v) = map P (smallest_common n D u v).
Proof.
  intros Hids Hu Hv. unfold smallest_common. rewrite (tree_clusters_relabel D Hids).
  rewrite (filter_map_comm (map P) _ (fun c => memn u c && memn v c)).
  - apply (fold_right_map_comm (map P) _ _ []). intros c [|b0 bs]; [reflexivity|].
    cbn [map]. change (P b0 :: map P bs) with (map P (b0 :: bs)). rewrite !map_length.
    destruct (Nat.leb (length c) (length (b0 :: bs))); reflexivity.
  - intros c Hc. pose proof (tree_clusters_lt n D c) as Hlt.
    rewrite !(perm_memn_map n p Hp) by (try assumption; intros x Hx; exact (Hlt x Hc Hx)). reflexivity.
Qed.

Definition edges_lt (G : wgraph) : Prop := forall e, In e G -> e_src e < n /\ e_dst e < n.

Lemma e_src_relabel e : e_src (relabel_edge p e) = P (e_src e). Proof. reflexivity. Qed.
Lemma e_dst_relabel e : e_dst (relabel_edge p e) = P (e_dst e). Proof. reflexivity. Qed.
Lemma e_w_relabel e : e_w (relabel_edge p e) = e_w e. Proof. reflexivity. Qed.

Lemma map_e_w_relabel (G : wgraph) : map e_w (map (relabel_edge p) G) = map e_w G.
Proof. rewrite map_map. apply map_ext. intros e. apply e_w_relabel. Qed.

Theorem total_weight_relabel (G : wgraph) : total_weight (relabel_edges p G) = total_weight G.
Proof. unfold total_weight, relabel_edges. rewrite map_e_w_relabel. reflexivity. Qed.

Theorem out_weight_relabel (G : wgraph) (u : nat) :
  edges_lt G -> u < n -> out_weight (relabel_edges p G) (P u) = out_weight G u.
Proof.
  intros HG Hu. unfold out_weight, relabel_edges.
  rewrite (filter_map_comm (relabel_edge p) _ (fun e => Nat.eqb (e_src e) u)).
  - rewrite map_e_w_relabel. reflexivity.
  - intros e He. rewrite e_src_relabel. apply (perm_eqb n p Hp); [apply (HG e He)|exact Hu].
Qed.

Theorem in_weight_relabel (G : wgraph) (v : nat) :
  edges_lt G -> v < n -> in_weight (relabel_edges p G) (P v) = in_weight G v.
Proof.
  intros HG Hv. unfold in_weight, relabel_edges.
  rewrite (filter_map_comm (relabel_edge p) _ (fun e => Nat.eqb (e_dst e) v)).
  - rewrite map_e_w_relabel. reflexivity.
  - intros e He. rewrite e_dst_relabel. apply (perm_eqb n p Hp); [apply (HG e He)|exact Hv].
Qed.

Theorem cluster_measure_relabel (degree : bool) (G : wgraph) (c : list nat) :
  edges_lt G -> (forall x, In x c -> x < n) ->
  cluster_measure degree (relabel_edges p G) (map P c) = cluster_measure degree G c.
Proof.
  intros HG Hc. unfold cluster_measure. destruct degree.
  - rewrite !map_map.
    rewrite (map_ext_in (fun x => out_weight (relabel_edges p G) (P x)) (out_weight G) c)
      by (intros x Hx; apply out_weight_relabel; [exact HG|exact (Hc x Hx)]).
    rewrite (map_ext_in (fun x => in_weight (relabel_edges p G) (P x)) (in_weight G) c)
      by (intros x Hx; apply in_weight_relabel; [exact HG|exact (Hc x Hx)]).
    reflexivity.
  - rewrite map_length. reflexivity.
Qed.

(** The specification is invariant (Leibniz equality: the same rational is built). *)
Theorem dasgupta_spec_invariant (degree : bool) (G : wgraph) (D : dendrogram) :
  ids_lt n D -> edges_lt G ->
  dasgupta_spec degree n (relabel_edges p G) (relabel_dendrogram n p D) = dasgupta_spec degree n G D.
Proof.
  intros Hids HG. unfold dasgupta_spec. rewrite total_weight_relabel. f_equal. f_equal.
  unfold relabel_edges at 2. rewrite map_map. apply map_ext_in. intros e He.
  rewrite e_w_relabel, e_src_relabel, e_dst_relabel.
  destruct (HG e He) as [Hs Hd].
  rewrite (smallest_common_relabel D _ _ Hids Hs Hd).
  rewrite (cluster_measure_relabel degree G _ HG) by (intros x Hx; exact (smallest_common_lt n D _ _ x Hx)).
  reflexivity.
Qed.

Lemma relabel_edges_ok (G : wgraph) :
  (forall e, In e G -> e_src e < n /\ e_dst e < n /\ e_src e <> e_dst e) ->
  forall e, In e (relabel_edges p G) -> e_src e < n /\ e_dst e < n /\ e_src e <> e_dst e.
Proof.
  intros HG e' He'. unfold relabel_edges in He'. apply in_map_iff in He'. destruct He' as [e [<- He]].
  destruct (HG e He) as (Hs & Hd & Hne). rewrite e_src_relabel, e_dst_relabel.
  split; [apply (perm_lt n p Hp); exact Hs|].
  split; [apply (perm_lt n p Hp); exact Hd|].
  intros E. apply Hne. exact (perm_inj n p Hp _ _ Hs Hd E).
Qed.

(** The coded cost, under the premises of its exactness theorem. *)
Section Coded.
Context (degree : bool) (G : wgraph) (D : dendrogram) (Hv : valid n D = true)
        (HG : forall e, In e G -> e_src e < n /\ e_dst e < n /\ e_src e <> e_dst e)
        (Hw : (0 < total_weight G)%Q) (Hn : 2 <= n) (Hne : G <> []).

Theorem dasgupta_invariant :
  exists c,
    dasgupta_cost degree n G D false = Ok c /\
    dasgupta_cost degree n (relabel_edges p G) (relabel_dendrogram n p D) false = Ok c /\
    (c == dasgupta_spec degree n G D)%Q.
Proof.
  destruct (dasgupta_cost_is_spec degree n G D Hv HG Hw Hn Hne) as [c [Hc Ec]].
  assert (Hw' : (0 < total_weight (relabel_edges p G))%Q) by (rewrite total_weight_relabel; exact Hw).
  destruct (dasgupta_cost_is_spec degree n _ _ (relabel_valid D Hv) (relabel_edges_ok G HG) Hw' Hn
              (fun E => Hne (map_eq_nil _ G E))) as [c' [Hc' Ec']].
  rewrite dasgupta_spec_invariant in Ec'
    by (try exact (valid_ids_lt n D Hv); intros e He; destruct (HG e He) as (H1 & H2 & _); split; assumption).
  exists c. split; [exact Hc|]. split; [|exact Ec].
  rewrite Hc'. f_equal.
  destruct (dasgupta_cost_inv _ _ _ _ _ Hc) as [x [_ [_ Ex]]].
  destruct (dasgupta_cost_inv _ _ _ _ _ Hc') as [x' [_ [_ Ex']]].
  rewrite Ex, Ex'. apply Qred_complete. rewrite <- (Qred_correct (x' * _)), <- (Qred_correct (x * _)).
  rewrite <- Ex, <- Ex', Ec, Ec'. reflexivity.
Qed.

Theorem dasgupta_normalized_invariant :
  exists x,
    dasgupta_cost degree n G D true = Ok x /\
    dasgupta_cost degree n (relabel_edges p G) (relabel_dendrogram n p D) true = Ok x.
Proof.
  destruct dasgupta_invariant as [c [Hc [Hc' _]]].
  destruct (dasgupta_cost_inv _ _ _ _ _ Hc) as [x [Hx [Rx Ex]]].
  destruct (dasgupta_cost_inv _ _ _ _ _ Hc') as [x' [Hx' [Rx' Ex']]].
  exists x. split; [exact Hx|]. rewrite Hx'. f_equal.
  rewrite <- Rx, <- Rx'. apply Qred_complete.
  rewrite total_weight_relabel in Ex'.
  set (K := (if degree then total_weight G else inject_Z (Z.of_nat n))%Q) in *.
  assert (HK : (0 < K)%Q) by (unfold K; destruct degree; [exact Hw|apply nQ_pos; exact Hn]).
  assert (E : (x' * K == x * K)%Q).
  { rewrite <- (Qred_correct (x' * K)), <- (Qred_correct (x * K)), <- Ex, <- Ex'. reflexivity. }
  apply (Qmult_inj_r x' x K); [intros E0; rewrite E0 in HK; lra|exact E].
Qed.

Theorem dasgupta_score_invariant :
  exists s,
    dasgupta_score degree n G D = Ok s /\
    dasgupta_score degree n (relabel_edges p G) (relabel_dendrogram n p D) = Ok s.
Proof.
  destruct dasgupta_normalized_invariant as [x [Hx Hx']].
  unfold dasgupta_score. rewrite Hx, Hx'. eexists. split; reflexivity.
Qed.

End Coded.
End DasPerm.

(** Validity is invariant (both directions, through the inverse permutation). *)
Section DasPerm2.
Context (n : nat) (p : list nat) (Hp : Permutation p (seq 0 n)).

Lemma inv_perm_Permutation : Permutation (inv_perm p) (seq 0 n).
Proof.
  unfold inv_perm. rewrite (perm_length n p Hp).
  apply (perm_vec_Permutation n p 0 (seq 0 n) Hp). apply seq_length.
Qed.

Lemma inv_perm_nth (c : nat) : c < n -> nthn (inv_perm p) (nthn p c) = c.
Proof.
  intros H. unfold inv_perm, nthn at 1. rewrite (perm_length n p Hp).
  rewrite (perm_vec_nth n p Hp 0 (seq 0 n) c H). apply seq_nth. exact H.
Qed.

Lemma relabel_id_inverse (c : nat) : relabel_id n (inv_perm p) (relabel_id n p c) = c.
Proof.
  destruct (Nat.lt_ge_cases c n) as [H|H].
  - rewrite (rl_lt n p c H). rewrite rl_lt by (apply (perm_lt n p Hp); exact H).
    apply inv_perm_nth. exact H.
  - rewrite (rl_ge n p c H). apply rl_ge. exact H.
Qed.

Lemma relabel_inverse (D : dendrogram) :
  relabel_dendrogram n (inv_perm p) (relabel_dendrogram n p D) = D.
Proof.
  unfold relabel_dendrogram. rewrite map_map. rewrite <- (map_id D) at 2. apply map_ext.
  intros [[[i j] h] s]. unfold relabel_row. cbn [r_left r_right r_height r_size fst snd].
  rewrite !relabel_id_inverse. reflexivity.
Qed.

Theorem valid_relabel (D : dendrogram) : valid n (relabel_dendrogram n p D) = valid n D.
Proof.
  destruct (valid n D) eqn:E.
  - exact (relabel_valid n p Hp D E).
  - destruct (valid n (relabel_dendrogram n p D)) eqn:E'; [|reflexivity].
    apply (relabel_valid n (inv_perm p) inv_perm_Permutation) in E'.
    rewrite relabel_inverse in E'. congruence.
Qed.

End DasPerm2.
End EqB_Das.

Close Scope Q_scope.
Open Scope nat_scope.

Module EqC.
Import Diffusion DiffusionProofs.

Lemma flat_map_ext_in' {A B} (f g : A -> list B) (l : list A) :
  (forall a, In a l -> f a = g a) -> flat_map f l = flat_map g l.
Proof. intros H. rewrite !flat_map_concat_map. f_equal. apply map_ext_in. exact H. Qed.

Lemma flat_map_map' {A B C} (f : A -> B) (g : B -> list C) (l : list A) :
  flat_map g (map f l) = flat_map (fun a => g (f a)) l.
Proof. rewrite !flat_map_concat_map, map_map. reflexivity. Qed.

Lemma map_flat_map' {A B C} (f : A -> list B) (g : B -> C) (l : list A) :
  map g (flat_map f l) = flat_map (fun a => map g (f a)) l.
Proof. rewrite !flat_map_concat_map, concat_map, map_map. reflexivity. Qed.

Lemma Permutation_flat_map_pointwise {A B} (f g : A -> list B) (l : list A) :
  (forall a, In a l -> Permutation (f a) (g a)) -> Permutation (flat_map f l) (flat_map g l).
Proof.
  induction l as [|a l IH]; intros H; simpl; [constructor|].
  apply Permutation_app; [apply H; left; reflexivity|]. apply IH. intros x Hx. apply H. right. exact Hx.
Qed.

Lemma Forall2_length' {A} (R : A -> A -> Prop) (a b : list A) : Forall2 R a b -> length a = length b.
Proof. intros H; induction H; simpl; auto. Qed.

Lemma Forall2_map' {A B} (R : A -> A -> Prop) (S : B -> B -> Prop) (f g : A -> B) (a b : list A) :
  (forall x y, R x y -> S (f x) (g y)) -> Forall2 R a b -> Forall2 S (map f a) (map g b).
Proof. intros H H2; induction H2; simpl; constructor; auto. Qed.

(** Rows up to the order of the stored entries and [==] on the weights *)

Definition ent_eq (e e' : nat * Q) : Prop := fst e = fst e' /\ (snd e == snd e')%Q.
Definition row_sim (r r' : wrow) : Prop := exists m, Permutation r m /\ Forall2 ent_eq m r'.

Lemma ent_eq_refl e : ent_eq e e.
Proof. split; reflexivity. Qed.

Lemma Forall2_ent_eq_refl r : Forall2 ent_eq r r.
Proof. induction r; constructor; auto using ent_eq_refl. Qed.

Lemma row_sim_refl r : row_sim r r.
Proof. exists r. split; [apply Permutation_refl|apply Forall2_ent_eq_refl]. Qed.

Lemma row_sim_of_Permutation r r' : Permutation r r' -> row_sim r r'.
Proof. intros H. exists r'. split; [exact H|apply Forall2_ent_eq_refl]. Qed.

Lemma row_sim_length r r' : row_sim r r' -> length r = length r'.
Proof.
  intros [m [P F]]. rewrite (Permutation_length P). exact (Forall2_length' _ _ _ F).
Qed.

Lemma row_sim_cons a b r r' : ent_eq a b -> row_sim r r' -> row_sim (a :: r) (b :: r').
Proof.
  intros E [m [P F]]. exists (a :: m). split; [constructor; exact P|constructor; assumption].
Qed.

Lemma row_sim_map (f g : nat * Q -> nat * Q) r r' :
  (forall x y, ent_eq x y -> ent_eq (f x) (g y)) -> row_sim r r' -> row_sim (map f r) (map g r').
Proof.
  intros H [m [P F]]. exists (map f m). split; [apply Permutation_map; exact P|].
  exact (Forall2_map' ent_eq ent_eq f g m r' H F).
Qed.

Lemma sumq_row_sim (f : nat * Q -> Q) r r' :
  (forall x y, ent_eq x y -> (f x == f y)%Q) -> row_sim r r' ->
  (sumq (map f r) == sumq (map f r'))%Q.
Proof.
  intros H [m [P F]].
  rewrite (sumq_Permutation (map f r) (map f m)) by (apply Permutation_map; exact P).
  exact (CutsProofs.sumq_map_Forall2 ent_eq f f m r' H F).
Qed.

Lemma dot_row_sim r r' v : row_sim r r' -> (dot_row r v == dot_row r' v)%Q.
Proof.
  intros H. unfold dot_row. apply sumq_row_sim; [|exact H].
  intros x y [E1 E2]. rewrite E1, E2. reflexivity.
Qed.

Lemma row_norm_sim r r' : row_sim r r' -> (row_norm r == row_norm r')%Q.
Proof.
  intros H. unfold row_norm. apply sumq_row_sim; [|exact H].
  intros x y [_ E2]. rewrite E2. reflexivity.
Qed.

Lemma normalize_row_sim r r' : row_sim r r' -> row_sim (normalize_row r) (normalize_row r').
Proof.
  intros H. pose proof (row_norm_sim r r' H) as En. unfold normalize_row.
  rewrite <- (Qeq_bool_0_ext _ _ En). destruct (Qeq_bool (row_norm r) 0); [apply row_sim_refl|].
  apply row_sim_map; [|exact H].
  intros x y [X1 X2]. split; cbn [fst snd]; [exact X1|]. rewrite X2, En. reflexivity.
Qed.

Definition rows_sim (a b : list wrow) : Prop := Forall2 row_sim a b.

Lemma rows_sim_of_Permutation a b : Forall2 (@Permutation (nat * Q)) a b -> rows_sim a b.
Proof. intros H; induction H; constructor; auto using row_sim_of_Permutation. Qed.

Lemma rows_sim_nth a b i : rows_sim a b -> row_sim (wrow_of a i) (wrow_of b i).
Proof. intros H. unfold wrow_of. apply Forall2_nth_elim; [apply row_sim_refl|exact H]. Qed.

Lemma normalize_rows_sim a b : rows_sim a b -> rows_sim (normalize a) (normalize b).
Proof. intros H; induction H; simpl; constructor; auto using normalize_row_sim. Qed.

(** C01: the product does not see the order of the stored entries (Leibniz, through [Qred]). *)
Lemma matvec_rows_sim a b v : rows_sim a b -> matvec a v = matvec b v.
Proof.
  intros H; induction H as [|r r' a b Hr Hab IH]; simpl; [reflexivity|].
  f_equal; [|exact IH]. apply Qred_complete. apply dot_row_sim. exact Hr.
Qed.

Lemma dirichlet_core_rows_sim n_iter a b border temps :
  rows_sim a b -> dirichlet_core n_iter a border temps = dirichlet_core n_iter b border temps.
Proof.
  intros H. unfold dirichlet_core. apply (EqDen.iterate_comm _ _ (fun v => v)). intros v. unfold dirichlet_step.
  rewrite (matvec_rows_sim (normalize a) (normalize b) v) by (apply normalize_rows_sim; exact H).
  reflexivity.
Qed.

Definition renum (p : list nat) (r : wrow) : wrow := map (fun e : nat * Q => (nthn p (fst e), snd e)) r.

Lemma row_norm_renum p r : row_norm (renum p r) = row_norm r.
Proof. unfold row_norm, renum. rewrite map_map. reflexivity. Qed.

Lemma normalize_row_renum p r : normalize_row (renum p r) = renum p (normalize_row r).
Proof.
  unfold normalize_row. rewrite row_norm_renum. destruct (Qeq_bool (row_norm r) 0); [reflexivity|].
  unfold renum. rewrite !map_map. reflexivity.
Qed.

Lemma normalize_perm p adj : normalize (perm_wrows p adj) = perm_wrows p (normalize adj).
Proof.
  unfold perm_wrows, perm_bip, normalize at 1. rewrite map_map. apply map_ext. intros k.
  change (normalize_row (renum p (nth (index_of k p) adj [])) = renum p (nth (index_of k p) (normalize adj) [])).
  rewrite normalize_row_renum. f_equal. symmetry. apply (wrow_of_normalize adj (index_of k p)).
Qed.

Lemma wf_of_diffusion_wf n rows : wf_rows n rows -> Format.wf_rows n rows.
Proof.
  intros W. unfold Format.wf_rows. apply Forall_forall. intros r Hr. apply Forall_forall. intros e He.
  exact (proj1 (W r e Hr He)).
Qed.

Lemma normalize_row_cols m r :
  Forall (fun e : nat * Q => fst e < m) r -> Forall (fun e : nat * Q => fst e < m) (normalize_row r).
Proof.
  intros W. unfold normalize_row. destruct (Qeq_bool (row_norm r) 0); [constructor|].
  apply Forall_map. exact W.
Qed.

Lemma format_wf_normalize n rows : Format.wf_rows n rows -> Format.wf_rows n (normalize rows).
Proof.
  unfold Format.wf_rows, normalize. intros W. apply Forall_map. revert W. apply Forall_impl.
  intros r. apply normalize_row_cols.
Qed.

Section PermC.
Context (n : nat) (p : list nat) (Hp : Permutation p (seq 0 n)).

Lemma dot_row_renum r v :
  Forall (fun e : nat * Q => fst e < n) r -> dot_row (renum p r) (perm_vecq p v) = dot_row r v.
Proof.
  intros W. unfold dot_row, renum. rewrite map_map. f_equal. apply map_ext_in. intros e He.
  cbn [fst snd]. f_equal. unfold nthq. apply (perm_vec_nth n p Hp).
  rewrite Forall_forall in W. exact (W e He).
Qed.

Lemma wrow_of_perm_inv adj k :
  k < n -> wrow_of (perm_wrows p adj) k = renum p (wrow_of adj (index_of k p)).
Proof. exact (perm_bip_row_inv n p Hp p adj k). Qed.

Lemma wrow_of_perm adj i :
  i < n -> wrow_of (perm_wrows p adj) (nthn p i) = renum p (wrow_of adj i).
Proof. exact (perm_bip_row n p Hp p adj i). Qed.

Lemma format_wf_wrow_of adj i : Format.wf_rows n adj -> Forall (fun e : nat * Q => fst e < n) (wrow_of adj i).
Proof.
  intros W. apply Forall_forall. intros e He. exact (wf_rows_nth n adj i e W He).
Qed.

(** (P A P^T)(P x) = P (A x) for the product that reduces what it stores. *)
Lemma dmatvec_perm (a : list wrow) (x : list Q) :
  Format.wf_rows n a ->
  matvec (perm_wrows p a) (perm_vecq p x) = perm_vecq p (matvec a x).
Proof.
  intros W. unfold matvec at 1, perm_wrows, perm_bip, perm_vecq at 2, perm_vec.
  rewrite map_map. apply map_ext. intros k.
  change (Qred (dot_row (renum p (wrow_of a (index_of k p))) (perm_vecq p x))
          = nth (index_of k p) (matvec a x) 0%Q).
  rewrite dot_row_renum by (apply format_wf_wrow_of; exact W).
  unfold matvec, wrow_of. symmetry.
  exact (map_nth (fun r => Qred (dot_row r x)) a [] (index_of k p)).
Qed.

Lemma clamp_perm border temps w :
  length w = n ->
  clamp (perm_vecb p border) (perm_vecq p temps) (perm_vecq p w) = perm_vecq p (clamp border temps w).
Proof.
  intros Hw. unfold clamp.
  rewrite (perm_vec_length n p Hp 0%Q w : length (perm_vecq p w) = n), Hw.
  apply (perm_vec_tabulate n p Hp). intros i Hi. unfold nthb, nthq, perm_vecb, perm_vecq.
  rewrite !(perm_vec_nth n p Hp) by exact Hi. reflexivity.
Qed.

Theorem dirichlet_step_perm P border temps v :
  length P = n -> Format.wf_rows n P ->
  dirichlet_step (perm_wrows p P) (perm_vecb p border) (perm_vecq p temps) (perm_vecq p v)
  = perm_vecq p (dirichlet_step P border temps v).
Proof.
  intros HL W. unfold dirichlet_step. rewrite dmatvec_perm by exact W.
  apply clamp_perm. rewrite matvec_length. exact HL.
Qed.

Theorem dirichlet_core_perm n_iter adj border temps :
  length adj = n -> Format.wf_rows n adj ->
  dirichlet_core n_iter (perm_wrows p adj) (perm_vecb p border) (perm_vecq p temps)
  = perm_vecq p (dirichlet_core n_iter adj border temps).
Proof.
  intros HL W. unfold dirichlet_core. rewrite normalize_perm.
  apply (EqDen.iterate_comm _ _ (perm_vecq p)). intros v.
  apply dirichlet_step_perm; [rewrite normalize_length; exact HL|apply format_wf_normalize; exact W].
Qed.

End PermC.

(** Row j of the transpose, and row i of the operator, as functions of the index. *)
Definition trow (adj : list wrow) (j : nat) : wrow :=
  flat_map (fun i => map (fun e : nat * Q => (i, snd e))
                         (filter (fun e : nat * Q => Nat.eqb (fst e) j) (wrow_of adj i)))
           (seq 0 (length adj)).
Definition dflt (i : nat) (r : wrow) : wrow := match r with [] => [(i, 1%Q)] | x :: t => x :: t end.
Definition op_row_of (alpha : Q) (i : nat) (t : wrow) : wrow :=
  (i, (1 - alpha)%Q) :: map (fun e : nat * Q => (fst e, (alpha * snd e)%Q)) (dflt i (normalize_row t)).
Definition op_row (alpha : Q) (adj : list wrow) (i : nat) : wrow := op_row_of alpha i (trow adj i).

Lemma diffusion_operator_rows alpha adj :
  diffusion_operator alpha adj = map (op_row alpha adj) (seq 0 (length adj)).
Proof.
  unfold diffusion_operator. apply map_ext_in. intros i Hi. apply in_seq in Hi.
  rewrite wrow_of_normalize.
  change (w_rows (transpose {| w_ncol := length adj; w_rows := adj |}))
    with (map (trow adj) (seq 0 (length adj))).
  unfold wrow_of at 1. rewrite (nth_map_seq (trow adj) (length adj) i []) by lia.
  reflexivity.
Qed.

Lemma wrow_of_diffusion_operator alpha adj i :
  i < length adj -> wrow_of (diffusion_operator alpha adj) i = op_row alpha adj i.
Proof.
  intros Hi. rewrite diffusion_operator_rows. unfold wrow_of.
  exact (nth_map_seq (op_row alpha adj) (length adj) i [] Hi).
Qed.

Lemma trow_cols adj j : Forall (fun e : nat * Q => fst e < length adj) (trow adj j).
Proof.
  apply Forall_forall. intros e He. unfold trow in He. apply in_flat_map in He.
  destruct He as [i [Hi He]]. apply in_seq in Hi. apply in_map_iff in He. destruct He as [e0 [E _]].
  subst e. cbn [fst]. lia.
Qed.

Lemma op_row_cols alpha adj i :
  i < length adj -> Forall (fun e : nat * Q => fst e < length adj) (op_row alpha adj i).
Proof.
  intros Hi. unfold op_row, op_row_of. constructor; [exact Hi|]. apply Forall_map.
  pose proof (normalize_row_cols (length adj) (trow adj i) (trow_cols adj i)) as W.
  unfold dflt. destruct (normalize_row (trow adj i)) as [|x t]; [|exact W].
  constructor; [exact Hi|constructor].
Qed.

Lemma dflt_sim i r r' : row_sim r r' -> row_sim (dflt i r) (dflt i r').
Proof.
  intros H. pose proof (row_sim_length r r' H) as L.
  destruct r as [|x t], r' as [|y t']; simpl in L; try discriminate; [apply row_sim_refl|exact H].
Qed.

Lemma renum_dflt p i r : renum p (dflt i r) = dflt (nthn p i) (renum p r).
Proof. destruct r; reflexivity. Qed.

Lemma renum_op_row_of p alpha i t : renum p (op_row_of alpha i t) = op_row_of alpha (nthn p i) (renum p t).
Proof.
  unfold op_row_of. rewrite normalize_row_renum, <- renum_dflt. unfold renum. cbn [map fst snd].
  rewrite !map_map. reflexivity.
Qed.

Lemma op_row_of_sim alpha i t t' : row_sim t t' -> row_sim (op_row_of alpha i t) (op_row_of alpha i t').
Proof.
  intros H. unfold op_row_of. apply row_sim_cons; [apply ent_eq_refl|].
  apply row_sim_map.
  - intros x y [X1 X2]. split; cbn [fst snd]; [exact X1|]. rewrite X2. reflexivity.
  - apply dflt_sim. apply normalize_row_sim. exact H.
Qed.

(** C01 side: the transpose of a matrix whose rows are stored in another order has its rows in
    another order. *)
Lemma trow_Permutation a b j :
  Forall2 (@Permutation (nat * Q)) a b -> Permutation (trow a j) (trow b j).
Proof.
  intros H. unfold trow. rewrite <- (@Forall2_length' wrow _ a b H).
  apply Permutation_flat_map_pointwise. intros i _.
  apply Permutation_map. apply perm_filter. unfold wrow_of.
  apply (Forall2_nth_elim (@Permutation (nat * Q))); [constructor|exact H].
Qed.

Lemma diffusion_operator_rows_sim alpha a b :
  Forall2 (@Permutation (nat * Q)) a b ->
  rows_sim (diffusion_operator alpha a) (diffusion_operator alpha b).
Proof.
  intros H. rewrite !diffusion_operator_rows. rewrite <- (@Forall2_length' wrow _ a b H).
  unfold rows_sim. apply CentralityProofs.Forall2_map_l. intros i _.
  unfold op_row. apply op_row_of_sim. apply row_sim_of_Permutation. apply trow_Permutation. exact H.
Qed.

Theorem diffusion_core_row_order_irrelevant n_iter alpha rows rows' temps :
  Forall2 (@Permutation (nat * Q)) rows rows' ->
  diffusion_core n_iter alpha rows temps = diffusion_core n_iter alpha rows' temps.
Proof.
  intros H. unfold diffusion_core. apply (EqDen.iterate_comm _ _ (fun v => v)). intros v.
  apply matvec_rows_sim. apply diffusion_operator_rows_sim. exact H.
Qed.

Lemma nnz_row_order (a b : list wrow) :
  Forall2 (@Permutation (nat * Q)) a b -> map (@length (nat * Q)) a = map (@length (nat * Q)) b.
Proof. intros H; induction H as [|x y a b P H IH]; simpl; [reflexivity|]. rewrite IH, (Permutation_length P). reflexivity. Qed.

Lemma transpose_rows_trow m :
  w_rows (transpose m) = map (trow (w_rows m)) (seq 0 (w_ncol m)).
Proof. reflexivity. Qed.

(** What Dirichlet.fit and Diffusion.fit share: the input checks, the start temperatures, then the iteration
    [core] on the adjacency ([dirichlet_fit] and [diffusion_fit] are instances by computation). *)
Definition fit_with (core : list wrow -> list bool -> list Q -> list Q) (n_iter : nat) (m : wmat)
           (values vr vc : option seedsrc) (init : option Q) (fb : bool) : result fit_out :=
  if Nat.eqb n_iter 0 then Err ValueError else
  match get_adjacency_values m fb values vr vc with
  | Err e => Err e
  | Ok (adj, seeds, bipartite) =>
      match init_temperatures seeds init with
      | Err e => Err e
      | Ok (temps, border) => Ok (split_vars bipartite (w_nrow m) (core adj border temps))
      end
  end.

(** C01, whole [fit]: two matrices with the same number of columns whose rows list the same stored entries
    in another order. *)
Section FitRowOrder.
Context (m m' : wmat) (HC : w_ncol m = w_ncol m')
        (H : Forall2 (@Permutation (nat * Q)) (w_rows m) (w_rows m')).

Lemma nrow_row_order : w_nrow m = w_nrow m'.
Proof. exact (@Forall2_length' wrow _ _ _ H). Qed.

Lemma block_undirected_row_order :
  Forall2 (@Permutation (nat * Q)) (block_undirected m) (block_undirected m').
Proof.
  unfold block_undirected. rewrite !transpose_rows_trow, <- HC, <- nrow_row_order. apply Forall2_app.
  - apply (Forall2_map' (@Permutation (nat * Q)) (@Permutation (nat * Q))); [|exact H].
    intros x y P. apply Permutation_map. exact P.
  - apply CentralityProofs.Forall2_map_l. intros j _. apply trow_Permutation. exact H.
Qed.

Lemma gav_row_order fb values vr vc :
  match get_adjacency_values m fb values vr vc, get_adjacency_values m' fb values vr vc with
  | Ok (adj, s, b), Ok (adj', s', b') => Forall2 (@Permutation (nat * Q)) adj adj' /\ s = s' /\ b = b'
  | Err e, Err e' => e = e'
  | _, _ => False
  end.
Proof.
  unfold get_adjacency_values.
  assert (HN : nnz m = nnz m') by (unfold nnz; rewrite (nnz_row_order _ _ H); reflexivity).
  rewrite <- HN, <- nrow_row_order, <- HC. destruct (Nat.eqb (nnz m) 0); [reflexivity|].
  destruct ((match vr, vc with None, None => fb | _, _ => true end) || negb (Nat.eqb (w_nrow m) (w_ncol m))).
  - destruct (match values with
              | None => stack_values (w_nrow m) (w_ncol m) vr vc (-1)%Q
              | Some _ => stack_values (w_nrow m) (w_ncol m) values None (-1)%Q
              end) as [v|e]; [|reflexivity].
    split; [exact block_undirected_row_order|split; reflexivity].
  - destruct (get_values (w_nrow m) values (-1)%Q) as [v|e]; [|reflexivity].
    split; [exact H|split; reflexivity].
Qed.

Theorem fit_row_order_irrelevant core n_iter values vr vc init fb :
  (forall adj adj' border temps,
     Forall2 (@Permutation (nat * Q)) adj adj' -> core adj border temps = core adj' border temps) ->
  fit_with core n_iter m values vr vc init fb = fit_with core n_iter m' values vr vc init fb.
Proof.
  intros Hcore. unfold fit_with. destruct (Nat.eqb n_iter 0); [reflexivity|].
  pose proof (gav_row_order fb values vr vc) as G.
  destruct (get_adjacency_values m fb values vr vc) as [[[adj s] b]|e],
           (get_adjacency_values m' fb values vr vc) as [[[adj' s'] b']|e']; try contradiction.
  - destruct G as [G1 [G2 G3]]. subst s' b'.
    destruct (init_temperatures s init) as [[temps border]|e]; [|reflexivity].
    rewrite (Hcore adj adj' border temps G1), nrow_row_order. reflexivity.
  - subst e'. reflexivity.
Qed.

End FitRowOrder.

Section PermD.
Context (n : nat) (p : list nat) (Hp : Permutation p (seq 0 n)).
Context (adj : list wrow) (HL : length adj = n) (W : Format.wf_rows n adj).

(** Row p(i) of the transpose of P A P^T lists the renumbered entries of row i of the transpose of A
    in another order (the source rows are visited in the new numbering). *)
Lemma trow_perm i :
  i < n -> Permutation (trow (perm_wrows p adj) (nthn p i)) (renum p (trow adj i)).
Proof.
  intros Hi.
  set (G := fun k : nat => map (fun e : nat * Q => (k, snd e))
                              (filter (fun e : nat * Q => Nat.eqb (fst e) i) (wrow_of adj (index_of k p)))).
  assert (E1 : trow (perm_wrows p adj) (nthn p i) = flat_map G (seq 0 n)).
  { unfold trow. rewrite (perm_wrows_length n p Hp). apply flat_map_ext_in'. intros k Hk.
    apply in_seq in Hk. rewrite (wrow_of_perm_inv n p Hp) by lia.
    unfold renum. rewrite Util.filter_map_comm, map_map. cbn [fst snd]. unfold G. f_equal.
    apply filter_ext_in. intros e He. exact (perm_eqb n p Hp _ _ (wf_rows_nth n adj _ e W He) Hi). }
  assert (E2 : renum p (trow adj i) = flat_map G p).
  { rewrite <- (perm_map_seq n p Hp) at 2. rewrite flat_map_map'. unfold renum, trow. rewrite map_flat_map', HL.
    apply flat_map_ext_in'. intros k Hk. apply in_seq in Hk. rewrite map_map. cbn [fst snd].
    unfold G. rewrite (perm_index_of n p Hp) by lia. reflexivity. }
  rewrite E1, E2. apply Permutation_flat_map. apply Permutation_sym. exact Hp.
Qed.

Lemma op_row_perm alpha i :
  i < n -> row_sim (op_row alpha (perm_wrows p adj) (nthn p i)) (renum p (op_row alpha adj i)).
Proof.
  intros Hi. unfold op_row. rewrite renum_op_row_of. apply op_row_of_sim. apply row_sim_of_Permutation.
  apply trow_perm. exact Hi.
Qed.

Theorem diffusion_matvec_perm alpha v :
  matvec (diffusion_operator alpha (perm_wrows p adj)) (perm_vecq p v)
  = perm_vecq p (matvec (diffusion_operator alpha adj) v).
Proof.
  rewrite !diffusion_operator_rows, (perm_wrows_length n p Hp), HL.
  unfold matvec. rewrite !map_map. apply (perm_vec_tabulate n p Hp). intros i Hi.
  apply Qred_complete. rewrite (dot_row_sim _ _ (perm_vecq p v) (op_row_perm alpha i Hi)).
  rewrite (dot_row_renum n p Hp); [reflexivity|].
  rewrite <- HL. apply op_row_cols. lia.
Qed.

Theorem diffusion_core_perm n_iter alpha temps :
  diffusion_core n_iter alpha (perm_wrows p adj) (perm_vecq p temps)
  = perm_vecq p (diffusion_core n_iter alpha adj temps).
Proof.
  unfold diffusion_core. apply (EqDen.iterate_comm _ _ (perm_vecq p)). apply diffusion_matvec_perm.
Qed.

End PermD.


Definition perm_wmat (p : list nat) (m : wmat) : wmat :=
  {| w_ncol := w_ncol m; w_rows := perm_wrows p (w_rows m) |}.

Lemma gav_square m l :
  w_nrow m = w_ncol m ->
  get_adjacency_values m false (Some (SArray l)) None None =
  if Nat.eqb (nnz m) 0 then Err ValueError
  else if Nat.eqb (length l) (w_nrow m) then Ok (w_rows m, l, false) else Err ValueError.
Proof.
  intros H. unfold get_adjacency_values. destruct (Nat.eqb (nnz m) 0); [reflexivity|].
  rewrite <- H, Nat.eqb_refl. cbn [negb orb]. unfold get_values.
  destruct (Nat.eqb (length l) (w_nrow m)); reflexivity.
Qed.

Lemma qmean_Permutation u v : Permutation u v -> qmean u = qmean v.
Proof.
  intros H. unfold qmean. rewrite (Permutation_length H). apply Qred_complete.
  rewrite (sumq_Permutation u v H). reflexivity.
Qed.

Lemma init_temperatures_intro seeds init t0 :
  match init with
  | Some t => t0 = t
  | None => filter is_seed seeds <> [] /\ t0 = qmean (filter is_seed seeds)
  end ->
  init_temperatures seeds init
  = Ok (map (fun x => if is_seed x then x else t0) seeds, map is_seed seeds).
Proof.
  unfold init_temperatures. destruct init as [t|].
  - intros E. subst t0. reflexivity.
  - intros [Hne E]. destruct (filter is_seed seeds) as [|x sv] eqn:F; [contradiction|].
    subst t0. reflexivity.
Qed.

Section PermF.
Context (n : nat) (p : list nat) (Hp : Permutation p (seq 0 n)).

Lemma nnz_perm m : w_nrow m = n -> nnz (perm_wmat p m) = nnz m.
Proof.
  intros HL. unfold nnz, perm_wmat. cbn [w_rows].
  apply Util.sumn_perm. exact (perm_wrows_row_lengths n p (w_rows m) Hp HL).
Qed.

(** The start temperatures of the renumbered seeds are the renumbered start temperatures (the mean of
    the seeds is a reduced sum over a permutation of the same list). *)
Theorem init_temperatures_perm seeds init temps border :
  length seeds = n ->
  init_temperatures seeds init = Ok (temps, border) ->
  init_temperatures (perm_vecq p seeds) init = Ok (perm_vecq p temps, perm_vecb p border).
Proof.
  intros HL E. apply init_temperatures_spec in E. destruct E as [t0 [Eb [Et Ht0]]].
  assert (PF : Permutation (filter is_seed (perm_vecq p seeds)) (filter is_seed seeds)).
  { apply perm_filter. apply (perm_vec_Permutation n); assumption. }
  rewrite (init_temperatures_intro (perm_vecq p seeds) init t0).
  - subst temps border. unfold perm_vecq, perm_vecb.
    rewrite (map_perm n p Hp (fun x => if is_seed x then x else t0) 0%Q 0%Q seeds HL).
    rewrite (map_perm n p Hp is_seed 0%Q false seeds HL). reflexivity.
  - destruct init as [t|]; [exact Ht0|]. destruct Ht0 as [Hne Et0]. split.
    + intros En. rewrite En in PF. apply Permutation_nil in PF. exact (Hne PF).
    + rewrite Et0. symmetry. apply qmean_Permutation. exact PF.
Qed.

Theorem fit_perm core n_iter m l init v :
  (forall adj border temps, length adj = n -> Format.wf_rows n adj ->
     core (perm_wrows p adj) (perm_vecb p border) (perm_vecq p temps) = perm_vecq p (core adj border temps)) ->
  w_nrow m = n -> w_ncol m = n -> Format.wf_rows n (w_rows m) ->
  fit_with core n_iter m (Some (SArray l)) None None init false = Ok (v, None) ->
  fit_with core n_iter (perm_wmat p m) (Some (SArray (perm_vecq p l))) None None init false
  = Ok (perm_vecq p v, None).
Proof.
  intros Hcore HR HC W. unfold fit_with. destruct (Nat.eqb n_iter 0); [discriminate|].
  assert (HR' : w_nrow (perm_wmat p m) = n) by (exact (perm_wrows_length n p Hp (w_rows m))).
  rewrite !gav_square by (try rewrite HR'; try rewrite HR; symmetry; exact HC).
  rewrite (nnz_perm m HR), HR', HR. unfold perm_vecq at 1. rewrite (perm_vec_length n p Hp).
  rewrite Nat.eqb_refl. destruct (Nat.eqb (nnz m) 0); [discriminate|].
  destruct (Nat.eqb (length l) n) eqn:EL; [|discriminate]. apply Nat.eqb_eq in EL.
  destruct (init_temperatures l init) as [[temps border]|e] eqn:EI; [|discriminate].
  rewrite (init_temperatures_perm l init temps border EL EI).
  unfold split_vars. intros E. inversion E. cbn [perm_wmat w_rows].
  rewrite (Hcore (w_rows m) border temps HR W). reflexivity.
Qed.

End PermF.

Section PermH.
Context (n : nat) (p : list nat) (Hp : Permutation p (seq 0 n)).

Theorem harmonic_perm (adj : list wrow) border temps f :
  length adj = n -> Format.wf_rows n adj ->
  harmonic adj border temps f ->
  harmonic (perm_wrows p adj) (perm_vecb p border) (perm_vecq p temps) (perm_vecq p f).
Proof.
  intros HL W [Hlen H]. split.
  - unfold perm_vecq. rewrite (perm_vec_length n p Hp), (perm_wrows_length n p Hp). reflexivity.
  - rewrite (perm_wrows_length n p Hp). intros k Hk.
    pose proof (perm_index_lt n p Hp k Hk) as Hi.
    specialize (H (index_of k p)). rewrite HL in H. specialize (H Hi).
    unfold nthb, nthq, perm_vecb, perm_vecq in *.
    rewrite !(perm_vec_nth_inv n p Hp) by exact Hk.
    rewrite (wrow_of_perm_inv n p Hp) by exact Hk.
    rewrite normalize_row_renum.
    change (perm_vec 0%Q p f) with (perm_vecq p f).
    rewrite (dot_row_renum n p Hp)
      by (apply normalize_row_cols; apply (format_wf_wrow_of n); exact W).
    exact H.
Qed.

Lemma edge_perm (adj : list wrow) i j :
  i < n -> edge adj i j -> edge (perm_wrows p adj) (nthn p i) (nthn p j).
Proof.
  intros Hi [w [Hin Hw]]. exists w. split; [|exact Hw].
  rewrite (wrow_of_perm n p Hp) by exact Hi. unfold renum.
  apply in_map_iff. exists (j, w). split; [reflexivity|exact Hin].
Qed.

(** Transport of the hypotheses of the uniqueness theorems (C14) to the renumbered graph. *)
Section Graph.
Context (adj : list wrow) (HL : length adj = n) (W : wf_rows n adj).

Lemma diffusion_wf_perm : wf_rows n (perm_wrows p adj).
Proof.
  intros r e Hr He. unfold perm_wrows, perm_bip in Hr. apply in_map_iff in Hr.
  destruct Hr as [k [E _]]. subst r. apply in_map_iff in He. destruct He as [e0 [E He0]]. subst e.
  cbn [fst snd]. pose proof (wf_rows_wrow_of n adj (index_of k p) e0 W He0) as [H1 H2].
  split; [apply (perm_lt n p Hp); exact H1|exact H2].
Qed.

Lemma path_perm i j : i < n -> path adj i j -> path (perm_wrows p adj) (nthn p i) (nthn p j).
Proof.
  intros Hi P. induction P as [i|i j k E P IH]; [apply path_refl|].
  apply (path_step _ _ (nthn p j)); [apply edge_perm; assumption|].
  apply IH. destruct E as [w [Hin _]].
  exact (proj1 (wf_rows_wrow_of n adj i (j, w) W Hin)).
Qed.

Lemma connected_perm : connected adj -> connected (perm_wrows p adj).
Proof.
  intros C k l Hk Hl. rewrite (perm_wrows_length n p Hp) in Hk, Hl.
  rewrite <- (perm_index_nth n p Hp k Hk), <- (perm_index_nth n p Hp l Hl).
  pose proof (perm_index_lt n p Hp k Hk) as Hi.
  pose proof (perm_index_lt n p Hp l Hl) as Hj.
  apply path_perm; [exact Hi|]. apply C; rewrite HL; assumption.
Qed.

Lemma reaches_border_perm border :
  reaches_border adj border -> reaches_border (perm_wrows p adj) (perm_vecb p border).
Proof.
  intros R k Hk. rewrite (perm_wrows_length n p Hp) in *.
  pose proof (perm_index_lt n p Hp k Hk) as Hi.
  destruct (R (index_of k p)) as [b [Hb [Bb Pb]]]; [rewrite HL; exact Hi|]. rewrite HL in Hb.
  exists (nthn p b). split; [apply (perm_lt n p Hp); exact Hb|]. split.
  - unfold nthb, perm_vecb. rewrite (perm_vec_nth n p Hp) by exact Hb. exact Bb.
  - rewrite <- (perm_index_nth n p Hp k Hk) at 1. apply path_perm; assumption.
Qed.

(** The harmonic solution of the renumbered problem is the renumbered harmonic solution
    (hypotheses on the ORIGINAL graph only). *)
Theorem harmonic_solution_perm_reach border temps h g :
  reaches_border adj border ->
  harmonic adj border temps h ->
  harmonic (perm_wrows p adj) (perm_vecb p border) (perm_vecq p temps) g ->
  forall k, k < n -> (nthq g k == nthq (perm_vecq p h) k)%Q.
Proof.
  intros R Hh Hg k Hk.
  apply (harmonic_unique_reach (perm_wrows p adj) (perm_vecb p border) (perm_vecq p temps) g (perm_vecq p h)).
  - rewrite (perm_wrows_length n p Hp). exact diffusion_wf_perm.
  - apply reaches_border_perm. exact R.
  - exact Hg.
  - apply (harmonic_perm adj); [exact HL|apply wf_of_diffusion_wf; exact W|exact Hh].
  - rewrite (perm_wrows_length n p Hp). exact Hk.
Qed.

End Graph.
End PermH.

End EqC.

(** The vote kernel (classification/vote.pyx) and the order of the stored entries *)
Module EqC_Vote.
Import Vote VoteProofs.

(** Two strictly increasing lists with the same elements are equal (std::set is canonical). *)
Lemma ssorted_ext (s t : list nat) :
  StronglySorted lt s -> StronglySorted lt t -> (forall x, In x s <-> In x t) -> s = t.
Proof.
  revert t; induction s as [|a s IH]; intros [|b t] Hs Ht H.
  - reflexivity.
  - exfalso. apply (proj2 (H b)). left. reflexivity.
  - exfalso. apply (proj1 (H a)). left. reflexivity.
  - inversion Hs as [|? ? Hs' Ha]; subst. inversion Ht as [|? ? Ht' Hb]; subst.
    rewrite Forall_forall in Ha, Hb.
    assert (E : a = b).
    { destruct (proj1 (H a) (or_introl eq_refl)) as [E|Hin]; [symmetry; exact E|].
      destruct (proj2 (H b) (or_introl eq_refl)) as [E|Hin2]; [exact E|].
      specialize (Ha _ Hin2). specialize (Hb _ Hin). lia. }
    subst b. f_equal. apply IH; [exact Hs'|exact Ht'|].
    intros x. split; intros Hx.
    + destruct (proj1 (H x) (or_intror Hx)) as [E|Hin]; [|exact Hin]. specialize (Ha _ Hx). lia.
    + destruct (proj2 (H x) (or_intror Hx)) as [E|Hin]; [|exact Hin]. specialize (Hb _ Hx). lia.
Qed.

Definition veq (v1 v2 : list Q) : Prop := length v1 = length v2 /\ forall l, (nthq v1 l == nthq v2 l)%Q.

Lemma veq_refl v : veq v v.
Proof. split; [reflexivity|]. intros l. reflexivity. Qed.

Lemma veq_upd v1 v2 l x y : veq v1 v2 -> (x == y)%Q -> veq (upd v1 l x) (upd v2 l y).
Proof.
  intros [HL HE] Hxy. split; [rewrite !upd_length; exact HL|].
  intros k. destruct (Nat.eq_dec l k) as [E|Ne].
  - subst k. destruct (Nat.lt_ge_cases l (length v1)) as [Hlt|Hge].
    + unfold nthq. rewrite !nth_upd_same by lia. exact Hxy.
    + unfold nthq. rewrite !nth_overflow by (rewrite upd_length; lia). reflexivity.
  - unfold nthq. rewrite !nth_upd_other by exact Ne. apply HE.
Qed.

Lemma gather_idx kv indices data labels js : forall ln vn r,
  gather kv indices data labels js ln vn = VOk r -> Forall (fun j => j < length indices) js.
Proof.
  induction js as [|j t IH]; intros ln vn r H; simpl in H; [constructor|].
  destruct (nth_error indices j) as [jj|] eqn:E1; [|discriminate].
  destruct (nth_error labels jj) as [l|] eqn:E2; [|discriminate].
  destruct (nth_error data (if wpos kv then j else jj)) as [w|] eqn:E3; [|discriminate].
  constructor; [eapply nth_error_lt; exact E1|]. eapply IH. exact H.
Qed.

Lemma gather_total kv indices data labels js : forall ln vn,
  Forall (fun j => j < length indices /\ nthn indices j < length labels /\
                   (if wpos kv then j else nthn indices j) < length data) js ->
  exists r, gather kv indices data labels js ln vn = VOk r.
Proof.
  induction js as [|j t IH]; intros ln vn F; simpl; [eexists; reflexivity|].
  inversion F as [|? ? [A [B C]] F']; subst. unfold nthn in B, C.
  rewrite (nth_error_nth' indices 0 A), (nth_error_nth' labels 0%Z B), (nth_error_nth' data 0%Q C).
  apply IH. exact F'.
Qed.

Lemma tally_dom ln : forall p vn uniq votes r,
  tally ln p vn uniq votes = VOk r ->
  forall l, In l ln -> (0 <= l)%Z -> Z.to_nat l < length votes.
Proof.
  induction ln as [|x t IH]; intros p vn uniq votes r H l Hl Hpos; [destruct Hl|]. simpl in H.
  destruct (x <? 0)%Z eqn:Ex.
  - destruct Hl as [E|Hl]; [subst x; apply Z.ltb_lt in Ex; lia|]. exact (IH _ _ _ _ _ H l Hl Hpos).
  - destruct (nth_error vn p) as [w|] eqn:E1; [|discriminate].
    destruct (nth_error votes (Z.to_nat x)) as [v|] eqn:E2; [|discriminate].
    destruct Hl as [E|Hl]; [subst x; eapply nth_error_lt; exact E2|].
    pose proof (IH _ _ _ _ _ H l Hl Hpos) as Hlt. rewrite upd_length in Hlt. exact Hlt.
Qed.

Lemma tally_total ln : forall p vn uniq votes,
  (forall l, In l ln -> (0 <= l)%Z -> Z.to_nat l < length votes) -> p + length ln <= length vn ->
  exists r, tally ln p vn uniq votes = VOk r.
Proof.
  induction ln as [|x t IH]; intros p vn uniq votes Hd Hlen; simpl; [eexists; reflexivity|].
  simpl in Hlen. destruct (x <? 0)%Z eqn:Ex.
  - apply IH; [|lia]. intros l Hl. apply Hd. right. exact Hl.
  - assert (A : p < length vn) by lia.
    assert (B : Z.to_nat x < length votes) by (apply Hd; [left; reflexivity|apply Z.ltb_ge; exact Ex]).
    rewrite (nth_error_nth' vn 0%Q A), (nth_error_nth' votes 0%Q B).
    apply IH; [|lia]. intros l Hl Hpos. rewrite upd_length. apply Hd; [right; exact Hl|exact Hpos].
Qed.

(** The arg-max loop only compares ([<=] on Q): it does not see the representation of the counters. *)
Lemma select_veq uniq : forall i b1 b2 labels v1 v2 lab' v1',
  veq v1 v2 -> (b1 == b2)%Q -> select uniq i b1 labels v1 = VOk (lab', v1') ->
  exists v2', select uniq i b2 labels v2 = VOk (lab', v2') /\ veq v1' v2'.
Proof.
  induction uniq as [|l t IH]; intros i b1 b2 labels v1 v2 lab' v1' HV Hb H; simpl in H |- *.
  - inversion H; subst. eexists. split; [reflexivity|exact HV].
  - destruct (nth_error v1 l) as [x|] eqn:E1; [|discriminate].
    assert (Hlt : l < length v2) by (rewrite <- (proj1 HV); eapply nth_error_lt; exact E1).
    rewrite (nth_error_nth' v2 0%Q Hlt). fold (nthq v2 l).
    assert (Hx : (x == nthq v2 l)%Q) by (rewrite <- (proj2 HV l), (nth_error_nthq _ _ _ E1); reflexivity).
    assert (Eb : Qle_bool x b1 = Qle_bool (nthq v2 l) b2) by (rewrite Hx, Hb; reflexivity).
    rewrite <- Eb. destruct (Qle_bool x b1).
    + apply (IH i b1 b2 labels (upd v1 l 0%Q)); [apply veq_upd; [exact HV|reflexivity]|exact Hb|exact H].
    + destruct (i <? length labels); [|discriminate].
      apply (IH i x (nthq v2 l) _ (upd v1 l 0%Q)); [apply veq_upd; [exact HV|reflexivity]|exact Hx|exact H].
Qed.

(** The votes of a label are a sum over the neighbourhood: invariant under its rearrangements. *)
Lemma total_vote_Permutation nb nb' labels z :
  Permutation nb nb' -> (total_vote nb labels z == total_vote nb' labels z)%Q.
Proof.
  intros H. unfold total_vote. apply sumq_Permutation. apply Permutation_map. exact H.
Qed.

(** Two CSR matrices with the same [indptr] whose row i stores the same (neighbour, weight) pairs. *)
Definition same_row (indptr indices indices' : list nat) (data data' : list Q) (i : nat) : Prop :=
  Permutation (nbrs_weighted indptr indices data i) (nbrs_weighted indptr indices' data' i).

Definition st_eq (s1 s2 : vstate) : Prop :=
  fst (fst s1) = fst (fst s2) /\ veq (snd (fst s1)) (snd (fst s2)).

Section Kernel.
Context (kv : kvariant) (Hclr : clr kv = true) (Hwpos : wpos kv = true).
Context (indptr indices indices' : list nat) (data data' : list Q).
Context (HLi : length indices = length indices') (HLd : length data = length data').

Lemma vote_node_transfer i st1 st2 st1' :
  same_row indptr indices indices' data data' i ->
  st_eq st1 st2 ->
  vote_node kv indptr indices data i st1 = VOk st1' ->
  exists st2', vote_node kv indptr indices' data' i st2 = VOk st2' /\ st_eq st1' st2'.
Proof.
  intros HP HS H.
  destruct st1 as [[labels votes] vn], st2 as [[labels2 votes2] vn2].
  destruct HS as [HSl HV]. cbn [fst snd] in HSl, HV. subst labels2.
  unfold vote_node in H |- *.
  destruct (nth_error indptr i) as [a|] eqn:Ea; [|discriminate].
  destruct (nth_error indptr (S i)) as [b|] eqn:Eb; [|discriminate].
  rewrite Hclr in H |- *.
  destruct (gather kv indices data labels (seq a (b - a)) [] []) as [[ln ws]|] eqn:Eg; [|discriminate].
  destruct (tally ln 0 ws [] votes) as [[uniq votes0]|] eqn:Et; [|discriminate].
  destruct (select uniq i (-1)%Q labels votes0) as [[lab1 votes1]|] eqn:Es; [|discriminate].
  inversion H; subst st1'. clear H.
  assert (Hrr : seq a (b - a) = row_range indptr i).
  { unfold row_range. rewrite (nth_error_nthn _ _ _ Ea), (nth_error_nthn _ _ _ Eb). reflexivity. }
  rewrite Hrr in Eg |- *. set (js := row_range indptr i) in *.
  unfold same_row, nbrs_weighted in HP. fold js in HP.
  pose proof (gather_idx _ _ _ _ _ _ _ _ Eg) as Gi.
  apply gather_ok in Eg. destruct Eg as [G1 [G2 G3]]. rewrite Hwpos in G2, G3. cbn [app] in G1, G2.
  (* the other matrix stays within bounds too *)
  assert (F2 : Forall (fun j => j < length indices' /\ nthn indices' j < length labels /\
                                (if wpos kv then j else nthn indices' j) < length data') js).
  { rewrite Hwpos. rewrite Forall_forall in Gi, G3 |- *. intros j Hj.
    split; [rewrite <- HLi; apply Gi; exact Hj|]. split; [|rewrite <- HLd; apply (G3 j Hj)].
    assert (Hin : In (nthn indices' j, nthq data' j) (map (fun j0 => (nthn indices j0, nthq data j0)) js)).
    { apply (Permutation_in _ (Permutation_sym HP)). apply in_map_iff. exists j. split; [reflexivity|exact Hj]. }
    apply in_map_iff in Hin. destruct Hin as [j0 [E Hj0]]. injection E as E1 E2.
    rewrite <- E1. apply (G3 j0 Hj0). }
  destruct (gather_total kv indices' data' labels js [] [] F2) as [[ln2 ws2] Eg2].
  rewrite Eg2. apply gather_ok in Eg2. destruct Eg2 as [G1' [G2' _]]. rewrite Hwpos in G2'. cbn [app] in G1', G2'.
  (* labels of the neighbours: a rearrangement *)
  assert (PL : Permutation ln ln2).
  { subst ln ln2. pose proof (Permutation_map (fun q : nat * Q => nthz labels (fst q)) HP) as PM.
    rewrite !map_map in PM. exact PM. }
  assert (T2 : exists r, tally ln2 0 ws2 [] votes2 = VOk r).
  { apply tally_total.
    - intros l Hl Hpos. rewrite <- (proj1 HV). apply (tally_dom _ _ _ _ _ _ Et l); [|exact Hpos].
      apply (Permutation_in _ (Permutation_sym PL)). exact Hl.
    - subst ln2 ws2. rewrite !map_length. lia. }
  destruct T2 as [[uniq2 votes02] Et2]. rewrite Et2.
  apply tally_ok in Et. destruct Et as [T1 [T3 T4]].
  apply tally_ok in Et2. destruct Et2 as [T1' [T3' T4']]. cbn [skipn] in T3, T3'.
  assert (Eu : uniq2 = uniq).
  { subst uniq uniq2. apply ssorted_ext; try (apply uniq_of_sorted; constructor).
    intros x. rewrite !uniq_of_In. split; intros [Hx|Hx]; try (destruct Hx); right.
    - apply (Permutation_in _ (Permutation_sym PL)). exact Hx.
    - apply (Permutation_in _ PL). exact Hx. }
  rewrite Eu. clear Eu T4'.
  assert (HV0 : veq votes0 votes02).
  { split; [rewrite T1, T1'; exact (proj1 HV)|]. intros l. rewrite T3, T3', (proj2 HV l).
    subst ln ws ln2 ws2. rewrite !wsum_map.
    rewrite <- (total_vote_map (nthn indices) (nthq data) js labels (Z.of_nat l)).
    rewrite <- (total_vote_map (nthn indices') (nthq data') js labels (Z.of_nat l)).
    rewrite (total_vote_Permutation _ _ labels (Z.of_nat l) HP). reflexivity. }
  destruct (select_veq uniq i (-1)%Q (-1)%Q labels votes0 votes02 lab1 votes1 HV0 ltac:(reflexivity) Es)
    as [votes12 [Es2 HV1]].
  rewrite Es2. eexists. split; [reflexivity|]. split; [reflexivity|exact HV1].
Qed.

Lemma vote_loop_transfer index : forall st1 st2 st1',
  (forall i, In i index -> same_row indptr indices indices' data data' i) ->
  st_eq st1 st2 ->
  vote_loop kv indptr indices data index st1 = VOk st1' ->
  exists st2', vote_loop kv indptr indices' data' index st2 = VOk st2' /\ st_eq st1' st2'.
Proof.
  induction index as [|i t IH]; intros st1 st2 st1' HP HS H; cbn [vote_loop] in H |- *.
  - inversion H; subst. eexists. split; [reflexivity|exact HS].
  - destruct (vote_node kv indptr indices data i st1) as [s1|] eqn:En; [|discriminate].
    destruct (vote_node_transfer i st1 st2 s1 (HP i (or_introl eq_refl)) HS En) as [s2 [En2 HS2]].
    rewrite En2. apply (IH s1 s2 st1'); [|exact HS2|exact H].
    intros k Hk. apply HP. right. exact Hk.
Qed.

Theorem vote_update_transfer labels index labels' :
  (forall i, In i index -> same_row indptr indices indices' data data' i) ->
  vote_update kv indptr indices data labels index = VOk labels' ->
  vote_update kv indptr indices' data' labels index = VOk labels'.
Proof.
  intros HP H. unfold vote_update in H |- *.
  destruct (vote_loop kv indptr indices data index (labels, repeat 0%Q (votes_size kv labels), []))
    as [[[l1 v1] n1]|] eqn:EL; [|discriminate].
  inversion H; subst l1. clear H.
  destruct (vote_loop_transfer index _ (labels, repeat 0%Q (votes_size kv labels), []) _ HP
              (conj eq_refl (veq_refl _)) EL) as [[[l2 v2] n2] [EL2 [HS _]]].
  rewrite EL2. cbn [fst snd] in HS. subst l2. reflexivity.
Qed.

End Kernel.

End EqC_Vote.
