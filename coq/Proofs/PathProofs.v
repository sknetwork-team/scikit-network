(** Chains and simple cycles of a relation ([chain], [simple_cycle] of Model/Cycles.v), simple paths, and what the
    traversals of get_cycles and break_cycles share: the path bookkeeping, the labels of a component,
    is_acyclic on directed graphs. *)
From SKN Require Import Base.Util Model.Bfs Model.Structure Model.Cycles Proofs.BfsProofs Proofs.StructureProofs.
From Coq Require Import Permutation.

(** * Chains, suffixes, rotations *)

Lemma NoDup_app_r {A} (l l' : list A) : NoDup (l ++ l') -> NoDup l'.
Proof. induction l as [|x t IH]; simpl; auto. intros H. inversion H; auto. Qed.

Lemma NoDup_app_intro {A} (l l' : list A) :
  NoDup l -> NoDup l' -> (forall x, In x l -> In x l' -> False) -> NoDup (l ++ l').
Proof.
  induction l as [|x t IH]; simpl; auto. intros H1 H2 H3. inversion H1; subst.
  constructor.
  - intros Hin. apply in_app_or in Hin. destruct Hin as [Hin|Hin]; [contradiction|]. eapply H3; eauto.
  - apply IH; auto. intros y Hy Hy'. eapply H3; eauto.
Qed.

Lemma chain_cons E x t : chain E (x :: t) <-> (t <> [] -> E x (hd 0 t)) /\ chain E t.
Proof.
  simpl. destruct t as [|y t']; simpl; split; intros [A B]; split; auto.
  - intros H; congruence.
  - apply A. discriminate.
Qed.

Lemma chain_app E a b :
  chain E (a ++ b) <-> chain E a /\ chain E b /\ (a <> [] -> b <> [] -> E (last a 0) (hd 0 b)).
Proof.
  induction a as [|x t IH]; [simpl; intuition congruence|].
  rewrite <- app_comm_cons, !chain_cons, IH.
  destruct t as [|y t']; cbn [app hd last]; intuition (try discriminate).
Qed.

Lemma last_app_cons {A} (a : list A) x b d : last (a ++ x :: b) d = last (x :: b) d.
Proof.
  induction a as [|y t IH]; [reflexivity|].
  change ((y :: t) ++ x :: b) with (y :: (t ++ x :: b)).
  destruct (t ++ x :: b) as [|z l] eqn:E; [destruct t; discriminate|].
  change (last (y :: z :: l) d) with (last (z :: l) d). exact IH.
Qed.

Lemma last_In {A} (l : list A) d : l <> [] -> In (last l d) l.
Proof.
  induction l as [|x t IH]; [congruence|]. intros _. destruct t as [|y t']; [left; reflexivity|].
  right. apply IH. discriminate.
Qed.

Lemma hd_In_nonempty (l : list nat) : l <> [] -> In (hd 0 l) l.
Proof. destruct l; [congruence | left; reflexivity]. Qed.

Lemma index_of_split (v : nat) (l : list nat) :
  In v l -> exists pre suf, l = pre ++ v :: suf /\ skipn (index_of v l) l = v :: suf /\
                            firstn (index_of v l) l = pre /\ ~ In v pre.
Proof.
  induction l as [|y t IH]; [intros []|]. intros H. simpl.
  destruct (Nat.eqb_spec v y) as [E|E].
  - subst y. exists [], t. simpl. auto.
  - destruct H as [H|H]; [congruence|]. destruct (IH H) as [pre [suf [H1 [H2 [H3 H4]]]]].
    exists (y :: pre), suf. simpl. rewrite H2, H3. split; [f_equal; exact H1|].
    split; auto. split; auto. intros [A|A]; [congruence | contradiction].
Qed.

Lemma rot_perm (k : nat) (c : list nat) : Permutation (rot k c) c.
Proof.
  unfold rot. rewrite <- (firstn_skipn k c) at 3. apply Permutation_app_comm.
Qed.

Lemma rot_length k c : length (rot k c) = length c.
Proof. apply Permutation_length. apply rot_perm. Qed.

Lemma simple_cycle_rot E k c : simple_cycle E c -> simple_cycle E (rot k c).
Proof.
  intros [Hne [Hnd Hch]]. unfold rot.
  pose proof (firstn_skipn k c) as F.
  destruct (firstn k c) as [|a0 a'] eqn:Ea.
  { rewrite app_nil_r. simpl in F. rewrite F. split; [|split]; assumption. }
  destruct (skipn k c) as [|b0 b'] eqn:Eb.
  { rewrite app_nil_r in F. simpl. rewrite F. split; [|split]; assumption. }
  rewrite <- F in Hnd, Hch.
  split; [discriminate|]. split; [eapply Permutation_NoDup; [apply Permutation_app_comm | exact Hnd]|].
  (* both closed chains split into the same two chains and the same two links *)
  rewrite <- app_assoc in *. rewrite !chain_app in *. cbn [hd app] in *.
  intuition (try discriminate; simpl; auto).
Qed.

Lemma chain_mono (E F : nat -> nat -> Prop) l : (forall a b, E a b -> F a b) -> chain E l -> chain F l.
Proof.
  intros H. induction l as [|x t IH]; simpl; auto. intros [A B]. split; auto.
  destruct t; auto.
Qed.

Lemma chain_mono_In (E F : nat -> nat -> Prop) l :
  (forall a b, In a l -> In b l -> E a b -> F a b) -> chain E l -> chain F l.
Proof.
  induction l as [|x t IH]; intros H Hc; [exact I|].
  apply chain_cons in Hc. destruct Hc as [A B]. apply chain_cons. split.
  - intros Hne. apply H; [left; reflexivity | right; destruct t; [congruence | left; reflexivity] | apply A; exact Hne].
  - apply IH; auto. intros a b Ha Hb. apply H; right; assumption.
Qed.

Lemma NoDup_app_disjoint {A} (l1 l2 : list A) x : NoDup (l1 ++ l2) -> In x l1 -> In x l2 -> False.
Proof.
  induction l1 as [|y t IH]; simpl; [tauto|]. intros H [E|Hin] H2; inversion H; subst.
  - apply H3. apply in_or_app. right. exact H2.
  - apply IH; auto.
Qed.

Lemma simple_cycle_ext (E F : nat -> nat -> Prop) c :
  (forall a b, E a b -> F a b) -> simple_cycle E c -> simple_cycle F c.
Proof. intros H [A [B C]]. split; auto. split; auto. eapply chain_mono; eauto. Qed.

(** A duplicate-free list of numbers below n has at most n elements: why a path never exhausts the depth budget. *)
Lemma NoDup_lt_length (l : list nat) n : NoDup l -> (forall x, In x l -> x < n) -> length l <= n.
Proof.
  intros Hnd Hlt. rewrite <- (seq_length n 0). apply NoDup_incl_length; [exact Hnd|].
  intros x Hx. apply in_seq. specialize (Hlt x Hx). lia.
Qed.

Lemma NoDup_single {A} (x : A) : NoDup [x].
Proof. constructor; [intros [] | constructor]. Qed.

Lemma loop_cycle (E : nat -> nat -> Prop) u : E u u -> simple_cycle E [u].
Proof. intros H. split; [discriminate|]. split; [apply NoDup_single | simpl; auto]. Qed.

Lemma simple_cycle_hd_lt g c : simple_cycle (edge g) c -> hd 0 c < length g.
Proof.
  intros [Hne [_ Hch]]. destruct c as [|x [|y t]]; [congruence| |]; simpl in Hch;
    eapply row_nonempty_lt; apply (proj1 Hch).
Qed.

Lemma ucycle_length g c : ucycle g c -> (forall x, ~ edge g x x) -> 3 <= length c.
Proof.
  intros [[Hne [_ Hch]] Hl2] Hlf. destruct c as [|x [|y [|z t]]]; cbn [length] in *; try lia; [congruence|].
  exfalso. apply (Hlf x). simpl in Hch. tauto.
Qed.

(** * From reachability to simple paths and cycles *)

Lemma reach_simple_path (E : nat -> nat -> Prop) u v : reach E u v ->
  exists p, hd 0 p = u /\ last p 0 = v /\ p <> [] /\ NoDup p /\ chain E p.
Proof.
  intros H. induction H as [u|u x v Hux Hxv [p [P1 [P2 [P3 [P4 P5]]]]]].
  - exists [u]. split; [reflexivity|]. split; [reflexivity|]. split; [discriminate|].
    split; [apply NoDup_single | simpl; auto].
  - destruct (in_dec Nat.eq_dec u p) as [Hin|Hout].
    + destruct (index_of_split u p Hin) as [pre [suf [H1 [H2 [H3 H4]]]]].
      exists (u :: suf). subst p. split; [reflexivity|]. split; [|split; [discriminate|split]].
      * rewrite last_app_cons in P2. exact P2.
      * eapply NoDup_app_r; eauto.
      * apply chain_app in P5. tauto.
    + exists (u :: p). split; [reflexivity|]. split; [|split; [discriminate|split]].
      * destruct p; [congruence|]. exact P2.
      * constructor; auto.
      * apply chain_cons. split; auto. intros _. rewrite P1. exact Hux.
Qed.

Lemma cycle_from_back_edge (E : nat -> nat -> Prop) u x : E u x -> reach E x u -> exists c, simple_cycle E c /\ In u c /\ In x c.
Proof.
  intros Hux Hxu. destruct (reach_simple_path E x u Hxu) as [p [P1 [P2 [P3 [P4 P5]]]]].
  exists p. split; [|split].
  - split; [exact P3|]. split; [exact P4|]. apply chain_app. split; [exact P5|]. split; [simpl; auto|].
    intros _ _. cbn [hd]. rewrite P1, P2. exact Hux.
  - rewrite <- P2. apply last_In. exact P3.
  - rewrite <- P1. destruct p; [congruence | left; reflexivity].
Qed.

Lemma chain_reach_in (E : nat -> nat -> Prop) x t y : chain E (x :: t) -> In y (x :: t) -> reach E x y.
Proof.
  revert x; induction t as [|z t' IH]; intros x H Hy.
  - destruct Hy as [Hy|[]]. subst. apply reach_refl.
  - destruct Hy as [Hy|Hy]; [subst; apply reach_refl|].
    apply chain_cons in H. destruct H as [A B].
    eapply reach_step; [apply A; discriminate|]. apply IH; auto.
Qed.

Lemma chain_reach_last (E : nat -> nat -> Prop) x t : chain E (x :: t) -> reach E x (last (x :: t) 0).
Proof. intros H. apply (chain_reach_in E x t _ H). apply last_In. discriminate. Qed.

Lemma simple_cycle_hd_reach (E : nat -> nat -> Prop) c y :
  simple_cycle E c -> In y c -> reach E (hd 0 c) y /\ reach E y (hd 0 c).
Proof.
  intros [Hne [Hnd Hch]] Hy. destruct c as [|x t]; [congruence|]. cbn [hd] in *.
  split.
  - apply chain_app in Hch. destruct Hch as [Ca _]. exact (chain_reach_in E x t y Ca Hy).
  - destruct (in_split y (x :: t) Hy) as [l1 [l2 El]]. rewrite El in Hch.
    rewrite <- app_assoc in Hch. apply chain_app in Hch. destruct Hch as [_ [Hch _]].
    rewrite <- app_comm_cons in Hch.
    pose proof (chain_reach_last E y (l2 ++ [x]) Hch) as Hr.
    rewrite app_comm_cons in Hr. rewrite last_last in Hr. exact Hr.
Qed.

Lemma skipn_app_exact {A} (l1 l2 : list A) : skipn (length l1) (l1 ++ l2) = l2.
Proof. induction l1; simpl; auto. Qed.
Lemma firstn_app_exact {A} (l1 l2 : list A) : firstn (length l1) (l1 ++ l2) = l1.
Proof. induction l1; simpl; auto. f_equal. auto. Qed.

Lemma split_first_in (c l : list nat) :
  (exists x, In x l /\ In x c) ->
  exists pre w suf, l = pre ++ w :: suf /\ In w c /\ forall y, In y pre -> ~ In y c.
Proof.
  induction l as [|a t IH]; intros [x [Hx Hc]]; [destruct Hx|].
  destruct (in_dec Nat.eq_dec a c) as [Ha|Ha].
  - exists [], a, t. split; [reflexivity|]. split; [exact Ha|]. intros y Hy. destruct Hy.
  - destruct Hx as [Hx|Hx]; [subst; contradiction|].
    destruct (IH (ex_intro _ x (conj Hx Hc))) as [pre [w [suf [E [Hw Hpre]]]]].
    exists (a :: pre), w, suf. split; [simpl; f_equal; exact E|]. split; auto.
    intros y [Hy|Hy]; [subst; exact Ha | apply Hpre; exact Hy].
Qed.

(** * The path of a traversal and its last but one node *)
Lemma prev_of_app path v q : prev_of (path ++ [v; q]) = Some v.
Proof. unfold prev_of. rewrite rev_app_distr. reflexivity. Qed.

Lemma prev_of_some path p : prev_of path = Some p -> exists q0 z, path = q0 ++ [p; z].
Proof.
  unfold prev_of. intros H. destruct (rev path) as [|z [|p' r]] eqn:E; try discriminate.
  inversion H; subst p'. exists (rev r), z.
  rewrite <- (rev_involutive path), E. simpl. rewrite <- app_assoc. reflexivity.
Qed.

Lemma prev_of_In path p : prev_of path = Some p -> In p path.
Proof.
  intros H. destruct (prev_of_some path p H) as [q0 [z E]]. subst. apply in_or_app. right. left. reflexivity.
Qed.

Lemma is_prev_notin path v : ~ In v path -> is_prev (prev_of path) v = false.
Proof.
  intros H. unfold is_prev. destruct (prev_of path) as [p|] eqn:E; auto.
  apply Nat.eqb_neq. intros E'. subst. apply H. eapply prev_of_In; eauto.
Qed.

Lemma NoDup_split_unique (a b a' b' : list nat) x :
  NoDup (a ++ x :: b) -> a ++ x :: b = a' ++ x :: b' -> a = a' /\ b = b'.
Proof.
  intros Hnd E. pose proof (NoDup_remove_2 _ _ _ Hnd) as Hx.
  apply app_eq_app in E. destruct E as [l [[E1 E2]|[E1 E2]]]; destruct l as [|y l'].
  - rewrite app_nil_r in E1. inversion E2. auto.
  - exfalso. inversion E2; subst. apply Hx. apply in_or_app. left. apply in_or_app. right. left. reflexivity.
  - rewrite app_nil_r in E1. inversion E2. auto.
  - exfalso. inversion E2; subst. apply Hx. apply in_or_app. right. apply in_or_app. right. left. reflexivity.
Qed.

(** * Where a path meets a cycle *)

(** A cycle that [s] reaches can be entered along a simple path: the path up to its first node [w] on the
    cycle, followed by the cycle rotated to start at [w], is duplicate-free, and its last node is joined
    to [w]. This is the path on which a depth-first traversal from [s] meets the cycle. *)
Lemma cycle_entry (E : nat -> nat -> Prop) s c :
  simple_cycle E c -> reach E s (hd 0 c) ->
  exists pre w r,
    same_dcycle c (w :: r) /\
    (exists ext, pre ++ w :: r = [s] ++ ext) /\ NoDup (pre ++ w :: r) /\ chain E (pre ++ w :: r) /\
    E (last (w :: r) 0) w.
Proof.
  intros Hcy Hreach. destruct (reach_simple_path _ _ _ Hreach) as [p [P1 [P2 [P3 [P4 P5]]]]].
  pose proof Hcy as [Hne _].
  destruct (split_first_in c p) as [pre [w [suf [Ep [Hw Hpre]]]]].
  { exists (hd 0 c). split; [rewrite <- P2; apply last_In; exact P3 | apply hd_In_nonempty; exact Hne]. }
  destruct (in_split w c Hw) as [c1 [c2 Ec]]. exists pre, w, (c2 ++ c1).
  assert (Hrot : w :: c2 ++ c1 = rot (length c1) c).
  { unfold rot. rewrite Ec, skipn_app_exact, firstn_app_exact. reflexivity. }
  assert (Hcw : simple_cycle E (w :: c2 ++ c1)) by (rewrite Hrot; apply simple_cycle_rot; exact Hcy).
  split; [exists (length c1); exact Hrot|].
  destruct Hcw as [_ [Hndw Hchw]]. apply chain_app in Hchw. destruct Hchw as [Hchw [_ Hclose]].
  rewrite Ep in P1, P4, P5. apply chain_app in P5. destruct P5 as [C1 [_ C3]].
  split; [destruct pre; simpl in P1; subst; eexists; reflexivity|]. split; [|split].
  - apply NoDup_app_intro; [exact (NoDup_app_l _ _ P4) | exact Hndw |].
    intros x Hx Hxc. apply (Hpre x Hx). rewrite Hrot in Hxc. exact (Permutation_in x (rot_perm _ c) Hxc).
  - apply chain_app. split; [exact C1|]. split; [exact Hchw|]. intros A _. exact (C3 A ltac:(discriminate)).
  - apply Hclose; discriminate.
Qed.

(** On such a path the predecessor of the last node is not [w], unless the cycle has two nodes. *)
Lemma is_prev_entry (pre : list nat) w r :
  NoDup (pre ++ w :: r) -> length (w :: r) <> 2 -> is_prev (prev_of (pre ++ w :: r)) w = false.
Proof.
  intros Hnd Hlen. unfold is_prev. destruct (prev_of (pre ++ w :: r)) as [p'|] eqn:Epv; [|reflexivity].
  apply Nat.eqb_neq. intros E. subst p'. destruct (prev_of_some _ w Epv) as [q0 [z Eq0]].
  destruct (NoDup_split_unique pre r q0 [z] w Hnd Eq0) as [_ Er]. subst r. apply Hlen. reflexivity.
Qed.

(** A simple cycle through u - v joins v to u without using that pair. *)
Lemma cycle_avoids_edge (E : nat -> nat -> Prop) u v w t :
  simple_cycle E (u :: v :: w :: t) ->
  reach (fun a b => E a b /\ ~ (a = u /\ b = v) /\ ~ (a = v /\ b = u)) v u.
Proof.
  intros [_ [Hnd Hch]].
  inversion Hnd as [|? ? Hu_notin Hnd1]; subst. inversion Hnd1 as [|? ? Hv_notin Hnd2]; subst.
  assert (Huv : u <> v) by (intros E0; apply Hu_notin; left; auto).
  change ((u :: v :: w :: t) ++ [hd 0 (u :: v :: w :: t)]) with (u :: v :: (w :: t ++ [u])) in Hch.
  apply chain_cons in Hch. destruct Hch as [_ Hch]. apply chain_cons in Hch. destruct Hch as [Hvw Hch].
  specialize (Hvw ltac:(discriminate)). cbn [hd app] in Hvw.
  assert (Hnv : forall a, In a (w :: t ++ [u]) -> a <> v).
  { intros a Ha E0. subst a. change (w :: t ++ [u]) with ((w :: t) ++ [u]) in Ha. apply in_app_or in Ha.
    destruct Ha as [Ha|[Ha|[]]]; [exact (Hv_notin Ha) | exact (Huv Ha)]. }
  set (E' := fun a b => E a b /\ ~ (a = u /\ b = v) /\ ~ (a = v /\ b = u)).
  pose proof (chain_reach_last E' v (w :: t ++ [u])) as Hr.
  change (v :: w :: t ++ [u]) with ((v :: w :: t) ++ [u]) in Hr. rewrite last_last in Hr. apply Hr.
  change ((v :: w :: t) ++ [u]) with (v :: w :: t ++ [u]). apply chain_cons. split.
  - intros _. cbn [hd]. split; [exact Hvw|]. split; intros [E1 E2]; [congruence|].
    subst w. apply Hu_notin. right. left. reflexivity.
  - eapply chain_mono_In; [|exact Hch]. intros a b Ha Hb Hab. split; [exact Hab|].
    split; intros [E1 E2]; [exact (Hnv b Hb E2) | exact (Hnv a Ha E1)].
Qed.

Lemma chain_find (F R P : nat -> nat -> Prop) :
  (forall a b, F a b -> R a b \/ P a b) ->
  forall l, chain F l -> chain R l \/ exists l1 a b l2, l = l1 ++ a :: b :: l2 /\ P a b.
Proof.
  intros H. induction l as [|x t IH]; intros Hc; [left; exact I|].
  apply chain_cons in Hc. destruct Hc as [A B]. destruct (IH B) as [HR|[l1 [a [b [l2 [E Hp]]]]]].
  - destruct t as [|y t']; [left; simpl; auto|]. destruct (H x y (A ltac:(discriminate))) as [Hr|Hp].
    + left. apply chain_cons. split; auto.
    + right. exists [], x, y, t'. auto.
  - right. exists (x :: l1), a, b, l2. split; [rewrite E; reflexivity | exact Hp].
Qed.

Lemma closed_chain_rot (c : list nat) l1 a b l2 :
  2 <= length c -> c ++ [hd 0 c] = l1 ++ a :: b :: l2 -> exists r, rot (length l1) c = a :: b :: r.
Proof.
  intros Hlen E. destruct (exists_last (l := b :: l2) ltac:(discriminate)) as [m [z Em]].
  replace (l1 ++ a :: b :: l2) with ((l1 ++ a :: m) ++ [z]) in E by (rewrite <- app_assoc, <- app_comm_cons, <- Em; reflexivity).
  apply app_inj_tail in E. destruct E as [Ec Ez]. unfold rot. rewrite Ec, skipn_app_exact, firstn_app_exact.
  destruct m as [|b' m']; simpl in Em; injection Em as Eb El.
  - (* the pair closes the cycle: b is its first node *)
    destruct l1 as [|x l1']; [rewrite Ec in Hlen; simpl in Hlen; lia|].
    rewrite Ec in Ez. simpl in Ez. exists l1'. simpl. congruence.
  - exists (m' ++ l1). simpl. congruence.
Qed.

(** * Labels of components *)
Lemma count_cons a t x : count (a :: t) x = (if x =? a then 1 else 0) + count t x.
Proof. unfold count. simpl. destruct (x =? a); reflexivity. Qed.

Lemma count_pos l x : In x l -> 0 < count l x.
Proof.
  induction l as [|a t IH]; [intros []|]. intros [H|H]; rewrite count_cons.
  - subst. rewrite Nat.eqb_refl. lia.
  - specialize (IH H). lia.
Qed.

Lemma count_two : forall (l : list nat) i j, i < j -> j < length l -> nthn l i = nthn l j ->
  1 < count l (nthn l i).
Proof.
  induction l as [|a t IH]; intros i j Hij Hj E; [simpl in Hj; lia|].
  rewrite count_cons. destruct j as [|j']; [lia|]. destruct i as [|i'].
  - unfold nthn in *. simpl in *. rewrite Nat.eqb_refl.
    assert (In a t) by (rewrite E; apply nth_In; lia). pose proof (count_pos t a H). lia.
  - unfold nthn in *. simpl in *. assert (H := IH i' j' ltac:(lia) ltac:(lia) E). unfold nthn in H. lia.
Qed.

Lemma first_with_label_spec comp l : In l comp ->
  first_with_label comp l < length comp /\ nthn comp (first_with_label comp l) = l.
Proof.
  intros H. apply In_nthn in H. destruct H as [i [Hi Ei]]. unfold first_with_label.
  set (fl := filter (fun u => nthn comp u =? l) (seq 0 (length comp))).
  assert (Hne : fl <> []).
  { intros E. assert (Hin : In i fl) by (apply filter_In; split; [apply in_seq; lia | apply Nat.eqb_eq; exact Ei]).
    rewrite E in Hin. destruct Hin. }
  pose proof (hd_In_nonempty fl Hne) as Hh. apply filter_In in Hh. destruct Hh as [H1 H2].
  apply in_seq in H1. apply Nat.eqb_eq in H2. split; [lia | exact H2].
Qed.

(** * is_acyclic, directed *)

Lemma nodup_length_le (l : list nat) : length (nodup Nat.eq_dec l) <= length l.
Proof. induction l as [|x t IH]; simpl; auto. destruct (in_dec Nat.eq_dec x t); simpl; lia. Qed.

Lemma n_labels_full (l : list nat) : n_labels l = length l <-> NoDup l.
Proof.
  unfold n_labels. split.
  - induction l as [|x t IH]; intros H; [constructor|]. simpl in H.
    destruct (in_dec Nat.eq_dec x t) as [Hin|Hout].
    + pose proof (nodup_length_le t). lia.
    + simpl in H. constructor; auto.
  - intros H. rewrite nodup_fixed_point; auto.
Qed.

Lemma long_cycle_same_label g comp x y t :
  wf_graph g -> components_contract g true comp -> dcycle g (x :: y :: t) ->
  x < length g /\ y < length g /\ x <> y /\ nthn comp x = nthn comp y /\ 1 < count comp (nthn comp x).
Proof.
  intros Hwf [Hlen Hc] Hcy. pose proof Hcy as [Hne [Hnd Hch]].
  assert (Hxy : In y (row g x)) by (simpl in Hch; tauto).
  assert (Hx : x < length g) by (eapply row_nonempty_lt; eauto).
  assert (Hy : y < length g) by (eapply Hwf; eauto).
  destruct (simple_cycle_hd_reach (edge g) (x :: y :: t) y Hcy (or_intror (or_introl eq_refl))) as [R1 R2].
  cbn [hd] in R1, R2.
  assert (Hne' : x <> y) by (intros E; subst y; inversion Hnd as [|? ? Hni _]; apply Hni; left; reflexivity).
  assert (El : nthn comp x = nthn comp y) by (apply Hc; auto; split; assumption).
  split; auto. split; auto. split; auto. split; auto.
  destruct (Nat.lt_total x y) as [L|[L|L]]; [|contradiction|].
  - apply (count_two comp x y L); [lia | exact El].
  - rewrite El. apply (count_two comp y x L); [lia | symmetry; exact El].
Qed.

(** [is_acyclic] rejects a graph with a self-loop; otherwise the flag says which count decides. *)
Lemma is_acyclic_cases g directed comp d : resolve_directed g directed = Ok d ->
  (is_acyclic g directed comp = Ok false /\ exists u, In u (row g u)) \/
  (is_acyclic g directed comp = Ok (if d then n_labels comp =? length g else count_criterion g comp) /\
   forall u, ~ In u (row g u)).
Proof.
  intros H. unfold is_acyclic. rewrite H. destruct (has_loops g) eqn:Hl.
  - left. split; [reflexivity|]. apply has_loops_spec in Hl. destruct Hl as [u [_ Huu]]. exists u. exact Huu.
  - right. split; [destruct d; reflexivity | exact (proj1 (has_loops_false g) Hl)].
Qed.

Theorem is_acyclic_directed_lemma (g : graph) (directed : option bool) (comp : list nat) (b : bool) :
  wf_graph g -> components_contract g true comp -> resolve_directed g directed = Ok true ->
  is_acyclic g directed comp = Ok b ->
  (b = true <-> ~ exists c, dcycle g c).
Proof.
  intros Hwf [Hlen Hc] Hres Hrun.
  destruct (is_acyclic_cases g directed comp true Hres) as [[E [u Hu]]|[E Hlf]];
    rewrite E in Hrun; inversion Hrun; subst b.
  - split; [discriminate|]. intros Hn. destruct Hn. exists [u]. exact (loop_cycle _ u Hu).
  - rewrite Nat.eqb_eq, <- Hlen, n_labels_full, (NoDup_nth comp 0).
    rewrite Hlen. split.
    + intros Hinj [c Hcy]. pose proof Hcy as [Hne [Hnd Hch]].
      destruct c as [|x [|y t]]; [congruence| |].
      * simpl in Hch. destruct Hch as [Hxx _]. exact (Hlf x Hxx).
      * destruct (long_cycle_same_label g comp x y t Hwf (conj Hlen Hc) Hcy) as [Hx [Hy [Hxy [El _]]]].
        apply Hxy. apply Hinj; auto.
    + intros Hno i j Hi Hj Eij. destruct (Nat.eq_dec i j) as [|Hne]; auto. exfalso. apply Hno.
      apply (Hc i j Hi Hj) in Eij. destruct Eij as [R1 R2].
      inversion R1 as [|? x ? Hix Hxj]; [congruence|]. subst.
      destruct (cycle_from_back_edge (edge g) i x Hix (reach_trans _ _ _ _ Hxj R2)) as [c [Hcy _]].
      exists c. exact Hcy.
Qed.

Lemma first_with_label_conn g strong comp x :
  components_contract g strong comp -> x < length g -> conn g strong (first_with_label comp (nthn comp x)) x.
Proof.
  intros [Hlen Hc] Hx. destruct (first_with_label_spec comp (nthn comp x)) as [A B]; [apply nthn_In; lia|].
  apply Hc; [lia | exact Hx | exact B].
Qed.

Lemma resolve_directed_false g directed :
  resolve_directed g directed = Ok false -> is_symmetric g = true.
Proof.
  destruct directed as [[|]|]; simpl; try discriminate.
  - destruct (is_symmetric g); [auto | discriminate].
  - destruct (is_symmetric g); simpl; [auto | discriminate].
Qed.
