(** Proofs about Model/Clustering.v (property C05). *)
From Coq Require Import Permutation Sorted Qabs Lqa.
From SKN Require Import Base.Util Model.Clustering.
From SKN Require Model.Vote Proofs.VoteProofs.

(** * np.unique *)

Lemma zinsert_In x y l : In y (zinsert x l) <-> y = x \/ In y l.
Proof.
  induction l as [|z t IH]; simpl.
  - split; intros [H|H]; auto.
  - destruct (x <? z)%Z; [split; intros [H|H]; simpl; auto|].
    destruct (Z.eqb_spec x z) as [->|_]; simpl.
    + split; [auto|]. intros [->|H]; auto.
    + split.
      * intros [->|H]; [auto|]. apply IH in H. tauto.
      * intros [H|[->|H]]; [right; apply IH; auto|auto|right; apply IH; auto].
Qed.

Lemma zinsert_sorted x l : StronglySorted Z.lt l -> StronglySorted Z.lt (zinsert x l).
Proof.
  induction l as [|z t IH]; simpl; intros HS.
  - constructor; constructor.
  - inversion HS as [|? ? HSt HF]; subst.
    destruct (Z.ltb_spec x z) as [E1|E1].
    + constructor; [exact HS|].
      constructor; [exact E1|]. rewrite Forall_forall in *. intros y Hy. specialize (HF y Hy). lia.
    + destruct (Z.eqb_spec x z) as [E2|E2]; [exact HS|].
      constructor; [apply IH; exact HSt|].
      rewrite Forall_forall in *. intros y Hy. apply zinsert_In in Hy. destruct Hy as [->|Hy]; [lia|auto].
Qed.

Lemma zuniq_sorted l : StronglySorted Z.lt (zuniq l).
Proof. induction l; simpl; [constructor | apply zinsert_sorted; assumption]. Qed.

Lemma zuniq_In l x : In x (zuniq l) <-> In x l.
Proof.
  induction l as [|a t IH]; simpl; [tauto|].
  rewrite zinsert_In, IH. split; intros [H|H]; auto.
Qed.

Lemma ssorted_NoDup l : StronglySorted Z.lt l -> NoDup l.
Proof.
  induction l as [|a t IH]; intros HS; [constructor|].
  inversion HS as [|? ? HSt HF]; subst. constructor; [|auto].
  intros Hin. rewrite Forall_forall in HF. specialize (HF a Hin). lia.
Qed.

Lemma ssorted_unique a b :
  StronglySorted Z.lt a -> StronglySorted Z.lt b -> (forall x, In x a <-> In x b) -> a = b.
Proof.
  revert b. induction a as [|x a' IH]; intros b Ha Hb Hab.
  - destruct b as [|y b']; [reflexivity|]. exfalso. apply (Hab y). left; reflexivity.
  - destruct b as [|y b'].
    + exfalso. apply (Hab x). left; reflexivity.
    + inversion Ha as [|? ? Ha' HFa]; subst. inversion Hb as [|? ? Hb' HFb]; subst.
      rewrite Forall_forall in HFa, HFb.
      assert (Exy : x = y).
      { destruct (proj1 (Hab x) (or_introl eq_refl)) as [E|H1]; [auto|].
        destruct (proj2 (Hab y) (or_introl eq_refl)) as [E|H2]; [auto|].
        specialize (HFa y H2). specialize (HFb x H1). lia. }
      subst y. f_equal. apply IH; auto.
      intros z. specialize (Hab z). cbn [In] in Hab. split; intros Hz.
      * specialize (HFa z Hz). destruct (proj1 Hab (or_intror Hz)) as [E|H]; [lia | exact H].
      * specialize (HFb z Hz). destruct (proj2 Hab (or_intror Hz)) as [E|H]; [lia | exact H].
Qed.

Lemma zuniq_length_nodup l : length (zuniq l) = length (nodup Z.eq_dec l).
Proof.
  apply Permutation_length. apply NoDup_Permutation.
  - apply ssorted_NoDup, zuniq_sorted.
  - apply NoDup_nodup.
  - intros x. rewrite zuniq_In, nodup_In. tauto.
Qed.

Lemma zindex_lt x l : In x l -> zindex x l < length l.
Proof.
  induction l as [|y t IH]; simpl; [tauto|]. intros H.
  destruct (Z.eqb_spec x y) as [E|E]; [lia|].
  destruct H as [H|H]; [congruence|]. specialize (IH H). lia.
Qed.

Lemma zindex_le x l : zindex x l <= length l.
Proof. induction l as [|y t IH]; simpl; [lia|]. destruct (x =? y)%Z; lia. Qed.

Lemma nth_zindex x l : In x l -> nthz l (zindex x l) = x.
Proof.
  unfold nthz. induction l as [|y t IH]; simpl; [tauto|]. intros H.
  destruct (Z.eqb_spec x y) as [E|E]; [auto|].
  destruct H as [H|H]; [congruence|]. auto.
Qed.

Lemma zindex_nth l i : NoDup l -> i < length l -> zindex (nthz l i) l = i.
Proof.
  unfold nthz. revert i. induction l as [|y t IH]; simpl; intros i HN Hi; [lia|].
  inversion HN as [|? ? Hy HNt]; subst.
  destruct i as [|i].
  - rewrite Z.eqb_refl. reflexivity.
  - destruct (Z.eqb_spec (nth i t 0%Z) y) as [E|E].
    + exfalso. apply Hy. rewrite <- E. apply nth_In. lia.
    + f_equal. apply IH; auto. lia.
Qed.

Lemma nthz_In l i : i < length l -> In (nthz l i) l.
Proof. intros H. apply nth_In. exact H. Qed.

Lemma nth_map_gen {A B} (f : A -> B) (l : list A) i da db :
  i < length l -> nth i (map f l) db = f (nth i l da).
Proof.
  revert i. induction l as [|a t IH]; simpl; intros i H; [lia|].
  destruct i as [|i]; [reflexivity|]. apply IH. lia.
Qed.

Lemma nthn_map_lt {A} (f : A -> nat) (l : list A) (d : A) i :
  i < length l -> nthn (map f l) i = f (nth i l d).
Proof. apply nth_map_gen. Qed.

Lemma nthn_In (l : list nat) i : i < length l -> In (nthn l i) l.
Proof. intros H. apply nth_In. exact H. Qed.

(** the labels used are exactly 0..k-1 *)
Definition contiguous (k : nat) (out : list nat) : Prop := forall c, In c out <-> c < k.
(** cluster sizes are non-increasing in the label *)
Definition sizes_sorted (k : nat) (out : list nat) : Prop :=
  forall a b, a <= b -> b < k -> count_occ Nat.eq_dec out b <= count_occ Nat.eq_dec out a.

(** The compaction [np.unique(l, return_inverse=True)[1]]. *)
Theorem unique_inverse_contiguous_pf (l : list Z) :
  let out := snd (unique_inverse l) in
  let k := length (nodup Z.eq_dec l) in
  length out = length l /\
  (forall i j, i < length l -> j < length l -> (nthn out i = nthn out j <-> nthz l i = nthz l j)) /\
  contiguous k out.
Proof.
  intros out k. unfold out, unique_inverse. cbn [snd].
  assert (Hk : length (zuniq l) = k) by apply zuniq_length_nodup.
  assert (Hin : forall i, i < length l -> In (nthz l i) (zuniq l)) by (intros i Hi; apply zuniq_In, nthz_In, Hi).
  split; [apply map_length|]. split.
  - intros i j Hi Hj. rewrite !(nthn_map_lt _ _ 0%Z) by assumption. fold (nthz l i) (nthz l j).
    split; intros E; [|rewrite E; reflexivity].
    rewrite <- (nth_zindex _ _ (Hin i Hi)), <- (nth_zindex _ _ (Hin j Hj)), E. reflexivity.
  - intros c. rewrite in_map_iff, <- Hk. split.
    + intros [x [<- Hx]]. apply zindex_lt, zuniq_In, Hx.
    + intros Hc. exists (nthz (zuniq l) c). split.
      * apply zindex_nth; [apply ssorted_NoDup, zuniq_sorted|exact Hc].
      * apply zuniq_In, nthz_In, Hc.
Qed.

(** * reindex_labels *)

Lemma ssorted_nth l a b : StronglySorted Z.le l -> a <= b -> b < length l -> (nthz l a <= nthz l b)%Z.
Proof.
  unfold nthz. revert a b. induction l as [|x t IH]; simpl; intros a b HS Hab Hb; [lia|].
  inversion HS as [|? ? HSt HF]; subst.
  destruct a as [|a]; destruct b as [|b]; try lia.
  - rewrite Forall_forall in HF. apply HF. apply nth_In. lia.
  - apply IH; auto; lia.
Qed.

Lemma count_map_char (g : Z -> nat) (l : list Z) (b : nat) (y : Z) :
  (forall x, In x l -> (g x = b <-> x = y)) ->
  count_occ Nat.eq_dec (map g l) b = zcount y l.
Proof.
  unfold zcount. induction l as [|a t IH]; intros H; [reflexivity|].
  cbn [map count_occ filter]. specialize (IH (fun x Hx => H x (or_intror Hx))). specialize (H a (or_introl eq_refl)).
  destruct (Nat.eq_dec (g a) b) as [E|E]; destruct (Z.eqb_spec y a) as [E2|E2]; cbn [length]; try congruence; exfalso.
  - apply E2. symmetry. apply H, E.
  - apply E, H. symmetry. exact E2.
Qed.

Lemma map_of_nat_seq_sorted s k : StronglySorted Z.lt (map Z.of_nat (seq s k)).
Proof.
  revert s. induction k as [|k IH]; intros s; simpl; constructor; [apply IH|].
  rewrite Forall_forall. intros x Hx. apply in_map_iff in Hx. destruct Hx as [c [<- Hc]].
  apply in_seq in Hc. lia.
Qed.

Lemma nthz_map_of_nat_any (l : list nat) i : nthz (map Z.of_nat l) i = Z.of_nat (nthn l i).
Proof. exact (map_nth Z.of_nat l 0 i). Qed.

Section Reindex.
  Context (argsort : list Z -> list nat) (labels : list Z).
  Context (Hargsort : let keys := map (fun c => (- Z.of_nat c)%Z) (unique_counts labels) in
                      argsort_ok keys (argsort keys)).

  Let u := zuniq labels.
  Let k := length u.
  Let counts := unique_counts labels.
  Let keys := map (fun c => (- Z.of_nat c)%Z) counts.
  Let order := argsort keys.
  Let zorder := map Z.of_nat order.
  Let rank (c : nat) := zindex (Z.of_nat c) zorder.
  Let new_index := unique_index zorder.

  Local Lemma order_perm : Permutation order (seq 0 k).
  Proof.
    replace k with (length keys) by (unfold keys, counts, unique_counts; rewrite !map_length; reflexivity).
    apply Hargsort.
  Qed.

  Local Lemma order_len : length order = k.
  Proof. rewrite (Permutation_length order_perm). apply seq_length. Qed.

  Local Lemma order_In c : In c order <-> c < k.
  Proof.
    split; intros H.
    - apply (Permutation_in _ order_perm) in H. apply in_seq in H. lia.
    - apply (Permutation_in _ (Permutation_sym order_perm)). apply in_seq. lia.
  Qed.

  Local Lemma zorder_NoDup : NoDup zorder.
  Proof.
    unfold zorder. apply FinFun.Injective_map_NoDup.
    - intros a b E. lia.
    - apply (Permutation_NoDup (Permutation_sym order_perm)). apply seq_NoDup.
  Qed.

  Local Lemma zuniq_zorder : zuniq zorder = map Z.of_nat (seq 0 k).
  Proof.
    apply ssorted_unique; [apply zuniq_sorted | apply map_of_nat_seq_sorted |].
    intros x. rewrite zuniq_In. unfold zorder. rewrite !in_map_iff.
    split; intros [c [E H]]; exists c; (split; [exact E|]).
    - apply in_seq. apply order_In in H. lia.
    - apply order_In. apply in_seq in H. lia.
  Qed.

  Local Lemma new_index_nth c : c < k -> nthn new_index c = rank c.
  Proof.
    intros Hc. unfold new_index, unique_index. rewrite zuniq_zorder, map_map. apply nth_map_seq, Hc.
  Qed.

  Local Lemma rank_lt c : c < k -> rank c < k.
  Proof.
    intros Hc. unfold rank.
    assert (L : length zorder = k) by (unfold zorder; rewrite map_length; apply order_len).
    rewrite <- L. apply zindex_lt. unfold zorder. apply in_map. apply order_In. exact Hc.
  Qed.

  Local Lemma order_rank c : c < k -> nthn order (rank c) = c.
  Proof.
    intros Hc. assert (H := rank_lt c Hc).
    assert (E : nthz zorder (rank c) = Z.of_nat c).
    { apply nth_zindex. unfold zorder. apply in_map. apply order_In. exact Hc. }
    unfold zorder in E at 1. rewrite nthz_map_of_nat_any in E. lia.
  Qed.

  Local Lemma rank_order p : p < k -> rank (nthn order p) = p.
  Proof.
    intros Hp. unfold rank. rewrite <- nthz_map_of_nat_any.
    apply zindex_nth; [apply zorder_NoDup|]. unfold zorder. rewrite map_length, order_len. exact Hp.
  Qed.

  Local Lemma order_nth_lt p : p < k -> nthn order p < k.
  Proof. intros Hp. apply order_In. apply nthn_In. rewrite order_len. exact Hp. Qed.

  Let g (x : Z) : nat := nthn new_index (zindex x u).

  Local Lemma out_is_map : reindex_labels argsort labels = map g labels.
  Proof. unfold reindex_labels, unique_inverse. cbn [snd]. rewrite map_map. reflexivity. Qed.

  Local Lemma g_val x : In x labels -> g x = rank (zindex x u) /\ zindex x u < k.
  Proof.
    intros Hx. assert (H : zindex x u < k) by (apply zindex_lt, zuniq_In; exact Hx).
    split; [apply new_index_nth; exact H | exact H].
  Qed.

  Local Lemma g_lt x : In x labels -> g x < k.
  Proof. intros Hx. destruct (g_val x Hx) as [-> H]. apply rank_lt, H. Qed.

  Local Lemma g_char x b : In x labels -> b < k -> (g x = b <-> x = nthz u (nthn order b)).
  Proof.
    intros Hx Hb. destruct (g_val x Hx) as [E Hlt]. rewrite E. split; intros H.
    - rewrite <- H. rewrite order_rank by exact Hlt. symmetry. apply nth_zindex. apply zuniq_In. exact Hx.
    - subst x. rewrite zindex_nth; [apply rank_order; exact Hb | apply ssorted_NoDup, zuniq_sorted | apply order_nth_lt; exact Hb].
  Qed.

  Local Lemma out_count b : b < k ->
    count_occ Nat.eq_dec (reindex_labels argsort labels) b = nthn counts (nthn order b).
  Proof.
    intros Hb. rewrite out_is_map.
    rewrite (count_map_char g labels b (nthz u (nthn order b))) by (intros x Hx; apply g_char; auto).
    unfold counts, unique_counts. rewrite (nthn_map_lt _ _ 0%Z) by (apply order_nth_lt; exact Hb).
    reflexivity.
  Qed.

  Lemma reindex_labels_spec_pf :
    let out := reindex_labels argsort labels in
    let kk := length (nodup Z.eq_dec labels) in
    length out = length labels /\
    (forall i j, i < length labels -> j < length labels ->
                 (nthn out i = nthn out j <-> nthz labels i = nthz labels j)) /\
    contiguous kk out /\ sizes_sorted kk out.
  Proof.
    intros out kk.
    assert (Hkk : kk = k) by (unfold kk, k, u; symmetry; apply zuniq_length_nodup).
    rewrite Hkk. unfold out. split; [rewrite out_is_map; apply map_length|]. split; [|split].
    - intros i j Hi Hj. rewrite out_is_map.
      rewrite (nthn_map_lt _ _ 0%Z) by exact Hi. rewrite (nthn_map_lt _ _ 0%Z) by exact Hj.
      fold (nthz labels i) (nthz labels j).
      assert (Hxi := nthz_In labels i Hi). assert (Hxj := nthz_In labels j Hj).
      split; intros E; [|rewrite E; reflexivity].
      assert (Hb := g_lt _ Hxj).
      apply (g_char _ _ Hxi Hb) in E. rewrite E. symmetry. apply (g_char _ _ Hxj Hb). reflexivity.
    - intros c. rewrite out_is_map. split; intros H.
      + apply in_map_iff in H. destruct H as [x [<- Hx]]. apply g_lt, Hx.
      + assert (Hx : In (nthz u (nthn order c)) labels) by (apply zuniq_In, nthz_In, order_nth_lt, H).
        apply in_map_iff. exists (nthz u (nthn order c)). split; [apply g_char; auto | exact Hx].
    - intros a b Hab Hb. rewrite !out_count by lia.
      destruct Hargsort as [_ HS]. fold counts keys order in HS.
      apply Sorted_StronglySorted in HS; [|intros x y z; lia].
      assert (H := ssorted_nth _ a b HS Hab).
      rewrite map_length, order_len in H. specialize (H Hb).
      assert (Hk : forall p, p < k -> nthz (map (nthz keys) order) p = (- Z.of_nat (nthn counts (nthn order p)))%Z).
      { intros p Hp. unfold nthz at 1. rewrite (nth_map_gen _ _ _ 0) by (rewrite order_len; exact Hp).
        fold (nthn order p). unfold keys, nthz.
        rewrite (nth_map_gen _ _ _ 0); [reflexivity|].
        unfold counts, unique_counts. rewrite map_length. apply order_nth_lt. exact Hp. }
      rewrite !Hk in H by lia. lia.
  Qed.
End Reindex.

(** * Un-shuffling *)

(** the in-place write is that of the vote kernel's model *)
Lemma upd_eq {A} (l : list A) i x : upd l i x = Vote.upd l i x.
Proof.
  unfold upd. revert i. induction l as [|a t IH]; intros [|i]; try reflexivity.
  cbn [length Vote.upd]. rewrite <- IH. change (Nat.ltb (S i) (S (length t))) with (Nat.ltb i (length t)).
  destruct (Nat.ltb i (length t)); reflexivity.
Qed.

Lemma upd_length {A} (l : list A) i x : length (upd l i x) = length l.
Proof. rewrite upd_eq. apply VoteProofs.upd_length. Qed.

Lemma nth_upd_same {A} (l : list A) i x d : i < length l -> nth i (upd l i x) d = x.
Proof. rewrite upd_eq. apply VoteProofs.nth_upd_same. Qed.

Lemma nth_upd_other {A} (l : list A) i j x d : i <> j -> nth j (upd l i x) d = nth j l d.
Proof. rewrite upd_eq. apply VoteProofs.nth_upd_other. Qed.

Lemma In_upd {A} (l : list A) i x y : In y (upd l i x) -> y = x \/ In y l.
Proof. rewrite upd_eq. apply VoteProofs.In_upd. Qed.

Lemma scatter_cons {A} (init : list A) k keys v vals :
  scatter init (k :: keys) (v :: vals) = scatter (upd init k v) keys vals.
Proof. reflexivity. Qed.

Lemma scatter_length {A} (init : list A) keys vals : length (scatter init keys vals) = length init.
Proof.
  revert init vals. induction keys as [|k keys IH]; intros init [|x vals]; try reflexivity.
  rewrite scatter_cons, IH. apply upd_length.
Qed.

Lemma scatter_untouched {A} (init : list A) keys vals v d :
  ~ In v keys -> nth v (scatter init keys vals) d = nth v init d.
Proof.
  revert init vals. induction keys as [|k keys IH]; intros init [|x vals] H; try reflexivity.
  rewrite scatter_cons, IH by (intros Hin; apply H; right; exact Hin).
  apply nth_upd_other. intros E. apply H. left. exact E.
Qed.

Lemma scatter_written {A} (init : list A) keys vals i d :
  NoDup keys -> length keys = length vals -> (forall k, In k keys -> k < length init) -> i < length keys ->
  nth (nthn keys i) (scatter init keys vals) d = nth i vals d.
Proof.
  revert init vals i. induction keys as [|k keys IH]; intros init [|x vals] i HN HL Hlt Hi; cbn [length] in *; try lia.
  inversion HN as [|? ? Hk HN']; subst. rewrite scatter_cons. destruct i as [|i]; unfold nthn; cbn [nth].
  - rewrite scatter_untouched by exact Hk. apply nth_upd_same. apply Hlt. left; reflexivity.
  - apply IH; [exact HN' | lia | | lia]. intros k' Hk'. rewrite upd_length. apply Hlt. right; exact Hk'.
Qed.

Lemma reverse_index_spec index n :
  Permutation index (seq 0 n) ->
  length (reverse_index index) = n /\
  forall i, i < n -> nthn (reverse_index index) (nthn index i) = i.
Proof.
  intros HP. assert (Hlen : length index = n) by (rewrite (Permutation_length HP); apply seq_length).
  unfold reverse_index. rewrite Hlen. split.
  - rewrite scatter_length. apply repeat_length.
  - intros i Hi. unfold nthn at 1. rewrite scatter_written; [apply seq_nth, Hi | | rewrite seq_length; exact Hlen | | lia].
    + apply (Permutation_NoDup (Permutation_sym HP)), seq_NoDup.
    + intros k Hk. rewrite repeat_length. apply (Permutation_in _ HP), in_seq in Hk. lia.
Qed.

Lemma unshuffle_correct_pf (index labels : list nat) :
  let n := length labels in
  Permutation index (seq 0 n) ->
  let out := unshuffle index labels in
  length out = n /\
  (forall i, i < n -> nthn out (nthn index i) = nthn labels i) /\
  Permutation out labels.
Proof.
  intros n HP out. destruct (reverse_index_spec index n HP) as [Hlen Hrev].
  assert (Hilen : length index = n) by (rewrite (Permutation_length HP); apply seq_length).
  assert (Hout : length out = n) by (unfold out, unshuffle; rewrite map_length; exact Hlen).
  assert (Hidx : forall i, i < n -> nthn index i < n).
  { intros i Hi. assert (H : In (nthn index i) index) by (apply nthn_In; lia).
    apply (Permutation_in _ HP) in H. apply in_seq in H. lia. }
  assert (Hval : forall i, i < n -> nthn out (nthn index i) = nthn labels i).
  { intros i Hi. unfold out, unshuffle.
    rewrite (nthn_map_lt _ _ 0) by (rewrite Hlen; apply Hidx; exact Hi).
    fold (nthn (reverse_index index) (nthn index i)). rewrite Hrev by exact Hi. reflexivity. }
  split; [exact Hout|]. split; [exact Hval|].
  (* labels = map (nthn out) index and out = map (nthn out) (seq 0 n) *)
  assert (E1 : labels = map (nthn out) index).
  { apply (nth_ext _ _ 0 0); [rewrite map_length; lia|].
    intros i Hi. fold n in Hi. rewrite (nth_map_gen _ _ _ 0) by lia. symmetry. apply Hval. exact Hi. }
  assert (E2 := map_nth_seq out 0). rewrite Hout in E2.
  rewrite E1, <- E2 at 1. apply Permutation_map, Permutation_sym, HP.
Qed.

(** * Finite sums over Q and dense matrices *)

Lemma sumq_add {A} (f g : A -> Q) l :
  (sumq (map (fun x => f x + g x) l) == sumq (map f l) + sumq (map g l))%Q.
Proof.
  induction l as [|a t IH]; [cbn; ring|].
  cbn [map]. rewrite !sumq_cons. rewrite IH. ring.
Qed.

Lemma sumq_scale_r {A} (c : Q) (f : A -> Q) l :
  (sumq (map f l) * c == sumq (map (fun x => f x * c) l))%Q.
Proof.
  induction l as [|a t IH]; [cbn; ring|].
  cbn [map]. rewrite !sumq_cons. rewrite <- IH. ring.
Qed.

Lemma sumq_swap {A B} (f : A -> B -> Q) la lb :
  (sumq (map (fun a => sumq (map (f a) lb)) la) == sumq (map (fun b => sumq (map (fun a => f a b) la)) lb))%Q.
Proof.
  induction la as [|a t IH].
  - cbn [map sumq fold_right]. symmetry. apply sumq_zero. intros; reflexivity.
  - cbn [map]. rewrite sumq_cons. rewrite IH.
    rewrite <- sumq_add. apply sumq_ext. intros b _. rewrite sumq_cons. reflexivity.
Qed.

Lemma sumq_nonneg {A} (f : A -> Q) l : (forall x, In x l -> (0 <= f x)%Q) -> (0 <= sumq (map f l))%Q.
Proof.
  intros H. apply Util.sumq_nonneg. intros y Hy. apply in_map_iff in Hy. destruct Hy as [x [<- Hx]]. apply H, Hx.
Qed.

Lemma sumq_onehot (z : Z) (f : nat -> Q) s k :
  (Z.of_nat s <= z < Z.of_nat (s + k))%Z ->
  (sumq (map (fun c => if (z =? Z.of_nat c)%Z then f c else 0%Q) (seq s k)) == f (Z.to_nat z))%Q.
Proof.
  revert s. induction k as [|k IH]; intros s H; [lia|].
  cbn [seq map]. rewrite sumq_cons.
  destruct (Z.eqb_spec z (Z.of_nat s)) as [E|E].
  - rewrite E, Nat2Z.id.
    rewrite sumq_zero; [ring|]. intros c Hc. apply in_seq in Hc.
    destruct (Z.eqb_spec (Z.of_nat s) (Z.of_nat c)); [lia | reflexivity].
  - rewrite IH by lia. ring.
Qed.

Lemma sumq_onehot_out (z : Z) (f : nat -> Q) k :
  ~ (0 <= z < Z.of_nat k)%Z ->
  (sumq (map (fun c => if (z =? Z.of_nat c)%Z then f c else 0%Q) (seq 0 k)) == 0)%Q.
Proof.
  intros H. apply sumq_zero. intros c Hc. apply in_seq in Hc.
  destruct (Z.eqb_spec z (Z.of_nat c)); [lia | reflexivity].
Qed.

Lemma mk_length n m f : length (mk n m f) = n.
Proof. unfold mk. rewrite map_length, seq_length. reflexivity. Qed.

Lemma mk_row n m f i : i < n -> nth i (mk n m f) [] = map (fun j => f i j) (seq 0 m).
Proof.
  intros H. apply (nth_map_seq (fun i => map (fun j => f i j) (seq 0 m))), H.
Qed.

Lemma ent_mk n m f i j : i < n -> j < m -> ent (mk n m f) i j = f i j.
Proof.
  intros Hi Hj. unfold ent. rewrite mk_row by exact Hi. apply nth_map_seq, Hj.
Qed.

Lemma ent_onehot n k lab i c :
  i < n -> c < k -> ent (onehot n k lab) i c = if (lab i =? Z.of_nat c)%Z then 1%Q else 0%Q.
Proof. intros Hi Hc. unfold onehot. apply ent_mk; assumption. Qed.

Lemma ent_mmul n k m A B i c :
  i < n -> c < m ->
  ent (mmul n k m A B) i c = sumq (map (fun j => (ent A i j * ent B j c)%Q) (seq 0 k)).
Proof. intros Hi Hc. unfold mmul. apply ent_mk; assumption. Qed.

Lemma ent_mtrans n m A i j : i < m -> j < n -> ent (mtrans n m A) i j = ent A j i.
Proof. intros Hi Hj. unfold mtrans. rewrite ent_mk by assumption. reflexivity. Qed.

Definition in_range (k : nat) (lab : nat -> Z) (n : nat) : Prop :=
  forall j, j < n -> (0 <= lab j < Z.of_nat k)%Z.

Lemma sumq_by_label n k lab (F : nat -> Q) :
  in_range k lab n ->
  (sumq (map (fun c => sumq (map (fun j => if (lab j =? Z.of_nat c)%Z then F j else 0%Q) (seq 0 n))) (seq 0 k))
   == sumq (map F (seq 0 n)))%Q.
Proof.
  intros Hr. rewrite (sumq_swap (fun c j => if (lab j =? Z.of_nat c)%Z then F j else 0%Q)).
  apply sumq_ext. intros j Hj. apply in_seq in Hj.
  rewrite (sumq_onehot (lab j) (fun _ => F j) 0 k); [reflexivity|].
  specialize (Hr j). cbn [Nat.add]. lia.
Qed.

(** Row sums of X . M for a one-hot M whose labels all lie in 0..k-1: those of X. *)
Lemma row_sum_mmul_onehot r n k X lab i :
  in_range k lab n -> i < r ->
  (row_sum k (mmul r n k X (onehot n k lab)) i == row_sum n X i)%Q.
Proof.
  intros Hr Hi. unfold row_sum. rewrite <- (sumq_by_label n k lab (ent X i) Hr).
  apply sumq_ext. intros c Hc. apply in_seq in Hc. rewrite ent_mmul by lia.
  apply sumq_ext. intros j Hj. apply in_seq in Hj. rewrite ent_onehot by lia.
  destruct (lab j =? Z.of_nat c)%Z; ring.
Qed.

Lemma ent_mmul_nonneg r n k X lab i c :
  (forall j, j < n -> (0 <= ent X i j)%Q) -> i < r -> c < k ->
  (0 <= ent (mmul r n k X (onehot n k lab)) i c)%Q.
Proof.
  intros HX Hi Hc. rewrite ent_mmul by assumption. apply sumq_nonneg.
  intros j Hj. apply in_seq in Hj. rewrite ent_onehot by lia.
  specialize (HX j). destruct (lab j =? Z.of_nat c)%Z; [|lra].
  assert (H : (0 <= ent X i j)%Q) by (apply HX; lia). lra.
Qed.

(** total(M^T . X) = total(X) for a one-hot M (n x k) whose labels all lie in 0..k-1. *)
Lemma total_mtrans_onehot n k m X lab :
  in_range k lab n ->
  (total k m (mmul k n m (mtrans n k (onehot n k lab)) X) == total n m X)%Q.
Proof.
  intros Hr. unfold total. rewrite <- (sumq_by_label n k lab (row_sum m X) Hr).
  apply sumq_ext. intros a Ha. apply in_seq in Ha. unfold row_sum.
  rewrite (sumq_ext _ (fun c => sumq (map (fun i => if (lab i =? Z.of_nat a)%Z then ent X i c else 0%Q) (seq 0 n)))).
  - rewrite (sumq_swap (fun c i => if (lab i =? Z.of_nat a)%Z then ent X i c else 0%Q)).
    apply sumq_ext. intros i Hi. destruct (lab i =? Z.of_nat a)%Z; [reflexivity|].
    apply sumq_zero. intros; reflexivity.
  - intros c Hc. apply in_seq in Hc. rewrite ent_mmul by lia.
    apply sumq_ext. intros i Hi. apply in_seq in Hi.
    rewrite ent_mtrans by lia. rewrite ent_onehot by lia.
    destruct (lab i =? Z.of_nat a)%Z; ring.
Qed.

Lemma total_ext n m m' X Y :
  (forall i, i < n -> (row_sum m X i == row_sum m' Y i)%Q) -> (total n m X == total n m' Y)%Q.
Proof. intros H. unfold total. apply sumq_ext. intros i Hi. apply in_seq in Hi. apply H. lia. Qed.

(** Entries of the two association orders of M_r^T A M_c are the block sums. *)
Lemma block_sum_right n m k k' A lr lc a b :
  a < k -> b < k' ->
  (ent (mmul k n k' (mtrans n k (onehot n k lr)) (mmul n m k' A (onehot m k' lc))) a b
   == block_sum n m A lr lc a b)%Q.
Proof.
  intros Ha Hb. rewrite ent_mmul by assumption. unfold block_sum.
  apply sumq_ext. intros i Hi. apply in_seq in Hi.
  rewrite ent_mtrans by lia. rewrite ent_onehot by lia. rewrite ent_mmul by lia.
  rewrite Qmult_comm, sumq_scale_r. apply sumq_ext. intros j Hj. apply in_seq in Hj.
  rewrite ent_onehot by lia.
  destruct (lr i =? Z.of_nat a)%Z; destruct (lc j =? Z.of_nat b)%Z; cbn [andb]; ring.
Qed.

Lemma block_sum_left n m k k' A lr lc a b :
  a < k -> b < k' ->
  (ent (mmul k m k' (mmul k n m (mtrans n k (onehot n k lr)) A) (onehot m k' lc)) a b
   == block_sum n m A lr lc a b)%Q.
Proof.
  intros Ha Hb. rewrite ent_mmul by assumption. unfold block_sum.
  rewrite (sumq_ext _ (fun j => sumq (map (fun i =>
     if (lr i =? Z.of_nat a)%Z && (lc j =? Z.of_nat b)%Z then ent A i j else 0%Q) (seq 0 n)))).
  - rewrite (sumq_swap (fun j i => if (lr i =? Z.of_nat a)%Z && (lc j =? Z.of_nat b)%Z then ent A i j else 0%Q)).
    reflexivity.
  - intros j Hj. apply in_seq in Hj. rewrite ent_mmul by lia. rewrite ent_onehot by lia.
    rewrite sumq_scale_r. apply sumq_ext. intros i Hi. apply in_seq in Hi.
    rewrite ent_mtrans by lia. rewrite ent_onehot by lia.
    destruct (lr i =? Z.of_nat a)%Z; destruct (lc j =? Z.of_nat b)%Z; cbn [andb]; ring.
Qed.

(** row [i] of [P] is non-negative, sums to 1 when [s] (the weight of node [i]) is positive and to 0 exactly when [s] is 0 *)
Definition prob_row_of (k : nat) (P : mat) (i : nat) (s : Q) : Prop :=
  (forall c, c < k -> (0 <= ent P i c)%Q) /\
  ((0 < s)%Q -> (row_sum k P i == 1)%Q) /\
  ((row_sum k P i == 0)%Q <-> (s == 0)%Q).

Lemma nonneg_row_sum n X i : (forall j, j < n -> (0 <= ent X i j)%Q) -> (0 <= row_sum n X i)%Q.
Proof. intros H. unfold row_sum. apply sumq_nonneg. intros j Hj. apply in_seq in Hj. apply H. lia. Qed.

Lemma normalize_rows r k Y i :
  (forall c, c < k -> (0 <= ent Y i c)%Q) -> i < r -> prob_row_of k (normalize r k Y) i (row_sum k Y i).
Proof.
  intros HY Hi.
  assert (Hnorm : (row_norm k Y i == row_sum k Y i)%Q).
  { unfold row_norm, row_sum. apply sumq_ext. intros c Hc. apply in_seq in Hc.
    apply Qabs_pos. apply HY. lia. }
  assert (Hent : forall c, c < k ->
            ent (normalize r k Y) i c = if Qeq_bool (row_norm k Y i) 0 then 0%Q else (ent Y i c / row_norm k Y i)%Q).
  { intros c Hc. unfold normalize. rewrite ent_mk by assumption. reflexivity. }
  pose proof (nonneg_row_sum k Y i HY) as Hpos.
  destruct (Qeq_bool (row_norm k Y i) 0) eqn:E.
  - apply Qeq_bool_iff in E. rewrite Hnorm in E.
    assert (Hs : (row_sum k (normalize r k Y) i == 0)%Q).
    { unfold row_sum. apply sumq_zero. intros c Hc. apply in_seq in Hc. rewrite Hent by lia. reflexivity. }
    split; [intros c Hc; rewrite Hent by exact Hc; lra|].
    split; [intros H; lra | split; intros _; assumption].
  - apply Qeq_bool_neq in E.
    assert (Hgt : (0 < row_norm k Y i)%Q) by (rewrite Hnorm in *; lra).
    assert (H1 : (row_sum k (normalize r k Y) i == 1)%Q).
    { unfold row_sum. rewrite (sumq_ext _ (fun c => (ent Y i c * / row_norm k Y i)%Q)).
      - rewrite <- sumq_scale_r. fold (row_sum k Y i). rewrite <- Hnorm. apply Qmult_inv_r. exact E.
      - intros c Hc. apply in_seq in Hc. rewrite Hent by lia. reflexivity. }
    split; [|split; [intros _; exact H1|]].
    + intros c Hc. rewrite Hent by exact Hc. unfold Qdiv.
      apply Qmult_le_0_compat; [apply HY; exact Hc | apply Qlt_le_weak, Qinv_lt_0_compat; exact Hgt].
    + rewrite H1, <- Hnorm. split; intros H; [lra|contradiction].
Qed.

(** * get_membership, _secondary_outputs *)

Lemma get_membership_ok labels o k M :
  get_membership labels o = Ok (k, M) ->
  M = membership labels k /\ (forall l, In l labels -> (l < Z.of_nat k)%Z) /\
  match o with Some k0 => k = k0 | None => True end.
Proof.
  unfold get_membership. intros H.
  destruct (match o with Some k1 => Ok k1 | None => _ end) as [k0|e] eqn:Ek; [|discriminate].
  destruct (forallb (fun l => (l <? Z.of_nat k0)%Z) labels) eqn:E; [|discriminate].
  injection H as <- <-. split; [reflexivity|]. split.
  - rewrite forallb_forall in E. intros l Hl. apply Z.ltb_lt, E, Hl.
  - destruct o; [congruence | exact I].
Qed.

Lemma labels_in_range labels k :
  (forall l, In l labels -> (0 <= l)%Z) -> (forall l, In l labels -> (l < Z.of_nat k)%Z) ->
  in_range k (nthz labels) (length labels).
Proof. intros H0 H1 j Hj. assert (H := nthz_In labels j Hj). split; [apply H0 | apply H1]; exact H. Qed.

(** Rows of normalize(X . M): the common core of probs_, probs_row_, probs_col_. *)
Lemma probs_core r n k X lab i :
  in_range k lab n -> (forall j, j < n -> (0 <= ent X i j)%Q) -> i < r ->
  prob_row_of k (normalize r k (mmul r n k X (onehot n k lab))) i (row_sum n X i).
Proof.
  intros Hr HX Hi. assert (Hrs := row_sum_mmul_onehot r n k X lab i Hr Hi).
  destruct (normalize_rows r k (mmul r n k X (onehot n k lab)) i) as [H1 [H2 H3]]; [|exact Hi|].
  { intros c Hc. apply ent_mmul_nonneg; assumption. }
  rewrite Hrs in H2, H3. split; [exact H1|]. split; assumption.
Qed.

Lemma secondary_ok A labels k P G :
  secondary A labels = Ok (k, P, G) ->
  let n := length labels in
  let M := onehot n k (nthz labels) in
  (forall l, In l labels -> (l < Z.of_nat k)%Z) /\
  P = normalize n k (mmul n n k A M) /\ G = mmul k n k (mtrans n k M) (mmul n n k A M).
Proof.
  intros H n M. unfold secondary in H.
  destruct (get_membership labels None) as [[k0 M0]|e] eqn:E; [|discriminate].
  injection H as -> EP EG. apply get_membership_ok in E. destruct E as [-> [H1 _]].
  split; [exact H1|]. split; symmetry; assumption.
Qed.

Lemma secondary_bip_ok B lrow lcol k Pr Pc G :
  secondary_bip B lrow lcol = Ok (k, Pr, Pc, G) ->
  let nr := length lrow in
  let nc := length lcol in
  let Mr := onehot nr k (nthz lrow) in
  let Mc := onehot nc k (nthz lcol) in
  (forall l, In l lrow -> (l < Z.of_nat k)%Z) /\ (forall l, In l lcol -> (l < Z.of_nat k)%Z) /\
  Pr = normalize nr k (mmul nr nc k B Mc) /\
  Pc = normalize nc k (mmul nc nr k (mtrans nr nc B) Mr) /\
  G = mmul k nc k (mmul k nr nc (mtrans nr k Mr) B) Mc.
Proof.
  intros H nr nc Mr Mc. unfold secondary_bip in H. destruct (zmax lrow) as [a|]; [|discriminate].
  destruct (zmax lcol) as [b|]; [|discriminate].
  destruct (Z.max a b + 1 <? 0)%Z; [discriminate|].
  destruct (get_membership lrow (Some (Z.to_nat (Z.max a b + 1)))) as [[k1 M1]|e1] eqn:E1; [|discriminate].
  destruct (get_membership lcol (Some (Z.to_nat (Z.max a b + 1)))) as [[k2 M2]|e2] eqn:E2; [|discriminate].
  injection H as Ek EPr EPc EG.
  apply get_membership_ok in E1. destruct E1 as [-> [H1 ->]].
  apply get_membership_ok in E2. destruct E2 as [-> [H2 ->]].
  rewrite Ek in *. repeat split; auto.
Qed.

(** * Composition of memberships across aggregation levels *)

(** M (n x k) is, up to ==, the one-hot matrix of the labelling f. *)
Definition oh (n k : nat) (M : mat) (f : nat -> nat) : Prop :=
  length M = n /\ (forall v, v < n -> f v < k) /\
  forall v c, v < n -> c < k -> (ent M v c == if Nat.eqb (f v) c then 1 else 0)%Q.

Lemma oh_identity n : oh n n (identity n) (fun v => v).
Proof.
  unfold identity. split; [apply mk_length|]. split; [auto|].
  intros v c Hv Hc. rewrite ent_mk by assumption. reflexivity.
Qed.

Lemma oh_step n k M f lab k' M' :
  oh n k M f -> length lab = k -> (forall l, In l lab -> (0 <= l)%Z) ->
  get_membership lab None = Ok (k', M') ->
  oh n k' (mmul n k k' M M') (fun v => Z.to_nat (nthz lab (f v))).
Proof.
  intros [HL [Hf HM]] Hlen Hpos Hg. apply get_membership_ok in Hg. destruct Hg as [-> [Hlt _]].
  assert (Hin : forall v, v < n -> In (nthz lab (f v)) lab) by (intros v Hv; apply nthz_In; rewrite Hlen; apply Hf; exact Hv).
  split; [unfold mmul; apply mk_length|]. split.
  - intros v Hv. specialize (Hlt _ (Hin v Hv)). specialize (Hpos _ (Hin v Hv)). lia.
  - intros v c Hv Hc. rewrite ent_mmul by assumption.
    rewrite (sumq_ext _ (fun j => if (Z.of_nat (f v) =? Z.of_nat j)%Z then ent (membership lab k') j c else 0%Q)).
    + rewrite (sumq_onehot (Z.of_nat (f v)) (fun j => ent (membership lab k') j c) 0 k)
        by (specialize (Hf v Hv); cbn [Nat.add]; lia).
      rewrite Nat2Z.id. unfold membership. rewrite ent_onehot by (try rewrite Hlen; auto).
      specialize (Hpos _ (Hin v Hv)).
      destruct (Z.eqb_spec (nthz lab (f v)) (Z.of_nat c)); destruct (Nat.eqb_spec (Z.to_nat (nthz lab (f v))) c);
        try reflexivity; lia.
    + intros j Hj. apply in_seq in Hj. rewrite (HM v j Hv) by lia.
      destruct (Nat.eqb_spec (f v) j); destruct (Z.eqb_spec (Z.of_nat (f v)) (Z.of_nat j)); try ring; lia.
Qed.

Lemma compose_levels_oh n levels : forall kcur M f k Mf,
  oh n kcur M f ->
  (forall lab, In lab levels -> forall l, In l lab -> (0 <= l)%Z) ->
  compose_levels n kcur M levels = Ok (k, Mf) ->
  oh n k Mf (fun v => fold_left (fun x lab => Z.to_nat (nthz lab x)) levels (f v)).
Proof.
  induction levels as [|lab rest IH]; intros kcur M f k Mf Hoh Hpos H.
  - cbn in H. injection H as <- <-. exact Hoh.
  - cbn [compose_levels] in H.
    destruct (get_membership lab None) as [[k' M']|e] eqn:Eg; [|discriminate].
    destruct (Nat.eqb kcur (length lab)) eqn:Ek; [|discriminate].
    apply Nat.eqb_eq in Ek.
    cbn [fold_left].
    apply (IH k' (mmul n kcur k' M M') (fun v => Z.to_nat (nthz lab (f v)))); [| |exact H].
    + apply oh_step; auto. intros l Hl. apply (Hpos lab); [left; reflexivity | exact Hl].
    + intros lab' Hin. apply Hpos. right; exact Hin.
Qed.

Lemma filter_all_in {A} (f : A -> bool) l : (forall x, In x l -> f x = true) -> filter f l = l.
Proof.
  induction l as [|a t IH]; intros H; [reflexivity|]. cbn [filter]. rewrite (H a (or_introl eq_refl)).
  f_equal. apply IH. intros x Hx. apply H. right. exact Hx.
Qed.

Lemma filter_none_in {A} (f : A -> bool) l : (forall x, In x l -> f x = false) -> filter f l = [].
Proof.
  induction l as [|a t IH]; intros H; [reflexivity|]. cbn [filter]. rewrite (H a (or_introl eq_refl)).
  apply IH. intros x Hx. apply H. right. exact Hx.
Qed.

Lemma filter_eqb_seq a s k : s <= a < s + k -> filter (Nat.eqb a) (seq s k) = [a].
Proof.
  revert s. induction k as [|k IH]; intros s H; [lia|].
  cbn [seq filter]. destruct (Nat.eqb_spec a s) as [<-|E]; [|apply IH; lia].
  f_equal. apply filter_none_in. intros x Hx. apply in_seq in Hx. apply Nat.eqb_neq. lia.
Qed.

Lemma flat_map_singletons {A} (g : A -> list nat) (l : list A) (d : A) : forall (h : nat -> nat),
  (forall v, v < length l -> g (nth v l d) = [h v]) -> flat_map g l = map h (seq 0 (length l)).
Proof.
  induction l as [|a t IH]; intros h H; [reflexivity|].
  cbn [flat_map length seq map]. assert (H0 := H 0 ltac:(cbn; lia)). cbn [nth] in H0. rewrite H0. cbn [app]. f_equal.
  rewrite <- seq_shift, map_map. apply IH. intros v Hv. apply (H (S v)). cbn. lia.
Qed.

Lemma indices_of_oh n k M f : oh n k M f -> indices_of k M = map f (seq 0 n).
Proof.
  intros [HL [Hf HM]]. unfold indices_of. rewrite <- HL.
  apply (flat_map_singletons _ M []). intros v Hv. rewrite HL in Hv.
  rewrite <- (filter_eqb_seq (f v) 0 k) by (specialize (Hf v Hv); lia).
  apply filter_ext_in. intros c Hc. apply in_seq in Hc.
  change (nthq (nth v M []) c) with (ent M v c).
  assert (E := HM v c Hv). specialize (E ltac:(lia)).
  destruct (Nat.eqb (f v) c); destruct (Qeq_bool (ent M v c) 0) eqn:Eq; try reflexivity.
  - apply Qeq_bool_iff in Eq. rewrite Eq in E. discriminate.
  - assert (Hq : Qeq_bool (ent M v c) 0 = true) by (apply Qeq_bool_iff; exact E). congruence.
Qed.

(** * KCenters *)

Lemma nthb_repeat b m v : nthb (repeat b m) v = b && Nat.ltb v m.
Proof.
  unfold nthb. revert v. induction m as [|m IH]; intros [|v]; cbn [repeat nth]; try (destruct b; reflexivity).
  apply IH.
Qed.

Lemma nthb_app (a b : list bool) v :
  nthb (a ++ b) v = if Nat.ltb v (length a) then nthb a v else nthb b (v - length a).
Proof.
  unfold nthb. destruct (Nat.ltb_spec v (length a)) as [H|H]; [apply app_nth1|apply app_nth2]; exact H.
Qed.

Lemma compute_mask_spec b pos nr nc mask :
  compute_mask b pos nr nc = Ok mask ->
  length mask = (if b then nr + nc else nr) /\
  forall v, nthb mask v = true <-> admissible b pos nr nc v.
Proof.
  unfold compute_mask, admissible. intros H.
  (* every mask is made of constant blocks: locate v by the comparisons that appear, the rest is arithmetic *)
  destruct b; [destruct pos|]; try discriminate; injection H as <-;
    (split; [rewrite ?app_length, !repeat_length; reflexivity|]); intros v;
    rewrite ?nthb_app, !nthb_repeat, ?repeat_length; cbn [andb];
    repeat match goal with |- context [Nat.ltb ?x ?y] => destruct (Nat.ltb_spec x y) end;
    split; intros; try discriminate; try reflexivity; lia.
Qed.

Lemma nthb_true_lt mask v : nthb mask v = true -> v < length mask.
Proof.
  intros H. destruct (Nat.lt_ge_cases v (length mask)) as [Hv|Hv]; [exact Hv|].
  unfold nthb in H. rewrite nth_overflow in H by exact Hv. discriminate.
Qed.

Lemma masked_In mask v : In v (masked mask) <-> nthb mask v = true.
Proof.
  unfold masked. rewrite filter_In, in_seq. split; [tauto|].
  intros H. split; [|exact H]. apply nthb_true_lt in H. lia.
Qed.

Lemma masked_NoDup mask : NoDup (masked mask).
Proof. unfold masked. apply NoDup_filter. apply seq_NoDup. Qed.

Lemma clear_mask_spec mask c v :
  nthb (clear_mask mask c) v = true <-> nthb mask v = true /\ v <> c.
Proof.
  unfold clear_mask, nthb. destruct (Nat.eq_dec c v) as [->|Hne].
  - split; [|tauto]. intros H. exfalso.
    assert (Hlt : v < length (upd mask v false)) by (apply nthb_true_lt; exact H).
    rewrite upd_length in Hlt. rewrite nth_upd_same in H by exact Hlt. discriminate.
  - rewrite nth_upd_other by exact Hne. split; [intros H; split; [exact H | auto] | tauto].
Qed.

Lemma fold_choice_In {A} (p : A -> A -> bool) (l : list A) (b : A) :
  In (fold_left (fun best c => if p best c then best else c) l b) (b :: l).
Proof.
  revert b. induction l as [|a t IH]; intros b; [left; reflexivity|].
  cbn [fold_left]. destruct (p b a).
  - destruct (IH b) as [H|H]; [left; exact H | right; right; exact H].
  - right. apply IH.
Qed.

Lemma qmin_In l m : qmin l = Some m -> In m l.
Proof.
  destruct l as [|x t]; [discriminate|]. cbn [qmin]. intros H. injection H as <-. apply (fold_choice_In Qle_bool).
Qed.

(** [centers]: distinct nodes drawn so far among those of [orig]; [mask]: the nodes of [orig] still to draw from *)
Definition drawn (orig mask : list bool) (centers : list nat) : Prop :=
  (forall v, nthb mask v = true <-> nthb orig v = true /\ ~ In v centers) /\
  NoDup centers /\ (forall c, In c centers -> nthb orig c = true).

Lemma drawn_nil orig : drawn orig orig [].
Proof. split; [intros v; cbn [In]; tauto|]. split; [constructor | intros c []]. Qed.

Lemma drawn_step orig mask centers c :
  drawn orig mask centers -> nthb mask c = true -> drawn orig (clear_mask mask c) (centers ++ [c]).
Proof.
  intros [Hmask [HN Hin]] Hc. apply Hmask in Hc. destruct Hc as [Hco Hcn]. split; [|split].
  - intros v. rewrite clear_mask_spec, Hmask, in_app_iff. cbn [In]. split.
    + intros [[H1 H2] H3]. split; [exact H1|]. intros [H|[H|[]]]; [auto | congruence].
    + intros [H1 H2]. split; [split; [exact H1 | tauto] | intros E; apply H2; right; left; auto].
  - apply NoDup_snoc; assumption.
  - intros c' Hc'. apply in_app_iff in Hc'. destruct Hc' as [Hc'|[<-|[]]]; auto.
Qed.

Section InitCenters.
  Context (orig : list bool) (ppr : list nat -> list Q) (pick : nat -> list nat -> nat).
  Context (Hpick : pick_ok pick).

  Lemma init_loop_inv : forall steps step mask centers trace,
    drawn orig mask centers -> length centers + steps <= length (masked orig) ->
    exists cs tr, init_loop steps step ppr pick mask centers trace = Ok (cs, tr) /\
                  length cs = length centers + steps /\ NoDup cs /\
                  forall c, In c cs -> nthb orig c = true.
  Proof.
    induction steps as [|s IH]; intros step mask centers trace Hd Hlen.
    - exists centers, trace. cbn. destruct Hd as [_ [HN Hin]]. repeat split; auto.
    - cbn [init_loop].
      (* fewer centers than nodes of orig: some node is still masked *)
      assert (Hne : masked mask <> []).
      { intros E.
        assert (Hincl : incl (masked orig) centers).
        { intros v Hv. apply masked_In in Hv.
          destruct (in_dec Nat.eq_dec v centers) as [Hc|Hc]; [exact Hc|]. exfalso.
          assert (Hm : nthb mask v = true) by (apply (proj1 Hd); split; assumption).
          apply masked_In in Hm. rewrite E in Hm. destruct Hm. }
        assert (Hle := NoDup_incl_length (masked_NoDup orig) Hincl). lia. }
      destruct (qmin (map (nthq (ppr centers)) (masked mask))) as [m|] eqn:Eq.
      2:{ exfalso. destruct (masked mask); [apply Hne; reflexivity | discriminate]. }
      set (cands := if Qeq_bool m 0 then filter (fun v => Qeq_bool (nthq (ppr centers) v) 0) (masked mask)
                    else masked mask).
      assert (Hcne : cands <> []).
      { unfold cands. destruct (Qeq_bool m 0) eqn:Em; [|exact Hne].
        apply qmin_In in Eq. apply in_map_iff in Eq. destruct Eq as [v [Ev Hv]].
        intros E. assert (Hf : In v (filter (fun v => Qeq_bool (nthq (ppr centers) v) 0) (masked mask))).
        { apply filter_In. split; [exact Hv|]. rewrite Ev. exact Em. }
        rewrite E in Hf. destruct Hf. }
      assert (Hsub : forall v, In v cands -> In v (masked mask)).
      { unfold cands. destruct (Qeq_bool m 0); [|auto]. intros v Hv. apply filter_In in Hv. tauto. }
      assert (Hc := Hpick step cands Hcne). apply Hsub in Hc. apply masked_In in Hc.
      destruct (IH (S step) (clear_mask mask (pick step cands)) (centers ++ [pick step cands]) (trace ++ [cands]))
        as [cs [tr [E [Hl Hcs]]]].
      + apply drawn_step; assumption.
      + rewrite app_length. cbn [length]. lia.
      + exists cs, tr. split; [exact E|]. split; [|exact Hcs].
        rewrite Hl, app_length. cbn [length]. lia.
  Qed.
End InitCenters.

Lemma init_centers_spec mask k ppr pick :
  pick_ok pick -> 1 <= k -> k <= length (masked mask) ->
  exists cs tr, init_centers mask k ppr pick = Ok (cs, tr) /\
                length cs = k /\ NoDup cs /\ forall c, In c cs -> nthb mask c = true.
Proof.
  intros Hpick Hk1 Hk. unfold init_centers.
  destruct (masked mask) as [|v0 rest] eqn:Em; [cbn in Hk; lia|].
  assert (Hc0 : nthb mask (pick 0 (v0 :: rest)) = true).
  { apply masked_In. rewrite Em. apply Hpick. discriminate. }
  destruct (init_loop_inv mask ppr pick Hpick (k - 1) 1 (clear_mask mask (pick 0 (v0 :: rest)))
                          [pick 0 (v0 :: rest)] [v0 :: rest]) as [cs [tr [E [Hl Hcs]]]].
  - apply (drawn_step mask mask [] _ (drawn_nil mask) Hc0).
  - cbn [length]. rewrite Em. lia.
  - exists cs, tr. split; [exact E|]. split; [cbn [length] in Hl; lia | exact Hcs].
Qed.

Lemma In_firstn {A} (l : list A) i y : In y (firstn i l) -> In y l.
Proof. intros H. rewrite <- (firstn_skipn i l). apply in_app_iff. left. exact H. Qed.

Lemma scatter_values {A} (init : list A) keys vals y :
  In y (scatter init keys vals) -> In y init \/ In y vals.
Proof.
  revert init vals. induction keys as [|k keys IH]; intros init [|x vals] H; try (left; exact H).
  rewrite scatter_cons in H. apply IH in H. destruct H as [H|H]; [|right; right; exact H].
  apply In_upd in H. destruct H as [->|H]; [right; left; reflexivity | left; exact H].
Qed.

Lemma argmax_row_lt k r : 1 <= k -> argmax_row k r < k.
Proof.
  intros Hk. unfold argmax_row.
  assert (H := fold_choice_In (fun best c => Qle_bool (r c) (r best)) (seq 1 (k - 1)) 0).
  destruct H as [H|H]; [rewrite <- H; lia|]. apply in_seq in H. lia.
Qed.

(** Labels produced by the classifier step lie in 0..(number of centers)-1, one per node. *)
Definition labels_good (n k : nat) (lab : list Z) : Prop :=
  length lab = n /\ forall l, In l lab -> (0 <= l < Z.of_nat k)%Z.

Lemma assign_labels_good n centers scores lab :
  assign_labels n centers scores = Ok lab -> labels_good n (length centers) lab.
Proof.
  unfold assign_labels. set (classes := zuniq (filter (fun l => (0 <=? l)%Z) (seed_vector n centers))).
  assert (Hcl : forall x, In x classes -> (0 <= x < Z.of_nat (length centers))%Z).
  { intros x Hin. unfold classes in Hin. apply (proj1 (zuniq_In _ _)) in Hin. apply filter_In in Hin. destruct Hin as [Hin Hpos].
    apply Z.leb_le in Hpos. unfold seed_vector in Hin. apply scatter_values in Hin.
    destruct Hin as [Hin|Hin].
    - apply repeat_spec in Hin. lia.
    - apply in_map_iff in Hin. destruct Hin as [c [Ec Hc]]. apply in_seq in Hc. lia. }
  destruct (Nat.ltb (length classes) 2) eqn:E; [discriminate|]. apply Nat.ltb_ge in E.
  intros H. injection H as <-. split; [rewrite map_length, seq_length; reflexivity|].
  intros l Hl. apply in_map_iff in Hl. destruct Hl as [v [<- _]].
  apply Hcl. apply nthz_In. apply argmax_row_lt. lia.
Qed.

Lemma kc_loop_good max_iter n scores centers : forall fuel n_iter prev labels out,
  (forall lab, labels = Some lab -> labels_good n (length centers) lab) ->
  kc_loop fuel max_iter n_iter n scores prev centers labels = Ok (Some out) ->
  labels_good n (length centers) out.
Proof.
  induction fuel as [|f IH]; intros n_iter prev labels out Hlab H.
  - cbn in H. injection H as ->. apply Hlab. reflexivity.
  - cbn [kc_loop] in H.
    destruct (negb (match prev with Some p => list_eqb p centers | None => false end) && Nat.ltb n_iter max_iter).
    + destruct (assign_labels n centers (scores n_iter)) as [lab|e] eqn:Ea; [|discriminate].
      apply (IH (S n_iter) (Some centers) (Some lab) out); [|exact H].
      intros lab' E. injection E as <-. apply (assign_labels_good _ _ _ _ Ea).
    + injection H as ->. apply Hlab. reflexivity.
Qed.

Definition run_good (mask : list bool) (k : nat) (t : list Z * list nat * Q) : Prop :=
  let lab := fst (fst t) in
  let centers := snd (fst t) in
  length centers = k /\ NoDup centers /\ (forall c, In c centers -> nthb mask c = true) /\
  labels_good (length mask) k lab.

Lemma kc_restarts_good mask k max_iter ppr pick scores modularity :
  (forall r, pick_ok (pick r)) -> 1 <= k -> k <= length (masked mask) ->
  forall rs runs, kc_restarts mask k max_iter ppr pick scores modularity rs = Ok runs ->
                  forall t, In t runs -> run_good mask k t.
Proof.
  intros Hpick Hk1 Hk. induction rs as [|r rest IH]; intros runs H t Ht.
  - cbn in H. injection H as <-. destruct Ht.
  - cbn [kc_restarts] in H.
    destruct (init_centers_spec mask k (ppr r) (pick r) (Hpick r) Hk1 Hk) as [cs [tr [E [Hl [Hnd Hall]]]]].
    rewrite E in H.
    destruct (kc_loop (S max_iter) max_iter 0 (length mask) (scores r) None cs None) as [[lab|]|e] eqn:El;
      try discriminate.
    destruct (kc_restarts mask k max_iter ppr pick scores modularity rest) as [more|e] eqn:Er; [|discriminate].
    injection H as <-. destruct Ht as [<-|Ht]; [|apply (IH more eq_refl t Ht)].
    unfold run_good. cbn [fst snd]. split; [exact Hl|]. split; [exact Hnd|]. split; [exact Hall|].
    rewrite <- Hl. apply (kc_loop_good max_iter (length mask) (scores r) cs (S max_iter) 0 None None lab); [|exact El].
    intros lab' E'. discriminate.
Qed.

(** What KCenters.fit reports: n_clusters distinct admissible centers, reported by row and column; one label below
    n_clusters per node, per row and per column for a bipartite graph. *)
Lemma kcenters_fit_spec bipartite pos n_row n_col k n_init max_iter ppr pick scores modularity out :
  (forall r, pick_ok (pick r)) ->
  kcenters_fit bipartite pos n_row n_col k n_init max_iter ppr pick scores modularity = Ok out ->
  (length (kc_centers out) = k /\ NoDup (kc_centers out) /\
   (forall c, In c (kc_centers out) -> admissible bipartite pos n_row n_col c) /\
   (kc_centers_row out, kc_centers_col out) = report_centers bipartite pos n_row (kc_centers out)) /\
  let n := if bipartite then n_row + n_col else n_row in
  exists lab, labels_good n k lab /\
    if bipartite then kc_labels out = firstn n_row lab /\ kc_labels_row out = Some (firstn n_row lab) /\
                      kc_labels_col out = Some (skipn n_row lab)
    else kc_labels out = lab /\ kc_labels_row out = None /\ kc_labels_col out = None.
Proof.
  intros Hpick H. unfold kcenters_fit in H.
  destruct (Nat.ltb k 2) eqn:Ek; [discriminate|]. apply Nat.ltb_ge in Ek.
  destruct (Nat.ltb n_init 1); [discriminate|].
  destruct (compute_mask bipartite pos n_row n_col) as [mask|e] eqn:Em; [|discriminate].
  destruct (Nat.ltb (length (masked mask)) k) eqn:Ekm; [discriminate|]. apply Nat.ltb_ge in Ekm.
  destruct (kc_restarts mask k max_iter ppr pick scores modularity (seq 0 n_init)) as [[|first more]|e] eqn:Er;
    try discriminate.
  apply compute_mask_spec in Em. destruct Em as [Hmlen Hadm].
  set (best := nth (argmax_q 0 (snd first) 1 (map snd more)) (first :: more) first) in H.
  assert (Hbest : In best (first :: more)).
  { unfold best. destruct (nth_in_or_default (argmax_q 0 (snd first) 1 (map snd more)) (first :: more) first) as [Hin| ->];
      [exact Hin | left; reflexivity]. }
  assert (Hg := kc_restarts_good mask k max_iter ppr pick scores modularity Hpick ltac:(lia) Ekm _ _ Er best Hbest).
  destruct Hg as [Hl [Hnd [Hall Hlab]]]. rewrite Hmlen in Hlab.
  assert (Hadm' : forall c, In c (snd (fst best)) -> admissible bipartite pos n_row n_col c).
  { intros c Hc. apply Hadm. apply Hall. exact Hc. }
  destruct bipartite; injection H as <-; cbn [kc_centers kc_labels kc_labels_row kc_labels_col kc_centers_row kc_centers_col];
    (split; [split; [exact Hl|]; split; [exact Hnd|]; split; [exact Hadm'|]; symmetry; apply surjective_pairing|];
     exists (fst (fst best)); split; [exact Hlab|]; unfold split_vars; cbn [fst snd]; auto).
Qed.

Lemma firstn_skipn_good n_row n_col k (lab : list Z) :
  labels_good (n_row + n_col) k lab ->
  labels_good n_row k (firstn n_row lab) /\ labels_good n_col k (skipn n_row lab).
Proof.
  intros [HL Hall]. split; split.
  - rewrite firstn_length. lia.
  - intros l Hl. apply Hall. apply (In_firstn lab n_row). exact Hl.
  - rewrite skipn_length. lia.
  - intros l Hl. apply Hall. rewrite <- (firstn_skipn n_row lab). apply in_app_iff. right. exact Hl.
Qed.

Lemma split_at_row n_row n_col (l : list nat) :
  NoDup l -> (forall v, In v l -> v < n_row + n_col) ->
  let r := filter (fun v => Nat.ltb v n_row) l in
  let c := map (fun v => v - n_row) (filter (fun v => negb (Nat.ltb v n_row)) l) in
  NoDup r /\ NoDup c /\ (forall v, In v r -> v < n_row) /\ (forall v, In v c -> v < n_col) /\
  length r + length c = length l /\
  (forall v, In v l <-> (In v r /\ v < n_row) \/ (In (v - n_row) c /\ n_row <= v)).
Proof.
  intros HN Hlt r c.
  assert (Hr : forall v, In v r <-> In v l /\ v < n_row).
  { intros v. unfold r. rewrite filter_In, Nat.ltb_lt. tauto. }
  assert (Hge : forall x, In x (filter (fun v => negb (Nat.ltb v n_row)) l) <-> In x l /\ n_row <= x).
  { intros x. rewrite filter_In, Bool.negb_true_iff, Nat.ltb_ge. tauto. }
  assert (Hc : forall v, In v c <-> In (v + n_row) l).
  { intros v. unfold c. rewrite in_map_iff. split.
    - intros [x [<- Hx]]. apply Hge in Hx. replace (x - n_row + n_row) with x by lia. tauto.
    - intros H. exists (v + n_row). split; [lia|]. apply Hge. split; [exact H|lia]. }
  split; [apply NoDup_filter; exact HN|]. split.
  { (* adding n_row back gives the upper part of l *)
    apply (NoDup_map_inv (fun v => v + n_row)). unfold c. rewrite map_map.
    rewrite (map_ext_in _ (fun x => x)), map_id; [apply NoDup_filter; exact HN|].
    intros x Hx. apply Hge in Hx. lia. }
  split; [intros v Hv; apply Hr in Hv; tauto|].
  split; [intros v Hv; apply Hc, Hlt in Hv; lia|].
  split.
  { unfold r, c. rewrite map_length. clear. induction l as [|a t IH]; [reflexivity|].
    cbn [filter]. destruct (Nat.ltb a n_row); cbn [negb length]; lia. }
  intros v. rewrite Hr, Hc. split.
  - intros H. destruct (Nat.lt_ge_cases v n_row) as [Hv|Hv]; [left; tauto|].
    right. replace (v - n_row + n_row) with v by lia. tauto.
  - intros [[[H _] _]|[H Hv]]; [exact H|]. replace (v - n_row + n_row) with v in H by lia. exact H.
Qed.

(** Reported row / column centers for a bipartite graph. *)
Lemma report_centers_spec pos n_row n_col centers :
  NoDup centers -> (forall c, In c centers -> admissible true pos n_row n_col c) ->
  match report_centers true pos n_row centers with
  | (cr, cc) =>
      let r := match cr with Some r => r | None => [] end in
      let c := match cc with Some c => c | None => [] end in
      NoDup r /\ NoDup c /\ (forall v, In v r -> v < n_row) /\ (forall v, In v c -> v < n_col) /\
      length r + length c = length centers /\
      (forall v, In v centers <-> (In v r /\ v < n_row) \/ (In (v - n_row) c /\ n_row <= v))
  end.
Proof.
  intros HN Hadm.
  assert (Hlt : forall v, In v centers -> v < n_row + n_col).
  { intros v Hv. apply Hadm in Hv. destruct pos; simpl in Hv; lia. }
  pose proof (split_at_row n_row n_col centers HN Hlt) as S. cbv zeta in S.
  unfold report_centers. destruct pos; cbn [admissible] in Hadm.
  (* PBoth (and the other values): among the centers, "not one of the row centers" means "not below n_row" *)
  3-4: rewrite (filter_ext_in (fun c => negb (memn c _)) (fun c => negb (Nat.ltb c n_row)));
    [exact S | intros v Hv; f_equal; apply Bool.eq_iff_eq_true; rewrite memn_In, filter_In, Nat.ltb_lt; tauto].
  - (* PRow: every center is a row *)
    rewrite (filter_all_in (fun v => Nat.ltb v n_row)), (filter_none_in (fun v => negb (Nat.ltb v n_row))) in S
      by (intros x Hx; apply Hadm in Hx; rewrite ?Bool.negb_false_iff; apply Nat.ltb_lt; exact Hx).
    exact S.
  - (* PCol: every center is a column *)
    rewrite (filter_none_in (fun v => Nat.ltb v n_row)), (filter_all_in (fun v => negb (Nat.ltb v n_row))) in S
      by (intros x Hx; apply Hadm in Hx; rewrite ?Bool.negb_true_iff; apply Nat.ltb_ge; lia).
    exact S.
Qed.

(** * The run-time check of the argsort contract is sound *)

Lemma is_perm_of_range_sound n perm : is_perm_of_range n perm = true -> Permutation perm (seq 0 n).
Proof.
  unfold is_perm_of_range. intros H. apply andb_true_iff in H. destruct H as [HL Hall].
  apply Nat.eqb_eq in HL. rewrite forallb_forall in Hall.
  apply Permutation_sym. apply NoDup_Permutation_bis.
  - apply seq_NoDup.
  - rewrite seq_length. lia.
  - intros v Hv. apply memn_In. apply Hall. exact Hv.
Qed.

Lemma sorted_by_sound keys perm : sorted_by keys perm = true -> Sorted Z.le (map (nthz keys) perm).
Proof.
  unfold sorted_by. induction perm as [|a t IH]; intros H; [constructor|].
  destruct t as [|b t']; [cbn; constructor; constructor|].
  cbn [tl combine forallb fst snd] in H. apply andb_true_iff in H. destruct H as [Hab Hrest].
  cbn [map]. constructor.
  - apply IH. exact Hrest.
  - constructor. apply Z.leb_le. exact Hab.
Qed.

(** * _post_processing as a whole *)

Lemma nodup_len_contig (l : list nat) k :
  contiguous k l -> length (nodup Z.eq_dec (map Z.of_nat l)) = k.
Proof.
  intros H. rewrite <- (seq_length k 0). rewrite <- (map_length Z.of_nat (seq 0 k)).
  apply Permutation_length. apply NoDup_Permutation.
  - apply NoDup_nodup.
  - apply FinFun.Injective_map_NoDup; [intros a b E; lia | apply seq_NoDup].
  - intros x. rewrite nodup_In, !in_map_iff. split; intros [c [E Hc]]; exists c; (split; [exact E|]).
    + apply in_seq. apply H in Hc. lia.
    + apply H. apply in_seq in Hc. lia.
Qed.

Lemma post_processing_pf argsort (sort_clusters shuffle_nodes : bool) index raw :
  (sort_clusters = true ->
   let keys := map (fun c => (- Z.of_nat c)%Z) (unique_counts (map Z.of_nat raw)) in
   argsort_ok keys (argsort keys)) ->
  (shuffle_nodes = true -> Permutation index (seq 0 (length raw))) ->
  (sort_clusters = false -> exists k0, contiguous k0 raw) ->
  let n := length raw in
  let out := post_processing argsort sort_clusters shuffle_nodes index raw in
  let img i := if shuffle_nodes then nthn index i else i in
  let k := length (nodup Z.eq_dec (map Z.of_nat raw)) in
  length out = n /\
  (forall i j, i < n -> j < n -> (nthn out (img i) = nthn out (img j) <-> nthn raw i = nthn raw j)) /\
  contiguous k out /\ (sort_clusters = true -> sizes_sorted k out).
Proof.
  intros Hsort Hshuf Hcontig n out img k.
  set (lab1 := if sort_clusters then reindex_labels argsort (map Z.of_nat raw) else raw).
  assert (H1 : length lab1 = n /\
               (forall i j, i < n -> j < n -> (nthn lab1 i = nthn lab1 j <-> nthn raw i = nthn raw j)) /\
               contiguous k lab1 /\ (sort_clusters = true -> sizes_sorted k lab1)).
  { unfold lab1. destruct sort_clusters.
    - destruct (reindex_labels_spec_pf argsort (map Z.of_nat raw) (Hsort eq_refl)) as [HL [HP [HC HS]]].
      rewrite map_length in HL, HP. split; [exact HL|]. split.
      + intros i j Hi Hj. rewrite (HP i j Hi Hj). rewrite !nthz_map_of_nat_any. lia.
      + split; [exact HC | intros _; exact HS].
    - split; [reflexivity|]. split; [tauto|]. destruct (Hcontig eq_refl) as [k0 Hk0].
      unfold k. rewrite (nodup_len_contig raw k0 Hk0). split; [exact Hk0 | discriminate]. }
  destruct H1 as [HL [HP [HC HS]]].
  unfold out, post_processing. fold lab1. unfold img. destruct shuffle_nodes.
  - assert (HPm : Permutation index (seq 0 (length lab1))) by (rewrite HL; apply Hshuf; reflexivity).
    destruct (unshuffle_correct_pf index lab1 HPm) as [HL2 [Hval Hperm]].
    split; [rewrite HL2; exact HL|]. split.
    + intros i j Hi Hj. rewrite !Hval by (rewrite HL; assumption). apply HP; assumption.
    + split.
      * intros c. rewrite <- (HC c). split; apply Permutation_in; [exact Hperm | apply Permutation_sym; exact Hperm].
      * intros Es a b Hab Hb.
        rewrite !(proj1 (Permutation_count_occ Nat.eq_dec _ _) Hperm). apply HS; assumption.
  - split; [exact HL|]. split; [exact HP|]. split; assumption.
Qed.
