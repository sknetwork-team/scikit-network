(** Static characterisation of dendrogram validity, shared by the C07 proofs.

    [valid n D] (Model/Dendrogram.v) replays the merges over a dict of live clusters.  [wf_dend n D] says the same
    thing without a replay, in a form that is stable under permutations of the rows:
      - n - 1 rows;
      - no cluster id occurs twice among the children of all the rows (each cluster is merged at most once,
        and the two children of a row differ);
      - the children of row t are leaves or clusters created by earlier rows (ids < n + t);
      - the size column of a row is the sum of the sizes of its two children (1 for a leaf, the size column of
        the row that created it for an internal id). *)
From SKN Require Import Base.Util Model.Dendrogram Model.Cuts Proofs.DendroBase.
From Coq Require Import Permutation Lia.

Definition csize (n : nat) (D : dendrogram) (c : nat) : nat :=
  if Nat.ltb c n then 1 else r_size (nth (c - n) D drow0).

Definition sizes_add (n : nat) (D : dendrogram) : Prop :=
  forall t r, nth_error D t = Some r -> r_size r = csize n D (r_left r) + csize n D (r_right r).

Record wf_dend (n : nat) (D : dendrogram) : Prop := {
  wf_len : S (length D) = n;
  wf_nodup : NoDup (flat_map children D);
  wf_lt : ids_lt n D;
  wf_size : sizes_add n D }.

Lemma firstn_S_nth {A} (l : list A) t x : nth_error l t = Some x -> firstn (S t) l = firstn t l ++ [x].
Proof.
  revert t; induction l as [|a l IH]; intros [|t] H; simpl in *; try discriminate.
  - now inversion H.
  - f_equal. now apply IH.
Qed.

Lemma csize_app n D1 D2 c : c < n + length D1 -> csize n (D1 ++ D2) c = csize n D1 c.
Proof.
  intros H. unfold csize. destruct (Nat.ltb c n) eqn:E; [reflexivity|]. apply Nat.ltb_ge in E.
  rewrite app_nth1 by lia. reflexivity.
Qed.

Lemma csize_leaf n D c : c < n -> csize n D c = 1.
Proof. intros H. unfold csize. apply Nat.ltb_lt in H. now rewrite H. Qed.

Lemma csize_node n D t r : nth_error D t = Some r -> csize n D (n + t) = r_size r.
Proof.
  intros H. unfold csize. now rewrite ltb_add_r, add_sub_l, (nth_error_nth _ _ drow0 H).
Qed.

Lemma sumn_repeat1 n : sumn (repeat 1 n) = n.
Proof. unfold sumn. induction n; simpl; lia. Qed.

Lemma aremove_sum k (l : list (nat * nat)) v :
  alookup k l = Some v -> sumn (map snd (aremove k l)) + v = sumn (map snd l).
Proof.
  intros H. apply aremove_perm in H. apply (Permutation_map snd) in H. apply sumn_perm in H.
  rewrite H. unfold sumn. simpl. lia.
Qed.

Lemma valid_unfold n D : valid n D = true <->
  S (length D) = n /\ (exists live', valid_run n D (init_live (repeat 1 n)) = Some live') /\
  (D <> [] -> r_size (last D drow0) = n).
Proof.
  unfold valid, validw. rewrite repeat_length, sumn_repeat1, !andb_true_iff, Nat.eqb_eq. split.
  - intros [[Hlen Hrun] Hlast]. split; [exact Hlen|]. split.
    + destruct (valid_run n D (init_live (repeat 1 n))) as [live'|]; [now exists live' | discriminate].
    + destruct D; [congruence|]. intros _. now apply Nat.eqb_eq.
  - intros (Hlen & [live' Hrun] & Hlast). rewrite Hrun. split; [now split|].
    destruct D; [reflexivity|]. apply Nat.eqb_eq, Hlast. discriminate.
Qed.

Definition sizes_ok (n : nat) (D : dendrogram) (live : list (nat * nat)) : Prop :=
  forall x s, In (x, s) live -> s = csize n D x.

Lemma sizes_ok_step n D t r live : nth_error D t = Some r -> sizes_ok n D live ->
  sizes_ok n D (aremove (r_right r) (aremove (r_left r) live) ++ [(n + t, r_size r)]).
Proof.
  intros Hr Hs x sx Hin. apply in_app_iff in Hin. destruct Hin as [Hin|[Hin|[]]].
  - apply Hs. apply aremove_In in Hin. now apply aremove_In in Hin.
  - injection Hin as <- <-. symmetry. now apply csize_node.
Qed.

Lemma valid_run_sizes n D :
  forall rows done live live',
    D = done ++ rows -> sizes_ok n D live ->
    valid_run (n + length done) rows live = Some live' ->
    forall t r, length done <= t -> nth_error D t = Some r ->
                r_size r = csize n D (r_left r) + csize n D (r_right r).
Proof.
  induction rows as [|r rows IH]; intros done live live' HD Hs Hrun t r' Ht Hr.
  - rewrite app_nil_r in HD. subst done. apply nth_error_Some_lt in Hr. lia.
  - apply valid_run_cons in Hrun. destruct Hrun as (si & sj & Hi & Hj & _ & Hsz & Hrun).
    assert (Hrow : nth_error D (length done) = Some r) by (rewrite HD; apply nth_error_app_length).
    destruct (Nat.eq_dec t (length done)) as [->|Hneq].
    + rewrite Hrow in Hr. inversion Hr; subst r'. apply alookup_In in Hi. apply alookup_In in Hj.
      now rewrite <- (Hs _ _ Hi), <- (Hs _ _ Hj).
    + assert (HD' : D = (done ++ [r]) ++ rows) by now rewrite <- app_assoc.
      rewrite <- Nat.add_succ_r, <- (last_length done r) in Hrun.
      apply (IH _ _ _ HD' (sizes_ok_step _ _ _ _ _ Hrow Hs) Hrun t r'); [rewrite last_length; lia | exact Hr].
Qed.

Lemma init_live_sizes n D : sizes_ok n D (init_live (repeat 1 n)).
Proof.
  intros x s Hin. unfold init_live in Hin. rewrite repeat_length in Hin.
  assert (H1 := in_combine_l _ _ _ _ Hin). assert (H2 := in_combine_r _ _ _ _ Hin).
  apply in_seq in H1. apply repeat_spec in H2. subst s. rewrite csize_leaf; [reflexivity | lia].
Qed.

Lemma rows_nodup n D :
  (forall t r, nth_error D t = Some r -> row_ok n D t r) ->
  forall t, t <= length D -> NoDup (flat_map children (firstn t D)).
Proof.
  intros Hrows. induction t as [|t IH]; intros Ht; [constructor|].
  destruct (nth_error D t) as [r|] eqn:Hr; [|apply nth_error_None in Hr; lia].
  rewrite (firstn_S_nth _ _ _ Hr), flat_map_app. simpl.
  destruct (Hrows _ _ Hr) as (Hne & _ & _ & Hl & Hrr). apply NoDup_snoc2; try assumption. apply IH. lia.
Qed.

Theorem valid_wf n D : valid n D = true -> wf_dend n D.
Proof.
  intros H. destruct (valid_rows n D H) as [Hlen Hrows]. split.
  - exact Hlen.
  - rewrite <- (firstn_all D). now apply (rows_nodup n D Hrows).
  - now apply valid_ids_lt.
  - apply valid_unfold in H. destruct H as (_ & [live' Hrun] & _). rewrite <- (Nat.add_0_r n) in Hrun at 1.
    intros t r. apply (valid_run_sizes n D D [] _ live' eq_refl (init_live_sizes n D) Hrun), Nat.le_0_l.
Qed.

Lemma valid_run_shape :
  forall rows next live live',
    valid_run next rows live = Some live' ->
    sumn (map snd live') = sumn (map snd live) /\ length live' + length rows = length live /\
    (rows <> [] -> exists l k, live' = l ++ [(k, r_size (last rows drow0))]).
Proof.
  induction rows as [|r rows IH]; intros next live live' Hrun.
  - simpl in Hrun. inversion Hrun; subst. simpl. repeat split; try lia. congruence.
  - apply valid_run_cons in Hrun. destruct Hrun as (si & sj & Hi & Hj & Hne & Hsz & Hrun).
    destruct (IH _ _ _ Hrun) as (Hsum & Hlen & Hlast).
    assert (Hj' : alookup (r_right r) (aremove (r_left r) live) = Some sj)
      by (rewrite alookup_aremove_neq; [exact Hj | congruence]).
    assert (E1 := aremove_sum _ _ _ Hi). assert (E2 := aremove_sum _ _ _ Hj').
    assert (L1 := aremove_length _ _ _ Hi). assert (L2 := aremove_length _ _ _ Hj').
    split; [|split].
    + rewrite Hsum, map_app, sumn_app. unfold sumn in *. simpl. lia.
    + rewrite app_length in Hlen. simpl in *. lia.
    + intros _. destruct rows as [|r2 rows'].
      * simpl in Hrun. inversion Hrun; subst. now eexists _, _.
      * destruct (Hlast ltac:(discriminate)) as (l & k & Hl). now exists l, k.
Qed.

Lemma wf_run n D : wf_dend n D ->
  forall rows done live,
    D = done ++ rows -> linv n done live -> sizes_ok n D live ->
    exists live', valid_run (n + length done) rows live = Some live'.
Proof.
  intros [Hlen Hnd Hlt Hsz]. induction rows as [|r rows IH]; intros done live HD Hinv Hs.
  - simpl. eauto.
  - assert (Hrow : nth_error D (length done) = Some r) by (rewrite HD; apply nth_error_app_length).
    destruct (Hlt _ _ Hrow) as [Hl Hr].
    (* the children of r are distinct and not children of an earlier row, hence live *)
    rewrite HD, flat_map_app in Hnd. simpl in Hnd.
    apply NoDup_app_remove_aux in Hnd. destruct Hnd as (_ & Hnd2 & Hdisj).
    assert (Hnl : ~ In (r_left r) (flat_map children done)) by (intros Hc; apply (Hdisj _ Hc); simpl; tauto).
    assert (Hnr : ~ In (r_right r) (flat_map children done)) by (intros Hc; apply (Hdisj _ Hc); simpl; tauto).
    assert (Hne : r_left r <> r_right r).
    { simpl in Hnd2. inversion Hnd2 as [|? ? Hn _]; subst. intros E. apply Hn. rewrite E. now left. }
    assert (Hkeys := proj1 (proj2 Hinv)).
    destruct (In_key_alookup (r_left r) live) as [si Hi]; [apply Hkeys; tauto|].
    destruct (In_key_alookup (r_right r) live) as [sj Hj]; [apply Hkeys; tauto|].
    assert (Hstep := valid_run_step n done live r Hinv si sj Hi Hj Hne (r_size r)).
    assert (HD' : D = (done ++ [r]) ++ rows) by now rewrite <- app_assoc.
    destruct (IH _ _ HD' Hstep (sizes_ok_step _ _ _ _ _ Hrow Hs)) as [live' Hrun].
    exists live'. apply valid_run_cons. exists si, sj. repeat split; try assumption.
    + rewrite (Hsz _ _ Hrow). apply alookup_In in Hi. apply alookup_In in Hj.
      now rewrite <- (Hs _ _ Hi), <- (Hs _ _ Hj).
    + now rewrite <- Nat.add_succ_r, <- (last_length done r).
Qed.

Theorem wf_valid n D : wf_dend n D -> valid n D = true.
Proof.
  intros Hwf. assert (Hlen := wf_len _ _ Hwf).
  destruct (wf_run n D Hwf D [] _ eq_refl (linv_init_repeat n) (init_live_sizes n D)) as [live' Hrun].
  simpl in Hrun. rewrite Nat.add_0_r in Hrun.
  apply valid_unfold. split; [exact Hlen|]. split; [now exists live'|]. intros Hne.
  (* one entry is left, it carries the last size and the sum of all the initial sizes *)
  destruct (valid_run_shape _ _ _ _ Hrun) as (Hsum & Hlen2 & Hlast). destruct (Hlast Hne) as (l & k & El).
  unfold init_live in Hsum, Hlen2. rewrite repeat_length in Hsum, Hlen2.
  rewrite combine_length, seq_length, repeat_length, Nat.min_id in Hlen2.
  rewrite map_snd_combine, sumn_repeat1 in Hsum by now rewrite seq_length, repeat_length.
  assert (Hl0 : l = []).
  { rewrite El, app_length in Hlen2. simpl in Hlen2. destruct l; [reflexivity|simpl in Hlen2; lia]. }
  subst l. rewrite El in Hsum. unfold sumn in Hsum. simpl in Hsum. lia.
Qed.

Theorem valid_iff_wf n D : valid n D = true <-> wf_dend n D.
Proof. split; [apply valid_wf | apply wf_valid]. Qed.

(** The size column of a valid dendrogram counts the leaves below each merge. *)
Lemma csize_leaves n D : wf_dend n D -> forall c, c < n + length D -> csize n D c = length (leaves n D c).
Proof.
  intros Hwf. apply (ids_ind n D _ (wf_lt _ _ Hwf)).
  - intros c Hc. now rewrite csize_leaf, leaves_leaf.
  - intros t r Hr IHl IHr.
    now rewrite (csize_node _ _ _ _ Hr), (leaves_node _ _ _ _ (wf_lt _ _ Hwf) Hr), app_length,
      (wf_size _ _ Hwf _ _ Hr), IHl, IHr.
Qed.

Theorem valid_size_leaves n D : valid n D = true ->
  forall t r, nth_error D t = Some r -> r_size r = length (leaves n D (n + t)).
Proof.
  intros H t r Hr. apply valid_wf in H. assert (Ht := nth_error_Some_lt _ _ _ Hr).
  rewrite <- (csize_leaves n D H) by lia. symmetry. now apply csize_node.
Qed.

(** The n - 1 rows use 2n - 2 of the 2n - 1 ids as children: at most one id is never merged. *)
Lemma live_unique n D l : wf_dend n D -> NoDup l ->
  (forall x, In x l -> x < n + length D /\ ~ In x (flat_map children D)) -> length l <= 1.
Proof.
  intros [Hlen Hnd Hlt _] Hl Hx.
  assert (H : NoDup (l ++ flat_map children D)) by (apply NoDup_app_disj; [assumption | assumption | apply Hx]).
  apply NoDup_incl_length with (l' := seq 0 (n + length D)) in H.
  - rewrite app_length, children_length, seq_length in H. lia.
  - intros x Hin. apply in_seq. apply in_app_iff in Hin.
    destruct Hin as [Hin|Hin]; [apply Hx in Hin | apply (ids_lt_children_lt n D Hlt) in Hin]; lia.
Qed.
