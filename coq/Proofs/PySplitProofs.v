(** split_dendrogram of sknetwork/hierarchy/postprocess.py at source level: the statements regenerated on every run (Gen/PySplit.v)
    leave in dendrogram_row / dendrogram_col exactly the rows of Model/Hierarchy.v:split_dendrogram, for every dendrogram and shape
    (the code treats the two sides in ONE loop, the model in two: the link is a product simulation). *)
From SKN Require Import Base.Util Model.Dendrogram Model.Cuts Model.Hierarchy Model.PyImp Gen.PySplit
     Proofs.PyCutsProofs Proofs.PyImpFrame.
From Coq Require Import String Qround.
Local Open Scope nat_scope.
Local Open Scope string_scope.

Lemma alookup_snoc_fresh {A} (l : list (nat * A)) k v : alookup k l = None -> alookup k (l ++ [(k, v)]) = Some v.
Proof.
  induction l as [|[k' v'] t IH]; simpl; intros H; [rewrite Nat.eqb_refl; reflexivity|].
  destruct (Nat.eqb k k'); [discriminate | apply IH; exact H].
Qed.

Definition sim_side (idv sizev newv outv : string) (st : sstate) (e : env) : Prop :=
  e idv = Some (embN (s_id st)) /\ e sizev = Some (embN (s_size st)) /\ e newv = Some (vnat (s_new st)) /\
  e outv = Some (VList (map embNewRow (s_rows st))).

Definition side_stmt (k : nat) : stmt :=
  match loop_body src_split_dendrogram with
  | SSeq _ (SSeq _ (SSeq a b)) => if Nat.eqb k 0 then a else b
  | _ => SSkip
  end.

Lemma side_step k idv sizev newv outv n1 n2 D t r st (e : env) :
  (k, idv, sizev, newv, outv) = (0, "id_row", "size_row", "id_row_new", "dendrogram_row") \/
  (k, idv, sizev, newv, outv) = (1, "id_col", "size_col", "id_col_new", "dendrogram_col") ->
  nth_error D t = Some r -> e "dendrogram" = Some (embD D) -> e "t" = Some (vnat t) ->
  e "n1" = Some (vnat n1) -> e "n2" = Some (vnat n2) ->
  e "i" = Some (fnat (r_left r)) -> e "j" = Some (fnat (r_right r)) ->
  sim_side idv sizev newv outv st e ->
  keys_lt (n1 + n2 + t) (s_id st) -> keys_lt (n1 + n2 + t) (s_size st) ->
  match split_step (n1 + n2 + t) r st with
  | Ok st' => exists e', exec (side_stmt k) e = POk e' /\ sim_side idv sizev newv outv st' e'
  | Err _ => exists er, exec (side_stmt k) e = PErr er
  end.
Proof.
  intros Hside Hr Hd Ht Hn1 Hn2 Hi Hj (Sid & Ssz & Snew & Sout) Hk1 Hk2.
  unfold split_step; destruct st as [sid ssz snew srows]; cbn [s_id s_size s_new s_rows] in *.
  set (key := n1 + n2 + t) in *.
  (* the two copies of the text differ in the four names only, and no step below mentions one: both are run at once.
     After the case analysis there are, for either side: both clusters on it, only the left one, only the right one. *)
  destruct Hside as [E|E]; injection E as -> -> -> -> ->.
  all: match goal with |- context [side_stmt ?k] => expose (side_stmt k) end.
  all: erewrite exec_if by run.
  all: destruct (amem (r_left r) sid && amem (r_right r) sid);
         [|erewrite exec_if by run; destruct (amem (r_left r) sid);
           [|erewrite exec_if by run; destruct (amem (r_right r) sid); [|exists e; split; [reflexivity|]; repeat split; assumption]]].
  (* only one of the two: its entries move to the new key *)
  2,3,5,6: erewrite exec_seq, (exec_move_key vnat) by first [run | assumption | intros; run].
  2-5: destruct (alookup _ ssz) as [s|]; [|eexists; reflexivity].
  2-5: erewrite (exec_move_key vnat) by first [run | assumption | intros; run].
  2-5: destruct (alookup _ sid) as [a|]; [|eexists; reflexivity].
  2-5: eexists; split; [reflexivity|]; repeat split; lookup.
  (* both: the merge *)
  all: erewrite exec_seq, (exec_merge_keys vnat Nat.add _ _ _ _ _ _ _ _ _ key ssz add_nat)
         by first [discriminate | run | assumption | intros; run].
  all: destruct (alookup _ ssz) as [si|]; [|eexists; reflexivity].
  all: destruct (alookup _ (aremove _ ssz)) as [sj|]; [|eexists; reflexivity].
  all: erewrite exec_seq, (exec_setitem_new vnat _ _ _ _ _ _ snew key sid) by first [run | assumption].
  all: erewrite exec_seq, exec_append by first [lookup | not_assigned].
  all: erewrite eval_list_cons, (eval_pop_dict vnat _ _ _ _ _ (r_left r) (sid ++ [(key, snew)])) by run.
  all: destruct (alookup _ (sid ++ _)) as [a|]; [|eexists; reflexivity].
  all: erewrite eval_list_cons, (eval_pop_dict vnat _ _ _ _ _ (r_right r) (aremove (r_left r) (sid ++ [(key, snew)]))) by run.
  all: destruct (alookup _ (aremove _ (sid ++ _))) as [b|]; [|eexists; reflexivity].
  all: cbv beta iota.
  (* the height, and the size just stored under the new key *)
  all: assert (Hsz : alookup key (aremove (r_right r) (aremove (r_left r) ssz) ++ [(key, si + sj)]) = Some (si + sj))
         by (apply alookup_snoc_fresh, keys_lt_fresh; do 2 apply keys_lt_aremove; exact Hk2).
  all: erewrite eval_list_cons_ok by run.
  all: erewrite exec_incr by lookup.
  all: eexists; split; [reflexivity|]; repeat split; try lookup.
  all: cbv [upd String.eqb Ascii.eqb Bool.eqb s_rows]; rewrite map_app; reflexivity.
Qed.

Lemma row_step n1 n2 D t r st (e : env) :
  nth_error D t = Some r -> e "dendrogram" = Some (embD D) -> e "t" = Some (vnat t) ->
  e "n1" = Some (vnat n1) -> e "n2" = Some (vnat n2) ->
  e "i" = Some (fnat (r_left r)) -> e "j" = Some (fnat (r_right r)) ->
  sim_side "id_row" "size_row" "id_row_new" "dendrogram_row" st e ->
  keys_lt (n1 + n2 + t) (s_id st) -> keys_lt (n1 + n2 + t) (s_size st) ->
  match split_step (n1 + n2 + t) r st with
  | Ok st' => exists e', exec (side_stmt 0) e = POk e' /\ sim_side "id_row" "size_row" "id_row_new" "dendrogram_row" st' e'
  | Err _ => exists er, exec (side_stmt 0) e = PErr er
  end.
Proof. exact (side_step 0 _ _ _ _ n1 n2 D t r st e (or_introl eq_refl)). Qed.

Lemma col_step n1 n2 D t r st (e : env) :
  nth_error D t = Some r -> e "dendrogram" = Some (embD D) -> e "t" = Some (vnat t) ->
  e "n1" = Some (vnat n1) -> e "n2" = Some (vnat n2) ->
  e "i" = Some (fnat (r_left r)) -> e "j" = Some (fnat (r_right r)) ->
  sim_side "id_col" "size_col" "id_col_new" "dendrogram_col" st e ->
  keys_lt (n1 + n2 + t) (s_id st) -> keys_lt (n1 + n2 + t) (s_size st) ->
  match split_step (n1 + n2 + t) r st with
  | Ok st' => exists e', exec (side_stmt 1) e = POk e' /\ sim_side "id_col" "size_col" "id_col_new" "dendrogram_col" st' e'
  | Err _ => exists er, exec (side_stmt 1) e = PErr er
  end.
Proof. exact (side_step 1 _ _ _ _ n1 n2 D t r st e (or_intror eq_refl)). Qed.

Lemma split_step_keys key r st st' :
  keys_lt key (s_id st) -> keys_lt key (s_size st) -> split_step key r st = Ok st' ->
  keys_lt (S key) (s_id st') /\ keys_lt (S key) (s_size st').
Proof.
  intros K1 K2. unfold split_step.
  assert (W : forall {A} (l : list (nat * A)), keys_lt key l -> keys_lt (S key) l)
    by (intros A l H; eapply keys_lt_weaken; [exact H | lia]).
  assert (Ap : forall {A} (l : list (nat * A)) v, keys_lt key l -> keys_lt (S key) (l ++ [(key, v)]))
    by (intros A l v H; apply keys_lt_app; [exact H | lia]).
  destruct (amem (r_left r) (s_id st) && amem (r_right r) (s_id st)).
  - destruct (alookup (r_left r) (s_size st)); [|discriminate].
    destruct (alookup (r_right r) (aremove (r_left r) (s_size st))); [|discriminate].
    destruct (alookup (r_left r) (s_id st ++ [(key, s_new st)])); [|discriminate].
    destruct (alookup (r_right r) (aremove (r_left r) (s_id st ++ [(key, s_new st)]))); [|discriminate].
    intros H; inversion H; subst; cbn [s_id s_size]. split.
    + intros k Hk. apply akeys_aremove_incl, akeys_aremove_incl in Hk. exact (Ap _ _ _ K1 k Hk).
    + apply Ap. do 2 apply keys_lt_aremove. exact K2.
  - destruct (amem (r_left r) (s_id st)).
    + destruct (alookup (r_left r) (s_size st)); [|discriminate]. destruct (alookup (r_left r) (s_id st)); [|discriminate].
      intros H; inversion H; subst; cbn [s_id s_size]. split; apply Ap; apply keys_lt_aremove; assumption.
    + destruct (amem (r_right r) (s_id st)).
      * destruct (alookup (r_right r) (s_size st)); [|discriminate]. destruct (alookup (r_right r) (s_id st)); [|discriminate].
        intros H; inversion H; subst; cbn [s_id s_size]. split; apply Ap; apply keys_lt_aremove; assumption.
      * intros H; inversion H; subst. split; apply W; assumption.
Qed.

Definition INV (n1 n2 : nat) (D : dendrogram) (rs cs : sstate) (e : env) : Prop :=
  e "dendrogram" = Some (embD D) /\ e "n1" = Some (vnat n1) /\ e "n2" = Some (vnat n2) /\
  sim_side "id_row" "size_row" "id_row_new" "dendrogram_row" rs e /\
  sim_side "id_col" "size_col" "id_col_new" "dendrogram_col" cs e.

Definition split_f : Z -> env -> pres env := fun z e' => exec (loop_body src_split_dendrogram) (upd "t" (VInt z) e').

Lemma body_shape : exists si sj, loop_body src_split_dendrogram = SSeq si (SSeq sj (SSeq (side_stmt 0) (side_stmt 1))) /\
  si = SAssign "i" (EIndex (EIndex (EVar "dendrogram") (EVar "t")) (EInt 0)) /\
  sj = SAssign "j" (EIndex (EIndex (EVar "dendrogram") (EVar "t")) (EInt 1)).
Proof. eexists. eexists. split; [vm_compute; reflexivity|]. split; reflexivity. Qed.

Lemma split_iter n1 n2 D t r rs cs (e : env) :
  nth_error D t = Some r -> INV n1 n2 D rs cs e ->
  keys_lt (n1 + n2 + t) (s_id rs) -> keys_lt (n1 + n2 + t) (s_size rs) ->
  keys_lt (n1 + n2 + t) (s_id cs) -> keys_lt (n1 + n2 + t) (s_size cs) ->
  match split_step (n1 + n2 + t) r rs, split_step (n1 + n2 + t) r cs with
  | Ok rs', Ok cs' => exists e', split_f (Z.of_nat t) e = POk e' /\ INV n1 n2 D rs' cs' e'
  | _, _ => exists er, split_f (Z.of_nat t) e = PErr er
  end.
Proof.
  intros Hr (Hd & Hn1 & Hn2 & SR & SC) K1 K2 K3 K4. unfold split_f.
  destruct body_shape as (si & sj & -> & -> & ->). change (VInt (Z.of_nat t)) with (vnat t).
  do 2 erewrite exec_seq_ok by run.
  set (e2 := upd "j" _ _). rewrite exec_seq.
  pose proof (row_step n1 n2 D t r rs e2 Hr Hd eq_refl Hn1 Hn2 eq_refl eq_refl SR K1 K2) as RS.
  destruct (split_step (n1 + n2 + t) r rs) as [rs'|]; [|destruct RS as [er ->]; exists er; reflexivity].
  destruct RS as (e3 & E3 & SR3). rewrite E3.
  (* the row side leaves alone what the column side reads, and conversely *)
  pose proof (fun x => exec_frame_b _ _ _ x E3) as F3.
  pose proof (col_step n1 n2 D t r cs e3 Hr) as CS.
  rewrite !F3 in CS by reflexivity. destruct SC as (C1 & C2 & C3 & C4).
  specialize (CS Hd eq_refl Hn1 Hn2 eq_refl eq_refl
                 ltac:(repeat split; rewrite F3 by reflexivity; assumption) K3 K4).
  destruct (split_step (n1 + n2 + t) r cs) as [cs'|]; [|exact CS].
  destruct CS as (e4 & E4 & SC4). exists e4. split; [exact E4|].
  pose proof (fun x => exec_frame_b _ _ _ x E4) as F4. destruct SR3 as (R1 & R2 & R3 & R4).
  split; [|split; [|split; [|split; [|exact SC4]]]].
  1-3: rewrite F4, F3 by reflexivity; assumption.
  repeat split; rewrite F4 by reflexivity; assumption.
Qed.

Lemma split_loop_link n1 n2 D : forall rows t0 rs cs (e : env),
  INV n1 n2 D rs cs e ->
  (forall t r, nth_error rows t = Some r -> nth_error D (t0 + t) = Some r) ->
  keys_lt (n1 + n2 + t0) (s_id rs) -> keys_lt (n1 + n2 + t0) (s_size rs) ->
  keys_lt (n1 + n2 + t0) (s_id cs) -> keys_lt (n1 + n2 + t0) (s_size cs) ->
  match split_loop (n1 + n2 + t0) rows rs, split_loop (n1 + n2 + t0) rows cs with
  | Ok rs', Ok cs' => exists e', for_range split_f (Datatypes.length rows) (Z.of_nat t0) e = POk e' /\ INV n1 n2 D rs' cs' e'
  | _, _ => exists er, for_range split_f (Datatypes.length rows) (Z.of_nat t0) e = PErr er
  end.
Proof.
  induction rows as [|r rest IH]; intros t0 rs cs e HI Hnth K1 K2 K3 K4.
  - cbn [split_loop Datatypes.length for_range]. exists e. split; [reflexivity | exact HI].
  - cbn [split_loop Datatypes.length for_range].
    assert (Hr : nth_error D t0 = Some r) by (rewrite <- (Nat.add_0_r t0); apply Hnth; reflexivity).
    pose proof (split_iter n1 n2 D t0 r rs cs e Hr HI K1 K2 K3 K4) as SI.
    destruct (split_step (n1 + n2 + t0) r rs) as [rs1|er1] eqn:ER.
    + destruct (split_step (n1 + n2 + t0) r cs) as [cs1|er2] eqn:EC.
      * destruct SI as (e1 & F1 & HI1). rewrite F1.
        replace (Z.of_nat t0 + 1)%Z with (Z.of_nat (S t0)) by lia.
        destruct (split_step_keys _ _ _ _ K1 K2 ER) as [K1' K2'].
        destruct (split_step_keys _ _ _ _ K3 K4 EC) as [K3' K4'].
        replace (S (n1 + n2 + t0)) with (n1 + n2 + S t0) in * by lia.
        apply (IH (S t0) rs1 cs1 e1); try assumption.
        intros t r' Ht. replace (S t0 + t) with (t0 + S t) by lia. apply Hnth. exact Ht.
      * destruct SI as [er SI]. rewrite SI.
        destruct (split_loop (S (n1 + n2 + t0)) rest rs1); eexists; reflexivity.
    + destruct SI as [er SI]. rewrite SI. eexists. reflexivity.
Qed.

Lemma for_range_app (f : Z -> env -> pres env) a : forall b i (e : env),
  for_range f (a + b) i e = match for_range f a i e with POk e' => for_range f b (i + Z.of_nat a)%Z e' | PErr x => PErr x end.
Proof.
  induction a as [|a IH]; intros b i e.
  - cbn [for_range Nat.add]. replace (i + Z.of_nat 0)%Z with i by lia. reflexivity.
  - cbn [for_range Nat.add]. destruct (f i e) as [e1|x]; [|reflexivity]. rewrite IH.
    replace (i + 1 + Z.of_nat a)%Z with (i + Z.of_nat (S a))%Z by lia. reflexivity.
Qed.

Lemma nth_error_firstn_some {A} (l : list A) : forall c t r, nth_error (firstn c l) t = Some r -> nth_error l t = Some r.
Proof.
  induction l as [|a l IH]; intros [|c] [|t] r H; simpl in *; try discriminate; auto. apply (IH c). exact H.
Qed.

Lemma split_flat : flat src_split_dendrogram =
  (firstn 9 (flat src_split_dendrogram) ++ [last_stmt src_split_dendrogram])%list.
Proof. vm_compute. reflexivity. Qed.

(** [{k: v for x in range(n)}] with new, increasing keys [lo + x] and natural numbers as values *)
Lemma eval_dict_range x ke ve ne (e : env) n lo (kf g : nat -> nat) :
  eval ne e = POk (e, vnat n) -> (forall i, kf i = lo + i) ->
  (forall i, eval ke (upd x (vnat i) e) = POk (upd x (vnat i) e, vnat (kf i))) ->
  (forall i, eval ve (upd x (vnat i) e) = POk (upd x (vnat i) e, vnat (g i))) ->
  eval (EDictRange x ke ve ne) e = POk (e, embN (map (fun i => (lo + i, g i)) (seq 0 n))).
Proof.
  intros Hn Hkf Hk Hv. cbn [eval]. rewrite Hn. unfold vnat at 1. rewrite Nat2Z.id.
  rewrite (dict_range_fresh _ lo (fun i => vnat (g i))); [|intros i | intros k []].
  - unfold embN, embA. rewrite map_map. reflexivity.
  - change (VInt (Z.of_nat i)) with (vnat i). rewrite Hk, Hv, Hkf. reflexivity.
Qed.

Lemma split_init_link n1 n2 D (e0 : env) :
  e0 "dendrogram" = Some (embD D) -> e0 "shape" = Some (VList [vnat n1; vnat n2]) ->
  exists e9, exec_list (firstn 9 (flat src_split_dendrogram)) e0 = POk e9 /\
             INV n1 n2 D (split_init 0 n1) (split_init n1 n2) e9.
Proof.
  intros Hd Hs. expose (firstn 9 (flat src_split_dendrogram)). change 1%Z with (Z.of_nat 1).
  eexists. split.
  { do 5 (eapply exec_list_cons_run; [run|]).
    eapply exec_list_cons_run; [apply exec_assign, (eval_dict_range _ _ _ _ _ n1 0 (fun i => i) (fun _ => 1)); [run | reflexivity | intros; run ..]|].
    eapply exec_list_cons_run; [apply exec_assign, (eval_dict_range _ _ _ _ _ n2 n1 (fun i => i + n1) (fun _ => 1)); [run | intros; lia | intros; run ..]|].
    eapply exec_list_cons_run; [apply exec_assign, (eval_dict_range _ _ _ _ _ n1 0 (fun i => i) (fun i => i)); [run | reflexivity | intros; run ..]|].
    eapply exec_list_cons_run; [apply exec_assign, (eval_dict_range _ _ _ _ _ n2 n1 (fun i => i + n1) (fun i => i)); [run | intros; lia | intros; run ..]|].
    reflexivity. }
  repeat split; lookup.
Qed.

Theorem src_split_dendrogram_is_model D n1 n2 (e0 : env) :
  e0 "dendrogram" = Some (embD D) -> e0 "shape" = Some (VList [vnat n1; vnat n2]) ->
  match split_dendrogram D n1 n2 with
  | Ok (Dr, Dc) => exists e', exec src_split_dendrogram e0 = POk e' /\
                              e' "dendrogram_row" = Some (VList (map embNewRow Dr)) /\
                              e' "dendrogram_col" = Some (VList (map embNewRow Dc))
  | Err _ => exists er, exec src_split_dendrogram e0 = PErr er
  end.
Proof.
  intros Hd Hs. rewrite exec_flat, split_flat, exec_list_app.
  destruct (split_init_link n1 n2 D e0 Hd Hs) as (e9 & F9 & HI). rewrite F9. cbn [exec_list].
  expose (last_stmt src_split_dendrogram).
  set (cnt := n1 + n2 - 1).
  rewrite (exec_for_pred "t" _ _ e9 (n1 + n2)) by (destruct HI as (_ & Hn1 & Hn2 & _); run). fold cnt.
  change (for_range _ cnt 0%Z e9) with (for_range split_f cnt (Z.of_nat 0) e9).
  assert (KK : forall lo c (h : nat -> nat), lo + c <= n1 + n2 -> keys_lt (n1 + n2 + 0) (map (fun i => (lo + i, h i)) (seq 0 c)))
    by (intros; apply init_keys; lia).
  unfold split_dendrogram, split_side. fold cnt.
  destruct (Nat.ltb_spec (Datatypes.length D) cnt) as [Hshort|Hlong].
  - (* the dendrogram is too short: some iteration raises *)
    replace cnt with (Datatypes.length D + (cnt - Datatypes.length D)) by lia. rewrite for_range_app.
    pose proof (split_loop_link n1 n2 D D 0 (split_init 0 n1) (split_init n1 n2) e9 HI (fun t r H => H)
                  (KK 0 n1 _ ltac:(lia)) (KK 0 n1 _ ltac:(lia)) (KK n1 n2 _ ltac:(lia)) (KK n1 n2 _ ltac:(lia))) as L.
    destruct (split_loop (n1 + n2 + 0) D (split_init 0 n1)) as [rs'|]; [destruct (split_loop (n1 + n2 + 0) D (split_init n1 n2)) as [cs'|]|];
      try (destruct L as [er ->]; eexists; reflexivity).
    destruct L as (e' & -> & (Hd' & _)).
    destruct (cnt - Datatypes.length D) as [|c] eqn:Ec; [lia|]. cbn [for_range].
    assert (Ferr : split_f (Z.of_nat 0 + Z.of_nat (Datatypes.length D)) e' = PErr PIndexError).
    { unfold split_f. destruct body_shape as (si & sj & -> & -> & ->). cbn [exec eval upd String.eqb Ascii.eqb Bool.eqb].
      rewrite Hd'. unfold embD. cbn [index_vals]. replace (Z.of_nat 0 + Z.of_nat (Datatypes.length D))%Z with (Z.of_nat (Datatypes.length D)) by lia.
      cbn [upd String.eqb Ascii.eqb Bool.eqb]. rewrite list_index_nat, (proj2 (nth_error_None _ _)); [reflexivity|]. rewrite map_length. lia. }
    rewrite Ferr. eexists. reflexivity.
  - assert (Hlen : Datatypes.length (firstn cnt D) = cnt) by (rewrite firstn_length; lia).
    pose proof (split_loop_link n1 n2 D (firstn cnt D) 0 (split_init 0 n1) (split_init n1 n2) e9 HI) as L.
    rewrite Hlen in L.
    specialize (L ltac:(intros t r H; cbn [Nat.add]; apply (nth_error_firstn_some D cnt); exact H)
                  (KK 0 n1 _ ltac:(lia)) (KK 0 n1 _ ltac:(lia)) (KK n1 n2 _ ltac:(lia)) (KK n1 n2 _ ltac:(lia))).
    rewrite Nat.add_0_r in L.
    destruct (split_loop (n1 + n2) (firstn cnt D) (split_init 0 n1)) as [rs'|];
      [destruct (split_loop (n1 + n2) (firstn cnt D) (split_init n1 n2)) as [cs'|]|];
      try (destruct L as [er ->]; exists er; reflexivity).
    destruct L as (e' & -> & (_ & _ & _ & (_ & _ & _ & R) & (_ & _ & _ & C))). exists e'. split; [reflexivity|]. split; assumption.
Qed.

