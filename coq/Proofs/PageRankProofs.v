(** Proofs about the PageRank model (Model/PageRank.v): contraction, uniqueness, residual bound,
    the surfer operator, Horner / RH, D-iteration, and the refutation of the push kernel. *)
From SKN Require Import Base.Util Model.PageRank.
From Coq Require Import Qabs Qreduction Lqa Lia Setoid.
Close Scope Q_scope.
Open Scope nat_scope.

Lemma bsum_ext n f g : (forall i, i < n -> (f i == g i)%Q) -> (bsum n f == bsum n g)%Q.
Proof.
  induction n as [|n IH]; intros H; cbn [bsum]; [reflexivity|].
  rewrite IH by (intros; apply H; lia). rewrite (H n) by lia. reflexivity.
Qed.

Lemma bsum_0 n f : (forall i, i < n -> (f i == 0)%Q) -> (bsum n f == 0)%Q.
Proof.
  induction n as [|n IH]; intros H; cbn [bsum]; [reflexivity|].
  rewrite IH by (intros; apply H; lia). rewrite (H n) by lia. lra.
Qed.

Lemma bsum_plus n f g : (bsum n (fun i => f i + g i) == bsum n f + bsum n g)%Q.
Proof. induction n as [|n IH]; cbn [bsum]; [lra|]. rewrite IH. lra. Qed.

Lemma bsum_minus n f g : (bsum n (fun i => f i - g i) == bsum n f - bsum n g)%Q.
Proof. induction n as [|n IH]; cbn [bsum]; [lra|]. rewrite IH. lra. Qed.

Lemma bsum_scale n c f : (bsum n (fun i => c * f i) == c * bsum n f)%Q.
Proof. induction n as [|n IH]; cbn [bsum]; [lra|]. rewrite IH. lra. Qed.

Lemma bsum_scale_r n c f : (bsum n (fun i => f i * c) == bsum n f * c)%Q.
Proof. induction n as [|n IH]; cbn [bsum]; [lra|]. rewrite IH. lra. Qed.

Lemma bsum_shift m (f : nat -> Q) : (bsum (S m) f == f O + bsum m (fun k => f (S k)))%Q.
Proof. induction m as [|m IH]; [cbn [bsum]; ring|]. cbn [bsum] in *. rewrite IH. ring. Qed.

Lemma bsum_le n f g : (forall i, i < n -> (f i <= g i)%Q) -> (bsum n f <= bsum n g)%Q.
Proof.
  induction n as [|n IH]; intros H; cbn [bsum]; [lra|].
  assert (H1 := IH (fun i Hi => H i (Nat.lt_lt_succ_r _ _ Hi))). assert (H2 := H n (Nat.lt_succ_diag_r n)). lra.
Qed.

Lemma bsum_nonneg n f : (forall i, i < n -> (0 <= f i)%Q) -> (0 <= bsum n f)%Q.
Proof.
  induction n as [|n IH]; intros H; cbn [bsum]; [lra|].
  assert (H1 := IH (fun i Hi => H i (Nat.lt_lt_succ_r _ _ Hi))). assert (H2 := H n (Nat.lt_succ_diag_r n)). lra.
Qed.

Lemma bsum_swap n m (f : nat -> nat -> Q) :
  (bsum n (fun i => bsum m (fun j => f i j)) == bsum m (fun j => bsum n (fun i => f i j)))%Q.
Proof.
  induction n as [|n IH]; cbn [bsum].
  - symmetry. apply bsum_0. intros; reflexivity.
  - rewrite IH. rewrite <- bsum_plus. apply bsum_ext. intros; reflexivity.
Qed.

Lemma Qabs_bsum n f : (Qabs (bsum n f) <= bsum n (fun i => Qabs (f i)))%Q.
Proof.
  induction n as [|n IH]; cbn [bsum]; [cbn; lra|].
  eapply Qle_trans; [apply Qabs_triangle|]. lra.
Qed.

Lemma bsum_delta_out n i c : n <= i -> (bsum n (fun j => if Nat.eqb j i then c else 0) == 0)%Q.
Proof.
  intros H. apply bsum_0. intros j Hj. destruct (Nat.eqb_spec j i); [lia|reflexivity].
Qed.

Lemma bsum_delta n i c : i < n -> (bsum n (fun j => if Nat.eqb j i then c else 0) == c)%Q.
Proof.
  induction n as [|n IH]; intros H; [lia|]. cbn [bsum].
  destruct (Nat.eqb_spec n i) as [->|Ne].
  - rewrite bsum_delta_out by apply le_n. lra.
  - rewrite IH by lia. lra.
Qed.

Lemma norm1_nonneg n f : (0 <= norm1 n f)%Q.
Proof. apply bsum_nonneg. intros; apply Qabs_nonneg. Qed.

Lemma norm1_ext n f g : (forall i, i < n -> (f i == g i)%Q) -> (norm1 n f == norm1 n g)%Q.
Proof. intros H. apply bsum_ext. intros i Hi. rewrite (H i Hi). reflexivity. Qed.

Lemma norm1_scale_r n f c : (norm1 n (fun i => f i * c) == norm1 n f * Qabs c)%Q.
Proof. unfold norm1. rewrite <- bsum_scale_r. apply bsum_ext. intros i _. apply Qabs_Qmult. Qed.

Lemma norm1_triangle n f g : (norm1 n (fun i => f i + g i) <= norm1 n f + norm1 n g)%Q.
Proof.
  unfold norm1. rewrite <- bsum_plus. apply bsum_le. intros; apply Qabs_triangle.
Qed.

Lemma norm1_zero_inv n f : (norm1 n f <= 0)%Q -> forall i, i < n -> (f i == 0)%Q.
Proof.
  induction n as [|n IH]; intros H i Hi; [lia|]. unfold norm1 in H. cbn [bsum] in H.
  assert (H0 := norm1_nonneg n f). unfold norm1 in H0. assert (H1 := Qabs_nonneg (f n)).
  destruct (Nat.eq_dec i n) as [->|Hne].
  - assert (Hz : (Qabs (f n) <= 0)%Q) by lra. apply Qabs_Qle_condition in Hz. lra.
  - apply IH; [unfold norm1; lra | lia].
Qed.

Lemma vsum_le_norm1 n f : (Qabs (vsum n f) <= norm1 n f)%Q.
Proof. apply Qabs_bsum. Qed.

Definition nonneg_mat (n : nat) (M : mat) : Prop := forall i j, i < n -> j < n -> (0 <= M i j)%Q.
Definition colsum_le (n : nat) (M : mat) (alpha : Q) : Prop :=
  forall j, j < n -> (bsum n (fun i => M i j) <= alpha)%Q.

Lemma norm1_contract_gen n (M : mat) (alpha : Q) (z : vec) :
  nonneg_mat n M -> colsum_le n M alpha -> (norm1 n (mv n M z) <= alpha * norm1 n z)%Q.
Proof.
  intros Hpos Hcol. unfold norm1, mv.
  eapply Qle_trans.
  { apply bsum_le. intros i Hi. apply Qabs_bsum. }
  rewrite bsum_swap. rewrite <- bsum_scale. apply bsum_le. intros j Hj.
  rewrite (bsum_ext n (fun i => Qabs (M i j * z j)) (fun i => M i j * Qabs (z j))%Q).
  2:{ intros i Hi. rewrite Qabs_Qmult. rewrite (Qabs_pos (M i j)) by (apply Hpos; assumption). reflexivity. }
  rewrite (bsum_scale_r n (Qabs (z j)) (fun i => M i j)). assert (H1 := Hcol j Hj). assert (H2 := Qabs_nonneg (z j)). nra.
Qed.

Lemma mv_ext n M z z' : (forall j, j < n -> (z j == z' j)%Q) -> forall i, (mv n M z i == mv n M z' i)%Q.
Proof. intros H i. unfold mv. apply bsum_ext. intros j Hj. rewrite (H j Hj). reflexivity. Qed.

Lemma mv_minus n M z z' i : (mv n M (fun j => z j - z' j) i == mv n M z i - mv n M z' i)%Q.
Proof. unfold mv. rewrite <- bsum_minus. apply bsum_ext. intros; lra. Qed.

Lemma mv_plus n M z z' i : (mv n M (fun j => z j + z' j) i == mv n M z i + mv n M z' i)%Q.
Proof. unfold mv. rewrite <- bsum_plus. apply bsum_ext. intros; lra. Qed.

Lemma mv_scale n M c z i : (mv n M (fun j => c * z j) i == c * mv n M z i)%Q.
Proof. unfold mv. rewrite <- bsum_scale. apply bsum_ext. intros; lra. Qed.

(** Validator soundness: a small residual means a small distance to the solution. *)
Lemma residual_bound_gen n M alpha (b x xs : vec) (eps : Q) :
  nonneg_mat n M -> colsum_le n M alpha -> (alpha < 1)%Q ->
  (norm1 n (fun i => x i - (mv n M x i + b i)) <= eps)%Q ->
  (forall i, i < n -> (xs i == mv n M xs i + b i)%Q) ->
  (norm1 n (fun i => x i - xs i) <= eps / (1 - alpha))%Q.
Proof.
  intros Hpos Hcol Ha Hres Hxs.
  set (d := fun j => (x j - xs j)%Q).
  set (r := fun i => (x i - (mv n M x i + b i))%Q).
  assert (Hd : forall j, j < n -> (d j == mv n M d j + r j)%Q).
  { intros j Hj. unfold d, r. rewrite mv_minus. rewrite (Hxs j Hj) at 1. lra. }
  assert (Hn : (norm1 n d <= norm1 n (mv n M d) + norm1 n r)%Q).
  { rewrite (norm1_ext n d (fun j => mv n M d j + r j)%Q Hd). apply norm1_triangle. }
  assert (Hc := norm1_contract_gen n M alpha d Hpos Hcol).
  fold r in Hres. fold d.
  apply Qle_shift_div_l; [lra|]. nra.
Qed.

(** Hence x = M x + b has at most one solution: a solution has residual 0. *)
Lemma fixed_point_unique n M alpha (b x x' : vec) :
  nonneg_mat n M -> colsum_le n M alpha -> (alpha < 1)%Q ->
  (forall i, i < n -> (x i == mv n M x i + b i)%Q) ->
  (forall i, i < n -> (x' i == mv n M x' i + b i)%Q) ->
  forall i, i < n -> (x i == x' i)%Q.
Proof.
  intros Hpos Hcol Ha Hx Hx' i Hi.
  assert (Hz : (norm1 n (fun j => x j - x' j) <= 0 / (1 - alpha))%Q).
  { apply (residual_bound_gen n M alpha b x x' 0 Hpos Hcol Ha); [|exact Hx'].
    apply Qle_lteq. right. apply bsum_0. intros j Hj. rewrite (Hx j Hj) at 1.
    setoid_replace (mv n M x j + b j - (mv n M x j + b j))%Q with 0%Q by ring. reflexivity. }
  unfold Qdiv in Hz. rewrite Qmult_0_l in Hz.
  assert (Hd := norm1_zero_inv n _ Hz i Hi). cbv beta in Hd. lra.
Qed.

Lemma entry_cons e r j :
  (entry (e :: r) j == (if Nat.eqb (fst e) j then snd e else 0) + entry r j)%Q.
Proof.
  unfold entry, sumq. cbn [filter]. destruct (Nat.eqb (fst e) j); cbn [map fold_right]; lra.
Qed.

Lemma entry_nil j : entry [] j = 0%Q.
Proof. reflexivity. Qed.

Lemma wf_row_cons n e r : wf_row n (e :: r) = true <-> fst e < n /\ wf_row n r = true.
Proof. cbn [wf_row forallb]. rewrite andb_true_iff, Nat.ltb_lt. reflexivity. Qed.

Lemma nonneg_row_cons e r : nonneg_row (e :: r) = true <-> (0 <= snd e)%Q /\ nonneg_row r = true.
Proof. cbn [nonneg_row forallb]. rewrite andb_true_iff, Qle_bool_iff. reflexivity. Qed.

Lemma bsum_entry n r : wf_row n r = true -> (bsum n (entry r) == sumq (map snd r))%Q.
Proof.
  induction r as [|e r IH]; intros H.
  - apply bsum_0. intros; reflexivity.
  - apply wf_row_cons in H. destruct H as [He Hr].
    rewrite (bsum_ext n _ (fun j => (if Nat.eqb j (fst e) then snd e else 0) + entry r j)%Q).
    2:{ intros j Hj. rewrite entry_cons. rewrite (Nat.eqb_sym (fst e) j). reflexivity. }
    rewrite bsum_plus. rewrite bsum_delta by exact He. rewrite (IH Hr). cbn [map]. rewrite sumq_cons. reflexivity.
Qed.

Lemma entry_nonneg r j : nonneg_row r = true -> (0 <= entry r j)%Q.
Proof.
  induction r as [|e r IH]; intros H; [cbn; lra|].
  apply nonneg_row_cons in H. destruct H as [He Hr]. rewrite entry_cons. assert (H1 := IH Hr).
  destruct (Nat.eqb (fst e) j); lra.
Qed.

Lemma row_norm_nonneg_eq r : nonneg_row r = true -> (row_norm r == sumq (map snd r))%Q.
Proof.
  induction r as [|e r IH]; intros H; [reflexivity|].
  apply nonneg_row_cons in H. destruct H as [He Hr]. unfold row_norm in *. cbn [map]. rewrite !sumq_cons.
  rewrite (IH Hr). rewrite Qabs_pos by exact He. reflexivity.
Qed.

Lemma sumq_nonneg r : nonneg_row r = true -> (0 <= sumq (map snd r))%Q.
Proof.
  induction r as [|e r IH]; intros H; [cbn; lra|].
  apply nonneg_row_cons in H. destruct H as [He Hr]. cbn [map]. rewrite sumq_cons. assert (H1 := IH Hr). lra.
Qed.

Lemma wf_row_map n (f : Q -> Q) r :
  wf_row n (map (fun e => (fst e, f (snd e))) r) = wf_row n r.
Proof. induction r as [|e r IH]; [reflexivity|]. cbn [map wf_row forallb fst]. f_equal. exact IH. Qed.

Lemma sumq_map_div r s :
  (sumq (map snd (map (fun e : nat * Q => (fst e, Qred (snd e / s))) r)) == sumq (map snd r) / s)%Q.
Proof.
  induction r as [|e r IH]; cbn [map snd].
  - cbn. unfold Qdiv. lra.
  - rewrite !sumq_cons. rewrite IH. rewrite Qred_correct. unfold Qdiv. lra.
Qed.

Lemma nonneg_row_map_div r s :
  (0 < s)%Q -> nonneg_row r = true ->
  nonneg_row (map (fun e : nat * Q => (fst e, Qred (snd e / s))) r) = true.
Proof.
  intros Hs. induction r as [|e r IH]; intros H; [reflexivity|].
  apply nonneg_row_cons in H. destruct H as [He Hr].
  cbn [map]. apply nonneg_row_cons. split; [|exact (IH Hr)].
  cbn [snd]. rewrite Qred_correct. apply Qle_shift_div_l; [exact Hs|]. lra.
Qed.

Lemma normalize_row_facts n r :
  wf_row n r = true -> nonneg_row r = true ->
  wf_row n (normalize_row r) = true /\ nonneg_row (normalize_row r) = true /\
  (bsum n (entry (normalize_row r)) == (if Qeq_bool (sumq (map snd r)) 0 then 0 else 1))%Q.
Proof.
  intros Hwf Hnn. assert (Hs := row_norm_nonneg_eq r Hnn). assert (Hp := sumq_nonneg r Hnn).
  rewrite <- Hs, <- (Qred_correct (row_norm r)). unfold normalize_row.
  destruct (Qeq_bool (Qred (row_norm r)) 0) eqn:E.
  - split; [reflexivity|]. split; [reflexivity|]. apply bsum_0. intros; reflexivity.
  - apply Qeq_bool_neq in E. rewrite Qred_correct in E.
    assert (Hpos : (0 < Qred (row_norm r))%Q) by (rewrite Qred_correct; lra).
    split; [rewrite (wf_row_map n (fun w => Qred (w / Qred (row_norm r))%Q)); exact Hwf|].
    split; [apply nonneg_row_map_div; assumption|].
    rewrite bsum_entry by (rewrite (wf_row_map n (fun w => Qred (w / Qred (row_norm r))%Q)); exact Hwf).
    rewrite sumq_map_div, Qred_correct, <- Hs. field. exact E.
Qed.

Lemma forallb_nth {A} (f : A -> bool) l d i : forallb f l = true -> f d = true -> f (nth i l d) = true.
Proof.
  revert i. induction l as [|a l IH]; intros [|i] H Hd; cbn [nth]; try exact Hd.
  - cbn in H. apply andb_prop in H. tauto.
  - cbn in H. apply andb_prop in H. apply IH; tauto.
Qed.

Lemma wf_wrow_of g i : wf_graph g = true -> wf_row (length g) (wrow_of g i) = true.
Proof. intros H. unfold wrow_of. apply (forallb_nth (wf_row (length g))); [exact H|reflexivity]. Qed.

Lemma nonneg_wrow_of g i : nonneg_graph g = true -> nonneg_row (wrow_of g i) = true.
Proof. intros H. unfold wrow_of. apply (forallb_nth nonneg_row); [exact H|reflexivity]. Qed.

Lemma wrow_of_normalize g i : wrow_of (normalize g) i = normalize_row (wrow_of g i).
Proof.
  unfold wrow_of, normalize. change (@nil (nat * Q)) with (normalize_row []) at 1. apply map_nth.
Qed.

Definition good_graph (g : wgraph) : Prop := wf_graph g = true /\ nonneg_graph g = true.

(** The transition matrix of a well-formed non-negative graph: non-negative, row i sums to has_out i. *)
Lemma P_facts g :
  good_graph g ->
  (forall i j, (0 <= P g i j)%Q) /\
  (forall i, (bsum (length g) (P g i) == has_out g i)%Q) /\
  (forall i, has_out g i = 0%Q \/ has_out g i = 1%Q).
Proof.
  intros [Hwf Hnn].
  assert (Hr := fun i => normalize_row_facts _ _ (wf_wrow_of g i Hwf) (nonneg_wrow_of g i Hnn)).
  split; [|split].
  - intros i j. unfold P, Pn. rewrite wrow_of_normalize. apply entry_nonneg, (Hr i).
  - intros i. unfold P, Pn. rewrite wrow_of_normalize. exact (proj2 (proj2 (Hr i))).
  - intros i. unfold has_out. destruct (Qeq_bool _ _); auto.
Qed.

(** M = alpha P^T: non-negative with column sums alpha * has_out <= alpha. *)
Lemma Ma_facts g alpha :
  good_graph g -> (0 <= alpha)%Q ->
  nonneg_mat (length g) (Ma (normalize g) alpha) /\ colsum_le (length g) (Ma (normalize g) alpha) alpha /\
  (forall i, (bsum (length g) (fun j => Ma (normalize g) alpha j i) == alpha * has_out g i)%Q).
Proof.
  intros Hg Ha. destruct (P_facts g Hg) as (Hp & Hs & Ho).
  assert (Hc : forall i, (bsum (length g) (fun j => Ma (normalize g) alpha j i) == alpha * has_out g i)%Q).
  { intros i. unfold Ma. rewrite bsum_scale. rewrite <- (Hs i). reflexivity. }
  split; [|split; [|exact Hc]].
  - intros i j _ _. unfold Ma. assert (H := Hp j i). unfold P in H. nra.
  - intros j _. rewrite Hc. destruct (Ho j) as [-> | ->]; lra.
Qed.

Lemma V_overflow l j : length l <= j -> V l j = 0%Q.
Proof. intros H. unfold V, nthq. apply nth_overflow. exact H. Qed.

Lemma V_map_Qred (f : Q -> Q) l j :
  (f 0 == 0)%Q -> (V (map (fun x => Qred (f x)) l) j == f (V l j))%Q.
Proof.
  intros H0. destruct (Nat.lt_ge_cases j (length l)) as [Hj|Hj].
  - unfold V, nthq. rewrite (nth_indep _ 0%Q (Qred (f 0%Q))) by (rewrite map_length; exact Hj).
    rewrite (map_nth (fun x => Qred (f x))). apply Qred_correct.
  - rewrite !V_overflow by (try rewrite map_length; exact Hj). symmetry. exact H0.
Qed.

Lemma V_vscale c l j : (V (vscale c l) j == c * V l j)%Q.
Proof. unfold vscale. apply (V_map_Qred (fun x => c * x)%Q). lra. Qed.

Lemma tab_length n f : length (tab n f) = n.
Proof. unfold tab. rewrite map_length. apply seq_length. Qed.

Lemma V_tab n f j : j < n -> (V (tab n f) j == f j)%Q.
Proof.
  intros Hj. unfold V, nthq, tab. rewrite (nth_indep _ 0%Q (Qred (f 0))) by (rewrite map_length, seq_length; exact Hj).
  rewrite (map_nth (fun i => Qred (f i))). rewrite seq_nth by exact Hj. apply Qred_correct.
Qed.

Lemma vscale_length c l : length (vscale c l) = length l.
Proof. apply map_length. Qed.

Lemma Qabs_le_of a b : (- b <= a)%Q -> (a <= b)%Q -> (Qabs a <= b)%Q.
Proof. intros H1 H2. apply Qabs_Qle_condition. split; assumption. Qed.

Lemma vsum_minus n f g : (vsum n (fun i => f i - g i) == vsum n f - vsum n g)%Q.
Proof. apply bsum_minus. Qed.

Lemma normalized_distance n (x xs : vec) (delta eps : Q) :
  (norm1 n (fun j => x j - xs j) <= delta)%Q ->
  (delta < Qabs (vsum n x))%Q ->
  (delta * (Qabs (vsum n x) + norm1 n x) <= eps * Qabs (vsum n x) * (Qabs (vsum n x) - delta))%Q ->
  ~ (vsum n x == 0)%Q /\ ~ (vsum n xs == 0)%Q /\
  (norm1 n (fun j => x j / vsum n x - xs j / vsum n xs) <= eps)%Q.
Proof.
  intros Hd Hs Heps.
  set (S := vsum n x) in *. set (T := vsum n xs).
  assert (Hd0 := norm1_nonneg n (fun j => x j - xs j)%Q).
  assert (HST : (Qabs (S - T) <= delta)%Q).
  { unfold S, T. rewrite <- vsum_minus. eapply Qle_trans; [apply vsum_le_norm1|exact Hd]. }
  assert (HT : (Qabs S - delta <= Qabs T)%Q).
  { assert (H := Qabs_triangle (S - T) T). setoid_replace (S - T + T)%Q with S in H by ring. lra. }
  assert (HSn : ~ (S == 0)%Q). { intros E. rewrite E in Hs. cbn in Hs. lra. }
  assert (HTn : ~ (T == 0)%Q). { intros E. rewrite E in HT. cbn in HT. lra. }
  split; [exact HSn|]. split; [exact HTn|].
  (* (x/S - xs/T) S T = (x - xs) S + x (T - S): no inverse is left *)
  assert (Hsum : (norm1 n (fun j => x j / S - xs j / T) * (Qabs S * Qabs T)
                  <= norm1 n (fun j => x j - xs j) * Qabs S + norm1 n x * Qabs (S - T))%Q).
  { rewrite <- Qabs_Qmult, <- norm1_scale_r, (Qabs_Qminus S T).
    rewrite (norm1_ext n _ (fun j => (x j - xs j) * S + x j * (T - S))%Q) by (intros; field; split; assumption).
    eapply Qle_trans; [apply norm1_triangle|]. rewrite !norm1_scale_r. apply Qle_refl. }
  assert (Hn0 := norm1_nonneg n (fun j => x j / S - xs j / T)%Q).
  assert (Hnx := norm1_nonneg n x).
  set (N := norm1 n (fun j => x j / S - xs j / T)%Q) in *.
  set (D := norm1 n (fun j => x j - xs j)%Q) in *.
  set (a := Qabs S) in *. set (b := Qabs T) in *. set (d := Qabs (S - T)) in *. set (nx := norm1 n x) in *.
  apply (Qmult_le_r _ _ (a * (a - delta))); [nra|].
  assert (Hab : (a * (a - delta) <= a * b)%Q) by nra.
  assert (Hstep : (N * (a * (a - delta)) <= N * (a * b))%Q) by nra.
  assert (HaD : (D * a <= delta * a)%Q) by nra.
  assert (Hxd : (nx * d <= nx * delta)%Q) by nra.
  lra.
Qed.

Lemma solution_unique g alpha (y x x' : vec) :
  good_graph g -> (0 <= alpha < 1)%Q ->
  is_solution (length g) (P g) alpha y x -> is_solution (length g) (P g) alpha y x' ->
  forall j, j < length g -> (x j == x' j)%Q.
Proof.
  intros Hg [Ha0 Ha1] Hx Hx'.
  destruct (Ma_facts g alpha Hg Ha0) as (Hp & Hc & _).
  apply (fixed_point_unique (length g) (Ma (normalize g) alpha) alpha (fun j => (1 - alpha) * y j)%Q); assumption.
Qed.

Lemma pagerank_unique g alpha (y p p' : vec) :
  good_graph g -> (0 <= alpha < 1)%Q ->
  is_pagerank (length g) (P g) alpha y p -> is_pagerank (length g) (P g) alpha y p' ->
  forall j, j < length g -> (p j == p' j)%Q.
Proof.
  intros Hg Ha (x & Hx & Hsx & Hp) (x' & Hx' & Hsx' & Hp') j Hj.
  assert (Hxx := solution_unique g alpha y x x' Hg Ha Hx Hx').
  rewrite (Hp j Hj), (Hp' j Hj). rewrite (Hxx j Hj).
  assert (Hs : (vsum (length g) x == vsum (length g) x')%Q) by (apply bsum_ext; exact Hxx).
  rewrite Hs. reflexivity.
Qed.

Lemma residual_bound_graph g alpha (y x xs : vec) eps :
  good_graph g -> (0 <= alpha < 1)%Q ->
  (norm1 (length g) (fun j => x j - (mv (length g) (PT alpha (P g)) x j + (1 - alpha) * y j)) <= eps)%Q ->
  is_solution (length g) (P g) alpha y xs ->
  (norm1 (length g) (fun j => x j - xs j) <= eps / (1 - alpha))%Q.
Proof.
  intros Hg [Ha0 Ha1] Hres Hxs.
  destruct (Ma_facts g alpha Hg Ha0) as (Hp & Hc & _).
  apply (residual_bound_gen (length g) (Ma (normalize g) alpha) alpha (fun j => (1 - alpha) * y j)%Q); assumption.
Qed.

Lemma Qltb_lt a b : Qltb a b = true <-> (a < b)%Q.
Proof.
  unfold Qltb. rewrite negb_true_iff, <- not_true_iff_false, Qle_bool_iff. split; [apply Qnot_le_lt|apply Qlt_not_le].
Qed.

Lemma Qltb_false_le a b : Qltb a b = false <-> (b <= a)%Q.
Proof. unfold Qltb. rewrite negb_false_iff. apply Qle_bool_iff. Qed.

Theorem residual_check_sound_proof g alpha y p eps :
  residual_check g alpha y p eps = true ->
  good_graph g /\ (0 <= alpha < 1)%Q /\
  forall xs, is_solution (length g) (P g) alpha (V y) xs ->
    ~ (vsum (length g) xs == 0)%Q /\ ~ (vsum (length g) (V p) == 0)%Q /\
    (norm1 (length g) (fun j => V p j / vsum (length g) (V p) - xs j / vsum (length g) xs) <= eps)%Q.
Proof.
  unfold residual_check, residual_parts. set (n := length g).
  set (c := Qred ((1 - alpha) / _)%Q). set (x := vscale c p).
  set (delta := Qred (Qred (norm1 n _) / (1 - alpha))%Q).
  rewrite !andb_true_iff, !Qltb_lt, !Qle_bool_iff. intros ((((((((_ & _) & Hwf) & Hnn) & Ha0) & Ha1) & _) & Hds) & Hchk).
  assert (Hgood : good_graph g) by (split; assumption).
  split; [exact Hgood|]. split; [split; assumption|].
  intros xs Hxs.
  assert (Hr : (norm1 n (fun j => V x j - xs j) <= delta)%Q).
  { unfold delta. rewrite Qred_correct. apply (residual_bound_graph g alpha (V y) (V x) xs _ Hgood); [split; assumption| |exact Hxs].
    rewrite Qred_correct. apply Qle_refl. }
  rewrite Qred_correct in Hds. rewrite !Qred_correct in Hchk.
  destruct (normalized_distance n (V x) xs delta eps Hr Hds Hchk) as (HSx & HT & Hnd).
  assert (Hxc : forall j, (V x j == c * V p j)%Q) by (intros j; unfold x; apply V_vscale).
  assert (Hsc : (vsum n (V x) == c * vsum n (V p))%Q).
  { unfold vsum. rewrite <- bsum_scale. apply bsum_ext. intros j _. apply Hxc. }
  assert (Hc : ~ (c == 0)%Q). { intros E. apply HSx. rewrite Hsc, E. lra. }
  assert (HSp : ~ (vsum n (V p) == 0)%Q). { intros E. apply HSx. rewrite Hsc, E. lra. }
  split; [exact HT|]. split; [exact HSp|].
  rewrite (norm1_ext n _ (fun j => V x j / vsum n (V x) - xs j / vsum n xs)%Q); [exact Hnd|].
  intros j _. rewrite (Hxc j), Hsc. field. repeat split; assumption.
Qed.

Lemma surfer_matvec_length g alpha y x : length (surfer_matvec g alpha y x) = length g.
Proof. unfold surfer_matvec. apply tab_length. Qed.

Lemma surfer_matvec_spec g alpha y x j :
  j < length g ->
  (V (surfer_matvec g alpha y x) j == surfer_fun (length g) g (normalize g) alpha (V y) (V x) j)%Q.
Proof.
  intros Hj. unfold surfer_matvec. rewrite V_tab by exact Hj. rewrite Qred_correct. unfold surfer_fun. reflexivity.
Qed.

(** The coded operator is the transition kernel of the surfer of the property text. *)
Lemma surfer_fun_kernel n g alpha (y x : vec) j :
  (surfer_fun n g (normalize g) alpha y x j == mv n (surfer_kernel (P g) (has_out g) alpha y) x j)%Q.
Proof.
  unfold surfer_fun, surfer_kernel, mv, restart, Ma, P.
  rewrite <- bsum_scale. rewrite <- bsum_plus. apply bsum_ext. intros i _. ring.
Qed.

Lemma surfer_mass g alpha (y x : vec) :
  good_graph g -> (0 <= alpha)%Q -> (vsum (length g) y == 1)%Q ->
  (vsum (length g) (surfer_fun (length g) g (normalize g) alpha y x) == vsum (length g) x)%Q.
Proof.
  intros Hg Ha Hy. set (n := length g) in *.
  destruct (Ma_facts g alpha Hg Ha) as (_ & _ & Hc). fold n in Hc.
  unfold vsum, surfer_fun. rewrite bsum_plus. rewrite bsum_scale_r.
  unfold vsum in Hy. rewrite Hy. unfold mv. rewrite bsum_swap.
  rewrite (bsum_ext n (fun j => bsum n (fun i => Ma (normalize g) alpha i j * x j))%Q
                      (fun j => (alpha * has_out g j) * x j)%Q).
  2:{ intros j _. rewrite bsum_scale_r. rewrite Hc. reflexivity. }
  rewrite Qmult_1_l. rewrite <- bsum_plus. apply bsum_ext. intros i _. unfold restart. ring.
Qed.

Lemma fixed_point_is_pagerank g alpha (y x : vec) :
  good_graph g -> (0 <= alpha < 1)%Q ->
  (vsum (length g) x == 1)%Q ->
  (forall j, j < length g -> (surfer_fun (length g) g (normalize g) alpha y x j == x j)%Q) ->
  is_pagerank (length g) (P g) alpha y x.
Proof.
  intros Hg [Ha0 Ha1] Hsx Hfix. set (n := length g) in *.
  destruct (Ma_facts g alpha Hg Ha0) as (Hp & Hcs & _). fold n in Hp, Hcs.
  set (c := bsum n (fun i => restart g alpha i * x i)%Q).
  assert (Hx : forall j, j < n -> (x j == mv n (Ma (normalize g) alpha) x j + y j * c)%Q).
  { intros j Hj. rewrite <- (Hfix j Hj) at 1. unfold surfer_fun. fold c. reflexivity. }
  assert (Hc : ~ (c == 0)%Q).
  { intros E.
    assert (Hz : forall j, j < n -> (x j == (fun _ => 0%Q) j)%Q).
    { apply (fixed_point_unique n (Ma (normalize g) alpha) alpha (fun _ => 0%Q)); try assumption.
      - intros j Hj. rewrite (Hx j Hj) at 1. rewrite E. ring.
      - intros j Hj. unfold mv. rewrite bsum_0; [ring|]. intros; ring. }
    assert (H0 : (vsum n x == 0)%Q) by (apply bsum_0; exact Hz). rewrite H0 in Hsx. lra. }
  set (k := ((1 - alpha) / c)%Q).
  assert (Hk : ~ (k == 0)%Q).
  { intros E. assert (H : (1 - alpha == k * c)%Q) by (unfold k; field; exact Hc). rewrite E in H. lra. }
  assert (Hsk : (vsum n (fun j => k * x j) == k)%Q).
  { unfold vsum in *. rewrite bsum_scale, Hsx. ring. }
  exists (fun j => k * x j)%Q. split; [|split].
  - intros j Hj. rewrite mv_scale. rewrite (Hx j Hj) at 1. change (PT alpha (P g)) with (Ma (normalize g) alpha).
    unfold k. field. exact Hc.
  - rewrite Hsk. exact Hk.
  - intros j Hj. rewrite Hsk. field. exact Hk.
Qed.

Lemma V_div l s j : (V (map (fun x => Qred (x / s)) l) j == V l j / s)%Q.
Proof. apply (V_map_Qred (fun x => x / s)%Q). unfold Qdiv. ring. Qed.

Lemma vnormalize_spec l j : (V (vnormalize l) j == V l j / vsum (length l) (V l))%Q.
Proof. unfold vnormalize, lsum. rewrite V_div, Qred_correct. reflexivity. Qed.

Lemma surfer_matvec_mass g alpha y x :
  good_graph g -> (0 <= alpha)%Q -> (vsum (length g) (V y) == 1)%Q ->
  (vsum (length g) (V (surfer_matvec g alpha y x)) == vsum (length g) (V x))%Q.
Proof.
  intros Hg Ha Hy. rewrite <- (surfer_mass g alpha (V y) (V x) Hg Ha Hy).
  apply bsum_ext. intros j Hj. apply surfer_matvec_spec. exact Hj.
Qed.

(** One coded step (operator, then division by the sum) on a probability vector. *)
Lemma piteration_step_spec g alpha y x j :
  good_graph g -> (0 <= alpha)%Q -> (vsum (length g) (V y) == 1)%Q -> (vsum (length g) (V x) == 1)%Q ->
  j < length g ->
  (V (piteration_step (surfer_matvec g alpha y) x) j == surfer_fun (length g) g (normalize g) alpha (V y) (V x) j)%Q.
Proof.
  intros Hg Ha Hy Hx Hj. unfold piteration_step. rewrite vnormalize_spec.
  rewrite surfer_matvec_length. rewrite (surfer_matvec_mass g alpha y x Hg Ha Hy). rewrite Hx.
  rewrite surfer_matvec_spec by exact Hj. field.
Qed.

Theorem piteration_fixed_point_proof g alpha y x :
  good_graph g -> (0 <= alpha < 1)%Q ->
  (vsum (length g) (V y) == 1)%Q -> (vsum (length g) (V x) == 1)%Q ->
  (forall j, j < length g -> (V (piteration_step (surfer_matvec g alpha y) x) j == V x j)%Q) ->
  is_pagerank (length g) (P g) alpha (V y) (V x).
Proof.
  intros Hg Ha Hy Hx Hfix. apply fixed_point_is_pagerank; try assumption.
  intros j Hj. rewrite <- (Hfix j Hj). symmetry. apply piteration_step_spec; try assumption. exact (proj1 Ha).
Qed.

(** * Horner's scheme (Polynome._matvec) and the RH solver *)

(** [veq n l f]: the list l represents the vector f on n coordinates. *)
Definition veq (n : nat) (l : list Q) (f : vec) : Prop := length l = n /\ forall j, j < n -> (V l j == f j)%Q.

Lemma V_map2_Qred (f : Q -> Q -> Q) a b j :
  j < length a -> j < length b -> (V (map2 (fun x y => Qred (f x y)) a b) j == f (V a j) (V b j))%Q.
Proof.
  intros Ha Hb. unfold V, nthq.
  rewrite (nth_map2 (fun x y => Qred (f x y)) a b j 0%Q 0%Q 0%Q Ha Hb). apply Qred_correct.
Qed.

Lemma veq_vadd n a b f g : veq n a f -> veq n b g -> veq n (vadd a b) (fun j => f j + g j)%Q.
Proof.
  intros [La Ha] [Lb Hb]. split.
  - unfold vadd. rewrite map2_length, La, Lb. apply Nat.min_id.
  - intros j Hj. unfold vadd. rewrite (V_map2_Qred Qplus) by lia. rewrite (Ha j Hj), (Hb j Hj). reflexivity.
Qed.

Lemma veq_vscale n c a f : veq n a f -> veq n (vscale c a) (fun j => c * f j)%Q.
Proof.
  intros [La Ha]. split; [rewrite vscale_length; exact La|].
  intros j Hj. rewrite V_vscale. rewrite (Ha j Hj). reflexivity.
Qed.

Lemma veq_mvl n M a f : veq n a f -> veq n (mvl n M a) (mv n M f).
Proof.
  intros [La Ha]. split; [apply tab_length|].
  intros j Hj. unfold mvl. rewrite V_tab by exact Hj. apply mv_ext. exact Ha.
Qed.

Lemma veq_ext n a f g : veq n a f -> (forall j, j < n -> (f j == g j)%Q) -> veq n a g.
Proof. intros [La Ha] H. split; [exact La|]. intros j Hj. rewrite (Ha j Hj). apply H. exact Hj. Qed.

Lemma veq_V l : veq (length l) l (V l).
Proof. split; [reflexivity|]. intros; reflexivity. Qed.

Lemma mv_bsum n M m (F : nat -> vec) i :
  (mv n M (fun j => bsum m (fun k => F k j)) i == bsum m (fun k => mv n M (F k) i))%Q.
Proof.
  unfold mv.
  rewrite (bsum_ext n _ (fun j => bsum m (fun k => M i j * F k j))%Q) by (intros j _; rewrite bsum_scale; reflexivity).
  apply bsum_swap.
Qed.

(** Horner's loop on the coefficients already consumed, highest first: one more step multiplies the
    sum by M and adds a x, which shifts every power by one and puts a in front. *)
Lemma horner_rev n M (x : list Q) (c : Q) (rest : list Q) :
  length x = n ->
  veq n (fold_left (fun y a => vadd (mvl n M y) (vscale a x)) rest (vscale c x))
        (power_sum n M (rev rest ++ [c]) (V x)).
Proof.
  intros Lx. assert (Hx : forall a, veq n (vscale a x) (fun j => a * V x j)%Q).
  { intros a. apply veq_vscale. rewrite <- Lx. apply veq_V. }
  induction rest as [|a rest IH] using rev_ind.
  - eapply veq_ext; [apply Hx|]. intros j _. unfold power_sum. cbn. ring.
  - rewrite fold_left_app. cbn [fold_left].
    eapply veq_ext; [apply veq_vadd; [apply veq_mvl, IH|apply Hx]|].
    intros j _. unfold power_sum. rewrite rev_app_distr. cbn [rev app length].
    rewrite bsum_shift, (mv_bsum n M _ (fun k i => nthq (rev rest ++ [c]) k * pow_mv n M k (V x) i)%Q).
    rewrite Qplus_comm. apply Qplus_comp; [reflexivity|]. apply bsum_ext. intros k _. apply mv_scale.
Qed.

Theorem horner_eq_power_sum_proof n M (coeffs x : list Q) :
  length x = n -> coeffs <> [] ->
  veq n (horner (mvl n M) coeffs x) (power_sum n M coeffs (V x)).
Proof.
  intros Lx Hne. unfold horner.
  assert (Hc := rev_involutive coeffs). destruct (rev coeffs) as [|c rest]; [symmetry in Hc; contradiction|].
  rewrite <- Hc. exact (horner_rev n M x c rest Lx).
Qed.

Lemma apow_nonneg a k : (0 <= a)%Q -> (0 <= apow a k)%Q.
Proof. intros Ha. induction k as [|k IH]; cbn [apow]; [lra|nra]. Qed.

Lemma pow_contract n M alpha k z :
  nonneg_mat n M -> colsum_le n M alpha -> (0 <= alpha)%Q ->
  (norm1 n (pow_mv n M k z) <= apow alpha k * norm1 n z)%Q.
Proof.
  intros Hp Hc Ha. induction k as [|k IH]; cbn [pow_mv apow]; [lra|].
  assert (H := norm1_contract_gen n M alpha (pow_mv n M k z) Hp Hc).
  assert (H0 := apow_nonneg alpha k Ha). nra.
Qed.

Lemma nthq_repeat c m k : k < m -> nthq (repeat c m) k = c.
Proof. revert k. induction m as [|m IH]; intros [|k] H; cbn; try lia; auto. apply IH. lia. Qed.

(** RH returns the truncated Neumann series, whose residual decays like alpha^(K+1). *)
Theorem rh_error_proof g alpha y K :
  good_graph g -> (0 <= alpha)%Q -> length y = length g ->
  let n := length g in
  let M := PT alpha (P g) in
  let s := rh g alpha y K in
  veq n s (fun j => bsum (S K) (fun k => pow_mv n M k (V y) j)) /\
  (norm1 n (fun j => V s j - (mv n M (V s) j + V y j)) <= apow alpha (S K) * norm1 n (V y))%Q.
Proof.
  intros Hg Ha Ly n M s.
  destruct (Ma_facts g alpha Hg Ha) as (Hp & Hc & _).
  change (Ma (normalize g) alpha) with M in Hp, Hc. fold n in Hp, Hc.
  assert (Hs : veq n s (fun j => bsum (S K) (fun k => pow_mv n M k (V y) j))).
  { unfold s, rh. eapply veq_ext.
    - apply (horner_eq_power_sum_proof n (Ma (normalize g) alpha) (repeat 1%Q (S K)) y Ly). discriminate.
    - intros j Hj. unfold power_sum. rewrite repeat_length. apply bsum_ext. intros k Hk.
      rewrite nthq_repeat by exact Hk. change (Ma (normalize g) alpha) with M. ring. }
  split; [exact Hs|].
  destruct Hs as [Ls Hs].
  assert (Hres : forall j, j < n -> (V s j - (mv n M (V s) j + V y j) == - pow_mv n M (S K) (V y) j)%Q).
  { intros j Hj. rewrite (mv_ext n M (V s) _ Hs j), (mv_bsum n M _ (fun k => pow_mv n M k (V y))), (Hs j Hj), bsum_shift. cbn [bsum pow_mv]. ring. }
  rewrite (norm1_ext n _ _ Hres).
  rewrite (bsum_ext n (fun i => Qabs (- pow_mv n M (S K) (V y) i)) (fun i => Qabs (pow_mv n M (S K) (V y) i)))
    by (intros; apply Qabs_opp).
  apply (pow_contract n M alpha (S K) (V y) Hp Hc Ha).
Qed.

(** Hence (1 - alpha) * RH is within alpha^(K+1) |y|_1 of the solution of x = alpha P^T x + (1-alpha) y. *)
Theorem rh_close_to_solution g alpha y K (xs : vec) :
  good_graph g -> (0 <= alpha < 1)%Q -> length y = length g ->
  is_solution (length g) (P g) alpha (V y) xs ->
  (norm1 (length g) (fun j => (1 - alpha) * V (rh g alpha y K) j - xs j) <= apow alpha (S K) * norm1 (length g) (V y))%Q.
Proof.
  intros Hg [Ha0 Ha1] Ly Hxs.
  destruct (rh_error_proof g alpha y K Hg Ha0 Ly) as [_ Hr].
  set (n := length g) in *. set (M := PT alpha (P g)) in *. set (s := rh g alpha y K) in *.
  set (B := (apow alpha (S K) * norm1 n (V y))%Q) in *.
  assert (H := residual_bound_graph g alpha (V y) (fun j => (1 - alpha) * V s j)%Q xs ((1 - alpha) * B)%Q Hg (conj Ha0 Ha1)).
  fold n in H.
  setoid_replace B with ((1 - alpha) * B / (1 - alpha))%Q by (field; lra).
  apply H; [|exact Hxs].
  rewrite (norm1_ext n _ (fun j => (V s j - (mv n M (V s) j + V y j)) * (1 - alpha))%Q).
  2:{ intros j Hj. fold M. rewrite mv_scale. ring. }
  rewrite norm1_scale_r, Qabs_pos by lra. nra.
Qed.

Lemma upd_length l j v : length (upd l j v) = length l.
Proof. revert j. induction l as [|x l IH]; intros [|j]; cbn; auto. Qed.

Lemma V_upd l j v i : j < length l -> V (upd l j v) i = if Nat.eqb i j then v else V l i.
Proof.
  revert j i. induction l as [|x l IH]; intros [|j] [|i] H; cbn in *; try lia; auto.
  apply (IH j i). lia.
Qed.

Lemma upd_out l j v : length l <= j -> upd l j v = l.
Proof. revert j. induction l as [|x l IH]; intros [|j] H; cbn in *; try lia; auto. f_equal. apply IH. lia. Qed.

Lemma push_row_spec n tmp r fl :
  wf_row n r = true -> length fl = n ->
  length (push_row tmp r fl) = n /\ forall j, j < n -> (V (push_row tmp r fl) j == V fl j + tmp * entry r j)%Q.
Proof.
  unfold push_row. revert fl. induction r as [|e r IH]; intros fl Hwf Lfl.
  - cbn [fold_left]. split; [exact Lfl|]. intros j _. rewrite entry_nil. ring.
  - apply wf_row_cons in Hwf. destruct Hwf as [He Hr]. cbn [fold_left].
    set (fl' := upd fl (fst e) (Qred (V fl (fst e) + tmp * snd e))).
    assert (Lfl' : length fl' = n) by (unfold fl'; rewrite upd_length; exact Lfl).
    destruct (IH fl' Hr Lfl') as [L H]. split; [exact L|].
    intros j Hj. rewrite (H j Hj). unfold fl'. rewrite V_upd by (rewrite Lfl; exact He).
    rewrite entry_cons. rewrite (Nat.eqb_sym j (fst e)).
    destruct (Nat.eqb_spec (fst e) j) as [<-|_]; [rewrite Qred_correct|]; ring.
Qed.

(** The invariant of the kernel, stated without inverses: with z = xs - scores (xs any solution),
    z - M z = fluid; fluid is non-negative and [residu] is the total mass of fluid. *)
Definition dit_inv (g : wgraph) (alpha : Q) (xs : vec) (s : dstate) : Prop :=
  let n := length g in
  let M := PT alpha (P g) in
  length (d_scores s) = n /\ length (d_fluid s) = n /\
  (forall j, j < n -> ((xs j - V (d_scores s) j) - mv n M (fun i => xs i - V (d_scores s) i) j == V (d_fluid s) j)%Q) /\
  (forall j, j < n -> (0 <= V (d_fluid s) j)%Q) /\
  (d_residu s == vsum n (V (d_fluid s)))%Q.

Lemma has_out_row g i :
  nonneg_graph g = true -> has_out g i = match wrow_of (normalize g) i with [] => 0%Q | _ => 1%Q end.
Proof.
  intros Hnn. rewrite wrow_of_normalize. unfold has_out.
  rewrite <- (row_norm_nonneg_eq _ (nonneg_wrow_of g i Hnn)), <- (Qred_correct (row_norm (wrow_of g i))).
  unfold normalize_row. destruct (Qeq_bool (Qred (row_norm (wrow_of g i))) 0) eqn:E; [reflexivity|].
  destruct (wrow_of g i); [discriminate E|reflexivity].
Qed.

Lemma mv_delta n M (z : vec) i c j :
  i < n -> (mv n M (fun k => z k - (if Nat.eqb k i then c else 0)) j == mv n M z j - c * M j i)%Q.
Proof.
  intros Hi. rewrite mv_minus. unfold mv at 2.
  rewrite (bsum_ext n _ (fun k => if Nat.eqb k i then M j i * c else 0)%Q).
  2:{ intros k _. destruct (Nat.eqb_spec k i) as [->|_]; [reflexivity|ring]. }
  rewrite bsum_delta by exact Hi. ring.
Qed.

Section Diteration.
Context (g : wgraph) (alpha : Q) (xs : vec) (Hg : good_graph g) (Ha0 : (0 <= alpha)%Q).

(** A node holding fluid: an empty row is not pushed along, which is pushing along no entry. *)
Lemma dit_node_fire s i :
  let s' := dit_node (normalize g) alpha s i in
  let sent := V (d_fluid s) i in
  (0 < sent)%Q ->
  d_scores s' = upd (d_scores s) i (Qred (V (d_scores s) i + sent)) /\
  d_fluid s' = push_row (sent * alpha) (wrow_of (normalize g) i) (upd (d_fluid s) i 0) /\
  (d_residu s' == d_residu s - sent * (1 - alpha * has_out g i))%Q.
Proof.
  intros s' sent Hpos. unfold s', dit_node. fold sent.
  rewrite (proj2 (Qltb_lt 0 sent) Hpos), (has_out_row g i (proj2 Hg)).
  destruct (wrow_of (normalize g) i); cbn [d_scores d_fluid d_residu];
    (split; [reflexivity|]; split; [reflexivity|rewrite Qred_correct; ring]).
Qed.

Lemma dit_node_spec s i :
  length (d_scores s) = length g -> length (d_fluid s) = length g -> i < length g ->
  (0 < V (d_fluid s) i)%Q ->
  let s' := dit_node (normalize g) alpha s i in
  let sent := V (d_fluid s) i in
  length (d_scores s') = length g /\ length (d_fluid s') = length g /\
  (forall j, j < length g -> (V (d_scores s') j == V (d_scores s) j + (if Nat.eqb j i then sent else 0))%Q) /\
  (forall j, j < length g ->
     (V (d_fluid s') j == V (d_fluid s) j - (if Nat.eqb j i then sent else 0) + sent * (alpha * P g i j))%Q) /\
  (d_residu s' == d_residu s - sent * (1 - alpha * has_out g i))%Q.
Proof.
  intros Ls Lf Hi Hpos s' sent. pose proof Hg as [Hwf Hnn]. set (n := length g) in *.
  destruct (dit_node_fire s i Hpos) as (Esc & Efl & Hrs). fold s' sent in Esc, Efl, Hrs. rewrite Esc, Efl.
  assert (Hrow : wf_row n (wrow_of (normalize g) i) = true).
  { rewrite wrow_of_normalize. apply normalize_row_facts; [apply wf_wrow_of|apply nonneg_wrow_of]; assumption. }
  assert (L0 : length (upd (d_fluid s) i 0) = n) by (rewrite upd_length; exact Lf).
  destruct (push_row_spec n (sent * alpha)%Q _ _ Hrow L0) as [Lp Hp].
  split; [rewrite upd_length; exact Ls|]. split; [exact Lp|]. split; [|split; [|exact Hrs]].
  - intros j Hj. rewrite V_upd by (rewrite Ls; exact Hi). destruct (Nat.eqb_spec j i) as [->|_]; [apply Qred_correct|ring].
  - intros j Hj. rewrite (Hp j Hj), V_upd by (rewrite Lf; exact Hi). unfold P, Pn.
    destruct (Nat.eqb_spec j i) as [->|_]; [fold sent|]; ring.
Qed.

Lemma dit_node_inv s i :
  dit_inv g alpha xs s ->
  let s' := dit_node (normalize g) alpha s i in
  dit_inv g alpha xs s' /\
  (d_residu s' <= d_residu s - (1 - alpha) * V (d_fluid s) i)%Q /\
  (forall j, j < length g -> j <> i -> (V (d_fluid s) j <= V (d_fluid s') j)%Q).
Proof.
  intros (Ls & Lf & Hz & Hnonneg & Hres). set (n := length g) in *. cbv zeta.
  destruct (Qlt_le_dec 0 (V (d_fluid s) i)) as [Hpos|Hle].
  2:{ unfold dit_node. rewrite (proj2 (Qltb_false_le _ _) Hle).
      assert (H0 : (0 <= V (d_fluid s) i)%Q).
      { destruct (Nat.lt_ge_cases i n) as [H|H]; [exact (Hnonneg i H)|rewrite V_overflow by (rewrite Lf; exact H); lra]. }
      split; [repeat split; assumption|]. split; [nra|intros; lra]. }
  assert (Hi : i < n).
  { destruct (Nat.lt_ge_cases i n) as [H|H]; [exact H|]. rewrite V_overflow in Hpos by (rewrite Lf; exact H). lra. }
  destruct (dit_node_spec s i Ls Lf Hi Hpos) as (Ls' & Lf' & Hsc & Hfl & Hrs).
  set (s' := dit_node (normalize g) alpha s i) in *. set (sent := V (d_fluid s) i) in *.
  destruct (P_facts g Hg) as (Hpp & Hps & Hout).
  assert (Hadd : forall j, (0 <= sent * (alpha * P g i j))%Q).
  { intros j. assert (H1 := Hpp i j). assert (H3 : (0 <= alpha * P g i j)%Q) by nra. nra. }
  split; [|split].
  2:{ rewrite Hrs. destruct (Hout i) as [-> | ->]; nra. }
  2:{ intros j Hj Hne. rewrite (Hfl j Hj). apply Nat.eqb_neq in Hne. rewrite Hne. assert (H := Hadd j). lra. }
  split; [exact Ls'|]. split; [exact Lf'|]. split; [|split].
  - intros j Hj. cbv zeta. fold n.
    rewrite (mv_ext n _ _ (fun k => (xs k - V (d_scores s) k) - (if Nat.eqb k i then sent else 0))%Q)
      by (intros k Hk; rewrite (Hsc k Hk); ring).
    rewrite mv_delta by exact Hi.
    rewrite (Hsc j Hj), (Hfl j Hj), <- (Hz j Hj). unfold PT. ring.
  - intros j Hj. rewrite (Hfl j Hj). assert (H1 := Hadd j). assert (H2 := Hnonneg j Hj).
    destruct (Nat.eqb_spec j i) as [->|_]; [fold sent|]; lra.
  - rewrite Hrs, Hres. unfold vsum. fold n.
    assert (Hm : (bsum n (fun j => sent * (alpha * P g i j)) == sent * (alpha * has_out g i))%Q).
    { rewrite !bsum_scale. rewrite <- (Hps i). reflexivity. }
    rewrite (bsum_ext n (V (d_fluid s')) _ Hfl), bsum_plus, bsum_minus, (bsum_delta n i sent Hi), Hm. ring.
Qed.

Lemma dit_sweep_inv s :
  dit_inv g alpha xs s -> dit_inv g alpha xs (dit_sweep (normalize g) alpha s).
Proof.
  unfold dit_sweep. generalize (seq 0 (length (normalize g))). intros l. revert s.
  induction l as [|i l IH]; intros s Hs; cbn [fold_left]; [exact Hs|].
  apply IH. apply (dit_node_inv s i Hs).
Qed.

Lemma dit_loop_inv k tol s :
  dit_inv g alpha xs s -> dit_inv g alpha xs (fst (dit_loop k (normalize g) alpha tol s)).
Proof.
  revert s. induction k as [|k IH]; intros s Hs; cbn [dit_loop]; [exact Hs|].
  assert (Hs' := dit_sweep_inv s Hs).
  destruct (Qltb _ _); [exact Hs'|]. apply IH. exact Hs'.
Qed.

Lemma dit_inv_error s :
  (alpha < 1)%Q -> dit_inv g alpha xs s ->
  (0 <= d_residu s)%Q /\
  (norm1 (length g) (fun j => xs j - V (d_scores s) j) <= d_residu s / (1 - alpha))%Q.
Proof.
  intros Ha1 (Ls & Lf & Hz & Hnonneg & Hres). set (n := length g) in *. cbv zeta in Hz.
  destruct (Ma_facts g alpha Hg Ha0) as (Hp & Hc & _). fold n in Hp, Hc.
  assert (Hmass : (d_residu s == norm1 n (V (d_fluid s)))%Q).
  { rewrite Hres. unfold vsum, norm1. apply bsum_ext. intros j Hj. rewrite Qabs_pos by (apply Hnonneg; exact Hj). reflexivity. }
  split; [rewrite Hmass; apply norm1_nonneg|].
  set (z := fun j => (xs j - V (d_scores s) j)%Q).
  rewrite (norm1_ext n z (fun j => z j - 0)%Q) by (intros; ring).
  apply (residual_bound_gen n (Ma (normalize g) alpha) alpha (fun _ => 0%Q) z (fun _ => 0%Q) (d_residu s) Hp Hc Ha1).
  - rewrite Hmass. apply Qle_lteq. right. apply norm1_ext. intros j Hj.
    rewrite <- (Hz j Hj). change (PT alpha (P g)) with (Ma (normalize g) alpha). unfold z. ring.
  - intros j Hj. unfold mv. rewrite bsum_0; [ring|intros; ring].
Qed.

(** Every sweep multiplies the remaining mass by at most alpha (each node sends at least the fluid it
    held when the sweep started, and a (1 - alpha) share of what is sent leaves the system). *)
Lemma dit_sweep_mass s0 :
  (alpha <= 1)%Q -> dit_inv g alpha xs s0 ->
  (d_residu (dit_sweep (normalize g) alpha s0) <= alpha * d_residu s0)%Q.
Proof.
  intros Ha1 H0. set (n := length g) in *.
  set (f0 := V (d_fluid s0)). set (R0 := d_residu s0).
  set (Q := fun (k : nat) (s : dstate) =>
              dit_inv g alpha xs s /\
              (d_residu s <= R0 - (1 - alpha) * bsum k f0)%Q /\
              (forall j, k <= j -> j < n -> (f0 j <= V (d_fluid s) j)%Q)).
  assert (Hstep : forall k s, k < n -> Q k s -> Q (S k) (dit_node (normalize g) alpha s k)).
  { intros k s Hk (Hinv & Hres & Hmon).
    destruct (dit_node_inv s k Hinv) as (Hinv' & Hres' & Hmon'). cbv zeta in Hres', Hmon'.
    split; [exact Hinv'|]. split.
    - cbn [bsum]. assert (Hm := Hmon k (le_n k) Hk). nra.
    - intros j Hkj Hj. eapply Qle_trans; [apply Hmon; [lia|exact Hj]|apply Hmon'; [exact Hj|lia]]. }
  assert (Hfold : forall m, m <= n -> Q m (fold_left (dit_node (normalize g) alpha) (seq 0 m) s0)).
  { induction m as [|m IH]; intros Hm.
    - cbn [seq fold_left]. split; [exact H0|]. split; [cbn [bsum]; unfold R0; lra|]. intros j _ _. unfold f0. lra.
    - rewrite seq_S, fold_left_app. apply Hstep; [lia|apply IH; lia]. }
  destruct (Hfold n (le_n n)) as (_ & Hres & _).
  unfold dit_sweep. assert (Ln : length (normalize g) = n) by (unfold normalize; apply map_length). rewrite Ln.
  destruct H0 as (_ & _ & _ & _ & HR). fold R0 in HR. fold n in HR. unfold vsum in HR. fold f0 in HR.
  fold R0. rewrite <- HR in Hres. nra.
Qed.

Lemma dit_loop_mass k s :
  (alpha < 1)%Q -> dit_inv g alpha xs s ->
  (d_residu (fst (dit_loop k (normalize g) alpha 0 s)) <= apow alpha k * d_residu s)%Q.
Proof.
  intros Ha1. revert s. induction k as [|k IH]; intros s Hinv; cbn [dit_loop apow fst]; [lra|].
  assert (Hinv' := dit_sweep_inv s Hinv).
  assert (Hm := dit_sweep_mass s (Qlt_le_weak _ _ Ha1) Hinv).
  destruct (dit_inv_error _ Ha1 Hinv') as [Hpos _].
  assert (E : Qltb (d_residu (dit_sweep (normalize g) alpha s)) (0 * (1 - alpha)) = false) by (apply Qltb_false_le; lra).
  rewrite E. assert (H := IH _ Hinv'). assert (Hp := apow_nonneg alpha k Ha0).
  set (r1 := d_residu (dit_sweep (normalize g) alpha s)) in *. set (r0 := d_residu s) in *.
  set (rk := d_residu (fst (dit_loop k (normalize g) alpha 0 (dit_sweep (normalize g) alpha s)))) in *.
  assert (H2 : (apow alpha k * r1 <= apow alpha k * (alpha * r0))%Q) by nra. lra.
Qed.

End Diteration.

Lemma dit_loop_stop k pr alpha tol s :
  snd (dit_loop k pr alpha tol s) = true -> (d_residu (fst (dit_loop k pr alpha tol s)) < tol * (1 - alpha))%Q.
Proof.
  revert s. induction k as [|k IH]; intros s; cbn [dit_loop]; [discriminate|].
  destruct (Qltb _ _) eqn:E; [intros _; apply Qltb_lt, E|apply IH].
Qed.

Lemma dit_init_inv g alpha y xs :
  good_graph g -> (0 <= alpha <= 1)%Q -> length y = length g ->
  (forall j, j < length g -> (0 <= V y j)%Q) -> (vsum (length g) (V y) == 1)%Q ->
  is_solution (length g) (P g) alpha (V y) xs ->
  dit_inv g alpha xs (dit_init (length g) alpha y).
Proof.
  intros Hg [Ha0 Ha1] Ly Hy Hsy Hxs. set (n := length g) in *.
  assert (Hz : forall j, V (repeat 0%Q n) j = 0%Q) by (intros j; apply nth_repeat).
  unfold dit_init, dit_inv. cbn [d_scores d_fluid d_residu]. fold n.
  split; [apply repeat_length|]. split; [rewrite vscale_length; exact Ly|]. split; [|split].
  - intros j Hj. rewrite V_vscale.
    rewrite (mv_ext n (PT alpha (P g)) (fun i => xs i - V (repeat 0%Q n) i)%Q xs) by (intros k _; rewrite Hz; ring).
    rewrite Hz. rewrite (Hxs j Hj) at 1. ring.
  - intros j Hj. rewrite V_vscale. assert (H := Hy j Hj). nra.
  - unfold vsum. rewrite (bsum_ext n _ (fun j => (1 - alpha) * V y j)%Q) by (intros j _; apply V_vscale).
    rewrite bsum_scale. unfold vsum in Hsy. rewrite Hsy. ring.
Qed.

Theorem diteration_invariant_proof g alpha y n_iter tol (xs : vec) :
  good_graph g -> (0 <= alpha < 1)%Q -> length y = length g ->
  (forall j, j < length g -> (0 <= V y j)%Q) -> (vsum (length g) (V y) == 1)%Q ->
  is_solution (length g) (P g) alpha (V y) xs ->
  let st := diteration_state g alpha y n_iter tol in
  dit_inv g alpha xs (fst st) /\
  (0 <= d_residu (fst st))%Q /\
  (norm1 (length g) (fun j => xs j - V (d_scores (fst st)) j) <= d_residu (fst st) / (1 - alpha))%Q /\
  (snd st = true -> (norm1 (length g) (fun j => xs j - V (d_scores (fst st)) j) < tol)%Q).
Proof.
  intros Hg [Ha0 Ha1] Ly Hy Hsy Hxs st.
  assert (Hinit := dit_init_inv g alpha y xs Hg (conj Ha0 (Qlt_le_weak _ _ Ha1)) Ly Hy Hsy Hxs).
  assert (Hinv : dit_inv g alpha xs (fst st)).
  { unfold st, diteration_state. apply (dit_loop_inv g alpha xs); assumption. }
  destruct (dit_inv_error g alpha xs Hg Ha0 (fst st) Ha1 Hinv) as [H0 Herr].
  split; [exact Hinv|]. split; [exact H0|]. split; [exact Herr|].
  intros Hstop. eapply Qle_lt_trans; [exact Herr|].
  apply Qlt_shift_div_r; [lra|]. apply dit_loop_stop, Hstop.
Qed.

(** * The push kernel does not compute PageRank (recorded finding D4) *)

Fixpoint insert_all {A} (x : A) (l : list A) : list (list A) :=
  match l with
  | [] => [[x]]
  | y :: t => (x :: y :: t) :: map (cons y) (insert_all x t)
  end.
Fixpoint perms {A} (l : list A) : list (list A) :=
  match l with
  | [] => [[]]
  | x :: t => flat_map (insert_all x) (perms t)
  end.

Definition house : wgraph := map (map (fun j => (j, 1%Q))) [[1; 4]; [0; 2; 4]; [1; 3]; [2; 4]; [0; 1; 3]].
Definition house_solution : list Q := [412 # 2451; 1991 # 8170; 2111 # 12255; 2111 # 12255; 1991 # 8170]%Q.

(** The output of the faithful push model is further than [gap] (L1) from the PageRank vector. *)
Definition push_far (g : wgraph) (alpha : Q) (y xs : list Q) (gap : Q) (order : list nat) (tol : Q) : bool :=
  match get_pagerank g y alpha 0 tol Push [] order with
  | None => false
  | Some out => Qltb gap (norm1 (length g) (fun j => V out j - V (vnormalize xs) j)%Q)
  end.

Lemma insert_all_length {A} (x : A) l o : In o (insert_all x l) -> length o = S (length l).
Proof.
  revert o. induction l as [|y l IH]; intros o; cbn [insert_all].
  - intros [<-|[]]. reflexivity.
  - intros [<-|Ho]; [reflexivity|]. apply in_map_iff in Ho. destruct Ho as (o' & <- & Ho').
    cbn [length]. rewrite (IH o' Ho'). reflexivity.
Qed.

Lemma perms_length {A} (l o : list A) : In o (perms l) -> length o = length l.
Proof.
  revert o. induction l as [|x l IH]; intros o; cbn [perms].
  - intros [<-|[]]. reflexivity.
  - rewrite in_flat_map. intros (o' & Ho' & Ho). rewrite (insert_all_length x o' o Ho), (IH o' Ho'). reflexivity.
Qed.

(** Why the kernel stops after one pass: a vertex re-enters the work-list only when its residual crosses
    [tol] upwards, and pushes only add non-negative amounts. So when every residual starts at or above
    [tol], the work-list never grows, and [push_loop] handles the vertices of [order] once each, in that
    order, whatever [tol] is: [push_once] is [push_vertex] without the work-list. *)
Definition push_residuals (g : wgraph) (alpha : Q) (v : nat) (res : list Q) : list Q :=
  fold_left (fun r e => upd r (fst e) (Qred (V r (fst e) + V r v * (1 - alpha) / degree g v)%Q)) (wrow_of g v) res.
Definition push_once (g : wgraph) (alpha : Q) (st : list Q * list Q) (v : nat) : list Q * list Q :=
  (upd (fst st) v (Qred (V (fst st) v + V (snd st) v)%Q), push_residuals g alpha v (snd st)).
Definition above (tol : Q) (res : list Q) : Prop := forall j, j < length res -> (tol <= V res j)%Q.

Lemma above_forallb tol res : forallb (Qle_bool tol) res = true -> above tol res.
Proof. intros H j Hj. rewrite forallb_forall in H. apply Qle_bool_iff, H, nth_In, Hj. Qed.

Lemma push_vertex_above g alpha tol v scores res wl :
  nonneg_graph g = true -> (alpha <= 1)%Q -> (0 <= tol)%Q -> above tol res ->
  push_vertex g alpha tol v (scores, res, wl) =
    (fst (push_once g alpha (scores, res) v), push_residuals g alpha v res, wl) /\
  above tol (push_residuals g alpha v res).
Proof.
  intros Hnn Ha Ht. unfold push_vertex, push_once, push_residuals. cbn [fst snd].
  generalize (upd scores v (Qred (V scores v + V res v))) as scores'. intros scores'.
  assert (Hd : (0 <= degree g v)%Q) by (apply sumq_nonneg, nonneg_wrow_of, Hnn).
  revert res wl. induction (wrow_of g v) as [|e l IH]; intros r w Hr; cbn [fold_left]; [split; [reflexivity|exact Hr]|].
  set (nb := fst e). set (x := Qred (V r nb + V r v * (1 - alpha) / degree g v)).
  assert (Hx : (V r nb <= x)%Q).
  { assert (Hv : (0 <= V r v)%Q).
    { destruct (Nat.lt_ge_cases v (length r)) as [L|L]; [assert (H := Hr v L); lra|rewrite V_overflow by exact L; lra]. }
    assert (Hc : (0 <= V r v * (1 - alpha) * / degree g v)%Q).
    { apply Qmult_le_0_compat; [apply Qmult_le_0_compat; lra|apply Qinv_le_0_compat; exact Hd]. }
    unfold x. rewrite Qred_correct. unfold Qdiv. lra. }
  destruct (Nat.lt_ge_cases nb (length r)) as [L|L].
  - assert (E : Qltb (V r nb) tol = false) by (apply Qltb_false_le, Hr, L).
    rewrite E, andb_false_r. apply IH.
    intros j Hj. rewrite upd_length in Hj. rewrite V_upd by exact L.
    destruct (Nat.eqb j nb); [assert (H := Hr nb L); lra|exact (Hr j Hj)].
  - rewrite (upd_out r nb x L).
    assert (E : Qltb tol (V r nb) && Qltb (V r nb) tol = false).
    { destruct (Qltb tol (V r nb)) eqn:E1, (Qltb (V r nb) tol) eqn:E2; try reflexivity.
      apply Qltb_lt in E1, E2. lra. }
    rewrite E. apply IH. exact Hr.
Qed.

Lemma push_loop_above g alpha tol :
  nonneg_graph g = true -> (alpha <= 1)%Q -> (0 <= tol)%Q ->
  forall order fuel scores res, length order < fuel -> above tol res ->
  push_loop fuel g alpha tol (scores, res, order) = Some (fst (fold_left (push_once g alpha) order (scores, res))).
Proof.
  intros Hnn Ha Ht. induction order as [|v order IH]; intros [|fuel] scores res Hf Hr;
    cbn [length] in Hf; try lia; cbn [push_loop fold_left]; [reflexivity|].
  destruct (push_vertex_above g alpha tol v scores res order Hnn Ha Ht Hr) as [E Hr'].
  rewrite E. apply IH; [lia|exact Hr'].
Qed.

(** The test of [push_far] with the denominators cleared: for ANY D, F > 0 the distance exceeds [gap]
    when gap * (A * F) < sum_j |s_j D F - p_j F A|, A = sum_j s_j D (dividing s by |s|_1 and then by the sum
    is dividing by the sum). With D and F common denominators of s and p all these numbers are
    integers: the same comparison on the normalised rationals is slow to check. *)
Definition far_from (n : nat) (gap D F : Q) (p s : list Q) : bool :=
  let a := map (fun x => Qred (x * D)%Q) s in
  let q := map (fun x => Qred (x * F)%Q) p in
  let A := vsum (length s) (V a) in
  Qltb 0 D && Qltb 0 F && Qltb 0 A && Qltb (gap * (A * F)) (norm1 n (fun j => V a j * F - V q j * A)%Q).

Lemma far_from_sound n gap D F p s :
  far_from n gap D F p s = true ->
  Qltb gap (norm1 n (fun j => V (vnormalize (map (fun x => Qred (x / lnorm1 s)%Q) s)) j - V p j)%Q) = true.
Proof.
  unfold far_from. cbv zeta. set (a := map _ s). set (q := map _ p). set (A := vsum (length s) (V a)).
  rewrite !andb_true_iff, !Qltb_lt. intros [[[HD HF] HA] Hfar]. set (S := vsum (length s) (V s)).
  assert (Va : forall j, (V a j == V s j * D)%Q) by (intros j; apply (V_map_Qred (fun x => x * D)%Q); ring).
  assert (Vq : forall j, (V q j == V p j * F)%Q) by (intros j; apply (V_map_Qred (fun x => x * F)%Q); ring).
  assert (HAS : (A == S * D)%Q).
  { unfold A, S, vsum. rewrite <- bsum_scale_r. apply bsum_ext. intros j _. apply Va. }
  assert (HS : (0 < S)%Q) by (destruct (Qlt_le_dec 0 S); [assumption|exfalso; nra]).
  set (N := lnorm1 s). set (t := map (fun x => Qred (x / N)%Q) s).
  assert (HN : ~ (N == 0)%Q).
  { intros E. unfold N, lnorm1 in E. rewrite Qred_correct in E.
    assert (Z : (S == 0)%Q) by (apply bsum_0, norm1_zero_inv; rewrite E; apply Qle_refl). lra. }
  assert (Ht : (vsum (length t) (V t) == S / N)%Q).
  { unfold t, S. rewrite map_length. unfold vsum, Qdiv. rewrite <- bsum_scale_r.
    apply bsum_ext. intros j _. apply V_div. }
  rewrite (norm1_ext n _ (fun j => (V a j * F - V q j * A) * / (A * F))%Q).
  2:{ intros j _. rewrite vnormalize_spec, Ht, Va, Vq, HAS. unfold t. rewrite V_div. field.
      repeat split; first [exact HN|lra]. }
  assert (HAF : (0 < A * F)%Q) by nra.
  rewrite norm1_scale_r, Qabs_pos by (apply Qlt_le_weak, Qinv_lt_0_compat, HAF).
  apply Qlt_shift_div_l; assumption.
Qed.

Lemma push_far_one_pass g alpha y xs gap order tol D F :
  nonneg_graph g = true -> (alpha <= 1)%Q -> (0 <= tol)%Q -> above tol (push_init g alpha y) ->
  length order < S (length g) * S (length g) * 64 ->
  far_from (length g) gap D F (vnormalize xs)
    (fst (fold_left (push_once g alpha) order (repeat (1 - alpha)%Q (length g), push_init g alpha y))) = true ->
  push_far g alpha y xs gap order tol = true.
Proof.
  intros Hnn Ha Ht Hr Hf H. unfold push_far, get_pagerank, push_pagerank.
  rewrite (push_loop_above g alpha tol Hnn Ha Ht order _ _ _ Hf Hr).
  apply (far_from_sound _ _ D F). exact H.
Qed.

(** On the house graph (5 nodes, degrees 2 and 3), uniform restart, alpha = 0.85: whatever order
    argsort returns and for tolerances from 0.1 down to 1e-9 the work-list empties and the result is
    more than 0.02 away (L1) from the PageRank vector (which [solution_check] certifies exactly). *)
Theorem push_refuted_proof :
  good_graph house /\
  solution_check house (85 # 100) (repeat (1 # 5)%Q 5) house_solution = true /\
  forall order tol, In order (perms [0; 1; 2; 3; 4]) -> In tol [1 # 10; 1 # 1000; 1 # 1000000000]%Q ->
    push_far house (85 # 100) (repeat (1 # 5)%Q 5) house_solution (2 # 100) order tol = true.
Proof.
  split; [split; reflexivity|]. split; [vm_compute; reflexivity|].
  assert (Hres : forallb (fun tol => Qle_bool 0 tol && forallb (Qle_bool tol) (push_init house (85 # 100) (repeat (1 # 5)%Q 5)))
                         [1 # 10; 1 # 1000; 1 # 1000000000]%Q = true) by (vm_compute; reflexivity).
  (* the parts common to all orders are bound once, so that the evaluation shares them;
     2560000000 and 24510 are common denominators of the scores of all the runs and of the PageRank vector *)
  assert (H : let p := vnormalize house_solution in
              let st := (repeat (1 - (85 # 100))%Q (length house), push_init house (85 # 100) (repeat (1 # 5)%Q 5)) in
              forallb (fun order => far_from (length house) (2 # 100) 2560000000 24510 p
                                             (fst (fold_left (push_once house (85 # 100)) order st)))
                      (perms [0; 1; 2; 3; 4]) = true) by (vm_compute; reflexivity).
  cbv zeta in H. rewrite forallb_forall in H, Hres.
  intros order tol Ho Ht. specialize (Hres tol Ht). apply andb_true_iff in Hres. destruct Hres as [H0 Hres].
  apply (push_far_one_pass _ _ _ _ _ _ _ 2560000000 24510).
  - reflexivity.
  - lra.
  - apply Qle_bool_iff. exact H0.
  - apply above_forallb. exact Hres.
  - rewrite (perms_length _ _ Ho). cbn [length]. lia.
  - exact (H order Ho).
Qed.

Lemma surfer_fun_minus n g alpha (y x x' : vec) j :
  (surfer_fun n g (normalize g) alpha y (fun i => x i - x' i) j
   == surfer_fun n g (normalize g) alpha y x j - surfer_fun n g (normalize g) alpha y x' j)%Q.
Proof. rewrite !surfer_fun_kernel. apply mv_minus. Qed.

(** On vectors of zero mass the operator acts as alpha S with S column-stochastic: a contraction by alpha. *)
Lemma surfer_contracts g alpha (y d : vec) :
  good_graph g -> (0 <= alpha)%Q ->
  (forall j, j < length g -> (0 <= y j)%Q) -> (vsum (length g) y == 1)%Q ->
  (vsum (length g) d == 0)%Q ->
  (norm1 (length g) (surfer_fun (length g) g (normalize g) alpha y d) <= alpha * norm1 (length g) d)%Q.
Proof.
  intros Hg Ha Hy Hsy Hd. set (n := length g) in *.
  destruct (P_facts g Hg) as (Hpp & Hps & Hout). fold n in Hps.
  set (S := fun j i => (alpha * P g i j + alpha * y j * (1 - has_out g i))%Q).
  assert (Heq : forall j, j < n -> (surfer_fun n g (normalize g) alpha y d j == mv n S d j)%Q).
  { (* the kernel is S + (1 - alpha) y 1^T, and the second part sees only the mass of d *)
    intros j Hj. rewrite surfer_fun_kernel. unfold mv.
    rewrite (bsum_ext n _ (fun i => S j i * d i + (1 - alpha) * y j * d i)%Q) by (intros; unfold surfer_kernel, S; ring).
    rewrite bsum_plus, bsum_scale. unfold vsum in Hd. rewrite Hd. ring. }
  rewrite (norm1_ext n _ _ Heq).
  apply norm1_contract_gen.
  - intros j i Hj Hi. unfold S. assert (H1 := Hpp i j). assert (H2 := Hy j Hj).
    destruct (Hout i) as [-> | ->]; nra.
  - intros i Hi. unfold S. rewrite bsum_plus. rewrite bsum_scale. rewrite (Hps i).
    rewrite (bsum_ext n (fun j => alpha * y j * (1 - has_out g i))%Q (fun j => (alpha * (1 - has_out g i)) * y j)%Q) by (intros; ring).
    rewrite bsum_scale. unfold vsum in Hsy. rewrite Hsy. apply Qle_lteq. right. ring.
Qed.

Lemma vsub_length_same a b : length a = length b -> length (vsub a b) = length a.
Proof. intros H. unfold vsub. rewrite map2_length, H. apply Nat.min_id. Qed.

Lemma piteration_step_length g alpha y x : length (piteration_step (surfer_matvec g alpha y) x) = length g.
Proof. unfold piteration_step, vnormalize. rewrite map_length. apply surfer_matvec_length. Qed.

Lemma piteration_step_mass g alpha y x :
  good_graph g -> (0 <= alpha)%Q -> (vsum (length g) (V y) == 1)%Q -> (vsum (length g) (V x) == 1)%Q ->
  (vsum (length g) (V (piteration_step (surfer_matvec g alpha y) x)) == 1)%Q.
Proof.
  intros Hg Ha Hy Hx. unfold vsum.
  rewrite (bsum_ext (length g) _ (surfer_fun (length g) g (normalize g) alpha (V y) (V x))).
  2:{ intros j Hj. apply piteration_step_spec; assumption. }
  rewrite <- Hx. apply surfer_mass; assumption.
Qed.

Lemma piteration_step_contracts g alpha y x (p : vec) :
  good_graph g -> (0 <= alpha)%Q ->
  (forall j, j < length g -> (0 <= V y j)%Q) -> (vsum (length g) (V y) == 1)%Q ->
  (vsum (length g) (V x) == 1)%Q ->
  is_stationary (length g) (surfer_kernel (P g) (has_out g) alpha (V y)) p ->
  (norm1 (length g) (fun j => V (piteration_step (surfer_matvec g alpha y) x) j - p j)
   <= alpha * norm1 (length g) (fun j => V x j - p j))%Q.
Proof.
  intros Hg Ha Hy0 Hy Hx [Hp1 Hpf]. set (n := length g) in *.
  set (d := fun j => (V x j - p j)%Q).
  assert (Hd : (vsum n d == 0)%Q) by (unfold d; rewrite vsum_minus, Hx, Hp1; ring).
  rewrite (norm1_ext n _ (surfer_fun n g (normalize g) alpha (V y) d)).
  - apply surfer_contracts; assumption.
  - intros j Hj. unfold d. rewrite surfer_fun_minus.
    rewrite (piteration_step_spec g alpha y x j Hg Ha Hy Hx Hj).
    rewrite (Hpf j Hj) at 1. rewrite <- surfer_fun_kernel. reflexivity.
Qed.

Lemma V_vsub a b j : length a = length b -> (V (vsub a b) j == V a j - V b j)%Q.
Proof.
  intros L. destruct (Nat.lt_ge_cases j (length a)) as [H|H].
  - unfold vsub. apply (V_map2_Qred Qminus); [exact H|rewrite <- L; exact H].
  - rewrite !V_overflow; try lia; [ring|]. unfold vsub. rewrite map2_length. lia.
Qed.

(** The coded loop (n_iter steps, early exit when two successive iterates are closer than tol, in which
    case the OLDER iterate is returned): the error never grows, and it is either below alpha^n_iter times
    the initial error or below tol / (1 - alpha). *)
Theorem piteration_error_proof g alpha y (p : vec) n_iter tol x :
  good_graph g -> (0 <= alpha < 1)%Q -> length x = length g ->
  (forall j, j < length g -> (0 <= V y j)%Q) -> (vsum (length g) (V y) == 1)%Q ->
  (vsum (length g) (V x) == 1)%Q ->
  is_stationary (length g) (surfer_kernel (P g) (has_out g) alpha (V y)) p ->
  let r := piteration_loop n_iter (surfer_matvec g alpha y) tol x in
  let e0 := norm1 (length g) (fun j => V x j - p j)%Q in
  let e := norm1 (length g) (fun j => V r j - p j)%Q in
  (vsum (length g) (V r) == 1)%Q /\ (e <= e0)%Q /\ ((e <= apow alpha n_iter * e0)%Q \/ (e <= tol / (1 - alpha))%Q).
Proof.
  intros Hg [Ha0 Ha1] Lx Hy0 Hy Hx Hp. cbv zeta. set (n := length g) in *.
  revert x Lx Hx. induction n_iter as [|k IH]; intros x Lx Hx; cbn [piteration_loop apow].
  - split; [exact Hx|]. split; [apply Qle_refl|]. left. rewrite Qmult_1_l. apply Qle_refl.
  - set (x' := piteration_step (surfer_matvec g alpha y) x).
    assert (Lx' : length x' = n) by apply piteration_step_length.
    assert (Hx' : (vsum n (V x') == 1)%Q) by (apply piteration_step_mass; assumption).
    assert (Hc := piteration_step_contracts g alpha y x p Hg Ha0 Hy0 Hy Hx Hp). fold n x' in Hc.
    assert (He0 := norm1_nonneg n (fun j => V x j - p j)%Q).
    set (e0 := norm1 n (fun j => V x j - p j)%Q) in *.
    set (e1 := norm1 n (fun j => V x' j - p j)%Q) in *.
    destruct (Qltb (lnorm1 (vsub x x')) tol) eqn:E.
    + split; [exact Hx|]. split; [apply Qle_refl|]. right.
      apply Qltb_lt in E. unfold lnorm1 in E.
      rewrite Qred_correct, vsub_length_same, Lx, (norm1_ext n _ (fun j => V x j - V x' j)%Q) in E
        by (intros; try apply V_vsub; lia).
      assert (Htri : (e0 <= norm1 n (fun j => V x j - V x' j) + e1)%Q).
      { unfold e0, e1. eapply Qle_trans; [|apply norm1_triangle].
        apply Qle_lteq. right. apply norm1_ext. intros j _. ring. }
      change (e0 <= tol / (1 - alpha))%Q.
      set (D := norm1 n (fun j => V x j - V x' j)%Q) in *.
      apply Qle_shift_div_l; [lra|]. nra.
    + destruct (IH x' Lx' Hx') as (Hs & Hmono & Hb). fold e1 in Hmono, Hb.
      assert (Hp0 := apow_nonneg alpha k Ha0).
      split; [exact Hs|]. split; [nra|].
      destruct Hb as [Hb|Hb]; [left|right; exact Hb].
      eapply Qle_trans; [exact Hb|]. nra.
Qed.
