(** Proofs about Model/Cuts.v (property C08).  The base facts about [valid] / [leaves] (Model/Dendrogram.v)
    are in Proofs/DendroBase.v, re-exported from here. *)
From SKN Require Import Base.Util Model.Dendrogram Model.Cuts.
From SKN Require Export Proofs.DendroBase.
From Coq Require Import Permutation Sorted SetoidList SetoidPermutation Lia Lqa Psatz Qreduction.
Close Scope Q_scope.
Open Scope nat_scope.

(** * Removing two keys of a dict and appending a fresh one: the step shared by [cut_step], [valid_run],
      [reduce_loop] and [ag_merge] *)
Lemma alookup_aremove_Some {A} (l : list (nat * A)) x y v :
  NoDup (akeys l) -> alookup x (aremove y l) = Some v -> x <> y /\ alookup x l = Some v.
Proof.
  intros Hnd H. destruct (Nat.eq_dec x y) as [->|Hne].
  - rewrite alookup_aremove_eq in H by assumption. discriminate.
  - split; [exact Hne|]. now rewrite alookup_aremove_neq in H.
Qed.

Lemma akeys_aremove2_iff {A} (l : list (nat * A)) a b x :
  NoDup (akeys l) -> (In x (akeys (aremove b (aremove a l))) <-> In x (akeys l) /\ x <> a /\ x <> b).
Proof.
  intros H. rewrite akeys_aremove_iff by now apply NoDup_aremove. rewrite akeys_aremove_iff by assumption. tauto.
Qed.

Lemma aremove2_perm {A} (l : list (nat * A)) a b va vb :
  a <> b -> alookup a l = Some va -> alookup b l = Some vb ->
  Permutation l ((a, va) :: (b, vb) :: aremove b (aremove a l)).
Proof.
  intros Hne Ha Hb. etransitivity; [exact (aremove_perm a l va Ha)|]. constructor.
  apply aremove_perm. now rewrite alookup_aremove_neq by auto.
Qed.

Lemma aremove2_length {A} (l : list (nat * A)) a b va vb :
  a <> b -> alookup a l = Some va -> alookup b l = Some vb ->
  length l = S (S (length (aremove b (aremove a l)))).
Proof. intros Hne Ha Hb. exact (Permutation_length (aremove2_perm l a b va vb Hne Ha Hb)). Qed.

Definition applies (guard : drow -> list nat -> list nat -> bool) (r : drow) (st : cstate) : Prop :=
  exists ci cj, alookup (r_left r) st = Some ci /\ alookup (r_right r) st = Some cj /\ guard r ci cj = true.

Lemma cut_step_inv guard key r st st' :
  NoDup (akeys st) -> cut_step guard key r st = Ok st' ->
  (~ applies guard r st /\ st' = st) \/
  exists ci cj, r_left r <> r_right r /\ alookup (r_left r) st = Some ci /\ alookup (r_right r) st = Some cj /\
                guard r ci cj = true /\ st' = aremove (r_right r) (aremove (r_left r) st) ++ [(key, ci ++ cj)].
Proof.
  intros Hnd H. unfold cut_step in H.
  destruct (alookup (r_left r) st) as [ci|] eqn:Hi.
  2:{ left. split; [intros (? & ? & ? & _); congruence | now inversion H]. }
  destruct (alookup (r_right r) st) as [cj|] eqn:Hj.
  2:{ left. split; [intros (? & ? & _ & ? & _); congruence | now inversion H]. }
  destruct (guard r ci cj) eqn:Hg.
  2:{ left. split; [intros (? & ? & ? & ? & ?); congruence | now inversion H]. }
  destruct (alookup (r_right r) (aremove (r_left r) st)) as [cj'|] eqn:Hj'; [|discriminate].
  apply alookup_aremove_Some in Hj'; [|exact Hnd]. destruct Hj' as [Hne Hj'].
  right. exists ci, cj. assert (cj' = cj) by congruence. subst cj'. inversion H. auto 6.
Qed.

Lemma cut_step_total guard key r st : r_left r <> r_right r -> exists st', cut_step guard key r st = Ok st'.
Proof.
  intros Hne. unfold cut_step. destruct (alookup (r_left r) st) as [ci|]; [|now eexists].
  destruct (alookup (r_right r) st) as [cj|] eqn:Hj; [|now eexists].
  destruct (guard r ci cj); [|now eexists]. rewrite alookup_aremove_neq, Hj by auto. now eexists.
Qed.

Lemma replay_invariant guard n D (P : nat -> cstate -> Prop) :
  (forall t r st st', nth_error D t = Some r -> P t st -> cut_step guard (n + t) r st = Ok st' -> P (S t) st') ->
  forall rows done st st', D = done ++ rows -> P (length done) st ->
    replay guard (n + length done) rows st = Ok st' -> P (length D) st'.
Proof.
  intros Hstep. induction rows as [|r rows IH]; intros done st st' HD Hinv Hrun; simpl in Hrun.
  - inversion Hrun; subst st'. now rewrite HD, app_nil_r.
  - destruct (cut_step guard (n + length done) r st) as [st1|] eqn:Hs; [|discriminate].
    assert (Hr : nth_error D (length done) = Some r) by (rewrite HD; apply nth_error_app_length).
    apply (IH (done ++ [r]) st1 st').
    + now rewrite <- app_assoc.
    + rewrite last_length. exact (Hstep _ _ _ _ Hr Hinv Hs).
    + now rewrite last_length, <- plus_n_Sm.
Qed.

Lemma replay_invariant_init guard n D (P : nat -> cstate -> Prop) st :
  (forall t r st st', nth_error D t = Some r -> P t st -> cut_step guard (n + t) r st = Ok st' -> P (S t) st') ->
  P 0 (init_clusters n) -> replay guard n D (init_clusters n) = Ok st -> P (length D) st.
Proof.
  intros Hstep H0 Hrun. apply (replay_invariant guard n D P Hstep D [] _ st eq_refl H0). simpl. now rewrite Nat.add_0_r.
Qed.

Lemma replay_total guard n D st : valid n D = true -> exists st', replay guard n D st = Ok st'.
Proof.
  intros Hv. destruct (valid_rows n D Hv) as [_ Hrows].
  assert (Hne : forall r, In r D -> r_left r <> r_right r).
  { intros r Hr. destruct (In_nth_error _ _ Hr) as [t Ht]. now destruct (Hrows t r Ht). }
  (* the induction is over the rows with any first key *)
  clear Hv Hrows. revert st. generalize n at 1. induction D as [|r rows IH]; intros key st; simpl; [now exists st|].
  destruct (cut_step_total guard key r st) as [st1 ->]; [apply Hne; now left|].
  apply IH. intros r' Hr'. apply Hne. now right.
Qed.

(** * The replay of the cuts: every cluster of the dict is the leaf set of its key *)
Lemma Permutation_concat {A} (l1 l2 : list (list A)) : Permutation l1 l2 -> Permutation (concat l1) (concat l2).
Proof.
  induction 1; simpl.
  - reflexivity.
  - now apply Permutation_app_head.
  - rewrite !app_assoc. apply Permutation_app_tail. apply Permutation_app_comm.
  - etransitivity; eassumption.
Qed.

Definition cinv (n : nat) (D : dendrogram) (t : nat) (st : cstate) : Prop :=
  NoDup (akeys st) /\
  (forall k c, In (k, c) st -> k < n + t /\ c = leaves n D k /\ c <> []) /\
  Permutation (concat (map snd st)) (seq 0 n).

Lemma cinv_init n D : cinv n D 0 (init_clusters n).
Proof.
  unfold cinv, init_clusters, akeys. rewrite !map_map. simpl. rewrite map_id. split; [apply seq_NoDup|]. split.
  - intros k c H. apply in_map_iff in H. destruct H as [i [H1 H2]]. inversion H1; subst.
    apply in_seq in H2. split; [lia|]. split; [|discriminate]. symmetry. apply leaves_leaf. lia.
  - assert (H : forall s m, concat (map (fun x : nat => [x]) (seq s m)) = seq s m).
    { intros s m. revert s. induction m; simpl; intros s; [reflexivity | now rewrite IHm]. }
    now rewrite H.
Qed.

Lemma cut_step_cinv guard n D t r st st' :
  ids_lt n D -> nth_error D t = Some r -> cinv n D t st ->
  cut_step guard (n + t) r st = Ok st' -> cinv n D (S t) st'.
Proof.
  intros Hids Hr (Hnd & Hcl & Hperm) Hstep.
  destruct (cut_step_inv _ _ _ _ _ Hnd Hstep) as [[_ ->]|(ci & cj & Hne & Hi & Hj & _ & ->)].
  { split; [assumption|]. split; [|assumption]. intros k c H. destruct (Hcl k c H) as (H1 & H2 & H3).
    split; [lia|]. now split. }
  destruct (Hcl _ _ (alookup_In _ _ _ Hi)) as (Hi1 & Hi2 & Hi3).
  destruct (Hcl _ _ (alookup_In _ _ _ Hj)) as (Hj1 & Hj2 & Hj3).
  split; [|split].
  - apply NoDup_akeys_app_fresh; [now apply NoDup_aremove, NoDup_aremove|]. intros Hc.
    apply akeys_aremove_In, akeys_aremove_In in Hc. unfold akeys in Hc. apply in_map_iff in Hc.
    destruct Hc as [[k c] [E Hin]]. simpl in E. subst k. apply Hcl in Hin. lia.
  - intros k c H. apply in_app_iff in H. destruct H as [H|[H|[]]].
    + apply aremove_In, aremove_In in H. destruct (Hcl k c H) as (H1 & H2 & H3). split; [lia|]. now split.
    + inversion H; subst k c. split; [lia|]. split.
      * rewrite (leaves_node n D t r Hids Hr). now rewrite <- Hi2, <- Hj2.
      * destruct ci; [congruence|discriminate].
  - rewrite map_app, concat_app. simpl. rewrite app_nil_r, <- Hperm.
    assert (P := aremove2_perm st _ _ ci cj Hne Hi Hj).
    apply (Permutation_map snd), Permutation_concat in P. simpl in P.
    rewrite P, (app_assoc ci cj). apply Permutation_app_comm.
Qed.

Lemma replay_cinv guard n D : ids_lt n D ->
  forall rows done st st', D = done ++ rows -> cinv n D (length done) st ->
    replay guard (n + length done) rows st = Ok st' -> cinv n D (length D) st'.
Proof.
  intros Hids. apply (replay_invariant guard n D (cinv n D)). intros t r st st' Hr. now apply cut_step_cinv.
Qed.

Lemma map_nth_perm {A} (l : list A) d index :
  Permutation index (seq 0 (length l)) -> Permutation (map (fun i => nth i l d) index) l.
Proof.
  intros H. apply (Permutation_map (fun i => nth i l d)) in H. now rewrite map_nth_seq in H.
Qed.

Definition negsizes (st : cstate) : list Z := map (fun c => (- Z.of_nat (length c))%Z) (map snd st).

Definition pstate (argsort : list Z -> list nat) (st : cstate) (sort : bool) : cstate :=
  if sort then map (fun i => nth i st (0, [])) (argsort (negsizes st)) else st.

Lemma pstate_perm argsort st sort : argsort_ok argsort -> Permutation (pstate argsort st sort) st.
Proof.
  intros H. unfold pstate. destruct sort; [|reflexivity]. apply map_nth_perm.
  destruct (H (negsizes st)) as [H1 _]. unfold negsizes in H1 at 2. now rewrite !map_length in H1.
Qed.

Lemma get_labels_pstate argsort D st sort ret :
  get_labels argsort D st sort ret =
  let clusters := map snd (pstate argsort st sort) in
  let labels := labels_of (S (length D)) clusters in
  if ret then
    match reduce_loop D (combine (seq 0 (S (length D))) labels) (init_live (map (@length nat) clusters))
                      (length labels) (length clusters) with
    | Ok Dnew => Ok (labels, Some Dnew)
    | Err e => Err e
    end
  else Ok (labels, None).
Proof.
  unfold get_labels. cbv zeta.
  set (c1 := if sort then map (fun i => nth i (map snd st) []) _ else map snd st).
  assert (E : c1 = map snd (pstate argsort st sort)).
  { unfold c1, pstate, negsizes. destruct sort; [|reflexivity]. etransitivity; [|symmetry; apply map_map].
    apply map_ext. intros i. exact (map_nth snd st (0, []) i). }
  rewrite E. unfold init_live. now rewrite (map_length (@length nat)).
Qed.

Lemma get_labels_labels argsort D st sort ret labels od :
  get_labels argsort D st sort ret = Ok (labels, od) ->
  labels = labels_of (S (length D)) (map snd (pstate argsort st sort)).
Proof.
  rewrite get_labels_pstate. cbv zeta. intros H.
  destruct ret; [destruct (reduce_loop _ _ _ _ _); [|discriminate]|]; now inversion H.
Qed.

Definition cpart (n : nat) (D : dendrogram) (pst : cstate) : Prop :=
  NoDup (akeys pst) /\
  (forall k c, In (k, c) pst -> c = leaves n D k /\ c <> []) /\
  Permutation (concat (map snd pst)) (seq 0 n).

Lemma cinv_cpart n D t st pst : cinv n D t st -> Permutation pst st -> cpart n D pst.
Proof.
  intros (H1 & H2 & H3) P. split; [|split].
  - apply (Permutation_map fst) in P. symmetry in P. exact (Permutation_NoDup P H1).
  - intros k c H. apply (Permutation_in _ P) in H. destruct (H2 k c H) as (_ & Ha & Hb). now split.
  - rewrite <- H3. apply Permutation_concat, Permutation_map, P.
Qed.

Lemma label_of_none cs b v acc : (forall c, In c cs -> ~ In v c) -> label_of cs b v acc = acc.
Proof.
  revert b acc. induction cs as [|c cs IH]; intros b acc H; simpl; [reflexivity|].
  rewrite IH by (intros c' Hc'; apply H; now right).
  destruct (memn v c) eqn:E; [|reflexivity]. apply memn_In in E. exfalso. apply (H c); [now left | exact E].
Qed.

Lemma label_of_spec cs : NoDup (concat cs) ->
  forall l v b acc, l < length cs -> In v (nth l cs []) -> label_of cs b v acc = b + l.
Proof.
  induction cs as [|c cs IH]; intros Hnd l v b acc Hl Hv; simpl in *; [lia|].
  apply NoDup_app_remove_aux in Hnd. destruct Hnd as (Hndc & Hndcs & Hdisj).
  destruct l as [|l].
  - rewrite label_of_none.
    + assert (E : memn v c = true) by now apply memn_In. rewrite E. lia.
    + intros c' Hc' Hvc'. apply (Hdisj v Hv). apply in_concat. now exists c'.
  - rewrite (IH Hndcs l v (S b)); [lia | lia | exact Hv].
Qed.

Lemma nth_map_lt {A B} (f : A -> B) l i d d' : i < length l -> nth i (map f l) d' = f (nth i l d).
Proof. intros H. rewrite (nth_indep _ d' (f d)) by now rewrite map_length. apply map_nth. Qed.

Lemma labels_of_nth n cs v : v < n -> nth v (labels_of n cs) 0 = label_of cs 0 v 0.
Proof. intros H. unfold labels_of. now rewrite nth_map_seq. Qed.

Lemma NoDup_concat_In {A} (cs : list (list A)) c : NoDup (concat cs) -> In c cs -> NoDup c.
Proof.
  induction cs as [|c' cs IH]; simpl; [tauto|]. intros H [->|Hc].
  - now apply NoDup_app_remove_aux in H.
  - apply NoDup_app_remove_aux in H. apply IH; tauto.
Qed.

Lemma cpart_clusters n D pst : cpart n D pst ->
  NoDup (concat (map snd pst)) /\
  (forall v, v < n -> exists l, l < length pst /\ In v (nth l (map snd pst) [])) /\
  (forall l v, l < length pst -> In v (nth l (map snd pst) []) -> v < n) /\
  (forall l, l < length pst ->
     nth l (map snd pst) [] = leaves n D (fst (nth l pst (0, []))) /\ nth l (map snd pst) [] <> []).
Proof.
  intros (Hnd & Hcl & Hperm). split; [|split; [|split]].
  - symmetry in Hperm. exact (Permutation_NoDup Hperm (seq_NoDup n 0)).
  - intros v Hv. assert (Hin : In v (concat (map snd pst))).
    { symmetry in Hperm. apply (Permutation_in _ Hperm). apply in_seq. lia. }
    apply in_concat in Hin. destruct Hin as [c [Hc Hvc]].
    destruct (In_nth _ _ [] Hc) as [l [Hl El]]. rewrite map_length in Hl. exists l. split; [exact Hl|]. now rewrite El.
  - intros l v Hl Hv. assert (Hin : In v (concat (map snd pst))).
    { apply in_concat. exists (nth l (map snd pst) []). split; [|exact Hv]. apply nth_In. now rewrite map_length. }
    apply (Permutation_in _ Hperm) in Hin. apply in_seq in Hin. lia.
  - intros l Hl. change (@nil nat) with (snd (0, @nil nat)) at 1 3. rewrite map_nth.
    assert (Hin : In (nth l pst (0, [])) pst) by now apply nth_In.
    destruct (nth l pst (0, [])) as [k c] eqn:E. simpl. exact (Hcl k c Hin).
Qed.

Lemma cpart_label n D pst l v : cpart n D pst -> l < length pst -> In v (nth l (map snd pst) []) ->
  nth v (labels_of n (map snd pst)) 0 = l.
Proof.
  intros Hc Hl Hv. destruct (cpart_clusters n D pst Hc) as (Hnd & _ & Hlt & _).
  rewrite labels_of_nth by (eapply Hlt; eassumption).
  rewrite (label_of_spec _ Hnd l v 0 0); [reflexivity | now rewrite map_length | exact Hv].
Qed.

Lemma cpart_labels n D pst : cpart n D pst ->
  let labels := labels_of n (map snd pst) in
  length labels = n /\
  (forall v, v < n -> nth v labels 0 < length pst) /\
  (forall l v, l < length pst -> v < n ->
     (nth v labels 0 = l <-> In v (leaves n D (fst (nth l pst (0, [])))))) /\
  (forall l, l < length pst -> exists v, v < n /\ nth v labels 0 = l).
Proof.
  intros Hc. destruct (cpart_clusters n D pst Hc) as (Hnd & Hcov & Hlt & Hleaves). simpl.
  assert (Hlab := fun l v => cpart_label n D pst l v Hc).
  split; [|split; [|split]].
  - unfold labels_of. now rewrite map_length, seq_length.
  - intros v Hv. destruct (Hcov v Hv) as [l [Hl Hin]]. now rewrite (Hlab l v Hl Hin).
  - intros l v Hl Hv. destruct (Hleaves l Hl) as [El _]. rewrite <- El. split.
    + intros E. destruct (Hcov v Hv) as [l' [Hl' Hin]]. rewrite (Hlab l' v Hl' Hin) in E. now subst l'.
    + intros Hin. now apply Hlab.
  - intros l Hl. destruct (Hleaves l Hl) as [_ Hne].
    destruct (nth l (map snd pst) []) as [|v c] eqn:E; [congruence|].
    assert (Hin : In v (nth l (map snd pst) [])) by (rewrite E; now left).
    exists v. split; [eapply Hlt; eassumption | now apply Hlab].
Qed.

Lemma cpart_same_label n D pst k c : cpart n D pst -> In (k, c) pst ->
  exists l, l < length pst /\ nth l pst (0, []) = (k, c) /\
            forall u, In u c -> nth u (labels_of n (map snd pst)) 0 = l.
Proof.
  intros Hcp Hin. destruct (In_nth _ _ (0, []) Hin) as [l [Hl Enth]]. exists l. split; [exact Hl|]. split; [exact Enth|].
  intros u Hu. apply (cpart_label n D pst l u Hcp Hl). rewrite (nth_map_lt _ _ _ (0, [])) by exact Hl. now rewrite Enth.
Qed.

Lemma count_occ_map_filter (f : nat -> nat) L l :
  count_occ Nat.eq_dec (map f L) l = length (filter (fun v => Nat.eqb (f v) l) L).
Proof.
  induction L as [|a L IH]; simpl; [reflexivity|].
  destruct (Nat.eq_dec (f a) l) as [E|E].
  - apply Nat.eqb_eq in E. rewrite E. simpl. now rewrite IH.
  - apply Nat.eqb_neq in E. now rewrite E.
Qed.

Lemma cpart_sizes n D pst l : cpart n D pst -> l < length pst ->
  cluster_size (labels_of n (map snd pst)) l = length (nth l (map snd pst) []).
Proof.
  intros Hc Hl. destruct (cpart_clusters n D pst Hc) as (Hnd & Hcov & Hlt & Hleaves).
  destruct (cpart_labels n D pst Hc) as (_ & _ & Hiff & _).
  unfold cluster_size, labels_of. rewrite count_occ_map_filter. apply Permutation_length.
  apply NoDup_Permutation.
  - apply NoDup_filter, seq_NoDup.
  - apply (NoDup_concat_In _ _ Hnd). apply nth_In. now rewrite map_length.
  - intros v. rewrite filter_In, in_seq, Nat.eqb_eq. destruct (Hleaves l Hl) as [El _]. rewrite El. split.
    + intros [Hv E]. apply Hiff; [assumption | lia |]. now rewrite labels_of_nth by lia.
    + intros Hin. assert (Hv : v < n) by (apply (Hlt l v Hl); now rewrite El).
      split; [lia|]. apply Hiff in Hin; [|assumption|assumption]. now rewrite labels_of_nth in Hin by lia.
Qed.

Lemma subtree_partition_num n D labels ids :
  subtree_partition n D labels ids -> num_clusters labels = length ids.
Proof.
  intros (Hlen & Hlt & _ & Hsur). unfold num_clusters.
  rewrite <- (seq_length (length ids) 0). apply Permutation_length, NoDup_Permutation.
  - apply NoDup_nodup.
  - apply seq_NoDup.
  - intros x. rewrite nodup_In, in_seq. split.
    + intros Hin. destruct (In_nth _ _ 0 Hin) as [v [Hv E]]. rewrite Hlen in Hv. specialize (Hlt v Hv). lia.
    + intros [_ Hx]. destruct (Hsur x Hx) as [v [Hv E]]. rewrite <- E. apply nth_In. lia.
Qed.

Lemma pstate_sorted argsort st : argsort_ok argsort ->
  let pst := pstate argsort st true in
  forall a b, a <= b -> b < length pst ->
    length (snd (nth b pst (0, []))) <= length (snd (nth a pst (0, []))).
Proof.
  intros Hargs pst a b Hab Hb. unfold pst, pstate in *.
  destruct (Hargs (negsizes st)) as [Hperm Hsort].
  assert (Hns : length (negsizes st) = length st) by (unfold negsizes; now rewrite !map_length).
  assert (Hlen : length (argsort (negsizes st)) = length st) by (now rewrite (Permutation_length Hperm), seq_length).
  rewrite map_length in Hb.
  specialize (Hsort a b Hab). rewrite Hns, <- Hlen in Hsort. specialize (Hsort Hb).
  set (idx := argsort (negsizes st)) in *.
  rewrite !(nth_map_lt _ idx _ 0) by lia.
  assert (Hin : forall i, i < length idx -> nth i idx 0 < length st).
  { intros i Hi. assert (H : In (nth i idx 0) idx) by now apply nth_In.
    apply (Permutation_in _ Hperm) in H. apply in_seq in H. lia. }
  unfold negsizes in Hsort. rewrite map_map, !(nth_map_lt _ st _ (0, [])) in Hsort by (apply Hin; lia). lia.
Qed.

(** Everything the two cuts share: replay, then get_labels. *)
Lemma cut_generic guard argsort n D st sort ret labels od :
  valid n D = true -> argsort_ok argsort ->
  replay guard n D (init_clusters n) = Ok st ->
  get_labels argsort D st sort ret = Ok (labels, od) ->
  let pst := pstate argsort st sort in
  cpart n D pst /\ Permutation pst st /\ labels = labels_of n (map snd pst) /\
  subtree_partition n D labels (akeys pst) /\
  (forall l, l < length pst -> cluster_size labels l = length (snd (nth l pst (0, [])))) /\
  (sort = true -> sizes_sorted labels (length pst)).
Proof.
  intros Hv Hargs Hrep Hlab. simpl.
  assert (Hids := valid_ids_lt n D Hv). destruct (valid_rows n D Hv) as [Hlen _].
  assert (Hc : cinv n D (length D) st).
  { apply (replay_cinv guard n D Hids D [] (init_clusters n) st eq_refl).
    - apply cinv_init.
    - simpl. now rewrite Nat.add_0_r. }
  assert (P := pstate_perm argsort st sort Hargs).
  assert (Hcp := cinv_cpart n D _ st _ Hc P).
  apply get_labels_labels in Hlab. rewrite Hlen in Hlab.
  split; [exact Hcp|]. split; [exact P|]. split; [exact Hlab|].
  destruct (cpart_labels n D _ Hcp) as (H1 & H2 & H3 & H4). rewrite <- Hlab in *.
  assert (Hsz : forall l, l < length (pstate argsort st sort) ->
            cluster_size labels l = length (snd (nth l (pstate argsort st sort) (0, [])))).
  { intros l Hl. rewrite Hlab, (cpart_sizes n D _ l Hcp Hl).
    change (@nil nat) with (snd (0, @nil nat)) at 1. now rewrite map_nth. }
  split; [|split; [exact Hsz|]].
  - unfold subtree_partition, akeys. rewrite map_length. split; [exact H1|]. split; [exact H2|]. split; [|exact H4].
    intros l v Hl Hvn. change 0 with (fst (0, @nil nat)) at 2. rewrite map_nth. now apply H3.
  - intros -> a b Hab Hb. rewrite (Hsz a), (Hsz b) by lia. now apply pstate_sorted.
Qed.

(** * cut_straight / cut_balanced: clusters are subtrees, labels ordered by size, size cap *)
Lemma straight_state_inv D0 nc th ret D st :
  straight_state D0 nc th ret = Ok (D, st) ->
  cut_input D0 ret = Ok D /\
  exists cut, cut_height D nc th = Ok cut /\
              replay (straight_guard cut) (S (length D)) D (init_clusters (S (length D))) = Ok st.
Proof.
  unfold straight_state, straight_state_with. destruct (cut_input D0 ret) as [D1|] eqn:E1; [|discriminate].
  destruct (cut_height D1 nc th) as [cut|] eqn:E2; [|discriminate].
  destruct (replay (straight_guard cut) (S (length D1)) D1 (init_clusters (S (length D1)))) as [st1|] eqn:E3; [|discriminate].
  intros H. inversion H; subst. split; [reflexivity|]. exists cut. now split.
Qed.

Lemma cut_straight_inv argsort D0 nc th sort ret labels od :
  cut_straight argsort D0 nc th sort ret = Ok (labels, od) ->
  exists D st, straight_state D0 nc th ret = Ok (D, st) /\ get_labels argsort D st sort ret = Ok (labels, od).
Proof.
  unfold cut_straight. destruct (straight_state D0 nc th ret) as [[D st]|] eqn:E; [|discriminate].
  intros H. now exists D, st.
Qed.

Lemma cut_balanced_inv argsort D m sort ret labels od :
  cut_balanced argsort D m sort ret = Ok (labels, od) ->
  2 <= m <= S (length D) /\
  exists st, replay (balanced_guard m) (S (length D)) D (init_clusters (S (length D))) = Ok st /\
             get_labels argsort D st sort ret = Ok (labels, od).
Proof.
  unfold cut_balanced, balanced_state.
  destruct (Nat.ltb m 2 || Nat.ltb (S (length D)) m) eqn:E; [discriminate|].
  apply orb_false_iff in E. destruct E as [E1 E2]. apply Nat.ltb_ge in E1, E2.
  destruct (replay (balanced_guard m) (S (length D)) D (init_clusters (S (length D)))) as [st|] eqn:E3; [|discriminate].
  intros H. split; [lia|]. now exists st.
Qed.

Lemma cut_straight_replay argsort n D0 D nc th sort ret labels od :
  cut_input D0 ret = Ok D -> valid n D = true ->
  cut_straight argsort D0 nc th sort ret = Ok (labels, od) ->
  exists cut st, cut_height D nc th = Ok cut /\ replay (straight_guard cut) n D (init_clusters n) = Ok st /\
                 get_labels argsort D st sort ret = Ok (labels, od).
Proof.
  intros Hin Hv Hcut. apply cut_straight_inv in Hcut. destruct Hcut as (D' & st & Hst & Hlab).
  apply straight_state_inv in Hst. destruct Hst as (Hin' & cut & Hc & Hrep).
  rewrite Hin in Hin'. inversion Hin'; subst D'. destruct (valid_rows n D Hv) as [Hlen _]. rewrite Hlen in Hrep.
  now exists cut, st.
Qed.

Lemma cut_straight_subtrees argsort n D0 D nc th sort ret labels od :
  cut_input D0 ret = Ok D -> valid n D = true -> argsort_ok argsort ->
  cut_straight argsort D0 nc th sort ret = Ok (labels, od) ->
  exists ids, subtree_partition n D labels ids /\ (sort = true -> sizes_sorted labels (length ids)).
Proof.
  intros Hin Hv Hargs Hcut.
  destruct (cut_straight_replay _ n _ _ _ _ _ _ _ _ Hin Hv Hcut) as (cut & st & _ & Hrep & Hlab).
  destruct (cut_generic _ argsort n D st sort ret labels od Hv Hargs Hrep Hlab) as (_ & _ & _ & Hsub & _ & Hsorted).
  exists (akeys (pstate argsort st sort)). split; [exact Hsub|]. unfold akeys. now rewrite map_length.
Qed.

Lemma replay_cap m n D : ids_lt n D ->
  forall rows done st st', D = done ++ rows -> cinv n D (length done) st ->
    Forall (fun kc : nat * list nat => length (snd kc) <= m) st ->
    replay (balanced_guard m) (n + length done) rows st = Ok st' ->
    Forall (fun kc : nat * list nat => length (snd kc) <= m) st'.
Proof.
  intros Hids rows done st st' HD Hinv Hall Hrun.
  apply (replay_invariant _ n D (fun t st => cinv n D t st /\ Forall (fun kc => length (snd kc) <= m) st))
    with (4 := Hrun); [|exact HD|now split].
  intros t r s s' Hr [Hc Hcap] Hs. split; [exact (cut_step_cinv _ n D t r s s' Hids Hr Hc Hs)|].
  destruct (cut_step_inv _ _ _ _ _ (proj1 Hc) Hs) as [[_ ->]|(ci & cj & _ & Hi & Hj & Hg & ->)]; [exact Hcap|].
  rewrite Forall_forall in *. intros x Hx. apply in_app_iff in Hx. destruct Hx as [Hx|[<-|[]]].
  - apply Hcap. now apply aremove_In, aremove_In in Hx.
  - simpl. rewrite app_length. now apply Nat.leb_le.
Qed.

Lemma cut_balanced_subtrees argsort n D m sort ret labels od :
  valid n D = true -> argsort_ok argsort ->
  cut_balanced argsort D m sort ret = Ok (labels, od) ->
  exists ids, subtree_partition n D labels ids /\ (sort = true -> sizes_sorted labels (length ids)) /\
              (forall l, cluster_size labels l <= m).
Proof.
  intros Hv Hargs Hcut. apply cut_balanced_inv in Hcut. destruct Hcut as (Hm & st & Hrep & Hlab).
  destruct (valid_rows n D Hv) as [Hlen _]. rewrite Hlen in Hrep.
  destruct (cut_generic _ argsort n D st sort ret labels od Hv Hargs Hrep Hlab) as (_ & P & _ & Hsub & Hsz & Hsorted).
  exists (akeys (pstate argsort st sort)). split; [exact Hsub|]. split.
  - unfold akeys. now rewrite map_length.
  - assert (Hcap : Forall (fun kc : nat * list nat => length (snd kc) <= m) st).
    { apply (replay_cap m n D (valid_ids_lt n D Hv) D [] (init_clusters n) st eq_refl).
      - apply cinv_init.
      - unfold init_clusters. apply Forall_forall. intros x Hx. apply in_map_iff in Hx.
        destruct Hx as [i [<- _]]. simpl. lia.
      - simpl. now rewrite Nat.add_0_r. }
    intros l. destruct (Nat.lt_ge_cases l (length (pstate argsort st sort))) as [Hl|Hl].
    + rewrite (Hsz l Hl). rewrite Forall_forall in Hcap. apply Hcap.
      apply (Permutation_in _ P). now apply nth_In.
    + unfold cluster_size. rewrite (proj1 (count_occ_not_In Nat.eq_dec labels l)); [lia|].
      intros Hin. destruct Hsub as (Hl1 & Hl2 & _). destruct (In_nth _ _ 0 Hin) as [v [Hv' E]].
      rewrite Hl1 in Hv'. specialize (Hl2 v Hv'). unfold akeys in Hl2. rewrite map_length in Hl2. lia.
Qed.

Lemma Qle_bool_false a b : Qle_bool a b = false -> (b < a)%Q.
Proof. intros E. apply Qnot_le_lt. intros Hc. apply Qle_bool_iff in Hc. congruence. Qed.

Lemma qltb_lt a b : qltb a b = true <-> (a < b)%Q.
Proof.
  unfold qltb. rewrite negb_true_iff. split; [apply Qle_bool_false|].
  intros H. destruct (Qle_bool b a) eqn:E; [|reflexivity]. apply Qle_bool_iff in E.
  exfalso. exact (Qlt_not_le _ _ H E).
Qed.

(** Insertion sort by a boolean comparison; [insq] and [ins_z] are (convertible to) its instances at [Qle_bool]
    and at the comparison of the second components. *)
Section InsertionSort.
Context {A : Type} (leb : A -> A -> bool).

Fixpoint isort_ins (x : A) (l : list A) : list A :=
  match l with
  | [] => [x]
  | y :: t => if leb x y then x :: l else y :: isort_ins x t
  end.

Lemma isort_ins_perm x l : Permutation (isort_ins x l) (x :: l).
Proof.
  induction l as [|y t IH]; simpl; [reflexivity|]. destruct (leb x y); [reflexivity|].
  rewrite IH. apply perm_swap.
Qed.

Lemma isort_perm l : Permutation (fold_right isort_ins [] l) l.
Proof. induction l as [|x l IH]; simpl; [reflexivity|]. rewrite isort_ins_perm. now constructor. Qed.

Context (R : A -> A -> Prop) (Htrans : forall x y z, R x y -> R y z -> R x z)
        (Hle : forall x y, leb x y = true -> R x y) (Hgt : forall x y, leb x y = false -> R y x).

Lemma isort_ins_sorted x l : StronglySorted R l -> StronglySorted R (isort_ins x l).
Proof.
  induction l as [|y t IH]; simpl; intros H.
  - constructor; constructor.
  - inversion H as [|? ? Hs Hall]; subst. destruct (leb x y) eqn:E.
    + apply Hle in E. constructor; [exact H|]. constructor; [exact E|].
      rewrite Forall_forall in *. intros z Hz. apply (Htrans x y z E). now apply Hall.
    + constructor; [now apply IH|].
      rewrite Forall_forall in *. intros z Hz. apply (Permutation_in _ (isort_ins_perm x t)) in Hz.
      destruct Hz as [<-|Hz]; [now apply Hgt | now apply Hall].
Qed.

Lemma isort_sorted l : StronglySorted R (fold_right isort_ins [] l).
Proof. induction l as [|x l IH]; simpl; [constructor | now apply isort_ins_sorted]. Qed.
End InsertionSort.

Lemma sortq_perm l : Permutation (sortq l) l.
Proof. exact (isort_perm Qle_bool l). Qed.

Lemma sortq_sorted l : StronglySorted Qle (sortq l).
Proof.
  apply (isort_sorted Qle_bool Qle Qle_trans).
  - intros x y. apply Qle_bool_iff.
  - intros x y E. apply Qlt_le_weak. now apply Qle_bool_false.
Qed.

Definition count_lt (c : Q) (l : list Q) : nat := length (filter (fun x => qltb x c) l).

Lemma count_lt_perm c l l' : Permutation l l' -> count_lt c l = count_lt c l'.
Proof.
  unfold count_lt. induction 1; simpl.
  - reflexivity.
  - destruct (qltb x c); simpl; congruence.
  - destruct (qltb x c), (qltb y c); reflexivity.
  - congruence.
Qed.

Lemma count_lt_none c l : Forall (Qle c) l -> count_lt c l = 0.
Proof.
  unfold count_lt. induction l as [|x l IH]; simpl; intros H; [reflexivity|].
  inversion H as [|? ? Hx Hl]; subst. destruct (qltb x c) eqn:E.
  - apply qltb_lt in E. exfalso. exact (Qlt_not_le _ _ E Hx).
  - now apply IH.
Qed.

Lemma sorted_count s : StronglySorted Qle s -> forall m c, nth_error s m = Some c ->
  count_lt c s <= m /\ (NoDupA Qeq s -> count_lt c s = m).
Proof.
  induction 1 as [|a s Hs IH Hall]; intros m c Hm; [destruct m; discriminate|].
  destruct m as [|m]; simpl in Hm.
  - inversion Hm; subst c. unfold count_lt. simpl.
    replace (qltb a a) with false by (symmetry; unfold qltb; apply negb_false_iff, Qle_bool_iff, Qle_refl).
    fold (count_lt a s). rewrite count_lt_none by assumption. split; [lia | reflexivity].
  - destruct (IH m c Hm) as [IHle IHeq]. unfold count_lt in *. simpl. split; [destruct (qltb a c); simpl; lia|].
    intros Hnd. inversion Hnd as [|? ? Hn Hnd']; subst.
    assert (Hin : In c s) by (eapply nth_error_In; eassumption).
    assert (Hlt : (a < c)%Q).
    { rewrite Forall_forall in Hall. specialize (Hall c Hin). apply Qle_lt_or_eq in Hall.
      destruct Hall as [Hl|He]; [exact Hl|]. exfalso. apply Hn. apply InA_alt. now exists c. }
    apply qltb_lt in Hlt. rewrite Hlt. simpl. now rewrite IHeq.
Qed.

Lemma distinct_heights_NoDupA D : distinct_heights D -> NoDupA Qeq (heights D).
Proof.
  induction D as [|r D IH]; intros H; simpl; [constructor|]. constructor.
  - intros Hc. apply InA_alt in Hc. destruct Hc as [y [E Hy]]. unfold heights in Hy.
    apply in_map_iff in Hy. destruct Hy as [r2 [<- Hr2]]. destruct (In_nth_error _ _ Hr2) as [t2 Ht2].
    apply (H 0 (S t2) r r2); simpl; auto.
  - apply IH. intros t1 t2 r1 r2 H1 H2 Hne. apply (H (S t1) (S t2) r1 r2); simpl; auto.
Qed.

Lemma below_count cut D : below (Some cut) D = count_lt cut (heights D).
Proof.
  unfold below, count_lt, heights. induction D as [|r D IH]; simpl; [reflexivity|].
  destruct (qltb (r_height r) cut); simpl; now rewrite IH.
Qed.

Lemma below_none D : below None D = length D.
Proof. unfold below. induction D as [|r D IH]; simpl; [reflexivity | now rewrite IH]. Qed.

Lemma below_cut_lt c r : below_cut (Some c) r = true <-> (r_height r < c)%Q.
Proof. simpl. apply qltb_lt. Qed.

Lemma below_cut_mono cut r r' : (r_height r' <= r_height r)%Q -> below_cut cut r = true -> below_cut cut r' = true.
Proof.
  destruct cut as [c|]; simpl; [|auto]. intros Hle H. apply qltb_lt. apply qltb_lt in H.
  eapply Qle_lt_trans; eassumption.
Qed.

Lemma below_sorted_le D m c : nth_error (sortq (heights D)) m = Some c -> below (Some c) D <= m.
Proof.
  intros H. rewrite below_count, <- (count_lt_perm c _ _ (sortq_perm (heights D))).
  exact (proj1 (sorted_count _ (sortq_sorted _) m c H)).
Qed.

Lemma below_sorted_eq D m c : distinct_heights D -> nth_error (sortq (heights D)) m = Some c -> below (Some c) D = m.
Proof.
  intros Hd H. rewrite below_count, <- (count_lt_perm c _ _ (sortq_perm (heights D))).
  apply (proj2 (sorted_count _ (sortq_sorted _) m c H)).
  apply (PermutationA_preserves_NoDupA Q_Setoid) with (heights D); [|now apply distinct_heights_NoDupA].
  apply (Permutation_PermutationA Q_Setoid). symmetry. apply sortq_perm.
Qed.

Lemma firstn_S_nth {A} (l : list A) t r : nth_error l t = Some r -> firstn (S t) l = firstn t l ++ [r].
Proof.
  revert t. induction l as [|a l IH]; intros [|t] H; simpl in *; try discriminate.
  - now inversion H.
  - f_equal. now apply IH.
Qed.

Lemma below_app cut l1 l2 : below cut (l1 ++ l2) = below cut l1 + below cut l2.
Proof. unfold below. now rewrite filter_app, app_length. Qed.

Lemma hmono_child n D t r c : hmono n D = true -> nth_error D t = Some r -> In c (children r) -> n <= c ->
  exists r', nth_error D (c - n) = Some r' /\ (r_height r' <= r_height r)%Q.
Proof.
  intros Hm Hr Hc Hn. unfold hmono in Hm. rewrite forallb_forall in Hm.
  specialize (Hm r (nth_error_In _ _ Hr)). apply andb_true_iff in Hm. destruct Hm as [H1 H2].
  assert (H : child_height_ok n D (r_height r) c = true) by (destruct Hc as [<-|[<-|[]]]; assumption).
  unfold child_height_ok in H. replace (Nat.ltb c n) with false in H by (symmetry; apply Nat.ltb_ge; lia).
  destruct (nth_error D (c - n)) as [r'|]; [|discriminate]. exists r'. split; [reflexivity|].
  now apply Qle_bool_iff.
Qed.

Lemma nth_error_lt {A} (l : list A) t : t < length l -> exists x, nth_error l t = Some x.
Proof. intros H. apply nth_error_Some in H. destruct (nth_error l t) as [x|]; [now exists x | congruence]. Qed.

(** * Which merges a replay applies (any guard) *)
Lemma leaves_nonempty n D : ids_lt n D -> forall x, x < n + length D -> leaves n D x <> [].
Proof.
  intros Hids x. induction x as [x IH] using lt_wf_ind. intros Hx.
  destruct (Nat.lt_ge_cases x n) as [Hlt|Hge]; [rewrite leaves_leaf by assumption; discriminate|].
  destruct (nth_error_lt D (x - n)) as [r Er]; [lia|].
  replace x with (n + (x - n)) by lia. rewrite (leaves_node n D (x - n) r Hids Er).
  destruct (Hids _ _ Er) as [Hl _]. intros E. apply app_eq_nil in E. destruct E as [E _].
  apply (IH (r_left r)); [lia | lia | exact E].
Qed.

Lemma leaves_hd n D : ids_lt n D -> forall x, x < n + length D -> In (hd 0 (leaves n D x)) (leaves n D x).
Proof. intros Hids x Hx. assert (H := leaves_nonempty n D Hids x Hx). destruct (leaves n D x); [congruence | now left]. Qed.

Definition inside (n : nat) (fl : nat -> bool) (x : nat) : Prop := x < n \/ fl (x - n) = true.
Definition unconsumed (fl : nat -> bool) (D : dendrogram) (t x : nat) : Prop :=
  forall t' r', t' < t -> nth_error D t' = Some r' -> fl t' = true -> ~ In x (children r').
Definition cntT (fl : nat -> bool) (t : nat) : nat := length (filter fl (seq 0 t)).

Lemma cntT_S fl t : cntT fl (S t) = cntT fl t + (if fl t then 1 else 0).
Proof. unfold cntT. rewrite seq_S, filter_app, app_length. simpl. destruct (fl t); reflexivity. Qed.

Lemma cntT_le fl g t : (forall t', t' < t -> fl t' = true -> g t' = true) -> cntT fl t <= cntT g t.
Proof.
  intros H. induction t as [|t IH]; [reflexivity|]. rewrite !cntT_S.
  assert (IH' := IH (fun t' Ht' => H t' (Nat.lt_lt_succ_r _ _ Ht'))). specialize (H t (Nat.lt_succ_diag_r t)).
  destruct (fl t); [rewrite H by reflexivity; lia | destruct (g t); lia].
Qed.

Lemma cntT_ext fl fl' t : (forall t', t' < t -> fl t' = fl' t') -> cntT fl t = cntT fl' t.
Proof. intros H. apply Nat.le_antisymm; apply cntT_le; intros t' Ht' E; [rewrite <- H | rewrite H]; assumption. Qed.

Lemma below_cntT cut D : below cut D = cntT (fun t => below_cut cut (nth t D drow0)) (length D).
Proof.
  induction D as [|r D IH] using rev_ind; [reflexivity|].
  rewrite below_app, app_length, Nat.add_1_r, cntT_S, app_nth2, Nat.sub_diag, IH by lia.
  f_equal; [|unfold below; simpl; now destruct (below_cut cut r)].
  apply cntT_ext. intros t' Ht'. now rewrite app_nth1.
Qed.

Definition ginv (n : nat) (D : dendrogram) (t : nat) (fl : nat -> bool) (st : cstate) : Prop :=
  cinv n D t st /\
  (forall x, In x (akeys st) <-> x < n + t /\ inside n fl x /\ unconsumed fl D t x) /\
  (forall t' r, t' < t -> nth_error D t' = Some r -> fl t' = true ->
                inside n fl (r_left r) /\ inside n fl (r_right r) /\
                exists k c, In (k, c) st /\ incl (leaves n D (n + t')) c) /\
  length st + cntT fl t = n /\
  (forall t', t <= t' -> fl t' = false).

Lemma ginv_init n D : ginv n D 0 (fun _ => false) (init_clusters n).
Proof.
  split; [apply cinv_init|]. split; [|split; [|split]].
  - intros x. unfold init_clusters, akeys. rewrite map_map. simpl. rewrite map_id, in_seq. unfold inside. simpl.
    split; [intros H; split; [lia|split; [left; lia | intros t' r' Ht'; lia]] | intros [H _]; lia].
  - intros t' r Ht'. lia.
  - unfold init_clusters, cntT. rewrite map_length, seq_length. simpl. lia.
  - reflexivity.
Qed.

Lemma ginv_step guard n D t r fl st st' :
  valid n D = true -> nth_error D t = Some r -> ginv n D t fl st ->
  cut_step guard (n + t) r st = Ok st' ->
  exists fl', ginv n D (S t) fl' st' /\ (forall t', t' < t -> fl' t' = fl t') /\
              (fl' t = true <-> applies guard r st).
Proof.
  intros Hv Hr (Hc & HK & HF & HL & HZ) Hstep.
  assert (Hids := valid_ids_lt n D Hv). destruct (valid_rows n D Hv) as [Hlen Hrows].
  assert (Ht : t < length D) by (apply nth_error_Some; congruence).
  assert (Hc' := cut_step_cinv guard n D t r st st' Hids Hr Hc Hstep).
  destruct Hc as (Hnd & Hcl & _).
  destruct (cut_step_inv _ _ _ _ _ Hnd Hstep) as [[Hna ->]|(ci & cj & Hne & Hi & Hj & Hg & ->)].
  { exists fl. split; [|split; [reflexivity | rewrite (HZ t) by lia; split; [discriminate | tauto]]].
    split; [exact Hc'|]. split; [|split; [|split]].
    - intros x. rewrite HK. unfold inside, unconsumed. split.
      + intros (H1 & H2 & H3). split; [lia|]. split; [exact H2|]. intros t' r' Ht' Hr' Hfl'.
        destruct (Nat.eq_dec t' t) as [->|Hne]; [rewrite HZ in Hfl' by lia; discriminate|].
        apply (H3 t' r'); [lia | assumption | assumption].
      + intros (H1 & H2 & H3). assert (Hx : x < n + t).
        { destruct H2 as [H2|H2]; [lia|]. destruct (Nat.eq_dec x (n + t)) as [->|Hne]; [|lia].
          replace (n + t - n) with t in H2 by lia. rewrite HZ in H2 by lia. discriminate. }
        split; [exact Hx|]. split; [exact H2|]. intros t' r' Ht'. apply H3. lia.
    - intros t' r' Ht' Hr' Hfl. destruct (Nat.eq_dec t' t) as [->|Hne]; [rewrite HZ in Hfl by lia; discriminate|].
      apply (HF t' r'); [lia | assumption | assumption].
    - rewrite cntT_S, (HZ t) by lia. lia.
    - intros t' Ht'. apply HZ. lia. }
  destruct (Hrows t r Hr) as (_ & Hil & Hjl & Hiu & Hju).
  set (fl' := fun t' => if Nat.eqb t' t then true else fl t').
  assert (Eflt : fl' t = true) by (unfold fl'; now rewrite Nat.eqb_refl).
  assert (Hext : forall t', t' < t -> fl' t' = fl t').
  { intros t' Ht'. unfold fl'. destruct (Nat.eqb t' t) eqn:E; [apply Nat.eqb_eq in E; lia | reflexivity]. }
  assert (Hins : forall x, x < n + t -> (inside n fl' x <-> inside n fl x)).
  { intros x Hx. unfold inside. destruct (Nat.lt_ge_cases x n) as [Hlt|Hge]; [tauto|].
    rewrite Hext by lia. tauto. }
  assert (Hik := alookup_key _ _ _ Hi). assert (Hjk := alookup_key _ _ _ Hj).
  exists fl'. split; [|split; [exact Hext | split; [intros _; now exists ci, cj | intros _; exact Eflt]]].
  split; [exact Hc'|]. split; [|split; [|split]].
  - intros x. rewrite akeys_app, in_app_iff. simpl. rewrite akeys_aremove2_iff, HK by assumption. unfold unconsumed. split.
    + intros [((H1 & H2 & H3) & H4 & H5)|[<-|[]]].
      * split; [lia|]. split; [now apply Hins|]. intros t' r' Ht' Hr' Hfl'.
        destruct (Nat.eq_dec t' t) as [->|Hne'].
        -- assert (r' = r) by congruence. subst r'. intros [E|[E|[]]]; congruence.
        -- rewrite Hext in Hfl' by lia. apply (H3 t' r'); [lia | assumption | assumption].
      * split; [lia|]. split; [right; replace (n + t - n) with t by lia; exact Eflt|].
        intros t' r' Ht' Hr' _ Hc. destruct (Hrows t' r' Hr') as (_ & Hil' & Hjl' & _). destruct Hc as [E|[E|[]]]; lia.
    + intros (H1 & H2 & H3). destruct (Nat.eq_dec x (n + t)) as [->|Hx]; [right; now left|]. left.
      assert (Hxr : ~ In x (children r)) by (apply (H3 t r); [lia | exact Hr | exact Eflt]).
      split; [split; [lia|split; [apply Hins; [lia|exact H2]|]]|].
      * intros t' r' Ht' Hr' Hfl'. apply (H3 t' r'); [lia | exact Hr' | now rewrite Hext by lia].
      * split; intros ->; apply Hxr; simpl; tauto.
  - intros t' r' Ht' Hr' Hfl.
    assert (Hnew : In (n + t, ci ++ cj) (aremove (r_right r) (aremove (r_left r) st) ++ [(n + t, ci ++ cj)]))
      by (apply in_app_iff; right; now left).
    destruct (Nat.eq_dec t' t) as [->|Hne'].
    + rewrite Hr in Hr'. inversion Hr'; subst r'.
      apply HK in Hik. apply HK in Hjk. split; [apply Hins; tauto|]. split; [apply Hins; tauto|].
      exists (n + t), (ci ++ cj). split; [exact Hnew|].
      rewrite (leaves_node n D t r Hids Hr).
      destruct (Hcl _ _ (alookup_In _ _ _ Hi)) as (_ & -> & _).
      destruct (Hcl _ _ (alookup_In _ _ _ Hj)) as (_ & -> & _). apply incl_refl.
    + rewrite Hext in Hfl by lia. destruct (HF t' r' ltac:(lia) Hr' Hfl) as (Hi1 & Hi2 & k & c & Hin & Hincl).
      destruct (Hrows t' r' Hr') as (_ & Hil' & Hjl' & _).
      split; [apply Hins; [lia|exact Hi1]|]. split; [apply Hins; [lia|exact Hi2]|].
      destruct (Nat.eq_dec k (r_left r)) as [->|Hk1].
      { exists (n + t), (ci ++ cj). split; [exact Hnew|].
        assert (c = ci) by (apply (In_alookup _ _ _ Hnd) in Hin; congruence). subst c. now apply incl_appl. }
      destruct (Nat.eq_dec k (r_right r)) as [->|Hk2'].
      { exists (n + t), (ci ++ cj). split; [exact Hnew|].
        assert (c = cj) by (apply (In_alookup _ _ _ Hnd) in Hin; congruence). subst c. now apply incl_appr. }
      exists k, c. split; [|exact Hincl]. apply in_app_iff. left.
      apply aremove_In_neq; [apply aremove_In_neq|]; assumption.
  - rewrite cntT_S, (cntT_ext fl' fl t), Eflt by (intros; now apply Hext).
    rewrite app_length. simpl. assert (E := aremove2_length st _ _ ci cj Hne Hi Hj). lia.
  - intros t' Ht'. unfold fl'. destruct (Nat.eqb t' t) eqn:E; [apply Nat.eqb_eq in E; lia|]. apply HZ. lia.
Qed.

Lemma ginv_replay guard n D st : valid n D = true ->
  replay guard n D (init_clusters n) = Ok st -> exists fl, ginv n D (length D) fl st.
Proof.
  intros Hv. apply (replay_invariant_init guard n D (fun t st => exists fl, ginv n D t fl st)).
  - intros t r s s' Hr [fl HG] Hs. destruct (ginv_step guard n D t r fl s s' Hv Hr HG Hs) as (fl' & H & _).
    now exists fl'.
  - exists (fun _ => false). apply ginv_init.
Qed.

(** cut_straight applies only merges below the cut; when no merge is lower than its children, all of them. *)
Lemma straight_replay_flags n D cut st : valid n D = true ->
  replay (straight_guard cut) n D (init_clusters n) = Ok st ->
  exists fl, ginv n D (length D) fl st /\
    (forall t r, nth_error D t = Some r -> fl t = true -> below_cut cut r = true) /\
    (hmono n D = true -> forall t r, nth_error D t = Some r -> below_cut cut r = true -> fl t = true).
Proof.
  intros Hv Hrep. destruct (valid_rows n D Hv) as [_ Hrows].
  apply (replay_invariant_init _ n D (fun t0 st => exists fl, ginv n D t0 fl st /\
      (forall t r, t < t0 -> nth_error D t = Some r -> fl t = true -> below_cut cut r = true) /\
      (hmono n D = true -> forall t r, t < t0 -> nth_error D t = Some r -> below_cut cut r = true -> fl t = true)))
    in Hrep.
  - destruct Hrep as (fl & HG & HA & HB). exists fl. split; [exact HG|].
    split; [|intros Hm]; intros t r Hr; [apply (HA t r) | apply (HB Hm t r)]; try assumption;
      apply nth_error_Some; congruence.
  - intros t r s s' Hr (fl & HG & HA & HB) Hs.
    destruct (ginv_step _ n D t r fl s s' Hv Hr HG Hs) as (fl' & HG' & Hext & Happ).
    exists fl'. split; [exact HG'|]. split.
    + intros t' r' Ht' Hr' Hfl. destruct (Nat.eq_dec t' t) as [->|Hne].
      * assert (r' = r) by congruence. subst r'. apply Happ in Hfl. destruct Hfl as (ci & cj & _ & _ & Hg). exact Hg.
      * rewrite Hext in Hfl by lia. apply (HA t' r'); [lia | assumption | assumption].
    + intros Hm t' r' Ht' Hr' Hb. destruct (Nat.eq_dec t' t) as [->|Hne]; [|rewrite Hext by lia; apply (HB Hm t' r'); [lia|assumption|assumption]].
      assert (r' = r) by congruence. subst r'. apply Happ.
      destruct HG as (_ & HK & _). destruct (Hrows t r Hr) as (_ & Hil & Hjl & Hiu & Hju).
      assert (Ht : t <= length D) by (apply Nat.lt_le_incl, nth_error_Some; congruence).
      assert (Hlive : forall c, In c (children r) -> In c (akeys s)).
      { intros c Hc. apply HK.
        assert (Hcl : c < n + t /\ ~ In c (flat_map children (firstn t D))) by (destruct Hc as [<-|[<-|[]]]; tauto).
        split; [tauto|]. split.
        - destruct (Nat.lt_ge_cases c n) as [Hlt|Hge]; [now left|]. right.
          destruct (hmono_child n D t r c Hm Hr Hc Hge) as [rc [Hrc Hle]].
          apply (HB Hm (c - n) rc); [lia | exact Hrc | eapply below_cut_mono; eassumption].
        - intros s0 r0 Hs0 Hr0 _ Hc0. apply (proj2 Hcl). apply in_flat_map. exists r0. split; [|exact Hc0].
          apply (nth_error_In _ s0). now rewrite nth_error_firstn_lt. }
      destruct (In_key_alookup _ _ (Hlive _ (or_introl eq_refl))) as [ci Hi].
      destruct (In_key_alookup _ _ (Hlive _ (or_intror (or_introl eq_refl)))) as [cj Hj].
      now exists ci, cj.
  - exists (fun _ => false). split; [apply ginv_init|]. split; [|intros _]; intros t r Ht; lia.
Qed.

Lemma qmax_ge_r a b : (b <= qmax a b)%Q.
Proof.
  unfold qmax. destruct (Qle_bool a b) eqn:E; [apply Qle_refl | now apply Qlt_le_weak, Qle_bool_false].
Qed.

Lemma resolve_inv n nc th k : resolve_n_clusters n nc th = Ok k ->
  k = match nc with Some k => k | None => match th with None => 2 | Some _ => n end end /\
  match nc with Some k => 1 <= k <= n | None => True end.
Proof.
  unfold resolve_n_clusters. destruct nc as [k0|].
  - unfold check_n_clusters. destruct (Nat.ltb n k0) eqn:E1; [discriminate|].
    destruct (Nat.ltb k0 1) eqn:E2; [discriminate|]. apply Nat.ltb_ge in E1, E2.
    intros H. inversion H; subst. split; [reflexivity|lia].
  - destruct th; intros H; inversion H; auto.
Qed.

Lemma cut_height_inv D nc th cut : cut_height D nc th = Ok cut ->
  exists k, resolve_n_clusters (S (length D)) nc th = Ok k /\
    ((k = 1 /\ cut = None) \/
     (k <> 1 /\ exists c, nth_error (sortq (heights D)) (S (length D) - k) = Some c /\
                          cut = Some (match th with None => c | Some t => qmax c t end))).
Proof.
  unfold cut_height. destruct (resolve_n_clusters (S (length D)) nc th) as [k|] eqn:Ek; [|discriminate].
  intros H. exists k. split; [reflexivity|]. destruct (Nat.eqb k 1) eqn:E1.
  - apply Nat.eqb_eq in E1. left. now inversion H.
  - apply Nat.eqb_neq in E1. right. split; [exact E1|].
    destruct (nth_error (sortq (heights D)) (S (length D) - k)) as [c|]; [|discriminate].
    exists c. split; [reflexivity|]. now inversion H.
Qed.

Lemma pstate_length argsort st sort : argsort_ok argsort -> length (pstate argsort st sort) = length st.
Proof. intros H. apply Permutation_length. now apply pstate_perm. Qed.

Lemma cut_height_below n D nc cut : S (length D) = n ->
  cut_height D (Some nc) None = Ok cut -> 1 <= nc <= n /\ below cut D <= n - nc.
Proof.
  intros Hlen H. apply cut_height_inv in H. destruct H as (k & Hk & Hc). rewrite Hlen in *.
  apply resolve_inv in Hk. destruct Hk as [-> Hk]. split; [exact Hk|].
  destruct Hc as [[-> ->]|[_ (c & Hc & ->)]].
  - rewrite below_none. lia.
  - now apply below_sorted_le.
Qed.

Lemma cut_straight_exact argsort n D0 D nc th sort ret labels od cut :
  cut_input D0 ret = Ok D -> valid n D = true -> hmono n D = true -> argsort_ok argsort ->
  cut_height D nc th = Ok cut ->
  cut_straight argsort D0 nc th sort ret = Ok (labels, od) ->
  num_clusters labels + below cut D = n /\
  (forall t r, nth_error D t = Some r -> below_cut cut r = true ->
     forall u v, In u (leaves n D (n + t)) -> In v (leaves n D (n + t)) -> nth u labels 0 = nth v labels 0).
Proof.
  intros Hin Hv Hm Hargs Hcut Hres.
  destruct (cut_straight_replay _ n _ _ _ _ _ _ _ _ Hin Hv Hres) as (cut' & st & Hcut' & Hrep & Hlab).
  rewrite Hcut in Hcut'. inversion Hcut'; subst cut'.
  destruct (straight_replay_flags n D cut st Hv Hrep) as (fl & (_ & _ & HF & HL & _) & HA & HB).
  specialize (HB Hm).
  destruct (cut_generic _ argsort n D st sort ret labels od Hv Hargs Hrep Hlab) as (Hcp & P & El & Hsub & _ & _).
  split.
  - rewrite (subtree_partition_num _ _ _ _ Hsub). unfold akeys. rewrite map_length, pstate_length by assumption.
    rewrite below_cntT, <- HL. f_equal. apply cntT_ext. intros t Ht. assert (Er := nth_error_nth' D drow0 Ht).
    destruct (below_cut cut (nth t D drow0)) eqn:Eb; [symmetry; exact (HB t _ Er Eb)|].
    destruct (fl t) eqn:Efl; [|reflexivity]. rewrite (HA t _ Er Efl) in Eb. discriminate.
  - intros t r Hr Hlt u v Hu Hv'.
    assert (Ht : t < length D) by (apply nth_error_Some; congruence).
    destruct (HF t r Ht Hr (HB t r Hr Hlt)) as (_ & _ & k & c & Hkc & Hincl).
    apply (Permutation_in _ (Permutation_sym P)) in Hkc.
    destruct (cpart_same_label n D _ k c Hcp Hkc) as (l & _ & _ & Hw). rewrite <- El in Hw.
    now rewrite (Hw u (Hincl u Hu)), (Hw v (Hincl v Hv')).
Qed.

Lemma sortq_length l : length (sortq l) = length l.
Proof. apply Permutation_length, sortq_perm. Qed.

Lemma cut_height_total n D nc th : S (length D) = n -> 2 <= n ->
  match nc with Some k => 1 <= k <= n | None => True end -> exists cut, cut_height D nc th = Ok cut.
Proof.
  intros Hlen Hn Hnc. unfold cut_height. rewrite Hlen.
  set (k := match nc with Some k => k | None => match th with None => 2 | Some _ => n end end).
  assert (Hk : resolve_n_clusters n nc th = Ok k).
  { unfold k, resolve_n_clusters. destruct nc as [k0|]; [|now destruct th]. unfold check_n_clusters.
    replace (Nat.ltb n k0) with false by (symmetry; apply Nat.ltb_ge; lia).
    now replace (Nat.ltb k0 1) with false by (symmetry; apply Nat.ltb_ge; lia). }
  rewrite Hk. destruct (Nat.eqb k 1) eqn:E1; [now eexists|]. apply Nat.eqb_neq in E1.
  assert (Hlt : n - k < length (sortq (heights D))).
  { rewrite sortq_length. unfold heights. rewrite map_length. unfold k in *. destruct nc; [lia|]. destruct th; lia. }
  destruct (nth_error_lt _ _ Hlt) as [c ->]. now eexists.
Qed.

Lemma cut_straight_total argsort n D nc th sort :
  valid n D = true -> 2 <= n ->
  match nc with Some k => 1 <= k <= n | None => True end ->
  exists labels, cut_straight argsort D nc th sort false = Ok (labels, None).
Proof.
  intros Hv Hn Hnc. destruct (valid_rows n D Hv) as [Hlen _].
  destruct (cut_height_total n D nc th Hlen Hn Hnc) as [cut Hcut].
  destruct (replay_total (straight_guard cut) n D (init_clusters n) Hv) as [st Hst].
  unfold cut_straight, straight_state, straight_state_with, cut_input. simpl. rewrite Hlen, Hcut, Hst.
  unfold get_labels. eexists. reflexivity.
Qed.

(** [legacy_cut_straight] (Model/Cuts.v; the source before commit 130034d8, DESIGN.md D6): n_clusters = 1 raises IndexError on every dendrogram
    (index n - 1 of the n - 1 sorted heights). *)
Lemma legacy_cut_straight_one_cluster_fails argsort D th sort :
  legacy_cut_straight argsort D (Some 1) th sort false = Err IndexError.
Proof.
  unfold legacy_cut_straight, straight_state_with, cut_input. simpl.
  unfold legacy_cut_height, resolve_n_clusters, check_n_clusters. simpl.
  replace (length D - 0) with (length D) by lia.
  assert (H : nth_error (sortq (heights D)) (length D) = None).
  { apply nth_error_None. rewrite sortq_length. unfold heights. now rewrite map_length. }
  now rewrite H.
Qed.

Lemma cut_straight_count_distinct argsort n D0 D nc sort ret labels od :
  cut_input D0 ret = Ok D -> valid n D = true -> hmono n D = true -> distinct_heights D ->
  argsort_ok argsort ->
  cut_straight argsort D0 (Some nc) None sort ret = Ok (labels, od) ->
  num_clusters labels = nc.
Proof.
  intros Hin Hv Hm Hd Hargs Hcut.
  destruct (cut_straight_replay _ n _ _ _ _ _ _ _ _ Hin Hv Hcut) as (cut & _ & Hc & _).
  destruct (cut_straight_exact argsort n D0 D (Some nc) None sort ret labels od cut Hin Hv Hm Hargs Hc Hcut) as [Hnum _].
  destruct (valid_rows n D Hv) as [Hlen _].
  apply cut_height_inv in Hc. destruct Hc as (k & Hk & Hc). rewrite Hlen in *.
  apply resolve_inv in Hk. destruct Hk as [-> Hk].
  destruct Hc as [[-> ->]|[_ (c & Hc & ->)]].
  - rewrite below_none in Hnum. lia.
  - rewrite (below_sorted_eq D _ c Hd Hc) in Hnum. lia.
Qed.

Definition zle2 (p q : nat * Z) : Prop := (snd p <= snd q)%Z.

Lemma sortz_sorted l : StronglySorted zle2 (fold_right ins_z [] l).
Proof.
  apply (isort_sorted (fun x y => (snd x <=? snd y)%Z) zle2); unfold zle2.
  - intros x y z. lia.
  - intros x y. apply Z.leb_le.
  - intros x y E. apply Z.leb_gt in E. lia.
Qed.

Lemma StronglySorted_nth {A} (R : A -> A -> Prop) l d :
  (forall x, R x x) -> StronglySorted R l -> forall a b, a <= b -> b < length l -> R (nth a l d) (nth b l d).
Proof.
  intros Hrefl. induction 1 as [|x l Hs IH Hall]; intros a b Hab Hb; simpl in Hb; [lia|].
  destruct a as [|a], b as [|b]; simpl; try lia.
  - apply Hrefl.
  - rewrite Forall_forall in Hall. apply Hall, nth_In. lia.
  - apply IH; lia.
Qed.

Lemma stable_argsort_ok : argsort_ok stable_argsort.
Proof.
  intros l. unfold stable_argsort. set (sp := fold_right ins_z [] (combine (seq 0 (length l)) l)).
  assert (P : Permutation sp (combine (seq 0 (length l)) l)) by apply (isort_perm (fun x y => (snd x <=? snd y)%Z)).
  assert (Hlen : length sp = length l).
  { rewrite (Permutation_length P), combine_length, seq_length. lia. }
  split.
  - assert (E := map_fst_combine (seq 0 (length l)) l ltac:(now rewrite seq_length)).
    rewrite <- E. now apply Permutation_map.
  - intros a b Hab Hb.
    assert (Hnth : forall i, i < length l -> nth (nth i (map fst sp) 0) l 0%Z = snd (nth i sp (0, 0%Z))).
    { intros i Hi. change 0 with (fst (0, 0%Z)) at 1. rewrite map_nth.
      assert (Hin : In (nth i sp (0, 0%Z)) sp) by (apply nth_In; lia).
      apply (Permutation_in _ P) in Hin. destruct (nth i sp (0, 0%Z)) as [j z]. simpl.
      apply In_combine_seq in Hin. exact (nth_error_nth _ _ _ Hin). }
    rewrite (Hnth a) by lia. rewrite (Hnth b) by lia.
    apply (StronglySorted_nth zle2 sp (0, 0%Z)); [intros x; unfold zle2; lia | apply sortz_sorted | exact Hab | lia].
Qed.

Lemma valid_run_sum : forall rows next live live',
  valid_run next rows live = Some live' ->
  sumn (map snd live') = sumn (map snd live) /\ length live' + length rows = length live.
Proof.
  induction rows as [|r rows IH]; intros next live live' H.
  - simpl in H. inversion H; subst. simpl. lia.
  - apply valid_run_cons in H. destruct H as (si & sj & Hi & Hj & Hne & Hs & H).
    apply IH in H. destruct H as [H1 H2].
    assert (P := aremove2_perm live _ _ si sj Hne Hi Hj).
    assert (S1 : sumn (map snd live) = si + (sj + sumn (map snd (aremove (r_right r) (aremove (r_left r) live))))).
    { apply (Permutation_map snd) in P. unfold sumn. now rewrite (fold_right_permutation_sum _ _ P). }
    rewrite map_app in H1. unfold sumn in *. rewrite fold_right_app in H1. simpl in H1.
    rewrite app_length in H2. simpl in *. rewrite (aremove2_length live _ _ si sj Hne Hi Hj).
    rewrite (fold_right_add_acc _ (r_size r + 0)) in H1. lia.
Qed.

Definition wsz (k : nat) (ws : list nat) (D : dendrogram) (x : nat) : nat :=
  if Nat.ltb x k then nth x ws 0 else r_size (nth (x - k) D drow0).

Lemma init_live_sizes ws D x s : In (x, s) (init_live ws) -> s = wsz (length ws) ws D x.
Proof.
  unfold init_live. intros H. apply In_combine_seq in H. unfold wsz.
  replace (Nat.ltb x (length ws)) with true by (symmetry; apply Nat.ltb_lt; eapply nth_error_Some_lt; eassumption).
  symmetry. exact (nth_error_nth _ _ _ H).
Qed.

Lemma wsz_merged k ws D (done : dendrogram) r (live : list (nat * nat)) :
  nth_error D (length done) = Some r -> (forall x s, In (x, s) live -> s = wsz k ws D x) ->
  forall x s, In (x, s) (aremove (r_right r) (aremove (r_left r) live) ++ [(k + length done, r_size r)]) ->
              s = wsz k ws D x.
Proof.
  intros Hr Hsz x s Hin. apply in_app_iff in Hin. destruct Hin as [Hin|[Hin|[]]].
  - apply Hsz. now apply aremove_In, aremove_In in Hin.
  - inversion Hin; subst x s. unfold wsz.
    replace (Nat.ltb (k + length done) k) with false by (symmetry; apply Nat.ltb_ge; lia).
    replace (k + length done - k) with (length done) by lia.
    now rewrite (nth_error_nth _ _ drow0 Hr).
Qed.

Lemma valid_run_sizes k ws D : forall rows done live live',
  D = done ++ rows ->
  (forall x s, In (x, s) live -> s = wsz k ws D x) ->
  valid_run (k + length done) rows live = Some live' ->
  (forall t r, length done <= t -> nth_error D t = Some r ->
               r_size r = wsz k ws D (r_left r) + wsz k ws D (r_right r)) /\
  (forall x s, In (x, s) live' -> s = wsz k ws D x).
Proof.
  induction rows as [|r rows IH]; intros done live live' HD Hsz Hrun.
  - simpl in Hrun. inversion Hrun; subst. split; [|assumption].
    intros t r Ht Hr. rewrite app_nil_r in Hr. assert (t < length done) by (apply nth_error_Some; congruence). lia.
  - apply valid_run_cons in Hrun. destruct Hrun as (si & sj & Hi & Hj & _ & Hs & Hrun).
    assert (Hr : nth_error D (length done) = Some r) by (rewrite HD; apply nth_error_app_length).
    destruct (IH (done ++ [r]) (aremove (r_right r) (aremove (r_left r) live) ++ [(k + length done, r_size r)]) live')
      as [IH1 IH2].
    + now rewrite <- app_assoc.
    + exact (wsz_merged k ws D done r live Hr Hsz).
    + rewrite last_length, <- plus_n_Sm. exact Hrun.
    + split; [|exact IH2]. intros t r' Ht Hr'.
      destruct (Nat.eq_dec t (length done)) as [->|Hneq]; [|apply (IH1 t r'); [rewrite app_length; simpl; lia|assumption]].
      rewrite Hr in Hr'. inversion Hr'; subst r'.
      rewrite <- (Hsz _ si (alookup_In _ _ _ Hi)), <- (Hsz _ sj (alookup_In _ _ _ Hj)). exact Hs.
Qed.

Lemma validw_sizes ws D : validw ws D = true ->
  forall t r, nth_error D t = Some r ->
    r_size r = wsz (length ws) ws D (r_left r) + wsz (length ws) ws D (r_right r).
Proof.
  unfold validw. intros H. apply andb_true_iff in H. destruct H as [H _].
  apply andb_true_iff in H. destruct H as [_ Hrun].
  destruct (valid_run (length ws) D (init_live ws)) as [live'|] eqn:E; [|discriminate].
  destruct (valid_run_sizes (length ws) ws D D [] (init_live ws) live' eq_refl) as [H1 _].
  - intros x s. apply init_live_sizes.
  - simpl. now rewrite Nat.add_0_r.
  - intros t r Hr. apply (H1 t r); [simpl; lia | exact Hr].
Qed.

Lemma static_run k ws D :
  (forall t r, nth_error D t = Some r ->
     row_ok k D t r /\ r_size r = wsz k ws D (r_left r) + wsz k ws D (r_right r)) ->
  forall rows done live,
  D = done ++ rows -> linv k done live -> (forall x s, In (x, s) live -> s = wsz k ws D x) ->
  exists live', valid_run (k + length done) rows live = Some live'.
Proof.
  intros Hrows. induction rows as [|r rows IH]; intros done live HD Hinv Hsz; [simpl; now eexists|].
  assert (Hr : nth_error D (length done) = Some r) by (rewrite HD; apply nth_error_app_length).
  destruct (Hrows _ _ Hr) as [(Hne & Hil & Hjl & Hiu & Hju) Hs].
  rewrite HD, firstn_app_length in Hiu, Hju.
  assert (Hkeys := proj1 (proj2 Hinv)).
  assert (Hik : In (r_left r) (akeys live)) by (apply Hkeys; split; assumption).
  assert (Hjk : In (r_right r) (akeys live)) by (apply Hkeys; split; assumption).
  destruct (In_key_alookup _ _ Hik) as [si Hi]. destruct (In_key_alookup _ _ Hjk) as [sj Hj].
  assert (Esi := Hsz _ _ (alookup_In _ _ _ Hi)). assert (Esj := Hsz _ _ (alookup_In _ _ _ Hj)).
  destruct (IH (done ++ [r]) (aremove (r_right r) (aremove (r_left r) live) ++ [(k + length done, r_size r)])) as [live' Hl].
  - now rewrite <- app_assoc.
  - exact (valid_run_step k done live r Hinv si sj Hi Hj Hne (r_size r)).
  - exact (wsz_merged k ws D done r live Hr Hsz).
  - exists live'. apply valid_run_cons. exists si, sj. rewrite last_length, <- plus_n_Sm in Hl. repeat split; try assumption. lia.
Qed.

Lemma valid_run_last : forall rows next live live', valid_run next rows live = Some live' -> rows <> [] ->
  exists l0 k, live' = l0 ++ [(k, r_size (last rows drow0))].
Proof.
  induction rows as [|r rows IH]; intros next live live' H Hne; [congruence|].
  apply valid_run_cons in H. destruct H as (si & sj & _ & _ & _ & _ & H).
  destruct rows as [|r' rows]; [inversion H; now eexists; eexists|].
  apply (IH _ _ _ H). discriminate.
Qed.

(** A run over all the rows ends with one entry: its size is the last size and the sum of the weights. *)
Lemma validw_intro ws D live' :
  S (length D) = length ws -> valid_run (length ws) D (init_live ws) = Some live' -> validw ws D = true.
Proof.
  intros Hlen Hrun. unfold validw. rewrite Hlen, Nat.eqb_refl, Hrun. simpl.
  destruct D as [|r0 D0] eqn:ED; [reflexivity|]. rewrite <- ED in *. apply Nat.eqb_eq.
  destruct (valid_run_last _ _ _ _ Hrun) as (l0 & k & ->); [rewrite ED; discriminate|].
  apply valid_run_sum in Hrun. destruct Hrun as [S1 S2].
  unfold init_live in S1, S2. rewrite map_snd_combine in S1 by now rewrite seq_length.
  rewrite combine_length, seq_length, Nat.min_id, <- Hlen, app_length in S2. simpl in S2.
  assert (Hl0 : l0 = []) by (destruct l0; [reflexivity | simpl in S2; lia]).
  subst l0. simpl in S1. lia.
Qed.

(** Static criterion: rows that are locally well-formed with consistent sizes make a valid dendrogram. *)
Lemma static_validw ws D :
  S (length D) = length ws ->
  (forall t r, nth_error D t = Some r ->
     row_ok (length ws) D t r /\
     r_size r = wsz (length ws) ws D (r_left r) + wsz (length ws) ws D (r_right r)) ->
  validw ws D = true.
Proof.
  intros Hlen Hrows.
  destruct (static_run (length ws) ws D Hrows D [] (init_live ws) eq_refl (linv_init ws)) as [live' Hrun].
  { intros x s. apply init_live_sizes. }
  simpl in Hrun. rewrite Nat.add_0_r in Hrun. exact (validw_intro ws D live' Hlen Hrun).
Qed.

Lemma validw_last ws D : validw ws D = true -> D <> [] -> r_size (last D drow0) = sumn ws.
Proof.
  unfold validw. intros H Hne. apply andb_true_iff in H. destruct H as [_ H].
  destruct D; [congruence | now apply Nat.eqb_eq].
Qed.

Definition rank (ids : list nat) (x : nat) : nat := length (filter (fun y => memn y ids) (seq 0 x)).

Lemma pos_app_here x l1 l2 : ~ In x l1 -> pos x (l1 ++ x :: l2) = length l1.
Proof.
  induction l1 as [|y l1 IH]; simpl; intros H.
  - now rewrite Nat.eqb_refl.
  - destruct (Nat.eqb x y) eqn:E; [apply Nat.eqb_eq in E; subst; tauto|]. rewrite IH; tauto.
Qed.

Lemma pos_sorted_ids ids x : In x ids -> pos x (sorted_ids ids) = rank ids x.
Proof.
  intros Hin. assert (Hle := In_le_list_max x ids Hin). unfold sorted_ids, rank.
  replace (S (list_max ids)) with (x + S (list_max ids - x)) by lia.
  rewrite seq_app, filter_app. simpl.
  assert (Hm : memn x ids = true) by now apply memn_In. rewrite Hm.
  apply pos_app_here. intros Hc. apply filter_In in Hc. destruct Hc as [Hc _]. apply in_seq in Hc. lia.
Qed.

Lemma rank_le ids x y : x <= y -> rank ids x <= rank ids y.
Proof.
  intros H. unfold rank. replace y with (x + (y - x)) by lia. rewrite seq_app, filter_app, app_length. lia.
Qed.

Lemma rank_lt ids x y : In x ids -> x < y -> rank ids x < rank ids y.
Proof.
  intros Hin H. apply Nat.lt_le_trans with (rank ids (S x)); [|apply rank_le; lia].
  unfold rank. replace (S x) with (x + 1) by lia. rewrite seq_app, filter_app, app_length. simpl.
  replace (memn x ids) with true by (symmetry; now apply memn_In). simpl. lia.
Qed.

Lemma rank_inj ids x y : In x ids -> In y ids -> rank ids x = rank ids y -> x = y.
Proof.
  intros Hx Hy E. destruct (Nat.lt_trichotomy x y) as [H|[H|H]]; [|exact H|].
  - apply (rank_lt ids x y Hx) in H. lia.
  - apply (rank_lt ids y x Hy) in H. lia.
Qed.

Lemma sorted_ids_In ids x : In x (sorted_ids ids) <-> In x ids.
Proof.
  unfold sorted_ids. rewrite filter_In, in_seq, memn_In. split; [tauto|]. intros H. split; [|exact H].
  apply In_le_list_max in H. lia.
Qed.

Lemma nth_pos x l d : In x l -> nth (pos x l) l d = x.
Proof.
  induction l as [|y l IH]; simpl; [tauto|]. intros H. destruct (Nat.eqb x y) eqn:E.
  - apply Nat.eqb_eq in E. now subst.
  - apply Nat.eqb_neq in E. destruct H as [H|H]; [congruence|]. now apply IH.
Qed.

Lemma nth_rank_sorted_ids ids x : In x ids -> nth (rank ids x) (sorted_ids ids) 0 = x.
Proof.
  intros H. rewrite <- (pos_sorted_ids ids x H). apply nth_pos. now apply sorted_ids_In.
Qed.

Lemma sorted_ids_NoDup ids : NoDup (sorted_ids ids).
Proof. unfold sorted_ids. apply NoDup_filter, seq_NoDup. Qed.

Lemma filter_seq_length (f : nat -> bool) (keys : list nat) m :
  NoDup keys -> (forall y, In y keys <-> y < m /\ f y = true) ->
  length (filter f (seq 0 m)) = length keys.
Proof.
  intros Hnd Hiff. apply Permutation_length, NoDup_Permutation.
  - apply NoDup_filter, seq_NoDup.
  - exact Hnd.
  - intros y. rewrite filter_In, in_seq, Hiff. split; intros [H1 H2]; split; try lia; assumption.
Qed.

Lemma ids_children L c : In c (map r_left L ++ map r_right L) <-> In c (flat_map children L).
Proof.
  rewrite in_app_iff, !in_map_iff, in_flat_map. unfold children. split.
  - intros [[r [E H]]|[r [E H]]]; exists r; simpl; auto.
  - intros [r [H [E|[E|[]]]]]; [left|right]; now exists r.
Qed.

Lemma nth_skipn' {A} (l : list A) t s d : nth s (skipn t l) d = nth (t + s) l d.
Proof. revert l. induction t as [|t IH]; intros [|a l]; simpl; auto. now destruct s. Qed.

Lemma nth_error_skipn {A} (l : list A) t s : nth_error (skipn t l) s = nth_error l (t + s).
Proof. revert l. induction t as [|t IH]; intros [|a l]; simpl; auto. now destruct s. Qed.

Lemma nth_firstn' {A} (l : list A) k y d : y < k -> nth y (firstn k l) d = nth y l d.
Proof.
  revert l y. induction k as [|k IH]; intros l y H; [lia|]. destruct l as [|a l]; simpl; [now destruct y|].
  destruct y as [|y]; [reflexivity|]. apply IH. lia.
Qed.

Lemma mapr_ok {A B} (f : A -> result B) (g : A -> B) l :
  (forall a, In a l -> f a = Ok (g a)) -> mapr f l = Ok (map g l).
Proof.
  induction l as [|a l IH]; simpl; intros H; [reflexivity|].
  rewrite (H a) by now left. rewrite IH; [reflexivity|]. intros a' Ha'. apply H. now right.
Qed.

Lemma wsz_unit n D x : wsz n (repeat 1 n) D x = true_count n D x.
Proof.
  unfold wsz, true_count. destruct (Nat.ltb x n) eqn:E; [|reflexivity]. apply Nat.ltb_lt in E.
  apply nth_repeat_lt_aux; assumption.
Qed.

(** * Liveness of the ids in a dict replayed along the merges (any value type) *)
Definition linvp {A} (k : nat) (done : dendrogram) (live : list (nat * A)) : Prop :=
  NoDup (akeys live) /\
  (forall x, In x (akeys live) <-> x < k + length done /\ ~ In x (flat_map children done)) /\
  (forall c, In c (flat_map children done) -> c < k + length done).

Lemma linvp_keys_eq {A B} k done (l1 : list (nat * A)) (l2 : list (nat * B)) :
  akeys l1 = akeys l2 -> linvp k done l1 -> linvp k done l2.
Proof. unfold linvp. intros E. now rewrite E. Qed.

(** Liveness only depends on the keys: the step is the one of [linv] on the dict with its values erased. *)
Definition erase {A} (l : list (nat * A)) : list (nat * nat) := map (fun kv => (fst kv, 0)) l.

Lemma akeys_erase {A} (l : list (nat * A)) : akeys (erase l) = akeys l.
Proof. unfold akeys, erase. now rewrite map_map. Qed.

Lemma aremove_erase {A} k (l : list (nat * A)) : erase (aremove k l) = aremove k (erase l).
Proof. induction l as [|[k' v] l IH]; simpl; [reflexivity|]. destruct (Nat.eqb k k'); simpl; now rewrite ?IH. Qed.

Lemma linvp_step {A} k done (live : list (nat * A)) r :
  linvp k done live -> In (r_left r) (akeys live) -> In (r_right r) (akeys live) -> r_left r <> r_right r ->
  forall s, linvp k (done ++ [r]) (aremove (r_right r) (aremove (r_left r) live) ++ [(k + length done, s)]).
Proof.
  intros H Hik Hjk Hne s. rewrite <- (akeys_erase live) in Hik, Hjk.
  destruct (In_key_alookup _ _ Hik) as [si Hi]. destruct (In_key_alookup _ _ Hjk) as [sj Hj].
  assert (H0 : linv k done (erase live)) by (apply (linvp_keys_eq k done live); [symmetry; apply akeys_erase | exact H]).
  apply (linvp_keys_eq k _ (aremove (r_right r) (aremove (r_left r) (erase live)) ++ [(k + length done, 0)])).
  - rewrite <- !aremove_erase, !akeys_app, akeys_erase. reflexivity.
  - exact (valid_run_step k done (erase live) r H0 si sj Hi Hj Hne 0).
Qed.

Lemma linvp_children {A} n D t r (l : list (nat * A)) :
  valid n D = true -> nth_error D t = Some r -> linvp n (firstn t D) l ->
  In (r_left r) (akeys l) /\ In (r_right r) (akeys l).
Proof.
  intros Hv Hr (_ & Hk & _). destruct (valid_rows n D Hv) as [_ Hrows].
  destruct (Hrows t r Hr) as (_ & Hil & Hjl & Hiu & Hju).
  assert (Ht : t < length D) by (apply nth_error_Some; congruence).
  split; apply Hk; rewrite firstn_length, Nat.min_l by lia; tauto.
Qed.

Lemma linvp_of_keys_gen {A} n (live : list (nat * A)) : akeys live = seq 0 n -> linvp n [] live.
Proof.
  intros E. unfold linvp. rewrite E. simpl. split; [apply seq_NoDup|]. split; [|tauto].
  intros x. rewrite in_seq. lia.
Qed.

Lemma linvp_init {A} n (vals : list A) : length vals = n -> linvp n [] (combine (seq 0 n) vals).
Proof. intros Hl. apply linvp_of_keys_gen. unfold akeys. now rewrite map_fst_combine by (now rewrite seq_length). Qed.

(** * The partition of the leaves into live subtrees, step by step *)
Section Tree.
Context (n : nat) (D : dendrogram) (Hv : valid n D = true).

Definition getc (x : nat) (st : cstate) : list nat := match alookup x st with Some c => c | None => [] end.

Fixpoint part (s : nat) : cstate :=
  match s with
  | O => init_clusters n
  | S s' =>
      let st := part s' in
      match nth_error D s' with
      | Some r => aremove (r_right r) (aremove (r_left r) st) ++ [(n + s', getc (r_left r) st ++ getc (r_right r) st)]
      | None => st
      end
  end.

Definition pinv (s : nat) (st : cstate) : Prop :=
  linvp n (firstn s D) st /\ cinv n D s st /\ length st + s = n.

(** [part (S s)] is one step of the replay whose guard lets every merge through. *)
Lemma pinv_part : forall s, s <= length D -> pinv s (part s).
Proof.
  assert (Hids := valid_ids_lt n D Hv). destruct (valid_rows n D Hv) as [Hlen Hrows].
  induction s as [|s IH]; intros Hs.
  - simpl. split; [|split].
    + apply linvp_of_keys_gen. unfold init_clusters, akeys. rewrite map_map. simpl. apply map_id.
    + apply cinv_init.
    + unfold init_clusters. rewrite map_length, seq_length. lia.
  - destruct (IH ltac:(lia)) as (L & Hc & Hl). destruct (nth_error_lt D s Hs) as [r Er]. simpl. rewrite Er.
    destruct (Hrows s r Er) as (Hne & _).
    destruct (linvp_children n D s r _ Hv Er L) as [Hik Hjk].
    destruct (In_key_alookup _ _ Hik) as [ci Hi]. destruct (In_key_alookup _ _ Hjk) as [cj Hj].
    unfold getc. rewrite Hi, Hj. split; [|split].
    + rewrite (firstn_S_nth D s r Er). replace (n + s) with (n + length (firstn s D)) by (rewrite firstn_length; lia).
      now apply linvp_step.
    + apply (cut_step_cinv (fun _ _ _ => true) n D s r (part s) _ Hids Er Hc).
      unfold cut_step. now rewrite Hi, Hj, alookup_aremove_neq, Hj by auto.
    + rewrite app_length. simpl. assert (E := aremove2_length (part s) _ _ ci cj Hne Hi Hj). lia.
Qed.

Definition live (s x : nat) : Prop := In x (akeys (part s)).

Lemma live_iff s x : s <= length D -> (live s x <-> x < n + s /\ ~ In x (flat_map children (firstn s D))).
Proof.
  intros Hs. destruct (pinv_part s Hs) as ((_ & Hk & _) & _). unfold live. rewrite Hk.
  now rewrite firstn_length, Nat.min_l by lia.
Qed.

Lemma live_entry s x : s <= length D -> live s x -> In (x, leaves n D x) (part s).
Proof.
  intros Hs Hx. destruct (pinv_part s Hs) as (_ & (_ & Hcl & _) & _). unfold live, akeys in Hx.
  apply in_map_iff in Hx. destruct Hx as [[k c] [E Hin]]. simpl in E. subst k. now rewrite <- (proj1 (proj2 (Hcl x c Hin))).
Qed.

Lemma live_cover s u : s <= length D -> u < n -> exists x, live s x /\ In u (leaves n D x).
Proof.
  intros Hs Hu. destruct (pinv_part s Hs) as (_ & Hc & _).
  destruct (cpart_clusters n D _ (cinv_cpart n D s _ _ Hc (Permutation_refl _))) as (_ & Hcov & _ & Hleaves).
  destruct (Hcov u Hu) as (l & Hl & Hin). exists (fst (nth l (part s) (0, []))).
  split; [unfold live, akeys; now apply in_map, nth_In | now destruct (Hleaves l Hl) as [<- _]].
Qed.

Lemma live_disjoint s x y u : s <= length D -> live s x -> live s y ->
  In u (leaves n D x) -> In u (leaves n D y) -> x = y.
Proof.
  intros Hs Hx Hy Hux Huy. destruct (pinv_part s Hs) as (_ & Hc & _).
  assert (Hcp := cinv_cpart n D s _ _ Hc (Permutation_refl _)).
  destruct (cpart_same_label n D _ x _ Hcp (live_entry s x Hs Hx)) as (l1 & _ & E1 & H1).
  destruct (cpart_same_label n D _ y _ Hcp (live_entry s y Hs Hy)) as (l2 & _ & E2 & H2).
  assert (l1 = l2) by (rewrite <- (H1 u Hux); exact (H2 u Huy)). subst l2. rewrite E1 in E2. now inversion E2.
Qed.

Lemma live_leaves s x : s <= length D -> live s x -> NoDup (leaves n D x) /\ forall u, In u (leaves n D x) -> u < n.
Proof.
  intros Hs Hx. destruct (pinv_part s Hs) as (_ & Hc & _).
  destruct (cpart_clusters n D _ (cinv_cpart n D s _ _ Hc (Permutation_refl _))) as (Hnd & _ & Hlt & _).
  apply (live_entry s x Hs) in Hx. destruct (In_nth _ _ (0, []) Hx) as [l [Hl E]].
  assert (El : nth l (map snd (part s)) [] = leaves n D x) by (rewrite (nth_map_lt _ _ _ (0, [])) by exact Hl; now rewrite E).
  rewrite <- El. split; [apply (NoDup_concat_In _ _ Hnd), nth_In; now rewrite map_length | exact (fun u => Hlt l u Hl)].
Qed.

Lemma live_S s r x : nth_error D s = Some r ->
  (live (S s) x <-> (live s x /\ x <> r_left r /\ x <> r_right r) \/ x = n + s).
Proof.
  intros Hr. assert (Hs : s < length D) by (apply nth_error_Some; congruence).
  destruct (valid_rows n D Hv) as [_ Hrows]. destruct (Hrows s r Hr) as (Hne & Hil & Hjl & Hiu & Hju).
  rewrite !live_iff by lia. rewrite (firstn_S_nth D s r Hr), flat_map_app, in_app_iff. simpl. split.
  - intros [H1 H2]. destruct (Nat.eq_dec x (n + s)) as [->|Hx]; [now right|]. left.
    split; [split; [lia|tauto]|]. split; intros ->; apply H2; right; tauto.
  - intros [((H1 & H2) & H3 & H4)| ->].
    + split; [lia|]. intros [H|[H|[H|[]]]]; [tauto|congruence|congruence].
    + split; [lia|]. intros [H|[H|[H|[]]]]; [|lia|lia].
      destruct (pinv_part s ltac:(lia)) as ((_ & _ & Hch) & _). apply Hch in H.
      rewrite firstn_length, Nat.min_l in H by lia. lia.
Qed.

Lemma live_children s r : nth_error D s = Some r -> live s (r_left r) /\ live s (r_right r).
Proof.
  intros Hr. assert (Hs : s < length D) by (apply nth_error_Some; congruence).
  destruct (valid_rows n D Hv) as [_ Hrows]. destruct (Hrows s r Hr) as (Hne & Hil & Hjl & Hiu & Hju).
  rewrite !live_iff by lia. tauto.
Qed.

Definition sep (r : drow) (u v : nat) : Prop :=
  (In u (leaves n D (r_left r)) /\ In v (leaves n D (r_right r))) \/
  (In u (leaves n D (r_right r)) /\ In v (leaves n D (r_left r))).

Lemma live_grows t r : nth_error D t = Some r ->
  forall m, S t <= m -> m <= length D -> exists y, live m y /\ incl (leaves n D (n + t)) (leaves n D y).
Proof.
  intros Er m Hm1 Hm2. induction Hm1 as [|m Hm1 IH].
  - exists (n + t). split; [apply (live_S t r _ Er); now right | apply incl_refl].
  - destruct (IH ltac:(lia)) as (y & Hy & Hincl).
    destruct (nth_error_lt D m) as [rm Erm]; [lia|].
    assert (Hnode := leaves_node n D m rm (valid_ids_lt n D Hv) Erm).
    destruct (Nat.eq_dec y (r_left rm)) as [->|Hy1].
    { exists (n + m). split; [apply (live_S m rm _ Erm); now right|]. rewrite Hnode. now apply incl_appl. }
    destruct (Nat.eq_dec y (r_right rm)) as [->|Hy2].
    { exists (n + m). split; [apply (live_S m rm _ Erm); now right|]. rewrite Hnode. now apply incl_appr. }
    exists y. split; [apply (live_S m rm _ Erm); left; tauto | exact Hincl].
Qed.

Lemma part_final : 0 < length D -> akeys (part (length D)) = [n + (length D - 1)].
Proof.
  intros HD. destruct (nth_error_lt D (length D - 1)) as [r Er]; [lia|].
  assert (Hl : live (S (length D - 1)) (n + (length D - 1))) by (apply (live_S _ r _ Er); now right).
  replace (S (length D - 1)) with (length D) in Hl by lia.
  destruct (pinv_part (length D) (le_n _)) as (_ & _ & Hlen). destruct (valid_rows n D Hv) as [Hn _].
  unfold live in Hl. destruct (part (length D)) as [|[k c] [|p rest]]; simpl in *; try lia.
  destruct Hl as [->|[]]. reflexivity.
Qed.

Lemma root_all u : u < n -> 0 < length D -> In u (leaves n D (n + (length D - 1))).
Proof.
  intros Hu HD. destruct (live_cover (length D) u (le_n _) Hu) as (x & Hx & Hux).
  unfold live in Hx. rewrite (part_final HD) in Hx. destruct Hx as [<-|[]]. exact Hux.
Qed.

(** The merge at which two distinct leaves meet: it exists, it is unique, and every cluster of the tree
    containing both contains the cluster created there.  It is the first merge whose cluster holds both. *)
Lemma meeting_merge u v : u < n -> v < n -> u <> v ->
  exists t r, nth_error D t = Some r /\ sep r u v /\
    (forall t' r', nth_error D t' = Some r' -> sep r' u v -> t' = t) /\
    (forall t', t' < length D -> In u (leaves n D (n + t')) -> In v (leaves n D (n + t')) ->
                incl (leaves n D (n + t)) (leaves n D (n + t'))).
Proof.
  intros Hu Hvv Hne. assert (Hids := valid_ids_lt n D Hv). destruct (valid_rows n D Hv) as [Hlen Hrows].
  set (P := fun t => In u (leaves n D (n + t)) /\ In v (leaves n D (n + t))).
  assert (Hlast : P (length D - 1)) by (split; apply root_all; lia).
  destruct (dec_inh_nat_subset_has_unique_least_element P) as (t & (Pt & Hle) & _); [|now exists (length D - 1)|].
  { intros t. unfold P. destruct (in_dec Nat.eq_dec u (leaves n D (n + t))), (in_dec Nat.eq_dec v (leaves n D (n + t))); tauto. }
  assert (Ht : t < length D) by (specialize (Hle _ Hlast); lia).
  destruct (nth_error_lt D t Ht) as [r Er].
  exists t, r. split; [exact Er|].
  assert (Hnode := leaves_node n D t r Hids Er). destruct (Hids t r Er) as [Hil Hjl].
  assert (Hchild : forall c, In c (children r) -> ~ (In u (leaves n D c) /\ In v (leaves n D c))).
  { intros c Hc [H1 H2]. assert (Hct : c < n + t) by (destruct Hc as [<-|[<-|[]]]; assumption).
    destruct (Nat.lt_ge_cases c n) as [Hlt|Hge].
    - rewrite leaves_leaf in H1, H2 by assumption. destruct H1 as [<-|[]]. destruct H2 as [<-|[]]. congruence.
    - assert (Hp : P (c - n)) by (unfold P; now replace (n + (c - n)) with c by lia). apply Hle in Hp. lia. }
  assert (Hsep : sep r u v).
  { destruct Pt as [H1 H2]. rewrite Hnode in H1, H2. apply in_app_iff in H1, H2. unfold sep.
    destruct H1 as [H1|H1], H2 as [H2|H2]; [exfalso; apply (Hchild (r_left r)); [now left | tauto] | tauto | tauto |].
    exfalso. apply (Hchild (r_right r)); [right; now left | tauto]. }
  split; [exact Hsep|]. destruct Pt as [Pu Pv]. split.
  - intros t' r' Er' Hsep'. assert (Hlt' : t' < length D) by (apply nth_error_Some; congruence).
    assert (Hp : P t').
    { unfold P. rewrite (leaves_node n D t' r' Hids Er'), !in_app_iff. destruct Hsep' as [[H1 H2]|[H1 H2]]; tauto. }
    apply Hle in Hp. destruct (Nat.eq_dec t' t) as [E|Hneq]; [exact E|]. exfalso.
    (* t < t': the cluster n + t lies in a subtree live at step t', which would be both children of r' *)
    destruct (live_grows t r Er t' ltac:(lia) ltac:(lia)) as (y & Hy & Hi).
    destruct (live_children t' r' Er') as [Hli Hlj]. destruct (Hrows t' r' Er') as (Hne' & _).
    apply Hi in Pu, Pv.
    destruct Hsep' as [[H1 H2]|[H1 H2]].
    + assert (y = r_left r') by (apply (live_disjoint t' y (r_left r') u); [lia|assumption..]).
      assert (y = r_right r') by (apply (live_disjoint t' y (r_right r') v); [lia|assumption..]). congruence.
    + assert (y = r_right r') by (apply (live_disjoint t' y (r_right r') u); [lia|assumption..]).
      assert (y = r_left r') by (apply (live_disjoint t' y (r_left r') v); [lia|assumption..]). congruence.
  - intros t' Hlt' H1 H2. assert (Hge : t <= t') by (apply Hle; now split).
    destruct (live_grows t r Er (S t') ltac:(lia) ltac:(lia)) as (y & Hy & Hi).
    assert (Hl' : live (S t') (n + t')).
    { destruct (nth_error_lt D t' Hlt') as [r' Er']. apply (live_S t' r' _ Er'). now right. }
    assert (y = n + t') by (apply (live_disjoint (S t') y (n + t') u); [lia | assumption | assumption | now apply Hi | assumption]).
    now subst y.
Qed.
End Tree.

Lemma non_root_is_child n D x : valid n D = true -> x + 1 < n + length D -> In x (flat_map children D).
Proof.
  intros Hv Hx. destruct (in_dec Nat.eq_dec x (flat_map children D)) as [Hin|Hnin]; [exact Hin|]. exfalso.
  destruct (valid_rows n D Hv) as [Hlen _].
  assert (Hl : live n D (length D) x) by (apply (live_iff n D Hv); [lia|]; rewrite firstn_all; split; [lia | exact Hnin]).
  unfold live in Hl. rewrite (part_final n D Hv) in Hl by lia. destruct Hl as [E|[]]. lia.
Qed.

Section Aggregate.
Context (n : nat) (D : dendrogram) (nc : nat) (Hv : valid n D = true) (Hnc : 2 <= nc <= n).

Let t0 := n - nc.
Let newD := skipn t0 D.
Let ids := map r_left newD ++ map r_right newD.
Let NI := sorted_ids ids.
Let fr := fun r : drow => (pos (r_left r) NI, pos (r_right r) NI, r_height r, r_size r).
Let out := map fr newD.
Let ws := map (true_count n D) (firstn nc NI).

Lemma agg_len : S (length D) = n /\ length newD = nc - 1 /\ length (firstn t0 D) = t0 /\ D = firstn t0 D ++ newD.
Proof.
  destruct (valid_rows n D Hv) as [Hlen _]. unfold newD, t0. rewrite skipn_length, firstn_length.
  repeat split; try lia. symmetry. apply firstn_skipn.
Qed.

Lemma agg_rows s r : nth_error newD s = Some r -> nth_error D (t0 + s) = Some r /\ row_ok n D (t0 + s) r.
Proof.
  intros H. unfold newD in H. rewrite nth_error_skipn in H. split; [exact H|].
  destruct (valid_rows n D Hv) as [_ Hr]. now apply Hr.
Qed.

Lemma agg_runs : exists l0 : cstate, linvp n (firstn t0 D) l0 /\ length l0 = nc.
Proof.
  destruct agg_len as (Hlen & _). destruct (pinv_part n D Hv t0) as (Hl0 & _ & Hn0); [unfold t0; lia|].
  exists (part n D t0). split; [exact Hl0 | unfold t0 in *; lia].
Qed.

Lemma agg_member_cases c : In c ids ->
  exists s r, nth_error newD s = Some r /\ In c (children r) /\ c < n + t0 + s /\
              ~ In c (flat_map children (firstn (t0 + s) D)).
Proof.
  intros H. unfold ids in H. apply ids_children, in_flat_map in H. destruct H as [r [Hr Hc]].
  destruct (In_nth_error _ _ Hr) as [s Hs]. exists s, r. split; [exact Hs|]. split; [exact Hc|].
  destruct (agg_rows s r Hs) as [_ (Hne & Hil & Hjl & Hiu & Hju)].
  destruct Hc as [<-|[<-|[]]]; split; try lia; assumption.
Qed.

Lemma agg_C1 c (l0 : cstate) : linvp n (firstn t0 D) l0 -> In c ids ->
  (c < n + t0 /\ In c (akeys l0)) \/ (exists s, c = n + t0 + s /\ s + 1 < length newD).
Proof.
  intros (_ & Hkeys & _) H. destruct agg_len as (Hlen & Hm & Hf & HD).
  destruct (agg_member_cases c H) as (s & r & Hs & Hc & Hlt & Hnot).
  assert (Hsm : s < length newD) by (apply nth_error_Some; congruence).
  destruct (Nat.lt_ge_cases c (n + t0)) as [Hc0|Hc0].
  - left. split; [exact Hc0|]. apply Hkeys. rewrite Hf. split; [exact Hc0|]. intros Hin. apply Hnot.
    rewrite HD, <- Hf at 1. rewrite firstn_app_2, flat_map_app, in_app_iff. now left.
  - right. exists (c - (n + t0)). split; lia.
Qed.

Lemma agg_C2 (l0 : cstate) x : linvp n (firstn t0 D) l0 ->
  (In x (akeys l0) \/ (exists s, x = n + t0 + s /\ s + 1 < length newD)) -> In x ids.
Proof.
  intros (Hnd0 & Hk0 & Hch0) Hx. destruct agg_len as (Hlen & Hm & Hf & HD).
  assert (Hnot : ~ In x (flat_map children (firstn t0 D))).
  { destruct Hx as [Hx|[s [-> Hs]]]; [apply Hk0 in Hx; tauto|]. intros Hc. apply Hch0 in Hc. lia. }
  assert (Hlt : x + 1 < n + length D).
  { destruct Hx as [Hx|[s [-> Hs]]]; [apply Hk0 in Hx; rewrite Hf in Hx; unfold t0 in *; lia | unfold t0 in *; lia]. }
  assert (Hin := non_root_is_child n D x Hv Hlt). rewrite HD, flat_map_app, in_app_iff in Hin.
  destruct Hin as [Hin|Hin]; [tauto|]. unfold ids. now apply ids_children.
Qed.

Lemma agg_rank : forall s, s + 1 <= length newD -> rank ids (n + t0 + s) = nc + s.
Proof.
  destruct agg_runs as (l0 & Hl0 & Hn0).
  assert (Hbase : rank ids (n + t0) = nc).
  { unfold rank. rewrite <- Hn0. rewrite <- (map_length fst l0). apply filter_seq_length.
    - destruct Hl0 as [H _]. exact H.
    - intros y. fold (akeys l0). split.
      + intros Hy. split.
        * destruct Hl0 as (_ & Hk & _). apply Hk in Hy. destruct agg_len as (_ & _ & Hf & _). rewrite Hf in Hy. lia.
        * apply memn_In. apply (agg_C2 l0 y Hl0). now left.
      + intros [Hy Hm]. apply memn_In in Hm.
        destruct (agg_C1 y l0 Hl0 Hm) as [[_ H]|[s [-> _]]]; [exact H | lia]. }
  induction s as [|s IH]; intros Hs.
  - now rewrite !Nat.add_0_r.
  - replace (n + t0 + S s) with ((n + t0 + s) + 1) by lia. unfold rank in *.
    rewrite seq_app, filter_app, app_length, IH by lia. simpl.
    assert (Hm : memn (n + t0 + s) ids = true).
    { apply memn_In. apply (agg_C2 l0 _ Hl0). right. exists s. split; [reflexivity | lia]. }
    rewrite Hm. simpl. lia.
Qed.

Lemma agg_child_rank s r c : nth_error newD s = Some r -> In c (children r) ->
  In c ids /\ pos c NI = rank ids c /\ rank ids c < nc + s.
Proof.
  intros Hs Hc. assert (Hin : In c ids).
  { unfold ids. apply ids_children, in_flat_map. exists r. split; [eapply nth_error_In; eassumption | exact Hc]. }
  split; [exact Hin|]. split; [now apply pos_sorted_ids|].
  assert (Hsm : s < length newD) by (apply nth_error_Some; congruence).
  rewrite <- (agg_rank s) by lia. apply rank_lt; [exact Hin|].
  destruct (agg_rows s r Hs) as [_ (Hne & Hil & Hjl & _)]. destruct Hc as [<-|[<-|[]]]; lia.
Qed.

Lemma agg_ws_length : length ws = nc.
Proof.
  unfold ws. rewrite map_length, firstn_length. apply Nat.min_l.
  destruct agg_runs as (l0 & Hl0 & Hn0).
  rewrite <- Hn0, <- (map_length fst l0). apply NoDup_incl_length; [destruct Hl0 as [H _]; exact H|].
  intros y Hy. apply sorted_ids_In. apply (agg_C2 l0 y Hl0). now left.
Qed.

Lemma agg_wsz c : In c ids -> wsz nc ws out (rank ids c) = true_count n D c.
Proof.
  intros Hin. destruct agg_runs as (l0 & Hl0 & Hn0).
  destruct agg_len as (Hlen & Hm & Hf & HD). unfold wsz.
  destruct (agg_C1 c l0 Hl0 Hin) as [[Hc _]|[s [-> Hs]]].
  - assert (Hr : rank ids c < nc).
    { assert (H0 := agg_rank 0 ltac:(lia)). rewrite !Nat.add_0_r in H0. rewrite <- H0. now apply rank_lt. }
    replace (Nat.ltb (rank ids c) nc) with true by (symmetry; now apply Nat.ltb_lt).
    assert (Hw := agg_ws_length). unfold ws in *. rewrite map_length in Hw.
    rewrite (nth_map_lt _ _ _ 0), nth_firstn' by lia. unfold NI. now rewrite nth_rank_sorted_ids.
  - rewrite agg_rank by lia.
    replace (Nat.ltb (nc + s) nc) with false by (symmetry; apply Nat.ltb_ge; lia).
    replace (nc + s - nc) with s by lia. unfold out.
    rewrite (nth_map_lt _ _ _ drow0) by lia. unfold fr at 1. unfold r_size at 1. simpl.
    unfold true_count. replace (Nat.ltb (n + t0 + s) n) with false by (symmetry; apply Nat.ltb_ge; lia).
    unfold newD. rewrite nth_skipn'. f_equal. f_equal. lia.
Qed.

Lemma agg_valid : validw ws out = true.
Proof.
  destruct agg_len as (Hlen & Hm & Hf & HD).
  apply static_validw.
  - unfold out. rewrite map_length, agg_ws_length. lia.
  - intros s r' Hr'. unfold out in Hr'. rewrite nth_error_map in Hr'.
    destruct (nth_error newD s) as [r|] eqn:Hs; [|discriminate]. simpl in Hr'. inversion Hr'; subst r'. clear Hr'.
    destruct (agg_rows s r Hs) as [HDs (Hne & Hil & Hjl & Hiu & Hju)].
    destruct (agg_child_rank s r (r_left r) Hs ltac:(now left)) as (Hini & Epi & Hri).
    destruct (agg_child_rank s r (r_right r) Hs ltac:(right; now left)) as (Hinj & Epj & Hrj).
    rewrite agg_ws_length. unfold fr. unfold r_left at 1 2 3 4, r_right at 1 2 3 4, r_size at 1. simpl.
    fold (r_left r) (r_right r). rewrite Epi, Epj.
    assert (Hnotin : forall c, In c (children r) -> ~ In (rank ids c) (flat_map children (firstn s out))).
    { intros c Hc Hin. unfold out in Hin. rewrite firstn_map in Hin. apply in_flat_map in Hin.
      destruct Hin as [r2 [Hr2 Hc2]]. apply in_map_iff in Hr2. destruct Hr2 as [r1 [<- Hr1]].
      destruct (In_firstn_nth_error _ _ _ Hr1) as [s1 [_ Hs1']].
      change (children (fr r1)) with (map (fun c1 => pos c1 NI) (children r1)) in Hc2.
      apply in_map_iff in Hc2. destruct Hc2 as [c1 [E Hc1]].
      destruct (agg_child_rank s1 r1 c1 Hs1' Hc1) as (Hin1 & Ep1 & _). rewrite Ep1 in E.
      destruct (agg_child_rank s r c Hs Hc) as (Hinc & _ & _).
      apply rank_inj in E; [|assumption|assumption]. subst c1.
      assert (Hbad : In c (flat_map children (firstn (t0 + s) D))).
      { rewrite HD, <- Hf at 1. rewrite firstn_app_2, flat_map_app, in_app_iff. right.
        apply in_flat_map. exists r1. split; [exact Hr1 | exact Hc1]. }
      destruct Hc as [<-|[<-|[]]]; tauto. }
    split.
    + unfold row_ok, r_left, r_right. simpl. fold (r_left r) (r_right r).
      split; [intros E; apply rank_inj in E; [congruence|assumption|assumption]|].
      split; [exact Hri|]. split; [exact Hrj|].
      split; [apply Hnotin; now left | apply Hnotin; right; now left].
    + rewrite (agg_wsz _ Hini), (agg_wsz _ Hinj).
      assert (Hsz := validw_sizes (repeat 1 n) D Hv (t0 + s) r HDs).
      now rewrite repeat_length, !wsz_unit in Hsz.
Qed.

Lemma agg_counts : mapr (leaf_count n D) (firstn nc NI) = Ok ws.
Proof.
  unfold ws. apply mapr_ok. intros l Hl. assert (Hin : In l ids).
  { apply sorted_ids_In. eapply firstn_In_aux; eassumption. }
  unfold leaf_count, true_count. destruct (Nat.ltb l n) eqn:E; [reflexivity|]. apply Nat.ltb_ge in E.
  destruct (agg_member_cases l Hin) as (s & r & Hs & _ & Hlt & _).
  assert (Hsm : s < length newD) by (apply nth_error_Some; congruence).
  destruct agg_len as (Hlen & Hm & Hf & HD).
  assert (Hl2 : l - n < length D) by (unfold t0 in *; lia).
  now rewrite (nth_error_nth' D drow0 Hl2).
Qed.
End Aggregate.

Lemma last_map' {A B} (f : A -> B) l d d' : l <> [] -> last (map f l) d' = f (last l d).
Proof.
  induction l as [|a l IH]; [congruence|]. intros _. destruct l as [|b l]; [reflexivity|].
  change (last (map f (a :: b :: l)) d') with (last (map f (b :: l)) d').
  change (last (a :: b :: l) d) with (last (b :: l) d). apply IH. discriminate.
Qed.

Lemma last_skipn' {A} (l : list A) t d : t < length l -> last (skipn t l) d = last l d.
Proof.
  revert l. induction t as [|t IH]; intros l H; [reflexivity|].
  destruct l as [|a l]; simpl in H; [lia|]. simpl skipn. rewrite IH by lia.
  destruct l; [simpl in H; lia | reflexivity].
Qed.

Lemma aggregate_dendrogram_ok n D nc rc out oc :
  valid n D = true -> aggregate_dendrogram D nc rc = Ok (out, oc) ->
  1 <= nc <= n /\
  let ws := if Nat.eqb nc 1 then [n] else map (true_count n D) (kept_ids n D nc) in
  validw ws out = true /\ length ws = nc /\ sumn ws = n /\
  heights out = heights (skipn (n - nc) D) /\ (rc = true -> oc = Some ws).
Proof.
  intros Hv H. destruct (valid_rows n D Hv) as [Hlen _].
  unfold aggregate_dendrogram, aggregate_dendrogram_with in H. rewrite Hlen in H.
  unfold check_n_clusters in H.
  destruct (Nat.ltb n nc) eqn:E1; [discriminate|]. destruct (Nat.ltb nc 1) eqn:E2; [discriminate|].
  apply Nat.ltb_ge in E1, E2. split; [lia|].
  destruct (Nat.eqb nc 1) eqn:E3.
  - apply Nat.eqb_eq in E3. subst nc. simpl.
    assert (Hnil : skipn (n - 1) D = []) by (apply skipn_all2; lia). rewrite Hnil in H. simpl in H.
    assert (Hout : out = []) by (destruct rc; inversion H; reflexivity). subst out.
    split; [reflexivity|]. split; [reflexivity|]. split; [simpl; lia|]. split; [now rewrite Hnil|].
    intros ->. now inversion H.
  - apply Nat.eqb_neq in E3. assert (Hnc : 2 <= nc <= n) by lia. cbv zeta.
    assert (Hval := agg_valid n D nc Hv Hnc). assert (Hwl := agg_ws_length n D nc Hv Hnc).
    assert (Hcnt := agg_counts n D nc Hv Hnc). fold (kept_ids n D nc) in Hval, Hwl, Hcnt.
    set (out' := map (fun r : drow => (pos (r_left r) (sorted_ids (map r_left (skipn (n - nc) D) ++ map r_right (skipn (n - nc) D))),
                                       pos (r_right r) (sorted_ids (map r_left (skipn (n - nc) D) ++ map r_right (skipn (n - nc) D))),
                                       r_height r, r_size r)) (skipn (n - nc) D)) in *.
    assert (Hout : out = out' /\ (rc = true -> oc = Some (map (true_count n D) (kept_ids n D nc)))).
    { destruct rc.
      - simpl in H. unfold kept_ids in Hcnt. cbv zeta in Hcnt. rewrite Hcnt in H. inversion H. split; [reflexivity|]. reflexivity.
      - inversion H. split; [reflexivity | discriminate]. }
    destruct Hout as [-> Hoc]. split; [exact Hval|]. split; [exact Hwl|]. split; [|split; [|exact Hoc]].
    + assert (Hne : skipn (n - nc) D <> []).
      { intros E. apply (f_equal (@length drow)) in E. rewrite skipn_length in E. simpl in E. lia. }
      rewrite <- (validw_last _ _ Hval) by (intros E; apply map_eq_nil in E; congruence).
      unfold out'. rewrite (last_map' _ _ drow0 drow0 Hne). unfold r_size at 1. simpl.
      rewrite last_skipn', (validw_last _ D Hv) by (try lia; intros ->; simpl in Hlen; lia).
      clear. induction n; simpl; auto.
    + unfold out', heights. rewrite map_map. reflexivity.
Qed.

Lemma aggregate_dendrogram_total n D nc rc :
  valid n D = true -> 1 <= nc <= n -> exists out oc, aggregate_dendrogram D nc rc = Ok (out, oc).
Proof.
  intros Hv Hnc. destruct (valid_rows n D Hv) as [Hlen _].
  unfold aggregate_dendrogram, aggregate_dendrogram_with. rewrite Hlen. unfold check_n_clusters.
  replace (Nat.ltb n nc) with false by (symmetry; apply Nat.ltb_ge; lia).
  replace (Nat.ltb nc 1) with false by (symmetry; apply Nat.ltb_ge; lia).
  destruct rc; [|now eexists; eexists].
  destruct (Nat.eqb nc 1) eqn:E; simpl; [now eexists; eexists|]. apply Nat.eqb_neq in E.
  assert (Hcnt := agg_counts n D nc Hv ltac:(lia)). rewrite Hcnt. now eexists; eexists.
Qed.

Lemma reduce_loop_valid_run : forall rows cindex csize cur cur_new out,
  reduce_loop rows cindex csize cur cur_new = Ok out ->
  exists live', valid_run cur_new out csize = Some live'.
Proof.
  induction rows as [|r rows IH]; intros cindex csize cur cur_new out H; simpl in H.
  - inversion H; subst. simpl. now eexists.
  - destruct (alookup (r_left r) cindex) as [i_new|]; [|discriminate].
    destruct (alookup (r_right r) (aremove (r_left r) cindex)) as [j_new|]; [|discriminate].
    destruct (negb (Nat.eqb i_new j_new)) eqn:Hne.
    + destruct (alookup i_new csize) as [si|] eqn:Hi; [|discriminate].
      destruct (alookup j_new (aremove i_new csize)) as [sj|] eqn:Hj; [|discriminate].
      match type of H with match ?X with _ => _ end = _ => destruct X as [out'|] eqn:Hrec end; [|discriminate].
      inversion H; subst out. apply IH in Hrec. destruct Hrec as [live' Hl]. exists live'.
      apply negb_true_iff, Nat.eqb_neq in Hne. rewrite alookup_aremove_neq in Hj by auto.
      apply valid_run_cons. exists si, sj. split; [exact Hi|]. split; [exact Hj|]. split; [exact Hne|]. split; [reflexivity | exact Hl].
    + now apply IH in H.
Qed.

Lemma child_unique n D t1 t2 r1 r2 c :
  (forall t r, nth_error D t = Some r -> row_ok n D t r) ->
  nth_error D t1 = Some r1 -> nth_error D t2 = Some r2 -> In c (children r1) -> In c (children r2) -> t1 = t2.
Proof.
  intros Hrows H1 H2 Hc1 Hc2.
  assert (Haux : forall ta tb ra rb, ta < tb -> nth_error D ta = Some ra -> nth_error D tb = Some rb ->
                                     In c (children ra) -> In c (children rb) -> False).
  { intros ta tb ra rb Hlt Ha Hb Hca Hcb. destruct (Hrows tb rb Hb) as (_ & _ & _ & Hiu & Hju).
    assert (Hin : In c (flat_map children (firstn tb D))).
    { apply in_flat_map. exists ra. split; [|exact Hca].
      apply (nth_error_In _ ta). rewrite nth_error_firstn_lt by assumption. exact Ha. }
    destruct Hcb as [<-|[<-|[]]]; tauto. }
  destruct (Nat.lt_trichotomy t1 t2) as [H|[H|H]]; [exfalso; eauto | exact H | exfalso; eauto].
Qed.

Definition cntU (fl : nat -> bool) (t : nat) : nat := length (filter (fun t' => negb (fl t')) (seq 0 t)).

Lemma cntU_S fl t : cntU fl (S t) = cntU fl t + (if fl t then 0 else 1).
Proof. unfold cntU. rewrite seq_S, filter_app, app_length. simpl. destruct (fl t); reflexivity. Qed.

Lemma cntU_le fl a b : a <= b -> cntU fl a <= cntU fl b.
Proof. intros H. unfold cntU. replace b with (a + (b - a)) by lia. rewrite seq_app, filter_app, app_length. lia. Qed.

Lemma cntU_inj fl a b : fl a = false -> fl b = false -> cntU fl a = cntU fl b -> a = b.
Proof.
  assert (Haux : forall a b, a < b -> fl a = false -> cntU fl a < cntU fl b).
  { intros a0 b0 Hlt Ha. apply Nat.lt_le_trans with (cntU fl (S a0)); [rewrite cntU_S, Ha; lia | apply cntU_le; lia]. }
  intros Ha Hb E. destruct (Nat.lt_trichotomy a b) as [H|[H|H]]; [|exact H|].
  - apply (Haux a b H) in Ha. lia.
  - apply (Haux b a H) in Hb. lia.
Qed.

Lemma cntT_cntU fl t : cntT fl t + cntU fl t = t.
Proof. induction t as [|t IH]; [reflexivity|]. rewrite cntT_S, cntU_S. destruct (fl t); lia. Qed.

Lemma urows_length fl rows : forall t, length (urows fl t rows) + cntU fl t = cntU fl (t + length rows).
Proof.
  induction rows as [|r rows IH]; intros t; simpl; [now rewrite Nat.add_0_r|].
  specialize (IH (S t)). rewrite cntU_S in IH. replace (t + S (length rows)) with (S t + length rows) by lia.
  destruct (fl t); simpl in *; lia.
Qed.

Section Reduced.
Context (n : nat) (D : dendrogram) (Hv : valid n D = true) (fl : nat -> bool) (K : cstate)
        (HG : ginv n D (length D) fl K) (pst : cstate) (HP : Permutation pst K).

Let labels := labels_of n (map snd pst).
Let k := length pst.
Let lab := fun x => nth (hd 0 (leaves n D x)) labels 0.
Let inside_b := fun x => Nat.ltb x n || fl (x - n).
Let phi := fun x => if inside_b x then lab x else k + cntU fl (x - n).

Lemma red_cpart : cpart n D pst.
Proof. destruct HG as (Hc & _). exact (cinv_cpart n D _ K pst Hc HP). Qed.

Lemma inside_b_iff x : inside_b x = true <-> inside n fl x.
Proof. unfold inside_b, inside. rewrite orb_true_iff, Nat.ltb_lt. tauto. Qed.

Lemma red_same_label k0 c : In (k0, c) K ->
  exists l, l < k /\ nth l pst (0, []) = (k0, c) /\ forall u, In u c -> nth u labels 0 = l.
Proof. intros Hin. apply (cpart_same_label n D pst k0 c red_cpart). exact (Permutation_in _ (Permutation_sym HP) Hin). Qed.

Lemma red_root_lab r : In r (akeys K) ->
  exists c, In (r, c) K /\ c = leaves n D r /\ lab r < k /\ nth (lab r) pst (0, []) = (r, c).
Proof.
  intros Hr. unfold akeys in Hr. apply in_map_iff in Hr. destruct Hr as [[r' c] [E Hin]]. simpl in E. subst r'.
  destruct HG as ((_ & Hcl & _) & _). destruct (Hcl r c Hin) as (_ & Ec & Hne).
  exists c. split; [exact Hin|]. split; [exact Ec|].
  assert (Hhd : In (hd 0 (leaves n D r)) c) by (rewrite <- Ec; destruct c; [congruence | now left]).
  destruct (red_same_label r c Hin) as (l & Hl & Enth & El). unfold lab. rewrite (El _ Hhd). split; assumption.
Qed.

Lemma red_root_inj r1 r2 : In r1 (akeys K) -> In r2 (akeys K) -> lab r1 = lab r2 -> r1 = r2.
Proof.
  intros H1 H2 E. destruct (red_root_lab r1 H1) as (c1 & _ & _ & _ & E1).
  destruct (red_root_lab r2 H2) as (c2 & _ & _ & _ & E2). rewrite E, E2 in E1. now inversion E1.
Qed.

Lemma red_applied t r : nth_error D t = Some r -> fl t = true ->
  inside_b (r_left r) = true /\ inside_b (r_right r) = true /\
  lab (r_left r) = lab (n + t) /\ lab (r_right r) = lab (n + t).
Proof.
  intros Hr Hfl. assert (Hids := valid_ids_lt n D Hv).
  assert (Ht : t < length D) by (apply nth_error_Some; congruence).
  destruct HG as (_ & _ & HF & _). destruct (HF t r Ht Hr Hfl) as (Hi & Hj & k0 & c & Hin & Hincl).
  split; [now apply inside_b_iff|]. split; [now apply inside_b_iff|].
  destruct (Hids _ _ Hr) as [Hil Hjl].
  destruct (red_same_label k0 c Hin) as (l & _ & _ & Hl).
  assert (Hall : forall u, In u (leaves n D (n + t)) -> nth u labels 0 = l) by (intros u Hu; apply Hl, Hincl, Hu).
  unfold lab. rewrite (Hall _ (leaves_hd n D Hids (n + t) ltac:(lia))).
  split; apply Hall; rewrite (leaves_node n D t r Hids Hr); apply in_app_iff; [left | right]; apply (leaves_hd n D Hids); lia.
Qed.

(** A child of a merge that was not applied is either a cluster root or itself a merge that was not applied. *)
Lemma red_top t r c : nth_error D t = Some r -> fl t = false -> In c (children r) ->
  inside_b c = true -> In c (akeys K).
Proof.
  intros Hr Hfl Hc Hins. destruct (valid_rows n D Hv) as [Hlen Hrows].
  assert (Ht : t < length D) by (apply nth_error_Some; congruence).
  destruct HG as (_ & HK & _). apply HK. destruct (Hrows t r Hr) as (_ & Hil & Hjl & _).
  split; [destruct Hc as [<-|[<-|[]]]; lia|]. split; [now apply inside_b_iff|].
  intros t' r' Ht' Er' Hfl' Hc'.
  assert (t' = t) by (eapply (child_unique n D t' t r' r c); eassumption). subst t'. congruence.
Qed.

(** What the loop needs of [cluster_size] is only that the keys it pops are there; the sizes it writes are
    checked afterwards, through [valid_run]. *)
Definition rinv (t : nat) (cindex csize : list (nat * nat)) : Prop :=
  linv n (firstn t D) cindex /\
  (forall x v, alookup x cindex = Some v -> v = phi x) /\
  (forall r, In r (akeys K) -> ~ In r (flat_map children (firstn t D)) -> In (lab r) (akeys csize)) /\
  (forall x, In x (akeys cindex) -> inside_b x = false -> In (phi x) (akeys csize)).

(** phi separates the two children of a merge that was not applied, and any other live id. *)
Lemma red_phi_neq x y : x <> y ->
  (inside_b x = true -> In x (akeys K)) -> (inside_b y = true -> In y (akeys K)) -> phi x <> phi y.
Proof.
  intros Hne Hx Hy E. unfold phi in E.
  destruct (inside_b x) eqn:Ex, (inside_b y) eqn:Ey.
  - apply Hne. apply red_root_inj; auto.
  - destruct (red_root_lab x (Hx eq_refl)) as (_ & _ & _ & Hl & _). lia.
  - destruct (red_root_lab y (Hy eq_refl)) as (_ & _ & _ & Hl & _). lia.
  - unfold inside_b in Ex, Ey. apply orb_false_iff in Ex, Ey. destruct Ex as [Ex1 Ex2], Ey as [Ey1 Ey2].
    apply Nat.ltb_ge in Ex1, Ey1. assert (x - n = y - n) by (apply (cntU_inj fl); [assumption|assumption|lia]). lia.
Qed.

Lemma red_loop : forall rows done cindex csize,
  D = done ++ rows -> rinv (length done) cindex csize ->
  exists out, reduce_loop rows cindex csize (n + length done) (k + cntU fl (length done)) = Ok out /\
              heights out = heights (urows fl (length done) rows).
Proof.
  destruct (valid_rows n D Hv) as [Hlen Hrows].
  induction rows as [|r rows IH]; intros done cindex csize HD Hinv; [exists []; now split|].
  set (t := length done) in *.
  assert (Hr : nth_error D t = Some r) by (rewrite HD; apply nth_error_app_length).
  assert (Hfn : firstn t D = done) by (rewrite HD; apply firstn_app_length).
  assert (Hfs : firstn (S t) D = done ++ [r]) by (rewrite (firstn_S_nth D t r Hr), Hfn; reflexivity).
  destruct Hinv as (R1 & R2 & R5 & R6). rewrite Hfn in R1, R5.
  destruct (Hrows t r Hr) as (Hne & Hil & Hjl & Hiu & Hju). rewrite Hfn in Hiu, Hju.
  assert (R1' := R1). destruct R1' as (Hnd & Hkeys & Hch).
  assert (Hik : In (r_left r) (akeys cindex)) by (apply Hkeys; fold t; tauto).
  assert (Hjk : In (r_right r) (akeys cindex)) by (apply Hkeys; fold t; tauto).
  destruct (In_key_alookup _ _ Hik) as [vi Hi]. destruct (In_key_alookup _ _ Hjk) as [vj Hj].
  assert (Evi := R2 _ _ Hi). assert (Evj := R2 _ _ Hj). subst vi vj.
  assert (Hj1 : alookup (r_right r) (aremove (r_left r) cindex) = Some (phi (r_right r)))
    by (rewrite alookup_aremove_neq by auto; exact Hj).
  assert (Hstep : forall s, linv n (done ++ [r]) (aremove (r_right r) (aremove (r_left r) cindex) ++ [(n + t, s)]))
    by (intros s; exact (valid_run_step n done cindex r R1 _ _ Hi Hj Hne s)).
  (* the new cluster_index: old entries keep their value, the new key n + t gets s *)
  assert (Hold : forall x v s, alookup x (aremove (r_right r) (aremove (r_left r) cindex) ++ [(n + t, s)]) = Some v ->
                               alookup x cindex = Some v \/ (x = n + t /\ v = s)).
  { intros x v s H. rewrite alookup_app in H.
    destruct (alookup x (aremove (r_right r) (aremove (r_left r) cindex))) as [v'|] eqn:E.
    - inversion H; subst v'. apply alookup_aremove_Some in E; [|now apply NoDup_aremove].
      destruct E as [_ E]. apply alookup_aremove_Some in E; [|assumption]. left. tauto.
    - simpl in H. destruct (Nat.eqb x (n + t)) eqn:E2; [|discriminate]. apply Nat.eqb_eq in E2. inversion H. now right. }
  assert (Hnewkey : forall s x, In x (akeys (aremove (r_right r) (aremove (r_left r) cindex) ++ [(n + t, s)])) ->
                                (In x (akeys cindex) /\ x <> r_left r /\ x <> r_right r) \/ x = n + t).
  { intros s x Hx. rewrite akeys_app, in_app_iff in Hx. cbn [akeys map fst] in Hx.
    destruct Hx as [Hx|[<-|[]]]; [left; now apply akeys_aremove2_iff in Hx | now right]. }
  assert (Ephi_t : phi (n + t) = if fl t then lab (n + t) else k + cntU fl t).
  { unfold phi, inside_b. replace (n + t - n) with t by lia.
    replace (Nat.ltb (n + t) n) with false by (symmetry; apply Nat.ltb_ge; lia). reflexivity. }
  simpl. rewrite Hi, Hj1.
  destruct (fl t) eqn:Hfl.
  - (* applied: both children carry the same label, nothing is emitted *)
    destruct (red_applied t r Hr Hfl) as (Hbi & Hbj & Eli & Elj).
    assert (Ephi : phi (r_left r) = phi (r_right r)) by (unfold phi; rewrite Hbi, Hbj; congruence).
    rewrite Ephi, Nat.eqb_refl. simpl.
    destruct (IH (done ++ [r]) (aremove (r_right r) (aremove (r_left r) cindex) ++ [(n + t, phi (r_left r))]) csize) as [out [Hout Hh]].
    + now rewrite <- app_assoc.
    + rewrite last_length. fold t. unfold rinv. rewrite Hfs.
      split; [apply Hstep|]. split; [|split].
      * intros x v H. apply Hold in H. destruct H as [H|[-> ->]]; [now apply R2|].
        rewrite Ephi_t. unfold phi. now rewrite Hbi.
      * intros r0 Hr0 Hnot. apply R5; [exact Hr0|]. intros Hc. apply Hnot. rewrite flat_map_app, in_app_iff. now left.
      * intros x Hx Hout'. apply Hnewkey in Hx. destruct Hx as [(Hx & _)| ->]; [now apply R6|].
        unfold inside_b in Hout'. replace (n + t - n) with t in Hout' by lia. rewrite Hfl, orb_true_r in Hout'. discriminate.
    + exists out. rewrite last_length in Hout, Hh. fold t in Hout, Hh.
      rewrite cntU_S, Hfl, Nat.add_0_r, <- plus_n_Sm in Hout. rewrite <- Ephi. split; [exact Hout|exact Hh].
  - (* not applied: a row is emitted *)
    assert (Htop : forall c, In c (children r) -> inside_b c = true -> In c (akeys K))
      by (intros c Hc; exact (red_top t r c Hr Hfl Hc)).
    assert (Hneq : phi (r_left r) <> phi (r_right r))
      by (apply red_phi_neq; [assumption | apply Htop; now left | apply Htop; right; now left]).
    replace (Nat.eqb (phi (r_left r)) (phi (r_right r))) with false by (symmetry; now apply Nat.eqb_neq). simpl.
    assert (Hsz : forall c, In c (children r) -> In (phi c) (akeys csize)).
    { intros c Hc. assert (Hck : In c (akeys cindex)) by (destruct Hc as [<-|[<-|[]]]; assumption).
      assert (Hcu : ~ In c (flat_map children done)) by (destruct Hc as [<-|[<-|[]]]; assumption).
      destruct (inside_b c) eqn:Ec; [|now apply R6].
      unfold phi. rewrite Ec. apply R5; [|exact Hcu]. now apply Htop. }
    destruct (In_key_alookup _ _ (Hsz (r_left r) (or_introl eq_refl))) as [si Esi]. rewrite Esi.
    destruct (In_key_alookup (phi (r_right r)) (aremove (phi (r_left r)) csize)) as [sj Esj].
    { apply akeys_aremove_neq; [apply Hsz; right; now left | auto]. }
    rewrite Esj. set (cn := k + cntU fl t).
    (* keys of cluster_size other than the two popped ones stay *)
    assert (Hkeep : forall m, In m (akeys csize) -> m <> phi (r_left r) -> m <> phi (r_right r) ->
              In m (akeys (aremove (phi (r_right r)) (aremove (phi (r_left r)) csize) ++ [(cn, si + sj)]))).
    { intros m Hm H1 H2. rewrite akeys_app, in_app_iff. left. now apply akeys_aremove_neq; [apply akeys_aremove_neq|]. }
    destruct (IH (done ++ [r]) (aremove (r_right r) (aremove (r_left r) cindex) ++ [(n + t, cn)])
                 (aremove (phi (r_right r)) (aremove (phi (r_left r)) csize) ++ [(cn, si + sj)])) as [out [Hout Hh]].
    + now rewrite <- app_assoc.
    + rewrite last_length. fold t. unfold rinv. rewrite Hfs.
      split; [apply Hstep|]. split; [|split].
      * intros x v H. apply Hold in H. destruct H as [H|[-> ->]]; [now apply R2 | now rewrite Ephi_t].
      * intros r0 Hr0 Hnot. rewrite flat_map_app, in_app_iff in Hnot. simpl in Hnot.
        destruct (red_root_lab r0 Hr0) as (_ & _ & _ & Hl0 & _).
        assert (Hsep : forall c, In c (children r) -> lab r0 <> phi c).
        { intros c Hc E. assert (Hc0 : r0 <> c) by (intros ->; apply Hnot; right; destruct Hc as [<-|[<-|[]]]; simpl; tauto).
          unfold phi in E. destruct (inside_b c) eqn:Ec; [|lia].
          apply Hc0. apply red_root_inj; [exact Hr0 | now apply Htop | exact E]. }
        apply Hkeep; [apply R5; [exact Hr0 | tauto] | apply Hsep; now left | apply Hsep; right; now left].
      * intros x Hx Hxo. apply Hnewkey in Hx. destruct Hx as [(Hxk & Hxi & Hxj)| ->].
        -- assert (Hxt : inside_b x = true -> In x (akeys K)) by (rewrite Hxo; discriminate).
           apply Hkeep; [now apply R6 | apply red_phi_neq; [assumption | assumption | apply Htop; now left]
                        | apply red_phi_neq; [assumption | assumption | apply Htop; right; now left]].
        -- rewrite Ephi_t. fold cn. rewrite akeys_app, in_app_iff. right. now left.
    + rewrite last_length in Hout, Hh. fold t in Hout, Hh.
      rewrite cntU_S, Hfl, <- !plus_n_Sm, Nat.add_0_r in Hout. fold cn in Hout. rewrite Hout.
      eexists. split; [reflexivity|]. unfold heights in *. simpl. now rewrite Hh.
Qed.

(** A merge that was not applied joins leaves carrying different labels. *)
Lemma red_unapplied_diff : forall t r, nth_error D t = Some r -> fl t = false ->
  exists u v, In u (leaves n D (n + t)) /\ In v (leaves n D (n + t)) /\ nth u labels 0 <> nth v labels 0.
Proof.
  assert (Hids := valid_ids_lt n D Hv). destruct (valid_rows n D Hv) as [Hlen Hrows].
  intros t. induction t as [t IH] using lt_wf_ind. intros r Hr Hfl.
  assert (Ht : t < length D) by (apply nth_error_Some; congruence).
  destruct (Hrows t r Hr) as (Hne & Hil & Hjl & _).
  assert (Hnode := leaves_node n D t r Hids Hr).
  assert (Hsub : forall c, In c (children r) -> inside_b c = false ->
                 exists u v, In u (leaves n D c) /\ In v (leaves n D c) /\ nth u labels 0 <> nth v labels 0).
  { intros c Hc Hcb. unfold inside_b in Hcb. apply orb_false_iff in Hcb. destruct Hcb as [Hc1 Hc2].
    apply Nat.ltb_ge in Hc1. assert (Hct : c - n < t) by (destruct Hc as [<-|[<-|[]]]; lia).
    destruct (nth_error_lt D (c - n)) as [rc Erc]; [lia|].
    destruct (IH (c - n) Hct rc Erc Hc2) as (u & v & Hu & Hv' & Huv).
    replace (n + (c - n)) with c in Hu, Hv' by lia. now exists u, v. }
  assert (Hhd : forall c, c < n + t -> In (hd 0 (leaves n D c)) (leaves n D c))
    by (intros c Hc; apply (leaves_hd n D Hids); lia).
  destruct (inside_b (r_left r)) eqn:Ei.
  - destruct (inside_b (r_right r)) eqn:Ej.
    + exists (hd 0 (leaves n D (r_left r))), (hd 0 (leaves n D (r_right r))).
      rewrite Hnode. split; [apply in_app_iff; left; now apply Hhd|]. split; [apply in_app_iff; right; now apply Hhd|].
      intros E. apply Hne. apply red_root_inj; [| |exact E].
      * apply (red_top t r _ Hr Hfl); [now left | exact Ei].
      * apply (red_top t r _ Hr Hfl); [right; now left | exact Ej].
    + destruct (Hsub (r_right r) ltac:(right; now left) Ej) as (u & v & Hu & Hv' & Huv).
      exists u, v. rewrite Hnode. split; [apply in_app_iff; now right|]. split; [apply in_app_iff; now right|exact Huv].
  - destruct (Hsub (r_left r) ltac:(now left) Ei) as (u & v & Hu & Hv' & Huv).
    exists u, v. rewrite Hnode. split; [apply in_app_iff; now left|]. split; [apply in_app_iff; now left|exact Huv].
Qed.

Lemma red_all_same t r : nth_error D t = Some r -> all_same labels (leaves n D (n + t)) = fl t.
Proof.
  intros Er. assert (Ht : t < length D) by (apply nth_error_Some; congruence).
  destruct (fl t) eqn:Hfl.
  - destruct HG as (_ & _ & HF & _). destruct (HF t r Ht Er Hfl) as (_ & _ & k0 & c & Hin & Hincl).
    destruct (red_same_label k0 c Hin) as (l & _ & _ & Hl).
    unfold all_same. apply forallb_forall. intros u Hu. apply Nat.eqb_eq.
    rewrite (Hl u (Hincl u Hu)). symmetry. apply Hl, Hincl, (leaves_hd n D (valid_ids_lt n D Hv)). lia.
  - destruct (red_unapplied_diff t r Er Hfl) as (u & v & Hu & Hv' & Huv).
    destruct (all_same labels (leaves n D (n + t))) eqn:Eall; [|reflexivity]. exfalso.
    unfold all_same in Eall. rewrite forallb_forall in Eall.
    apply Huv. assert (E1 := Eall u Hu). assert (E2 := Eall v Hv'). apply Nat.eqb_eq in E1, E2. congruence.
Qed.
End Reduced.

Lemma sumn_lengths_concat (cs : list (list nat)) : sumn (map (@length nat) cs) = length (concat cs).
Proof. induction cs as [|c cs IH]; simpl; [reflexivity|]. now rewrite app_length, IH. Qed.

Lemma urows_ext fl g rows : forall t,
  (forall t', t <= t' < t + length rows -> fl t' = g t') -> urows fl t rows = urows g t rows.
Proof.
  induction rows as [|r rows IH]; intros t H; simpl; [reflexivity|].
  rewrite (H t) by (simpl; lia). rewrite (IH (S t)) by (intros t' Ht'; apply H; simpl; lia). reflexivity.
Qed.

Lemma get_labels_reduced guard argsort n D st sort :
  valid n D = true -> argsort_ok argsort ->
  replay guard n D (init_clusters n) = Ok st ->
  exists labels Dnew,
    get_labels argsort D st sort true = Ok (labels, Some Dnew) /\
    let ws := map (cluster_size labels) (seq 0 (num_clusters labels)) in
    validw ws Dnew = true /\ sumn ws = n /\
    heights Dnew = heights (unmerged_rows n D labels).
Proof.
  intros Hv Hargs Hrep. destruct (valid_rows n D Hv) as [Hlen Hrows]. assert (Hids := valid_ids_lt n D Hv).
  destruct (ginv_replay guard n D st Hv Hrep) as [fl HG].
  set (pst := pstate argsort st sort). assert (P : Permutation pst st) by now apply pstate_perm.
  set (labels := labels_of n (map snd pst)).
  assert (Hcp := red_cpart n D fl st HG pst P).
  destruct (cpart_labels n D pst Hcp) as (Hl1 & _). fold labels in Hl1.
  set (clusters := map snd pst). set (ws0 := map (@length nat) clusters).
  assert (Hr0 : rinv n D fl st pst 0 (combine (seq 0 n) labels) (init_live ws0)).
  { unfold rinv. simpl firstn. split; [|split; [|split]].
    - assert (H0 := linv_init labels). unfold init_live in H0. now rewrite Hl1 in H0.
    - intros x v H. apply alookup_In in H. rewrite <- Hl1 in H at 1. apply In_combine_seq in H.
      assert (Hx := nth_error_Some_lt _ _ _ H). rewrite Hl1 in Hx.
      replace (Nat.ltb x n) with true by (symmetry; now apply Nat.ltb_lt). simpl.
      rewrite leaves_leaf by exact Hx. simpl. symmetry. exact (nth_error_nth _ _ _ H).
    - intros r Hr _. destruct (red_root_lab n D fl st HG pst P r Hr) as (_ & _ & _ & Hlt & _).
      rewrite init_live_keys. apply in_seq. unfold ws0, clusters. rewrite !map_length. lia.
    - intros x Hx Hout. exfalso. unfold akeys in Hx. rewrite map_fst_combine in Hx by now rewrite seq_length.
      apply in_seq in Hx. apply orb_false_iff in Hout. destruct Hout as [Hout _]. apply Nat.ltb_ge in Hout. lia. }
  destruct (red_loop n D Hv fl st HG pst P D [] _ _ eq_refl Hr0) as [out [Hout Hh]].
  simpl in Hout, Hh. rewrite Nat.add_0_r in Hout. unfold cntU in Hout at 1. simpl in Hout. rewrite Nat.add_0_r in Hout.
  exists labels, out.
  assert (Hget : get_labels argsort D st sort true = Ok (labels, Some out)).
  { rewrite get_labels_pstate. cbv zeta. rewrite Hlen. fold pst. fold clusters. fold ws0.
    change (labels_of n clusters) with labels. rewrite Hl1. unfold clusters. rewrite map_length, Hout. reflexivity. }
  split; [exact Hget|].
  pose proof HG as (_ & _ & _ & HL & _).
  destruct (cut_generic guard argsort n D st sort true labels (Some out) Hv Hargs Hrep Hget) as (_ & _ & _ & Hsub & Hsz & _).
  fold pst in Hsub, Hsz.
  assert (Hnum : num_clusters labels = length pst).
  { rewrite (subtree_partition_num _ _ _ _ Hsub). unfold akeys. now rewrite map_length. }
  assert (Hws : map (cluster_size labels) (seq 0 (num_clusters labels)) = ws0).
  { rewrite Hnum. unfold ws0, clusters. rewrite map_map. rewrite <- (map_nth_seq pst (0, [])) at 2. rewrite map_map.
    apply map_ext_in. intros l Hl. apply in_seq in Hl. apply Hsz. lia. }
  cbv zeta. rewrite Hws.
  assert (Hlo : S (length out) = length ws0).
  { assert (E := urows_length fl D 0). simpl in E. unfold cntU in E at 1. simpl in E. rewrite Nat.add_0_r in E.
    assert (Elen : length out = length (urows fl 0 D)).
    { apply (f_equal (@length Q)) in Hh. unfold heights in Hh. now rewrite !map_length in Hh. }
    assert (E3 := cntT_cntU fl (length D)). unfold ws0, clusters. rewrite !map_length.
    rewrite (Permutation_length P). lia. }
  assert (Hrun := reduce_loop_valid_run _ _ _ _ _ _ Hout). destruct Hrun as [live' Hrun].
  assert (Hlw : length ws0 = length pst) by (unfold ws0, clusters; now rewrite !map_length).
  rewrite <- Hlw in Hrun.
  split; [|split].
  - exact (validw_intro ws0 out live' Hlo Hrun).
  - unfold ws0. rewrite sumn_lengths_concat. destruct Hcp as (_ & _ & Hperm).
    fold clusters in Hperm. rewrite (Permutation_length Hperm). apply seq_length.
  - rewrite Hh. unfold unmerged_rows. f_equal. apply urows_ext. intros t [_ Ht]. simpl in Ht.
    destruct (nth_error_lt D t Ht) as [r Er]. symmetry. exact (red_all_same n D Hv fl st HG pst P t r Er).
Qed.

Lemma balanced_state_replay n D m : S (length D) = n -> 2 <= m <= n ->
  balanced_state D m = replay (balanced_guard m) n D (init_clusters n).
Proof.
  intros <- Hm. unfold balanced_state.
  replace (Nat.ltb m 2) with false by (symmetry; apply Nat.ltb_ge; lia).
  now replace (Nat.ltb (S (length D)) m) with false by (symmetry; apply Nat.ltb_ge; lia).
Qed.

Lemma cut_balanced_reduced argsort n D m sort :
  valid n D = true -> argsort_ok argsort -> 2 <= m <= n ->
  exists labels Dnew,
    cut_balanced argsort D m sort true = Ok (labels, Some Dnew) /\
    let ws := map (cluster_size labels) (seq 0 (num_clusters labels)) in
    validw ws Dnew = true /\ sumn ws = n /\
    heights Dnew = heights (unmerged_rows n D labels).
Proof.
  intros Hv Hargs Hm. destruct (valid_rows n D Hv) as [Hlen _].
  destruct (replay_total (balanced_guard m) n D (init_clusters n) Hv) as [st Hst].
  destruct (get_labels_reduced _ argsort n D st sort Hv Hargs Hst) as (labels & Dnew & Hget & Hprops).
  exists labels, Dnew. split; [|exact Hprops].
  unfold cut_balanced. now rewrite (balanced_state_replay n D m Hlen Hm), Hst.
Qed.

Lemma cut_balanced_total argsort n D m sort ret :
  valid n D = true -> argsort_ok argsort -> 2 <= m <= n ->
  exists labels od, cut_balanced argsort D m sort ret = Ok (labels, od).
Proof.
  intros Hv Hargs Hm. destruct ret.
  - destruct (cut_balanced_reduced argsort n D m sort Hv Hargs Hm) as (l & d & H & _). now exists l, (Some d).
  - destruct (valid_rows n D Hv) as [Hlen _].
    destruct (replay_total (balanced_guard m) n D (init_clusters n) Hv) as [st Hst].
    unfold cut_balanced. rewrite (balanced_state_replay n D m Hlen Hm), Hst.
    unfold get_labels. eexists. eexists. reflexivity.
Qed.

(** * Hierarchy metrics: Dasgupta's cost and score (get_sampling_distributions over the AggregateGraph) *)
#[local] Arguments Qred : simpl never.
#[local] Arguments Qdiv : simpl never.
#[local] Arguments Qplus : simpl never.
#[local] Arguments Qmult : simpl never.
#[local] Arguments adj : simpl never.
#[local] Arguments total_weight : simpl never.

Lemma sumq_nil : sumq [] = 0%Q. Proof. reflexivity. Qed.

Lemma qsum_sumq l : (qsum l == sumq l)%Q.
Proof. induction l as [|a l IH]; [reflexivity|]. change (qsum (a :: l)) with (Qred (a + qsum l)). now rewrite sumq_cons, Qred_correct, IH. Qed.

Lemma sumq_map_Forall2 {A B} (P : A -> B -> Prop) (f : A -> Q) (g : B -> Q) xs ys :
  (forall x y, P x y -> (f x == g y)%Q) -> Forall2 P xs ys -> (sumq (map f xs) == sumq (map g ys))%Q.
Proof.
  intros H. induction 1 as [|x y xs ys Hxy _ IH]; [reflexivity|]. cbn [map]. now rewrite !sumq_cons, (H x y Hxy), IH.
Qed.

Lemma sumq_scale {A} (f : A -> Q) c l : (sumq (map (fun a => c * f a) l) == c * sumq (map f l))%Q.
Proof. induction l as [|a l IH]; cbn [map]; [rewrite sumq_nil; ring | rewrite !sumq_cons, IH; ring]. Qed.

Lemma sumq_plus {A} (f g : A -> Q) l : (sumq (map (fun a => f a + g a) l) == sumq (map f l) + sumq (map g l))%Q.
Proof. induction l as [|a l IH]; cbn [map]; [rewrite sumq_nil; ring | rewrite !sumq_cons, IH; ring]. Qed.

Lemma sumq_perm l l' : Permutation l l' -> (sumq l == sumq l')%Q.
Proof.
  induction 1 as [|x l l' P IH|x y l|l l' l'' P1 IH1 P2 IH2]; rewrite ?sumq_cons.
  - reflexivity.
  - rewrite IH. reflexivity.
  - ring.
  - etransitivity; eassumption.
Qed.

Lemma sumq_le {A} (f g : A -> Q) l : (forall a, In a l -> (f a <= g a)%Q) -> (sumq (map f l) <= sumq (map g l))%Q.
Proof.
  induction l as [|a l IH]; cbn [map]; intros H; [apply Qle_refl|]. rewrite !sumq_cons.
  assert (H1 := H a (or_introl eq_refl)). assert (H2 : (sumq (map f l) <= sumq (map g l))%Q) by (apply IH; intros; apply H; now right). lra.
Qed.

Lemma sumq_swap {A B} (f : A -> B -> Q) la lb :
  (sumq (map (fun a => sumq (map (fun b => f a b) lb)) la) == sumq (map (fun b => sumq (map (fun a => f a b) la)) lb))%Q.
Proof.
  induction la as [|a la IH]; cbn [map].
  - rewrite sumq_nil. symmetry. apply sumq_zero. intros. reflexivity.
  - rewrite sumq_cons, IH. rewrite <- sumq_plus. apply sumq_ext. intros b _. rewrite sumq_cons. reflexivity.
Qed.

Lemma getw_notin r y : ~ In y (akeys r) -> getw r y = 0%Q.
Proof. intros H. unfold getw. apply alookup_None in H. now rewrite H. Qed.

Lemma getw_aremove r a y : NoDup (akeys r) -> getw (aremove a r) y = if Nat.eqb y a then 0%Q else getw r y.
Proof.
  intros Hnd. unfold getw. destruct (Nat.eqb y a) eqn:E.
  - apply Nat.eqb_eq in E. subst. now rewrite alookup_aremove_eq.
  - apply Nat.eqb_neq in E. now rewrite alookup_aremove_neq.
Qed.

Lemma getw_snoc r c q y : ~ In c (akeys r) -> getw (r ++ [(c, q)]) y = if Nat.eqb y c then q else getw r y.
Proof.
  intros Hc. unfold getw. rewrite alookup_app. destruct (Nat.eqb y c) eqn:E.
  - apply Nat.eqb_eq in E. subst. apply alookup_None in Hc. rewrite Hc. simpl. now rewrite Nat.eqb_refl.
  - destruct (alookup y r); [reflexivity|]. simpl. now rewrite E.
Qed.

Lemma amem_false_notin {A} (r : list (nat * A)) y : amem y r = false -> ~ In y (akeys r).
Proof. unfold amem. destruct (alookup y r) eqn:E; [discriminate|]. intros _. now apply alookup_None. Qed.

Lemma amem_true_in {A} (r : list (nat * A)) y : amem y r = true -> In y (akeys r).
Proof. unfold amem. destruct (alookup y r) eqn:E; [|discriminate]. intros _. eapply alookup_key; eassumption. Qed.

Lemma alookup_map_vals {A B} (f : A -> B) (l : list (nat * A)) x :
  alookup x (map (fun xr : nat * A => let (k, v) := xr in (k, f v)) l) = option_map f (alookup x l).
Proof. induction l as [|[k v] l IH]; simpl; [reflexivity|]. now destruct (Nat.eqb x k). Qed.

Lemma akeys_map_vals {A B} (f : A -> B) (l : list (nat * A)) :
  akeys (map (fun xr : nat * A => let (k, v) := xr in (k, f v)) l) = akeys l.
Proof. unfold akeys. rewrite map_map. apply map_ext. now intros [k v]. Qed.

Lemma alookup_map_key {B} (h : nat -> B) l y :
  alookup y (map (fun x => (x, h x)) l) = if memn y l then Some (h y) else None.
Proof.
  induction l as [|x l IH]; simpl; [reflexivity|]. unfold memn in *. simpl.
  destruct (Nat.eqb y x) eqn:E; [apply Nat.eqb_eq in E; now subst | exact IH].
Qed.

Lemma alookup_map_seq {A} (f : nat -> A) n x : x < n -> alookup x (map (fun u => (u, f u)) (seq 0 n)) = Some (f x).
Proof.
  intros H. rewrite alookup_map_key. now replace (memn x (seq 0 n)) with true by (symmetry; apply memn_In, in_seq; lia).
Qed.

Lemma getw_combine_seq (vals : list Q) n x : length vals = n -> x < n -> getw (combine (seq 0 n) vals) x = nthq vals x.
Proof.
  intros Hl Hx. unfold getw. rewrite (In_alookup x (nthq vals x)); [reflexivity| |].
  - unfold akeys. rewrite map_fst_combine by now rewrite seq_length. apply seq_NoDup.
  - subst n. apply In_combine_seq. exact (nth_error_nth' vals 0%Q Hx).
Qed.

Lemma stored_false_adj G u v : stored G u v = false -> adj G u v = 0%Q.
Proof.
  unfold stored, adj. intros H.
  assert (E : filter (fun e => Nat.eqb (e_src e) u && Nat.eqb (e_dst e) v) G = []).
  { induction G as [|e G' IH]; [reflexivity|]. simpl in *. apply orb_false_iff in H. destruct H as [H1 H2].
    rewrite H1. now apply IH. }
  now rewrite E.
Qed.

Lemma wsum_merge n D (g : nat -> Q) t r (w : list (nat * Q)) va vb :
  ids_lt n D -> nth_error D t = Some r -> linvp n (firstn t D) w -> t < length D ->
  alookup (r_left r) w = Some va -> alookup (r_right r) w = Some vb ->
  (forall x, In x (akeys w) -> (getw w x == sumq (map g (leaves n D x)))%Q) ->
  forall x, In x (akeys (aremove (r_right r) (aremove (r_left r) w) ++ [(n + t, Qred (va + vb)%Q)])) ->
    (getw (aremove (r_right r) (aremove (r_left r) w) ++ [((n + t)%nat, Qred (va + vb))]) x ==
     sumq (map g (leaves n D x)))%Q.
Proof.
  intros Hids Hr (Hnd & Hk & _) Ht Ea Eb Hw x Hx.
  assert (Hcf : ~ In (n + t) (akeys (aremove (r_right r) (aremove (r_left r) w)))).
  { intros H. apply akeys_aremove_In, akeys_aremove_In, Hk in H. rewrite firstn_length, Nat.min_l in H by lia. lia. }
  rewrite getw_snoc by assumption. rewrite akeys_app, in_app_iff in Hx. cbn [akeys map fst] in Hx.
  destruct (Nat.eqb x (n + t)) eqn:E.
  - apply Nat.eqb_eq in E. subst x. rewrite Qred_correct, (leaves_node n D t r Hids Hr), map_app, sumq_app.
    assert (E1 := Hw _ (alookup_key _ _ _ Ea)). assert (E2 := Hw _ (alookup_key _ _ _ Eb)).
    unfold getw in E1, E2. rewrite Ea in E1. rewrite Eb in E2. now rewrite E1, E2.
  - apply Nat.eqb_neq in E. destruct Hx as [Hx|[Hx|[]]]; [|congruence].
    apply akeys_aremove2_iff in Hx; [|assumption]. destruct Hx as (Hx & Hxa & Hxb).
    rewrite getw_aremove by now apply NoDup_aremove. rewrite getw_aremove by assumption.
    replace (Nat.eqb x (r_right r)) with false by (symmetry; now apply Nat.eqb_neq).
    replace (Nat.eqb x (r_left r)) with false by (symmetry; now apply Nat.eqb_neq). now apply Hw.
Qed.

Section AGraph.
Context (degree : bool) (n : nat) (G : wgraph) (D : dendrogram) (Hv : valid n D = true).

Let tw := (2 * total_weight G)%Q.
Definition sw (u v : nat) : Q := Qred ((adj G u v + adj G v u) / tw).
Definition cross (x y : nat) : Q :=
  sumq (map (fun u => sumq (map (fun v => sw u v) (leaves n D y))) (leaves n D x)).
Definition PR (L : list nat) : Q := sumq (map (nthq (probs_row degree n G)) L).
Definition PC (L : list nat) : Q := sumq (map (nthq (probs_col degree n G)) L).
Definition Wd (g : agraph) (x y : nat) : Q := getw (getrow (ag_nb g) x) y.

Definition ainv (t : nat) (g : agraph) : Prop :=
  ag_next g = n + t /\
  linvp n (firstn t D) (ag_nb g) /\ linvp n (firstn t D) (ag_out g) /\ linvp n (firstn t D) (ag_in g) /\
  (forall x rx, In (x, rx) (ag_nb g) -> NoDup (akeys rx) /\ forall y, In y (akeys rx) -> y < n + t) /\
  (forall x y, In x (akeys (ag_nb g)) -> In y (akeys (ag_nb g)) -> x <> y -> (Wd g x y == cross x y)%Q) /\
  (forall x, In x (akeys (ag_nb g)) -> x < n -> (Wd g x x == sw x x)%Q) /\
  (forall x, In x (akeys (ag_out g)) -> (getw (ag_out g) x == PR (leaves n D x))%Q) /\
  (forall x, In x (akeys (ag_in g)) -> (getw (ag_in g) x == PC (leaves n D x))%Q).

Definition init_row (u : nat) : list (nat * Q) :=
  map (fun v => (v, Qred ((adj G u v + adj G v u) / (2 * total_weight G))%Q))
      (filter (fun v => stored G u v || stored G v u) (seq 0 n)).

Lemma ainv_init : ainv 0 (ag_init degree n G).
Proof.
  unfold ainv, ag_init. cbn [ag_next ag_nb ag_out ag_in firstn].
  change (map (fun u : nat => (u, map (fun v : nat => (v, Qred ((adj G u v + adj G v u) / (2 * total_weight G))%Q))
                                     (filter (fun v : nat => stored G u v || stored G v u) (seq 0 n)))) (seq 0 n))
    with (map (fun u => (u, init_row u)) (seq 0 n)).
  assert (Hlr : length (probs_row degree n G) = n) by (unfold probs_row; now rewrite map_length, seq_length).
  assert (Hlc : length (probs_col degree n G) = n) by (unfold probs_col; now rewrite map_length, seq_length).
  assert (Hkeys : akeys (map (fun u => (u, init_row u)) (seq 0 n)) = seq 0 n).
  { unfold akeys. rewrite map_map. simpl. apply map_id. }
  assert (Hrowkeys : forall u, akeys (init_row u) = filter (fun v => stored G u v || stored G v u) (seq 0 n)).
  { intros u. unfold akeys, init_row. rewrite map_map. simpl. apply map_id. }
  assert (Hget : forall x y, x < n -> y < n -> (getw (init_row x) y == sw x y)%Q).
  { intros x y Hx Hy. destruct (stored G x y || stored G y x) eqn:Es.
    - unfold getw. rewrite (In_alookup y (sw x y)); [reflexivity| |].
      + rewrite Hrowkeys. apply NoDup_filter, seq_NoDup.
      + unfold init_row. apply in_map_iff. exists y. split; [reflexivity|]. apply filter_In. split; [apply in_seq; lia | exact Es].
    - rewrite getw_notin.
      + apply orb_false_iff in Es. destruct Es as [E1 E2]. unfold sw.
        rewrite (stored_false_adj _ _ _ E1), (stored_false_adj _ _ _ E2), Qred_correct. unfold Qdiv. ring.
      + rewrite Hrowkeys, filter_In. intros [_ H]. congruence. }
  split; [lia|]. split; [now apply linvp_of_keys_gen|].
  split; [apply linvp_init; exact Hlr|]. split; [apply linvp_init; exact Hlc|].
  split; [|split; [|split; [|split]]].
  - intros x rx Hin. apply in_map_iff in Hin. destruct Hin as [u [E Hu]]. injection E as E1 E2. subst x rx.
    rewrite Hrowkeys. split; [apply NoDup_filter, seq_NoDup|]. intros y Hy. apply filter_In in Hy. destruct Hy as [Hy _].
    apply in_seq in Hy. lia.
  - intros x y Hx Hy Hne. rewrite Hkeys in Hx, Hy. apply in_seq in Hx, Hy.
    unfold Wd, getrow. simpl. rewrite alookup_map_seq by lia. rewrite Hget by lia.
    unfold cross. rewrite !leaves_leaf by lia. simpl. ring.
  - intros x Hx Hxn. unfold Wd, getrow. simpl. rewrite alookup_map_seq by lia. apply Hget; lia.
  - intros x Hx. unfold akeys in Hx. rewrite map_fst_combine in Hx by now rewrite seq_length. apply in_seq in Hx.
    rewrite getw_combine_seq by (assumption || lia). unfold PR. rewrite leaves_leaf by lia. simpl. ring.
  - intros x Hx. unfold akeys in Hx. rewrite map_fst_combine in Hx by now rewrite seq_length. apply in_seq in Hx.
    rewrite getw_combine_seq by (assumption || lia). unfold PC. rewrite leaves_leaf by lia. simpl. ring.
Qed.

(** The rewritten row of a neighbour x in AggregateGraph.merge. *)
Definition mrow (a b c : nat) (rx : list (nat * Q)) : list (nat * Q) :=
  if amem a rx || amem b rx
  then aremove b (aremove a rx) ++ [(c, Qred (getw rx a + getw rx b)%Q)]
  else rx.

Lemma mrow_get a b c rx y : NoDup (akeys rx) -> ~ In c (akeys rx) -> y <> a -> y <> b ->
  (getw (mrow a b c rx) y == if Nat.eqb y c then getw rx a + getw rx b else getw rx y)%Q.
Proof.
  intros Hnd Hc Ha Hb. unfold mrow. destruct (amem a rx || amem b rx) eqn:Em.
  - rewrite getw_snoc by (intros H; apply akeys_aremove_In, akeys_aremove_In in H; tauto).
    destruct (Nat.eqb y c) eqn:E; [apply Qred_correct|].
    rewrite getw_aremove by now apply NoDup_aremove. rewrite getw_aremove by assumption.
    replace (Nat.eqb y b) with false by (symmetry; now apply Nat.eqb_neq).
    replace (Nat.eqb y a) with false by (symmetry; now apply Nat.eqb_neq). reflexivity.
  - apply orb_false_iff in Em. destruct Em as [E1 E2].
    destruct (Nat.eqb y c) eqn:E; [|reflexivity]. apply Nat.eqb_eq in E. subst y.
    rewrite (getw_notin rx c Hc), (getw_notin rx a (amem_false_notin _ _ E1)), (getw_notin rx b (amem_false_notin _ _ E2)). ring.
Qed.

Lemma mrow_keys a b c rx t : NoDup (akeys rx) -> (forall y, In y (akeys rx) -> y < c) -> c < t ->
  NoDup (akeys (mrow a b c rx)) /\ forall y, In y (akeys (mrow a b c rx)) -> y < t.
Proof.
  intros Hnd Hb Hc. unfold mrow. destruct (amem a rx || amem b rx).
  - split.
    + apply NoDup_akeys_app_fresh; [now apply NoDup_aremove, NoDup_aremove|].
      intros H. apply akeys_aremove_In, akeys_aremove_In, Hb in H. lia.
    + intros y Hy. rewrite akeys_app, in_app_iff in Hy. destruct Hy as [Hy|[<-|[]]]; [|exact Hc].
      apply akeys_aremove_In, akeys_aremove_In, Hb in Hy. lia.
  - split; [exact Hnd|]. intros y Hy. apply Hb in Hy. lia.
Qed.

Lemma cross_app_l x a b y : leaves n D x = leaves n D a ++ leaves n D b -> (cross x y == cross a y + cross b y)%Q.
Proof. intros E. unfold cross. rewrite E, map_app, sumq_app. reflexivity. Qed.

Lemma cross_app_r x a b y : leaves n D y = leaves n D a ++ leaves n D b -> (cross x y == cross x a + cross x b)%Q.
Proof.
  intros E. unfold cross. rewrite E. rewrite <- sumq_plus. apply sumq_ext. intros u _.
  rewrite map_app, sumq_app. reflexivity.
Qed.

Lemma ainv_step t r g : nth_error D t = Some r -> ainv t g ->
  exists g', ag_merge g (r_left r) (r_right r) = Ok g' /\ ainv (S t) g'.
Proof.
  intros Hr (Hnext & Lnb & Lout & Lin & Hrowsinv & HW & HWs & Hout & Hinw).
  assert (Hids := valid_ids_lt n D Hv). destruct (valid_rows n D Hv) as [Hlen Hrows].
  destruct (Hrows t r Hr) as (Hne & Hil & Hjl & Hiu & Hju).
  assert (Ht : t < length D) by (apply nth_error_Some; congruence).
  assert (Hft : length (firstn t D) = t) by (rewrite firstn_length; lia).
  destruct (linvp_children n D t r _ Hv Hr Lnb) as [Hanb Hbnb].
  destruct (linvp_children n D t r _ Hv Hr Lout) as [Hao Hbo].
  destruct (linvp_children n D t r _ Hv Hr Lin) as [Hai Hbi].
  set (a := r_left r) in *. set (b := r_right r) in *. set (c := n + t).
  destruct (In_key_alookup _ _ Hanb) as [ra Era]. destruct (In_key_alookup _ _ Hbnb) as [rb Erb].
  destruct (In_key_alookup _ _ Hao) as [oa Eoa]. destruct (In_key_alookup _ _ Hbo) as [ob Eob].
  destruct (In_key_alookup _ _ Hai) as [ia Eia]. destruct (In_key_alookup _ _ Hbi) as [ib Eib].
  unfold ag_merge. rewrite Era, Erb, Eoa, Eob, Eia, Eib.
  replace (Nat.eqb a b) with false by (symmetry; now apply Nat.eqb_neq). rewrite Hnext. fold c.
  eexists. split; [reflexivity|].
  set (others := filter (fun x => negb (Nat.eqb x a) && negb (Nat.eqb x b)) (nodup Nat.eq_dec (akeys ra ++ akeys rb))).
  set (newrow := (c, Qred (getw ra a + getw ra b + getw rb a + getw rb b)%Q) ::
                 map (fun x => (x, Qred (getw ra x + getw rb x)%Q)) others).
  assert (Hfs : firstn (S t) D = firstn t D ++ [r]) by now apply firstn_S_nth.
  destruct Lnb as (Hndnb & Hknb & Hchnb).
  assert (Hra := Hrowsinv a ra (alookup_In _ _ _ Era)). assert (Hrb := Hrowsinv b rb (alookup_In _ _ _ Erb)).
  destruct Hra as [Hndra Hbra]. destruct Hrb as [Hndrb Hbrb].
  set (nb1 := aremove b (aremove a (ag_nb g))).
  assert (Enb2 : map (fun xr : nat * list (nat * Q) => let (x, rx) := xr in
                        if amem a rx || amem b rx
                        then (x, aremove b (aremove a rx) ++ [(c, Qred (getw rx a + getw rx b)%Q)])
                        else (x, rx)) nb1 =
                 map (fun xr : nat * list (nat * Q) => let (x, rx) := xr in (x, mrow a b c rx)) nb1).
  { apply map_ext. intros [x rx]. unfold mrow. destruct (amem a rx || amem b rx); reflexivity. }
  rewrite Enb2. set (nb2 := map (fun xr : nat * list (nat * Q) => let (x, rx) := xr in (x, mrow a b c rx)) nb1).
  assert (Hk2 : akeys nb2 = akeys nb1) by apply akeys_map_vals.
  assert (Hknb1 : forall x, In x (akeys nb1) <-> In x (akeys (ag_nb g)) /\ x <> a /\ x <> b).
  { intros x. now apply akeys_aremove2_iff. }
  assert (Hcfresh : ~ In c (akeys (ag_nb g))) by (intros H; apply Hknb in H; rewrite Hft in H; unfold c in H; lia).
  assert (Hrow_c : getrow (nb2 ++ [(c, newrow)]) c = newrow).
  { unfold getrow. rewrite alookup_app.
    assert (E : alookup c nb2 = None) by (apply alookup_None; rewrite Hk2, Hknb1; tauto).
    rewrite E. simpl. now rewrite Nat.eqb_refl. }
  assert (Hca : a <> c /\ b <> c) by (split; intros E; apply Hcfresh; rewrite <- E; assumption).
  assert (Hwd_x : forall x y, In x (akeys (ag_nb g)) -> x <> a -> x <> b -> y <> a -> y <> b ->
            (getw (getrow (nb2 ++ [(c, newrow)]) x) y == if Nat.eqb y c then Wd g x a + Wd g x b else Wd g x y)%Q).
  { intros x y Hx Hxa Hxb Hya Hyb. destruct (In_key_alookup _ _ Hx) as [rx Erx].
    destruct (Hrowsinv x rx (alookup_In _ _ _ Erx)) as [Hnd Hb].
    assert (E : getrow (nb2 ++ [(c, newrow)]) x = mrow a b c rx).
    { unfold getrow. rewrite alookup_app. unfold nb2. rewrite alookup_map_vals. unfold nb1.
      rewrite !alookup_aremove_neq by auto. now rewrite Erx. }
    rewrite E. unfold Wd, getrow. rewrite Erx.
    apply mrow_get; [assumption | intros H; apply Hb in H; unfold c in H; lia | assumption | assumption]. }
  assert (Hnew_get : forall y, y <> a -> y <> b -> y <> c -> (getw newrow y == getw ra y + getw rb y)%Q).
  { intros y Hya Hyb Hyc. unfold newrow, getw at 1. simpl.
    replace (Nat.eqb y c) with false by (symmetry; now apply Nat.eqb_neq).
    rewrite alookup_map_key. destruct (memn y others) eqn:Em; [apply Qred_correct|].
    assert (Hnot : ~ In y (akeys ra ++ akeys rb)).
    { intros Hin. assert (In y others); [|apply memn_In in H; congruence].
      unfold others. apply filter_In. split; [now apply nodup_In|].
      apply andb_true_iff. split; apply negb_true_iff, Nat.eqb_neq; assumption. }
    rewrite in_app_iff in Hnot. rewrite (getw_notin ra y), (getw_notin rb y) by tauto. ring. }
  assert (Hleaves_c : leaves n D c = leaves n D a ++ leaves n D b) by (apply (leaves_node n D t r Hids Hr)).
  unfold ainv. cbn [ag_next ag_nb ag_out ag_in]. rewrite Hfs.
  assert (Hc_eq : c = n + length (firstn t D)) by (rewrite Hft; reflexivity).
  split; [unfold c; lia|]. split; [|split; [|split]].
  - apply (linvp_keys_eq n _ (aremove b (aremove a (ag_nb g)) ++ [(c, newrow)])).
    + rewrite !akeys_app. f_equal. symmetry. exact Hk2.
    + rewrite Hc_eq. apply linvp_step; [split; [exact Hndnb|split; [exact Hknb|exact Hchnb]] | assumption | assumption | assumption].
  - rewrite Hc_eq. apply linvp_step; assumption.
  - rewrite Hc_eq. apply linvp_step; assumption.
  - split; [|split; [|split; [|split]]].
    + intros x rx' Hin. apply in_app_iff in Hin. destruct Hin as [Hin|[Hin|[]]].
      * unfold nb2 in Hin. apply in_map_iff in Hin. destruct Hin as [[x0 rx] [E Hin]]. injection E as E1 E2. subst x0 rx'.
        unfold nb1 in Hin. apply aremove_In, aremove_In in Hin. destruct (Hrowsinv x rx Hin) as [Hnd Hb].
        apply mrow_keys; [exact Hnd | intros y Hy; apply Hb in Hy; unfold c; lia | unfold c; lia].
      * injection Hin as E1 E2. subst x rx'. unfold newrow, akeys. simpl. rewrite map_map. simpl. rewrite map_id.
        assert (Hob : forall y, In y others -> y < c).
        { intros y Hy. unfold others in Hy. apply filter_In in Hy. destruct Hy as [Hy _]. apply nodup_In, in_app_iff in Hy.
          destruct Hy as [Hy|Hy]; [apply Hbra in Hy | apply Hbrb in Hy]; unfold c; lia. }
        split.
        -- constructor; [intros H; apply Hob in H; lia | apply NoDup_filter, NoDup_nodup].
        -- intros y [<-|Hy]; [unfold c; lia | apply Hob in Hy; lia].
    + intros x y Hx Hy Hxy. rewrite akeys_app, in_app_iff, Hk2, Hknb1 in Hx, Hy. cbn [akeys map fst] in Hx, Hy.
      unfold Wd. cbn [ag_nb].
      destruct Hx as [(Hx & Hxa & Hxb)|[<-|[]]]; destruct Hy as [(Hy & Hya & Hyb)|[<-|[]]].
      * rewrite (Hwd_x x y Hx Hxa Hxb Hya Hyb).
        replace (Nat.eqb y c) with false by (symmetry; apply Nat.eqb_neq; intros ->; tauto).
        exact (HW x y Hx Hy Hxy).
      * rewrite (Hwd_x x c Hx Hxa Hxb (not_eq_sym (proj1 Hca)) (not_eq_sym (proj2 Hca))), Nat.eqb_refl.
        now rewrite (cross_app_r x a b c Hleaves_c), (HW x a Hx Hanb Hxa), (HW x b Hx Hbnb Hxb).
      * rewrite Hrow_c. assert (Hyc : y <> c) by (intros ->; tauto). rewrite Hnew_get by assumption.
        rewrite (cross_app_l c a b y Hleaves_c).
        assert (E1 := HW a y Hanb Hy (not_eq_sym Hya)). assert (E2 := HW b y Hbnb Hy (not_eq_sym Hyb)).
        unfold Wd, getrow in E1, E2. rewrite Era in E1. rewrite Erb in E2. now rewrite E1, E2.
      * congruence.
    + intros x Hx Hxn. rewrite akeys_app, in_app_iff, Hk2, Hknb1 in Hx. cbn [akeys map fst] in Hx.
      destruct Hx as [(Hx & Hxa & Hxb)|[<-|[]]]; [|unfold c in Hxn; lia].
      unfold Wd. cbn [ag_nb]. rewrite (Hwd_x x x Hx Hxa Hxb Hxa Hxb).
      replace (Nat.eqb x c) with false by (symmetry; apply Nat.eqb_neq; unfold c; lia).
      exact (HWs x Hx Hxn).
    + exact (wsum_merge n D (nthq (probs_row degree n G)) t r _ oa ob Hids Hr Lout Ht Eoa Eob Hout).
    + exact (wsum_merge n D (nthq (probs_col degree n G)) t r _ ia ib Hids Hr Lin Ht Eia Eib Hinw).
Qed.
End AGraph.

Section Sampling.
Context (degree : bool) (n : nat) (G : wgraph) (D : dendrogram) (Hv : valid n D = true).

Notation cross := (cross n G D).
Notation sw := (sw G).
Notation PR := (PR degree n G).
Notation PC := (PC degree n G).
Notation ainv := (ainv degree n G D).

(** edge_sampling[t], node_sampling[t] and cluster_weight[t] in closed form, for the merge of row r. *)
Definition ES (r : drow) : Q :=
  (2 * cross (r_left r) (r_right r) +
   sumq (map (fun x => sw x x) (filter (fun x => Nat.ltb x n) [r_left r; r_right r])))%Q.
Definition NS (r : drow) : Q :=
  (PR (leaves n D (r_left r)) * PC (leaves n D (r_right r)) +
   PR (leaves n D (r_right r)) * PC (leaves n D (r_left r)) +
   sumq (map (fun x => nthq (probs_row degree n G) x * nthq (probs_col degree n G) x)
             (filter (fun x => Nat.ltb x n) [r_left r; r_right r])))%Q.
Definition CW (r : drow) : Q :=
  ((PR (leaves n D (r_left r)) + PR (leaves n D (r_right r)) +
    PC (leaves n D (r_left r)) + PC (leaves n D (r_right r))) / 2)%Q.

Definition sd_spec (x : Q * Q * Q) (r : drow) : Prop :=
  (fst (fst x) == ES r)%Q /\ (snd (fst x) == NS r)%Q /\ (snd x == CW r)%Q.

Lemma sampling_step_spec t r g : nth_error D t = Some r -> ainv t g ->
  exists x, sampling_step n g (r_left r) (r_right r) = Ok x /\ sd_spec x r.
Proof.
  intros Hr (Hnext & Lnb & Lout & Lin & Hrowsinv & HW & HWs & Hout & Hinw).
  destruct (valid_rows n D Hv) as [_ Hrows]. destruct (Hrows t r Hr) as (Hne & _).
  set (a := r_left r) in *. set (b := r_right r) in *.
  destruct (linvp_children n D t r _ Hv Hr Lnb) as [Hanb Hbnb].
  destruct (linvp_children n D t r _ Hv Hr Lout) as [Hao Hbo].
  destruct (linvp_children n D t r _ Hv Hr Lin) as [Hai Hbi]. fold a b in Hanb, Hbnb, Hao, Hbo, Hai, Hbi.
  destruct (In_key_alookup _ _ Hanb) as [ra Era].
  destruct (In_key_alookup _ _ Hao) as [oa Eoa]. destruct (In_key_alookup _ _ Hbo) as [ob Eob].
  destruct (In_key_alookup _ _ Hai) as [ia Eia]. destruct (In_key_alookup _ _ Hbi) as [ib Eib].
  unfold sampling_step. rewrite Era, Eoa, Eob, Eia, Eib.
  replace (Nat.eqb a b) with false by (symmetry; now apply Nat.eqb_neq).
  eexists. split; [reflexivity|]. unfold sd_spec. cbn [fst snd]. rewrite !Qred_correct.
  assert (E1 := Hout a Hao). assert (E2 := Hout b Hbo). assert (E3 := Hinw a Hai). assert (E4 := Hinw b Hbi).
  unfold getw in E1, E2, E3, E4. rewrite Eoa in E1. rewrite Eob in E2. rewrite Eia in E3. rewrite Eib in E4.
  split; [|split].
  - unfold ES. fold a b.
    assert (E0 : ((if amem b ra then 2 * getw ra b else 0) == 2 * cross a b)%Q).
    { assert (E := HW a b Hanb Hbnb Hne). unfold Wd, getrow in E. rewrite Era in E.
      destruct (amem b ra) eqn:Em; [now rewrite E|].
      rewrite (getw_notin ra b (amem_false_notin _ _ Em)) in E. rewrite <- E. ring. }
    rewrite E0, qsum_sumq. apply Qplus_comp; [reflexivity|]. apply sumq_ext. intros x Hx.
    apply filter_In in Hx. destruct Hx as [Hx Hxn]. apply Nat.ltb_lt in Hxn.
    assert (Hxl : In x (akeys (ag_nb g))) by (destruct Hx as [<-|[<-|[]]]; assumption).
    assert (E := HWs x Hxl Hxn). unfold Wd in E.
    destruct (amem x (getrow (ag_nb g) x)) eqn:Em; [exact E|].
    rewrite (getw_notin _ x (amem_false_notin _ _ Em)) in E. exact E.
  - unfold NS. fold a b. rewrite E1, E2, E3, E4, qsum_sumq.
    apply Qplus_comp; [reflexivity|]. apply sumq_ext. intros x Hx.
    apply filter_In in Hx. destruct Hx as [Hx Hxn]. apply Nat.ltb_lt in Hxn.
    assert (Hxo : In x (akeys (ag_out g))) by (destruct Hx as [<-|[<-|[]]]; assumption).
    assert (Hxi : In x (akeys (ag_in g))) by (destruct Hx as [<-|[<-|[]]]; assumption).
    rewrite (Hout x Hxo), (Hinw x Hxi), (leaves_leaf n D x Hxn). unfold CutsProofs.PR, CutsProofs.PC. cbn [map].
    rewrite !sumq_cons, !sumq_nil. ring.
  - unfold CW. fold a b. now rewrite E1, E2, E3, E4.
Qed.

Lemma sampling_loop_spec : forall rows done g, D = done ++ rows -> ainv (length done) g ->
  exists xs, sampling_loop n rows g = Ok xs /\ Forall2 sd_spec xs rows.
Proof.
  induction rows as [|r rows IH]; intros done g HD Hinv.
  - exists []. split; [reflexivity | constructor].
  - assert (Hr : nth_error D (length done) = Some r) by (rewrite HD; apply nth_error_app_length).
    destruct (sampling_step_spec _ r g Hr Hinv) as (x & Hs & Hx).
    destruct (ainv_step degree n G D Hv _ r g Hr Hinv) as [g' [Hm Hinv']].
    destruct (IH (done ++ [r]) g') as [xs [Hl HF]].
    + now rewrite <- app_assoc.
    + now rewrite last_length.
    + exists (x :: xs). split; [simpl; now rewrite Hs, Hm, Hl | now constructor].
Qed.

Lemma sampling_distributions_spec :
  exists xs, get_sampling_distributions degree n G D = Ok xs /\ Forall2 sd_spec xs D.
Proof.
  destruct (valid_rows n D Hv) as [Hlen _]. unfold get_sampling_distributions.
  replace (Nat.ltb (length D) (n - 1)) with false by (symmetry; apply Nat.ltb_ge; lia).
  replace (n - 1) with (length D) by lia. rewrite firstn_all.
  exact (sampling_loop_spec D [] (ag_init degree n G) eq_refl (ainv_init degree n G D)).
Qed.

Lemma dasgupta_cost_sum normalized : length G <> 0 -> 2 <= n ->
  exists c, dasgupta_cost degree n G D normalized = Ok c /\
    (c == (if normalized then 1 else if degree then total_weight G else inject_Z (Z.of_nat n)) *
          sumq (map (fun r => ES r * CW r) D))%Q.
Proof.
  intros HG Hn. unfold dasgupta_cost.
  replace (Nat.eqb (length G) 0) with false by (symmetry; now apply Nat.eqb_neq).
  replace (Nat.ltb n 2) with false by (symmetry; apply Nat.ltb_ge; lia).
  destruct sampling_distributions_spec as [xs [-> HF]].
  eexists. split; [reflexivity|].
  assert (Hsum : (sumq (map (fun x : Q * Q * Q => fst (fst x) * snd x) xs) == sumq (map (fun r => ES r * CW r) D))%Q).
  { apply (sumq_map_Forall2 sd_spec); [|exact HF]. intros x r (E1 & _ & E3). now rewrite E1, E3. }
  destruct normalized; [|destruct degree]; rewrite ?Qred_correct, qsum_sumq, Hsum; ring.
Qed.
End Sampling.

Definition ite (b : bool) (x : Q) : Q := if b then x else 0%Q.

Lemma sumq_filter_ite {A} (f : A -> bool) (g : A -> Q) l :
  (sumq (map g (filter f l)) == sumq (map (fun a => ite (f a) (g a)) l))%Q.
Proof.
  induction l as [|a l IH]; [reflexivity|]. cbn [filter map]. rewrite sumq_cons, <- IH. destruct (f a); cbn [map]; unfold ite at 1; rewrite ?sumq_cons; ring.
Qed.

Lemma sumq_indicator (x : nat) (c : Q) L : NoDup L ->
  (sumq (map (fun u => ite (Nat.eqb x u) c) L) == ite (memn x L) c)%Q.
Proof.
  induction L as [|a L IH]; intros Hnd; [reflexivity|]. inversion Hnd as [|? ? Hn Hnd']; subst.
  cbn [map]. rewrite sumq_cons, (IH Hnd'). unfold memn. cbn [existsb].
  destruct (Nat.eqb x a) eqn:E.
  - apply Nat.eqb_eq in E. subst a. fold (memn x L). replace (memn x L) with false.
    + unfold ite. simpl. ring.
    + symmetry. destruct (memn x L) eqn:Em; [apply memn_In in Em; tauto | reflexivity].
  - unfold ite at 1. simpl. ring.
Qed.

Lemma adj_indicator G u v :
  (adj G u v == sumq (map (fun e => ite (Nat.eqb (e_src e) u && Nat.eqb (e_dst e) v) (e_w e)) G))%Q.
Proof. unfold adj. rewrite qsum_sumq. apply sumq_filter_ite. Qed.

Lemma ite_and a b x : ite (a && b) x = ite a (ite b x).
Proof. now destruct a, b. Qed.

Lemma ite_nonneg b x : (0 <= x)%Q -> (0 <= ite b x)%Q.
Proof. destruct b; simpl; [auto | intros; apply Qle_refl]. Qed.

Lemma block_sum G L1 L2 : NoDup L1 -> NoDup L2 ->
  (sumq (map (fun u => sumq (map (fun v => adj G u v) L2)) L1) ==
   sumq (map (fun e => ite (memn (e_src e) L1 && memn (e_dst e) L2) (e_w e)) G))%Q.
Proof.
  intros H1 H2.
  rewrite (sumq_ext _ (fun u => sumq (map (fun e => ite (Nat.eqb (e_src e) u) (ite (memn (e_dst e) L2) (e_w e))) G))).
  - rewrite sumq_swap. apply sumq_ext. intros e _. rewrite sumq_indicator by assumption. now rewrite ite_and.
  - intros u _.
    rewrite (sumq_ext _ (fun v => sumq (map (fun e => ite (Nat.eqb (e_src e) u) (ite (Nat.eqb (e_dst e) v) (e_w e))) G))).
    + rewrite sumq_swap. apply sumq_ext. intros e _.
      destruct (Nat.eqb (e_src e) u); cbn [ite]; [apply sumq_indicator; assumption | apply sumq_zero; intros; reflexivity].
    + intros v _. rewrite adj_indicator. apply sumq_ext. intros e _. now rewrite ite_and.
Qed.

Lemma sumq_single {A} (f : A -> Q) (l : list A) t0 a0 :
  nth_error l t0 = Some a0 ->
  (forall t a, nth_error l t = Some a -> t <> t0 -> (f a == 0)%Q) ->
  (sumq (map f l) == f a0)%Q.
Proof.
  revert t0. induction l as [|a l IH]; intros t0 H0 Hz; [destruct t0; discriminate|].
  cbn [map]. rewrite sumq_cons. destruct t0 as [|t0]; simpl in H0.
  - inversion H0; subst a0. rewrite sumq_zero; [ring|]. intros x Hx. destruct (In_nth_error _ _ Hx) as [t Ht].
    apply (Hz (S t) x); [exact Ht | discriminate].
  - rewrite (Hz 0 a eq_refl) by discriminate. rewrite (IH t0 H0); [ring|].
    intros t x Ht Hne. apply (Hz (S t) x Ht). congruence.
Qed.

Lemma sumq_const {A} (c : Q) (L : list A) : (sumq (map (fun _ => c) L) == inject_Z (Z.of_nat (length L)) * c)%Q.
Proof.
  induction L as [|a L IH]; [simpl; ring|]. cbn [map length]. rewrite sumq_cons, IH, Nat2Z.inj_succ.
  unfold Z.succ. rewrite inject_Z_plus. ring.
Qed.

Lemma sumq2_scale {A B} (f : A -> B -> Q) c L1 L2 :
  (sumq (map (fun u => sumq (map (fun v => c * f u v) L2)) L1) == c * sumq (map (fun u => sumq (map (f u) L2)) L1))%Q.
Proof. rewrite <- sumq_scale. apply sumq_ext. intros u _. apply sumq_scale. Qed.

Lemma sumq2_plus {A B} (f g : A -> B -> Q) L1 L2 :
  (sumq (map (fun u => sumq (map (fun v => f u v + g u v) L2)) L1) ==
   sumq (map (fun u => sumq (map (f u) L2)) L1) + sumq (map (fun u => sumq (map (g u) L2)) L1))%Q.
Proof. rewrite <- sumq_plus. apply sumq_ext. intros u _. apply sumq_plus. Qed.

Lemma nthq_map_seq (f : nat -> Q) n u : u < n -> nthq (map f (seq 0 n)) u = f u.
Proof. intros H. unfold nthq. now apply nth_map_seq. Qed.

(** The candidate of minimal length found by the fold of [smallest_common]. *)
Lemma fold_min (cands : list (list nat)) :
  (forall c, In c cands -> c <> []) -> cands <> [] ->
  let res := fold_right (fun c best => match best with [] => c | _ => if Nat.leb (length c) (length best) then c else best end) [] cands in
  In res cands /\ forall c, In c cands -> length res <= length c.
Proof.
  induction cands as [|c cands IH]; intros Hne Hnn; [congruence|]. cbn zeta. cbn [fold_right].
  destruct cands as [|c2 cands'].
  - simpl. split; [now left|]. intros c' [<-|[]]. lia.
  - set (rest := c2 :: cands') in *.
    destruct (IH (fun x Hx => Hne x (or_intror Hx)) ltac:(discriminate)) as [Hin Hmin]. cbn zeta in Hin, Hmin.
    set (best := fold_right (fun c best => match best with [] => c | _ => if Nat.leb (length c) (length best) then c else best end) [] rest) in *.
    assert (Hb : best <> []) by (apply Hne; now right).
    destruct best as [|b0 bs] eqn:Eb; [congruence|]. rewrite <- Eb in *.
    destruct (Nat.leb (length c) (length best)) eqn:El.
    + apply Nat.leb_le in El. split; [now left|]. intros c' [<-|Hc']; [lia|]. specialize (Hmin c' Hc'). lia.
    + apply Nat.leb_gt in El. split; [now right|]. intros c' [<-|Hc']; [lia|]. now apply Hmin.
Qed.

Lemma probs_row_nth (degree : bool) n G u : u < n ->
  (nthq (probs_row degree n G) u == if degree then out_weight G u / total_weight G else 1 / inject_Z (Z.of_nat n))%Q.
Proof. intros H. unfold probs_row. rewrite nthq_map_seq by assumption. apply Qred_correct. Qed.
Lemma probs_col_nth (degree : bool) n G u : u < n ->
  (nthq (probs_col degree n G) u == if degree then in_weight G u / total_weight G else 1 / inject_Z (Z.of_nat n))%Q.
Proof. intros H. unfold probs_col. rewrite nthq_map_seq by assumption. apply Qred_correct. Qed.

Lemma nQ_pos n : 2 <= n -> (0 < inject_Z (Z.of_nat n))%Q.
Proof. intros Hn. change 0%Q with (inject_Z 0). rewrite <- Zlt_Qlt. lia. Qed.

Lemma PR_PC_measure (degree : bool) n G l : (0 < total_weight G)%Q -> 2 <= n -> (forall u, In u l -> u < n) ->
  ((if degree then total_weight G else inject_Z (Z.of_nat n)) * ((PR degree n G l + PC degree n G l) / 2) ==
   cluster_measure degree G l)%Q.
Proof.
  intros Hw Hn Hb. unfold PR, PC, cluster_measure. assert (Hnq := nQ_pos n Hn).
  assert (E : forall (pr : list Q) (w : nat -> Q),
            (forall u, u < n -> (nthq pr u == if degree then w u / total_weight G else 1 / inject_Z (Z.of_nat n))%Q) ->
            (sumq (map (nthq pr) l) == if degree then / total_weight G * sumq (map w l)
                                       else inject_Z (Z.of_nat (length l)) * (1 / inject_Z (Z.of_nat n)))%Q).
  { intros pr w Hpr. destruct degree.
    - rewrite <- sumq_scale. apply sumq_ext. intros u Hu. rewrite Hpr by now apply Hb. unfold Qdiv. ring.
    - rewrite <- sumq_const. apply sumq_ext. intros u Hu. now rewrite Hpr by now apply Hb. }
  rewrite (E _ (out_weight G) (probs_row_nth degree n G)), (E _ (in_weight G) (probs_col_nth degree n G)).
  destruct degree; field; lra.
Qed.

Section Final.
Context (degree : bool) (n : nat) (G : wgraph) (D : dendrogram) (Hv : valid n D = true).
Context (HG : forall e, In e G -> e_src e < n /\ e_dst e < n /\ e_src e <> e_dst e).
Context (Hw : (0 < total_weight G)%Q) (Hn : 2 <= n).

Notation L := (leaves n D).
Definition sepb (r : drow) (e : nat * nat * Q) : bool :=
  (memn (e_src e) (L (r_left r)) && memn (e_dst e) (L (r_right r))) ||
  (memn (e_src e) (L (r_right r)) && memn (e_dst e) (L (r_left r))).
Definition XW (r : drow) : Q := sumq (map (fun e => ite (sepb r e) (e_w e)) G).
Definition MR (r : drow) : Q := cluster_measure degree G (L (r_left r) ++ L (r_right r)).

Lemma adj_noloop x : (adj G x x == 0)%Q.
Proof.
  rewrite adj_indicator. apply sumq_zero. intros e He. destruct (HG e He) as (_ & _ & Hne).
  destruct (Nat.eqb (e_src e) x) eqn:E1, (Nat.eqb (e_dst e) x) eqn:E2; try reflexivity.
  apply Nat.eqb_eq in E1, E2. congruence.
Qed.

Lemma row_children_facts t r : nth_error D t = Some r ->
  NoDup (L (r_left r)) /\ NoDup (L (r_right r)) /\
  (forall u, In u (L (r_left r)) -> In u (L (r_right r)) -> False) /\
  (forall u, In u (L (r_left r)) \/ In u (L (r_right r)) -> u < n).
Proof.
  intros Hr. assert (Ht : t < length D) by (apply nth_error_Some; congruence).
  destruct (live_children n D Hv t r Hr) as [Hli Hlj].
  destruct (live_leaves n D Hv t _ ltac:(lia) Hli) as [N1 B1]. destruct (live_leaves n D Hv t _ ltac:(lia) Hlj) as [N2 B2].
  destruct (valid_rows n D Hv) as [_ Hrows]. destruct (Hrows t r Hr) as (Hne & _).
  split; [exact N1|]. split; [exact N2|]. split.
  - intros u H1 H2. apply Hne. apply (live_disjoint n D Hv t _ _ u); try assumption. lia.
  - intros u [H|H]; [now apply B1 | now apply B2].
Qed.

Lemma ES_XW t r : nth_error D t = Some r -> (ES n G D r == XW r / total_weight G)%Q.
Proof.
  intros Hr. destruct (row_children_facts t r Hr) as (N1 & N2 & Hdisj & _).
  unfold ES. rewrite (sumq_zero (fun x => sw G x x)).
  2:{ intros x _. unfold sw. rewrite Qred_correct, adj_noloop. unfold Qdiv. ring. }
  unfold cross.
  rewrite (sumq_ext _ (fun u => sumq (map (fun v => (/ (2 * total_weight G)) * (adj G u v + adj G v u))%Q (L (r_right r))))).
  2:{ intros u _. apply sumq_ext. intros v _. unfold sw. rewrite Qred_correct. unfold Qdiv. ring. }
  rewrite sumq2_scale, sumq2_plus.
  rewrite (block_sum G _ _ N1 N2).
  rewrite (sumq_swap (fun u v => adj G v u)). rewrite (block_sum G _ _ N2 N1).
  rewrite <- sumq_plus. unfold XW.
  rewrite (sumq_ext _ (fun e => ite (sepb r e) (e_w e))).
  - field. lra.
  - intros e _. unfold sepb.
    destruct (memn (e_src e) (L (r_left r)) && memn (e_dst e) (L (r_right r))) eqn:E1;
    destruct (memn (e_src e) (L (r_right r)) && memn (e_dst e) (L (r_left r))) eqn:E2; cbn [ite orb]; try ring.
    exfalso. apply andb_true_iff in E1, E2. destruct E1 as [E1 _], E2 as [E2 _]. apply memn_In in E1, E2. eauto.
Qed.

Lemma CW_MR t r : nth_error D t = Some r ->
  ((if degree then total_weight G else inject_Z (Z.of_nat n)) * CW degree n G D r == MR r)%Q.
Proof.
  intros Hr. destruct (row_children_facts t r Hr) as (_ & _ & _ & Hb).
  unfold MR. rewrite <- (PR_PC_measure degree n G _ Hw Hn) by (intros u Hu; apply Hb; now apply in_app_iff).
  unfold CW, PR, PC. rewrite !map_app, !sumq_app. field.
Qed.

Lemma cluster_measure_perm l l' : Permutation l l' -> (cluster_measure degree G l == cluster_measure degree G l')%Q.
Proof.
  intros P. unfold cluster_measure. destruct degree.
  - rewrite (sumq_perm _ _ (Permutation_map (out_weight G) P)), (sumq_perm _ _ (Permutation_map (in_weight G) P)). reflexivity.
  - now rewrite (Permutation_length P).
Qed.

Lemma sepb_sep r e : sepb r e = true <-> sep n D r (e_src e) (e_dst e).
Proof.
  unfold sepb, sep. rewrite orb_true_iff, !andb_true_iff, !memn_In. tauto.
Qed.

Lemma sum_sepb e (f : drow -> Q) : In e G ->
  exists t r, nth_error D t = Some r /\ sepb r e = true /\
    (forall t', t' < length D -> In (e_src e) (L (n + t')) -> In (e_dst e) (L (n + t')) -> incl (L (n + t)) (L (n + t'))) /\
    (sumq (map (fun r' => ite (sepb r' e) (f r')) D) == f r)%Q.
Proof.
  intros He. destruct (HG e He) as (Hu & Hvv & Hne).
  destruct (meeting_merge n D Hv _ _ Hu Hvv Hne) as (t & r & Hr & Hsep & Huniq & Hincl).
  apply sepb_sep in Hsep. exists t, r. split; [exact Hr|]. split; [exact Hsep|]. split; [exact Hincl|].
  rewrite (sumq_single _ D t r Hr); [now rewrite Hsep|].
  intros t' r' Hr' Hne'. destruct (sepb r' e) eqn:Es; [|reflexivity]. exfalso. apply Hne'.
  apply (Huniq t' r' Hr'). now apply sepb_sep.
Qed.

Lemma smallest_common_measure e t r : In e G -> nth_error D t = Some r -> sepb r e = true ->
  (forall t', t' < length D -> In (e_src e) (L (n + t')) -> In (e_dst e) (L (n + t')) -> incl (L (n + t)) (L (n + t'))) ->
  (cluster_measure degree G (smallest_common n D (e_src e) (e_dst e)) == MR r)%Q.
Proof.
  intros He Hr Hs Hincl. assert (Ht : t < length D) by (apply nth_error_Some; congruence).
  assert (Hids := valid_ids_lt n D Hv). assert (Hnode := leaves_node n D t r Hids Hr).
  unfold MR. rewrite <- Hnode. apply cluster_measure_perm. symmetry.
  set (u := e_src e) in *. set (v := e_dst e) in *.
  set (cands := filter (fun c => memn u c && memn v c) (tree_clusters n D)).
  assert (Huv : In u (L (n + t)) /\ In v (L (n + t))).
  { apply sepb_sep in Hs. fold u v in Hs. rewrite Hnode, !in_app_iff. destruct Hs as [[H1 H2]|[H1 H2]]; tauto. }
  assert (Hcand : In (L (n + t)) cands).
  { apply filter_In. split.
    - unfold tree_clusters. apply in_map_iff. exists t. split; [reflexivity | apply in_seq; lia].
    - apply andb_true_iff. split; apply memn_In; tauto. }
  assert (Hall : forall c, In c cands -> exists t', t' < length D /\ c = L (n + t') /\ In u c /\ In v c).
  { intros c Hc. apply filter_In in Hc. destruct Hc as [Hc Hm]. apply andb_true_iff in Hm. destruct Hm as [H1 H2].
    apply memn_In in H1, H2. unfold tree_clusters in Hc. apply in_map_iff in Hc. destruct Hc as [t' [<- Ht']].
    apply in_seq in Ht'. exists t'. split; [lia|]. tauto. }
  destruct (fold_min cands) as [Hres Hmin].
  { intros c Hc. destruct (Hall c Hc) as (t' & _ & _ & Hu & _). intros ->. contradiction. }
  { intros E. rewrite E in Hcand. contradiction. }
  cbn zeta in Hres, Hmin. unfold smallest_common. fold u v cands.
  set (res := fold_right _ [] cands) in *.
  destruct (Hall res Hres) as (t' & Ht' & Eres & Hu & Hvv).
  apply NoDup_Permutation_bis.
  - assert (Hl : live n D (S t) (n + t)) by (apply (live_S n D Hv t r _ Hr); now right).
    apply (live_leaves n D Hv (S t) _ ltac:(lia) Hl).
  - now apply Hmin.
  - rewrite Eres in *. now apply Hincl.
Qed.

Theorem dasgupta_cost_is_spec : G <> [] ->
  exists c, dasgupta_cost degree n G D false = Ok c /\ (c == dasgupta_spec degree n G D)%Q.
Proof.
  intros HGne. assert (Hlen0 : length G <> 0) by (destruct G; [congruence | discriminate]).
  destruct (dasgupta_cost_sum degree n G D Hv false Hlen0 Hn) as [c [Hc Ec]].
  exists c. split; [exact Hc|]. rewrite Ec. cbn [negb]. clear c Hc Ec.
  set (F := (if degree then total_weight G else inject_Z (Z.of_nat n))%Q).
  assert (Hrow : forall t r, nth_error D t = Some r ->
             (F * (ES n G D r * CW degree n G D r) == / total_weight G * (XW r * MR r))%Q).
  { intros t r Hr. rewrite (ES_XW t r Hr). rewrite <- (CW_MR t r Hr). fold F. field. lra. }
  rewrite <- sumq_scale.
  rewrite (sumq_ext _ (fun r => / total_weight G * (XW r * MR r))%Q).
  2:{ intros r Hr. destruct (In_nth_error _ _ Hr) as [t Ht]. exact (Hrow t r Ht). }
  rewrite sumq_scale. unfold dasgupta_spec.
  assert (Hmain : (sumq (map (fun r => XW r * MR r) D) ==
                   sumq (map (fun e => e_w e * cluster_measure degree G (smallest_common n D (e_src e) (e_dst e))) G))%Q).
  { rewrite (sumq_ext _ (fun r => sumq (map (fun e => e_w e * ite (sepb r e) (MR r))%Q G))).
    2:{ intros r _. unfold XW. rewrite Qmult_comm, <- sumq_scale. apply sumq_ext. intros e _.
        destruct (sepb r e); cbn [ite]; ring. }
    rewrite sumq_swap. apply sumq_ext. intros e He. rewrite sumq_scale. apply Qmult_comp; [reflexivity|].
    destruct (sum_sepb e MR He) as (t & r & Hr & Hs & Hincl & E). rewrite E. symmetry.
    exact (smallest_common_measure e t r He Hr Hs Hincl). }
  rewrite Hmain. field. lra.
Qed.
End Final.

Lemma sumq_sub (f : nat -> Q) l l' : (forall x, (0 <= f x)%Q) -> NoDup l -> incl l l' ->
  (sumq (map f l) <= sumq (map f l'))%Q.
Proof.
  intros Hf. revert l'. induction l as [|a l IH]; intros l' Hnd Hincl.
  - cbn [map]. rewrite sumq_nil. apply sumq_nonneg. intros x Hx. apply in_map_iff in Hx. destruct Hx as [y [<- _]]. apply Hf.
  - inversion Hnd as [|? ? Hn Hnd']; subst.
    assert (Ha : In a l') by (apply Hincl; now left). apply in_split in Ha. destruct Ha as (l1 & l2 & ->).
    assert (Hincl' : incl l (l1 ++ l2)).
    { intros x Hx. assert (H := Hincl x (or_intror Hx)). apply in_app_iff in H. apply in_app_iff.
      destruct H as [H|[H|H]]; [now left | subst; tauto | now right]. }
    specialize (IH (l1 ++ l2) Hnd' Hincl'). cbn [map]. rewrite sumq_cons.
    rewrite map_app in *. cbn [map]. rewrite sumq_app in *. rewrite sumq_cons. lra.
Qed.

Lemma NoDup_app_intro_aux {A} (l1 l2 : list A) :
  NoDup l1 -> NoDup l2 -> (forall x, In x l1 -> In x l2 -> False) -> NoDup (l1 ++ l2).
Proof. exact (NoDup_app_disj l1 l2). Qed.

(** * Weights and sampling probabilities of the nodes, by either end of the edges:
      [key] = [e_src] gives [out_weight] and the entries of [probs_row], [key] = [e_dst] gives [in_weight] and
      those of [probs_col] (up to [Qred]). *)
Section EndWeights.
Context (key : nat * nat * Q -> nat) (degree : bool) (n : nat) (G : wgraph).

Definition kweight (u : nat) : Q := qsum (map e_w (filter (fun e => Nat.eqb (key e) u) G)).
Definition kprob (u : nat) : Q :=
  if degree then (kweight u / total_weight G)%Q else (1 / inject_Z (Z.of_nat n))%Q.

Lemma kweight_ind u : (kweight u == sumq (map (fun e => ite (Nat.eqb (key e) u) (e_w e)) G))%Q.
Proof. unfold kweight. rewrite qsum_sumq. apply sumq_filter_ite. Qed.

Context (Hpos : forall e, In e G -> (0 <= e_w e)%Q).

Lemma kweight_nonneg u : (0 <= kweight u)%Q.
Proof.
  rewrite kweight_ind. apply sumq_nonneg. intros x Hx. apply in_map_iff in Hx. destruct Hx as [e [<- He]].
  apply ite_nonneg. now apply Hpos.
Qed.

Context (Hkey : forall e, In e G -> key e < n).

Lemma kweight_total : (sumq (map kweight (seq 0 n)) == total_weight G)%Q.
Proof.
  rewrite (sumq_ext _ (fun u => sumq (map (fun e => ite (Nat.eqb (key e) u) (e_w e)) G))) by (intros; apply kweight_ind).
  rewrite sumq_swap. unfold total_weight. rewrite qsum_sumq. apply sumq_ext. intros e He.
  rewrite sumq_indicator by apply seq_NoDup. specialize (Hkey e He).
  replace (memn (key e) (seq 0 n)) with true by (symmetry; apply memn_In, in_seq; lia). reflexivity.
Qed.

Context (Hw : (0 < total_weight G)%Q) (Hn : 2 <= n).

Lemma kprob_nonneg u : (0 <= kprob u)%Q.
Proof.
  unfold kprob. destruct degree.
  - apply Qle_shift_div_l; [exact Hw|]. rewrite Qmult_0_l. apply kweight_nonneg.
  - apply Qle_shift_div_l; [exact (nQ_pos n Hn)|]. lra.
Qed.

Lemma kprob_total : (sumq (map kprob (seq 0 n)) == 1)%Q.
Proof.
  assert (Hnq := nQ_pos n Hn). unfold kprob. destruct degree.
  - rewrite (sumq_ext _ (fun u => / total_weight G * kweight u)%Q) by (intros; unfold Qdiv; ring).
    rewrite sumq_scale, kweight_total. field. lra.
  - rewrite sumq_const, seq_length. field. lra.
Qed.

Lemma kprob_sub l : NoDup l -> (forall u, In u l -> u < n) -> (0 <= sumq (map kprob l) <= 1)%Q.
Proof.
  intros Hnd Hb. split.
  - apply sumq_nonneg. intros x Hx. apply in_map_iff in Hx. destruct Hx as [u [<- _]]. apply kprob_nonneg.
  - rewrite <- kprob_total. apply sumq_sub; [exact kprob_nonneg | exact Hnd |].
    intros u Hu. apply in_seq. specialize (Hb u Hu). lia.
Qed.
End EndWeights.

Section Score.
Context (degree : bool) (n : nat) (G : wgraph) (D : dendrogram) (Hv : valid n D = true).
Context (HG : forall e, In e G -> e_src e < n /\ e_dst e < n /\ e_src e <> e_dst e).
Context (Hpos : forall e, In e G -> (0 <= e_w e)%Q).
Context (Hw : (0 < total_weight G)%Q) (Hn : 2 <= n).

Lemma out_weight_ind u : (out_weight G u == sumq (map (fun e => ite (Nat.eqb (e_src e) u) (e_w e)) G))%Q.
Proof. exact (kweight_ind e_src G u). Qed.
Lemma in_weight_ind u : (in_weight G u == sumq (map (fun e => ite (Nat.eqb (e_dst e) u) (e_w e)) G))%Q.
Proof. exact (kweight_ind e_dst G u). Qed.

(** The sampling probabilities of a duplicate-free set of nodes add up to a number in [0, 1]. *)
Lemma probs_bounds (l : list nat) : NoDup l -> (forall u, In u l -> u < n) ->
  (0 <= PR degree n G l <= 1)%Q /\ (0 <= PC degree n G l <= 1)%Q.
Proof.
  intros Hnd Hb.
  assert (Er : (PR degree n G l == sumq (map (kprob e_src degree n G) l))%Q).
  { apply sumq_ext. intros u Hu. apply probs_row_nth. now apply Hb. }
  assert (Ec : (PC degree n G l == sumq (map (kprob e_dst degree n G) l))%Q).
  { apply sumq_ext. intros u Hu. apply probs_col_nth. now apply Hb. }
  rewrite Er, Ec. split; apply kprob_sub; try assumption; intros e He; now destruct (HG e He) as (? & ? & _).
Qed.

Lemma XW_nonneg r : (0 <= XW n G D r)%Q.
Proof.
  unfold XW. apply sumq_nonneg. intros x Hx. apply in_map_iff in Hx. destruct Hx as [e [<- He]].
  apply ite_nonneg. now apply Hpos.
Qed.

Lemma XW_total : (sumq (map (fun r => XW n G D r) D) == total_weight G)%Q.
Proof.
  unfold XW. rewrite sumq_swap. unfold total_weight. rewrite qsum_sumq. apply sumq_ext. intros e He.
  destruct (sum_sepb n G D Hv HG e (fun _ => e_w e) He) as (_ & _ & _ & _ & _ & E). exact E.
Qed.

Theorem dasgupta_score_unit : G <> [] ->
  exists s, dasgupta_score degree n G D = Ok s /\ (0 <= s <= 1)%Q.
Proof.
  intros HGne. assert (Hlen0 : length G <> 0) by (destruct G; [congruence | discriminate]).
  destruct (dasgupta_cost_sum degree n G D Hv true Hlen0 Hn) as [c [Hc Ec]].
  unfold dasgupta_score. rewrite Hc. eexists. split; [reflexivity|]. rewrite Qred_correct, Ec.
  assert (Hrow : forall r, In r D -> (0 <= ES n G D r * CW degree n G D r <= XW n G D r / total_weight G)%Q).
  { intros r Hr. destruct (In_nth_error _ _ Hr) as [t Ht].
    rewrite (ES_XW n G D Hv HG Hw Hn t r Ht).
    destruct (row_children_facts n D Hv Hn t r Ht) as (N1 & N2 & Hdisj & Hb).
    assert (Hnd : NoDup (leaves n D (r_left r) ++ leaves n D (r_right r))).
    { apply NoDup_app_intro_aux; try assumption. }
    destruct (probs_bounds _ Hnd) as [[P1 P2] [P3 P4]]; [intros u Hu; apply Hb; now apply in_app_iff|].
    assert (ECW : (CW degree n G D r == (PR degree n G (leaves n D (r_left r) ++ leaves n D (r_right r)) +
                                         PC degree n G (leaves n D (r_left r) ++ leaves n D (r_right r))) * (1 # 2))%Q).
    { unfold CW, PR, PC. rewrite !map_app, !sumq_app. field. }
    assert (HX := XW_nonneg r).
    assert (HXW : (0 <= XW n G D r / total_weight G)%Q) by (apply Qle_shift_div_l; [exact Hw | lra]).
    rewrite ECW. set (x := (XW n G D r / total_weight G)%Q) in *. split; nra. }
  assert (Hlo : (0 <= sumq (map (fun r => ES n G D r * CW degree n G D r) D))%Q).
  { apply sumq_nonneg. intros x Hx. apply in_map_iff in Hx. destruct Hx as [r [<- Hr]]. apply Hrow, Hr. }
  assert (Hhi : (sumq (map (fun r => ES n G D r * CW degree n G D r) D) <= 1)%Q).
  { apply Qle_trans with (sumq (map (fun r => XW n G D r / total_weight G)%Q D)).
    - apply sumq_le. intros r Hr. apply Hrow, Hr.
    - rewrite (sumq_ext _ (fun r => / total_weight G * XW n G D r)%Q) by (intros; unfold Qdiv; ring).
      rewrite sumq_scale, XW_total. apply Qle_lteq. right. field. lra. }
  lra.
Qed.
End Score.
