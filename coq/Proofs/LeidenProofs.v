(** Proofs about Leiden.fit (leiden.py), beside Proofs/LouvainProofs.v and Proofs/LouvainTermination.v:

    A. (Section CodedLabels) The label step of Leiden._aggregate_refine as coded ([Model.Leiden.aggregate_refine_labels]:
       [membership_refined.T.tocsr().dot(membership).indices]) is well defined and correct under the contract of
       the refinement (refined clusters are non-empty subsets of coarse clusters): it has one entry per refined
       cluster, the coarse label shared by all the members of that cluster; it is the [coarse_of_refined] used by
       the model of Leiden.fit in Model/Louvain.v ([coarse_of_refined_is_coded]).  The composition of the
       memberships through it is [leiden_membership_composition] in Props/C05.v.
    B. (Sections LeidenTermination, LeidenFit) The outer [while not stop] loop of Leiden.fit terminates for
       tol_optimization > 0 and tol_aggregation > 0, for EVERY refinement oracle meeting [refine_contract], with
       explicit fuel ceil((B - Q0) / tol_aggregation) + 1 (B any upper bound of the objective, Q0 the objective of
       the singleton partition): every continuing aggregation has increase > tol_aggregation.  Variants:
       n_aggregations >= 1 stops the loop whatever tol_aggregation ([leiden_loop_fit_terminates_n_agg]);
       tol_aggregation >= 0 in exact arithmetic ([leiden_loop_fit_terminates_tol0_partial]).  With the fuel
       [leiden_fuel] / [leiden_kfuel] the model of Leiden.fit never runs out of fuel
       ([leiden_fit_never_out_of_fuel_pf]).
    That aggregating by the REFINED partition preserves the objective of the COARSE partition is section
    RefinedAggregation of Proofs/LouvainProofs.v ([refined_aggregation_objective]); the lemmas on one iteration of the loop ([leiden_step]) are there too. *)
From Coq Require Import Lqa Setoid Morphisms Sorted Qround Qabs.
From SKN Require Import Base.Util Model.Clustering Proofs.ClusteringProofs Model.Leiden Model.Modularity Model.Louvain Proofs.ModularityProofs Proofs.LouvainProofs Proofs.LouvainTermination.
Set Warnings "-notation-overridden".

Lemma sumq_pos_term {A} (f : A -> Q) l a :
  (forall x, In x l -> (0 <= f x)%Q) -> In a l -> (0 < f a)%Q -> (0 < sumq (map f l))%Q.
Proof.
  induction l as [|b t IH]; intros Hnn Hin Hpos; [destruct Hin|].
  cbn [map]. rewrite sumq_cons.
  assert (Hb : (0 <= f b)%Q) by (apply Hnn; left; reflexivity).
  assert (Ht : (0 <= sumq (map f t))%Q) by (apply sumq_nonneg; intros x Hx; apply Hnn; right; exact Hx).
  destruct Hin as [E|Hin].
  - subst b. lra.
  - specialize (IH (fun x Hx => Hnn x (or_intror Hx)) Hin Hpos). lra.
Qed.

(** [.indices] of a matrix whose every row r has exactly one non-zero entry, in column F r. *)
Lemma indices_of_support kr kc (P : mat) (F : nat -> nat) :
  length P = kr -> (forall r, r < kr -> F r < kc) ->
  (forall r c, r < kr -> c < kc -> ((ent P r c == 0)%Q <-> F r <> c)) ->
  indices_of kc P = map F (seq 0 kr).
Proof.
  intros HL Hf HM. unfold indices_of. rewrite <- HL.
  apply (flat_map_singletons _ P []). intros v Hv. rewrite HL in Hv.
  rewrite <- (filter_eqb_seq (F v) 0 kc) by (specialize (Hf v Hv); lia).
  apply filter_ext_in. intros c Hc. apply in_seq in Hc.
  change (nthq (nth v P []) c) with (ent P v c).
  assert (E := HM v c Hv). specialize (E ltac:(lia)).
  destruct (Nat.eqb_spec (F v) c) as [E1|E1]; destruct (Qeq_bool (ent P v c) 0) eqn:Eq; try reflexivity.
  - apply Qeq_bool_iff in Eq. apply E in Eq. contradiction.
  - exfalso. assert (Hq : Qeq_bool (ent P v c) 0 = true) by (apply Qeq_bool_iff; apply E; exact E1).
    congruence.
Qed.

Definition ohz (z : Z) (c : nat) : Q := if (z =? Z.of_nat c)%Z then 1%Q else 0%Q.

(** Entry (r, c) of [membership_refined.T.dot(membership)]: the number of nodes with refined label r and
    coarse label c. *)
Lemma ent_refined_T_dot labels refined kr kc r c :
  length refined = length labels -> r < kr -> c < kc ->
  ent (mmul kr (length refined) kc (mtrans (length refined) kr (membership refined kr)) (membership labels kc)) r c
  = sumq (map (fun j => (ohz (nthz refined j) r * ohz (nthz labels j) c)%Q) (seq 0 (length refined))).
Proof.
  intros Hlen Hr Hc. rewrite ent_mmul by assumption. f_equal. apply map_ext_in. intros j Hj. apply in_seq in Hj.
  rewrite ent_mtrans by lia. unfold membership. rewrite !ent_onehot by lia. reflexivity.
Qed.

Section CodedLabels.
  Context (labels refined : list Z) (kr kc : nat).
  Let n := length labels.
  Context (Hlen : length refined = n).
  Context (Hl0 : forall l, In l labels -> (0 <= l)%Z) (Hlk : forall l, In l labels -> (l < Z.of_nat kc)%Z).
  Context (Hr0 : forall l, In l refined -> (0 <= l)%Z) (Hrk : forall l, In l refined -> (l < Z.of_nat kr)%Z).
  (** the contract of the refinement: refined clusters are subsets of coarse clusters ... *)
  Context (Href : forall x y, x < n -> y < n -> nthz refined x = nthz refined y -> nthz labels x = nthz labels y).
  (** ... and every refined label below the number of columns is used (np.unique compaction) *)
  Context (Honto : forall r, r < kr -> In (Z.of_nat r) refined).

  Lemma first_member r : r < kr ->
    zindex (Z.of_nat r) refined < n /\ nthz refined (zindex (Z.of_nat r) refined) = Z.of_nat r.
  Proof.
    intros Hr. pose proof (Honto r Hr) as Hin. split.
    - rewrite <- Hlen. apply zindex_lt. exact Hin.
    - apply nth_zindex. exact Hin.
  Qed.

  Lemma coarse_label_of_lt r : r < kr -> coarse_label_of labels refined r < kc.
  Proof.
    intros Hr. destruct (first_member r Hr) as [Hv _]. unfold coarse_label_of.
    assert (Hin : In (nthz labels (zindex (Z.of_nat r) refined)) labels) by (apply nthz_In; exact Hv).
    pose proof (Hl0 _ Hin). pose proof (Hlk _ Hin). lia.
  Qed.

  Lemma coarse_label_of_member v :
    v < n -> Z.to_nat (nthz refined v) < kr /\
             coarse_label_of labels refined (Z.to_nat (nthz refined v)) = Z.to_nat (nthz labels v).
  Proof.
    intros Hv.
    assert (Hin : In (nthz refined v) refined) by (apply nthz_In; rewrite Hlen; exact Hv).
    pose proof (Hr0 _ Hin) as H0. pose proof (Hrk _ Hin) as H1.
    assert (Hr : Z.to_nat (nthz refined v) < kr) by lia.
    split; [exact Hr|].
    destruct (first_member _ Hr) as [Hp Ep]. rewrite Z2Nat.id in Ep, Hp by exact H0.
    unfold coarse_label_of. rewrite Z2Nat.id by exact H0.
    rewrite (Href _ v Hp Hv Ep). reflexivity.
  Qed.

  Lemma coded_indices :
    indices_of kc (mmul kr (length refined) kc (mtrans (length refined) kr (membership refined kr))
                        (membership labels kc))
    = map (coarse_label_of labels refined) (seq 0 kr).
  Proof.
    apply indices_of_support.
    - unfold mmul. apply mk_length.
    - exact coarse_label_of_lt.
    - intros r c Hr Hc. rewrite ent_refined_T_dot by (assumption || exact Hlen).
      destruct (first_member r Hr) as [Hp Ep]. set (p := zindex (Z.of_nat r) refined) in *.
      assert (Hnn : forall j, In j (seq 0 (length refined)) ->
                      (0 <= ohz (nthz refined j) r * ohz (nthz labels j) c)%Q).
      { intros j _. unfold ohz. destruct (_ =? _)%Z; destruct (_ =? _)%Z; lra. }
      split.
      + intros E0 EF.
        assert (Hpos : (0 < sumq (map (fun j => (ohz (nthz refined j) r * ohz (nthz labels j) c)%Q)
                                      (seq 0 (length refined))))%Q).
        { apply (sumq_pos_term _ _ p Hnn); [apply in_seq; lia|].
          unfold ohz. rewrite Ep, Z.eqb_refl.
          assert (Hin : In (nthz labels p) labels) by (apply nthz_In; exact Hp).
          pose proof (Hl0 _ Hin) as H0. unfold coarse_label_of in EF. fold p in EF.
          assert (E : nthz labels p = Z.of_nat c) by lia. rewrite E, Z.eqb_refl. lra. }
        rewrite E0 in Hpos. lra.
      + intros EF. apply sumq_zero. intros j Hj. apply in_seq in Hj. unfold ohz.
        destruct (nthz refined j =? Z.of_nat r)%Z eqn:E1; [|ring].
        apply Z.eqb_eq in E1.
        assert (Hj' : j < n) by lia.
        assert (E2 : nthz labels j = nthz labels p) by (apply Href; [exact Hj'|exact Hp|congruence]).
        destruct (nthz labels j =? Z.of_nat c)%Z eqn:E3; [|ring].
        apply Z.eqb_eq in E3. exfalso. apply EF. unfold coarse_label_of. fold p. rewrite <- E2, E3.
        apply Nat2Z.id.
  Qed.
End CodedLabels.

(** The coded step, for any labels (integers >= 0) under the contract: it returns ONE entry per refined
    cluster ([out] has length n_refined), entry r is the coarse label shared by ALL the members of r
    (second conjunct of the fourth item), and it is below the number of coarse clusters. *)
Theorem aggregate_refine_labels_correct_pf (labels refined : list Z) (kr kc : nat) (out : list nat) :
  (forall l, In l labels -> (0 <= l)%Z) -> (forall l, In l refined -> (0 <= l)%Z) ->
  let n := length labels in
  (forall x y, x < n -> y < n -> nthz refined x = nthz refined y -> nthz labels x = nthz labels y) ->
  (forall r, r < kr -> In (Z.of_nat r) refined) ->
  aggregate_refine_labels labels refined = Ok (kr, kc, out) ->
  length refined = n /\
  out = map (coarse_label_of labels refined) (seq 0 kr) /\
  length out = kr /\
  (forall v, v < n -> Z.to_nat (nthz refined v) < kr /\
                      nthn out (Z.to_nat (nthz refined v)) = Z.to_nat (nthz labels v)) /\
  (forall r, r < kr -> nthn out r < kc).
Proof.
  intros Hl0 Hr0 n Href Honto H. unfold aggregate_refine_labels in H.
  destruct (get_membership labels None) as [[kc' M]|e] eqn:G1; [|discriminate].
  destruct (get_membership refined None) as [[kr' Mr]|e] eqn:G2; [|discriminate].
  destruct (Nat.eqb (length refined) (length labels)) eqn:El; [|discriminate].
  apply Nat.eqb_eq in El.
  apply get_membership_ok in G1. destruct G1 as [EM [Hlk _]].
  apply get_membership_ok in G2. destruct G2 as [EMr [Hrk _]].
  assert (Ekr : kr' = kr) by congruence. assert (Ekc : kc' = kc) by congruence. subst kr' kc' M Mr.
  assert (Eout : out = map (coarse_label_of labels refined) (seq 0 kr)).
  { rewrite <- (coded_indices labels refined kr kc El Hl0 Hlk Href Honto). congruence. }
  split; [exact El|]. split; [exact Eout|].
  split; [rewrite Eout, map_length, seq_length; reflexivity|]. split.
  - intros v Hv.
    destruct (coarse_label_of_member labels refined kr El Hr0 Hrk Href Honto v Hv) as [Hr E].
    split; [exact Hr|]. rewrite Eout, (nthn_map_seq _ kr _ Hr). exact E.
  - intros r Hr. rewrite Eout, (nthn_map_seq _ kr _ Hr).
    exact (coarse_label_of_lt labels refined kr kc El Hl0 Hlk Honto r Hr).
Qed.

Lemma zindex_of_nat r (l : list nat) : zindex (Z.of_nat r) (map Z.of_nat l) = index_of r l.
Proof.
  induction l as [|x t IH]; [reflexivity|]. cbn [map zindex index_of].
  destruct (Nat.eqb_spec x r) as [E|E].
  - subst x. rewrite Z.eqb_refl. reflexivity.
  - destruct (Z.of_nat r =? Z.of_nat x)%Z eqn:E2; [apply Z.eqb_eq in E2; lia|]. rewrite IH. reflexivity.
Qed.

Lemma zmax_of_nat (l : list nat) :
  l <> [] -> zmax (map Z.of_nat l) = Some (Z.of_nat (fold_right Nat.max 0 l)).
Proof.
  destruct l as [|a t]; [congruence|]. intros _. cbn [map zmax]. f_equal.
  revert a. induction t as [|b t IH]; intros a; cbn [map fold_left fold_right].
  - f_equal. lia.
  - rewrite <- Nat2Z.inj_max. rewrite IH. f_equal. cbn [fold_right]. lia.
Qed.

Lemma get_membership_of_nat (l : list nat) :
  l <> [] ->
  get_membership (map Z.of_nat l) None = Ok (n_labels l, membership (map Z.of_nat l) (n_labels l)).
Proof.
  intros Hne. unfold get_membership. rewrite (zmax_of_nat l Hne).
  destruct (Z.of_nat (fold_right Nat.max 0%nat l) + 1 <? 0)%Z eqn:E; [apply Z.ltb_lt in E; lia|].
  assert (Ek : Z.to_nat (Z.of_nat (fold_right Nat.max 0 l) + 1) = n_labels l) by (unfold n_labels; lia).
  rewrite Ek.
  assert (Hall : forallb (fun x => (x <? Z.of_nat (n_labels l))%Z) (map Z.of_nat l) = true).
  { apply forallb_forall. intros x Hx. apply in_map_iff in Hx. destruct Hx as [y [<- Hy]].
    apply Z.ltb_lt. apply (In_nth _ _ 0) in Hy. destruct Hy as [i [Hi <-]].
    pose proof (lab_lt_n_labels l i Hi) as H. unfold lab, nthn in H. lia. }
  rewrite Hall. reflexivity.
Qed.

(** [coarse_of_refined] of Model/Louvain.v IS the coded [membership_refined.T.dot(membership).indices]
    whenever the refined clusters are subsets of the coarse clusters and every refined label is used. *)
Theorem coarse_of_refined_is_coded (lu rho : list nat) :
  lu <> [] -> length rho = length lu ->
  refines (length lu) rho lu ->
  (forall r, r < n_labels rho -> In r rho) ->
  aggregate_refine_labels (map Z.of_nat lu) (map Z.of_nat rho)
  = Ok (n_labels rho, n_labels lu, coarse_of_refined lu rho (n_labels rho)).
Proof.
  intros Hne Hlen Href Honto.
  assert (Hne' : rho <> []) by (intros E; rewrite E in Hlen; destruct lu; [congruence|discriminate]).
  unfold aggregate_refine_labels.
  rewrite (get_membership_of_nat lu Hne), (get_membership_of_nat rho Hne').
  destruct (Nat.eqb_spec (length (map Z.of_nat rho)) (length (map Z.of_nat lu))) as [El|El];
    [|exfalso; apply El; rewrite !map_length; exact Hlen].
  f_equal. f_equal.
  rewrite (coded_indices (map Z.of_nat lu) (map Z.of_nat rho) (n_labels rho) (n_labels lu)).
  - unfold coarse_of_refined. apply map_ext. intros r. unfold coarse_label_of.
    rewrite zindex_of_nat, nthz_map_of_nat_any. apply Nat2Z.id.
  - rewrite !map_length. exact Hlen.
  - intros l Hl. apply in_map_iff in Hl. destruct Hl as [y [<- _]]. lia.
  - intros l Hl. apply in_map_iff in Hl. destruct Hl as [y [<- Hy]].
    apply (In_nth _ _ 0) in Hy. destruct Hy as [i [Hi <-]].
    pose proof (lab_lt_n_labels lu i Hi) as H. unfold lab, nthn in H. lia.
  - rewrite map_length. intros x y Hx Hy E. rewrite !nthz_map_of_nat_any in *.
    apply Nat2Z.inj in E. f_equal. exact (Href x y Hx Hy E).
  - intros r Hr. apply in_map. apply Honto. exact Hr.
Qed.

(** [labels_refined] is always the inverse index of np.unique: every label below the number of columns of
    its membership matrix is used (the hypothesis of [aggregate_refine_labels_correct_pf]). *)
Lemma np_unique_all_labels_used (raw : list Z) (kr : nat) (Mr : mat) :
  let refined := map Z.of_nat (snd (Clustering.unique_inverse raw)) in
  get_membership refined None = Ok (kr, Mr) ->
  (forall l, In l refined -> (0 <= l)%Z) /\ (forall r, r < kr -> In (Z.of_nat r) refined).
Proof.
  intros refined H. set (out := snd (Clustering.unique_inverse raw)) in *.
  split.
  { intros l Hl. apply in_map_iff in Hl. destruct Hl as [y [<- _]]. lia. }
  destruct (unique_inverse_contiguous_pf raw) as [_ [_ Hk]]. fold out in Hk.
  assert (Hne : out <> []).
  { intros E. unfold refined in H. rewrite E in H. cbn in H. discriminate. }
  unfold refined in H. rewrite (get_membership_of_nat out Hne) in H.
  assert (Ekr : kr = n_labels out) by congruence.
  pose proof (fold_max_In out Hne) as Hmax. apply Hk in Hmax.
  intros r Hr. apply in_map. apply Hk. unfold n_labels in Ekr. lia.
Qed.

Local Open Scope Q_scope.

(** What Leiden.fit does with the answer of ANY oracle meeting [refine_contract], at any level:
    [labels_refined = np.unique(refine ...)[1]], then _aggregate_refine. The coded label step returns
    [coarse_of_refined] (the value used by [leiden_loop]); it has one entry per aggregated node; the entry of
    the aggregated node [rho y] is the coarse label of y for EVERY member y; hence composing any membership
    with [labels_refined] and then with these labels gives the coarse labels of the level. *)
Theorem leiden_aggregate_refine_labels_ok refine count g labels :
  refine_contract refine -> wf_wgraph g -> length labels = length g -> (0 < length g)%nat ->
  let rho := unique_inverse (refine count g labels) in
  let k := n_labels rho in
  let labels' := coarse_of_refined labels rho k in
  aggregate_refine_labels (map Z.of_nat labels) (map Z.of_nat rho) = Ok (k, n_labels labels, labels') /\
  length labels' = k /\
  (forall y, (y < length g)%nat -> (lab rho y < k)%nat /\ lab labels' (lab rho y) = lab labels y) /\
  (forall membership, (forall c, In c membership -> (c < length g)%nat) ->
     map (nthn labels') (map (fun c => nthn rho c) membership) = map (fun c => nthn labels c) membership).
Proof.
  intros Hc Hwf Hlen Hpos rho k labels'.
  destruct (refined_labels_ok refine count g labels Hc Hwf Hlen Hpos) as [Hrho [Href [_ Honto]]].
  fold rho in Hrho, Href, Honto. fold k in Honto.
  split; [|split; [|split]].
  - apply coarse_of_refined_is_coded.
    + intros E; rewrite E in Hlen; simpl in Hlen; lia.
    + congruence.
    + rewrite Hlen. exact Href.
    + exact Honto.
  - apply (coarse_of_refined_length labels rho).
  - intros y Hy. split; [apply lab_lt_n_labels; lia|].
    exact (coarse_of_refined_member g labels rho Hlen Hrho Href Honto y Hy).
  - intros membership Hm. exact (coarse_partition_preserved g labels rho Hlen Hrho Href Honto membership Hm).
Qed.

Lemma above_decr_any g ows iws res (L : list nat) x :
  x < objective g ows iws res L -> length L = length g ->
  (above g ows iws res (length g) (objective g ows iws res L) < above g ows iws res (length g) x)%nat.
Proof.
  intros Hlt Hlen. apply (above_decr_labels g ows iws res (length g) (unique_inverse L)).
  - rewrite unique_inverse_length. exact Hlen.
  - rewrite <- Hlen. apply Forall_forall. intros c Hc. unfold unique_inverse in Hc. apply in_map_iff in Hc.
    destruct Hc as [y [<- Hy]]. apply distinct_sorted_In in Hy. pose proof (index_of_lt y _ Hy) as H1.
    assert (H2 : (length (distinct_sorted L) <= length L)%nat).
    { apply NoDup_incl_length; [apply distinct_sorted_NoDup|]. intros z Hz. apply distinct_sorted_In. exact Hz. }
    lia.
  - apply unique_inverse_objective. exact Hlen.
  - exact Hlt.
Qed.

Section LeidenTermination.
  Context (g0 : wgraph) (ows0 iws0 : list Q) (res : Q).
  Let n0 := length g0.
  Let obj0 := objective g0 ows0 iws0 res.
  Context (refine : nat -> wgraph -> list nat -> list nat) (Hrefine : refine_contract refine).
  Context (tol_opt tol_agg B : Q) (n_agg : Z) (kfuel : nat).
  Context (HB : forall l, obj0 l <= B).
  Context (Hk : B - obj0 (seq 0 n0) < tol_opt * inject_Z (Z.of_nat kfuel)).

  (** What the loop keeps true of its arguments; the coarse partition is read on the input nodes. *)
  Definition leiden_state g ows iws labels membership : Prop :=
    level_inv g0 ows0 iws0 res g ows iws membership /\
    length labels = length g /\ (0 < length g)%nat /\
    obj0 (seq 0 n0) <= obj0 (map (nthn labels) membership).

  (** One turn of the [while not stop] loop: it returns, or goes on with a coarse partition whose objective,
      read on the input nodes, is more than tol_aggregation higher, the counter not being n_aggregations. *)
  Lemma leiden_loop_unroll f g ows iws labels membership count log mg :
    leiden_state g ows iws labels membership ->
    (exists r, leiden_loop (S f) kfuel res tol_opt tol_agg n_agg refine g ows iws labels membership count log mg
               = MOk r) \/
    exists g' ows' iws' labels' membership' log' mg',
      leiden_loop (S f) kfuel res tol_opt tol_agg n_agg refine g ows iws labels membership count log mg
      = leiden_loop f kfuel res tol_opt tol_agg n_agg refine g' ows' iws' labels' membership' (S count) log' mg' /\
      leiden_state g' ows' iws' labels' membership' /\
      obj0 (map (nthn labels) membership) + tol_agg < obj0 (map (nthn labels') membership') /\
      Z.of_nat (S count) <> n_agg.
  Proof.
    intros (Hlv & Hll & Hpos & Hmono). cbn [leiden_loop].
    pose proof Hlv as [Hwf Hsym _ _ _ _ Hobj _].
    destruct (optimize_terminates_gap kfuel g ows iws res tol_opt B labels _ _ mg Hwf Hsym
                (kinv_cluster_sums g ows iws labels mg Hll)) as [st [inc Eopt]].
    { intros l. rewrite (Hobj l). apply HB. }
    { rewrite (Hobj labels). fold obj0. lra. }
    rewrite Eopt.
    pose proof (leiden_step g0 ows0 iws0 res refine Hrefine kfuel tol_opt g ows iws labels membership count mg
                  st inc Hlv Hll Hpos Eopt) as S.
    cbv zeta in S. destruct S as [Kpos [Hinc [_ [Hnext [Hl' [Hp' [_ Ecomp]]]]]]]. fold obj0 in Hinc.
    change (fun c => nthn ?l c) with (nthn l).
    set (lu := unique_inverse (k_labels st)) in *.
    set (rho := unique_inverse (refine (S count) g lu)) in *.
    destruct (Nat.eqb (n_labels rho) 1 || Qle_bool inc tol_agg || Z.eqb (Z.of_nat (S count)) n_agg) eqn:Estop.
    - left. eexists. reflexivity.
    - right. apply orb_false_iff in Estop. destruct Estop as [Estop Ecount].
      apply orb_false_iff in Estop. destruct Estop as [_ Einc].
      assert (Hgt : tol_agg < inc).
      { destruct (Qlt_le_dec tol_agg inc) as [H|H]; [exact H|]. apply Qle_bool_iff in H. congruence. }
      do 7 eexists. split; [reflexivity|]. unfold leiden_state. rewrite Ecomp.
      split; [|split; [lra|apply Z.eqb_neq; exact Ecount]].
      split; [exact Hnext|]. split; [exact Hl'|]. split; [exact Hp'|lra].
  Qed.

  (** The loop returns whenever some property [V fuel L count] of the fuel left, the coarse partition [L] read on
      the input nodes and the counter is impossible at fuel 0 and is kept by a turn that goes on. *)
  Lemma leiden_loop_variant (V : nat -> list nat -> nat -> Prop) :
    (forall L c, ~ V 0%nat L c) ->
    (forall f L c L', V (S f) L c -> length L' = n0 -> obj0 L + tol_agg < obj0 L' -> Z.of_nat (S c) <> n_agg ->
                      V f L' (S c)) ->
    forall fuel g ows iws labels membership count log mg,
    leiden_state g ows iws labels membership -> V fuel (map (nthn labels) membership) count ->
    exists r, leiden_loop fuel kfuel res tol_opt tol_agg n_agg refine g ows iws labels membership count log mg
              = MOk r.
  Proof.
    intros V0 VS. induction fuel as [|f IH]; intros g ows iws labels membership count log mg Hs HV.
    - destruct (V0 _ _ HV).
    - destruct (leiden_loop_unroll f g ows iws labels membership count log mg Hs)
        as [Hr|(g' & ows' & iws' & labels' & membership' & log' & mg' & E & Hs' & Hgain & Hcount)]; [exact Hr|].
      rewrite E. apply IH; [exact Hs'|]. apply (VS f (map (nthn labels) membership) count); auto.
      rewrite map_length. exact (lv_mem_len _ _ _ _ _ _ _ _ (proj1 Hs')).
  Qed.
End LeidenTermination.

Lemma leiden_start kind m fb index p res :
  pre_processing kind m fb index = MOk p ->
  let s := seq 0 (length (p_adj p)) in
  leiden_state (p_adj p) (p_out p) (p_in p) res (p_adj p) (p_out p) (p_in p) s s /\ map (nthn s) s = s.
Proof.
  intros Hp s. pose proof (proj1 (prep_level kind m fb index p res Hp)) as Hlv.
  pose proof (level_mem_id _ _ _ _ _ _ _ _ Hlv) as Es. fold s in Es.
  split; [|exact Es]. split; [exact Hlv|]. split; [apply seq_length|].
  split; [exact (prep_nonempty kind m fb index p Hp)|]. rewrite Es. apply Qle_refl.
Qed.

(** Fuel computable from the arguments of fit (the bound is [objective_bound], no hypothesis on signs). *)
Definition leiden_kfuel (kind : modkind) (res tol_opt : Q) (m : wmat) (fb : bool) (index : option (list nat)) : nat :=
  louvain_kfuel kind res tol_opt m fb index.
Definition leiden_fuel (kind : modkind) (res tol_agg : Q) (m : wmat) (fb : bool) (index : option (list nat)) : nat :=
  match pre_processing kind m fb index with
  | MOk p => pass_fuel (objective_bound (p_adj p) (p_out p) (p_in p) res)
                       (objective (p_adj p) (p_out p) (p_in p) res (seq 0 (length (p_adj p)))) tol_agg
  | MErr _ => 0%nat
  end.

Section LeidenFit.
  Context (refine : nat -> wgraph -> list nat -> list nat) (fuel kfuel : nat) (kind : modkind)
          (res tol_opt tol_agg : Q) (n_agg : Z) (m : wmat) (fb : bool) (index : option (list nat)) (p : prep).
  Context (Hc : refine_contract refine) (Hp : pre_processing kind m fb index = MOk p) (Htol : 0 < tol_opt).
  Let n := length (p_adj p).
  Let obj := objective (p_adj p) (p_out p) (p_in p) res.

  (** The loop of Leiden.fit on a pre-processed input, B any upper bound of the objective, Q0 the objective
      of the singleton partition: kfuel >= ceil((B - Q0) / tol_optimization) + 1 passes per call of the kernel,
      fuel >= ceil((B - Q0) / tol_aggregation) + 1 aggregations. [n_aggregations] plays no role. *)
  Lemma leiden_loop_fit_terminates B :
    0 < tol_agg ->
    (forall l, obj l <= B) ->
    (pass_fuel B (obj (seq 0 n)) tol_opt <= kfuel)%nat ->
    (pass_fuel B (obj (seq 0 n)) tol_agg <= fuel)%nat ->
    exists r, leiden_run fuel kfuel res tol_opt tol_agg n_agg refine p = MOk r.
  Proof.
    intros Hagg HB Hk Hf. destruct (leiden_start kind m fb index p res Hp) as [Hs Es].
    apply (leiden_loop_variant (p_adj p) (p_out p) (p_in p) res refine Hc tol_opt tol_agg B n_agg kfuel HB
             (pass_fuel_gap B _ tol_opt kfuel Htol Hk)
             (fun f L _ => B - obj L < tol_agg * inject_Z (Z.of_nat f)));
      [| |exact Hs|rewrite Es; apply pass_fuel_gap; assumption].
    - intros L _ H. pose proof (HB L). change (inject_Z (Z.of_nat 0)) with 0 in H. lra.
    - intros f L c L' H _ Hgain _. fold obj in Hgain. rewrite Nat2Z.inj_succ, <- Z.add_1_r, inject_Z_plus in H.
      change (inject_Z 1) with 1 in H. lra.
  Qed.

  Lemma leiden_loop_fit_terminates_abs :
    0 < tol_agg ->
    (leiden_kfuel kind res tol_opt m fb index <= kfuel)%nat ->
    (leiden_fuel kind res tol_agg m fb index <= fuel)%nat ->
    exists r, leiden_run fuel kfuel res tol_opt tol_agg n_agg refine p = MOk r.
  Proof.
    intros Hagg Hk Hf. unfold leiden_kfuel, louvain_kfuel in Hk. unfold leiden_fuel in Hf.
    rewrite Hp in Hk, Hf.
    apply (leiden_loop_fit_terminates (objective_bound (p_adj p) (p_out p) (p_in p) res)); auto.
    intros l. apply objective_abs_bounded.
  Qed.

  Lemma leiden_loop_fit_variant (V : nat -> list nat -> nat -> Prop) :
    (leiden_kfuel kind res tol_opt m fb index <= kfuel)%nat ->
    (forall L c, ~ V 0%nat L c) ->
    (forall f L c L', V (S f) L c -> length L' = n ->
       obj L + tol_agg < obj L' ->
       Z.of_nat (S c) <> n_agg -> V f L' (S c)) ->
    V fuel (seq 0 n) 0%nat ->
    exists r, leiden_run fuel kfuel res tol_opt tol_agg n_agg refine p = MOk r.
  Proof.
    intros Hk V0 VS HV. unfold leiden_kfuel, louvain_kfuel in Hk. rewrite Hp in Hk.
    destruct (leiden_start kind m fb index p res Hp) as [Hs Es].
    apply (leiden_loop_variant (p_adj p) (p_out p) (p_in p) res refine Hc tol_opt tol_agg
             (objective_bound (p_adj p) (p_out p) (p_in p) res) n_agg kfuel
             (fun l => proj2 (objective_abs_bounded (p_adj p) (p_out p) (p_in p) res l))
             (pass_fuel_gap _ _ tol_opt kfuel Htol Hk) V V0 VS); [exact Hs|]. rewrite Es. exact HV.
  Qed.

  (** n_aggregations >= 1: the test [count == n_aggregations] stops the loop, whatever tol_aggregation. *)
  Lemma leiden_loop_fit_terminates_n_agg :
    (1 <= n_agg)%Z ->
    (leiden_kfuel kind res tol_opt m fb index <= kfuel)%nat ->
    (Z.to_nat n_agg <= fuel)%nat ->
    exists r, leiden_run fuel kfuel res tol_opt tol_agg n_agg refine p = MOk r.
  Proof.
    intros Hn Hk Hf.
    apply (leiden_loop_fit_variant (fun f _ c => (Z.of_nat c < n_agg <= Z.of_nat c + Z.of_nat f)%Z) Hk); lia.
  Qed.

  (** tol_optimization > 0, tol_aggregation >= 0 (in particular 0) in EXACT arithmetic: the objective of the
      coarse partition of the n input nodes only depends on the equality pattern of the labels, so it takes at
      most n^n values. PARTIAL with respect to the property: exact-rational model only (in the float32 kernel
      an accepted "gain" can be rounding noise). *)
  Lemma leiden_loop_fit_terminates_tol0_partial :
    0 <= tol_agg ->
    (leiden_kfuel kind res tol_opt m fb index <= kfuel)%nat ->
    (S (n ^ n) <= fuel)%nat ->
    exists r, leiden_run fuel kfuel res tol_opt tol_agg n_agg refine p = MOk r.
  Proof.
    intros Hagg Hk Hf.
    apply (leiden_loop_fit_variant
             (fun f L _ => (above (p_adj p) (p_out p) (p_in p) res n (obj L) < f)%nat) Hk).
    - intros L _ H. lia.
    - intros f L c L' H Hlen Hgain _.
      pose proof (above_decr_any (p_adj p) (p_out p) (p_in p) res L' (obj L)) as Hd. fold obj in Hd, Hgain. fold n in Hd.
      specialize (Hd ltac:(lra) Hlen). lia.
    - pose proof (above_le (p_adj p) (p_out p) (p_in p) res n (obj (seq 0 n))) as Hle. fold n in Hle. lia.
  Qed.
End LeidenFit.

Lemma leiden_fit_never_out_of_fuel_pf refine fuel kfuel kind res tol_opt tol_agg n_agg sort m fb index :
  refine_contract refine ->
  0 < tol_opt -> 0 < tol_agg ->
  (leiden_kfuel kind res tol_opt m fb index <= kfuel)%nat ->
  (leiden_fuel kind res tol_agg m fb index <= fuel)%nat ->
  leiden_fit fuel kfuel kind res tol_opt tol_agg n_agg sort refine m fb index <> MErr MOutOfFuel.
Proof.
  intros Hc Htol Hagg Hk Hf. rewrite leiden_fit_with. apply fit_with_fuel. intros p Hp.
  exact (leiden_loop_fit_terminates_abs refine fuel kfuel kind res tol_opt tol_agg n_agg m fb index p
           Hc Hp Htol Hagg Hk Hf).
Qed.
