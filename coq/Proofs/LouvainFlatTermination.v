(** The flat (checked-access) model of optimize_core in Model/Safety.v SIMULATES the model of
    Model/Louvain.v: on a well-formed CSR input, node by node, both take the same decisions and keep
    the same labels and (up to equality of rationals) the same arrays. The termination bound of
    Proofs/LouvainTermination.v therefore holds for the flat model: with tol > 0 and
    fuel >= ceil((B - objective(start)) / tol) + 1 it never returns OutOfFuel. *)
From Coq Require Import Lqa Setoid Morphisms.
From SKN Require Import Base.Util Model.Safety Proofs.SafetyProofs Model.Modularity Model.Louvain Proofs.ModularityProofs Proofs.LouvainProofs Proofs.LouvainTermination.

Local Open Scope Q_scope.

Definition csr_row (indptr indices : list nat) (data : list Q) (i : nat) : wrow :=
  map (fun j => (nth j indices 0%nat, nth j data 0))
      (seq (ip indptr i) (ip indptr (S i) - ip indptr i)).
Definition csr_graph (n : nat) (indptr indices : list nat) (data : list Q) : wgraph :=
  map (csr_row indptr indices data) (seq 0 n).

Lemma csr_graph_length n indptr indices data : length (csr_graph n indptr indices data) = n.
Proof. unfold csr_graph. rewrite map_length, seq_length. reflexivity. Qed.

Lemma csr_graph_row n indptr indices data i :
  (i < n)%nat -> wrow_of (csr_graph n indptr indices data) i = csr_row indptr indices data i.
Proof. intros H. unfold csr_graph. apply wrow_of_map_seq. exact H. Qed.

Lemma csr_graph_wf n indptr indices data :
  csr_pat_wf n indptr indices -> wf_wgraph (csr_graph n indptr indices data).
Proof.
  intros Hwf i j w Hin. rewrite csr_graph_length.
  destruct (Nat.lt_ge_cases i n) as [Hi|Hi].
  - rewrite csr_graph_row in Hin by exact Hi. unfold csr_row in Hin.
    apply in_map_iff in Hin. destruct Hin as [k [E Hk]]. injection E as <- _.
    pose proof (row_range_lt n indptr indices i Hwf Hi k Hk) as Hlt.
    destruct Hwf as (_ & _ & _ & _ & Hidx). apply Hidx. exact Hlt.
  - rewrite wrow_of_overflow in Hin by (rewrite csr_graph_length; exact Hi). destruct Hin.
Qed.

Definition qeql (a b : list Q) : Prop := length a = length b /\ forall i, nthq a i == nthq b i.

Lemma qeql_refl a : qeql a a.
Proof. split; [reflexivity|intros i; reflexivity]. Qed.

Lemma set_nth_upd {A} (l : list A) i x : set_nth l i x = upd l i x.
Proof. revert i; induction l as [|a t IH]; intros [|i]; simpl; auto; rewrite IH; reflexivity. Qed.

Lemma qeql_upd a b i x y : qeql a b -> x == y -> qeql (upd a i x) (upd b i y).
Proof.
  intros [Hl He] Hxy. split; [rewrite !upd_length; exact Hl|]. intros j.
  destruct (Nat.eq_dec j i) as [->|Hne].
  - destruct (Nat.lt_ge_cases i (length a)) as [H|H].
    + rewrite !nthq_upd_same by lia. exact Hxy.
    + unfold nthq. rewrite !nth_overflow by (rewrite upd_length; lia). reflexivity.
  - rewrite !nthq_upd_other by exact Hne. apply He.
Qed.

Lemma vote_set_insert x s : Vote.set_insert x s = set_insert x s.
Proof. induction s as [|y t IH]; simpl; [reflexivity|]. rewrite IH. reflexivity. Qed.

Lemma remove_set_erase x l : remove Nat.eq_dec x l = set_erase x l.
Proof.
  unfold set_erase. induction l as [|y t IH]; simpl; [reflexivity|].
  destruct (Nat.eq_dec x y) as [E|E].
  - subst y. rewrite Nat.eqb_refl. simpl. exact IH.
  - assert (H : Nat.eqb y x = false) by (apply Nat.eqb_neq; congruence). rewrite H. simpl.
    rewrite IH. reflexivity.
Qed.

Lemma rdq_ok (l : list Q) i : (i < length l)%nat -> rd l i = KOk (nthq l i).
Proof. apply rd_ok. Qed.
Lemma rdn_ok (l : list nat) i : (i < length l)%nat -> rd l i = KOk (nthn l i).
Proof. apply rd_ok. Qed.

Ltac rq := rewrite rdq_ok by (rewrite ?upd_length; lia); cbn [kbind].
Ltac rn := rewrite rdn_ok by (rewrite ?upd_length; lia); cbn [kbind].
Lemma wr_upd {A} (l : list A) i x : (i < length l)%nat -> wr l i x = KOk (upd l i x).
Proof. intros H. rewrite (wr_ok l i x H), set_nth_upd. reflexivity. Qed.
Ltac wq := rewrite wr_upd by (rewrite ?upd_length; lia); cbn [kbind].

Lemma lv_select_sim n res ow iw delta deltam icw ocw icwm ocwm :
  delta == deltam -> qeql icw icwm -> qeql ocw ocwm -> length icw = n -> length ocw = n ->
  forall ls cwf dbest lbest a,
    Forall (fun l => (l < n)%nat) ls -> length cwf = n -> qeql cwf (t_cw a) ->
    dbest == t_best a -> lbest = t_label a ->
    let r := fold_left (tgt_step res ow iw deltam ocwm icwm) ls a in
    exists db cwf',
      lv_select ls res ow iw delta icw ocw cwf dbest lbest = KOk (db, t_label r, cwf') /\
      db == t_best r /\ length cwf' = n /\ qeql cwf' (t_cw r).
Proof.
  intros Hdl Qi Qo Li Lo. induction ls as [|t ls IH]; intros cwf dbest lbest a Hls Hcw Hq Hb Hlb; cbv zeta.
  - exists dbest, cwf. subst lbest. cbn [lv_select fold_left]. auto.
  - rewrite fold_left_cons. cbn [lv_select].
    apply Forall_cons_iff in Hls. destruct Hls as [Ht Hls].
    rq. rq. rq. wq.
    set (dlf := 2 * nthq cwf t - res * ow * nthq icw t - res * iw * nthq ocw t - delta).
    assert (Edl : dlf == qn (delta_local res ow iw deltam ocwm icwm (t_cw a) t)).
    { unfold dlf, delta_local. rewrite qn_eq.
      rewrite (proj2 Hq t), (proj2 Qi t), (proj2 Qo t), Hdl. reflexivity. }
    assert (Hq' : qeql (upd cwf t 0) (t_cw (tgt_step res ow iw deltam ocwm icwm a t))).
    { rewrite tgt_step_cw. apply qeql_upd; [exact Hq|reflexivity]. }
    assert (Hcw' : length (upd cwf t 0) = n) by (rewrite upd_length; exact Hcw).
    destruct (tgt_step_best res ow iw deltam ocwm icwm a t) as [[Hm [Eb El]]|[Hm [Eb El]]];
      destruct (Qlt_le_dec dbest dlf) as [Hlt|Hle]; try (exfalso; lra).
    + apply IH; [exact Hls|exact Hcw'|exact Hq'|rewrite Eb; exact Edl|symmetry; exact El].
    + apply IH; [exact Hls|exact Hcw'|exact Hq'|rewrite Eb; exact Hb|rewrite El; exact Hlb].
Qed.

Lemma Forall_upd {A} (P : A -> Prop) (l : list A) i x : Forall P l -> P x -> Forall P (upd l i x).
Proof. rewrite <- set_nth_upd. apply Forall_set_nth. Qed.

Section FlatSim.
  Context (n : nat) (indptr indices : list nat) (data ows iws sls : list Q) (res : Q).
  Context (Hcsr : csr_wf n indptr indices data).
  Context (How : length ows = n) (Hiw : length iws = n) (Hsl : length sls = n).
  Let g := csr_graph n indptr indices data.

  (** same labels, same arrays up to [==] *)
  Definition arel (sf : lstate) (sm : kstate) : Prop :=
    l_labels sf = k_labels sm /\ qeql (l_ocw sf) (k_out_cw sm) /\ qeql (l_icw sf) (k_in_cw sm) /\
    qeql (l_cw sf) (k_cw sm).

  Definition sim (sf : lstate) (sm : kstate) : Prop :=
    linv n sf /\ arel sf sm /\ l_inc sf == k_inc_pass sm.

  Lemma sim_stay sf sm i cwf cwm mg :
    sim sf sm -> length cwf = n -> qeql cwf cwm ->
    sim {| l_labels := k_labels sm; l_ocw := l_ocw sf; l_icw := l_icw sf;
           l_cw := upd cwf (nthn (k_labels sm) i) 0; l_inc := l_inc sf |} (node_stay sm i cwm mg).
  Proof.
    intros ((HL & HF & HO & HI & HC) & (EL & QO & QI & QC) & Einc) Lc Qc. rewrite EL in *.
    split; [|split; [|exact Einc]].
    - unfold linv; cbn [l_labels l_ocw l_icw l_cw]. rewrite upd_length. auto.
    - unfold arel, node_stay; cbn [l_labels l_ocw l_icw l_cw k_labels k_out_cw k_in_cw k_cw].
      split; [reflexivity|]. split; [exact QO|]. split; [exact QI|]. apply qeql_upd; [exact Qc|reflexivity].
  Qed.

  Lemma lv_gather_sim labels :
    length labels = n -> Forall (fun l => (l < n)%nat) labels ->
    forall js lset cwf cwm,
      (forall k, In k js -> (k < length indices)%nat) -> length cwf = n -> qeql cwf cwm ->
      let r := fold_left (nb_step labels) (map (fun j => (nth j indices 0%nat, nth j data 0)) js) (lset, cwm) in
      exists cwf', lv_gather js indices data labels lset cwf = KOk (fst r, cwf') /\ length cwf' = n /\ qeql cwf' (snd r).
  Proof.
    intros Hl HF. pose proof Hcsr as [(_ & _ & _ & _ & Hidx) Hd].
    induction js as [|j t IH]; intros lset cwf cwm Hjs Hcw Hq; cbv zeta; cbn [lv_gather map fold_left].
    - exists cwf. simpl. auto.
    - assert (Hj : (j < length indices)%nat) by (apply Hjs; left; reflexivity).
      rewrite (rdn_ok indices j Hj). cbn [kbind].
      assert (Hjj : (nthn indices j < n)%nat) by (apply Hidx; exact Hj).
      rewrite (rdn_ok labels (nthn indices j)) by lia. cbn [kbind].
      set (lt0 := nthn labels (nthn indices j)).
      assert (Hlt0 : (lt0 < n)%nat) by (apply (proj1 (Forall_nth _ labels) HF); lia).
      rq. rq. wq. rewrite vote_set_insert.
      change (nb_step labels (lset, cwm) (nth j indices 0%nat, nth j data 0))
        with (set_insert lt0 lset, upd cwm lt0 (qn (nthq cwm lt0 + nthq data j))).
      apply IH.
      + intros k Hk. apply Hjs. right. exact Hk.
      + rewrite upd_length. exact Hcw.
      + apply qeql_upd; [exact Hq|]. rewrite qn_eq. rewrite (proj2 Hq lt0). reflexivity.
  Qed.

  Lemma lv_node_sim i sf sm :
    (i < n)%nat -> sim sf sm ->
    exists sf', lv_node indptr indices data ows iws sls res i sf = KOk sf' /\
                sim sf' (node_step g ows iws sls res sm i).
  Proof.
    intros Hi Hsim. pose proof Hsim as ((HL & HF & HO & HI & HC) & (EL & QO & QI & QC) & Einc).
    pose proof (proj1 Hcsr) as Hpat. pose proof (proj1 Hpat) as Hipl.
    rewrite node_step_eq. unfold lv_node. rewrite EL in *.
    set (labels := k_labels sm) in *. set (label := nthn labels i).
    rn. rn. rn. fold label.
    assert (Hlab : (label < n)%nat) by (apply (proj1 (Forall_nth _ labels) HF); lia).
    change (nthn indptr i) with (ip indptr i). change (nthn indptr (S i)) with (ip indptr (S i)).
    set (js := seq (ip indptr i) (ip indptr (S i) - ip indptr i)).
    assert (Hjs : forall k, In k js -> (k < length indices)%nat) by (apply (row_range_lt n); auto).
    destruct (lv_gather_sim labels HL HF js [] (l_cw sf) (k_cw sm) Hjs HC QC)
      as (cwf1 & Eg & Lc1 & Qc1).
    destruct (lv_gather_ok n indptr indices data labels Hcsr HL HF js [] (l_cw sf) Hjs (Forall_nil _) HC)
      as (lset0 & cw0 & Eg0 & Hls0 & _).
    assert (Enb : fold_left (nb_step labels) (map (fun j => (nth j indices 0%nat, nth j data 0)) js) ([], k_cw sm)
                  = nb_of g sm i).
    { unfold nb_of, neighbours, g. rewrite (csr_graph_row n indptr indices data i Hi). reflexivity. }
    rewrite Enb in Eg, Qc1. rewrite Eg in Eg0. injection Eg0 as <- _.
    pose proof (Forall_remove n label _ Hls0) as Hls.
    rewrite Eg. cbn [kbind fst snd]. rewrite remove_set_erase in *.
    change (set_erase label (fst (nb_of g sm i))) with (targets_of g sm i) in *.
    set (ow := nthq ows i). set (iw := nthq iws i).
    set (deltaf := 2 * (nthq cwf1 label - nthq sls i) - res * ow * (nthq (l_icw sf) label - iw)
                   - res * iw * (nthq (l_ocw sf) label - ow)).
    set (ts := ts_of g ows iws sls res sm i).
    assert (Es2 : exists db cwf2,
              lv_select (targets_of g sm i) res ow iw deltaf (l_icw sf) (l_ocw sf) cwf1 0 label
              = KOk (db, t_label ts, cwf2) /\ db == t_best ts /\ length cwf2 = n /\ qeql cwf2 (t_cw ts)).
    { refine (lv_select_sim n res ow iw deltaf _ (l_icw sf) (l_ocw sf) (k_in_cw sm) (k_out_cw sm)
                _ QI QO HI HO (targets_of g sm i) cwf1 0 label
                {| t_cw := snd (nb_of g sm i); t_best := 0; t_label := label; t_margin := k_margin sm |}
                Hls Lc1 Qc1 (Qeq_refl 0) eq_refl).
      unfold deltaf, delta_leave. rewrite qn_eq.
      rewrite (proj2 Qc1 label), (proj2 QI label), (proj2 QO label). reflexivity. }
    destruct Es2 as (db & cwf2 & Es2 & Edb & Lc2 & Qc2).
    destruct (lv_select_ok n res ow iw deltaf (l_icw sf) (l_ocw sf) HI HO (targets_of g sm i) cwf1 0 label
                Hls Lc1 Hlab) as (db' & lb' & cw2' & Es3 & Hlb' & _).
    rewrite Es2 in Es3. injection Es3 as _ <- _.
    destruct (targets_of g sm i) as [|t0 s'] eqn:Es.
    - (* no neighbouring cluster *)
      cbn [kbind l_labels l_ocw l_icw l_cw l_inc]. wq.
      eexists. split; [reflexivity|]. exact (sim_stay sf sm i cwf1 _ _ Hsim Lc1 Qc1).
    - do 6 rq. fold ow iw deltaf. rewrite Es2. cbn [kbind fst snd].
      destruct (Nat.eqb_spec (t_label ts) label) as [Eb|Eb]; cbn [negb].
      + (* stays *)
        cbn [kbind l_labels l_ocw l_icw l_cw l_inc]. wq.
        eexists. split; [reflexivity|]. exact (sim_stay sf sm i cwf2 _ _ Hsim Lc2 Qc2).
      + (* moves to t_label ts *)
        set (best := t_label ts) in *.
        assert (Q1o : qeql (upd (l_ocw sf) label (nthq (l_ocw sf) label - ow))
                           (upd (k_out_cw sm) label (qn (nthq (k_out_cw sm) label - ow)))).
        { apply qeql_upd; [exact QO|]. rewrite qn_eq, (proj2 QO label). reflexivity. }
        assert (Q1i : qeql (upd (l_icw sf) label (nthq (l_icw sf) label - iw))
                           (upd (k_in_cw sm) label (qn (nthq (k_in_cw sm) label - iw)))).
        { apply qeql_upd; [exact QI|]. rewrite qn_eq, (proj2 QI label). reflexivity. }
        repeat first [rq | wq]. cbn [kbind l_labels l_ocw l_icw l_cw l_inc]. wq.
        eexists. split; [reflexivity|]. split; [|split].
        * unfold linv; cbn [l_labels l_ocw l_icw l_cw]. rewrite !upd_length.
          repeat split; auto. apply Forall_upd; auto.
        * unfold arel, node_move; cbn [l_labels l_ocw l_icw l_cw k_labels k_out_cw k_in_cw k_cw].
          fold labels label ow iw ts best.
          split; [reflexivity|]. split; [|split].
          -- apply qeql_upd; [exact Q1o|]. rewrite qn_eq, (proj2 Q1o best). reflexivity.
          -- apply qeql_upd; [exact Q1i|]. rewrite qn_eq, (proj2 Q1i best). reflexivity.
          -- apply qeql_upd; [exact Qc2|reflexivity].
        * unfold node_move. cbn [l_inc k_inc_pass]. fold ts. rewrite qn_eq, Edb, Einc. reflexivity.
  Qed.

  Lemma lv_pass_sim : forall nodes sf sm,
    (forall i, In i nodes -> (i < n)%nat) -> sim sf sm ->
    exists sf', lv_pass nodes indptr indices data ows iws sls res sf = KOk sf' /\
                sim sf' (fold_left (node_step g ows iws sls res) nodes sm).
  Proof.
    induction nodes as [|i t IH]; intros sf sm Hn Hsim; cbn [lv_pass fold_left].
    - exists sf. auto.
    - destruct (lv_node_sim i sf sm (Hn i (or_introl eq_refl)) Hsim) as (sf1 & E1 & S1).
      rewrite E1. cbn [kbind]. apply IH; auto. intros i' Hi'. apply Hn. right. exact Hi'.
  Qed.

  (** Whenever the pass loop of Model/Louvain.v returns within [fuel] passes, so does the flat loop,
      with the same labels and the same total increase. *)
  Lemma lv_loop_sim tol : forall fuel sf sm incf incm passes st' inc',
    linv n sf -> arel sf sm -> incf == incm ->
    opt_loop fuel g ows iws sls res tol sm incm = Some (st', inc') ->
    exists incf' passes',
      lv_loop fuel n indptr indices data ows iws sls res tol sf incf passes = KOk (k_labels st', incf', passes') /\
      incf' == inc'.
  Proof.
    induction fuel as [|f IH]; intros sf sm incf incm passes st' inc' Hinv Hrel Hinc H;
      cbn [opt_loop lv_loop] in *; [discriminate|].
    pose proof Hinv as (HL & _). pose proof Hrel as (EL & QO & QI & QC).
    set (sf0 := {| l_labels := l_labels sf; l_ocw := l_ocw sf; l_icw := l_icw sf; l_cw := l_cw sf;
                   l_inc := 0 |}).
    unfold one_pass in H. rewrite <- EL, HL in H.
    set (sm0 := {| k_labels := l_labels sf; k_out_cw := k_out_cw sm; k_in_cw := k_in_cw sm;
                   k_cw := k_cw sm; k_inc_pass := 0; k_margin := k_margin sm |}) in H.
    destruct (lv_pass_sim (seq 0 n) sf0 sm0) as (sf1 & E1 & I1 & R1 & C1).
    { intros i Hi. apply in_seq in Hi. lia. }
    { split; [exact Hinv|]. split; [|reflexivity].
      unfold arel; cbn [sf0 sm0 l_labels l_ocw l_icw l_cw k_labels k_out_cw k_in_cw k_cw]. auto. }
    rewrite E1. cbn [kbind].
    set (st1 := fold_left (node_step g ows iws sls res) (seq 0 n) sm0) in *.
    destruct (Qlt_le_dec tol (l_inc sf1)) as [Hlt|Hle].
    - assert (E : Qle_bool (k_inc_pass st1) tol = false) by (apply Qle_bool_false; lra).
      rewrite E in H.
      refine (IH sf1 _ _ _ _ _ _ I1 _ _ H).
      + destruct R1 as (R1a & R1b & R1c & R1d). unfold arel; cbn [k_labels k_out_cw k_in_cw k_cw]. auto.
      + rewrite qn_eq, Hinc, C1. reflexivity.
    - assert (E : Qle_bool (k_inc_pass st1) tol = true) by (apply Qle_bool_iff; lra).
      rewrite E in H.
      match type of H with Some (?sx, ?qx) = _ =>
        assert (Es : st' = sx) by congruence; assert (Eq : inc' = qx) by congruence end.
      subst st' inc'. cbn [k_labels].
      exists (incf + l_inc sf1), (S passes). split.
      + rewrite (proj1 R1). reflexivity.
      + rewrite qn_eq, Hinc, C1. reflexivity.
  Qed.
End FlatSim.

(** The flat kernel returns whatever the model returns. Contract of the caller (Louvain._optimize /
    Leiden._optimize): labels < n; out/in_cluster_weights are the sums of the node weights per label;
    cluster_weights is zero-filled; all arrays have n entries. *)
Lemma optimize_core_flat_refines fuel n labels indices indptr
      (data ows iws ocw icw cw sls : list Q) res tol st' inc' :
  csr_wf n indptr indices data ->
  length labels = n -> Forall (fun l => (l < n)%nat) labels ->
  length ows = n -> length iws = n -> length ocw = n -> length icw = n -> length cw = n ->
  length sls = n ->
  opt_loop fuel (csr_graph n indptr indices data) ows iws sls res tol
           {| k_labels := labels; k_out_cw := ocw; k_in_cw := icw; k_cw := cw; k_inc_pass := 0;
              k_margin := marg0 |} 0 = Some (st', inc') ->
  exists incf passes,
    optimize_core fuel labels indices indptr data ows iws ocw icw cw sls res tol
    = KOk (k_labels st', incf, passes) /\ incf == inc'.
Proof.
  intros Hcsr HL HF How Hiw Hocw Hicw Hcw Hsl H. unfold optimize_core. rewrite HL.
  refine (lv_loop_sim n indptr indices data ows iws sls res Hcsr How Hiw Hsl tol fuel _ _ 0 0 0%nat st' inc'
            _ _ (Qeq_refl 0) H).
  - unfold linv; cbn [l_labels l_ocw l_icw l_cw]. auto.
  - unfold arel; cbn [l_labels l_ocw l_icw l_cw k_labels k_out_cw k_in_cw k_cw].
    auto using qeql_refl.
Qed.

(** For tol > 0 and any upper bound B of the objective, ceil((B - objective(labels)) / tol) + 1 passes
    suffice: the flat kernel does not run out of fuel. The graph must be symmetric (Louvain hands the
    kernel A + A^T) and self_loops its diagonal. *)
Theorem optimize_core_flat_terminates_ok fuel n labels indices indptr
        (data ows iws ocw icw cw sls : list Q) res tol B :
  csr_wf n indptr indices data ->
  let g := csr_graph n indptr indices data in
  wsymmetric g ->
  (forall i, (i < n)%nat -> nthq sls i == entry g i i) ->
  length labels = n -> Forall (fun l => (l < n)%nat) labels ->
  length ows = n -> length iws = n -> length ocw = n -> length icw = n -> length cw = n ->
  length sls = n ->
  (forall c, (c < n)%nat -> nthq ocw c == csum g labels ows c) ->
  (forall c, (c < n)%nat -> nthq icw c == csum g labels iws c) ->
  (forall c, (c < n)%nat -> nthq cw c == 0) ->
  0 < tol -> (forall l, objective g ows iws res l <= B) ->
  (pass_fuel B (objective g ows iws res labels) tol <= fuel)%nat ->
  exists labels' increase passes,
    optimize_core fuel labels indices indptr data ows iws ocw icw cw sls res tol
    = KOk (labels', increase, passes).
Proof.
  intros Hcsr g Hsym Hdiag HL HF How Hiw Hocw Hicw Hcw Hsl Co Ci Cz Htol HB Hf.
  assert (Hg : length g = n) by apply csr_graph_length.
  assert (Hwf : wf_wgraph g) by (apply csr_graph_wf; exact (proj1 Hcsr)).
  set (sm0 := {| k_labels := labels; k_out_cw := ocw; k_in_cw := icw; k_cw := cw; k_inc_pass := 0;
                 k_margin := marg0 |}).
  assert (K0 : kinv g ows iws n sm0).
  { constructor; cbn [sm0 k_labels k_out_cw k_in_cw k_cw]; auto.
    - congruence.
    - intros x Hx. apply (proj1 (Forall_nth _ labels) HF). lia. }
  destruct (opt_loop_terminates g ows iws sls res n Hwf Hsym) with (tol := tol) (B := B) (fuel := fuel)
    (st := sm0) (inc := 0) as (st' & inc' & E); auto.
  { intros i Hi. apply Hdiag. lia. }
  { cbn [sm0 k_labels]. apply pass_fuel_gap; assumption. }
  destruct (optimize_core_flat_refines fuel n labels indices indptr data ows iws ocw icw cw sls res tol
              st' inc' Hcsr HL HF How Hiw Hocw Hicw Hcw Hsl E) as (incf & passes & Ef & _).
  exists (k_labels st'), incf, passes. exact Ef.
Qed.

(** Louvain._optimize's call: labels = arange(n), cluster weights = copies of the node weights,
    cluster_weights = zeros(n); fuel computed from the inputs. *)
Theorem optimize_core_flat_louvain_terminates_ok fuel n indices indptr (data ows iws sls : list Q) res tol :
  csr_wf n indptr indices data ->
  let g := csr_graph n indptr indices data in
  wsymmetric g ->
  (forall i, (i < n)%nat -> nthq sls i == entry g i i) ->
  length ows = n -> length iws = n -> length sls = n ->
  0 < tol ->
  (pass_fuel (objective_bound g ows iws res) (objective g ows iws res (seq 0 n)) tol <= fuel)%nat ->
  optimize_core fuel (seq 0 n) indices indptr data ows iws ows iws (repeat 0 n) sls res tol <> OutOfFuel.
Proof.
  intros Hcsr g Hsym Hdiag How Hiw Hsl Htol Hf.
  assert (Hg : length g = n) by apply csr_graph_length.
  destruct (optimize_core_flat_terminates_ok fuel n (seq 0 n) indices indptr data ows iws ows iws
              (repeat 0 n) sls res tol (objective_bound g ows iws res) Hcsr Hsym Hdiag)
    as (l' & inc & ps & E); auto.
  - apply seq_length.
  - apply Forall_forall. intros x Hx. apply in_seq in Hx. lia.
  - apply repeat_length.
  - intros c Hc. pose proof (csum_singletons g ows c) as Hs. rewrite Hg in Hs. apply Hs. exact Hc.
  - intros c Hc. pose proof (csum_singletons g iws c) as Hs. rewrite Hg in Hs. apply Hs. exact Hc.
  - intros c Hc. rewrite nthq_repeat by exact Hc. reflexivity.
  - intros l. apply objective_abs_bounded.
  - rewrite E. discriminate.
Qed.
