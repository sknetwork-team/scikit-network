(** Proofs about the model of from_graphml (Model/Graphml.v): how an accepted document is read (nodes, edges,
    their data), and the adjacency entries and directedness of the result in terms of the document itself
    ([graphml_entry], [graphml_direction]).  The statements on names, weights, attributes and the no-graph case
    are proved over these in Props/C18.v. *)
From Coq Require Import String Ascii.
From Coq Require Import Lia QArith.
From SKN Require Import Base.Util Model.Graphml Proofs.GraphmlKeysProofs Proofs.GraphmlScanProofs.
Set Warnings "-notation-overridden".
Local Open Scope string_scope.
Local Open Scope list_scope.
Local Open Scope nat_scope.
Local Infix "==s" := String.eqb (at level 70).
Local Notation "x <- r ;; k" := (bind r (fun x => k)) (at level 61, r at next level, right associativity).

Definition node_fn (dl : dialect) (naming : bool) (keys : list (string * (string * ptype)))
           (cols : option (list (string * acol))) (mss : nat) (node : xml) : result (string * list assign) :=
  name <- (if naming then get_attr "id" node else Ok "") ;;
  ups <- node_data dl keys cols mss (x_children node) ;;
  Ok (name, ups).

Definition edge_fn (dl : dialect) (naming : bool) (ids : list string) (n : nat) (sym : bool)
           (keys : list (string * (string * ptype))) (wid : option string) (wty : ptype)
           (cols : option (list (string * acol))) (mss : nat) (e : xml) : result (list slot) :=
  n1 <- endpoint naming ids n "source" e ;;
  n2 <- endpoint naming ids n "target" e ;;
  ups <- edge_data dl keys wid wty cols mss (x_children e) ;;
  Ok ((n1, n2, ups) :: (if edge_mirrored sym e then [(n2, n1, ups)] else [])).

Lemma process_node_fn dl g naming keys cols mss index :
  process_node dl g naming keys cols mss index = bind (graph_item g index) (node_fn dl naming keys cols mss).
Proof. reflexivity. Qed.

Lemma process_edge_fn dl g naming ids n sym keys wid wty cols mss index :
  process_edge dl g naming ids n sym keys wid wty cols mss index
  = bind (graph_item g index) (edge_fn dl naming ids n sym keys wid wty cols mss).
Proof. reflexivity. Qed.

Lemma attr_assign_ok dl keys cols mss kid text a :
  attr_assign dl keys cols mss kid text = Ok a ->
  exists nm ty v, alookup kid keys = Some (nm, ty) /\ cast dl ty text = Ok v /\ a = AAttr nm (store mss v).
Proof.
  unfold attr_assign. destruct (alookup kid keys) as [[nm ty]|] eqn:K; [|discriminate].
  intros H. apply bind_ok in H as [v [Hc H]].
  destruct cols as [al|]; [|discriminate].
  destruct (alookup nm al) as [[ty' f]|]; [|discriminate].
  destruct (ptype_eqb ty' ty); [|discriminate].
  injection H as <-. exists nm, ty, v. auto.
Qed.

Definition attr_step (name : string) (acc : value) (a : assign) : value :=
  match a with AAttr n v => if n ==s name then v else acc | AWeight _ => acc end.

Lemma last_attr_cons name a ups fill : last_attr name (a :: ups) fill = last_attr name ups (attr_step name fill a).
Proof. reflexivity. Qed.

Definition is_weight_ref (wid : option string) (kid : string) : bool :=
  match wid with Some w => kid ==s w | None => false end.

Lemma edge_data_value dl keys wid wty cols mss name : forall cs ups fill,
  edge_data dl keys wid wty cols mss cs = Ok ups ->
  last_attr name ups fill = data_value dl keys wid mss name fill cs.
Proof.
  induction cs as [|c t IH]; intros ups fill H; simpl in H.
  - injection H as <-. reflexivity.
  - unfold data_value. simpl. fold (data_value dl keys wid mss name).
    destruct (is_tag "data" c) eqn:D.
    + apply bind_ok in H as [kid [Hk H]]. apply bind_ok in H as [a [Ha H]]. apply bind_ok in H as [rest [Hr H]].
      injection H as <-. apply get_attr_ok in Hk as [Hk _]. rewrite Hk.
      destruct (match wid with Some w => kid ==s w | None => false end) eqn:W.
      * apply bind_ok in Ha as [v [Hc Ha]]. injection Ha as <-.
        rewrite last_attr_cons. simpl. rewrite (IH _ _ Hr). unfold data_value. reflexivity.
      * apply attr_assign_ok in Ha as [nm [ty [v [K [Hc ->]]]]]. rewrite K.
        rewrite last_attr_cons. simpl. unfold cast_or. rewrite Hc.
        rewrite (IH _ _ Hr). unfold data_value. reflexivity.
    + rewrite (IH _ _ H). unfold data_value. reflexivity.
Qed.

(** A node is read like an edge of a document without weight key. *)
Lemma node_data_edge_data dl keys wty cols mss cs :
  node_data dl keys cols mss cs = edge_data dl keys None wty cols mss cs.
Proof. induction cs as [|c t IH]; simpl; [reflexivity|]. rewrite IH. reflexivity. Qed.

Lemma node_data_value dl keys cols mss name cs ups fill :
  node_data dl keys cols mss cs = Ok ups ->
  last_attr name ups fill = data_value dl keys None mss name fill cs.
Proof. rewrite (node_data_edge_data _ _ PBool). apply edge_data_value. Qed.

Definition weight_ref (wid : option string) (c : xml) : bool :=
  is_tag "data" c && match attr "key" c, wid with Some kid, Some w => kid ==s w | _, _ => false end.

Lemma last_weight_cons a ups fill :
  last_weight (a :: ups) fill = last_weight ups (match a with AWeight v => v | AAttr _ _ => fill end).
Proof. reflexivity. Qed.

Lemma edge_data_weight dl keys wid wty cols mss : forall cs ups fill junk,
  edge_data dl keys wid wty cols mss cs = Ok ups ->
  last_weight ups fill = match rev (filter (weight_ref wid) cs) with
                         | c :: _ => cast_or dl wty (x_text c) junk
                         | [] => fill
                         end.
Proof.
  induction cs as [|c t IH]; intros ups fill junk H; simpl in H.
  - injection H as <-. reflexivity.
  - simpl. unfold weight_ref at 1. destruct (is_tag "data" c) eqn:D; simpl.
    + apply bind_ok in H as [kid [Hk H]]. apply bind_ok in H as [a [Ha H]]. apply bind_ok in H as [rest [Hr H]].
      injection H as <-. apply get_attr_ok in Hk as [Hk _]. rewrite Hk.
      destruct wid as [w|]; [destruct (kid ==s w) eqn:W|].
      (* not the weight key, or no weight key at all: an attribute, the weight is untouched *)
      2, 3: apply attr_assign_ok in Ha as [nm [ty [v [K [Hc ->]]]]]; rewrite last_weight_cons; apply IH; exact Hr.
      apply bind_ok in Ha as [v [Hc Ha]]. injection Ha as <-.
      rewrite last_weight_cons. rewrite (IH _ v junk Hr). simpl.
      destruct (rev (filter (weight_ref (Some w)) t)) as [|c' r]; simpl; [|reflexivity].
      unfold cast_or. rewrite Hc. reflexivity.
    + apply IH. exact H.
Qed.

Lemma endpoint_index g which e k :
  endpoint (doc_naming g) (doc_ids g) (length (doc_nodes g)) which e = Ok k ->
  doc_index g which e = Some k.
Proof.
  unfold endpoint, doc_index. intros H. apply bind_ok in H as [s [Hs H]].
  apply get_attr_ok in Hs as [Hs _]. rewrite Hs.
  destruct (doc_naming g).
  - destruct (index_last (doc_ids g) s 0) as [r|]; [|discriminate]. injection H as <-. reflexivity.
  - rewrite H. reflexivity.
Qed.

Lemma substring_full : forall s n, String.length s <= n -> substring 0 n s = s.
Proof.
  induction s as [|a t IH]; intros n H; destruct n as [|n]; simpl in *; try reflexivity; try lia.
  rewrite IH by lia. reflexivity.
Qed.

Lemma map_substring_full n l : (forall x, In x l -> String.length x <= n) -> map (substring 0 n) l = l.
Proof.
  induction l as [|x t IH]; intros H; simpl; [reflexivity|].
  rewrite substring_full by (apply H; left; reflexivity). rewrite IH; [reflexivity|].
  intros y Hy. apply H. right. exact Hy.
Qed.

Lemma node_fn_ok dl naming keys cols mss nd r :
  node_fn dl naming keys cols mss nd = Ok r ->
  fst r = (if naming then attr_or_empty "id" nd else "") /\
  (naming = true -> attr "id" nd <> None) /\
  node_data dl keys cols mss (x_children nd) = Ok (snd r).
Proof.
  unfold node_fn. intros H. apply bind_ok in H as [name [Hn H]]. apply bind_ok in H as [ups [Hu H]].
  injection H as <-. simpl. split; [|split; [|exact Hu]].
  - destruct naming; [apply get_attr_ok in Hn as [_ Hn]; symmetry; exact Hn|injection Hn as <-; reflexivity].
  - intros ->. apply get_attr_ok in Hn as [Hn _]. rewrite Hn. discriminate.
Qed.

(** The node elements [nodes] of [g] were read into [nres]; the edge elements [edges] into the slot lists [eres]. *)
Definition nodes_read dl g keys cols mss (nodes : list xml) (nres : list (string * list assign)) : Prop :=
  Forall2 (fun nd r => node_fn dl (doc_naming g) keys cols mss nd = Ok r) nodes nres.
Definition edges_read dl g keys wid wty cols mss (edges : list xml) (eres : list (list slot)) : Prop :=
  Forall2 (fun e sl => edge_fn dl (doc_naming g) (doc_ids g) (length (doc_nodes g)) (doc_sym g)
                               keys wid wty cols mss e = Ok sl) edges eres.

Lemma nodes_ids dl g keys cols mss nres :
  nodes_read dl g keys cols mss (doc_nodes g) nres ->
  map fst nres = doc_ids g.
Proof.
  unfold doc_ids. generalize (doc_nodes g). intros l H. induction H as [|nd r l rs H1 H2 IH]; simpl; [reflexivity|].
  apply node_fn_ok in H1 as [H1 _]. rewrite H1, IH. reflexivity.
Qed.

Lemma edge_fn_ok dl g keys wid wty cols mss e sl :
  edge_fn dl (doc_naming g) (doc_ids g) (length (doc_nodes g)) (doc_sym g) keys wid wty cols mss e = Ok sl ->
  exists n1 n2 ups,
    doc_index g "source" e = Some n1 /\ doc_index g "target" e = Some n2 /\
    edge_data dl keys wid wty cols mss (x_children e) = Ok ups /\
    sl = (n1, n2, ups) :: (if edge_mirrored (doc_sym g) e then [(n2, n1, ups)] else []).
Proof.
  unfold edge_fn. intros H. apply bind_ok in H as [n1 [H1 H]]. apply bind_ok in H as [n2 [H2 H]].
  apply bind_ok in H as [ups [Hu H]]. injection H as <-.
  exists n1, n2, ups. repeat split; auto using endpoint_index.
Qed.

Lemma slots_length dl g keys wid wty cols mss : forall edges eres,
  edges_read dl g keys wid wty cols mss edges eres ->
  length (concat eres) = sumn (map (edge_slots (doc_sym g)) edges).
Proof.
  intros edges eres H. induction H as [|e sl l rs H1 H2 IH]; simpl; [reflexivity|].
  rewrite app_length, IH. apply edge_fn_ok in H1 as (n1 & n2 & ups & _ & _ & _ & ->).
  unfold edge_slots. destruct (edge_mirrored (doc_sym g) e); reflexivity.
Qed.

Definition slot_triple (wfill : value) (sl : slot) : nat * nat * value :=
  (fst (fst sl), snd (fst sl), last_weight (snd sl) wfill).

Lemma Forall2_In_l {A B} (R : A -> B -> Prop) l r x : Forall2 R l r -> In x l -> exists y, In y r /\ R x y.
Proof.
  intros H. induction H as [|a b l r H1 H2 IH]; intros Hin; [contradiction|].
  destruct Hin as [->|Hin]; [exists b; split; [left; reflexivity|exact H1]|].
  destruct (IH Hin) as [y [Hy Hr]]. exists y. split; [right; exact Hy|exact Hr].
Qed.

Lemma entry_lists dl k mss g wfill i j :
  convert (doc_wtype k) (k_dw k) = Ok wfill -> forall edges eres,
  edges_read dl g (k_keys k) (k_wid k) (k_wty k) (k_eattr k) mss edges eres ->
  map (fun t : nat * nat * value => qval (snd t)) (filter (at_pos i j) (map (slot_triple wfill) (concat eres)))
  = map qval (flat_map (listed_by dl k g i j) edges).
Proof.
  intros Hw edges eres H. induction H as [|e sl l rs H1 H2 IH]; [reflexivity|].
  simpl. rewrite map_app, filter_app, !map_app, IH. f_equal.
  apply edge_fn_ok in H1 as (n1 & n2 & ups & Hs & Ht & Hu & ->).
  assert (Hwt : last_weight ups wfill = doc_weight dl k e).
  { unfold doc_weight, weight_data. rewrite (edge_data_weight _ _ _ _ _ _ _ _ wfill (doc_wfill k) Hu).
    unfold weight_ref, doc_wfill. rewrite Hw. reflexivity. }
  unfold listed_by, ends_are. rewrite Hs, Ht, (andb_comm (n1 =? j)).
  destruct (edge_mirrored (doc_sym g) e); simpl; unfold at_pos; simpl;
    destruct ((n1 =? i) && (n2 =? j)), ((n2 =? i) && (n1 =? j)); simpl; rewrite ?Hwt; reflexivity.
Qed.

Lemma weight_data_none e : weight_data None e = [].
Proof.
  unfold weight_data. induction (x_children e) as [|c t IH]; simpl; [reflexivity|].
  destruct (is_tag "data" c); simpl; [|exact IH]. destruct (attr "key" c); simpl; exact IH.
Qed.

Lemma doc_sym_spec g : doc_sym g = true <-> attr "edgedefault" g = Some "undirected".
Proof.
  unfold doc_sym. destruct (attr "edgedefault" g) as [v|]; [|split; discriminate].
  rewrite String.eqb_eq. split; [intros ->; reflexivity|intros H; injection H as ->; reflexivity].
Qed.

Lemma sumq_app a b : (sumq (a ++ b) == sumq a + sumq b)%Q.
Proof.
  induction a as [|x t IH]; simpl; [ring|]. rewrite IH. ring.
Qed.

Lemma dsumq_swap ty {A} (F G : A -> list Q) l :
  (dsumq ty (flat_map (fun e => F e ++ G e) l) == dsumq ty (flat_map (fun e => G e ++ F e) l))%Q.
Proof.
  destruct ty; simpl;
    try (induction l as [|e t IH]; simpl; [reflexivity|]; rewrite !sumq_app, IH; ring).
  assert (E : existsb (fun q : Q => negb (Qeq_bool q 0)) (flat_map (fun e => F e ++ G e) l)
              = existsb (fun q : Q => negb (Qeq_bool q 0)) (flat_map (fun e => G e ++ F e) l)).
  { induction l as [|e t IH]; simpl; [reflexivity|]. rewrite !existsb_app, IH.
    rewrite (orb_comm (existsb _ (F e))). reflexivity. }
  rewrite E. reflexivity.
Qed.

Lemma node_columns_rows dl g keys cols mss name fill : forall nodes nres,
  nodes_read dl g keys cols mss nodes nres ->
  map (fun r : string * list assign => last_attr name (snd r) fill) nres
  = map (fun nd => data_value dl keys None mss name fill (x_children nd)) nodes.
Proof.
  intros nodes nres H. induction H as [|nd r l rs H1 H2 IH]; simpl; [reflexivity|].
  rewrite IH. f_equal. apply node_fn_ok in H1 as (_ & _ & H1). exact (node_data_value _ _ _ _ _ _ _ _ H1).
Qed.

Lemma edge_columns_rows dl g keys wid wty cols mss name fill : forall edges eres,
  edges_read dl g keys wid wty cols mss edges eres ->
  map (fun sl : slot => last_attr name (snd sl) fill) (concat eres)
  = map (fun e => data_value dl keys wid mss name fill (x_children e))
        (flat_map (fun e => e :: (if edge_mirrored (doc_sym g) e then [e] else [])) edges).
Proof.
  intros edges eres H. induction H as [|e sl l rs H1 H2 IH]; [reflexivity|].
  simpl. rewrite map_app, IH. apply edge_fn_ok in H1 as (n1 & n2 & ups & _ & _ & Hu & ->).
  pose proof (edge_data_value _ _ _ _ _ _ name _ _ fill Hu) as Hv.
  destruct (edge_mirrored (doc_sym g) e); simpl; rewrite Hv; reflexivity.
Qed.

Section Accepted.
  Context (dl : dialect) (wk : string) (mss : nat) (root g : xml) (b : bunch)
          (H : from_graphml_with dl wk mss root = Ok b) (Hg : doc_graphs root = [g]).
  Let k := doc_keys dl wk mss root.

Lemma from_graphml_inv :
  exists wfill nres eres,
    convert (doc_wtype k) (k_dw k) = Ok wfill /\
    nodes_read dl g (k_keys k) (k_nattr k) mss (doc_nodes g) nres /\
    edges_read dl g (k_keys k) (k_wid k) (k_wty k) (k_eattr k) mss (doc_edges g) eres /\
    b_n b = length (doc_nodes g) /\
    b_dtype b = doc_wtype k /\
    b_coo b = map (slot_triple wfill) (concat eres) /\
    b_names b = (if doc_naming g then Some (map (substring 0 names_width) (doc_ids g)) else None) /\
    b_node_attr b = option_map (map (fun c : string * acol =>
                       (fst c, (fst (snd c), map (fun r : string * list assign => last_attr (fst c) (snd r) (snd (snd c))) nres))))
                     (k_nattr k) /\
    b_edge_attr b = option_map (map (fun c : string * acol =>
                       (fst c, (fst (snd c), map (fun sl : slot => last_attr (fst c) (snd sl) (snd (snd c))) (concat eres)))))
                     (k_eattr k) /\
    b_meta b = meta_of k.
Proof.
  pose proof H as H0. unfold from_graphml_with in H0.
  apply bind_ok in H0 as [s [Hs H0]]. apply bind_ok in H0 as [k0 [Hk H0]].
  apply scan_keys_pure in Hk. subst k0. fold k in H0.
  destruct (scan_root_single _ _ _ Hs Hg) as (G & Sy & Na & Nn & Ne & Ni & Ei & _).
  rewrite G in H0. cbv zeta in H0.
  apply bind_ok in H0 as [wfill [Hw H0]]. apply bind_ok in H0 as [nres [Hn H0]]. apply bind_ok in H0 as [eres [He H0]].
  rewrite Na, Ni in Hn.
  rewrite (mapM_ext _ (fun i => bind (graph_item g i) (node_fn dl (doc_naming g) (k_keys k) (k_nattr k) mss))) in Hn
    by (intros x _; apply process_node_fn).
  rewrite mapM_indices in Hn. fold (doc_nodes g) in Hn. apply mapM_Forall2 in Hn.
  pose proof (nodes_ids _ _ _ _ _ _ Hn) as Hids.
  rewrite Na, Nn, Sy, Ei, Hids in He.
  rewrite (mapM_ext _ (fun i => bind (graph_item g i)
             (edge_fn dl (doc_naming g) (doc_ids g) (length (doc_nodes g)) (doc_sym g) (k_keys k) (k_wid k) (k_wty k) (k_eattr k) mss))) in He
    by (intros x _; apply process_edge_fn).
  rewrite mapM_indices in He. fold (doc_edges g) in He. apply mapM_Forall2 in He.
  pose proof (slots_length _ _ _ _ _ _ _ _ _ He) as Hlen.
  rewrite Ne, Nn, Na, Hids in H0. rewrite <- Hlen in H0.
  rewrite Nat.ltb_irrefl, Nat.sub_diag in H0. simpl repeat in H0.
  destruct (negb (forallb _ _)); [discriminate|].
  exists wfill, nres, eres.
  split; [exact Hw|]. split; [exact Hn|]. split; [exact He|].
  fold (doc_wtype k) in H0.
  destruct (doc_wtype k) eqn:DT; try discriminate; injection H0 as <-; simpl;
    (repeat split; try reflexivity;
     [ apply app_nil_r
     | destruct (k_eattr k); simpl; [|reflexivity]; f_equal; apply map_ext; intros c; rewrite app_nil_r; reflexivity ]).
Qed.

Theorem graphml_entry :
  b_dtype b = doc_wtype k /\
  forall i j, gm_entry b i j = spec_gm_entry dl k g i j.
Proof.
  destruct from_graphml_inv as (wfill & nres & eres & Hw & Hn & He & Bn & Bd & Bc & _).
  split; [exact Bd|]. intros i j. unfold gm_entry, spec_gm_entry. rewrite Bd, Bc. f_equal.
  eapply entry_lists; eassumption.
Qed.

Theorem graphml_direction :
  (doc_sym g = true <-> attr "edgedefault" g = Some "undirected") /\
  (forall e, edge_mirrored (doc_sym g) e
             = match attr "directed" e with Some v => negb (v ==s "true") | None => doc_sym g end) /\
  ((forall e, In e (doc_edges g) -> edge_mirrored (doc_sym g) e = false) ->
   forall i j, gm_entry b i j
               = dsumq (b_dtype b) (map qval (flat_map (fun e => if ends_are g e i j
                                                                  then [doc_weight dl k e] else [])
                                                        (doc_edges g)))) /\
  ((forall e, In e (doc_edges g) -> edge_mirrored (doc_sym g) e = true) ->
   forall i j, (gm_entry b i j == gm_entry b j i)%Q).
Proof.
  destruct graphml_entry as [Bd He].
  split; [apply doc_sym_spec|]. split; [reflexivity|]. split.
  - intros Hdir i j. rewrite He, Bd. unfold spec_gm_entry. f_equal. f_equal.
    induction (doc_edges g) as [|e t IH]; simpl; [reflexivity|].
    rewrite IH by (intros e' He'; apply Hdir; right; exact He').
    f_equal. unfold listed_by. rewrite (Hdir e) by (left; reflexivity). simpl. apply app_nil_r.
  - intros Hmir i j. rewrite !He. unfold spec_gm_entry.
    set (F := fun (a b : nat) (e : xml) => map qval (if ends_are g e a b then [doc_weight dl k e] else [])).
    assert (E : forall a c, map qval (flat_map (listed_by dl k g a c) (doc_edges g))
                            = flat_map (fun e => F a c e ++ F c a e) (doc_edges g)).
    { intros a c. induction (doc_edges g) as [|e t IH]; simpl; [reflexivity|].
      rewrite map_app, IH by (intros e' He'; apply Hmir; right; exact He'). f_equal.
      unfold listed_by, F. rewrite (Hmir e) by (left; reflexivity). simpl. rewrite map_app. reflexivity. }
    rewrite (E i j), (E j i). apply dsumq_swap.
Qed.

End Accepted.

Definition el0 (tag : string) (attrs : list (string * string)) : xml := Elem tag attrs None [].

(** A NODE attribute called "weight" with default 5, one unweighted edge a -> b. *)
Definition doc_node_weight_key : xml :=
  Elem "graphml" [] None
    [Elem "key" [("id", "d0"); ("for", "node"); ("attr.name", "weight"); ("attr.type", "double")] None
          [Elem "default" [] (Some "5") []];
     Elem "graph" [("edgedefault", "directed")] None
          [el0 "node" [("id", "a")]; el0 "node" [("id", "b")]; el0 "edge" [("source", "a"); ("target", "b")]]].

(** A boolean edge weight: a -> b is false, b -> a is true. *)
Definition doc_boolean_weight : xml :=
  Elem "graphml" [] None
    [el0 "key" [("id", "d0"); ("for", "edge"); ("attr.name", "weight"); ("attr.type", "boolean")];
     Elem "graph" [("edgedefault", "directed")] None
          [el0 "node" [("id", "a")]; el0 "node" [("id", "b")];
           Elem "edge" [("source", "a"); ("target", "b")] None [Elem "data" [("key", "d0")] (Some "false") []];
           Elem "edge" [("source", "b"); ("target", "a")] None [Elem "data" [("key", "d0")] (Some "true") []]]].

Definition ns (t : string) : string := ("{http://graphml.graphdrawing.org/xmlns}" ++ t)%string.

(** Undirected, int weights with default 2, names with XML-special characters, a duplicate edge, a
    reversed edge, a self-loop, one edge marked directed, a node and an edge attribute. *)
Definition doc_example : xml :=
  Elem (ns "graphml") [] None
    [Elem (ns "key") [("id", "d0"); ("for", "edge"); ("attr.name", "weight"); ("attr.type", "int")] None
          [Elem (ns "default") [] (Some "2") []];
     Elem (ns "key") [("id", "d1"); ("for", "node"); ("attr.name", "color"); ("attr.type", "string")] None
          [Elem (ns "default") [] (Some "yellow") []];
     Elem (ns "key") [("id", "d2"); ("for", "edge"); ("attr.name", "len"); ("attr.type", "double")] None [];
     Elem (ns "graph") [("id", "G"); ("edgedefault", "undirected")] None
          [Elem (ns "node") [("id", "a&b")] None [Elem (ns "data") [("key", "d1")] (Some "green") []];
           el0 (ns "node") [("id", "x<y")];
           el0 (ns "node") [("id", "c")];
           Elem (ns "edge") [("source", "a&b"); ("target", "x<y")] None [Elem (ns "data") [("key", "d0")] (Some "3") []];
           el0 (ns "edge") [("source", "a&b"); ("target", "x<y")];
           Elem (ns "edge") [("source", "x<y"); ("target", "a&b")] None
                [Elem (ns "data") [("key", "d0")] (Some "5") []; Elem (ns "data") [("key", "d2")] (Some "1.25") []];
           el0 (ns "edge") [("source", "c"); ("target", "c")];
           Elem (ns "edge") [("source", "c"); ("target", "a&b"); ("directed", "true")] None
                [Elem (ns "data") [("key", "d0")] (Some "7") []]]].

Example graphml_example :
  exists g b,
    from_graphml "weight" 512 doc_example = Ok b /\ doc_graphs doc_example = [g] /\
    doc_naming g = true /\ doc_ids g = ["a&b"; "x<y"; "c"] /\ NoDup (doc_ids g) /\
    b_n b = 3 /\ b_names b = Some ["a&b"; "x<y"; "c"] /\ b_dtype b = PInt /\
    map (fun i => map (fun j => gm_entry b i j) [0; 1; 2]) [0; 1; 2]
    = [[0 # 1; 10 # 1; 0 # 1]; [10 # 1; 0 # 1; 0 # 1]; [7 # 1; 0 # 1; 4 # 1]]%Q /\
    b_node_attr b = Some [("color", (PStr, [VStr "green"; VStr "yellow"; VStr "yellow"]))] /\
    option_map (map (fun c : string * (ptype * list value) => (fst c, length (snd (snd c))))) (b_edge_attr b) = Some [("len", 9)].
Proof.
  (* the graph element is named, not written out: its tags carry the namespace *)
  exists (hd doc_example (doc_graphs doc_example)). eexists.
  do 4 (apply conj; [vm_compute; reflexivity|]).
  split; [vm_compute; repeat constructor; simpl; intuition discriminate|].
  repeat (apply conj; [vm_compute; reflexivity|]). vm_compute; reflexivity.
Qed.
