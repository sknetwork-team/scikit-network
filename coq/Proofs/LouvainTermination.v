(** Termination of the exact-rational Louvain model (Model/Louvain.v) for tol_optimization > 0 (1-3 below),
    and of its pass loop for tol_optimization = 0 by counting objective values ([above]).

    1. The objective optimised by the kernel is bounded, for every labelling:
       |objective l| <= sum_ij |A_ij - resolution * out_i * in_j|   (no hypothesis),
       -resolution * (sum out)(sum in) <= objective l <= sum_ij A_ij (non-negative entries and node
       weights, resolution >= 0), hence -resolution <= objective l <= 1 after _pre_processing.
    2. Every pass of optimize_core that does not stop the [while] loop gains more than tol: with
       fuel > (B - objective(start)) / tol the pass loop returns.
    3. Every aggregation that does not stop the loop of Louvain.fit has a positive increase, hence
       merges at least two nodes: the number of nodes strictly decreases and fuel = number of nodes
       suffices (tol_aggregation >= 0). *)
From Coq Require Import Lqa Setoid Morphisms Sorted Qround Qabs.
From SKN Require Import Base.Util Model.Modularity Model.Louvain Proofs.ModularityProofs Proofs.LouvainProofs.

Local Open Scope Q_scope.

Definition abs_bound (n : nat) (F : nat -> nat -> Q) : Q := qsum2 n n (fun x y => Qabs (F x y)).

Lemma objF_bounds n F L : - abs_bound n F <= objF n F L /\ objF n F L <= abs_bound n F.
Proof.
  assert (Hp : forall v b, - Qabs v <= v * ind b /\ v * ind b <= Qabs v).
  { intros v b. pose proof (Qle_Qabs v). pose proof (Qle_Qabs (- v)) as H'. rewrite Qabs_opp in H'.
    destruct b; simpl; lra. }
  unfold abs_bound, objF. split.
  - setoid_replace (- qsum2 n n (fun x y => Qabs (F x y))) with (qsum2 n n (fun x y => (-1) * Qabs (F x y)))
      by (rewrite qsum2_scal; ring).
    apply qsum2_le. intros x y _ _. pose proof (proj1 (Hp (F x y) (Nat.eqb (L x) (L y)))). lra.
  - apply qsum2_le. intros x y _ _. apply Hp.
Qed.

(** The bound computable from the kernel's inputs: sum_ij |A_ij - resolution * out_i * in_j|. *)
Definition objective_bound (g : wgraph) (ows iws : list Q) (res : Q) : Q :=
  let n := length g in
  qsum n (fun i => qsum n (fun j => Qabs (entry g i j - res * nthq ows i * nthq iws j))).

Lemma objective_abs_bounded g ows iws res labels :
  - objective_bound g ows iws res <= objective g ows iws res labels /\
  objective g ows iws res labels <= objective_bound g ows iws res.
Proof. exact (objF_bounds (length g) (Fk g ows iws res) (lab labels)). Qed.

(** Non-negative adjacency entries and node weights, resolution >= 0. *)
Lemma objective_bounded_nonneg g ows iws res labels :
  let n := length g in
  (forall i j, (i < n)%nat -> (j < n)%nat -> 0 <= entry g i j) ->
  (forall i, (i < n)%nat -> 0 <= nthq ows i) -> (forall i, (i < n)%nat -> 0 <= nthq iws i) ->
  0 <= res ->
  - (res * (qsum n (nthq ows) * qsum n (nthq iws))) <= objective g ows iws res labels /\
  objective g ows iws res labels <= total_weight g.
Proof.
  intros n He Ho Hi Hres.
  assert (Hp : forall i j, (i < n)%nat -> (j < n)%nat ->
                 0 <= entry g i j /\ 0 <= res * nthq ows i * nthq iws j).
  { intros i j Hi' Hj'. split; [auto|]. repeat apply Qmult_le_0_compat; auto. }
  split.
  - setoid_replace (- (res * (qsum n (nthq ows) * qsum n (nthq iws))))
      with (qsum2 n n (fun i j => (- res) * (nthq ows i * nthq iws j))) by (rewrite qsum2_scal, qsum2_prod; ring).
    apply qsum2_le. intros i j Hi' Hj'. destruct (Hp i j Hi' Hj').
    unfold delta. destruct (Nat.eqb _ _); simpl; lra.
  - apply qsum2_le. intros i j Hi' Hj'. destruct (Hp i j Hi' Hj').
    unfold delta. destruct (Nat.eqb _ _); simpl; lra.
Qed.

Lemma qsum_nthq l : qsum (length l) (nthq l) == sumq l.
Proof.
  induction l as [|a l IH] using rev_ind; [reflexivity|].
  rewrite app_length, Nat.add_1_r. cbn [qsum]. rewrite sumq_app. simpl.
  unfold nthq at 2. rewrite app_nth2 by lia. rewrite Nat.sub_diag. simpl.
  rewrite <- IH. apply Qplus_comp; [|ring].
  apply qsum_ext. intros i Hi. unfold nthq. rewrite app_nth1 by exact Hi. reflexivity.
Qed.

Definition probs (n : nat) (ps : list Q) : Prop :=
  (forall i, 0 <= nthq ps i) /\ qsum n (nthq ps) == 1.

Lemma sumq_map_div ws s : sumq (map (fun x => Qred (x / s)) ws) == sumq ws / s.
Proof.
  induction ws as [|a t IH]; cbn [map sumq fold_right].
  - unfold Qdiv. ring.
  - fold (sumq (map (fun x => Qred (x / s)) t)). fold (sumq t).
    rewrite IH, Qred_correct. unfold Qdiv. ring.
Qed.

Lemma get_probs_of_probs ws ps : get_probs_of ws = MOk ps -> probs (length ws) ps.
Proof.
  intros H. destruct (get_probs_of_ok ws ps H) as [Hnn [Hpos Eps]].
  assert (Hlen : length ps = length ws) by (rewrite Eps; apply map_length).
  split.
  - intros i. destruct (Nat.lt_ge_cases i (length ws)) as [Hi|Hi].
    + rewrite Eps. rewrite nthq_map by exact Hi. rewrite Qred_correct.
      assert (H0 : 0 <= nthq ws i) by (apply Hnn; unfold nthq; apply nth_In; exact Hi).
      unfold Qdiv. apply Qmult_le_0_compat; [exact H0|]. apply Qinv_le_0_compat. lra.
    + unfold nthq. rewrite nth_overflow by lia. lra.
  - rewrite <- Hlen, qsum_nthq, Eps, sumq_map_div. field. lra.
Qed.

Lemma node_weights_probs kind g ow iw :
  node_weights kind g = MOk (ow, iw) -> probs (length g) ow /\ probs (length g) iw.
Proof.
  intros H. destruct (node_weights_inv kind g ow iw H) as [wo [wi [Eo [Ei [Lo Li]]]]].
  split; [rewrite <- Lo|rewrite <- Li]; apply get_probs_of_probs; assumption.
Qed.

Lemma total_weight_scale g s : total_weight (scale_graph g s) == total_weight g / s.
Proof.
  unfold total_weight, Qdiv. rewrite scale_length, <- qsum_scal_r. apply qsum_ext. intros i _.
  rewrite <- qsum_scal_r. apply qsum_ext. intros j _. apply scale_entry.
Qed.

(** For every modularity kind ('dugue', 'newman', 'potts'): if the working adjacency has non-negative
    entries and resolution >= 0, then -resolution <= objective <= 1 for EVERY labelling. *)
Lemma prep_objective_bounded kind m fb index p res labels :
  pre_processing kind m fb index = MOk p ->
  let g1 := working_graph kind m fb index in
  (forall i j, (i < length g1)%nat -> (j < length g1)%nat -> 0 <= entry g1 i j) ->
  0 <= res ->
  - res <= objective (p_adj p) (p_out p) (p_in p) res labels /\
  objective (p_adj p) (p_out p) (p_in p) res labels <= 1.
Proof.
  intros Hp g1 He Hres.
  destruct (pre_processing_inv kind m fb index p Hp) as [ow [iw [Hnw [Ho [Hi Ha]]]]]. fold g1 in Hnw, Ha.
  subst ow iw.
  destruct (node_weights_probs kind g1 _ _ Hnw) as [[Po So] [Pi Si]].
  pose proof (proj2 (prep_level kind m fb index p res Hp)) as Hlen. fold g1 in Hlen.
  set (t := data_sum (symmetrize g1)) in *.
  assert (Ht : t == total_weight (symmetrize g1)) by (apply data_sum_spec, symmetrize_wf).
  assert (Ht0 : 0 <= t).
  { unfold t. rewrite total_weight_symmetrize.
    assert (0 <= total_weight g1) by (apply qsum2_nonneg; intros i j Hi' Hj'; apply He; assumption). lra. }
  destruct (objective_bounded_nonneg (p_adj p) (p_out p) (p_in p) res labels) as [B1 B2].
  { rewrite Hlen. intros i j Hi' Hj'. rewrite Ha, scale_entry, (symmetrize_entry g1 i j Hi' Hj'). unfold Qdiv.
    apply Qmult_le_0_compat; [|apply Qinv_le_0_compat; exact Ht0].
    pose proof (He i j Hi' Hj'). pose proof (He j i Hj' Hi'). lra. }
  { intros i _. apply Po. }
  { intros i _. apply Pi. }
  { exact Hres. }
  rewrite Hlen, So, Si in B1.
  assert (Htw : total_weight (p_adj p) <= 1).
  { rewrite Ha, total_weight_scale, <- Ht. unfold Qdiv. destruct (Qeq_dec t 0) as [E0|E0].
    - rewrite E0, Qmult_0_l. lra.
    - rewrite Qmult_inv_r by exact E0. lra. }
  split; lra.
Qed.

(** Explicit fuel: ceil((B - objective(start)) / tol) + 1 passes. *)
Definition pass_fuel (B obj0 tol : Q) : nat := S (Z.to_nat (Qceiling ((B - obj0) / tol))).

Lemma pass_fuel_gap B obj0 tol fuel :
  0 < tol -> (pass_fuel B obj0 tol <= fuel)%nat -> B - obj0 < tol * inject_Z (Z.of_nat fuel).
Proof.
  intros Htol Hf. unfold pass_fuel in Hf. set (q := (B - obj0) / tol) in *.
  assert (E : B - obj0 == q * tol) by (unfold q; field; lra).
  pose proof (Qle_ceiling q) as Hc.
  assert (Hz : (Qceiling q + 1 <= Z.of_nat fuel)%Z) by lia.
  assert (Hq : inject_Z (Qceiling q) + 1 <= inject_Z (Z.of_nat fuel)).
  { change 1 with (inject_Z 1). rewrite <- inject_Z_plus. rewrite <- Zle_Qle. exact Hz. }
  rewrite E. rewrite (Qmult_comm tol). apply Qmult_lt_compat_r; [exact Htol|]. lra.
Qed.

(** tol_optimization = 0 in EXACT arithmetic.
    Every pass that does not stop the loop strictly increases the objective, which takes at most
    k^n values on the labellings of n nodes with labels < k: the loop returns within k^n + 1 passes.
    (This is a statement about the exact-rational model only: in the float32 kernel a "gain" can be
    rounding noise (DESIGN.md D32); the bound k^n + 1 shows that the loop is finite, it is not a fuel to run the model with.) *)

Fixpoint all_labelings (n k : nat) : list (list nat) :=
  match n with
  | O => [[]]
  | S m => flat_map (fun l => map (fun c => c :: l) (seq 0 k)) (all_labelings m k)
  end.

Lemma all_labelings_In k l : Forall (fun c => (c < k)%nat) l -> In l (all_labelings (length l) k).
Proof.
  induction l as [|c l IH]; intros H; simpl; [left; reflexivity|].
  apply Forall_cons_iff in H. destruct H as [Hc Hl].
  apply in_flat_map. exists l. split; [apply IH; exact Hl|].
  apply in_map_iff. exists c. split; [reflexivity|]. apply in_seq. lia.
Qed.

Lemma all_labelings_length n k : length (all_labelings n k) = (k ^ n)%nat.
Proof.
  induction n as [|n IH]; [reflexivity|]. cbn [all_labelings Nat.pow]. rewrite <- IH.
  generalize (all_labelings n k). intros L. induction L as [|l L IHL]; simpl; [lia|].
  rewrite app_length, map_length, seq_length, IHL. lia.
Qed.

Lemma filter_length_le {A} (p q : A -> bool) l :
  (forall v, p v = true -> q v = true) -> (length (filter p l) <= length (filter q l))%nat.
Proof.
  intros H. induction l as [|a l IH]; simpl; [lia|].
  destruct (p a) eqn:Ep; [rewrite (H a Ep); simpl; lia|]. destruct (q a); simpl; lia.
Qed.

Lemma filter_length_all {A} (p : A -> bool) l : (length (filter p l) <= length l)%nat.
Proof. induction l as [|a l IH]; simpl; [lia|]. destruct (p a); simpl; lia. Qed.

Lemma filter_length_lt {A} (p q : A -> bool) l y :
  (forall v, p v = true -> q v = true) -> In y l -> q y = true -> p y = false ->
  (length (filter p l) < length (filter q l))%nat.
Proof.
  intros H Hin Hq Hp. induction l as [|a l IH]; [destruct Hin|]. simpl.
  destruct Hin as [<-|Hin].
  - rewrite Hq, Hp. simpl. pose proof (filter_length_le p q l H). lia.
  - specialize (IH Hin). destruct (p a) eqn:Ep; [rewrite (H a Ep); simpl; lia|].
    destruct (q a); simpl; lia.
Qed.

Section PassLoop.
  Context (g : wgraph) (ows iws sls : list Q) (res : Q) (k : nat).
  Context (Hwf : wf_wgraph g) (Hsym : wsymmetric g).
  Context (Hsl : forall i, (i < length g)%nat -> nthq sls i == entry g i i).
  Context (tol : Q).

  (** One turn of the [while] loop: it returns, or goes on from labels whose objective is more than
      [tol] higher. *)
  Lemma opt_loop_unroll f st inc :
    kinv g ows iws k st ->
    (exists st' inc', opt_loop (S f) g ows iws sls res tol st inc = Some (st', inc')) \/
    exists st2 inc2,
      opt_loop (S f) g ows iws sls res tol st inc = opt_loop f g ows iws sls res tol st2 inc2 /\
      kinv g ows iws k st2 /\
      objective g ows iws res (k_labels st) + tol < objective g ows iws res (k_labels st2).
  Proof.
    intros Hinv. cbn [opt_loop].
    destruct (one_pass_ok g ows iws sls res k Hwf Hsym Hsl st Hinv) as [P1 [P2 _]]. unfold obj in P2.
    set (st1 := one_pass g ows iws sls res st) in *.
    destruct (Qle_bool (k_inc_pass st1) tol) eqn:E.
    - left. eexists. eexists. reflexivity.
    - right. eexists. eexists. split; [reflexivity|]. split.
      + apply (kinv_same g ows iws k st1); auto.
      + cbn [k_labels]. apply Qle_bool_false in E. lra.
  Qed.

  Lemma opt_loop_terminates B : (forall l, objective g ows iws res l <= B) ->
    forall fuel st inc,
    kinv g ows iws k st ->
    B - objective g ows iws res (k_labels st) < tol * inject_Z (Z.of_nat fuel) ->
    exists st' inc', opt_loop fuel g ows iws sls res tol st inc = Some (st', inc').
  Proof.
    intros HB. induction fuel as [|f IH]; intros st inc Hinv Hgap.
    - exfalso. pose proof (HB (k_labels st)) as H. change (inject_Z (Z.of_nat 0)) with 0 in Hgap. lra.
    - destruct (opt_loop_unroll f st inc Hinv) as [Hr|[st2 [inc2 [E [Hinv2 Hgain]]]]]; [exact Hr|].
      rewrite E. apply IH; [exact Hinv2|].
      rewrite Nat2Z.inj_succ, <- Z.add_1_r, inject_Z_plus in Hgap.
      change (inject_Z 1) with 1 in Hgap. lra.
  Qed.

  (** number of objective values strictly above x *)
  Definition above (x : Q) : nat :=
    length (filter (fun v => Qltb x v) (map (objective g ows iws res) (all_labelings (length g) k))).

  Lemma above_le x : (above x <= k ^ length g)%nat.
  Proof.
    unfold above. etransitivity; [apply filter_length_all|]. rewrite map_length, all_labelings_length. lia.
  Qed.

  Lemma above_decr_labels L x y :
    length L = length g -> Forall (fun c => (c < k)%nat) L -> objective g ows iws res L == y -> x < y ->
    (above y < above x)%nat.
  Proof.
    intros Hlen HL Ey Hlt. unfold above. apply (filter_length_lt _ _ _ (objective g ows iws res L)).
    - intros v Hv. apply Qltb_lt in Hv. apply Qltb_lt. lra.
    - apply in_map. rewrite <- Hlen. apply all_labelings_In. exact HL.
    - apply Qltb_lt. lra.
    - destruct (Qltb y (objective g ows iws res L)) eqn:E; [|reflexivity]. apply Qltb_lt in E. lra.
  Qed.

  Lemma above_decr st x :
    kinv g ows iws k st -> x < objective g ows iws res (k_labels st) ->
    (above (objective g ows iws res (k_labels st)) < above x)%nat.
  Proof.
    intros Hinv. apply (above_decr_labels (k_labels st)); [exact (ki_labels _ _ _ _ _ Hinv)| |reflexivity].
    apply Forall_forall. intros c Hc. apply (In_nth _ _ 0%nat) in Hc. destruct Hc as [i [Hi <-]].
    apply (ki_lt _ _ _ _ _ Hinv). rewrite <- (ki_labels _ _ _ _ _ Hinv). exact Hi.
  Qed.

  Lemma opt_loop_terminates_exact : 0 <= tol -> forall fuel st inc,
    kinv g ows iws k st ->
    (above (objective g ows iws res (k_labels st)) < fuel)%nat ->
    exists st' inc', opt_loop fuel g ows iws sls res tol st inc = Some (st', inc').
  Proof.
    intros Htol. induction fuel as [|f IH]; intros st inc Hinv Hf; [lia|].
    destruct (opt_loop_unroll f st inc Hinv) as [Hr|[st2 [inc2 [E [Hinv2 Hgain]]]]]; [exact Hr|].
    rewrite E. apply IH; [exact Hinv2|].
    assert (Hd : (above (objective g ows iws res (k_labels st2))
                  < above (objective g ows iws res (k_labels st)))%nat) by (apply above_decr; [exact Hinv2|lra]).
    lia.
  Qed.
End PassLoop.

Lemma optimize_terminates_gap fuel g ows iws res tol B labels ocw icw mg :
  wf_wgraph g -> wsymmetric g ->
  kinv g ows iws (length ocw) (opt_start labels ocw icw mg) ->
  (forall l, objective g ows iws res l <= B) ->
  B - objective g ows iws res labels < tol * inject_Z (Z.of_nat fuel) ->
  exists st inc, optimize fuel g ows iws res tol labels ocw icw mg = Some (st, inc).
Proof.
  intros Hwf Hsym H0 HB Hgap.
  exact (opt_loop_terminates g ows iws (diagonal g) res (length ocw) Hwf Hsym (diagonal_nth g)
           tol B HB fuel _ 0 H0 Hgap).
Qed.

(** optimize_core as called by Louvain._optimize / Leiden._optimize (any start labelling whose cluster
    weight arrays are consistent): with tol > 0, B any upper bound of the objective, and
    fuel >= ceil((B - objective(start)) / tol) + 1 passes, the [while] loop returns. *)
Lemma optimize_terminates fuel g ows iws res tol B labels ocw icw mg :
  wf_wgraph g -> wsymmetric g ->
  kinv g ows iws (length ocw) (opt_start labels ocw icw mg) ->
  0 < tol -> (forall l, objective g ows iws res l <= B) ->
  (pass_fuel B (objective g ows iws res labels) tol <= fuel)%nat ->
  exists st inc, optimize fuel g ows iws res tol labels ocw icw mg = Some (st, inc).
Proof.
  intros Hwf Hsym H0 Htol HB Hf.
  apply (optimize_terminates_gap fuel g ows iws res tol B); auto.
  apply pass_fuel_gap; assumption.
Qed.

(** optimize_core with tol >= 0 (in particular tol = 0) in exact arithmetic: k^n + 1 passes suffice,
    k = number of cluster slots, n = number of nodes. *)
Lemma optimize_terminates_exact fuel g ows iws res tol labels ocw icw mg :
  wf_wgraph g -> wsymmetric g ->
  kinv g ows iws (length ocw) (opt_start labels ocw icw mg) ->
  0 <= tol ->
  (S (length ocw ^ length g) <= fuel)%nat ->
  exists st inc, optimize fuel g ows iws res tol labels ocw icw mg = Some (st, inc).
Proof.
  intros Hwf Hsym H0 Htol Hf.
  apply (opt_loop_terminates_exact g ows iws (diagonal g) res (length ocw) Hwf Hsym (diagonal_nth g)
           tol Htol fuel _ 0 H0).
  pose proof (above_le g ows iws res (length ocw) (objective g ows iws res labels)).
  cbn [opt_start k_labels]. lia.
Qed.

(** If np.unique finds as many distinct labels as there are nodes, no two nodes share a label. *)
Lemma unique_inverse_full_objective g ows iws res l :
  length l = length g -> (length g <= n_labels (unique_inverse l))%nat ->
  objective g ows iws res (unique_inverse l) == objective g ows iws res (seq 0 (length g)).
Proof.
  intros Hl Hfull. set (u := unique_inverse l) in *.
  assert (Hlen : length u = length g) by (unfold u; rewrite unique_inverse_length; exact Hl).
  assert (Hnd : NoDup u).
  { assert (Hne : l = [] \/ l <> []) by (destruct l; [left; reflexivity|right; discriminate]).
    destruct Hne as [->|Hne]; [constructor|].
    apply (@NoDup_incl_NoDup nat (seq 0 (n_labels u)) u); [apply seq_NoDup|rewrite seq_length; lia|].
    intros C HC. apply in_seq in HC. apply unique_inverse_used; [exact Hne|fold u; lia]. }
  apply objective_pattern. intros x y Hx Hy. rewrite !lab_seq by assumption.
  destruct (Nat.eqb_spec x y) as [->|Hxy]; [apply Nat.eqb_refl|].
  apply Nat.eqb_neq. intros E. apply Hxy.
  apply (proj1 (NoDup_nth u 0%nat) Hnd); [lia|lia|exact E].
Qed.

Section LevelsTermination.
  Context (g0 : wgraph) (ows0 iws0 : list Q) (res : Q).
  Let n0 := length g0.
  Let obj0 := objective g0 ows0 iws0 res.
  Context (tol_opt tol_agg B : Q) (n_agg : Z) (kfuel : nat).
  Context (Hagg : 0 <= tol_agg) (HB : forall l, obj0 l <= B).
  Context (Hk : B - obj0 (seq 0 n0) < tol_opt * inject_Z (Z.of_nat kfuel)).

  Lemma louvain_loop_terminates : forall fuel g ows iws membership count log mg,
    level_inv g0 ows0 iws0 res g ows iws membership ->
    obj0 (seq 0 n0) <= obj0 membership ->
    (length g <= fuel)%nat -> (1 <= fuel)%nat ->
    exists r, louvain_loop fuel kfuel res tol_opt tol_agg n_agg g ows iws membership count log mg = MOk r.
  Proof.
    induction fuel as [|f IH]; intros g ows iws membership count log mg Hlv Hmono Hfuel H1; [lia|].
    cbn [louvain_loop].
    pose proof Hlv as [Hwf Hsym Ho Hi _ _ Hobj _].
    pose proof (kinv_singletons g ows iws mg Ho Hi) as K0.
    assert (Hsing : objective g ows iws res (seq 0 (length g)) == objective g0 ows0 iws0 res membership).
    { rewrite (Hobj (seq 0 (length g))), (level_mem_id _ _ _ _ _ _ _ _ Hlv). reflexivity. }
    destruct (optimize_terminates_gap kfuel g ows iws res tol_opt B (seq 0 (length g)) ows iws mg Hwf Hsym K0)
      as [st [inc Eopt]].
    { intros l. rewrite (Hobj l). apply HB. }
    { rewrite Hsing. fold obj0. lra. }
    rewrite Eopt.
    destruct (level_optimize g0 ows0 iws0 res _ _ _ _ _ _ _ _ _ _ _ _ Hlv K0 Eopt) as [Hlu [Kpos [Hinc Hcc]]].
    rewrite (level_mem_id _ _ _ _ _ _ _ _ Hlv) in Hinc. specialize (Hcc (cc_inv_singletons g)).
    change (fun c => nthn ?l c) with (nthn l).
    set (lu := unique_inverse (k_labels st)) in *.
    destruct (Nat.eqb (n_labels lu) 1 || Qle_bool inc tol_agg || Z.eqb (Z.of_nat (S count)) n_agg) eqn:Estop.
    - eexists. reflexivity.
    - apply orb_false_iff in Estop. destruct Estop as [Estop _].
      apply orb_false_iff in Estop. destruct Estop as [_ Hpos]. apply Qle_bool_false in Hpos.
      (* a positive increase means two nodes were merged *)
      assert (Hk1 : (n_labels lu < length g)%nat).
      { destruct (Nat.lt_ge_cases (n_labels lu) (length g)) as [H|H]; [exact H|]. exfalso.
        unfold lu in Hlu. rewrite unique_inverse_length in Hlu.
        pose proof (unique_inverse_full_objective g ows iws res _ Hlu H) as Efull. fold lu in Efull.
        rewrite <- (Hobj lu), <- Hsing, Efull in Hinc. lra. }
      apply IH.
      + exact (level_step g0 ows0 iws0 res g ows iws membership lu Hlv Hlu Hcc).
      + fold obj0 in Hinc. lra.
      + rewrite agg_length. lia.
      + unfold n_labels in Hk1. lia.
  Qed.
End LevelsTermination.

(** _pre_processing never runs out of fuel (it has no loop): its only error is ValueError. *)
Lemma get_probs_of_err ws e : get_probs_of ws = MErr e -> e = MValueError.
Proof.
  unfold get_probs_of. destruct (existsb _ ws || Qle_bool (sumq ws) 0); intros H; congruence.
Qed.

Lemma node_weights_err kind g e : node_weights kind g = MErr e -> e = MValueError.
Proof.
  unfold node_weights. intros H.
  destruct kind, (get_probs_of (make_weights_out _ g)) as [p|e1] eqn:E1;
    try destruct (get_probs_of (make_weights_in Degree g)) as [q|e2] eqn:E2;
    try discriminate; injection H as <-; eauto using get_probs_of_err.
Qed.

Lemma pre_processing_err kind m fb index e : pre_processing kind m fb index = MErr e -> e = MValueError.
Proof.
  unfold pre_processing.
  destruct (get_adjacency m (match kind with Dugue => true | _ => false end) fb) as [g0 bip].
  set (g1 := match index with Some ix => permute_graph g0 ix | None => g0 end).
  destruct (node_weights kind g1) as [[ow iw]|e'] eqn:E; intros H; [discriminate|].
  injection H as <-. exact (node_weights_err kind g1 e' E).
Qed.

Lemma fit_with_fuel loop kind sort m fb index :
  (forall p, pre_processing kind m fb index = MOk p -> exists r, loop p = MOk r) ->
  fit_with loop kind sort m fb index <> MErr MOutOfFuel.
Proof.
  intros Hloop. unfold fit_with. destruct (Nat.eqb (nnz (w_rows m)) 0); [discriminate|].
  destruct (pre_processing kind m fb index) as [p|e] eqn:Hp.
  - destruct (Hloop p eq_refl) as [r ->]. discriminate.
  - rewrite (pre_processing_err kind m fb index e Hp). discriminate.
Qed.

(** The loop of Louvain.fit on a pre-processed input: B any upper bound of the objective. *)
Lemma louvain_loop_fit_terminates fuel kfuel kind res tol_opt tol_agg n_agg m fb index p B :
  pre_processing kind m fb index = MOk p ->
  0 < tol_opt -> 0 <= tol_agg ->
  (forall l, objective (p_adj p) (p_out p) (p_in p) res l <= B) ->
  (pass_fuel B (objective (p_adj p) (p_out p) (p_in p) res (seq 0 (length (p_adj p)))) tol_opt <= kfuel)%nat ->
  (length (p_adj p) <= fuel)%nat ->
  exists r, louvain_run fuel kfuel res tol_opt tol_agg n_agg p = MOk r.
Proof.
  intros Hp Htol Hagg HB Hk Hf.
  pose proof (prep_nonempty kind m fb index p Hp) as Hpos.
  apply (louvain_loop_terminates (p_adj p) (p_out p) (p_in p) res tol_opt tol_agg B n_agg kfuel Hagg HB).
  - apply pass_fuel_gap; assumption.
  - exact (proj1 (prep_level kind m fb index p res Hp)).
  - apply Qle_refl.
  - exact Hf.
  - lia.
Qed.

(** Fuel computable from the input of fit. *)
Definition louvain_kfuel (kind : modkind) (res tol_opt : Q) (m : wmat) (fb : bool) (index : option (list nat)) : nat :=
  match pre_processing kind m fb index with
  | MOk p => pass_fuel (objective_bound (p_adj p) (p_out p) (p_in p) res)
                       (objective (p_adj p) (p_out p) (p_in p) res (seq 0 (length (p_adj p)))) tol_opt
  | MErr _ => 0%nat
  end.
Definition louvain_fuel (kind : modkind) (m : wmat) (fb : bool) (index : option (list nat)) : nat :=
  length (working_graph kind m fb index).

Lemma louvain_loop_fit_terminates_abs fuel kfuel kind res tol_opt tol_agg n_agg m fb index p :
  pre_processing kind m fb index = MOk p ->
  0 < tol_opt -> 0 <= tol_agg ->
  (louvain_kfuel kind res tol_opt m fb index <= kfuel)%nat ->
  (louvain_fuel kind m fb index <= fuel)%nat ->
  exists r, louvain_run fuel kfuel res tol_opt tol_agg n_agg p = MOk r.
Proof.
  intros Hp Htol Hagg Hk Hf. unfold louvain_kfuel in Hk. rewrite Hp in Hk.
  apply (louvain_loop_fit_terminates fuel kfuel kind res tol_opt tol_agg n_agg m fb index p
           (objective_bound (p_adj p) (p_out p) (p_in p) res)); auto.
  - intros l. apply objective_abs_bounded.
  - rewrite (proj2 (prep_level kind m fb index p res Hp)). exact Hf.
Qed.

Lemma louvain_fit_never_out_of_fuel fuel kfuel kind res tol_opt tol_agg n_agg sort m fb index :
  0 < tol_opt -> 0 <= tol_agg ->
  (louvain_kfuel kind res tol_opt m fb index <= kfuel)%nat ->
  (louvain_fuel kind m fb index <= fuel)%nat ->
  louvain_fit fuel kfuel kind res tol_opt tol_agg n_agg sort m fb index <> MErr MOutOfFuel.
Proof.
  intros Htol Hagg Hk Hf. rewrite louvain_fit_with. apply fit_with_fuel. intros p Hp.
  exact (louvain_loop_fit_terminates_abs fuel kfuel kind res tol_opt tol_agg n_agg m fb index p Hp Htol Hagg Hk Hf).
Qed.
