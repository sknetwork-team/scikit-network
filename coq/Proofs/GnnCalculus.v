(** Calculus over R (stdlib Reals + Coquelicot) for the closed-form gradients of activation.py and
    loss.py. The formulas are the carrier-generic definitions of Model/Gnn.v (section [Carrier])
    instantiated with R, [exp], [ln]. Only these theorems may depend on the classical axioms of the
    standard library's real numbers. *)
From SKN Require Import Base.Util Model.Gnn.
Set Warnings "-notation-overridden,-ambiguous-paths".
From Coq Require Import Reals Lra.
From Coquelicot Require Import Coquelicot.

Local Open Scope R_scope.

(** * Instance over R *)
Definition Rltb (a b : R) : bool := if Rlt_dec a b then true else false.

Definition r_sum : list R -> R := g_sum Rplus 0.
Definition r_relu : R -> R := g_relu 0 Rltb.
Definition r_relu_gradient : R -> R -> R := g_relu_gradient Rmult 0 1 Rltb.
Definition r_sigmoid : R -> R := g_sigmoid Rplus Rminus Rdiv 0 1 exp.
Definition r_sigmoid_gradient : R -> R -> R := g_sigmoid_gradient Rplus Rminus Rmult Rdiv 0 1 exp.
Definition r_softmax_row : list R -> list R := g_softmax_row Rplus Rdiv 0 exp.
Definition r_softmax_gradient : list R -> list R -> list R := g_softmax_gradient Rplus Rminus Rmult Rdiv 0 exp.
Definition r_clip : R -> R -> R -> R := g_clip Rltb.
Definition r_ce_loss_row : R -> list R -> nat -> R := g_ce_loss_row Rplus Rminus Rdiv 0 1 exp ln Rltb.
Definition r_ce_gradient : list R -> nat -> list R := g_ce_gradient Rplus Rminus Rdiv 0 1 exp.
Definition r_bce_loss_row : R -> list R -> nat -> R := g_bce_loss_row Rplus Rminus Rdiv 0 1 exp ln Rltb.
Definition r_bce_gradient : list R -> nat -> list R := g_bce_gradient Rplus Rminus Rdiv 0 1 exp INR.
Definition r_bce_gradient_legacy : list R -> nat -> list R := g_bce_gradient_legacy Rplus Rminus Rdiv 0 1 exp INR.
Definition r_mean_loss : (list R -> nat -> R) -> list (list R) -> list nat -> R := g_mean_loss Rplus Rdiv 0 INR.

(** [l] with its k-th element replaced by [v] (perturbation of one coordinate). *)
Fixpoint upd {X} (l : list X) (k : nat) (v : X) : list X :=
  match l, k with
  | [], _ => []
  | _ :: t, O => v :: t
  | a :: t, S k' => a :: upd t k' v
  end.

(** <out, direction> as the code writes it: [(output * direction).sum()]. *)
Definition r_dot (out dir : list R) : R := r_sum (map2 Rmult out dir).

(** * Lists with one coordinate replaced *)
Lemma upd_length {X} (l : list X) k v : length (upd l k v) = length l.
Proof. revert k; induction l as [|a t IH]; intros [|k]; cbn; auto. Qed.

Lemma nth_upd {X} (l : list X) k v j d :
  (k < length l)%nat -> nth j (upd l k v) d = if Nat.eqb j k then v else nth j l d.
Proof.
  revert k j; induction l as [|a t IH]; intros k j Hk; [cbn in Hk; lia|].
  destruct k as [|k]; destruct j as [|j]; cbn; try reflexivity.
  apply IH. cbn in Hk. lia.
Qed.

Lemma upd_same {X} (l : list X) k d : upd l k (nth k l d) = l.
Proof.
  revert k; induction l as [|a t IH]; intros [|k]; cbn; try reflexivity. rewrite IH. reflexivity.
Qed.

Lemma map_upd {X Y} (f : X -> Y) (l : list X) k v : map f (upd l k v) = upd (map f l) k (f v).
Proof. revert k; induction l as [|a t IH]; intros [|k]; cbn; try reflexivity. rewrite IH. reflexivity. Qed.

Lemma map2_upd_l {X Y Z} (f : X -> Y -> Z) (l1 : list X) (l2 : list Y) k v dy :
  (k < length l2)%nat -> map2 f (upd l1 k v) l2 = upd (map2 f l1 l2) k (f v (nth k l2 dy)).
Proof.
  revert l2 k; induction l1 as [|a t IH]; intros [|b t2] k Hk; cbn in *; try reflexivity; try lia.
  destruct k as [|k]; cbn; [reflexivity|]. rewrite (IH t2 k) by lia. reflexivity.
Qed.

Lemma r_sum_upd (l : list R) k v : (k < length l)%nat -> r_sum (upd l k v) = v + (r_sum l - nth k l 0).
Proof.
  unfold r_sum, g_sum. revert k; induction l as [|a t IH]; intros k Hk; [cbn in Hk; lia|].
  destruct k as [|k]; cbn [upd fold_right nth].
  - ring.
  - rewrite IH by (cbn in Hk; lia). ring.
Qed.

Lemma nth_map_R {X} (f : X -> R) (l : list X) k dx : (k < length l)%nat -> nth k (map f l) 0 = f (nth k l dx).
Proof.
  intros Hk. rewrite (nth_indep _ 0 (f dx)) by (rewrite map_length; exact Hk). apply map_nth.
Qed.

Lemma r_sum_div (l : list R) s : r_sum (map (fun a => a / s) l) = r_sum l / s.
Proof.
  unfold r_sum, g_sum. induction l as [|a t IH]; cbn [map fold_right]; [unfold Rdiv; ring|].
  rewrite IH. unfold Rdiv. ring.
Qed.

Lemma r_dot_div (l d : list R) s : r_dot (map (fun a => a / s) l) d = r_dot l d / s.
Proof.
  unfold r_dot, r_sum, g_sum. revert d; induction l as [|a t IH]; intros [|b d']; cbn [map map2 fold_right];
    try (unfold Rdiv; ring).
  rewrite IH. unfold Rdiv. ring.
Qed.

Lemma r_sum_exp_pos (l : list R) : l <> [] -> 0 < r_sum (map exp l).
Proof.
  unfold r_sum, g_sum. induction l as [|a t IH]; [congruence|]. intros _. cbn [map fold_right].
  pose proof (exp_pos a) as Ha. destruct t as [|b t'].
  - cbn. lra.
  - assert (0 < fold_right Rplus 0 (map exp (b :: t'))) by (apply IH; discriminate). lra.
Qed.

Lemma softmax_row_length (x : list R) : length (r_softmax_row x) = length x.
Proof. unfold r_softmax_row, g_softmax_row. rewrite !map_length. reflexivity. Qed.

Lemma softmax_row_nth (x : list R) k :
  (k < length x)%nat -> nth k (r_softmax_row x) 0 = exp (nth k x 0) / r_sum (map exp x).
Proof.
  intros Hk. unfold r_softmax_row, g_softmax_row. cbv zeta.
  rewrite (nth_map_R _ _ k 0), (nth_map_R exp x k 0) by (rewrite ?map_length; exact Hk). reflexivity.
Qed.

Lemma ce_gradient_o_nth (probs : list R) (y k : nat) :
  (k < length probs)%nat ->
  nth k (g_ce_gradient_o Rminus 0 1 probs y) 0 = nth k probs 0 - (if Nat.eqb k y then 1 else 0).
Proof.
  intros Hk. unfold g_ce_gradient_o, g_onehot.
  rewrite (nth_map2 Rminus _ _ _ 0 0 0), (nth_map_R _ (seq 0 (length probs)) k 0%nat), seq_nth
    by (rewrite ?map_length, ?seq_length; exact Hk).
  reflexivity.
Qed.

(** * Clipping is the identity near a point strictly inside the interval *)
Lemma r_clip_inside lo hi p : lo < p < hi -> r_clip lo hi p = p.
Proof.
  intros [H1 H2]. unfold r_clip, g_clip, Rltb.
  destruct (Rlt_dec p lo) as [H|H]; [lra|]. destruct (Rlt_dec hi p) as [H'|H']; [lra|]. reflexivity.
Qed.

Lemma clip_locally (g P : R -> R) (x lo hi : R) :
  continuous P x -> lo < P x < hi -> locally x (fun t => g (P t) = g (r_clip lo hi (P t))).
Proof.
  intros Hc Hin.
  assert (locally (P x) (fun y => lo < y /\ y < hi)) as Hop.
  { apply (open_and (fun y => lo < y) (fun y => y < hi)); [apply open_gt | apply open_lt | exact Hin]. }
  specialize (Hc _ Hop). unfold filtermap in Hc.
  apply (filter_imp (fun t => lo < P t /\ P t < hi)); [|exact Hc].
  intros t Ht. rewrite r_clip_inside by exact Ht. reflexivity.
Qed.

(** * ReLu and sigmoid: gradient(signal, direction) = d/dsignal <direction, output> *)
Theorem relu_grad (x dir : R) :
  x <> 0 -> is_derive (fun t => r_relu t * dir) x (r_relu_gradient x dir).
Proof.
  intros Hx. unfold r_relu_gradient, g_relu_gradient, Rltb.
  destruct (Rlt_dec 0 x) as [Hpos|Hneg].
  - apply (is_derive_ext_loc (fun t => t * dir)).
    + apply (filter_imp (fun t => 0 < t)); [|apply (open_gt 0); exact Hpos].
      intros t Ht. unfold r_relu, g_relu, Rltb. destruct (Rlt_dec 0 t); [reflexivity|lra].
    + auto_derive; [exact I | ring].
  - assert (x < 0) as Hlt by lra.
    apply (is_derive_ext_loc (fun t => 0 * dir)).
    + apply (filter_imp (fun t => t < 0)); [|apply (open_lt 0); exact Hlt].
      intros t Ht. unfold r_relu, g_relu, Rltb. destruct (Rlt_dec 0 t); [lra|reflexivity].
    + auto_derive; [exact I | ring].
Qed.

Theorem sigmoid_grad (x dir : R) :
  is_derive (fun t => r_sigmoid t * dir) x (r_sigmoid_gradient x dir).
Proof.
  unfold r_sigmoid, r_sigmoid_gradient, g_sigmoid_gradient, g_sigmoid_gradient_o, g_sigmoid.
  auto_derive.
  - pose proof (exp_pos (0 + - x)). lra.
  - replace (0 + - x) with (0 - x) by ring. pose proof (exp_pos (0 - x)). field. lra.
Qed.

(** Derivative of the activation itself, and the coded gradient as derivative times direction. *)
Lemma Derive_direction_1 (f : R -> R) (x g : R) : is_derive (fun t => f t * 1) x g -> Derive f x = g.
Proof.
  intros H. apply is_derive_unique, (is_derive_ext (fun t => f t * 1)); [intros t; apply Rmult_1_r | exact H].
Qed.

Corollary sigmoid_grad_Derive (x dir : R) : r_sigmoid_gradient x dir = Derive r_sigmoid x * dir.
Proof.
  rewrite (Derive_direction_1 _ _ _ (sigmoid_grad x 1)).
  unfold r_sigmoid_gradient, g_sigmoid_gradient, g_sigmoid_gradient_o. ring.
Qed.

Corollary relu_grad_Derive (x dir : R) : x <> 0 -> r_relu_gradient x dir = Derive r_relu x * dir.
Proof.
  intros Hx. rewrite (Derive_direction_1 _ _ _ (relu_grad x 1 Hx)).
  unfold r_relu_gradient, g_relu_gradient. ring.
Qed.

(** * Softmax *)
Theorem softmax_rows_sum_1 (x : list R) : x <> [] -> r_sum (r_softmax_row x) = 1.
Proof.
  intros Hx. unfold r_softmax_row, g_softmax_row. cbv zeta. fold (r_sum (map exp x)).
  rewrite r_sum_div. pose proof (r_sum_exp_pos x Hx). field. lra.
Qed.

(** Closed form of a softmax row with coordinate k replaced by t. *)
Lemma softmax_upd_sum (x : list R) k t :
  (k < length x)%nat -> r_sum (map exp (upd x k t)) = exp t + (r_sum (map exp x) - exp (nth k x 0)).
Proof.
  intros Hk. rewrite map_upd, r_sum_upd by (rewrite map_length; exact Hk).
  rewrite (nth_map_R exp x k 0) by exact Hk. reflexivity.
Qed.

Lemma softmax_upd_nth (x : list R) k t y :
  (k < length x)%nat -> (y < length x)%nat ->
  nth y (r_softmax_row (upd x k t)) 0 =
  (if Nat.eqb y k then exp t else exp (nth y x 0)) / (exp t + (r_sum (map exp x) - exp (nth k x 0))).
Proof.
  intros Hk Hy. rewrite softmax_row_nth, softmax_upd_sum, nth_upd by (rewrite ?upd_length; assumption).
  destruct (Nat.eqb y k); reflexivity.
Qed.

Lemma softmax_upd_dot (x d : list R) k t :
  (k < length x)%nat -> length d = length x ->
  r_dot (r_softmax_row (upd x k t)) d =
  (exp t * nth k d 0 + (r_dot (map exp x) d - exp (nth k x 0) * nth k d 0))
  / (exp t + (r_sum (map exp x) - exp (nth k x 0))).
Proof.
  intros Hk Hd. unfold r_softmax_row, g_softmax_row. cbv zeta. fold (r_sum (map exp (upd x k t))).
  rewrite r_dot_div, softmax_upd_sum by exact Hk. f_equal.
  unfold r_dot. rewrite map_upd, (map2_upd_l Rmult _ d k _ 0) by (rewrite Hd; exact Hk).
  rewrite r_sum_upd by (rewrite map2_length, map_length, Hd, Nat.min_id; exact Hk).
  rewrite (nth_map2 Rmult _ _ _ 0 0 0) by (rewrite ?map_length, ?Hd; exact Hk).
  rewrite (nth_map_R exp x k 0) by exact Hk. reflexivity.
Qed.

(** Softmax.gradient(signal, direction) is the Jacobian-transpose product: its k-th component is the
    derivative of <softmax(signal), direction> with respect to signal_k. *)
Theorem softmax_jvp (x d : list R) (k : nat) :
  (k < length x)%nat -> length d = length x ->
  is_derive (fun t => r_dot (r_softmax_row (upd x k t)) d) (nth k x 0)
            (nth k (r_softmax_gradient x d) 0).
Proof.
  intros Hk Hd.
  assert (x <> []) as Hne by (destruct x; [cbn in Hk; lia | discriminate]).
  pose proof (r_sum_exp_pos x Hne) as HS.
  set (S := r_sum (map exp x)) in *. set (xk := nth k x 0). set (dk := nth k d 0).
  set (D := r_dot (map exp x) d).
  apply (is_derive_ext (fun t => (exp t * dk + (D - exp xk * dk)) / (exp t + (S - exp xk)))).
  { intros t. symmetry. apply softmax_upd_dot; assumption. }
  (* the coded k-th component *)
  assert (nth k (r_softmax_gradient x d) 0 = exp xk / S * (dk - D / S)) as Hg.
  { unfold r_softmax_gradient, g_softmax_gradient, g_softmax_gradient_o. cbv zeta. fold (r_softmax_row x).
    rewrite (nth_map2 _ _ _ _ 0 0 0), softmax_row_nth by (rewrite ?softmax_row_length, ?Hd; exact Hk).
    change (g_sum Rplus 0 (map2 Rmult (r_softmax_row x) d)) with (r_dot (r_softmax_row x) d).
    unfold r_softmax_row, g_softmax_row. cbv zeta. rewrite r_dot_div. reflexivity. }
  rewrite Hg.
  auto_derive.
  - lra.
  - field. lra.
Qed.

(** * Mean loss over the samples: only row i depends on signal[i][k] *)
Lemma mean_loss_derive (loss_row : list R -> nat -> R) (S : list (list R)) (labels : list nat) i k g :
  length labels = length S -> (i < length S)%nat ->
  is_derive (fun t => loss_row (upd (nth i S []) k t) (nth i labels 0%nat)) (nth k (nth i S []) 0) g ->
  is_derive (fun t => r_mean_loss loss_row (upd S i (upd (nth i S []) k t)) labels)
            (nth k (nth i S []) 0) (g / INR (length labels)).
Proof.
  intros Hl Hi Hd. unfold r_mean_loss, g_mean_loss.
  assert (INR (length labels) <> 0) as Hn by (apply not_0_INR; lia).
  set (C := r_sum (map2 loss_row S labels) - loss_row (nth i S []) (nth i labels 0%nat)).
  set (h := fun t : R => loss_row (upd (nth i S []) k t) (nth i labels 0%nat)) in *.
  apply (is_derive_ext (fun t => (h t + C) / INR (length labels))).
  { intros t. unfold h. f_equal. change (g_sum Rplus 0) with r_sum.
    rewrite (map2_upd_l loss_row S labels i _ 0%nat) by (rewrite Hl; exact Hi).
    rewrite r_sum_upd by (rewrite map2_length, Hl, Nat.min_id; exact Hi).
    rewrite (nth_map2 loss_row S labels i [] 0%nat 0) by (rewrite ?Hl; exact Hi). reflexivity. }
  auto_derive.
  - exists g. exact Hd.
  - rewrite (is_derive_unique (fun x : R => h x) _ _ Hd). field. exact Hn.
Qed.

(** * Cross entropy (softmax) *)
Lemma ce_row_derive (eps : R) (x : list R) (y k : nat) :
  (k < length x)%nat -> (y < length x)%nat ->
  eps < nth y (r_softmax_row x) 0 < 1 - eps ->
  is_derive (fun t => r_ce_loss_row eps (upd x k t) y) (nth k x 0) (nth k (r_ce_gradient x y) 0).
Proof.
  intros Hk Hy Hin.
  assert (x <> []) as Hne by (destruct x; [cbn in Hk; lia | discriminate]).
  pose proof (r_sum_exp_pos x Hne) as HS.
  set (S := r_sum (map exp x)) in *. set (xk := nth k x 0). set (xy := nth y x 0).
  set (P := fun t => (if Nat.eqb y k then exp t else exp xy) / (exp t + (S - exp xk))).
  assert (forall t, nth y (r_softmax_row (upd x k t)) 0 = P t) as HP
      by (intros t; apply softmax_upd_nth; assumption).
  assert (P xk = nth y (r_softmax_row x) 0) as HPx.
  { rewrite <- HP. unfold xk. rewrite upd_same. reflexivity. }
  (* the coded k-th component *)
  assert (nth k (r_ce_gradient x y) 0 = exp xk / S - (if Nat.eqb k y then 1 else 0)) as Hg.
  { unfold r_ce_gradient, g_ce_gradient. fold (r_softmax_row x).
    rewrite ce_gradient_o_nth, softmax_row_nth by (rewrite ?softmax_row_length; exact Hk). reflexivity. }
  rewrite Hg.
  assert (exp xk + (S - exp xk) = S) as ES by ring.
  assert (ex_derive P xk) as HexP.
  { unfold P. destruct (Nat.eqb y k); auto_derive; lra. }
  apply (is_derive_ext_loc (fun t => 0 - ln (P t))).
  { rewrite <- HPx in Hin.
    eapply filter_imp; [|exact (clip_locally (fun p => 0 - ln p) P xk _ _ (ex_derive_continuous P xk HexP) Hin)].
    intros t Ht. cbn beta in Ht. unfold r_ce_loss_row, g_ce_loss_row, g_nth.
    change (g_softmax_row Rplus Rdiv 0 exp (upd x k t)) with (r_softmax_row (upd x k t)).
    rewrite HP. exact Ht. }
  (* derivative of - ln (P t) at xk, where P xk > 0 *)
  assert (0 < P xk) as HPpos.
  { unfold P. rewrite ES. apply Rdiv_lt_0_compat; [destruct (Nat.eqb y k); apply exp_pos | exact HS]. }
  pose proof (exp_pos xk). pose proof (exp_pos xy).
  unfold P in *. rewrite (Nat.eqb_sym k y).
  destruct (Nat.eqb y k); auto_derive; try (split; [lra|]; split; [exact HPpos | exact I]); rewrite ES; field; lra.
Qed.

(** CrossEntropy.loss_gradient = n * d(mean loss)/d(signal), away from the clipping threshold. *)
Theorem ce_grad (eps : R) (S : list (list R)) (labels : list nat) (i k : nat) :
  length labels = length S -> (i < length S)%nat ->
  (k < length (nth i S []))%nat -> (nth i labels 0%nat < length (nth i S []))%nat ->
  eps < nth (nth i labels 0%nat) (r_softmax_row (nth i S [])) 0 < 1 - eps ->
  is_derive (fun t => r_mean_loss (r_ce_loss_row eps) (upd S i (upd (nth i S []) k t)) labels)
            (nth k (nth i S []) 0)
            (nth k (r_ce_gradient (nth i S []) (nth i labels 0%nat)) 0 / INR (length labels)).
Proof.
  intros Hl Hi Hk Hy Hin. apply mean_loss_derive; try assumption.
  apply ce_row_derive; assumption.
Qed.

(** * Binary cross entropy (sigmoid) *)
Lemma sigmoid_range (x : R) : 0 < r_sigmoid x < 1.
Proof.
  unfold r_sigmoid, g_sigmoid. pose proof (exp_pos (0 - x)) as He.
  split.
  - apply Rdiv_lt_0_compat; lra.
  - apply (Rmult_lt_reg_r (1 + exp (0 - x))); [lra|]. field_simplify; lra.
Qed.

Lemma sigmoid_continuous (x : R) : continuous r_sigmoid x.
Proof.
  apply (ex_derive_continuous r_sigmoid x). unfold r_sigmoid, g_sigmoid. auto_derive.
  pose proof (exp_pos (0 + - x)). lra.
Qed.

(** One channel of the coded loss: [-log p] on the label's channel ([on]), [-log (1 - p)] on the others.
    Away from the clipping threshold its derivative in the signal is sigmoid(x) - [on]. *)
Definition bce_term (on : bool) (p : R) : R := if on then 0 - ln p else 0 - ln (1 - p).

Lemma bce_term_derive (eps x : R) (on : bool) :
  eps < r_sigmoid x < 1 - eps ->
  is_derive (fun t => bce_term on (r_clip eps (1 - eps) (r_sigmoid t))) x (r_sigmoid x - (if on then 1 else 0)).
Proof.
  intros Hin. pose proof (sigmoid_range x) as Hr.
  apply (is_derive_ext_loc (fun t => bce_term on (r_sigmoid t)));
    [exact (clip_locally (bce_term on) r_sigmoid x _ _ (sigmoid_continuous x) Hin)|].
  unfold bce_term, r_sigmoid, g_sigmoid in *. pose proof (exp_pos (0 - x)) as He.
  destruct on; auto_derive; replace (0 + - x) with (0 - x) in * by ring;
    try (split; [lra|]; split; [lra | exact I]); field; lra.
Qed.

(** One channel, one sample: derivative of the coded loss in the signal is sigmoid(x) - y for y in {0, 1}. *)
Lemma bce_single_row_derive (eps x : R) (y : nat) :
  (y = 0 \/ y = 1)%nat -> eps < r_sigmoid x < 1 - eps ->
  is_derive (fun t => r_bce_loss_row eps (t :: nil) y) x (nth 0 (r_bce_gradient (x :: nil) y) 0).
Proof.
  intros [Hy|Hy] Hin; subst y; [exact (bce_term_derive eps x false Hin) | exact (bce_term_derive eps x true Hin)].
Qed.

(** BinaryCrossEntropy.loss_gradient = n * d(mean loss)/d(signal) for ONE output channel and binary labels. *)
Theorem bce_grad_single (eps x : R) (S : list (list R)) (labels : list nat) (i : nat) :
  length labels = length S -> (i < length S)%nat -> nth i S [] = (x :: nil) ->
  (nth i labels 0 = 0 \/ nth i labels 0 = 1)%nat ->
  eps < r_sigmoid x < 1 - eps ->
  is_derive (fun t => r_mean_loss (r_bce_loss_row eps) (upd S i (t :: nil)) labels) x
            (nth 0 (r_bce_gradient (nth i S []) (nth i labels 0%nat)) 0 / INR (length labels)).
Proof.
  intros Hl Hi Hrow Hy Hin.
  pose proof (mean_loss_derive (r_bce_loss_row eps) S labels i 0
                (nth 0 (r_bce_gradient (x :: nil) (nth i labels 0%nat)) 0) Hl Hi) as H.
  rewrite Hrow in *. cbn [upd nth] in H. apply H.
  apply bce_single_row_derive; assumption.
Qed.

(** Several channels: the coded loss is a sum over the channels, and only channel k depends on signal_k. *)
Lemma bce_multi_loss_shape (eps : R) (row : list R) (y : nat) :
  (2 <= length row)%nat ->
  r_bce_loss_row eps row y =
  r_sum (map (fun c => bce_term (Nat.eqb c y) (nth c (map (fun x => r_clip eps (1 - eps) (r_sigmoid x)) row) 0))
             (seq 0 (length row))).
Proof.
  intros H. destruct row as [|a [|b t]]; cbn [length] in H; try lia.
  unfold r_bce_loss_row, g_bce_loss_row. cbv zeta. cbn [map length]. rewrite map_length. reflexivity.
Qed.

Lemma map_seq_upd (T : nat -> R -> R) (P0 : list R) k v :
  (k < length P0)%nat ->
  map (fun c => T c (nth c (upd P0 k v) 0)) (seq 0 (length P0)) =
  upd (map (fun c => T c (nth c P0 0)) (seq 0 (length P0))) k (T k v).
Proof.
  intros Hk. apply (nth_ext _ _ 0 0).
  - rewrite upd_length, !map_length. reflexivity.
  - intros c Hc. rewrite map_length, seq_length in Hc.
    rewrite nth_upd, !(nth_map_R _ _ c 0%nat), seq_nth, nth_upd by (rewrite ?map_length, ?seq_length; assumption).
    cbn [Nat.add]. destruct (Nat.eqb c k) eqn:E; [apply Nat.eqb_eq in E; subst c|]; reflexivity.
Qed.

(** With several channels the coded gradient is sigmoid(signal) - one_hot(label). *)
Lemma bce_gradient_multi (x : list R) (y : nat) :
  (2 <= length x)%nat -> r_bce_gradient x y = g_ce_gradient_o Rminus 0 1 (map r_sigmoid x) y.
Proof. intros H. destruct x as [|a [|b t]]; cbn [length] in H; try lia. reflexivity. Qed.

(** One sample, several channels: the coded gradient is the derivative of the coded loss. *)
Theorem bce_multi_row_derive (eps : R) (x : list R) (y k : nat) :
  (2 <= length x)%nat -> (k < length x)%nat -> (y < length x)%nat ->
  eps < r_sigmoid (nth k x 0) < 1 - eps ->
  is_derive (fun t => r_bce_loss_row eps (upd x k t) y) (nth k x 0) (nth k (r_bce_gradient x y) 0).
Proof.
  intros H2 Hk Hy Hin. set (xk := nth k x 0) in *.
  rewrite bce_gradient_multi, ce_gradient_o_nth, (nth_map_R r_sigmoid x k 0) by (rewrite ?map_length; assumption).
  fold xk. pose proof (bce_term_derive eps xk (Nat.eqb k y) Hin) as Hd.
  set (cl := fun z => r_clip eps (1 - eps) (r_sigmoid z)) in *.
  set (h := fun t => bce_term (Nat.eqb k y) (cl t)) in *.
  set (terms := map (fun c => bce_term (Nat.eqb c y) (nth c (map cl x) 0)) (seq 0 (length x))).
  apply (is_derive_ext (fun t => h t + (r_sum terms - nth k terms 0))).
  { intros t. rewrite bce_multi_loss_shape by (rewrite upd_length; exact H2). fold cl.
    rewrite upd_length, map_upd, <- (map_length cl x).
    rewrite (map_seq_upd (fun c => bce_term (Nat.eqb c y))), r_sum_upd by (rewrite ?map_length, ?seq_length; exact Hk).
    rewrite map_length. reflexivity. }
  auto_derive.
  - exists (r_sigmoid xk - (if Nat.eqb k y then 1 else 0)). exact Hd.
  - rewrite (is_derive_unique (fun t : R => h t) _ _ Hd). ring.
Qed.

(** BinaryCrossEntropy.loss_gradient = n * d(mean loss)/d(signal) with SEVERAL output channels
    ([r_bce_gradient]), away from the clipping threshold. *)
Theorem bce_grad_multi (eps : R) (S : list (list R)) (labels : list nat) (i k : nat) :
  length labels = length S -> (i < length S)%nat ->
  (2 <= length (nth i S []))%nat -> (k < length (nth i S []))%nat ->
  (nth i labels 0%nat < length (nth i S []))%nat ->
  eps < r_sigmoid (nth k (nth i S []) 0) < 1 - eps ->
  is_derive (fun t => r_mean_loss (r_bce_loss_row eps) (upd S i (upd (nth i S []) k t)) labels)
            (nth k (nth i S []) 0)
            (nth k (r_bce_gradient (nth i S []) (nth i labels 0%nat)) 0 / INR (length labels)).
Proof.
  intros Hl Hi H2 Hk Hy Hin. apply mean_loss_derive; try assumption.
  apply bce_multi_row_derive; assumption.
Qed.

(** [r_bce_gradient_legacy] (the source before commit 018b4674, DESIGN.md D18). With several channels the gradient
    [(probs.T - labels).T] subtracts the label VALUE from every channel; this is not the derivative of the coded
    loss: at signal (0, 0) with label 1 the derivative in channel 0 is sigmoid(0) = 1/2, the legacy value is
    1/2 - 1. *)
Theorem bce_grad_multi_legacy_refuted (eps : R) :
  0 < eps < 1 / 2 ->
  exists (x : list R) (y k : nat),
    (2 <= length x)%nat /\ (k < length x)%nat /\ (y < length x)%nat /\
    nth k (r_bce_gradient_legacy x y) 0 <> nth k (r_bce_gradient x y) 0 /\
    ~ is_derive (fun t => r_bce_loss_row eps (upd x k t) y) (nth k x 0) (nth k (r_bce_gradient_legacy x y) 0).
Proof.
  intros Heps. exists [0; 0], 1%nat, 0%nat.
  assert (r_sigmoid 0 = 1 / 2) as Hs.
  { unfold r_sigmoid, g_sigmoid. replace (0 - 0) with 0 by ring. rewrite exp_0. lra. }
  assert (nth 0 (r_bce_gradient_legacy [0; 0] 1) 0 = - (1 / 2)) as Hcoded.
  { unfold r_bce_gradient_legacy, g_bce_gradient_legacy, g_bce_gradient_legacy_o. cbn [map nth INR].
    change (g_sigmoid Rplus Rminus Rdiv 0 1 exp 0) with (r_sigmoid 0). rewrite Hs. lra. }
  assert (nth 0 (r_bce_gradient [0; 0] 1) 0 = 1 / 2) as Hfix.
  { rewrite bce_gradient_multi, ce_gradient_o_nth by (cbn; lia). cbn [map nth Nat.eqb]. rewrite Hs. lra. }
  cbn [length]. split; [lia|]. split; [lia|]. split; [lia|]. split.
  - rewrite Hcoded, Hfix. lra.
  - intros Hbad.
    assert (is_derive (fun t => r_bce_loss_row eps (upd [0; 0] 0 t) 1) (nth 0 [0; 0] 0)
                      (nth 0 (r_bce_gradient [0; 0] 1) 0)) as Hgood.
    { apply bce_multi_row_derive; cbn [length nth]; try lia. rewrite Hs. lra. }
    apply is_derive_unique in Hbad. apply is_derive_unique in Hgood.
    rewrite Hbad in Hgood. rewrite Hcoded, Hfix in Hgood. lra.
Qed.
