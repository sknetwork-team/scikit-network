From Coq Require Import String Ascii.
From Coq Require Import Lia.
From SKN Require Import Base.Util Model.Graphml Proofs.GraphmlKeysProofs.
Set Warnings "-notation-overridden".
(** The attribute columns of a GraphML document read off [doc_keys]: the LAST plain (non-weight)
    key of a domain ("node" / "edge") carrying a given attr.name decides the column of that name
    (its type and its fill value); with no plain key of a domain there is no column table at all. *)
Local Open Scope string_scope.
Local Open Scope list_scope.
Local Open Scope nat_scope.
Local Infix "==s" := String.eqb (at level 70).

Lemma alookup_aset_same {A} k (v : A) l : alookup k (aset k v l) = Some v.
Proof.
  induction l as [|[k' v'] t IH]; cbn [aset alookup].
  - rewrite String.eqb_refl. reflexivity.
  - destruct (k' ==s k) eqn:E; cbn [alookup].
    + rewrite String.eqb_refl. reflexivity.
    + rewrite E. exact IH.
Qed.

Lemma alookup_aset_other {A} k k' (v : A) l : k <> k' -> alookup k' (aset k v l) = alookup k' l.
Proof.
  intros Hne. apply String.eqb_neq in Hne.
  induction l as [|[k0 v0] t IH]; cbn [aset alookup]; [now rewrite Hne|].
  destruct (k0 ==s k) eqn:E; cbn [alookup].
  - apply String.eqb_eq in E. subst k0. now rewrite Hne.
  - now rewrite IH.
Qed.

Definition feeds (dl : dialect) (wk dom name : string) (fe : xml) : bool :=
  is_tag "key" fe && negb (is_weight_key dl wk fe) && (attr_or_empty "for" fe ==s dom)
  && (attr_or_empty "attr.name" fe ==s name).

(** A plain key of domain [dom], whatever its attr.name. *)
Definition plain (dl : dialect) (wk dom : string) (fe : xml) : bool :=
  is_tag "key" fe && negb (is_weight_key dl wk fe) && (attr_or_empty "for" fe ==s dom).

Definition key_col (dl : dialect) (mss : nat) (fe : xml) : acol :=
  (key_type fe, fill_of mss (key_type fe) (last_default dl (key_type fe) (x_children fe) None)).

Lemma feeds_plain dl wk dom name fe :
  feeds dl wk dom name fe = plain dl wk dom fe && (attr_or_empty "attr.name" fe ==s name).
Proof. reflexivity. Qed.

Lemma feeds_own_name dl wk dom fe :
  feeds dl wk dom (attr_or_empty "attr.name" fe) fe = plain dl wk dom fe.
Proof. rewrite feeds_plain, String.eqb_refl, andb_true_r. reflexivity. Qed.

Definition cols (dom : string) (k : kstate) : option (list (string * acol)) :=
  if dom ==s "node" then k_nattr k else k_eattr k.

Lemma key_step_pure_cols dl wk mss dom k fe :
  dom = "node" \/ dom = "edge" ->
  cols dom (key_step_pure dl wk mss k fe) =
  if plain dl wk dom fe
  then Some (aset (attr_or_empty "attr.name" fe) (key_col dl mss fe) (some_or_empty (cols dom k)))
  else cols dom k.
Proof.
  unfold plain, is_weight_key, key_step_pure, key_col. cbv zeta. intros Hd.
  destruct (is_tag "key" fe); cbn [andb].
  2: { destruct (is_tag "desc" fe), Hd as [-> | ->]; reflexivity. }
  destruct (weight_key_test dl wk (attr_or_empty "attr.name" fe) fe); cbn [negb andb].
  { destruct Hd as [-> | ->]; reflexivity. }
  destruct Hd as [-> | ->]; cbn [cols String.eqb Ascii.eqb Bool.eqb k_nattr k_eattr]; [reflexivity|].
  (* the code tests "node" first: an edge key is one that is not a node key *)
  destruct (attr_or_empty "for" fe ==s "edge") eqn:Ee.
  - apply String.eqb_eq in Ee. rewrite Ee. reflexivity.
  - destruct (attr_or_empty "for" fe ==s "node"); reflexivity.
Qed.

Lemma fold_keeps_column dl wk mss dom name c l :
  dom = "node" \/ dom = "edge" ->
  forall k,
    (forall fe, In fe l -> feeds dl wk dom name fe = false) ->
    alookup name (some_or_empty (cols dom k)) = Some c ->
    alookup name (some_or_empty (cols dom (fold_left (key_step_pure dl wk mss) l k))) = Some c.
Proof.
  intros Hd. induction l as [|fe t IH]; cbn [fold_left]; intros k Hall Hk; [exact Hk|].
  apply IH; [intros fe' Hin; apply Hall; right; exact Hin|].
  rewrite key_step_pure_cols by exact Hd.
  pose proof (Hall fe (or_introl eq_refl)) as Hfe. rewrite feeds_plain in Hfe.
  destruct (plain dl wk dom fe); cbn [andb] in Hfe; [|exact Hk].
  cbn [some_or_empty]. rewrite alookup_aset_other; [exact Hk|].
  intros Heq. rewrite Heq, String.eqb_refl in Hfe. discriminate Hfe.
Qed.

Theorem column_rule dl wk mss dom root pre fe post name :
  dom = "node" \/ dom = "edge" ->
  x_children root = pre ++ fe :: post ->
  feeds dl wk dom name fe = true ->
  (forall fe', In fe' post -> feeds dl wk dom name fe' = false) ->
  alookup name (some_or_empty (cols dom (doc_keys dl wk mss root))) = Some (key_col dl mss fe).
Proof.
  intros Hd Hsplit Hfe Hpost. unfold doc_keys. rewrite Hsplit, fold_left_app. cbn [fold_left].
  apply fold_keeps_column; [exact Hd | exact Hpost|].
  rewrite key_step_pure_cols by exact Hd.
  rewrite feeds_plain in Hfe. apply andb_true_iff in Hfe as [Hp Hn].
  apply String.eqb_eq in Hn. rewrite Hp, Hn. apply alookup_aset_same.
Qed.

Theorem no_column_rule dl wk mss dom root :
  dom = "node" \/ dom = "edge" ->
  (forall fe name, In fe (x_children root) -> feeds dl wk dom name fe = false) ->
  cols dom (doc_keys dl wk mss root) = None.
Proof.
  intros Hd Hall. unfold doc_keys.
  assert (H : forall l k, (forall fe, In fe l -> In fe (x_children root)) ->
                          cols dom (fold_left (key_step_pure dl wk mss) l k) = cols dom k).
  { induction l as [|fe t IH]; cbn [fold_left]; intros k Hin; [reflexivity|].
    rewrite IH by (intros fe' H; apply Hin; right; exact H).
    rewrite key_step_pure_cols, <- feeds_own_name, Hall by (exact Hd || (apply Hin; left; reflexivity)).
    reflexivity. }
  rewrite H by auto. destruct Hd as [-> | ->]; reflexivity.
Qed.
