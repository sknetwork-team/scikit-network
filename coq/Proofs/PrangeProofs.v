(** Proofs about the interleaving semantics of [prange] loops (Model/Prange.v).

    Main results:
    - [independent_iterations_commute]: for independent iterations, every complete interleaving
      ends in the same memory as the sequential loop;
    - [independent_b_sound]: the boolean checker implies independence;
    - [seq_sched_complete]: the sequential schedule is a complete schedule;
    - [complete_b_sound]: completeness of a concrete schedule is decided by counting. *)
From SKN Require Import Base.Util Model.Prange.
From Coq Require Import Permutation.

Lemma nth_error_ext {A} (l1 l2 : list A) :
  (forall j, nth_error l1 j = nth_error l2 j) -> l1 = l2.
Proof.
  revert l2; induction l1 as [|x l1 IH]; intros [|y l2] H.
  - reflexivity.
  - specialize (H 0); simpl in H; discriminate.
  - specialize (H 0); simpl in H; discriminate.
  - f_equal.
    + specialize (H 0); simpl in H; congruence.
    + apply IH. intros j. exact (H (S j)).
Qed.

Lemma nth_error_set_nth {A} (l : list A) (i j : nat) (x : A) :
  nth_error (set_nth l i x) j =
  if Nat.eqb j i
  then match nth_error l i with Some _ => Some x | None => None end
  else nth_error l j.
Proof.
  revert i j; induction l as [|a l IH]; intros i j.
  - destruct i, j; try reflexivity. simpl. destruct (Nat.eqb j i); reflexivity.
  - destruct i as [|i], j as [|j]; try reflexivity.
    change (set_nth (a :: l) (S i) x) with (a :: set_nth l i x). simpl. apply IH.
Qed.

Lemma nth_error_set_nth_eq {A} (l : list A) (i : nat) (x y : A) :
  nth_error l i = Some y -> nth_error (set_nth l i x) i = Some x.
Proof.
  intros H. rewrite nth_error_set_nth, Nat.eqb_refl, H. reflexivity.
Qed.

Lemma nth_error_set_nth_neq {A} (l : list A) (i j : nat) (x : A) :
  j <> i -> nth_error (set_nth l i x) j = nth_error l j.
Proof.
  intros H. rewrite nth_error_set_nth.
  apply Nat.eqb_neq in H. rewrite H. reflexivity.
Qed.

Lemma set_nth_comm {A} (l : list A) (i j : nat) (x y : A) :
  i <> j -> set_nth (set_nth l i x) j y = set_nth (set_nth l j y) i x.
Proof.
  intros Hij. apply nth_error_ext. intros k.
  rewrite !nth_error_set_nth.
  destruct (Nat.eqb k j) eqn:Ekj; destruct (Nat.eqb k i) eqn:Eki.
  - apply Nat.eqb_eq in Ekj. apply Nat.eqb_eq in Eki. lia.
  - assert (Eji : Nat.eqb j i = false) by (apply Nat.eqb_neq; lia).
    rewrite Eji. reflexivity.
  - assert (Eij : Nat.eqb i j = false) by (apply Nat.eqb_neq; lia).
    rewrite Eij. reflexivity.
  - reflexivity.
Qed.

Lemma upd_length (m : mem) (c : nat) (v : Z) : length (upd m c v) = length m.
Proof. unfold upd. rewrite map_length, seq_length. reflexivity. Qed.

Lemma nthz_upd (m : mem) (c : nat) (v : Z) (i : nat) :
  i < length m -> nthz (upd m c v) i = if Nat.eqb i c then v else nthz m i.
Proof.
  intros Hi. unfold nthz at 1, upd. rewrite nth_map_seq by exact Hi. reflexivity.
Qed.

Lemma nthz_upd_other (m : mem) (c : nat) (v : Z) (i : nat) :
  i <> c -> nthz (upd m c v) i = nthz m i.
Proof.
  intros Hic. destruct (Nat.lt_ge_cases i (length m)) as [Hlt|Hge].
  - rewrite nthz_upd by exact Hlt.
    apply Nat.eqb_neq in Hic. rewrite Hic. reflexivity.
  - unfold nthz. rewrite !nth_overflow; [reflexivity | exact Hge |].
    rewrite upd_length. exact Hge.
Qed.

Lemma upd_comm (m : mem) (c1 c2 : nat) (v1 v2 : Z) :
  c1 <> c2 -> upd (upd m c1 v1) c2 v2 = upd (upd m c2 v2) c1 v1.
Proof.
  intros Hc. unfold upd at 1 3. rewrite !upd_length.
  apply map_ext_in. intros i Hi. apply in_seq in Hi.
  rewrite !nthz_upd by lia.
  destruct (Nat.eqb i c2) eqn:E2; destruct (Nat.eqb i c1) eqn:E1; try reflexivity.
  apply Nat.eqb_eq in E1. apply Nat.eqb_eq in E2. lia.
Qed.

Definition exec1 (a : nat) (cfg : mem * list thread) : mem * list thread :=
  match nth_error (snd cfg) a with
  | None => cfg
  | Some t => (fst (step_thread (fst cfg) t),
               set_nth (snd cfg) a (snd (step_thread (fst cfg) t)))
  end.

Lemma exec1_none (a : nat) (m : mem) (ts : list thread) :
  nth_error ts a = None -> exec1 a (m, ts) = (m, ts).
Proof. intros E. unfold exec1. simpl. rewrite E. reflexivity. Qed.

Lemma exec1_some (a : nat) (m : mem) (ts : list thread) (t : thread) :
  nth_error ts a = Some t ->
  exec1 a (m, ts) = (fst (step_thread m t), set_nth ts a (snd (step_thread m t))).
Proof. intros E. unfold exec1. simpl. rewrite E. reflexivity. Qed.

Lemma run_cons (a : nat) (s : list nat) (m : mem) (ts : list thread) :
  run (a :: s) m ts = run s (fst (exec1 a (m, ts))) (snd (exec1 a (m, ts))).
Proof.
  unfold exec1. simpl. destruct (nth_error ts a) as [t|].
  - destruct (step_thread m t) as [m' t']. reflexivity.
  - reflexivity.
Qed.

(** [disj p q]: no cell written by [p] is read or written by [q]. *)
Definition disj (p q : prog) : Prop :=
  forall c, In c (writes p) -> ~ In c (reads q) /\ ~ In c (writes q).

(** [sub p' p]: the footprint of [p'] is included in the footprint of [p]. *)
Definition sub (p' p : prog) : Prop :=
  forall c, (In c (reads p') -> In c (reads p)) /\ (In c (writes p') -> In c (writes p)).

Lemma sub_refl (p : prog) : sub p p.
Proof. intros c. split; intros H; exact H. Qed.

Lemma sub_cons (o : mop) (p : prog) : sub p (o :: p).
Proof.
  intros c. unfold reads, writes. simpl. split; intros H; apply in_or_app; right; exact H.
Qed.

Lemma disj_sub (p p' q q' : prog) : sub p' p -> sub q' q -> disj p q -> disj p' q'.
Proof.
  intros Hp Hq Hd c Hc.
  destruct (Hd c (proj2 (Hp c) Hc)) as [Hr Hw].
  split; intros H.
  - apply Hr. exact (proj1 (Hq c) H).
  - apply Hw. exact (proj2 (Hq c) H).
Qed.

Lemma step_thread_sub (m : mem) (t : thread) : sub (rest (snd (step_thread m t))) (rest t).
Proof.
  unfold step_thread. destruct t as [p r]. simpl.
  destruct p as [|[c|c f] p]; simpl.
  - apply sub_refl.
  - apply sub_cons.
  - apply sub_cons.
Qed.

(** Pairwise independence of the REMAINING programs of a list of thread states. *)
Definition indep_ts (ts : list thread) : Prop :=
  forall a b ta tb, nth_error ts a = Some ta -> nth_error ts b = Some tb -> a <> b ->
    disj (rest ta) (rest tb).

Lemma nth_error_init_threads (ps : list prog) (a : nat) :
  nth_error (init_threads ps) a =
  option_map (fun p => {| rest := p; regs := [] |}) (nth_error ps a).
Proof. unfold init_threads. apply nth_error_map. Qed.

Lemma nth_error_nth_default {A} (l : list A) (a : nat) (x d : A) :
  nth_error l a = Some x -> nth a l d = x /\ a < length l.
Proof.
  intros H. split.
  - apply nth_error_nth. exact H.
  - apply nth_error_Some. rewrite H. discriminate.
Qed.

Lemma independent_indep_ts (ps : list prog) : independent ps -> indep_ts (init_threads ps).
Proof.
  intros Hind a b ta tb Ha Hb Hab.
  rewrite nth_error_init_threads in Ha, Hb.
  destruct (nth_error ps a) as [pa|] eqn:Ea; [|discriminate].
  destruct (nth_error ps b) as [pb|] eqn:Eb; [|discriminate].
  simpl in Ha, Hb. inversion Ha; subst ta. inversion Hb; subst tb. simpl.
  destruct (nth_error_nth_default ps a pa [] Ea) as [Na La].
  destruct (nth_error_nth_default ps b pb [] Eb) as [Nb Lb].
  intros c Hc. specialize (Hind a b La Lb Hab c).
  rewrite Na, Nb in Hind. apply Hind. exact Hc.
Qed.

(** Independence survives when every thread's remaining program only shrinks. *)
Lemma indep_ts_sub (ts ts' : list thread) :
  (forall a t', nth_error ts' a = Some t' ->
                exists t, nth_error ts a = Some t /\ sub (rest t') (rest t)) ->
  indep_ts ts -> indep_ts ts'.
Proof.
  intros H Hind a b ta' tb' Ha Hb Hab.
  destruct (H a ta' Ha) as [ta [Ea Sa]]. destruct (H b tb' Hb) as [tb [Eb Sb]].
  exact (disj_sub _ _ _ _ Sa Sb (Hind a b ta tb Ea Eb Hab)).
Qed.

Lemma indep_ts_exec1 (a : nat) (m : mem) (ts : list thread) :
  indep_ts ts -> indep_ts (snd (exec1 a (m, ts))).
Proof.
  intros Hind. unfold exec1. simpl.
  destruct (nth_error ts a) as [ta|] eqn:Ea; simpl; [|exact Hind].
  apply (indep_ts_sub ts); [|exact Hind]. intros x t' Hx.
  rewrite nth_error_set_nth, Ea in Hx. destruct (Nat.eqb x a) eqn:Exa.
  - apply Nat.eqb_eq in Exa. subst x. injection Hx as <-.
    exists ta. split; [exact Ea | apply step_thread_sub].
  - exists t'. split; [exact Hx | apply sub_refl].
Qed.

(** A program that starts with a write to [c] is disjoint only from programs whose first
    operation is on another cell. *)
Lemma disj_head (c : nat) (f : list Z -> Z) (p : prog) (o : mop) (q : prog) :
  disj (Wr c f :: p) (o :: q) -> c <> match o with Rd c' => c' | Wr c' _ => c' end.
Proof.
  intros Hd E. destruct (Hd c) as [Hr Hw]; [left; reflexivity|].
  destruct o as [c'|c' g]; subst c'; [apply Hr | apply Hw]; left; reflexivity.
Qed.

Lemma step_commute (m : mem) (ta tb : thread) :
  disj (rest ta) (rest tb) -> disj (rest tb) (rest ta) ->
  snd (step_thread (fst (step_thread m ta)) tb) = snd (step_thread m tb) /\
  snd (step_thread (fst (step_thread m tb)) ta) = snd (step_thread m ta) /\
  fst (step_thread (fst (step_thread m ta)) tb) = fst (step_thread (fst (step_thread m tb)) ta).
Proof.
  intros Hab Hba.
  destruct ta as [pa ra]. destruct tb as [pb rb]. simpl in Hab, Hba.
  unfold step_thread. simpl.
  destruct pa as [|[ca|ca fa] pa]; destruct pb as [|[cb|cb fb] pb]; simpl;
    try (split; [reflexivity | split; reflexivity]).
  - (* a reads ca, b writes cb *)
    pose proof (disj_head _ _ _ _ _ Hba) as Hne.
    split; [reflexivity | split; [|reflexivity]].
    rewrite nthz_upd_other by (intros E; exact (Hne (eq_sym E))). reflexivity.
  - (* a writes ca, b reads cb *)
    pose proof (disj_head _ _ _ _ _ Hab) as Hne.
    split; [|split; reflexivity].
    rewrite nthz_upd_other by (intros E; exact (Hne (eq_sym E))). reflexivity.
  - (* both write *)
    split; [reflexivity | split; [reflexivity|]].
    apply upd_comm. exact (disj_head _ _ _ _ _ Hab).
Qed.

Lemma exec1_comm (a b : nat) (m : mem) (ts : list thread) :
  indep_ts ts -> a <> b ->
  exec1 b (exec1 a (m, ts)) = exec1 a (exec1 b (m, ts)).
Proof.
  intros Hind Hab.
  assert (Hba : b <> a) by (intros E; exact (Hab (eq_sym E))).
  destruct (nth_error ts a) as [ta|] eqn:Ea; destruct (nth_error ts b) as [tb|] eqn:Eb.
  - rewrite (exec1_some a m ts ta Ea), (exec1_some b m ts tb Eb).
    rewrite (exec1_some b _ _ tb) by (rewrite nth_error_set_nth_neq; assumption).
    rewrite (exec1_some a _ _ ta) by (rewrite nth_error_set_nth_neq; assumption).
    destruct (step_commute m ta tb (Hind a b ta tb Ea Eb Hab) (Hind b a tb ta Eb Ea Hba))
      as [Sb [Sa Sm]].
    rewrite Sb, Sa, Sm. f_equal. apply set_nth_comm. exact Hab.
  - rewrite (exec1_none b m ts Eb), (exec1_some a m ts ta Ea).
    apply exec1_none. rewrite nth_error_set_nth_neq; assumption.
  - rewrite (exec1_none a m ts Ea), (exec1_some b m ts tb Eb).
    symmetry. apply exec1_none. rewrite nth_error_set_nth_neq; assumption.
  - rewrite (exec1_none b m ts Eb), (exec1_none a m ts Ea). exact (exec1_none b m ts Eb).
Qed.

Lemma run_perm (s1 s2 : list nat) :
  Permutation s1 s2 ->
  forall (m : mem) (ts : list thread), indep_ts ts -> run s1 m ts = run s2 m ts.
Proof.
  intros HP. induction HP as [| x l l' HP IH | x y l | l l' l'' HP1 IH1 HP2 IH2];
    intros m ts Hind.
  - reflexivity.
  - rewrite !run_cons. apply IH.
    apply indep_ts_exec1. exact Hind.
  - destruct (Nat.eq_dec x y) as [E|NE].
    + subst y. reflexivity.
    + rewrite (run_cons y), (run_cons x (y :: l)).
      rewrite (run_cons x), (run_cons y).
      rewrite <- !surjective_pairing.
      rewrite (exec1_comm y x m ts Hind (fun E => NE (eq_sym E))).
      reflexivity.
  - rewrite (IH1 m ts Hind). apply IH2. exact Hind.
Qed.

Lemma count_occ_flat_repeat_notin (g : nat -> nat) (l : list nat) (a : nat) :
  ~ In a l -> count_occ Nat.eq_dec (flat_map (fun x => repeat x (g x)) l) a = 0.
Proof.
  induction l as [|x l IH]; intros Hn.
  - reflexivity.
  - simpl. rewrite count_occ_app. rewrite IH.
    + rewrite count_occ_repeat_neq; [reflexivity|].
      intros E. apply Hn. left. symmetry. exact E.
    + intros H. apply Hn. right. exact H.
Qed.

Lemma count_occ_flat_repeat_in (g : nat -> nat) (l : list nat) (a : nat) :
  NoDup l -> In a l -> count_occ Nat.eq_dec (flat_map (fun x => repeat x (g x)) l) a = g a.
Proof.
  intros Hnd. induction Hnd as [|x l Hx Hnd IH]; intros Hin.
  - destruct Hin.
  - simpl. rewrite count_occ_app. destruct Hin as [E|Hin].
    + subst x. rewrite count_occ_repeat_eq by reflexivity.
      rewrite count_occ_flat_repeat_notin by exact Hx. lia.
    + rewrite IH by exact Hin.
      rewrite count_occ_repeat_neq; [reflexivity|].
      intros E. subst x. apply Hx. exact Hin.
Qed.

Theorem seq_sched_complete (ps : list prog) : complete ps (seq_sched ps).
Proof.
  unfold complete, seq_sched. split.
  - intros a Ha. apply in_flat_map in Ha. destruct Ha as [x [Hx Hr]].
    apply repeat_spec in Hr. subst a. apply in_seq in Hx. lia.
  - intros a Ha.
    apply (count_occ_flat_repeat_in (fun x => length (nth x ps [])) (seq 0 (length ps)) a).
    + apply seq_NoDup.
    + apply in_seq. lia.
Qed.

(** Completeness of a concrete schedule is decided by counting. *)
Definition complete_b (ps : list prog) (sched : list nat) : bool :=
  forallb (fun a => a <? length ps) sched &&
  forallb (fun a => count_occ Nat.eq_dec sched a =? length (nth a ps [])) (seq 0 (length ps)).

Lemma complete_b_sound (ps : list prog) (sched : list nat) :
  complete_b ps sched = true -> complete ps sched.
Proof.
  unfold complete_b. rewrite andb_true_iff, !forallb_forall. intros [H1 H2]. split.
  - intros a Ha. apply Nat.ltb_lt. exact (H1 a Ha).
  - intros a Ha. apply Nat.eqb_eq. apply H2. apply in_seq. lia.
Qed.

Lemma complete_perm (ps : list prog) (s1 s2 : list nat) :
  complete ps s1 -> complete ps s2 -> Permutation s1 s2.
Proof.
  intros [H1a H1b] [H2a H2b].
  apply (Permutation_count_occ Nat.eq_dec). intros a.
  destruct (Nat.lt_ge_cases a (length ps)) as [Hlt|Hge].
  - rewrite H1b, H2b by exact Hlt. reflexivity.
  - assert (N1 : ~ In a s1) by (intros H; apply H1a in H; lia).
    assert (N2 : ~ In a s2) by (intros H; apply H2a in H; lia).
    apply (count_occ_not_In Nat.eq_dec) in N1.
    apply (count_occ_not_In Nat.eq_dec) in N2.
    rewrite N1, N2. reflexivity.
Qed.

(** Strong form: the whole final configuration (memory AND thread states) is the same, and
    [in_range] is not needed ([upd] outside the memory is a no-op and reads outside return 0). *)
Theorem independent_iterations_commute_strong (ps : list prog) (m0 : mem) (sched : list nat) :
  independent ps -> complete ps sched ->
  run sched m0 (init_threads ps) = run (seq_sched ps) m0 (init_threads ps).
Proof.
  intros Hind Hc.
  apply run_perm.
  - apply (complete_perm ps); [exact Hc | apply seq_sched_complete].
  - apply independent_indep_ts. exact Hind.
Qed.

Theorem independent_iterations_commute (ps : list prog) (m0 : mem) (sched : list nat) :
  independent ps -> in_range ps (length m0) -> complete ps sched ->
  fst (run sched m0 (init_threads ps)) = fst (run (seq_sched ps) m0 (init_threads ps)).
Proof.
  intros Hind _ Hc.
  rewrite (independent_iterations_commute_strong ps m0 sched Hind Hc). reflexivity.
Qed.

Theorem independent_b_sound (ps : list prog) : independent_b ps = true -> independent ps.
Proof.
  unfold independent_b, independent.
  intros Hb a b Ha Hbl Hab c Hc.
  rewrite forallb_forall in Hb.
  specialize (Hb a ltac:(apply in_seq; lia)). rewrite forallb_forall in Hb.
  specialize (Hb b ltac:(apply in_seq; lia)).
  apply orb_true_iff in Hb. destruct Hb as [E|Hb].
  - apply Nat.eqb_eq in E. contradiction.
  - rewrite forallb_forall in Hb. specialize (Hb c Hc).
    apply andb_true_iff in Hb. destruct Hb as [Hr Hw].
    apply negb_true_iff in Hr. apply negb_true_iff in Hw.
    split; apply memn_false; assumption.
Qed.

(** The legacy sweep [legacy_diteration_two_nodes] is rejected by the checker. *)
Lemma legacy_diteration_not_independent_b : independent_b legacy_diteration_two_nodes = false.
Proof. vm_compute. reflexivity. Qed.

(** Loop shape "a[i] op= f(read-only data, a[i])" (push.pyx initialisation): iteration i writes only cell i and
    reads only cell i or cells of a read-only region (index >= number of iterations). *)
Lemma own_cell_writes_independent (ps : list prog) :
  (forall a c, a < length ps -> In c (writes (nth a ps [])) -> c = a) ->
  (forall a c, a < length ps -> In c (reads (nth a ps [])) -> c = a \/ length ps <= c) ->
  independent ps.
Proof.
  intros Hw Hr a b Ha Hb Hab c Hc.
  apply Hw in Hc; [|exact Ha]. subst c. split.
  - intros Hin. apply Hr in Hin; [|exact Hb]. destruct Hin as [E|E]; [congruence|lia].
  - intros Hin. apply Hw in Hin; [|exact Hb]. congruence.
Qed.

(** Loop shape "reduction only" (triangles.pyx): iterations write no shared cell at all. *)
Lemma write_free_independent (ps : list prog) :
  (forall a, a < length ps -> writes (nth a ps []) = []) -> independent ps.
Proof.
  intros H a b Ha Hb Hab c Hc. rewrite (H a Ha) in Hc. contradiction.
Qed.

Print Assumptions independent_iterations_commute.
Print Assumptions independent_iterations_commute_strong.
Print Assumptions independent_b_sound.
Print Assumptions seq_sched_complete.
