(** Proofs about the path-confinement model (Model/PathSafe.v). *)
From Coq Require Import String Ascii List Bool Arith Lia.
From SKN Require Import Model.PathSafe.
Import ListNotations.
Local Open Scope string_scope.

Lemma split_not_nil c s : split c s <> [].
Proof.
  destruct s as [|a t]; simpl; [discriminate|].
  destruct (Ascii.eqb a c); [discriminate|]. destruct (split c t); discriminate.
Qed.

Lemma split_no_sep c s : Forall (fun x => contains c x = false) (split c s).
Proof.
  induction s as [|a t IH]; simpl.
  - constructor; [reflexivity|constructor].
  - destruct (Ascii.eqb a c) eqn:E.
    + constructor; [reflexivity|exact IH].
    + destruct (split c t) as [|h r] eqn:S.
      * constructor; [simpl; rewrite E; reflexivity | constructor].
      * inversion IH as [|? ? Hh Hr]; subst.
        constructor; [simpl; rewrite E; exact Hh | exact Hr].
Qed.

Lemma split_free c x : contains c x = false -> split c x = [x].
Proof.
  induction x as [|a t IH]; simpl; intros H; [reflexivity|].
  apply orb_false_iff in H as [E H]. rewrite E. rewrite (IH H). reflexivity.
Qed.

Lemma split_app c x rest :
  contains c x = false -> split c (x ++ String c rest) = x :: split c rest.
Proof.
  induction x as [|a t IH]; simpl; intros H.
  - rewrite Ascii.eqb_refl. reflexivity.
  - apply orb_false_iff in H as [E H]. rewrite E. rewrite (IH H). reflexivity.
Qed.

Lemma join_cons c x y t :
  join (String c "") (x :: y :: t) = x ++ String c (join (String c "") (y :: t)).
Proof. reflexivity. Qed.

Lemma split_join c l :
  l <> [] -> Forall (fun x => contains c x = false) l ->
  split c (join (String c "") l) = l.
Proof.
  induction l as [|x t IH]; intros Hne HF; [congruence|].
  inversion HF as [|? ? Hx Ht]; subst.
  destruct t as [|y t'].
  - simpl. apply split_free; exact Hx.
  - rewrite join_cons, (split_app c x _ Hx), IH; [reflexivity|discriminate|exact Ht].
Qed.

Definition clean (x : string) : Prop := contains slash x = false /\ x <> "" /\ x <> ".".

Lemma norm_loop_Forall (P : string -> Prop) absolute comps : forall acc,
  (forall x, In x comps -> x <> "" -> x <> "." -> P x) ->
  Forall P acc -> Forall P (norm_loop absolute acc comps).
Proof.
  induction comps as [|c t IH]; intros acc Hc Ha; simpl.
  - apply Forall_rev. exact Ha.
  - assert (Ht : forall x, In x t -> x <> "" -> x <> "." -> P x).
    { intros x Hx. apply Hc. right. exact Hx. }
    destruct (String.eqb c "") eqn:E1; simpl; [apply IH; assumption|].
    destruct (String.eqb c ".") eqn:E2; simpl; [apply IH; assumption|].
    assert (Pc : P c).
    { apply Hc; [left; reflexivity | apply String.eqb_neq; exact E1 | apply String.eqb_neq; exact E2]. }
    destruct (String.eqb c "..") eqn:E3; simpl.
    + destruct acc as [|l acc'].
      * destruct absolute; apply IH; try assumption. constructor; [exact Pc|constructor].
      * inversion Ha as [|? ? Hl Hacc']; subst.
        destruct (String.eqb l ".."); apply IH; try assumption.
        constructor; [exact Pc|exact Ha].
    + apply IH; [assumption|]. constructor; [exact Pc|exact Ha].
Qed.

Lemma norm_comps_clean s : Forall clean (norm_comps s).
Proof.
  unfold norm_comps. apply norm_loop_Forall; [|constructor].
  intros x Hx H1 H2. split; [|split; assumption].
  pose proof (split_no_sep slash s) as F. rewrite Forall_forall in F. apply F; exact Hx.
Qed.

Lemma comps_clean cwd s : Forall clean (comps cwd s).
Proof. apply norm_comps_clean. Qed.

Lemma filter_clean l :
  Forall clean l -> filter (fun c => negb (String.eqb c "" || String.eqb c ".")) l = l.
Proof.
  induction l as [|x t IH]; intros H; [reflexivity|].
  inversion H as [|? ? [_ [H1 H2]] Ht]; subst. simpl.
  apply String.eqb_neq in H1. apply String.eqb_neq in H2. rewrite H1, H2. simpl.
  rewrite (IH Ht). reflexivity.
Qed.

Lemma path_fields_join l : Forall clean l -> path_fields (join sl l) = l.
Proof.
  intros H. destruct l as [|x t]; [reflexivity|].
  unfold path_fields, sl. rewrite split_join; [apply filter_clean; exact H|discriminate|].
  eapply Forall_impl; [|exact H]. intros y [Hy _]. exact Hy.
Qed.

Lemma path_fields_abs k l :
  1 <= k -> Forall clean l -> path_fields (slashes k ++ join sl l) = l.
Proof.
  (* [path_fields] skips a leading slash by computation *)
  intros Hk H. destruct k as [|[|k]]; [lia | |]; exact (path_fields_join l H).
Qed.

Lemma join_clean_inj a b : Forall clean a -> Forall clean b -> join sl a = join sl b -> a = b.
Proof.
  intros Ha Hb E. rewrite <- (path_fields_join a Ha), E. apply path_fields_join, Hb.
Qed.

Lemma starts_with_slash_inv s : starts_with_slash s = true -> exists t, s = String slash t.
Proof.
  destruct s as [|a t]; simpl; [discriminate|]. intros H. apply Ascii.eqb_eq in H. subst. exists t. reflexivity.
Qed.

Lemma abs_arg_abs cwd s : starts_with_slash cwd = true -> starts_with_slash (abs_arg cwd s) = true.
Proof.
  intros Hc. unfold abs_arg. destruct (starts_with_slash s) eqn:Es; [exact Es|].
  unfold path_join. rewrite Es.
  destruct (starts_with_slash_inv _ Hc) as [t ->].
  destruct (String.eqb (String slash t) "" || ends_with_slash (String slash t))%bool; reflexivity.
Qed.

Lemma initial_slashes_abs t : 1 <= initial_slashes (String slash t) <= 2.
Proof.
  destruct t as [|b [|c t']]; simpl.
  - lia.
  - destruct (Ascii.eqb b slash); lia.
  - destruct (Ascii.eqb b slash); [destruct (Ascii.eqb c slash)|]; lia.
Qed.

Lemma abspath_form cwd s :
  starts_with_slash cwd = true ->
  abspath cwd s = slashes (initial_slashes (abs_arg cwd s)) ++ join sl (comps cwd s) /\
  1 <= initial_slashes (abs_arg cwd s) <= 2.
Proof.
  intros Hc. unfold abspath, comps, normpath.
  destruct (starts_with_slash_inv _ (abs_arg_abs cwd s Hc)) as [t Et]. rewrite Et.
  pose proof (initial_slashes_abs t) as Hk.
  split; [|exact Hk].
  change (String.eqb (String slash t) "") with false. cbv iota.
  destruct (initial_slashes (String slash t)) as [|[|k]]; [lia| |]; reflexivity.
Qed.

Lemma slashes_abs k r : 1 <= k -> starts_with_slash (slashes k ++ r) = true.
Proof. intros Hk. destruct k as [|[|k]]; [lia| |]; reflexivity. Qed.

Lemma common_list_prefix a : forall b, common_list a b = a <-> prefix a b.
Proof.
  induction a as [|x a' IH]; intros b; simpl.
  - destruct b; tauto.
  - destruct b as [|y b']; [split; [discriminate|tauto]|].
    destruct (String.eqb x y) eqn:E.
    + apply String.eqb_eq in E. subst y. rewrite <- IH. split.
      * intros H. injection H as H. split; [reflexivity|exact H].
      * intros [_ H]. rewrite H. reflexivity.
    + apply String.eqb_neq in E. split; [discriminate|]. intros [H _]. contradiction.
Qed.

Lemma common_list_Forall (P : string -> Prop) a : forall b, Forall P a -> Forall P (common_list a b).
Proof.
  induction a as [|x a' IH]; intros b H; simpl; [destruct b; constructor|].
  destruct b as [|y b']; [constructor|]. inversion H as [|? ? Hx Ha]; subst.
  destruct (String.eqb x y); constructor; [exact Hx|apply IH; exact Ha].
Qed.

Lemma prefixb_prefix a : forall b, prefixb a b = true <-> prefix a b.
Proof.
  induction a as [|x a' IH]; intros b; simpl; [tauto|].
  destruct b as [|y b']; [split; [discriminate|tauto]|].
  rewrite andb_true_iff, String.eqb_eq, IH. tauto.
Qed.

Lemma apply_norm_abspath n cwd s : n <> NoNorm -> apply_norm n cwd s = abspath cwd s.
Proof. destruct n; [reflexivity|reflexivity|contradiction]. Qed.

Theorem within_iff_commonpath (nd nt : path_norm) (cwd d t : string) :
  nd <> NoNorm -> nt <> NoNorm ->
  starts_with_slash cwd = true -> single_root cwd d ->
  (is_within_with CommonPath nd nt cwd d t = true <-> prefix (comps cwd d) (comps cwd t)).
Proof.
  intros Hnd Hnt Hc Hroot. unfold is_within_with. rewrite !apply_norm_abspath by assumption.
  destruct (abspath_form cwd d Hc) as [Ed Hkd]. destruct (abspath_form cwd t Hc) as [Et Hkt].
  unfold single_root in Hroot. rewrite Hroot in Ed. clear Hkd.
  rewrite Ed, Et. unfold commonpath.
  rewrite (slashes_abs 1 _ (le_n 1)), (slashes_abs _ _ (proj1 Hkt)). simpl Bool.eqb. cbv iota.
  rewrite (path_fields_abs 1 _ (le_n 1) (comps_clean cwd d)).
  rewrite (path_fields_abs _ _ (proj1 Hkt) (comps_clean cwd t)).
  rewrite String.eqb_eq. rewrite <- common_list_prefix.
  simpl slashes. split.
  - intros H. injection H as H. apply join_clean_inj in H; [exact H| |apply comps_clean].
    apply common_list_Forall. apply comps_clean.
  - intros H. rewrite H. reflexivity.
Qed.
