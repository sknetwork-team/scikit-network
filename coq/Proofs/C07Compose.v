(** Property C07: what it demands of a dendrogram ([good_dendrogram]) the post-processing chain that the two Louvain
    hierarchies share ([postprocess_valid]), and the generated check of the tie rule of paris.pyx
    ([paris_source_tie_exact]); the end-to-end statements are composed in Props/C07.v. *)
From Coq Require Import Lia QArith.
From SKN Require Import Base.Util Model.Dendrogram Model.Cuts Model.Hierarchy Proofs.DendroBase Proofs.HierarchyBase
     Proofs.HierarchyProofs Proofs.GetDendrogramProofs Gen.ParisSrc.
Close Scope Q_scope.

(** What the property demands of one dendrogram attribute over n nodes: it is valid (n - 1 rows, row t merges two
    distinct clusters existing at step t, each merged once, last size n), the size column counts the leaves
    below each merge, and the heights never decrease. *)
Definition good_dendrogram (n : nat) (D : dendrogram) : Prop :=
  valid n D = true /\
  (forall k r, nth_error D k = Some r -> r_size r = length (leaves n D (n + k))) /\
  sortedq (heights D) = true.

Lemma good_of_valid_sorted n D : valid n D = true -> sortedq (heights D) = true -> good_dendrogram n D.
Proof. intros Hv Hs. split; [exact Hv|]. split; [exact (valid_size_leaves n D Hv) | exact Hs]. Qed.

(** tree -> rows -> shifted heights -> reordered: the post-processing shared by the two Louvain hierarchies. *)
Lemma postprocess_valid n t : tree_ok n t -> exists D, postprocess t = Ok D /\ good_dendrogram n D.
Proof.
  intros Ht. destruct (get_dendrogram_valid n t Ht) as (D0 & E0 & Hv0 & Hm0 & _).
  assert (Hn := tree_ok_two n t Ht).
  assert (Hne : D0 <> []).
  { intros ->. apply valid_wf in Hv0. destruct Hv0 as [Hlen _ _ _]. simpl in Hlen. lia. }
  destruct (shift_heights_valid n D0 Hv0 Hne) as (D1 & E1 & Hv1 & Hm1 & _).
  destruct (reorder_valid n D1 Hv1 (Hm1 Hm0)) as (D2 & E2 & Hv2 & Hs2 & _).
  exists D2. split; [|now apply good_of_valid_sorted].
  unfold postprocess. rewrite E0, E1. exact E2.
Qed.

(** The source's tie branch is the exact test with the smallest-index choice (generated fact; [reflexivity] fails —
    and with it this file — as soon as paris.pyx uses any other tie rule). *)
Lemma paris_source_tie_exact : paris_src_tie_exact = true.
Proof. reflexivity. Qed.
