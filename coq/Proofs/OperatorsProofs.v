(** C15 — lemmas: the operators of Model/Operators.v (SparseLR, Normalizer, Laplacian, CoNeighbor, Polynome:
    matvec, matmat, algebraic operations, expressions) denote their dense definitions (Base/QMat.v)
    ([slr_matvec_denotes], [se_denotes] ...; [slr_is] / [cn_is] are the denotation relations), and the lemmas
    about the utilities.  The per-operator and per-utility theorems are stated in Props/C15.v over these. *)
From SKN Require Import Base.Util Base.QMat Model.Operators.
From Coq Require Import QArith Qabs Lqa Psatz Setoid Morphisms Permutation Sorted.
Local Open Scope Q_scope.

(** [vlen] computes the length of a vector expression (rewrite base [vlen]) and leaves the comparison to [lia];
    [auto with wf] (Base/QMat.v) finds the shape of a matrix expression. *)
Global Hint Rewrite vadd_length vsub_length vmul_length vscale_length vneg_length vzero_length vones_length
  vconst_length mat_vec_length unit_length row_sums_length col_sums_length col_length
  map_length seq_length app_length repeat_length @map2_length : vlen.
Ltac vlen := autorewrite with vlen; try lia.

Lemma Qlt_b_false a b : Qlt_b a b = false <-> b <= a.
Proof.
  unfold Qlt_b. rewrite negb_false_iff. apply Qle_bool_iff.
Qed.
Lemma Qlt_b_true a b : Qlt_b a b = true <-> a < b.
Proof. rewrite <- Bool.not_false_iff_true, Qlt_b_false. split; [apply Qnot_le_lt | apply Qlt_not_le]. Qed.

Lemma qnat_nonzero n : (0 < n)%nat -> ~ qnat n == 0.
Proof.
  intros H E. unfold qnat, Qeq in E. simpl in E. lia.
Qed.
Lemma qnat_pos n : (0 < n)%nat -> 0 < qnat n.
Proof. intros H. unfold qnat, Qlt. simpl. lia. Qed.

Global Instance pinv_proper : Proper (Qeq ==> Qeq) pinv.
Proof.
  intros a b E. unfold pinv. rewrite (Qeqb_comp a b E 0 0 (Qeq_refl 0)).
  destruct (Qeq_bool b 0); [reflexivity | rewrite E; reflexivity].
Qed.
Lemma pinv_inv q : ~ q == 0 -> pinv q * q == 1.
Proof.
  intros H. unfold pinv. destruct (Qeq_bool q 0) eqn:E.
  - apply Qeq_bool_iff in E. contradiction.
  - rewrite Qmult_comm. apply Qmult_inv_r. exact H.
Qed.
Lemma pinv_Qinv q : pinv q == / q.
Proof.
  unfold pinv. destruct (Qeq_bool q 0) eqn:E; [|reflexivity].
  apply Qeq_bool_iff in E. rewrite E. reflexivity.
Qed.

Global Instance map_pinv_instance : Proper (veq ==> veq) (map pinv).
Proof. intros u v H. apply (map_veq pinv pinv); [apply pinv_proper | exact H]. Qed.

Lemma sumq_map_scale {A} (f : A -> Q) c l : sumq (map (fun a => c * f a) l) == c * sumq (map f l).
Proof. induction l as [|a l IH]; simpl; [ring|]. rewrite IH. ring. Qed.
Lemma sumq_map_opp {A} (f : A -> Q) l : sumq (map (fun a => - f a) l) == - sumq (map f l).
Proof. induction l as [|a l IH]; simpl; [ring|]. rewrite IH. ring. Qed.
Lemma sumq_zero l : (forall q, In q l -> q == 0) -> sumq l == 0.
Proof. intros H. rewrite <- (map_id l). apply Util.sumq_zero, H. Qed.

Lemma entry_nil j : entry [] j = 0. Proof. reflexivity. Qed.
Lemma entry_cons e row j : entry (e :: row) j == (if Nat.eqb (fst e) j then snd e else 0) + entry row j.
Proof. unfold entry. simpl. destruct (Nat.eqb (fst e) j); simpl; ring. Qed.
Lemma entry_app r1 r2 j : entry (r1 ++ r2) j == entry r1 j + entry r2 j.
Proof. unfold entry. rewrite filter_app, map_app, sumq_app. reflexivity. Qed.
(** a map on the stored values that is linear acts on the entries (duplicates are summed) *)
Lemma entry_map_lin (f : Q -> Q) c row j : (forall q, f q == c * q) ->
  entry (map (fun e => (fst e, f (snd e))) row) j == c * entry row j.
Proof.
  intros Hf. induction row as [|e row IH]; [unfold entry; simpl; ring|]. simpl map. rewrite !entry_cons, IH. simpl.
  destruct (Nat.eqb (fst e) j); [rewrite Hf|]; ring.
Qed.
Lemma entry_absent row j : (forall e, In e row -> fst e <> j) -> entry row j == 0.
Proof.
  intros H. induction row as [|e row IH]; [reflexivity|].
  rewrite entry_cons, IH by (intros e' He'; apply H; right; exact He').
  rewrite (proj2 (Nat.eqb_neq (fst e) j)) by (apply H; left; reflexivity). ring.
Qed.
Lemma entry_out n row j : srow_wf n row -> (n <= j)%nat -> entry row j == 0.
Proof. intros W Hj. apply entry_absent. intros e He. apply (proj1 (Forall_forall _ _) W) in He. lia. Qed.

Lemma dense_row_length n row : length (dense_row n row) = n.
Proof. unfold dense_row. vlen. Qed.
Global Hint Rewrite dense_row_length : vlen.
Lemma nthq_dense_row n row j : (j < n)%nat -> nthq (dense_row n row) j = entry row j.
Proof. intros H. unfold dense_row. apply nthq_seq_map; exact H. Qed.
Lemma dense_length s : length (dense s) = s_nrow s.
Proof. apply map_length. Qed.
Global Hint Rewrite dense_length : vlen.
Lemma dense_wf s : wf_mat (s_nrow s) (s_ncol s) (dense s).
Proof.
  split; [apply dense_length|]. unfold dense. apply Forall_map, Forall_forall. intros row _. apply dense_row_length.
Qed.
Lemma dense_wf_sq s : s_nrow s = s_ncol s -> wf_mat (s_nrow s) (s_nrow s) (dense s).
Proof. intros H. rewrite H at 2. apply dense_wf. Qed.
Lemma nth_dense s i : (i < s_nrow s)%nat -> nth i (dense s) [] = dense_row (s_ncol s) (nth i (s_rows s) []).
Proof. intros H. unfold dense. apply (nth_map_gen (dense_row (s_ncol s)) (s_rows s) []). exact H. Qed.
Lemma mget_dense s i j : (i < s_nrow s)%nat -> (j < s_ncol s)%nat -> mget (dense s) i j = entry (nth i (s_rows s) []) j.
Proof. intros Hi Hj. unfold mget. rewrite nth_dense by exact Hi. apply nthq_dense_row; exact Hj. Qed.

Lemma swf_row s i : swf s -> srow_wf (s_ncol s) (nth i (s_rows s) []).
Proof.
  intros W. destruct (Nat.lt_ge_cases i (s_nrow s)) as [H|H].
  - unfold swf in W. rewrite Forall_forall in W. apply W. apply nth_In. exact H.
  - rewrite nth_overflow by exact H. constructor.
Qed.

Lemma dense_row_cons n e row :
  dense_row n (e :: row) =v vadd (vscale (snd e) (unit n (fst e))) (dense_row n row).
Proof.
  apply veq_nth; [vlen|]. intros j Hj. rewrite dense_row_length in Hj.
  rewrite nthq_vadd by vlen. rewrite nthq_vscale by vlen. rewrite nthq_unit by exact Hj.
  rewrite !nthq_dense_row by exact Hj. rewrite entry_cons. destruct (Nat.eqb (fst e) j); ring.
Qed.
Lemma dense_row_nil n : dense_row n [] =v vzero n.
Proof.
  apply veq_nth; [vlen|]. intros j Hj. rewrite dense_row_length in Hj.
  rewrite nthq_dense_row by exact Hj. rewrite nthq_vzero. reflexivity.
Qed.

Lemma srow_dot_dense n row x : srow_wf n row -> length x = n -> srow_dot row x == dot (dense_row n row) x.
Proof.
  intros W Hx. induction W as [|e row He W IH].
  - rewrite dense_row_nil, dot_vzero_l. reflexivity.
  - rewrite dense_row_cons. rewrite dot_vadd_l by vlen. rewrite dot_vscale_l, dot_unit_l by (auto; lia).
    rewrite <- IH. unfold srow_dot. simpl. ring.
Qed.
Lemma smv_length s x : length (smv s x) = s_nrow s.
Proof. apply map_length. Qed.
Global Hint Rewrite smv_length : vlen.
Theorem smv_dense s x : swf s -> length x = s_ncol s -> smv s x =v mat_vec (dense s) x.
Proof.
  intros W Hx. unfold smv, dense, mat_vec. rewrite map_map. unfold swf in W.
  induction W as [|row rows Hr W IH]; simpl; constructor; auto. apply srow_dot_dense; assumption.
Qed.

Lemma srow_mat_dense n k row X : srow_wf n row -> wf_mat n k X -> srow_mat k row X =v vec_mat k (dense_row n row) X.
Proof.
  intros W WX. pose proof (wf_mat_rows _ _ _ WX) as FX. induction W as [|e row He W IH].
  - rewrite dense_row_nil, vec_mat_vzero_l by exact FX. reflexivity.
  - rewrite dense_row_cons. rewrite vec_mat_vadd_l by (auto; vlen).
    rewrite vec_mat_vscale_l by exact FX. rewrite (vec_mat_unit n k) by assumption.
    unfold srow_mat in *. simpl. rewrite IH. reflexivity.
Qed.
Theorem smm_dense k s X : swf s -> wf_mat (s_ncol s) k X -> smm k s X =m mat_mul k (dense s) X.
Proof.
  intros W WX. unfold smm, dense, mat_mul. rewrite map_map. unfold swf in W.
  induction W as [|row rows Hr W IH]; simpl; constructor; auto. apply (srow_mat_dense (s_ncol s)); assumption.
Qed.
Lemma smm_wf k s X : swf s -> wf_mat (s_ncol s) k X -> wf_mat (s_nrow s) k (smm k s X).
Proof.
  intros W WX. eapply wf_mat_meq; [symmetry; apply smm_dense; assumption|].
  eapply mat_mul_wf; [apply dense_wf | exact WX].
Qed.
Global Hint Resolve dense_wf smm_wf : wf.
Global Instance smv_proper : Proper (eq ==> veq ==> veq) smv.
Proof.
  intros s s' <- x x' Hx. apply map_ext_veq. intros row _. apply sumq_proper, map_ext_veq. intros e _.
  rewrite Hx. reflexivity.
Qed.
Global Instance smm_proper : Proper (eq ==> eq ==> meq ==> meq) smm.
Proof.
  intros k k' <- s s' <- X X' HX. apply map_ext_meq. intros row _. apply vsum_proper; [reflexivity|].
  apply map_ext_meq. intros e _. apply vscale_proper; [reflexivity | apply meq_nth_row; exact HX].
Qed.

Lemma smap_ncol f s : s_ncol (smap f s) = s_ncol s. Proof. reflexivity. Qed.
Lemma smap_nrow f s : s_nrow (smap f s) = s_nrow s. Proof. unfold s_nrow, smap; simpl. apply map_length. Qed.
Lemma swf_smap f s : swf s -> swf (smap f s).
Proof.
  unfold swf, smap; simpl. intros W. induction W as [|row rows Hr W IH]; simpl; constructor; auto.
  clear IH W. induction Hr as [|e row He Hr IH]; simpl; constructor; auto.
Qed.
Lemma dense_row_map_lin n (f : Q -> Q) c row : (forall q, f q == c * q) ->
  dense_row n (map (fun e => (fst e, f (snd e))) row) =v vscale c (dense_row n row).
Proof.
  intros Hf. apply veq_nth; [vlen|]. intros j Hj. rewrite dense_row_length in Hj.
  rewrite nthq_vscale by vlen. rewrite !nthq_dense_row by exact Hj. apply entry_map_lin, Hf.
Qed.
Lemma dense_smap_lin (f : Q -> Q) c s : (forall q, f q == c * q) -> dense (smap f s) =m mscale c (dense s).
Proof.
  intros Hf. unfold dense, smap, mscale; simpl. rewrite !map_map. apply map_ext_meq. intros row _. apply dense_row_map_lin, Hf.
Qed.
Lemma dense_sscale c s : dense (sscale c s) =m mscale c (dense s).
Proof. apply dense_smap_lin. reflexivity. Qed.
Lemma dense_sneg s : dense (sneg s) =m mneg (dense s).
Proof. rewrite mneg_mscale. apply dense_smap_lin. intros q. ring. Qed.

Lemma sadd_ncol a b : s_ncol (sadd a b) = s_ncol a. Proof. reflexivity. Qed.
Lemma sadd_nrow a b : s_nrow a = s_nrow b -> s_nrow (sadd a b) = s_nrow a.
Proof. unfold s_nrow, sadd; simpl. intros H. rewrite map2_length. lia. Qed.
Lemma swf_sadd a b : swf a -> swf b -> s_ncol a = s_ncol b -> swf (sadd a b).
Proof.
  unfold swf, sadd; simpl. intros Wa Wb E. rewrite <- E in Wb. revert Wb. generalize (s_rows b).
  induction Wa as [|row rows Hr Wa IH]; intros [|row' rows'] Wb; simpl; constructor; inversion Wb; subst.
  - apply Forall_app; split; assumption.
  - apply IH; assumption.
Qed.
Lemma dense_row_app n r1 r2 : dense_row n (r1 ++ r2) =v vadd (dense_row n r1) (dense_row n r2).
Proof.
  apply veq_nth; [vlen|]. intros j Hj. rewrite dense_row_length in Hj.
  rewrite nthq_vadd by vlen. rewrite !nthq_dense_row by exact Hj. apply entry_app.
Qed.
Lemma dense_sadd a b : s_ncol a = s_ncol b -> dense (sadd a b) =m madd (dense a) (dense b).
Proof.
  intros E. unfold dense, sadd, madd; simpl. rewrite <- E. generalize (s_rows b).
  induction (s_rows a) as [|row rows IH]; intros [|row' rows']; simpl; constructor; [apply dense_row_app | apply IH].
Qed.

Lemma stranspose_ncol s : s_ncol (stranspose s) = s_nrow s. Proof. reflexivity. Qed.
Lemma stranspose_nrow s : s_nrow (stranspose s) = s_ncol s.
Proof. unfold s_nrow, stranspose; simpl. vlen. Qed.
Lemma In_tcol j i0 rows i v :
  In (i, v) (tcol j i0 rows) <-> (i0 <= i)%nat /\ (i < i0 + length rows)%nat /\ In (j, v) (nth (i - i0) rows []).
Proof.
  revert i0; induction rows as [|r rows IH]; intros i0; simpl.
  - split; [contradiction|]. intros (H1 & H2 & _). lia.
  - rewrite in_app_iff, IH, in_map_iff. split.
    + intros [[e [He Hf]] | (H1 & H2 & H3)].
      * injection He as <- <-. apply filter_In in Hf. destruct Hf as [Hf Hj]. apply Nat.eqb_eq in Hj.
        rewrite Nat.sub_diag. split; [lia|]. split; [lia|]. rewrite <- Hj. destruct e; exact Hf.
      * split; [lia|]. split; [lia|]. replace (i - i0)%nat with (S (i - S i0)) by lia. exact H3.
    + intros (H1 & H2 & H3). destruct (Nat.eq_dec i i0) as [->|Hne].
      * left. rewrite Nat.sub_diag in H3. exists (j, v). split; [reflexivity|]. apply filter_In. split; [exact H3|]. apply Nat.eqb_refl.
      * right. split; [lia|]. split; [lia|]. replace (i - i0)%nat with (S (i - S i0)) in H3 by lia. exact H3.
Qed.
Lemma tcol_wf j i0 rows : srow_wf (i0 + length rows) (tcol j i0 rows).
Proof. apply Forall_forall. intros [i v] H. apply In_tcol in H. simpl. lia. Qed.
Lemma swf_stranspose s : swf (stranspose s).
Proof.
  unfold swf, stranspose; simpl. apply Forall_map, Forall_forall. intros j _. apply (tcol_wf j 0).
Qed.
Lemma smm_stranspose_wf k s X : wf_mat (s_nrow s) k X -> wf_mat (s_ncol s) k (smm k (stranspose s) X).
Proof. intros WX. rewrite <- (stranspose_nrow s). apply smm_wf; [apply swf_stranspose | exact WX]. Qed.
Global Hint Resolve swf_stranspose smm_stranspose_wf : wf.
Lemma entry_map_const (i0 : nat) (row : list (nat * Q)) i :
  entry (map (fun e => (i0, snd e)) row) i == if Nat.eqb i0 i then sumq (map snd row) else 0.
Proof.
  induction row as [|e row IH]; [rewrite entry_nil; destruct (Nat.eqb i0 i); reflexivity|].
  simpl map. rewrite entry_cons, IH. simpl. destruct (Nat.eqb i0 i); ring.
Qed.
Lemma entry_tcol_lt j i0 rows i : (i < i0)%nat -> entry (tcol j i0 rows) i == 0.
Proof. intros Hi. apply entry_absent. intros [i' v] H. apply In_tcol in H. simpl. lia. Qed.
Lemma entry_tcol j i0 rows k : entry (tcol j i0 rows) (i0 + k) == entry (nth k rows []) j.
Proof.
  revert i0 k; induction rows as [|r rows IH]; intros i0 k; simpl; [destruct k; reflexivity|].
  rewrite entry_app, entry_map_const. destruct k as [|k].
  - rewrite Nat.add_0_r, Nat.eqb_refl, entry_tcol_lt by lia. unfold entry. ring.
  - rewrite (proj2 (Nat.eqb_neq i0 (i0 + S k))) by lia. rewrite <- Nat.add_succ_comm, IH. ring.
Qed.
Theorem dense_stranspose s : dense (stranspose s) =m transpose_n (s_ncol s) (dense s).
Proof.
  apply (meq_mget (s_ncol s) (s_nrow s)).
  - pose proof (dense_wf (stranspose s)) as W. rewrite stranspose_nrow, stranspose_ncol in W. exact W.
  - apply transpose_n_wf. apply dense_length.
  - intros j i Hj Hi. rewrite mget_transpose_n by (rewrite ?dense_length; assumption).
    rewrite mget_dense by (rewrite ?stranspose_nrow, ?stranspose_ncol; assumption).
    rewrite mget_dense by assumption.
    unfold stranspose; simpl. rewrite nth_seq_map by exact Hj. apply (entry_tcol j 0).
Qed.

Lemma smul_ncol a b : s_ncol (smul a b) = s_ncol b. Proof. reflexivity. Qed.
Lemma smul_nrow a b : s_nrow (smul a b) = s_nrow a. Proof. unfold s_nrow, smul; simpl. vlen. Qed.
Lemma srow_mul_wf row b : swf b -> srow_wf (s_ncol b) (srow_mul row b).
Proof.
  intros W. unfold srow_mul, srow_wf. rewrite Forall_forall. intros e He. apply in_flat_map in He.
  destruct He as [e' [_ He]]. apply in_map_iff in He. destruct He as [f [<- Hf]]. simpl.
  pose proof (swf_row b (fst e') W) as Wr. unfold srow_wf in Wr. rewrite Forall_forall in Wr. apply Wr; exact Hf.
Qed.
Lemma swf_smul a b : swf b -> swf (smul a b).
Proof.
  intros W. unfold swf, smul; simpl. apply Forall_map, Forall_forall. intros row _. apply srow_mul_wf; exact W.
Qed.
Lemma srow_mul_dense n row b : srow_wf n row -> s_nrow b = n ->
  dense_row (s_ncol b) (srow_mul row b) =v vec_mat (s_ncol b) (dense_row n row) (dense b).
Proof.
  intros W Hn. pose proof (dense_wf b) as WB. rewrite Hn in WB. pose proof (wf_mat_rows _ _ _ WB) as FB.
  induction W as [|e row He W IH].
  - rewrite dense_row_nil, vec_mat_vzero_l by exact FB. unfold srow_mul; simpl. apply dense_row_nil.
  - rewrite dense_row_cons. rewrite vec_mat_vadd_l by (auto; vlen). rewrite vec_mat_vscale_l by exact FB.
    rewrite (vec_mat_unit n (s_ncol b)) by assumption.
    unfold srow_mul in *; simpl. rewrite dense_row_app, IH, (dense_row_map_lin _ _ (snd e)) by reflexivity.
    rewrite nth_dense by lia. reflexivity.
Qed.
Theorem dense_smul a b : swf a -> s_ncol a = s_nrow b -> dense (smul a b) =m mat_mul (s_ncol b) (dense a) (dense b).
Proof.
  intros W E. unfold dense at 1 2, smul, mat_mul; simpl. rewrite !map_map. unfold swf in W.
  induction W as [|row rows Hr W IH]; simpl; constructor; auto. apply srow_mul_dense; [exact Hr | symmetry; exact E].
Qed.

Lemma sdiag_ncol w : s_ncol (sdiag w) = length w. Proof. reflexivity. Qed.
Lemma sdiag_nrow w : s_nrow (sdiag w) = length w. Proof. unfold s_nrow, sdiag; simpl. vlen. Qed.
Lemma swf_sdiag w : swf (sdiag w).
Proof.
  unfold swf, sdiag; simpl. apply Forall_map, Forall_forall. intros i Hi.
  apply in_seq in Hi. destruct (Qeq_bool (nthq w i) 0); constructor; simpl; [lia | constructor].
Qed.
Lemma sdiag_pinv_ncol w : s_ncol (sdiag_pinv w) = length w. Proof. reflexivity. Qed.
Lemma sdiag_pinv_nrow w : s_nrow (sdiag_pinv w) = length w. Proof. unfold sdiag_pinv. rewrite smap_nrow. apply sdiag_nrow. Qed.
Lemma swf_sdiag_pinv w : swf (sdiag_pinv w). Proof. apply swf_smap, swf_sdiag. Qed.
Theorem dense_sdiag w : dense (sdiag w) =m diag w.
Proof.
  apply (meq_mget (length w) (length w)).
  - pose proof (dense_wf (sdiag w)) as W. rewrite sdiag_nrow, sdiag_ncol in W. exact W.
  - apply diag_wf.
  - intros i j Hi Hj. rewrite mget_dense by (rewrite ?sdiag_nrow, ?sdiag_ncol; assumption). rewrite mget_diag by assumption.
    unfold sdiag; simpl. rewrite nth_seq_map by exact Hi.
    destruct (Qeq_bool (nthq w i) 0) eqn:E.
    + rewrite entry_nil. apply Qeq_bool_iff in E. destruct (Nat.eqb i j); [symmetry; exact E | reflexivity].
    + rewrite entry_cons, entry_nil. simpl. destruct (Nat.eqb i j); ring.
Qed.
Lemma nth_sdiag_pinv_row w i : (i < length w)%nat ->
  nth i (s_rows (sdiag_pinv w)) [] = if Qeq_bool (nthq w i) 0 then [] else [(i, / nthq w i)].
Proof.
  intros Hi. unfold sdiag_pinv, smap, sdiag; simpl. rewrite map_map. rewrite nth_seq_map by exact Hi.
  destruct (Qeq_bool (nthq w i) 0); reflexivity.
Qed.
Theorem dense_sdiag_pinv w : dense (sdiag_pinv w) =m diag (map pinv w).
Proof.
  apply (meq_mget (length w) (length w)).
  - pose proof (dense_wf (sdiag_pinv w)) as W. rewrite sdiag_pinv_nrow, sdiag_pinv_ncol in W. exact W.
  - pose proof (diag_wf (map pinv w)) as W. rewrite map_length in W. exact W.
  - intros i j Hi Hj. rewrite mget_dense by (rewrite ?sdiag_pinv_nrow, ?sdiag_pinv_ncol; assumption).
    rewrite mget_diag by (rewrite map_length; assumption). rewrite nthq_map, nth_sdiag_pinv_row by exact Hi.
    unfold pinv. destruct (Qeq_bool (nthq w i) 0).
    + rewrite entry_nil. destruct (Nat.eqb i j); reflexivity.
    + rewrite entry_cons, entry_nil. simpl. destruct (Nat.eqb i j); ring.
Qed.
Lemma smv_sdiag_pinv w x : length x = length w -> smv (sdiag_pinv w) x =v vmul (map pinv w) x.
Proof.
  intros H. rewrite smv_dense by (auto using swf_sdiag_pinv). rewrite dense_sdiag_pinv.
  apply mat_vec_diag. rewrite map_length. exact H.
Qed.
Lemma dense_smul_sdiag_pinv w s : s_nrow s = length w ->
  dense (smul (sdiag_pinv w) s) =m row_scale (map pinv w) (dense s).
Proof.
  intros H. rewrite dense_smul by (auto using swf_sdiag_pinv; rewrite sdiag_pinv_ncol; symmetry; exact H).
  rewrite dense_sdiag_pinv. symmetry. apply (row_scale_diag (length w)); [apply map_length|].
  rewrite <- H. apply dense_wf.
Qed.
Lemma smm_sdiag_pinv k w X : wf_mat (length w) k X -> smm k (sdiag_pinv w) X =m row_scale (map pinv w) X.
Proof.
  intros WX. rewrite smm_dense by (auto using swf_sdiag_pinv). rewrite dense_sdiag_pinv.
  symmetry. apply (row_scale_diag (length w)); [apply map_length | exact WX].
Qed.
Definition lrsum (r c : nat) (lr : list (vec * vec)) : mat :=
  fold_right (fun xy D => madd D (outer (fst xy) (snd xy))) (mzero r c) lr.
Definition slr_wfv (v : slr) : Prop := swf (sl_sp v) /\ lr_ok (s_nrow (sl_sp v)) (s_ncol (sl_sp v)) (sl_lr v).

Lemma lrsum_wf r c lr : lr_ok r c lr -> wf_mat r c (lrsum r c lr).
Proof.
  induction 1 as [|xy lr [Hx Hy] _ IH]; simpl; auto with wf.
Qed.
Global Hint Resolve lrsum_wf : wf.

Lemma fold_left_lr r c lr D0 : wf_mat r c D0 -> lr_ok r c lr ->
  fold_left (fun D xy => madd D (outer (fst xy) (snd xy))) lr D0 =m madd D0 (lrsum r c lr).
Proof.
  intros W0 H. revert D0 W0. induction H as [|xy lr [Hx Hy] Hlr IH]; intros D0 W0; simpl.
  - symmetry. apply madd_mzero_r; exact W0.
  - rewrite IH by auto with wf.
    rewrite madd_assoc. apply madd_proper; [reflexivity|]. apply madd_comm.
Qed.
Lemma fold_right_lr r c lr D0 : wf_mat r c D0 -> lr_ok r c lr ->
  fold_right (fun xy D => madd D (outer (fst xy) (snd xy))) D0 lr =m madd D0 (lrsum r c lr).
Proof.
  intros W0 H. induction H as [|xy lr [Hx Hy] Hlr IH]; simpl.
  - symmetry. apply madd_mzero_r; exact W0.
  - rewrite IH. apply madd_assoc.
Qed.
Lemma slr_dense_split v : slr_wfv v ->
  slr_dense v =m madd (dense (sl_sp v)) (lrsum (s_nrow (sl_sp v)) (s_ncol (sl_sp v)) (sl_lr v)).
Proof. intros [W H]. unfold slr_dense. apply fold_left_lr; [apply dense_wf | exact H]. Qed.
Lemma slr_dense_wf v : slr_wfv v -> wf_mat (s_nrow (sl_sp v)) (s_ncol (sl_sp v)) (slr_dense v).
Proof.
  intros Hv. eapply wf_mat_meq; [symmetry; apply slr_dense_split; exact Hv|].
  destruct Hv as [W H]. auto with wf.
Qed.

Lemma fold_left_rel {A B C} (R : A -> B -> Prop) (P : C -> Prop) (f : A -> C -> A) (g : B -> C -> B) l a b :
  Forall P l -> (forall a b x, P x -> R a b -> R (f a x) (g b x)) -> R a b -> R (fold_left f l a) (fold_left g l b).
Proof. intros Hl Hstep. revert a b; induction Hl; simpl; auto. Qed.

Theorem slr_matvec_denotes v x : slr_wfv v -> length x = s_ncol (sl_sp v) ->
  slr_matvec v x =v mat_vec (slr_dense v) x.
Proof.
  intros [W H] Hx. unfold slr_matvec, slr_dense.
  refine (proj2 (proj2 (fold_left_rel (fun acc D => wf_mat (s_nrow (sl_sp v)) (s_ncol (sl_sp v)) D /\
                                         length acc = s_nrow (sl_sp v) /\ acc =v mat_vec D x) _ _ _ _ _ _ H _ _))).
  - intros acc D xy [Hxx Hy] (WD & Hacc & E). split; [auto with wf|]. split; [vlen|].
    rewrite (mat_vec_madd _ _ _ _ x WD (outer_wf' _ _ _ _ Hxx Hy)), mat_vec_outer, E, (dot_comm x). reflexivity.
  - split; [apply dense_wf|]. split; [vlen | apply smv_dense; assumption].
Qed.

Theorem slr_matmat_denotes k v X : slr_wfv v -> wf_mat (s_ncol (sl_sp v)) k X ->
  slr_matmat k v X =m mat_mul k (slr_dense v) X.
Proof.
  intros [W H] WX. unfold slr_matmat, slr_dense.
  refine (proj2 (proj2 (fold_left_rel (fun acc D => wf_mat (s_nrow (sl_sp v)) (s_ncol (sl_sp v)) D /\
                                         wf_mat (s_nrow (sl_sp v)) k acc /\ acc =m mat_mul k D X) _ _ _ _ _ _ H _ _))).
  - intros acc D xy [Hxx Hy] (WD & Wacc & E). split; [auto with wf|]. split.
    + apply madd_wf, outer_wf'; auto. rewrite mat_vec_length. unfold transpose_n. vlen.
    + rewrite (mat_mul_madd_l _ _ _ _ _ X WD (outer_wf' _ _ _ _ Hxx Hy) WX), (mat_mul_outer_l (s_ncol (sl_sp v)) k) by assumption.
      rewrite (vec_mat_transpose _ _ X (snd xy) WX), E. reflexivity.
  - split; [apply dense_wf|]. split; [apply smm_wf | apply smm_dense]; assumption.
Qed.

Lemma lrsum_app r c l1 l2 : lr_ok r c l1 -> lr_ok r c l2 -> lrsum r c (l1 ++ l2) =m madd (lrsum r c l1) (lrsum r c l2).
Proof.
  intros H1 H2. induction H1 as [|xy l1 [Hx Hy] Hl1 IH]; simpl.
  - symmetry. apply madd_mzero_l. apply lrsum_wf; exact H2.
  - rewrite IH. rewrite !madd_assoc. apply madd_proper; [reflexivity|]. apply madd_comm.
Qed.
Lemma lr_ok_map r c r' c' (f : vec * vec -> vec * vec) lr :
  (forall xy, length (fst xy) = r -> length (snd xy) = c -> length (fst (f xy)) = r' /\ length (snd (f xy)) = c') ->
  lr_ok r c lr -> lr_ok r' c' (map f lr).
Proof. intros Hf H. induction H as [|xy lr [Hx Hy] Hlr IH]; simpl; constructor; auto. Qed.

Lemma lrsum_map r c r' c' (F : mat -> mat) (f : vec * vec -> vec * vec) lr :
  F (mzero r c) =m mzero r' c' ->
  (forall A B, wf_mat r c A -> wf_mat r c B -> F (madd A B) =m madd (F A) (F B)) ->
  (forall xy, length (fst xy) = r -> length (snd xy) = c -> outer (fst (f xy)) (snd (f xy)) =m F (outer (fst xy) (snd xy))) ->
  lr_ok r c lr -> lrsum r' c' (map f lr) =m F (lrsum r c lr).
Proof.
  intros H0 Hadd Hout. induction 1 as [|xy lr [Hx Hy] Hlr IH]; simpl; [symmetry; exact H0|].
  rewrite Hadd, IH, Hout by auto with wf. reflexivity.
Qed.
Lemma lrsum_map_lin (f : Q -> Q) q r c lr : (forall a, f a == q * a) -> lr_ok r c lr ->
  lrsum r c (map (fun xy => (map f (fst xy), snd xy)) lr) =m mscale q (lrsum r c lr).
Proof.
  intros Hf. apply (lrsum_map r c r c (mscale q)); [apply mscale_mzero | intros; apply mscale_madd |].
  intros xy _ _. simpl. rewrite mscale_outer. apply outer_proper; [|reflexivity]. apply map_ext_veq. intros a _. apply Hf.
Qed.
Lemma lrsum_map_swap r c lr : lr_ok r c lr -> lrsum c r (map (fun xy => (snd xy, fst xy)) lr) =m transpose_n c (lrsum r c lr).
Proof.
  apply (lrsum_map r c c r (transpose_n c)); [apply transpose_mzero | apply transpose_madd |].
  intros xy _ <-. symmetry. apply transpose_outer.
Qed.
Lemma lrsum_map_left M c lr : swf M -> lr_ok (s_ncol M) c lr ->
  lrsum (s_nrow M) c (map (fun xy => (smv M (fst xy), snd xy)) lr) =m mat_mul c (dense M) (lrsum (s_ncol M) c lr).
Proof.
  intros WM. apply (lrsum_map (s_ncol M) c (s_nrow M) c (mat_mul c (dense M))).
  - apply mat_mul_mzero_r, dense_wf.
  - intros. apply (mat_mul_madd_r (s_nrow M) (s_ncol M) c); auto with wf.
  - intros xy Hx Hy. simpl. erewrite mat_mul_outer_r, smv_dense by auto with wf. reflexivity.
Qed.
Lemma lrsum_map_right M r lr : swf M -> lr_ok r (s_nrow M) lr ->
  lrsum r (s_ncol M) (map (fun xy => (fst xy, smv (stranspose M) (snd xy))) lr) =m mat_mul (s_ncol M) (lrsum r (s_nrow M) lr) (dense M).
Proof.
  intros WM. apply (lrsum_map r (s_nrow M) r (s_ncol M) (fun D => mat_mul (s_ncol M) D (dense M))).
  - apply (mat_mul_mzero_l (s_nrow M)), dense_wf.
  - intros. apply (mat_mul_madd_l r (s_nrow M) (s_ncol M)); auto with wf.
  - intros xy Hx Hy. simpl. erewrite mat_mul_outer_l, smv_dense, dense_stranspose by auto with wf.
    rewrite <- (vec_mat_transpose (s_nrow M) (s_ncol M)) by apply dense_wf. reflexivity.
Qed.
Definition slr_is (v : slr) (r c : nat) (D : mat) : Prop :=
  slr_wfv v /\ s_nrow (sl_sp v) = r /\ s_ncol (sl_sp v) = c /\ slr_dense v =m D.

Lemma slr_is_wf v r c D : slr_is v r c D -> wf_mat r c D.
Proof. intros (Hv & <- & <- & E). eapply wf_mat_meq; [exact E | apply slr_dense_wf; exact Hv]. Qed.
Lemma slr_is_intro v r c D : swf (sl_sp v) -> s_nrow (sl_sp v) = r -> s_ncol (sl_sp v) = c -> lr_ok r c (sl_lr v) ->
  madd (dense (sl_sp v)) (lrsum r c (sl_lr v)) =m D -> slr_is v r c D.
Proof.
  intros W Hr Hc H E. subst r c. assert (Hv : slr_wfv v) by (split; assumption).
  repeat split; auto. rewrite slr_dense_split by exact Hv. exact E.
Qed.
Lemma slr_is_inv v r c D : slr_is v r c D ->
  swf (sl_sp v) /\ s_nrow (sl_sp v) = r /\ s_ncol (sl_sp v) = c /\ lr_ok r c (sl_lr v) /\
  madd (dense (sl_sp v)) (lrsum r c (sl_lr v)) =m D.
Proof. intros (Hv & <- & <- & E). rewrite <- slr_dense_split by exact Hv. destruct Hv. auto. Qed.
Lemma slr_is_meq v r c D D' : D =m D' -> slr_is v r c D -> slr_is v r c D'.
Proof. intros E (Hv & Hr & Hc & E'). repeat split; auto; try apply Hv. rewrite E'. exact E. Qed.

(** -v and q v apply one linear map to the stored values and to the left vectors *)
Lemma slr_map_lin_is (f : Q -> Q) q v r c D : (forall a, f a == q * a) -> slr_is v r c D ->
  slr_is {| sl_sp := smap f (sl_sp v); sl_lr := map (fun xy => (map f (fst xy), snd xy)) (sl_lr v) |} r c (mscale q D).
Proof.
  intros Hf H. destruct (slr_is_inv _ _ _ _ H) as (W & <- & <- & Hlr & E).
  apply slr_is_intro; simpl.
  - apply swf_smap; exact W.
  - apply smap_nrow.
  - reflexivity.
  - eapply lr_ok_map; [|exact Hlr]. intros xy Hx Hy; simpl. rewrite map_length. auto.
  - rewrite (dense_smap_lin f q), (lrsum_map_lin f q) by assumption. rewrite <- mscale_madd, E. reflexivity.
Qed.
Theorem slr_mul_is q v r c D : slr_is v r c D -> slr_is (slr_mul q v) r c (mscale q D).
Proof. apply (slr_map_lin_is (Qmult q)). reflexivity. Qed.
Theorem slr_neg_is v r c D : slr_is v r c D -> slr_is (slr_neg v) r c (mneg D).
Proof.
  intros H. eapply slr_is_meq; [symmetry; apply mneg_mscale|]. apply (slr_map_lin_is Qopp (-(1))); [intros; ring | exact H].
Qed.
Theorem slr_add_csr_is v s r c D : slr_is v r c D -> swf s -> s_nrow s = r -> s_ncol s = c ->
  slr_is (slr_add_csr v s) r c (madd D (dense s)).
Proof.
  intros H Ws Hsr Hsc. destruct (slr_is_inv _ _ _ _ H) as (W & Hr & Hc & Hlr & E).
  apply slr_is_intro; simpl; auto.
  - apply swf_sadd; auto; lia.
  - rewrite sadd_nrow; lia.
  - rewrite dense_sadd by lia. rewrite madd_shuffle, E. reflexivity.
Qed.
Theorem slr_add_is v w r c D D' : slr_is v r c D -> slr_is w r c D' -> slr_is (slr_add v w) r c (madd D D').
Proof.
  intros H H'. destruct (slr_is_inv _ _ _ _ H) as (W & Hr & Hc & Hlr & E).
  destruct (slr_is_inv _ _ _ _ H') as (W' & Hr' & Hc' & Hlr' & E').
  apply slr_is_intro; simpl; auto.
  - apply swf_sadd; auto; lia.
  - rewrite sadd_nrow; lia.
  - apply Forall_app; split; assumption.
  - rewrite dense_sadd, lrsum_app by (assumption || lia). rewrite madd_4, E, E'. reflexivity.
Qed.
Theorem slr_sub_is v w r c D D' : slr_is v r c D -> slr_is w r c D' -> slr_is (slr_sub v w) r c (msub D D').
Proof.
  intros H H'. unfold slr_sub. eapply slr_is_meq; [symmetry; apply msub_madd_mneg|].
  apply slr_add_is; [exact H | apply slr_neg_is; exact H'].
Qed.
Theorem slr_sub_csr_is v s r c D : slr_is v r c D -> swf s -> s_nrow s = r -> s_ncol s = c ->
  slr_is (slr_sub_csr v s) r c (msub D (dense s)).
Proof.
  intros H Ws Hsr Hsc. unfold slr_sub_csr. eapply slr_is_meq; [symmetry; apply msub_madd_mneg|].
  eapply slr_is_meq; [apply madd_proper; [reflexivity | apply dense_sneg]|].
  apply slr_add_csr_is; auto; [apply swf_smap; exact Ws | unfold sneg; rewrite smap_nrow; exact Hsr].
Qed.
Theorem slr_left_is M v r c D : slr_is v r c D -> swf M -> s_ncol M = r ->
  slr_is (slr_left M v) (s_nrow M) c (mat_mul c (dense M) D).
Proof.
  intros H WM HM. destruct (slr_is_inv _ _ _ _ H) as (W & <- & <- & Hlr & E).
  apply slr_is_intro; simpl.
  - apply swf_smul; exact W.
  - apply smul_nrow.
  - reflexivity.
  - eapply lr_ok_map; [|exact Hlr]. intros xy Hx Hy; simpl. rewrite smv_length. auto.
  - rewrite dense_smul by auto. rewrite <- HM in Hlr. rewrite lrsum_map_left by assumption.
    erewrite <- mat_mul_madd_r by (auto using dense_wf, lrsum_wf; rewrite HM; apply dense_wf).
    rewrite HM, E. reflexivity.
Qed.
Theorem slr_right_is v M r c D : slr_is v r c D -> swf M -> s_nrow M = c ->
  slr_is (slr_right v M) r (s_ncol M) (mat_mul (s_ncol M) D (dense M)).
Proof.
  intros H WM HM. destruct (slr_is_inv _ _ _ _ H) as (W & <- & <- & Hlr & E).
  apply slr_is_intro; simpl.
  - apply swf_smul; exact WM.
  - apply smul_nrow.
  - reflexivity.
  - eapply lr_ok_map; [|exact Hlr]. intros xy Hx Hy; simpl. rewrite smv_length, stranspose_nrow. auto.
  - rewrite dense_smul by auto. rewrite <- HM in Hlr. rewrite lrsum_map_right by assumption.
    rewrite <- (mat_mul_madd_l (s_nrow (sl_sp v)) (s_nrow M) (s_ncol M)) by (auto using dense_wf, lrsum_wf; rewrite HM; apply dense_wf).
    rewrite HM, E. reflexivity.
Qed.
Theorem slr_transpose_is v r c D : slr_is v r c D -> slr_is (slr_transpose v) c r (transpose_n c D).
Proof.
  intros H. destruct (slr_is_inv _ _ _ _ H) as (W & <- & <- & Hlr & E).
  apply slr_is_intro; simpl.
  - apply swf_stranspose.
  - apply stranspose_nrow.
  - reflexivity.
  - eapply lr_ok_map; [|exact Hlr]. intros xy Hx Hy; simpl. auto.
  - rewrite dense_stranspose, lrsum_map_swap by exact Hlr.
    rewrite <- (transpose_madd (s_nrow (sl_sp v)) (s_ncol (sl_sp v))) by auto with wf.
    rewrite E. reflexivity.
Qed.
Theorem slr_astype_is v r c D : slr_is v r c D -> slr_is (slr_astype v) r c D.
Proof. intros H; exact H. Qed.

Theorem slr_sum1_denotes v r c D : slr_is v r c D -> slr_sum1 v =v row_sums D.
Proof.
  intros H. pose proof (slr_is_wf _ _ _ _ H) as WD. destruct H as (Hv & Hr & Hc & E). unfold slr_sum1, slr_shape; simpl.
  rewrite slr_matvec_denotes by (auto; vlen). rewrite E, Hc. apply (mat_vec_vones r c); exact WD.
Qed.
Theorem slr_sum0_denotes v r c D : slr_is v r c D -> slr_sum0 v =v col_sums c D.
Proof.
  intros H. pose proof (slr_transpose_is _ _ _ _ H) as Ht. pose proof (slr_is_wf _ _ _ _ H) as WD.
  destruct H as (Hv & Hr & Hc & E). destruct Ht as (Hvt & Hrt & Hct & Et). unfold slr_sum0, slr_shape; simpl fst.
  rewrite slr_matvec_denotes by (auto; rewrite Hct; vlen). rewrite Et, Hr.
  rewrite <- (wf_mat_length _ _ _ WD). apply mat_vec_transpose_vones.
Qed.
Theorem slr_sum_denotes v r c D : slr_is v r c D -> slr_sum v == total D.
Proof. intros H. unfold slr_sum, total. rewrite (slr_sum1_denotes _ _ _ _ H). reflexivity. Qed.

Theorem slr_normalize_is v r c D : slr_is v r c D -> slr_is (slr_normalize v) r c (row_scale (map pinv (row_sums D)) D).
Proof.
  intros H. pose proof (slr_is_wf _ _ _ _ H) as WD. pose proof (slr_sum1_denotes _ _ _ _ H) as ES.
  assert (HL : length (slr_sum1 v) = r).
  { rewrite (veq_length _ _ ES). rewrite row_sums_length. apply (wf_mat_length _ _ _ WD). }
  unfold slr_normalize.
  pose proof (slr_left_is (sdiag_pinv (slr_sum1 v)) v r c D H (swf_sdiag_pinv _)) as HLft.
  rewrite sdiag_pinv_ncol, sdiag_pinv_nrow, HL in HLft. specialize (HLft eq_refl).
  eapply slr_is_meq; [|exact HLft].
  rewrite dense_sdiag_pinv. rewrite <- (row_scale_diag r c) by (auto; rewrite map_length; exact HL).
  apply row_scale_proper; [|reflexivity]. apply map_pinv_instance. exact ES.
Qed.
Theorem slr_d2u_is v n D : slr_is v n n D -> slr_is (slr_d2u v) n n (madd D (transpose_n n D)).
Proof. (* slr_d2u v unfolds to slr_add v (slr_transpose v) *)
  intros H. exact (slr_add_is v (slr_transpose v) n n _ _ H (slr_transpose_is _ _ _ _ H)).
Qed.

Lemma mget_regularized a alpha i j : (i < s_nrow a)%nat -> (j < s_ncol a)%nat ->
  mget (regularized_dense a alpha) i j == mget (dense a) i j + alpha / qnat (s_ncol a).
Proof.
  intros Hi Hj. unfold regularized_dense. erewrite mget_madd by auto with wf.
  rewrite mget_mconst by assumption. reflexivity.
Qed.
Lemma regularized_wf a alpha : wf_mat (s_nrow a) (s_ncol a) (regularized_dense a alpha).
Proof. apply madd_wf; [apply dense_wf | apply mconst_wf]. Qed.
Global Hint Resolve regularized_wf : wf.
Theorem regularizer_is s alpha : swf s -> slr_is (regularizer s alpha) (s_nrow s) (s_ncol s) (regularized_dense s alpha).
Proof.
  intros W. apply slr_is_intro; simpl; auto.
  - constructor; [|constructor]. simpl. split; vlen.
  - rewrite madd_mzero_l by (apply outer_wf'; vlen). unfold regularized_dense. apply madd_proper; [reflexivity|].
    change (vones (s_ncol s)) with (vconst (s_ncol s) 1). rewrite vscale_vones, vconst_map, outer_vconst.
    apply mconst_proper; auto. unfold Qdiv. ring.
Qed.

Theorem se_denotes e : se_wf e -> slr_is (slr_eval e) (fst (se_shape e)) (snd (se_shape e)) (se_dense e).
Proof.
  induction e as [s lr | s alpha | e IH | e1 IH1 e2 IH2 | e IH s | e1 IH1 e2 IH2 | e IH s | q e IH | M e IH | e IH M
                 | e IH | e IH | e IH | e IH]; simpl; intros H.
  - destruct H as [W Hlr]. apply slr_is_intro; simpl; auto. symmetry. apply (fold_right_lr (s_nrow s) (s_ncol s)); [apply dense_wf | exact Hlr].
  - destruct H as [W _]. apply regularizer_is; exact W.
  - apply slr_neg_is; auto.
  - destruct H as (H1 & H2 & E). apply slr_add_is; auto. rewrite E. auto.
  - destruct H as (H1 & W & E). rewrite E; simpl. apply slr_add_csr_is; auto. specialize (IH H1). rewrite E in IH. exact IH.
  - destruct H as (H1 & H2 & E). apply slr_sub_is; auto. rewrite E. auto.
  - destruct H as (H1 & W & E). rewrite E; simpl. apply slr_sub_csr_is; auto. specialize (IH H1). rewrite E in IH. exact IH.
  - apply slr_mul_is; auto.
  - destruct H as (H1 & W & E). apply (slr_left_is M _ (fst (se_shape e))); auto.
  - destruct H as (H1 & W & E). apply (slr_right_is _ M (fst (se_shape e)) (snd (se_shape e))); auto.
  - apply slr_transpose_is; auto.
  - apply slr_astype_is; auto.
  - apply slr_normalize_is; auto.
  - destruct H as (H1 & E). specialize (IH H1). rewrite E in *. apply slr_d2u_is; exact IH.
Qed.
(** operator.dot(x): the shape checks pass as soon as _matvec applies a matrix with the recorded number of rows *)
Lemma lo_dot_denotes shape f x D : length x = snd shape -> length D = fst shape -> f x =v mat_vec D x ->
  exists y, lo_dot shape f x = Ok y /\ y =v mat_vec D x.
Proof.
  intros Hx HD E. exists (f x). split; [|exact E]. unfold lo_dot. rewrite Hx, Nat.eqb_refl. simpl.
  rewrite (veq_length _ _ E), mat_vec_length, HD, Nat.eqb_refl. reflexivity.
Qed.

Theorem sparselr_dot_denotes e x : se_wf e -> length x = snd (se_shape e) ->
  exists y, lo_dot (slr_shape (slr_eval e)) (slr_matvec (slr_eval e)) x = Ok y /\ y =v mat_vec (se_dense e) x.
Proof.
  intros H Hx. pose proof (se_denotes e H) as I. pose proof (wf_mat_length _ _ _ (slr_is_wf _ _ _ _ I)) as HD.
  destruct I as (Hv & Hr & Hc & E). apply lo_dot_denotes; unfold slr_shape; simpl; try lia.
  rewrite slr_matvec_denotes by (auto; lia). rewrite E. reflexivity.
Qed.
Theorem sparselr_matmat_denotes k e X : se_wf e -> wf_mat (snd (se_shape e)) k X ->
  slr_matmat k (slr_eval e) X =m mat_mul k (se_dense e) X.
Proof.
  intros H WX. destruct (se_denotes e H) as (Hv & Hr & Hc & E).
  rewrite slr_matmat_denotes by (auto; rewrite Hc; exact WX). rewrite E. reflexivity.
Qed.

Lemma sneg_nrow s : s_nrow (sneg s) = s_nrow s. Proof. apply smap_nrow. Qed.
Lemma sscale_nrow c s : s_nrow (sscale c s) = s_nrow s. Proof. apply smap_nrow. Qed.
Lemma sneg_ncol s : s_ncol (sneg s) = s_ncol s. Proof. reflexivity. Qed.
Lemma sscale_ncol c s : s_ncol (sscale c s) = s_ncol s. Proof. reflexivity. Qed.
Global Hint Rewrite smap_nrow smap_ncol sneg_nrow sneg_ncol sscale_nrow sscale_ncol stranspose_nrow stranspose_ncol
  smul_nrow smul_ncol sdiag_nrow sdiag_ncol sdiag_pinv_nrow sdiag_pinv_ncol sadd_ncol : vlen.

Lemma sumq_vones n : sumq (vones n) == qnat n.
Proof.
  induction n as [|n IH]; [reflexivity|]. change (vones (S n)) with (1 :: vones n). simpl sumq. rewrite IH.
  unfold qnat. rewrite Nat2Z.inj_succ. unfold Z.succ. rewrite inject_Z_plus. ring.
Qed.

(** The methods add the regularisation term only if [0 < reg]; for [reg >= 0] the test changes nothing,
    because the term is [reg] times something. *)
Lemma reg_branch_v reg a t u : 0 <= reg -> length u = length a -> t =v vscale reg u ->
  (if Qlt_b 0 reg then vadd a t else a) =v vadd a (vscale reg u).
Proof.
  intros Hreg Hl Et. destruct (Qlt_b 0 reg) eqn:E; [rewrite Et; reflexivity|].
  apply Qlt_b_false in E. rewrite (Qle_antisym _ _ E Hreg), vscale_0, Hl, (vadd_vzero_r (length a)); reflexivity.
Qed.
Lemma reg_branch_m r c reg A T U : 0 <= reg -> wf_mat r c A -> wf_mat r c U -> T =m mscale reg U ->
  (if Qlt_b 0 reg then madd A T else A) =m madd A (mscale reg U).
Proof.
  intros Hreg WA WU ET. destruct (Qlt_b 0 reg) eqn:E; [rewrite ET; reflexivity|].
  apply Qlt_b_false in E. rewrite (Qle_antisym _ _ E Hreg), (mscale_0 r c), (madd_mzero_r r c) by assumption. reflexivity.
Qed.

(** The regularised matrix is A + reg J, where J x has the mean of x in every row. *)
Lemma mat_vec_mean r c x : length x = c -> mat_vec (mconst r c (1 / qnat c)) x =v vconst r (vmean x).
Proof.
  intros <-. rewrite mat_vec_mconst by reflexivity. apply vconst_proper; [reflexivity|]. unfold vmean, Qdiv. ring.
Qed.
Lemma mat_mul_mconst_l r c k q X : wf_mat c k X ->
  mat_mul k (mconst r c q) X =m outer (vones r) (vscale q (col_sums k X)).
Proof.
  intros WX. unfold mat_mul, mconst, outer, vones. rewrite !map_repeat. apply Forall2_repeat.
  rewrite vscale_1, (vec_mat_transpose c k) by exact WX. rewrite <- vscale_vones, mat_vec_vscale.
  rewrite <- (wf_mat_length _ _ _ WX), mat_vec_transpose_vones. reflexivity.
Qed.
Lemma col_means_scale c k X : length X = c -> col_means k X =v vscale (1 / qnat c) (col_sums k X).
Proof.
  intros <-. unfold col_means, col_sums, vscale. rewrite map_map. apply map_ext_veq. intros j _.
  unfold vmean, Qdiv. rewrite col_length. ring.
Qed.
Lemma mat_mul_mean r c k X : wf_mat c k X -> mat_mul k (mconst r c (1 / qnat c)) X =m outer (vones r) (col_means k X).
Proof.
  intros WX. rewrite mat_mul_mconst_l by exact WX. rewrite (col_means_scale c) by apply (wf_mat_length _ _ _ WX). reflexivity.
Qed.

Lemma regularized_split a reg :
  regularized_dense a reg =m madd (dense a) (mscale reg (mconst (s_nrow a) (s_ncol a) (1 / qnat (s_ncol a)))).
Proof.
  unfold regularized_dense. rewrite mscale_mconst. apply madd_proper; [reflexivity|].
  apply mconst_proper; auto. unfold Qdiv. ring.
Qed.
Lemma mat_vec_regularized a reg x : length x = s_ncol a ->
  mat_vec (regularized_dense a reg) x =v vadd (mat_vec (dense a) x) (vscale reg (vconst (s_nrow a) (vmean x))).
Proof.
  intros Hx. erewrite regularized_split, mat_vec_madd by auto with wf.
  rewrite mat_vec_mscale, mat_vec_mean by exact Hx. reflexivity.
Qed.
Lemma mat_mul_regularized a reg k X : wf_mat (s_ncol a) k X ->
  mat_mul k (regularized_dense a reg) X
  =m madd (mat_mul k (dense a) X) (mscale reg (outer (vones (s_nrow a)) (col_means k X))).
Proof.
  intros WX. erewrite regularized_split, mat_mul_madd_l by auto with wf.
  rewrite mat_mul_mscale_l, mat_mul_mean by eauto with wf. reflexivity.
Qed.
Lemma transpose_regularized a reg :
  transpose_n (s_ncol a) (regularized_dense a reg)
  =m madd (transpose_n (s_ncol a) (dense a)) (mscale reg (mconst (s_ncol a) (s_nrow a) (1 / qnat (s_ncol a)))).
Proof.
  erewrite regularized_split, transpose_madd by auto with wf.
  erewrite transpose_mscale, transpose_mconst by auto with wf. reflexivity.
Qed.
Lemma mat_vec_transpose_regularized a reg y : length y = s_nrow a ->
  mat_vec (transpose_n (s_ncol a) (regularized_dense a reg)) y
  =v vadd (mat_vec (transpose_n (s_ncol a) (dense a)) y) (vscale reg (vconst (s_ncol a) (1 / qnat (s_ncol a) * sumq y))).
Proof.
  intros Hy. erewrite transpose_regularized, mat_vec_madd by auto with wf.
  rewrite mat_vec_mscale, mat_vec_mconst by exact Hy. reflexivity.
Qed.
Lemma mat_mul_transpose_regularized a reg k Y : wf_mat (s_nrow a) k Y ->
  mat_mul k (transpose_n (s_ncol a) (regularized_dense a reg)) Y
  =m madd (mat_mul k (transpose_n (s_ncol a) (dense a)) Y)
          (mscale reg (outer (vones (s_ncol a)) (vscale (1 / qnat (s_ncol a)) (col_sums k Y)))).
Proof.
  intros WY. erewrite transpose_regularized, mat_mul_madd_l by auto with wf.
  rewrite mat_mul_mscale_l, mat_mul_mconst_l by eauto with wf. reflexivity.
Qed.

Lemma vmean_vones n : (0 < n)%nat -> vmean (vones n) == 1.
Proof. intros H. unfold vmean. rewrite vones_length, sumq_vones. field. apply qnat_nonzero; exact H. Qed.
Lemma row_sums_regularized a reg : (0 < s_ncol a)%nat ->
  row_sums (regularized_dense a reg) =v map (fun d => d + reg) (row_sums (dense a)).
Proof.
  intros Hc. rewrite <- (mat_vec_vones _ _ _ (regularized_wf a reg)), mat_vec_regularized by apply vones_length.
  rewrite (mat_vec_vones _ _ _ (dense_wf a)), vscale_vconst, vmean_vones, Qmult_1_r by exact Hc.
  rewrite <- (dense_length a), <- row_sums_length. apply vadd_vconst.
Qed.
Lemma mk_normalizer_weights a reg : swf a -> (0 < s_ncol a)%nat ->
  map (fun d => d + reg) (smv a (vones (s_ncol a))) =v row_sums (regularized_dense a reg).
Proof.
  intros W Hc. rewrite row_sums_regularized by exact Hc.
  apply map_veq; [intros p q E; rewrite E; reflexivity|].
  rewrite smv_dense by (auto; apply vones_length). apply (mat_vec_vones _ _ _ (dense_wf a)).
Qed.

(** norm_diag applied to a vector / a matrix: scaling by the pseudo-inverse of the regularised row sums *)
Lemma nz_diag_smv a reg y : swf a -> (0 < s_ncol a)%nat -> length y = s_nrow a ->
  smv (nz_diag (mk_normalizer a reg)) y =v vmul (map pinv (row_sums (regularized_dense a reg))) y.
Proof.
  intros W Hc Hy. simpl. rewrite smv_sdiag_pinv by vlen. rewrite mk_normalizer_weights by assumption. reflexivity.
Qed.
Lemma nz_diag_smm k a reg Y : swf a -> (0 < s_ncol a)%nat -> wf_mat (s_nrow a) k Y ->
  smm k (nz_diag (mk_normalizer a reg)) Y =m row_scale (map pinv (row_sums (regularized_dense a reg))) Y.
Proof.
  intros W Hc WY. simpl. rewrite smm_sdiag_pinv by (autorewrite with vlen; exact WY).
  rewrite mk_normalizer_weights by assumption. reflexivity.
Qed.
Lemma nz_weights_length (f : Q -> Q) a reg : length (map f (row_sums (regularized_dense a reg))) = s_nrow a.
Proof. rewrite map_length, row_sums_length. apply (wf_mat_length _ _ _ (regularized_wf a reg)). Qed.
Global Hint Rewrite nz_weights_length : vlen.
Lemma normalizer_dense_wf a reg : wf_mat (s_nrow a) (s_ncol a) (normalizer_dense a reg).
Proof. apply row_scale_wf; [apply nz_weights_length | apply regularized_wf]. Qed.

Theorem normalizer_matvec_denotes a reg x : swf a -> (0 < s_ncol a)%nat -> 0 <= reg -> length x = s_ncol a ->
  nz_matvec (mk_normalizer a reg) x =v mat_vec (normalizer_dense a reg) x.
Proof.
  intros W Hc Hreg Hx. unfold nz_matvec, normalizer_dense. simpl nz_adj. simpl nz_reg.
  rewrite (reg_branch_v reg _ _ (vconst (s_nrow a) (vmean x)));
    [| exact Hreg | vlen | rewrite vscale_vones, vscale_vconst; reflexivity].
  rewrite nz_diag_smv by (assumption || vlen).
  rewrite mat_vec_row_scale, mat_vec_regularized, <- smv_dense by assumption. reflexivity.
Qed.

Lemma col_means_length k X : length (col_means k X) = k.
Proof. unfold col_means. vlen. Qed.
Global Hint Rewrite col_means_length : vlen.

Theorem normalizer_matmat_denotes k a reg X : swf a -> (0 < s_ncol a)%nat -> 0 <= reg -> wf_mat (s_ncol a) k X ->
  nz_matmat k (mk_normalizer a reg) X =m mat_mul k (normalizer_dense a reg) X.
Proof.
  intros W Hc Hreg WX. unfold nz_matmat, normalizer_dense. simpl nz_adj. simpl nz_reg.
  assert (WO : wf_mat (s_nrow a) k (outer (vones (s_nrow a)) (col_means k X))) by (apply outer_wf'; vlen).
  rewrite (reg_branch_m (s_nrow a) k reg _ _ (outer (vones (s_nrow a)) (col_means k X))); auto with wf; [|reflexivity].
  rewrite nz_diag_smm by auto with wf.
  rewrite mat_mul_row_scale_l, mat_mul_regularized, <- smm_dense by eauto with wf. reflexivity.
Qed.

Theorem normalizer_rmatvec_denotes a reg x : swf a -> (0 < s_ncol a)%nat -> 0 <= reg -> length x = s_nrow a ->
  nz_rmatvec (mk_normalizer a reg) x =v mat_vec (transpose_n (s_ncol a) (normalizer_dense a reg)) x.
Proof.
  intros W Hc Hreg Hx. unfold nz_rmatvec, normalizer_dense. simpl nz_adj. simpl nz_reg.
  set (p := smv (nz_diag (mk_normalizer a reg)) x).
  rewrite (reg_branch_v reg _ _ (vconst (s_ncol a) (1 / qnat (s_ncol a) * sumq p))); [| exact Hreg | vlen |].
  2:{ change (vones (s_ncol a)) with (vconst (s_ncol a) 1). rewrite !vscale_vconst, vconst_map.
      apply vconst_proper; [reflexivity | unfold Qdiv; ring]. }
  assert (Ep : p =v vmul (map pinv (row_sums (regularized_dense a reg))) x) by (apply nz_diag_smv; assumption).
  rewrite smv_dense, dense_stranspose, Ep by (auto with wf; rewrite (veq_length _ _ Ep); vlen).
  rewrite (transpose_row_scale (s_nrow a) (s_ncol a)), mat_vec_col_scale, mat_vec_transpose_regularized by (auto with wf; vlen).
  reflexivity.
Qed.

Theorem normalizer_rmatmat_denotes k a reg X : swf a -> (0 < s_ncol a)%nat -> 0 <= reg -> wf_mat (s_nrow a) k X ->
  nz_rmatmat k (mk_normalizer a reg) X =m mat_mul k (transpose_n (s_ncol a) (normalizer_dense a reg)) X.
Proof.
  intros W Hc Hreg WX. unfold nz_rmatmat, normalizer_dense. simpl nz_adj. simpl nz_reg.
  set (d := map pinv (row_sums (regularized_dense a reg))). set (P := smm k (nz_diag (mk_normalizer a reg)) X).
  assert (EP : P =m row_scale d X) by (apply nz_diag_smm; assumption).
  assert (WdX : wf_mat (s_nrow a) k (row_scale d X)) by (apply row_scale_wf; [apply nz_weights_length | exact WX]).
  assert (WP : wf_mat (s_nrow a) k P) by (eapply wf_mat_meq; [symmetry; exact EP | exact WdX]).
  rewrite (reg_branch_m (s_ncol a) k reg _ _ (outer (vones (s_ncol a)) (vscale (1 / qnat (s_ncol a)) (col_sums k P))));
    [| exact Hreg | apply smm_stranspose_wf; exact WP | apply outer_wf'; vlen |].
  2:{ rewrite map_map_div, outer_vscale_r, !mscale_mscale. apply mscale_proper; [unfold Qdiv; ring | reflexivity]. }
  rewrite smm_dense, dense_stranspose, EP by auto with wf.
  rewrite (transpose_row_scale (s_nrow a) (s_ncol a)), (mat_mul_col_scale (s_ncol a) (s_nrow a) k), mat_mul_transpose_regularized
    by (auto with wf; apply nz_weights_length).
  reflexivity.
Qed.

(** expressions: NT^k (NBase a reg); operator.T of SciPy alternates _matvec and _rmatvec and swaps the shape *)
Lemma ne_base_spec e : ne_wf e -> exists a reg, swf a /\ (0 < s_ncol a)%nat /\ 0 <= reg /\ ne_base e = mk_normalizer a reg /\
  ne_shape e = (if ne_flag e then (s_ncol a, s_nrow a) else (s_nrow a, s_ncol a)) /\
  ne_dense e =m if ne_flag e then transpose_n (s_ncol a) (normalizer_dense a reg) else normalizer_dense a reg.
Proof.
  induction e as [a reg | e IH]; simpl; intros HW.
  - exists a, reg. repeat split; try apply HW. reflexivity.
  - destruct (IH HW) as (a & reg & W & Hc & Hreg & E1 & E3 & E4). exists a, reg. rewrite E3, E4.
    repeat split; try assumption; destruct (ne_flag e); simpl; try reflexivity.
    apply (transpose_transpose (s_nrow a) (s_ncol a)), normalizer_dense_wf.
Qed.
Theorem normalizer_dot_denotes e x : ne_wf e -> length x = snd (ne_shape e) ->
  exists y, lo_dot (ne_shape e) (ne_matvec e) x = Ok y /\ y =v mat_vec (ne_dense e) x.
Proof.
  intros HW Hx. destruct (ne_base_spec e HW) as (a & reg & W & Hc & Hreg & E1 & E3 & E4). unfold ne_matvec. rewrite E1, E3 in *.
  pose proof (normalizer_dense_wf a reg) as WD.
  destruct (ne_flag e); simpl in Hx; apply lo_dot_denotes; rewrite ?(meq_length _ _ E4), ?E4; simpl; try exact Hx.
  - apply (wf_mat_length _ _ _ (transpose_wf _ _ _ WD)).
  - apply normalizer_rmatvec_denotes; assumption.
  - apply (wf_mat_length _ _ _ WD).
  - apply normalizer_matvec_denotes; assumption.
Qed.
Theorem normalizer_expr_matmat_denotes k e X : ne_wf e -> wf_mat (snd (ne_shape e)) k X ->
  ne_matmat k e X =m mat_mul k (ne_dense e) X.
Proof.
  intros HW WX. destruct (ne_base_spec e HW) as (a & reg & W & Hc & Hreg & E1 & E3 & E4). unfold ne_matmat. rewrite E1, E3 in *.
  destruct (ne_flag e); simpl in WX; rewrite E4.
  - apply normalizer_rmatmat_denotes; assumption.
  - apply normalizer_matmat_denotes; assumption.
Qed.

Lemma laplacian_sparse_wf a : swf a -> s_nrow a = s_ncol a ->
  let w := smv a (vones (s_nrow a)) in
  swf (sadd (sdiag w) (sneg a)) /\ s_nrow (sadd (sdiag w) (sneg a)) = s_nrow a /\ s_ncol (sadd (sdiag w) (sneg a)) = s_nrow a /\
  dense (sadd (sdiag w) (sneg a)) =m msub (diag (row_sums (dense a))) (dense a).
Proof.
  intros W Hsq w. assert (Hw : length w = s_nrow a) by apply smv_length.
  assert (Ew : w =v row_sums (dense a)).
  { unfold w. rewrite smv_dense by (auto; vlen). rewrite Hsq. apply (mat_vec_vones _ _ _ (dense_wf a)). }
  assert (Hc : s_ncol (sdiag w) = s_ncol (sneg a)) by (rewrite sdiag_ncol, sneg_ncol; lia).
  split; [|split; [|split]].
  - apply swf_sadd; [apply swf_sdiag | apply swf_smap; exact W | exact Hc].
  - rewrite sadd_nrow; rewrite sdiag_nrow, ?sneg_nrow; exact Hw.
  - exact Hw.
  - rewrite dense_sadd, dense_sdiag, dense_sneg, msub_madd_mneg, Ew by exact Hc. reflexivity.
Qed.

Lemma lp_norm_weights sqrtf a reg : Proper (Qeq ==> Qeq) sqrtf -> swf a -> s_nrow a = s_ncol a -> (0 < s_nrow a)%nat ->
  map pinv (map (fun d => sqrtf (d + reg)) (smv a (vones (s_nrow a))))
  =v map (fun d => pinv (sqrtf d)) (row_sums (regularized_dense a reg)).
Proof.
  intros Hs W Hsq Hn. transitivity (map (fun d => pinv (sqrtf d)) (map (fun d => d + reg) (smv a (vones (s_nrow a))))).
  - rewrite !map_map. reflexivity.
  - apply map_veq; [intros p q E; rewrite E; reflexivity|]. rewrite Hsq. apply mk_normalizer_weights; [exact W | lia].
Qed.

Lemma laplacian_dense_wf sqrtf a reg norm : s_nrow a = s_ncol a ->
  wf_mat (s_nrow a) (s_nrow a) (laplacian_dense sqrtf a reg norm).
Proof.
  intros Hsq. pose proof (regularized_wf a reg) as WR. rewrite <- Hsq in WR. unfold laplacian_dense.
  destruct norm; [|eauto with wf].
  pose proof (nz_weights_length (fun d => pinv (sqrtf d)) a reg) as Hl. eauto with wf.
Qed.

(** the matrix applied by a Laplacian object whose sparse part denotes LA: LA + reg (I - 11^T/n), normalised by s *)
Definition lreg (n : nat) (reg : Q) (LA : mat) : mat :=
  madd LA (mscale reg (msub (identity n) (mconst n n (1 / qnat n)))).
Definition lfull (n : nat) (reg : Q) (norm : bool) (s : vec) (LA : mat) : mat :=
  if norm then row_scale s (col_scale (lreg n reg LA) s) else lreg n reg LA.
Global Instance lreg_proper : Proper (eq ==> Qeq ==> meq ==> meq) lreg.
Proof. intros n n' <- r r' Hr A A' HA. unfold lreg. rewrite HA, Hr. reflexivity. Qed.
Global Instance lfull_proper : Proper (eq ==> Qeq ==> eq ==> veq ==> meq ==> meq) lfull.
Proof.
  intros n n' <- r r' Hr b b' <- s s' Hs A A' HA. unfold lfull. destruct b; [|rewrite Hr, HA; reflexivity].
  rewrite Hs, Hr, HA. reflexivity.
Qed.
Lemma lreg_wf n reg LA : wf_mat n n LA -> wf_mat n n (lreg n reg LA).
Proof. intros W. unfold lreg. auto with wf. Qed.
Global Hint Resolve lreg_wf : wf.
Lemma lfull_wf n reg norm s LA : wf_mat n n LA -> length s = n -> wf_mat n n (lfull n reg norm s LA).
Proof.
  intros W Hs. unfold lfull. destruct norm; auto with wf.
Qed.
Lemma mget_lreg n reg LA i j : wf_mat n n LA -> (i < n)%nat -> (j < n)%nat ->
  mget (lreg n reg LA) i j == mget LA i j + reg * ((if Nat.eqb i j then 1 else 0) - 1 / qnat n).
Proof.
  intros W Hi Hj. unfold lreg. rewrite (mget_madd n n) by auto with wf.
  erewrite mget_mscale, mget_msub by auto with wf.
  rewrite mget_identity, mget_mconst by assumption. reflexivity.
Qed.
Lemma mget_lfull n reg norm s LA i j : wf_mat n n LA -> length s = n -> (i < n)%nat -> (j < n)%nat ->
  mget (lfull n reg norm s LA) i j ==
  if norm then nthq s i * (mget (lreg n reg LA) i j * nthq s j) else mget (lreg n reg LA) i j.
Proof.
  intros W Hs Hi Hj. unfold lfull. destruct norm; [|reflexivity].
  rewrite (mget_row_scale n n), (mget_col_scale n n) by auto with wf. reflexivity.
Qed.
Lemma lfull_transpose n reg norm s LA : wf_mat n n LA -> length s = n ->
  transpose_n n (lfull n reg norm s LA) =m lfull n reg norm s (transpose_n n LA).
Proof.
  intros W Hs. apply (meq_transpose n n); auto using lfull_wf with wf.
  intros i j Hi Hj. rewrite !mget_lfull by auto with wf.
  destruct norm; rewrite !mget_lreg, (mget_transpose n n) by auto with wf; rewrite (Nat.eqb_sym j i); ring.
Qed.

(** a Laplacian object: size, flags, sparse part denoting LA, normalising weights s' *)
Definition lp_is (v : laplacian) (n : nat) (reg : Q) (norm : bool) (s' : vec) (LA : mat) : Prop :=
  lp_n v = n /\ lp_reg v = reg /\ lp_norm v = norm /\ swf (lp_lap v) /\ s_nrow (lp_lap v) = n /\ s_ncol (lp_lap v) = n /\
  dense (lp_lap v) =m LA /\ (norm = true -> lp_diag v = sdiag_pinv s') /\ length s' = n.

Lemma lp_core_gen lap reg x : swf lap -> s_nrow lap = s_ncol lap -> 0 <= reg -> length x = s_nrow lap ->
  (if Qlt_b 0 reg then vadd (smv lap x) (vscale reg (map (fun q => q - vmean x) x)) else smv lap x)
  =v mat_vec (lreg (s_nrow lap) reg (dense lap)) x.
Proof.
  intros W Hsq Hreg Hx.
  pose proof (dense_wf_sq lap Hsq) as WA.
  rewrite (reg_branch_v reg _ _ (map (fun q => q - vmean x) x)); [| exact Hreg | vlen | reflexivity].
  unfold lreg. rewrite (mat_vec_madd (s_nrow lap) (s_nrow lap)) by auto with wf.
  erewrite mat_vec_mscale, mat_vec_msub by auto with wf.
  rewrite mat_vec_identity, mat_vec_mean, smv_dense by (assumption || lia).
  rewrite <- Hx, vsub_vconst. reflexivity.
Qed.

Theorem lp_matvec_is v n reg norm s' LA x : lp_is v n reg norm s' LA -> 0 <= reg -> length x = n ->
  lp_matvec v x =v mat_vec (lfull n reg norm (map pinv s') LA) x.
Proof.
  intros (En & Er & Eno & W & Hr & Hc & ED & Edg & Hs) Hreg Hx. unfold lp_matvec, lfull. rewrite Er, Eno.
  assert (Hsq : s_nrow (lp_lap v) = s_ncol (lp_lap v)) by lia.
  destruct norm.
  - rewrite (Edg eq_refl). set (x1 := smv (sdiag_pinv s') x).
    rewrite (smv_sdiag_pinv s') by (destruct (Qlt_b 0 reg); unfold x1; vlen).
    rewrite (lp_core_gen (lp_lap v) reg x1) by (auto; unfold x1; vlen).
    unfold x1. rewrite smv_sdiag_pinv by lia. rewrite mat_vec_row_scale, mat_vec_col_scale, Hr, ED. reflexivity.
  - rewrite (lp_core_gen (lp_lap v) reg x) by (auto; lia). rewrite Hr, ED. reflexivity.
Qed.

Lemma lp_core_mat_gen k lap reg X : swf lap -> s_nrow lap = s_ncol lap -> 0 <= reg -> wf_mat (s_nrow lap) k X ->
  (if Qlt_b 0 reg then madd (smm k lap X) (mscale reg (msub X (outer (vones (s_nrow lap)) (col_means k X)))) else smm k lap X)
  =m mat_mul k (lreg (s_nrow lap) reg (dense lap)) X.
Proof.
  intros W Hsq Hreg WX.
  pose proof (dense_wf_sq lap Hsq) as WA.
  assert (WX' : wf_mat (s_ncol lap) k X) by (rewrite <- Hsq; exact WX).
  assert (WO : wf_mat (s_nrow lap) k (outer (vones (s_nrow lap)) (col_means k X))) by (apply outer_wf'; vlen).
  rewrite (reg_branch_m (s_nrow lap) k reg _ _ (msub X (outer (vones (s_nrow lap)) (col_means k X))));
    auto with wf; [|reflexivity].
  unfold lreg. rewrite (mat_mul_madd_l (s_nrow lap) (s_nrow lap) k) by auto with wf.
  erewrite mat_mul_mscale_l, mat_mul_msub_l by eauto with wf.
  erewrite mat_mul_identity_l, mat_mul_mean, smm_dense by assumption. reflexivity.
Qed.

Theorem lp_matmat_is k v n reg norm s' LA X : lp_is v n reg norm s' LA -> 0 <= reg -> wf_mat n k X ->
  lp_matmat k v X =m mat_mul k (lfull n reg norm (map pinv s') LA) X.
Proof.
  intros (En & Er & Eno & W & Hr & Hc & ED & Edg & Hs) Hreg WX. unfold lp_matmat, lfull. rewrite Er, Eno, En, <- Hr.
  assert (Hsq : s_nrow (lp_lap v) = s_ncol (lp_lap v)) by lia. rewrite <- Hr in WX, Hs.
  pose proof (dense_wf_sq _ Hsq) as WA.
  destruct norm; rewrite <- ED.
  - rewrite (Edg eq_refl). set (X1 := smm k (sdiag_pinv s') X).
    assert (Ex1 : X1 =m row_scale (map pinv s') X) by (apply smm_sdiag_pinv; rewrite Hs; exact WX).
    assert (WX1 : wf_mat (s_nrow (lp_lap v)) k X1).
    { eapply wf_mat_meq; [symmetry; exact Ex1 | apply row_scale_wf; [vlen | exact WX]]. }
    rewrite (lp_core_mat_gen k (lp_lap v) reg X1) by assumption.
    rewrite smm_sdiag_pinv by (rewrite Hs; eauto with wf).
    rewrite mat_mul_row_scale_l by eauto with wf.
    rewrite (mat_mul_col_scale (s_nrow (lp_lap v)) (s_nrow (lp_lap v)) k) by (auto with wf; vlen).
    rewrite Ex1. reflexivity.
  - apply lp_core_mat_gen; assumption.
Qed.

Theorem lp_transpose_is v n reg norm s' LA : lp_is v n reg norm s' LA -> lp_is (lp_transpose v) n reg norm s' (transpose_n n LA).
Proof.
  intros (En & Er & Eno & W & Hr & Hc & ED & Edg & Hs). unfold lp_is, lp_transpose; simpl.
  repeat split; auto using swf_stranspose.
  - rewrite stranspose_nrow. exact Hc.
  - rewrite dense_stranspose, Hc, ED. reflexivity.
Qed.
Theorem mk_laplacian_is sqrtf a reg norm : swf a -> s_nrow a = s_ncol a ->
  lp_is (mk_laplacian sqrtf a reg norm) (s_nrow a) reg norm (map (fun d => sqrtf (d + reg)) (smv a (vones (s_nrow a))))
        (msub (diag (row_sums (dense a))) (dense a)).
Proof.
  intros W Hsq. destruct (laplacian_sparse_wf a W Hsq) as (WL & HLr & HLc & EL).
  unfold lp_is, mk_laplacian; simpl. repeat split; auto.
  - intros ->. reflexivity.
  - vlen.
Qed.
(** on the base operator this is the textbook matrix *)
Lemma lfull_base sqrtf a reg norm : Proper (Qeq ==> Qeq) sqrtf -> swf a -> s_nrow a = s_ncol a -> (0 < s_nrow a)%nat ->
  lfull (s_nrow a) reg norm (map pinv (map (fun d => sqrtf (d + reg)) (smv a (vones (s_nrow a)))))
        (msub (diag (row_sums (dense a))) (dense a))
  =m laplacian_dense sqrtf a reg norm.
Proof.
  intros Hs W Hsq Hn. rewrite (lp_norm_weights sqrtf a reg Hs W Hsq Hn).
  pose proof (dense_wf a) as WA. pose proof (regularized_wf a reg) as WR. rewrite <- Hsq in WA, WR.
  assert (EL : lreg (s_nrow a) reg (msub (diag (row_sums (dense a))) (dense a))
               =m msub (diag (row_sums (regularized_dense a reg))) (regularized_dense a reg)).
  { apply (meq_mget (s_nrow a) (s_nrow a)); eauto with wf.
    intros i j Hi Hj. erewrite mget_lreg, !mget_msub by eauto with wf.
    rewrite !mget_diag by (rewrite row_sums_length, ?dense_length, ?(wf_mat_length _ _ _ WR); assumption).
    pose proof (veq_nthq _ _ i (row_sums_regularized a reg ltac:(lia))) as Ei. rewrite nthq_map in Ei by vlen.
    rewrite mget_regularized by lia. rewrite <- Hsq. destruct (Nat.eqb i j); [rewrite Ei|]; field; apply qnat_nonzero; exact Hn. }
  unfold lfull, laplacian_dense. destruct norm; rewrite EL; reflexivity.
Qed.

Theorem le_denotes sqrtf e : Proper (Qeq ==> Qeq) sqrtf -> le_wf e ->
  exists reg norm s' LA, lp_is (lp_eval sqrtf e) (le_n e) reg norm s' LA /\ 0 <= reg /\ wf_mat (le_n e) (le_n e) LA /\
    le_dense sqrtf e =m lfull (le_n e) reg norm (map pinv s') LA.
Proof.
  intros Hs. induction e as [a reg norm | e IH | e IH]; simpl; intros H.
  - destruct H as (W & Hsq & Hn & Hreg). pose proof (dense_wf_sq a Hsq).
    exists reg, norm, (map (fun d => sqrtf (d + reg)) (smv a (vones (s_nrow a)))), (msub (diag (row_sums (dense a))) (dense a)).
    split; [apply mk_laplacian_is; assumption|]. split; [exact Hreg|]. split; [eauto with wf|].
    symmetry. apply lfull_base; assumption.
  - destruct (IH H) as (reg & norm & s' & LA & I1 & Hreg & WLA & I2). exists reg, norm, s', (transpose_n (le_n e) LA).
    split; [apply lp_transpose_is; exact I1|]. split; [exact Hreg|]. split; [auto with wf|].
    rewrite I2. apply lfull_transpose; [exact WLA | rewrite map_length; apply I1].
  - apply IH; exact H.
Qed.

Lemma le_matvec_denotes sqrtf e x : Proper (Qeq ==> Qeq) sqrtf -> le_wf e -> length x = le_n e ->
  lp_matvec (lp_eval sqrtf e) x =v mat_vec (le_dense sqrtf e) x.
Proof.
  intros Hs HW Hx. destruct (le_denotes sqrtf e Hs HW) as (reg & norm & s' & LA & I1 & Hreg & _ & I2).
  rewrite I2. apply (lp_matvec_is _ _ _ _ _ _ x I1 Hreg Hx).
Qed.
Theorem laplacian_dot_denotes sqrtf e x : Proper (Qeq ==> Qeq) sqrtf -> le_wf e -> length x = le_n e ->
  exists y, lo_dot (lp_n (lp_eval sqrtf e), lp_n (lp_eval sqrtf e)) (lp_matvec (lp_eval sqrtf e)) x = Ok y /\
            y =v mat_vec (le_dense sqrtf e) x.
Proof.
  intros Hs HW Hx. destruct (le_denotes sqrtf e Hs HW) as (reg & norm & s' & LA & I1 & Hreg & WLA & I2).
  rewrite (proj1 I1). apply lo_dot_denotes; simpl; [exact Hx | | apply le_matvec_denotes; assumption].
  rewrite (meq_length _ _ I2).
  apply (wf_mat_length _ _ _ (lfull_wf _ reg norm (map pinv s') _ WLA ltac:(rewrite map_length; apply I1))).
Qed.
Theorem laplacian_expr_matmat_denotes sqrtf k e X : Proper (Qeq ==> Qeq) sqrtf -> le_wf e -> wf_mat (le_n e) k X ->
  lp_matmat k (lp_eval sqrtf e) X =m mat_mul k (le_dense sqrtf e) X.
Proof.
  intros Hs HW WX. destruct (le_denotes sqrtf e Hs HW) as (reg & norm & s' & LA & I1 & Hreg & _ & I2).
  rewrite I2. apply (lp_matmat_is k _ _ _ _ _ _ X I1 Hreg WX).
Qed.

Definition cn_wfv (v : coneighbor) : Prop := swf (cn_back v) /\ swf (cn_fwd v) /\ s_ncol (cn_back v) = s_nrow (cn_fwd v).
Definition cn_is (v : coneighbor) (r c : nat) (D : mat) : Prop :=
  cn_wfv v /\ s_nrow (cn_back v) = r /\ s_ncol (cn_fwd v) = c /\ cn_dense v =m D.

Lemma cn_is_wf v r c D : cn_is v r c D -> wf_mat r c D.
Proof.
  intros ((Wb & Wf & E0) & <- & <- & E). eapply wf_mat_meq; [exact E|].
  unfold cn_dense, cn_ncol. eapply mat_mul_wf; [apply dense_wf|]. rewrite E0. apply dense_wf.
Qed.

Theorem coneighbor_matvec_denotes v x : cn_wfv v -> length x = cn_ncol v -> cn_matvec v x =v mat_vec (cn_dense v) x.
Proof.
  intros (Wb & Wf & E) Hx. unfold cn_matvec, cn_dense, cn_ncol in *.
  rewrite (smv_dense (cn_back v)) by (auto; vlen). rewrite (smv_dense (cn_fwd v)) by assumption.
  symmetry. apply mat_vec_mat_mul. apply (wf_mat_rows _ _ _ (dense_wf (cn_fwd v))).
Qed.
Theorem coneighbor_matmat_denotes k v X : cn_wfv v -> wf_mat (cn_ncol v) k X -> cn_matmat k v X =m mat_mul k (cn_dense v) X.
Proof.
  intros (Wb & Wf & E) WX. unfold cn_matmat, cn_dense, cn_ncol in *.
  pose proof (smm_wf k _ _ Wf WX) as W1. rewrite <- E in W1.
  rewrite (smm_dense k (cn_back v)) by assumption. rewrite (smm_dense k (cn_fwd v)) by assumption.
  symmetry. apply (mat_mul_assoc (s_nrow (cn_back v)) (s_ncol (cn_back v)) (s_ncol (cn_fwd v)) k); auto using dense_wf.
  rewrite E. apply dense_wf.
Qed.

Lemma srow_dot_abs row x : Forall (fun e => 0 <= snd e) row ->
  srow_dot (map (fun e => (fst e, Qabs (snd e))) row) x == srow_dot row x.
Proof.
  induction 1 as [|e row He H IH]; [reflexivity|]. unfold srow_dot in *. simpl. rewrite IH.
  rewrite (Qabs_pos _ He). reflexivity.
Qed.
Lemma snorms1_nonneg s : swf s -> snonneg s -> snorms1 s =v row_sums (dense s).
Proof.
  intros W HN. rewrite <- (mat_vec_vones _ _ _ (dense_wf s)). rewrite <- smv_dense by (auto; vlen).
  unfold snorms1, smv, smap; simpl. rewrite map_map. unfold snonneg in HN.
  induction HN as [|row rows Hr HN IH]; simpl; constructor; auto. apply srow_dot_abs; exact Hr.
Qed.
Lemma tcol_values P j i rows : Forall (Forall (fun e : nat * Q => P (snd e))) rows -> Forall (fun e => P (snd e)) (tcol j i rows).
Proof.
  intros H. apply Forall_forall. intros [i' v] Hin. apply In_tcol in Hin. destruct Hin as (H1 & H2 & Hv).
  rewrite Forall_forall in H. specialize (H (nth (i' - i) rows []) ltac:(apply nth_In; lia)).
  rewrite Forall_forall in H. exact (H _ Hv).
Qed.
Lemma snonneg_stranspose s : snonneg s -> snonneg (stranspose s).
Proof.
  intros H. unfold snonneg, stranspose; simpl. apply Forall_map, Forall_forall. intros j _. apply (tcol_values (fun q => 0 <= q)). exact H.
Qed.
Lemma row_scale_vones r c M : wf_mat r c M -> row_scale (vones r) M =m M.
Proof.
  intros WM. apply (meq_mget r c); auto; [apply row_scale_wf; auto; vlen|].
  intros i j Hi Hj. rewrite (mget_row_scale r c) by (auto; vlen). rewrite nthq_vones by exact Hi. ring.
Qed.

Theorem coneighbor_base_is a nrm : swf a -> snonneg a -> cn_is (mk_coneighbor a nrm) (s_nrow a) (s_nrow a) (coneighbor_dense a nrm).
Proof.
  intros W HN. pose proof (swf_stranspose a) as Wt. pose proof (dense_stranspose a) as Et.
  unfold cn_is, cn_wfv, cn_dense, cn_ncol, coneighbor_dense, mk_coneighbor. destruct nrm; simpl.
  - unfold snormalize. repeat split; auto using swf_smul.
    + rewrite smul_nrow, sdiag_pinv_nrow. unfold snorms1. vlen.
    + rewrite dense_smul_sdiag_pinv by (unfold snorms1; vlen).
      rewrite snorms1_nonneg by (auto using snonneg_stranspose). rewrite Et. reflexivity.
  - repeat split; auto; [symmetry; apply stranspose_nrow|].
    rewrite Et, (row_scale_vones (s_ncol a) (s_nrow a)) by (apply transpose_n_wf, dense_length). reflexivity.
Qed.

(** the algebraic operations (each mutates the object; the value it then has is modelled here) *)
Theorem cn_mul_is q v r c D : cn_is v r c D -> cn_is (cn_mul q v) r c (mscale q D).
Proof.
  intros ((Wb & Wf & E) & Hr & Hc & ED). unfold cn_is, cn_wfv, cn_dense, cn_ncol, cn_mul in *; simpl.
  repeat split; auto.
  - apply swf_smap; exact Wb.
  - unfold sscale. rewrite smap_nrow. exact Hr.
  - rewrite dense_sscale. rewrite mat_mul_mscale_l by apply (wf_mat_rows _ _ _ (dense_wf (cn_fwd v))). rewrite ED. reflexivity.
Qed.
Theorem cn_neg_is v r c D : cn_is v r c D -> cn_is (cn_neg v) r c (mneg D).
Proof.
  intros H. destruct (cn_mul_is (-(1)) v r c D H) as (Hv & Hr & Hc & E).
  refine (conj Hv (conj Hr (conj Hc _))). rewrite mneg_mscale. exact E.
Qed.
Theorem cn_left_is M v r c D : cn_is v r c D -> swf M -> s_ncol M = r ->
  cn_is (cn_left M v) (s_nrow M) c (mat_mul c (dense M) D).
Proof.
  intros ((Wb & Wf & E) & Hr & Hc & ED) WM HM. unfold cn_is, cn_wfv, cn_dense, cn_ncol in *; simpl.
  repeat split; auto.
  - apply swf_smul; exact Wb.
  - apply smul_nrow.
  - rewrite dense_smul by (auto; lia).
    assert (WB : wf_mat (s_ncol M) (s_ncol (cn_back v)) (dense (cn_back v))) by (rewrite HM, <- Hr; apply dense_wf).
    assert (WF : wf_mat (s_ncol (cn_back v)) (s_ncol (cn_fwd v)) (dense (cn_fwd v))) by (rewrite E; apply dense_wf).
    rewrite (mat_mul_assoc _ _ _ _ _ _ _ (dense_wf M) WB WF). rewrite ED, Hc. reflexivity.
Qed.
Theorem cn_right_is v M r c D : cn_is v r c D -> swf M -> s_nrow M = c ->
  cn_is (cn_right v M) r (s_ncol M) (mat_mul (s_ncol M) D (dense M)).
Proof.
  intros ((Wb & Wf & E) & Hr & Hc & ED) WM HM. unfold cn_is, cn_wfv, cn_dense, cn_ncol in *; simpl.
  repeat split; auto.
  - apply swf_smul; exact WM.
  - rewrite smul_nrow. exact E.
  - rewrite dense_smul by (auto; lia).
    assert (WF : wf_mat (s_ncol (cn_back v)) (s_ncol (cn_fwd v)) (dense (cn_fwd v))) by (rewrite E; apply dense_wf).
    assert (WMm : wf_mat (s_ncol (cn_fwd v)) (s_ncol M) (dense M)) by (rewrite Hc, <- HM; apply dense_wf).
    rewrite <- (mat_mul_assoc _ _ _ _ _ _ _ (dense_wf (cn_back v)) WF WMm). rewrite ED. reflexivity.
Qed.
Theorem cn_transpose_is v r c D : cn_is v r c D -> cn_is (cn_transpose v) c r (transpose_n c D).
Proof.
  intros ((Wb & Wf & E) & Hr & Hc & ED). unfold cn_is, cn_wfv, cn_dense, cn_ncol in *; simpl.
  split; [split; [apply swf_stranspose | split; [apply swf_stranspose | rewrite ?stranspose_ncol, ?stranspose_nrow; symmetry; exact E]] |].
  split; [rewrite ?stranspose_nrow; exact Hc|]. split; [rewrite ?stranspose_ncol; exact Hr |].
  rewrite !dense_stranspose. rewrite <- ED, <- Hc. rewrite ?stranspose_ncol.
  rewrite (transpose_mat_mul (s_nrow (cn_back v)) (s_ncol (cn_back v)) (s_ncol (cn_fwd v)))
    by (auto using dense_wf; rewrite E; apply dense_wf).
  rewrite E. reflexivity.
Qed.

Theorem ce_denotes e : ce_wf e -> cn_is (cn_eval e) (fst (ce_shape e)) (snd (ce_shape e)) (ce_dense e).
Proof.
  induction e as [a nrm | e IH | q e IH | M e IH | e IH M | e IH | e IH]; simpl; intros H.
  - destruct H as [W HN]. apply coneighbor_base_is; assumption.
  - apply cn_neg_is; auto.
  - apply cn_mul_is; auto.
  - destruct H as (H1 & W & E). apply (cn_left_is M _ (fst (ce_shape e))); auto.
  - destruct H as (H1 & W & E). apply (cn_right_is _ M (fst (ce_shape e)) (snd (ce_shape e))); auto.
  - apply cn_transpose_is; auto.
  - apply IH; exact H.
Qed.

(** the recorded LinearOperator shape follows the two factors through every operation *)
Lemma cn_eval_shape e : cn_shape (cn_eval e) = (s_nrow (cn_back (cn_eval e)), s_ncol (cn_fwd (cn_eval e))).
Proof.
  induction e as [a nrm | e IH | q e IH | M e IH | e IH M | e IH | e IH]; simpl; auto.
  - destruct nrm; reflexivity.
  - rewrite IH, sscale_nrow. reflexivity.
  - rewrite IH, sscale_nrow. reflexivity.
  - rewrite IH. reflexivity.
  - rewrite IH. reflexivity.
Qed.

Theorem coneighbor_dot_denotes e x : ce_wf e -> length x = snd (ce_shape e) ->
  exists y, cn_dot (cn_eval e) x = Ok y /\ y =v mat_vec (ce_dense e) x.
Proof.
  intros H Hx. destruct (ce_denotes e H) as (Hv & Hr & Hc & ED).
  unfold cn_dot. rewrite Hc, Hx, Nat.eqb_refl. apply lo_dot_denotes; rewrite ?cn_eval_shape; simpl; try lia.
  - rewrite <- (meq_length _ _ ED). unfold cn_dense, mat_mul. rewrite map_length. apply dense_length.
  - rewrite coneighbor_matvec_denotes by (auto; unfold cn_ncol; lia). rewrite ED. reflexivity.
Qed.
Theorem coneighbor_expr_matmat_denotes k e X : ce_wf e -> wf_mat (snd (ce_shape e)) k X ->
  cn_matmat k (cn_eval e) X =m mat_mul k (ce_dense e) X.
Proof.
  intros H WX. destruct (ce_denotes e H) as (Hv & Hr & Hc & ED).
  rewrite coneighbor_matmat_denotes by (auto; unfold cn_ncol; rewrite Hc; exact WX). rewrite ED. reflexivity.
Qed.

Lemma horner_cons f c cs x : cs <> [] -> horner f (c :: cs) x = vadd (f (horner f cs x)) (vscale c x).
Proof.
  intros H. unfold horner. simpl rev. destruct (rev cs) as [|cl rest] eqn:E.
  - exfalso. apply H. rewrite <- (rev_involutive cs), E. reflexivity.
  - simpl. rewrite fold_left_app. reflexivity.
Qed.
Lemma horner_mat_cons f c cs X : cs <> [] -> horner_mat f (c :: cs) X = madd (f (horner_mat f cs X)) (mscale c X).
Proof.
  intros H. unfold horner_mat. simpl rev. destruct (rev cs) as [|cl rest] eqn:E.
  - exfalso. apply H. rewrite <- (rev_involutive cs), E. reflexivity.
  - simpl. rewrite fold_left_app. reflexivity.
Qed.

Lemma msum_wf r c l : Forall (wf_mat r c) l -> wf_mat r c (msum r c l).
Proof. induction 1; simpl; auto with wf. Qed.
Global Hint Resolve msum_wf mat_pow_wf : wf.
Global Instance msum_proper : Proper (eq ==> eq ==> Forall2 meq ==> meq) msum.
Proof. intros r r' <- c c' <- l l' H. induction H; simpl; [reflexivity|]. apply madd_proper; assumption. Qed.
Lemma mat_vec_msum r c l x : Forall (wf_mat r c) l -> mat_vec (msum r c l) x =v vsum r (map (fun M => mat_vec M x) l).
Proof.
  induction 1 as [|M l HM H IH]; simpl; [apply mat_vec_mzero|].
  rewrite (mat_vec_madd r c) by auto with wf. rewrite IH. reflexivity.
Qed.
Lemma mat_mul_msum_r r q p A l : wf_mat r q A -> Forall (wf_mat q p) l ->
  mat_mul p A (msum q p l) =m msum r p (map (mat_mul p A) l).
Proof.
  intros WA H. induction H as [|M l HM H IH]; simpl; [apply (mat_mul_mzero_r r q p); exact WA|].
  rewrite (mat_mul_madd_r r q p) by auto with wf. rewrite IH. reflexivity.
Qed.
Lemma poly_terms_wf n A cs : wf_mat n n A ->
  Forall (wf_mat n n) (map (fun k => mscale (nthq cs k) (mat_pow n A k)) (seq 0 (length cs))).
Proof.
  intros WA. rewrite Forall_forall. intros M HM. apply in_map_iff in HM. destruct HM as [k [<- _]].
  apply mscale_wf, mat_pow_wf; exact WA.
Qed.
Lemma poly_dense_wf n A cs : wf_mat n n A -> wf_mat n n (poly_dense n A cs).
Proof. intros WA. apply msum_wf, poly_terms_wf; exact WA. Qed.
Theorem poly_dense_power_sum n A cs x : wf_mat n n A -> mat_vec (poly_dense n A cs) x =v power_sum n A cs x.
Proof.
  intros WA. unfold poly_dense, power_sum. rewrite mat_vec_msum by (apply poly_terms_wf; exact WA).
  rewrite map_map. apply vsum_proper; [reflexivity|]. apply map_ext_meq. intros k _. apply mat_vec_mscale.
Qed.

Lemma poly_dense_cons n A c cs : wf_mat n n A ->
  poly_dense n A (c :: cs) =m madd (mscale c (identity n)) (mat_mul n A (poly_dense n A cs)).
Proof.
  intros WA. unfold poly_dense. simpl length. rewrite <- cons_seq. simpl map. simpl msum.
  apply madd_proper; [reflexivity|]. rewrite <- seq_shift, map_map.
  rewrite (mat_mul_msum_r n n n) by (auto using poly_terms_wf). rewrite map_map.
  apply msum_proper; auto. apply Forall2_map_ext. intros k _.
  unfold nthq; simpl nth. fold (nthq cs k). simpl mat_pow.
  rewrite (mat_mul_mscale_r n n n) by auto with wf. reflexivity.
Qed.

Theorem horner_denotes n A f cs x : wf_mat n n A -> (forall y, length y = n -> f y =v mat_vec A y) ->
  cs <> [] -> length x = n -> horner f cs x =v mat_vec (poly_dense n A cs) x.
Proof.
  intros WA Hf Hcs Hx. induction cs as [|c cs IH]; [contradiction|]. pose proof (poly_dense_wf n A cs WA) as WP.
  erewrite poly_dense_cons, mat_vec_madd, mat_vec_mscale, mat_vec_identity, mat_vec_mat_mul by eauto with wf.
  destruct cs as [|c' cs].
  - unfold horner, poly_dense; simpl. rewrite mat_vec_mzero, mat_vec_vzero, (wf_mat_length _ _ _ WA).
    symmetry. apply vadd_vzero_r. rewrite vscale_length; exact Hx.
  - assert (Hne : c' :: cs <> []) by discriminate. specialize (IH Hne). rewrite horner_cons by exact Hne.
    rewrite Hf, IH by (rewrite (veq_length _ _ IH), mat_vec_length; apply (wf_mat_length _ _ _ WP)). apply vadd_comm.
Qed.
Theorem horner_eq_power_sum n A f cs x : wf_mat n n A -> (forall y, length y = n -> f y =v mat_vec A y) ->
  cs <> [] -> length x = n -> horner f cs x =v power_sum n A cs x.
Proof. intros WA Hf Hcs Hx. rewrite <- poly_dense_power_sum by exact WA. apply horner_denotes; assumption. Qed.
Theorem polynome_matvec_denotes v x : swf (pl_mat v) -> s_nrow (pl_mat v) = s_ncol (pl_mat v) -> pl_coeffs v <> [] ->
  length x = s_nrow (pl_mat v) -> pl_matvec v x =v mat_vec (poly_dense (s_nrow (pl_mat v)) (dense (pl_mat v)) (pl_coeffs v)) x.
Proof.
  intros W Hsq Hcs Hx. apply horner_denotes; auto using dense_wf_sq.
  intros y Hy. apply smv_dense; [exact W | lia].
Qed.

Theorem horner_mat_denotes n k A f cs X : wf_mat n n A -> (forall Y, wf_mat n k Y -> f Y =m mat_mul k A Y) ->
  cs <> [] -> wf_mat n k X -> horner_mat f cs X =m mat_mul k (poly_dense n A cs) X.
Proof.
  intros WA Hf Hcs WX. induction cs as [|c cs IH]; [contradiction|]. pose proof (poly_dense_wf n A cs WA) as WP.
  rewrite poly_dense_cons, (mat_mul_madd_l n n k), mat_mul_mscale_l, (mat_mul_identity_l n k), (mat_mul_assoc n n n k)
    by eauto with wf.
  destruct cs as [|c' cs].
  - unfold horner_mat, poly_dense; simpl. rewrite (mat_mul_mzero_l n), (mat_mul_mzero_r n n k) by assumption.
    symmetry. apply madd_mzero_r. apply mscale_wf; exact WX.
  - assert (Hne : c' :: cs <> []) by discriminate. specialize (IH Hne). rewrite horner_mat_cons by exact Hne.
    rewrite Hf, IH by (eapply wf_mat_meq; [symmetry; exact IH | eauto with wf]). apply madd_comm.
Qed.
Theorem polynome_matmat_denotes k v X : swf (pl_mat v) -> s_nrow (pl_mat v) = s_ncol (pl_mat v) -> pl_coeffs v <> [] ->
  wf_mat (s_nrow (pl_mat v)) k X -> pl_matmat k v X =m mat_mul k (poly_dense (s_nrow (pl_mat v)) (dense (pl_mat v)) (pl_coeffs v)) X.
Proof.
  intros W Hsq Hcs WX. apply horner_mat_denotes; auto using dense_wf_sq.
  intros Y WY. apply smm_dense; [exact W | rewrite <- Hsq; exact WY].
Qed.
Lemma msum_mscale r c q l : mscale q (msum r c l) =m msum r c (map (mscale q) l).
Proof. induction l as [|M l IH]; simpl; [apply mscale_mzero|]. rewrite mscale_madd, IH. reflexivity. Qed.
Lemma poly_dense_map_lin n A h q cs : (forall x, h x == q * x) ->
  poly_dense n A (map h cs) =m mscale q (poly_dense n A cs).
Proof.
  intros Hh. unfold poly_dense. rewrite msum_mscale, map_map, map_length.
  apply msum_proper; auto. apply Forall2_map_ext. intros k Hk. apply in_seq in Hk.
  rewrite nthq_map by lia. rewrite mscale_mscale. apply mscale_proper; [apply Hh | reflexivity].
Qed.

Lemma mat_pow_comm n B k : wf_mat n n B -> mat_mul n (mat_pow n B k) B =m mat_mul n B (mat_pow n B k).
Proof.
  intros WB. induction k as [|k IH]; simpl.
  - erewrite mat_mul_identity_l by exact WB. rewrite (mat_mul_identity_r n n) by exact WB. reflexivity.
  - pose proof (mat_pow_wf n B k WB) as WP. rewrite (mat_mul_assoc n n n n) by assumption. rewrite IH. reflexivity.
Qed.
Global Instance mat_pow_proper : Proper (eq ==> meq ==> eq ==> meq) mat_pow.
Proof.
  intros n n' <- A A' HA k k' <-. induction k as [|k IH]; simpl; [reflexivity|]. apply mat_mul_proper; auto.
Qed.
Lemma mat_pow_transpose n A k : wf_mat n n A -> transpose_n n (mat_pow n A k) =m mat_pow n (transpose_n n A) k.
Proof.
  intros WA. pose proof (transpose_n_wf n n A (wf_mat_length _ _ _ WA)) as WT. induction k as [|k IH]; simpl.
  - apply transpose_identity.
  - rewrite (transpose_mat_mul n n n) by auto with wf. rewrite IH. apply mat_pow_comm; exact WT.
Qed.
Lemma transpose_msum r c l : Forall (wf_mat r c) l -> transpose_n c (msum r c l) =m msum c r (map (transpose_n c) l).
Proof.
  induction 1 as [|M l HM H IH]; simpl; [apply transpose_mzero|].
  rewrite (transpose_madd r c) by auto with wf. rewrite IH. reflexivity.
Qed.
Lemma poly_dense_transpose n A cs : wf_mat n n A -> poly_dense n (transpose_n n A) cs =m transpose_n n (poly_dense n A cs).
Proof.
  intros WA. unfold poly_dense. rewrite (transpose_msum n n) by (apply poly_terms_wf; exact WA). rewrite map_map.
  apply msum_proper; auto. apply Forall2_map_ext. intros k _.
  erewrite transpose_mscale by (apply mat_pow_wf; exact WA). rewrite mat_pow_transpose by exact WA. reflexivity.
Qed.
Global Instance poly_dense_proper : Proper (eq ==> meq ==> eq ==> meq) poly_dense.
Proof.
  intros n n' <- A A' HA cs cs' <-. unfold poly_dense. apply msum_proper; auto. apply Forall2_map_ext. intros k _.
  rewrite HA. reflexivity.
Qed.

Theorem pe_denotes e : pe_wf e ->
  let v := pl_eval e in
  swf (pl_mat v) /\ s_nrow (pl_mat v) = s_ncol (pl_mat v) /\ s_nrow (pl_mat v) = pe_n e /\ pl_coeffs v <> [] /\
  poly_dense (pe_n e) (dense (pl_mat v)) (pl_coeffs v) =m pe_dense e.
Proof.
  induction e as [a cs | e IH | q e IH | e IH]; simpl; intros H.
  - destruct H as (W & Hsq & Hcs). repeat split; auto. reflexivity.
  - destruct (IH H) as (W & Hsq & Hn & Hcs & E). repeat split; auto.
    + intros Hm. apply Hcs, (map_eq_nil _ _ Hm).
    + rewrite (poly_dense_map_lin _ _ Qopp (-(1))) by (intros; ring). rewrite E. symmetry. apply mneg_mscale.
  - destruct (IH H) as (W & Hsq & Hn & Hcs & E). repeat split; auto.
    + intros Hm. apply Hcs, (map_eq_nil _ _ Hm).
    + rewrite (poly_dense_map_lin _ _ (Qmult q) q) by (intros; reflexivity). rewrite E. reflexivity.
  - destruct (IH H) as (W & Hsq & Hn & Hcs & E). split; [apply swf_stranspose|].
    split; [rewrite ?stranspose_nrow, ?stranspose_ncol; symmetry; exact Hsq|].
    split; [rewrite ?stranspose_nrow; lia|]. split; [exact Hcs|].
    rewrite dense_stranspose. rewrite <- Hsq, Hn. rewrite poly_dense_transpose by (rewrite <- Hn; rewrite Hsq at 2; apply dense_wf).
    rewrite E. reflexivity.
Qed.

Theorem polynome_dot_denotes e x : pe_wf e -> length x = pe_n e ->
  exists y, lo_dot (s_nrow (pl_mat (pl_eval e)), s_ncol (pl_mat (pl_eval e))) (pl_matvec (pl_eval e)) x = Ok y /\
            y =v mat_vec (pe_dense e) x.
Proof.
  intros H Hx. destruct (pe_denotes e H) as (W & Hsq & Hn & Hcs & E).
  apply lo_dot_denotes; simpl; try lia.
  - rewrite <- (meq_length _ _ E), <- Hn. apply (wf_mat_length _ _ _ (poly_dense_wf _ _ _ (dense_wf_sq _ Hsq))).
  - rewrite polynome_matvec_denotes by (auto; lia). rewrite Hn, E. reflexivity.
Qed.
Theorem polynome_expr_matmat_denotes k e X : pe_wf e -> wf_mat (pe_n e) k X ->
  pl_matmat k (pl_eval e) X =m mat_mul k (pe_dense e) X.
Proof.
  intros H WX. destruct (pe_denotes e H) as (W & Hsq & Hn & Hcs & E).
  rewrite polynome_matmat_denotes by (auto; rewrite Hn; exact WX). rewrite Hn, E. reflexivity.
Qed.

(** diagonal_pseudo_inverse: null weights stay null, the others are inverted *)
Theorem pseudo_inverse_keeps_zero w :
  dense (sdiag_pinv w) =m diag (map pinv w) /\
  (forall i, nthq w i == 0 -> nthq (map pinv w) i == 0) /\
  (forall i, (i < length w)%nat -> ~ nthq w i == 0 -> nthq (map pinv w) i * nthq w i == 1).
Proof.
  split; [apply dense_sdiag_pinv|]. split.
  - intros i H. destruct (Nat.lt_ge_cases i (length w)) as [Hi|Hi].
    + rewrite nthq_map by exact Hi. rewrite H. reflexivity.
    + rewrite nthq_overflow by (rewrite map_length; exact Hi). reflexivity.
  - intros i Hi H. rewrite nthq_map by exact Hi. apply pinv_inv; exact H.
Qed.

Lemma srow_dot_map_ones f n row : srow_wf n row ->
  srow_dot (map (fun e => (fst e, f (snd e))) row) (vones n) == sumq (map (fun e => f (snd e)) row).
Proof.
  induction 1 as [|e row He H IH]; [reflexivity|]. unfold srow_dot in *. simpl. rewrite IH.
  rewrite nthq_vones by exact He. ring.
Qed.
Theorem get_norms1_def s : swf s -> snorms1 s =v map srow_norm1 (s_rows s).
Proof.
  intros W. unfold snorms1, smv, smap; simpl. rewrite map_map. unfold swf in W.
  induction W as [|row rows Hr W IH]; simpl; constructor; auto. apply srow_dot_map_ones; exact Hr.
Qed.
Theorem get_norms2_def sqrtf s : Proper (Qeq ==> Qeq) sqrtf -> swf s ->
  snorms2 sqrtf s =v map (fun row => sqrtf (srow_norm2sq row)) (s_rows s).
Proof.
  intros Hs W. unfold snorms2, smv, smap; simpl. rewrite !map_map. unfold swf in W.
  induction W as [|row rows Hr W IH]; simpl; constructor; auto. apply Hs.
  apply (srow_dot_map_ones (fun q => q * q)); exact Hr.
Qed.

Lemma srow_norm1_nonneg row : 0 <= srow_norm1 row.
Proof.
  unfold srow_norm1. induction row as [|e row IH]; simpl; [apply Qle_refl|].
  apply (Qplus_le_compat 0 _ 0); [apply Qabs_nonneg | exact IH].
Qed.
Lemma srow_norm1_scale c row : srow_norm1 (map (fun f => (fst f, c * snd f)) row ++ []) == Qabs c * srow_norm1 row.
Proof.
  rewrite app_nil_r. unfold srow_norm1. rewrite map_map. simpl.
  rewrite <- sumq_map_scale. apply sumq_ext. intros a _. apply Qabs_Qmult.
Qed.
Lemma srow_norm2sq_scale c row : srow_norm2sq (map (fun f => (fst f, c * snd f)) row ++ []) == c * c * srow_norm2sq row.
Proof.
  rewrite app_nil_r. unfold srow_norm2sq. rewrite map_map. simpl.
  rewrite <- sumq_map_scale. apply sumq_ext. intros a _. ring.
Qed.

Lemma scaled_row_cases w (g : list (nat * Q) -> Q) s i : w =v map g (s_rows s) -> (i < s_nrow s)%nat ->
  let row := nth i (s_rows s) [] in
  let row' := nth i (s_rows (smul (sdiag_pinv w) s)) [] in
  (g row == 0 /\ row' = []) \/
  (~ nthq w i == 0 /\ nthq w i == g row /\ row' = map (fun f => (fst f, / nthq w i * snd f)) row ++ []).
Proof.
  intros EN Hi row row'.
  assert (Ei : nthq w i == g row).
  { rewrite (veq_nthq _ _ i EN). unfold row. rewrite (nthq_map_gen g (s_rows s) []) by exact Hi. reflexivity. }
  assert (HL : length w = s_nrow s) by (rewrite (veq_length _ _ EN); apply map_length).
  unfold row', smul; simpl.
  rewrite (nth_map_gen (fun r => srow_mul r s) (s_rows (sdiag_pinv w)) [] []), nth_sdiag_pinv_row
    by (fold (s_nrow (sdiag_pinv w)); rewrite ?sdiag_pinv_nrow; lia).
  destruct (Qeq_bool (nthq w i) 0) eqn:E.
  - left. apply Qeq_bool_iff in E. split; [rewrite <- Ei; exact E | reflexivity].
  - right. apply Qeq_bool_neq in E. auto.
Qed.

Lemma zmax_ge l labels : In l labels -> (l <= zmax labels)%Z.
Proof.
  induction labels as [|a labels IH]; simpl; [contradiction|]. intros [<-|H]; [lia|]. specialize (IH H). lia.
Qed.
Lemma zmax_lower labels : (-1 <= zmax labels)%Z.
Proof. induction labels as [|a labels IH]; simpl; lia. Qed.
Theorem membership_def labels n_labels m : get_membership labels n_labels = Ok m ->
  s_nrow m = length labels /\ swf m /\
  (forall i j, (i < length labels)%nat -> (j < s_ncol m)%nat ->
     mget (dense m) i j == if Z.eqb (nth i labels 0%Z) (Z.of_nat j) then 1 else 0) /\
  from_membership m = Ok (map (fun l => if Z.ltb l 0 then (-1)%Z else l) labels).
Proof.
  unfold get_membership. destruct (match labels, n_labels with [], None => true | _, _ => false end); [discriminate|].
  set (nc := membership_ncol labels n_labels). clearbody nc.
  destruct (forallb (fun l => Z.ltb l (Z.of_nat nc)) labels) eqn:E; [|discriminate].
  intros H; injection H as <-. rewrite forallb_forall in E.
  split; [unfold s_nrow; simpl; apply map_length|]. split; [|split].
  - unfold swf; simpl. apply Forall_map, Forall_forall. intros l Hl.
    destruct (Z.leb 0 l) eqn:El; constructor; [|constructor]. simpl. apply Z.leb_le in El.
    specialize (E l Hl). apply Z.ltb_lt in E. lia.
  - intros i j Hi Hj. rewrite mget_dense by (unfold s_nrow; simpl; rewrite ?map_length; assumption). simpl.
    rewrite (nth_map_gen (fun l => if Z.leb 0 l then [(Z.to_nat l, 1)] else []) labels 0%Z []) by exact Hi.
    destruct (Z.eqb_spec (nth i labels 0%Z) (Z.of_nat j)) as [El|El].
    + rewrite (proj2 (Z.leb_le 0 _)) by lia. rewrite entry_cons, entry_nil. simpl. rewrite (proj2 (Nat.eqb_eq _ _)) by lia. ring.
    + destruct (Z.leb_spec 0 (nth i labels 0%Z)); [|reflexivity].
      rewrite entry_cons, entry_nil. simpl. rewrite (proj2 (Nat.eqb_neq _ _)) by lia. ring.
  - unfold from_membership; simpl. rewrite (proj2 (forallb_forall _ _)).
    + f_equal. rewrite map_map. apply map_ext. intros l. destruct (Z.leb_spec 0 l), (Z.ltb_spec l 0); simpl; lia.
    + intros r Hr. apply in_map_iff in Hr. destruct Hr as [l [<- _]]. destruct (Z.leb 0 l); reflexivity.
Qed.

Theorem neighbors_transpose_def s i j : (j < s_ncol s)%nat ->
  (In i (get_neighbors s j true) <-> (i < s_nrow s)%nat /\ In j (get_neighbors s i false)).
Proof.
  intros Hj. unfold get_neighbors, stranspose; simpl. rewrite nth_seq_map by exact Hj. rewrite !in_map_iff. split.
  - intros [[i' v] [Hi H]]. simpl in Hi. subst i'. apply In_tcol in H. destruct H as (_ & H2 & H3).
    rewrite Nat.sub_0_r in H3. split; [exact H2|]. exists (j, v). split; [reflexivity | exact H3].
  - intros (Hi & [[j' v] [Hjv H]]). simpl in Hjv. subst j'. exists (i, v). split; [reflexivity|].
    apply In_tcol. rewrite Nat.sub_0_r. split; [lia|]. split; [exact Hi | exact H].
Qed.
Lemma tcol_length j i0 rows : length (tcol j i0 rows) = sumn (map (fun r => length (filter (fun e => Nat.eqb (fst e) j) r)) rows).
Proof. revert i0; induction rows as [|r rows IH]; intros i0; simpl; [reflexivity|]. rewrite app_length, map_length, IH. reflexivity. Qed.
Theorem degrees_transpose_def s j : (j < s_ncol s)%nat ->
  nth j (get_degrees s true) 0%nat = sumn (map (fun r => length (filter (fun e => Nat.eqb (fst e) j) r)) (s_rows s)).
Proof.
  intros Hj. unfold get_degrees, stranspose; simpl. rewrite map_map. rewrite nth_seq_map by exact Hj. apply tcol_length.
Qed.

(** a row built column by column: [f j] only has entries in column [j] *)
Lemma entry_other j row j0 : Forall (fun e => fst e = j) row -> j <> j0 -> entry row j0 == 0.
Proof. intros H Hne. apply entry_absent. intros e He. apply (proj1 (Forall_forall _ _) H) in He. congruence. Qed.
Lemma entry_flat_seq_lt (f : nat -> list (nat * Q)) a n j0 :
  (forall j, Forall (fun e => fst e = j) (f j)) -> (j0 < a)%nat -> entry (flat_map f (seq a n)) j0 == 0.
Proof.
  intros Hf H. apply entry_absent. intros e He. apply in_flat_map in He. destruct He as (j & Hj & He).
  apply in_seq in Hj. apply (proj1 (Forall_forall _ _) (Hf j)) in He. lia.
Qed.
Lemma entry_flat_seq (f : nat -> list (nat * Q)) a n k :
  (forall j, Forall (fun e => fst e = j) (f j)) -> (k < n)%nat -> entry (flat_map f (seq a n)) (a + k)%nat == entry (f (a + k)%nat) (a + k)%nat.
Proof.
  intros Hf. revert a k; induction n as [|n IH]; intros a k H; [lia|]. simpl. rewrite entry_app. destruct k as [|k].
  - rewrite Nat.add_0_r, entry_flat_seq_lt by (auto; lia). ring.
  - rewrite (entry_other a) by (auto; lia). rewrite <- Nat.add_succ_comm, IH by lia. ring.
Qed.
Lemma sbool_wf s : swf (sbool s).
Proof.
  unfold swf, sbool; simpl. apply Forall_map, Forall_forall. intros row _.
  unfold srow_wf. rewrite Forall_forall. intros e He. apply in_flat_map in He. destruct He as [j [Hj He]].
  apply in_seq in Hj. destruct (Qeq_bool (entry row j) 0); [contradiction|]. destruct He as [<-|[]]. simpl. lia.
Qed.
Lemma mget_sbool s i j : (i < s_nrow s)%nat -> (j < s_ncol s)%nat ->
  mget (dense (sbool s)) i j == if Qeq_bool (mget (dense s) i j) 0 then 0 else 1.
Proof.
  intros Hi Hj. rewrite mget_dense by (unfold s_nrow, sbool in *; simpl; rewrite ?map_length; assumption).
  rewrite (mget_dense s) by assumption. unfold sbool; simpl.
  rewrite (nth_map_gen _ (s_rows s) [] []) by exact Hi.
  rewrite (entry_flat_seq _ 0 (s_ncol s) j) by (auto; intros j0; destruct (Qeq_bool _ 0); repeat constructor).
  simpl. destruct (Qeq_bool _ 0); [reflexivity|]. rewrite entry_cons, entry_nil. simpl. rewrite Nat.eqb_refl. ring.
Qed.
Lemma entry_sshift_lt k row j : (j < k)%nat -> entry (sshift k row) j == 0.
Proof. intros H. apply entry_absent. intros e He. apply in_map_iff in He. destruct He as [e' [<- _]]. simpl. lia. Qed.
Lemma entry_sshift k row j : entry (sshift k row) (k + j) == entry row j.
Proof.
  induction row as [|e row IH]; [reflexivity|].
  change (sshift k (e :: row)) with (((fst e + k)%nat, snd e) :: sshift k row). rewrite !entry_cons, IH. simpl.
  assert (Nat.eqb (fst e + k) (k + j) = Nat.eqb (fst e) j) as -> by (apply eq_true_iff_eq; rewrite !Nat.eqb_eq; lia).
  reflexivity.
Qed.
Lemma nth_mzero r c i : (i < r)%nat -> nth i (mzero r c) [] = vzero c.
Proof. apply nth_repeat_lt. Qed.

Lemma map_seq_shift {A} (f : nat -> A) a n : map f (seq a n) = map (fun k => f (a + k)%nat) (seq 0 n).
Proof.
  revert a; induction n as [|n IH]; intros a; simpl; [reflexivity|]. rewrite Nat.add_0_r, (IH (S a)), <- seq_shift, map_map.
  f_equal. apply map_ext. intros k. f_equal. lia.
Qed.
Lemma dense_row_sshift r c row : dense_row (r + c) (sshift r row) =v vzero r ++ dense_row c row.
Proof.
  unfold dense_row. rewrite seq_app, map_app. apply app_veq_proper.
  - unfold vzero. rewrite <- (map_const_seq 0 r 0). apply map_ext_veq. intros j Hj. apply in_seq in Hj.
    apply entry_sshift_lt. lia.
  - rewrite map_seq_shift. apply map_ext_veq. intros j _. apply entry_sshift.
Qed.
Lemma dense_row_app_zero r c row : srow_wf r row -> dense_row (r + c) row =v dense_row r row ++ vzero c.
Proof.
  intros W. unfold dense_row. rewrite seq_app, map_app. apply app_veq_proper; [reflexivity|].
  unfold vzero. rewrite <- (map_const_seq 0 c 0), map_seq_shift. apply map_ext_veq. intros j _. apply (entry_out r); [exact W | lia].
Qed.
Lemma map2_repeat_l {A B C} (f : A -> B -> C) a l : map2 f (repeat a (length l)) l = map (f a) l.
Proof. induction l; simpl; congruence. Qed.
Lemma map2_repeat_r {A B C} (f : A -> B -> C) l b : map2 f l (repeat b (length l)) = map (fun a => f a b) l.
Proof. induction l; simpl; congruence. Qed.

(** rows shifted right by the number of rows on top, [bottom] (with as many columns as there are rows on top) below *)
Lemma bip_dense b bottom : length bottom = s_ncol b -> Forall (srow_wf (s_nrow b)) bottom ->
  dense {| s_ncol := (s_nrow b + s_ncol b)%nat; s_rows := map (sshift (s_nrow b)) (s_rows b) ++ bottom |}
  =m block (mzero (s_nrow b) (s_nrow b)) (dense b) (dense {| s_ncol := s_nrow b; s_rows := bottom |}) (mzero (s_ncol b) (s_ncol b)).
Proof.
  intros Hb Wb. unfold dense, block, mzero. simpl. rewrite map_app, !map_map. apply Forall2_app.
  - rewrite <- (map_length (dense_row (s_ncol b)) (s_rows b)) at 2. rewrite map2_repeat_l, map_map.
    apply map_ext_meq. intros row _. apply dense_row_sshift.
  - rewrite <- Hb at 3. rewrite <- (map_length (dense_row (s_nrow b)) bottom), map2_repeat_r, map_map.
    apply map_ext_meq. intros row Hrow. apply dense_row_app_zero. rewrite Forall_forall in Wb. apply Wb, Hrow.
Qed.

Lemma degrees_transpose_length s : length (get_degrees s true) = s_ncol s.
Proof. unfold get_degrees. rewrite map_length. apply stranspose_nrow. Qed.
Lemma tfidf_idf_length lnf c : length (tfidf_idf lnf c) = s_ncol c.
Proof. unfold tfidf_idf. rewrite map_length. apply (degrees_transpose_length (spos c)). Qed.

Lemma perm_map_nth {A} (l : list A) d q : Permutation q (seq 0 (length l)) -> Permutation (map (fun i => nth i l d) q) l.
Proof. intros H. eapply Permutation_trans; [apply Permutation_map; exact H | rewrite map_nth_seq; apply Permutation_refl]. Qed.

Lemma perm_seq_spec p n : Permutation p (seq 0 n) -> length p = n /\ NoDup p /\ (forall i, In i p <-> (i < n)%nat).
Proof.
  intros P. split; [rewrite (Permutation_length P); apply seq_length|].
  split; [apply (Permutation_NoDup (Permutation_sym P)), seq_NoDup|].
  intros i. split; intros H; [apply (Permutation_in _ P), in_seq in H; lia | apply (Permutation_in _ (Permutation_sym P)), in_seq; lia].
Qed.
(** the code sorts the negated scores increasingly *)
Lemma neg_scores_le scores i j : nthq (map Qopp scores) i <= nthq (map Qopp scores) j -> nthq scores j <= nthq scores i.
Proof.
  unfold nthq. rewrite !(map_nth Qopp scores 0). intros H. apply Qopp_le_compat in H. rewrite !Qopp_involutive in H. exact H.
Qed.

(** what [top_k] returns apart from the order, which a final sort only permutes *)
Definition top_set (scores : list Q) (k : nat) (idx : list nat) : Prop :=
  length idx = Nat.min k (length scores) /\ NoDup idx /\ (forall i, In i idx -> (i < length scores)%nat) /\
  (forall i j, In i idx -> (j < length scores)%nat -> ~ In j idx -> nthq scores j <= nthq scores i).
Lemma top_set_perm scores k idx idx' : Permutation idx' idx -> top_set scores k idx -> top_set scores k idx'.
Proof.
  intros P (H1 & H2 & H3 & H4). pose proof (Permutation_sym P) as P'. repeat split.
  - rewrite (Permutation_length P). exact H1.
  - apply (Permutation_NoDup P' H2).
  - intros i Hi. apply H3, (Permutation_in _ P), Hi.
  - intros i j Hi Hj Hnj. apply H4; [apply (Permutation_in _ P), Hi | exact Hj |]. intros I. apply Hnj, (Permutation_in _ P'), I.
Qed.

(** contracts of np.argsort and np.argpartition are premises (checked at run time on every captured answer) *)
Section TopK.
Context (argsort : list Q -> list nat) (argpartition : list Q -> nat -> list nat)
  (argsort_perm : forall l, Permutation (argsort l) (seq 0 (length l)))
  (argsort_sorted : forall l a b, (a <= b)%nat -> (b < length l)%nat ->
     nthq l (nth a (argsort l) 0%nat) <= nthq l (nth b (argsort l) 0%nat))
  (argpartition_perm : forall l k, (k < length l)%nat -> Permutation (argpartition l k) (seq 0 (length l)))
  (argpartition_split : forall l k a b, (k < length l)%nat -> (a < k)%nat -> (k <= b)%nat -> (b < length l)%nat ->
     nthq l (nth a (argpartition l k) 0%nat) <= nthq l (nth b (argpartition l k) 0%nat)).

Theorem top_k_spec scores k sort idx : top_k argsort argpartition scores k sort = Ok idx ->
  top_set scores k idx /\
  (sort = true -> forall a b, (a <= b)%nat -> (b < length idx)%nat -> nthq scores (nth b idx 0%nat) <= nthq scores (nth a idx 0%nat)).
Proof.
  intros H. unfold top_k in H. set (n := length scores) in *. set (neg := map Qopp scores) in *.
  assert (Hneg : length neg = n) by apply map_length.
  destruct (Nat.leb n k) eqn:Ek.
  - apply Nat.leb_le in Ek.
    assert (T : top_set scores k (seq 0 n)).
    { repeat split; [rewrite seq_length; fold n; lia | apply seq_NoDup | intros i Hi; apply in_seq in Hi; lia |].
      intros i j _ Hj Hnj. exfalso. apply Hnj, in_seq. lia. }
    destruct sort; injection H as <-; [|split; [exact T | discriminate]].
    pose proof (argsort_perm neg) as P. rewrite Hneg in P. destruct (perm_seq_spec _ _ P) as (HL & _).
    split; [apply (top_set_perm _ _ _ _ P T)|].
    intros _ a b Hab Hb. rewrite HL in Hb.
    apply neg_scores_le, argsort_sorted; lia.
  - apply Nat.leb_gt in Ek. set (p := argpartition neg k) in *. set (index := firstn k p) in *.
    pose proof (argpartition_perm neg k ltac:(lia)) as P. fold p in P. rewrite Hneg in P.
    destruct (perm_seq_spec _ _ P) as (HLp & NDp & Hin).
    assert (HLi : length index = k) by (unfold index; rewrite firstn_length; lia).
    assert (Hsplit : p = index ++ skipn k p) by (symmetry; apply firstn_skipn).
    assert (Hidx : forall i, In i index -> (i < n)%nat).
    { intros i Hi. apply Hin. rewrite Hsplit. apply in_or_app. left; exact Hi. }
    assert (T : top_set scores k index).
    { repeat split; [fold n; lia | rewrite Hsplit in NDp; apply NoDup_app_l in NDp; exact NDp | exact Hidx |].
      (* i is at a position a < k of the partition, j at a position k + b *)
      intros i j Hi Hj Hnj. destruct (In_nth _ _ 0%nat Hi) as (a & Ha & Ea). rewrite HLi in Ha.
      assert (Hjp : In j (skipn k p)).
      { apply Hin in Hj. rewrite Hsplit in Hj. apply in_app_or in Hj. destruct Hj; [contradiction | assumption]. }
      destruct (In_nth _ _ 0%nat Hjp) as (b & Hb & Eb). rewrite skipn_length in Hb.
      pose proof (argpartition_split neg k a (k + b)%nat ltac:(lia) Ha ltac:(lia) ltac:(lia)) as S. fold p in S.
      rewrite Hsplit, app_nth1, app_nth2, HLi in S by lia. replace (k + b - k)%nat with b in S by lia. rewrite Ea, Eb in S.
      apply neg_scores_le, S. }
    destruct sort; injection H as <-; [|split; [exact T | discriminate]].
    pose proof (argsort_perm (map (fun i => nthq neg i) index)) as PS. rewrite map_length, HLi in PS.
    set (q := argsort (map (fun i => nthq neg i) index)) in *. destruct (perm_seq_spec _ _ PS) as (HLq & _ & Hinq).
    split; [apply (top_set_perm _ _ index); [apply perm_map_nth; rewrite HLi; exact PS | exact T]|].
    intros _ a b Hab Hb. rewrite map_length, HLq in Hb.
    pose proof (argsort_sorted (map (fun i => nthq neg i) index) a b Hab ltac:(rewrite map_length; lia)) as S. fold q in S.
    assert (Ha : (nth a q 0 < k)%nat) by (apply Hinq, nth_In; lia).
    assert (Hb' : (nth b q 0 < k)%nat) by (apply Hinq, nth_In; lia).
    rewrite !(nthq_map_gen (fun i => nthq neg i) index 0%nat) in S by lia.
    rewrite !(nth_map_gen (fun p0 => nth p0 index 0%nat) q 0%nat 0%nat) by lia.
    apply neg_scores_le, S.
Qed.
End TopK.

