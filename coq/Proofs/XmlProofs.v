(** Proofs/XmlProofs.v — string lemmas, closure properties of the lexical predicates,
    well-formedness of the element builders, and soundness of the checker of Model/Xml.v. *)
From SKN Require Import Model.Xml.
From Coq Require Import String Ascii List Bool Arith Lia.
Import ListNotations.
Open Scope string_scope.

Lemma sapp_nil_r (s : string) : s ++ "" = s.
Proof. induction s as [|c s IH]; simpl; [reflexivity | now rewrite IH]. Qed.

Lemma sapp_assoc (a b c : string) : (a ++ b) ++ c = a ++ b ++ c.
Proof. induction a as [|x a IH]; simpl; [reflexivity | now rewrite IH]. Qed.

(** Right-associate and compute appends with literal left operands. *)
Ltac snorm := repeat first [rewrite sapp_assoc | progress cbn [append sconcat map]].
Ltac seq := snorm; try reflexivity.

Lemma sconcat_app (l1 l2 : list string) : sconcat (l1 ++ l2)%list = sconcat l1 ++ sconcat l2.
Proof. induction l1 as [|x l1 IH]; simpl; [reflexivity | now rewrite IH, sapp_assoc]. Qed.

Lemma all_chars_app p a b : all_chars p (a ++ b) = all_chars p a && all_chars p b.
Proof. induction a as [|x a IH]; simpl; [reflexivity | now rewrite IH, andb_assoc]. Qed.

Lemma all_chars_impl (p q : ascii -> bool) s :
  (forall c, p c = true -> q c = true) -> all_chars p s = true -> all_chars q s = true.
Proof.
  intros Hpq. induction s as [|c s IH]; simpl; [reflexivity|].
  intros H. apply andb_true_iff in H as [H1 H2]. now rewrite (Hpq _ H1), (IH H2).
Qed.

(** A character outside a class differs from every character inside it. *)
Lemma not_in_class (p : ascii -> bool) x c : p x = false -> p c = true -> Ascii.eqb c x = false.
Proof.
  intros Hx Hc. destruct (Ascii.eqb c x) eqn:E; [|reflexivity]. apply Ascii.eqb_eq in E. subst c. congruence.
Qed.

Lemma all_chars_no_char p c s : p c = false -> all_chars p s = true -> no_char c s = true.
Proof. intros Hc. apply all_chars_impl. intros x Hx. now rewrite (not_in_class p c x Hc Hx). Qed.

Lemma all_chars_sconcat p l :
  Forall (fun s => all_chars p s = true) l -> all_chars p (sconcat l) = true.
Proof.
  induction 1 as [|s l Hs _ IH]; simpl; [reflexivity|]. now rewrite all_chars_app, Hs, IH.
Qed.

Lemma strip_prefix_spec p : forall s r, strip_prefix p s = Some r -> s = p ++ r.
Proof.
  induction p as [|a p IH]; intros s r H; simpl in *.
  - now inversion H.
  - destruct s as [|b s]; [discriminate|].
    destruct (Ascii.eqb a b) eqn:E; [|discriminate].
    apply Ascii.eqb_eq in E. subst b. now rewrite (IH _ _ H).
Qed.

Lemma starts_spec p : forall s, starts p s = true -> exists r, s = p ++ r.
Proof.
  induction p as [|a p IH]; intros s H; simpl in *.
  - now exists s.
  - destruct s as [|b s]; [discriminate|].
    apply andb_true_iff in H as [E H]. apply Ascii.eqb_eq in E. subst b.
    destruct (IH _ H) as [r ->]. now exists r.
Qed.

Lemma starts_app p : forall s t, starts p s = true -> starts p (s ++ t) = true.
Proof.
  induction p as [|a p IH]; intros s t H; simpl in *; [reflexivity|].
  destruct s as [|b s]; [discriminate|]. simpl.
  apply andb_true_iff in H as [E H]. now rewrite E, (IH _ _ H).
Qed.

Lemma starts_cons a p b s : starts (String a p) (String b s) = Ascii.eqb a b && starts p s.
Proof. reflexivity. Qed.

Lemma starts_refl_app p r : starts p (p ++ r) = true.
Proof. induction p as [|a p IH]; simpl; [reflexivity | now rewrite Ascii.eqb_refl, IH]. Qed.

Lemma span_spec p : forall s a b, span p s = (a, b) -> s = a ++ b /\ all_chars p a = true.
Proof.
  induction s as [|c s IH]; intros a b H; simpl in H.
  - inversion H; subst. now split.
  - destruct (p c) eqn:Ec.
    + destruct (span p s) as [a' b'] eqn:E. inversion H; subst.
      destruct (IH _ _ eq_refl) as [-> Ha]. split; [reflexivity|]. simpl. now rewrite Ec, Ha.
    + inversion H; subst. now split.
Qed.

Lemma mem_string_false x l : mem_string x l = false -> ~ In x l.
Proof.
  unfold mem_string. intros H Hin.
  assert (E : existsb (String.eqb x) l = true).
  { apply existsb_exists. exists x. split; [exact Hin | apply String.eqb_refl]. }
  congruence.
Qed.

Lemma nodup_strings_NoDup l : nodup_strings l = true -> NoDup l.
Proof.
  induction l as [|x l IH]; simpl; intros H; [constructor|].
  apply andb_true_iff in H as [H1 H2]. apply negb_true_iff in H1.
  constructor; [now apply mem_string_false | now apply IH].
Qed.

Lemma no_char_app c a b : no_char c (a ++ b) = no_char c a && no_char c b.
Proof. apply all_chars_app. Qed.

Lemma entity_prefix_app r b : entity_prefix r = true -> entity_prefix (r ++ b) = true.
Proof.
  unfold entity_prefix. intros H. apply existsb_exists in H as [e [He Hs]].
  apply existsb_exists. exists e. split; [exact He | now apply starts_app].
Qed.

Lemma amp_ok_app a b : amp_ok a = true -> amp_ok b = true -> amp_ok (a ++ b) = true.
Proof.
  intros Ha Hb. induction a as [|c a IH]; simpl in *; [exact Hb|].
  apply andb_true_iff in Ha as [H1 H2]. rewrite (IH H2), andb_true_r.
  destruct (Ascii.eqb c "&"); [now apply entity_prefix_app | reflexivity].
Qed.

Lemma no_amp_amp_ok s : no_char "&" s = true -> amp_ok s = true.
Proof.
  induction s as [|c s IH]; simpl; [reflexivity|]. intros H.
  apply andb_true_iff in H as [H1 H2]. apply negb_true_iff in H1. now rewrite H1, (IH H2).
Qed.

Lemma no_gt_no_cdata_end s : no_char ">" s = true -> no_cdata_end s = true.
Proof.
  induction s as [|c s IH]; [reflexivity|]. intros H.
  change (no_char ">" (String c s)) with (negb (Ascii.eqb c ">") && no_char ">" s) in H.
  apply andb_true_iff in H as [H1 H2].
  change (no_cdata_end (String c s)) with (negb (starts "]]>" (String c s)) && no_cdata_end s).
  rewrite (IH H2), andb_true_r. apply negb_true_iff.
  destruct (starts "]]>" (String c s)) eqn:E; [|reflexivity].
  exfalso. apply starts_spec in E as [r E]. simpl in E. inversion E; subst.
  simpl in H2. discriminate.
Qed.

Lemma text_ok_of_no_special s :
  no_char "<" s = true -> no_char "&" s = true -> no_char ">" s = true -> text_ok s = true.
Proof.
  intros H1 H2 H3. unfold text_ok.
  now rewrite H1, (no_amp_amp_ok _ H2), (no_gt_no_cdata_end _ H3).
Qed.

Lemma text_ok_ws_app w t : ws_ok w = true -> text_ok t = true -> text_ok (w ++ t) = true.
Proof.
  intros Hw Ht. induction w as [|c w IH]; [exact Ht|].
  simpl in Hw. apply andb_true_iff in Hw as [Hc Hw]. specialize (IH Hw).
  pose proof (not_in_class is_ws "<" c eq_refl Hc) as E1. pose proof (not_in_class is_ws "&" c eq_refl Hc) as E2.
  pose proof (not_in_class is_ws "]" c eq_refl Hc) as E3.
  unfold text_ok in *. apply andb_true_iff in IH as [IH I3]. apply andb_true_iff in IH as [I1 I2].
  cbn [append]. unfold no_char in *. cbn [all_chars amp_ok no_cdata_end].
  rewrite E1, E2, I1, I2, I3. rewrite (starts_cons "]" "]>" c), (Ascii.eqb_sym "]" c), E3. reflexivity.
Qed.

Lemma ws_text_ok w : ws_ok w = true -> text_ok w = true.
Proof. intros H. rewrite <- (sapp_nil_r w). now apply text_ok_ws_app. Qed.

Lemma render_attrs_wf (l : list attr) :
  forallb attr_ok l = true -> wf_attrs (render_attrs l) (map attr_name l).
Proof.
  induction l as [|[[w n] v] l IH]; simpl; intros H; [constructor|].
  apply andb_true_iff in H as [Ha Hl].
  unfold attr_ok in Ha. repeat (apply andb_true_iff in Ha as [Ha ?]). apply negb_true_iff in Ha.
  unfold render_attrs. cbn [map sconcat render_attr].
  replace ((w ++ n ++ "=""" ++ v ++ """") ++ sconcat (map render_attr l))
    with (w ++ n ++ "=""" ++ v ++ """" ++ render_attrs l) by (unfold render_attrs; seq).
  constructor; auto.
Qed.

Lemma wf_content_nil : wf_content "".
Proof. now apply wc_last. Qed.

Lemma wf_content_elem n e c : wf_elem n e -> wf_content c -> wf_content (e ++ c).
Proof. intros He Hc. change (wf_content ("" ++ e ++ c)). now apply wc_cons with (n := n). Qed.

Lemma wf_content_ws w c : ws_ok w = true -> wf_content c -> wf_content (w ++ c).
Proof.
  intros Hw Hc. destruct Hc as [t Ht | t n e c Ht He Hc].
  - apply wc_last. now apply text_ok_ws_app.
  - rewrite <- sapp_assoc. apply wc_cons with (n := n); auto. now apply text_ok_ws_app.
Qed.

(** A sequence of pieces, each an element followed by white space, is content. *)
Definition elem_ws (s : string) : Prop :=
  exists n e w, s = e ++ w /\ wf_elem n e /\ ws_ok w = true.

Lemma wf_content_pieces l c :
  Forall elem_ws l -> wf_content c -> wf_content (sconcat l ++ c).
Proof.
  induction 1 as [|s l (n & e & w & -> & He & Hw) _ IH]; intros Hc; simpl; [exact Hc|].
  rewrite !sapp_assoc. apply wf_content_elem with (n := n); [exact He|].
  apply wf_content_ws; auto.
Qed.

Lemma elem_ws_of_elem n e : wf_elem n e -> elem_ws e.
Proof. intros H. exists n, e, "". now rewrite sapp_nil_r. Qed.


(** A templater of the code is one chain of appends in which literals and fields alternate. The element
    [elem_empty n attrs w], or [elem_open n attrs w c w2], followed by [rest] is written here in the same
    way: appends associated to the right throughout, each attribute value given by its pieces. With literal
    white space and names it is then convertible with the template, whatever the fields are. *)
Definition pattr : Type := (string * string * list string)%type.

Fixpoint attrs_then (l : list pattr) (rest : string) : string :=
  match l with
  | [] => rest
  | (w, n, ps) :: t => w ++ n ++ "=""" ++ fold_right append ("""" ++ attrs_then t rest) ps
  end.

Definition empty_then (n : string) (l : list pattr) (w rest : string) : string :=
  "<" ++ n ++ attrs_then l (w ++ "/>" ++ rest).

Definition open_then (n : string) (l : list pattr) (w c w2 rest : string) : string :=
  "<" ++ n ++ attrs_then l (w ++ ">" ++ c ++ "</" ++ n ++ w2 ++ ">" ++ rest).

Definition joined (a : pattr) : attr := let '(w, n, ps) := a in (w, n, sconcat ps).
Definition pieces (a : pattr) : list string := let '(_, _, ps) := a in ps.

(** What can be decided of a template before its fields are known. *)
Definition frame_ok (n : string) (l : list pattr) (w : string) : bool :=
  name_ok n && ws_ok w && nodup_strings (map (fun a => attr_name (joined a)) l) &&
  forallb (fun a : pattr => let '(w, n, _) := a in negb (is_empty w) && ws_ok w && name_ok n) l.

Definition values_ok (l : list pattr) : Prop := Forall (fun p => attr_value_ok p = true) (flat_map pieces l).

(** [followed_by n rest s]: [s] is one element with tag [n] followed by [rest]. *)
Definition followed_by (n rest s : string) : Prop := exists e, s = e ++ rest /\ wf_elem n e.

Lemma followed_by_nil n s : followed_by n "" s -> wf_elem n s.
Proof. intros (e & -> & He). now rewrite sapp_nil_r. Qed.

Lemma followed_by_ws_root root w s : followed_by root w s -> ws_ok w = true -> wf_document_root root s.
Proof. intros (e & -> & He) Hw. exists "", e, w. now repeat split. Qed.

Lemma fold_right_append ps r : fold_right append r ps = sconcat ps ++ r.
Proof. induction ps as [|p ps IH]; simpl; [reflexivity | now rewrite IH, sapp_assoc]. Qed.

Lemma attrs_then_render l rest : attrs_then l rest = render_attrs (map joined l) ++ rest.
Proof.
  induction l as [|[[w n] ps] l IH]; [reflexivity|].
  cbn [attrs_then map joined]. unfold render_attrs in *. cbn [map sconcat render_attr].
  rewrite fold_right_append, IH. now rewrite !sapp_assoc.
Qed.

Lemma attr_value_ok_sconcat ps : Forall (fun p => attr_value_ok p = true) ps -> attr_value_ok (sconcat ps) = true.
Proof.
  induction 1 as [|p ps Hp _ IH]; [reflexivity|]. unfold attr_value_ok in *. cbn [sconcat].
  apply andb_true_iff in Hp as [Hp P3]. apply andb_true_iff in Hp as [P1 P2].
  apply andb_true_iff in IH as [IH I3]. apply andb_true_iff in IH as [I1 I2].
  now rewrite !no_char_app, P1, P2, I1, I2, amp_ok_app.
Qed.

Lemma frame_values_ok n l w :
  frame_ok n l w = true -> values_ok l ->
  name_ok n = true /\ ws_ok w = true /\ NoDup (map attr_name (map joined l)) /\
  wf_attrs (render_attrs (map joined l)) (map attr_name (map joined l)).
Proof.
  unfold frame_ok, values_ok. intros H Hv.
  apply andb_true_iff in H as [H Hl]. apply andb_true_iff in H as [H Hd]. apply andb_true_iff in H as [Hn Hw].
  split; [exact Hn|]. split; [exact Hw|]. rewrite <- map_map in Hd. split; [exact (nodup_strings_NoDup _ Hd)|].
  apply render_attrs_wf. clear Hd.
  induction l as [|[[w' n'] ps] l IH]; [reflexivity|].
  cbn [forallb flat_map pieces map joined attr_ok] in *. apply andb_true_iff in Hl as [Ha Hl].
  apply Forall_app in Hv as [Hp Hv]. now rewrite Ha, (attr_value_ok_sconcat _ Hp), IH.
Qed.

Lemma empty_then_wf n l w rest : frame_ok n l w = true -> values_ok l -> followed_by n rest (empty_then n l w rest).
Proof.
  intros Hf Hv. destruct (frame_values_ok _ _ _ Hf Hv) as (Hn & Hw & Hd & Ha).
  exists (elem_empty n (map joined l) w). split; [|now apply we_empty with (ns := map attr_name (map joined l))].
  unfold empty_then, elem_empty. now rewrite attrs_then_render, !sapp_assoc.
Qed.

Lemma open_then_wf n l w c w2 rest :
  frame_ok n l w = true -> values_ok l -> wf_content c -> ws_ok w2 = true ->
  followed_by n rest (open_then n l w c w2 rest).
Proof.
  intros Hf Hv Hc Hw2. destruct (frame_values_ok _ _ _ Hf Hv) as (Hn & Hw & Hd & Ha).
  exists (elem_open n (map joined l) w c w2). split; [|now apply we_open with (ns := map attr_name (map joined l))].
  unfold open_then, elem_open. now rewrite attrs_then_render, !sapp_assoc.
Qed.

(** An element whose content is white space and one child element. *)
Lemma open_then_child_wf n l w w1 m body w2 rest :
  frame_ok n l w = true -> values_ok l -> ws_ok w1 = true -> ws_ok w2 = true ->
  followed_by m ("</" ++ n ++ w2 ++ ">" ++ rest) body ->
  followed_by n rest ("<" ++ n ++ attrs_then l (w ++ ">" ++ w1 ++ body)).
Proof.
  intros Hf Hv H1 H2 (e & -> & He).
  replace (w1 ++ e ++ "</" ++ n ++ w2 ++ ">" ++ rest) with ((w1 ++ e ++ "") ++ "</" ++ n ++ w2 ++ ">" ++ rest)
    by now rewrite sapp_nil_r, !sapp_assoc.
  apply open_then_wf; auto.
  apply wf_content_ws; [exact H1|]. apply wf_content_elem with (n := m); [exact He | apply wf_content_nil].
Qed.

Lemma parse_attrs_sound f : forall s seen sc rest,
  parse_attrs f s seen = Some (sc, rest) ->
  exists a ns w, wf_attrs a ns /\ NoDup ns /\ (forall x, In x ns -> ~ In x seen) /\ ws_ok w = true /\
    s = a ++ w ++ (if sc then "/>" else ">") ++ rest.
Proof.
  induction f as [|f IH]; intros s seen sc rest H; [discriminate|].
  cbn [parse_attrs] in H.
  destruct (span is_ws s) as [w r] eqn:Ew. apply span_spec in Ew as [-> Hw].
  destruct (strip_prefix "/>" r) as [r'|] eqn:E1; [|destruct (strip_prefix ">" r) as [r'|] eqn:E2].
  (* the end of the start tag, in either spelling: no attribute is left *)
  1, 2: inversion H; subst; apply strip_prefix_spec in E1 || apply strip_prefix_spec in E2; subst r;
    exists "", [], w; split; [constructor|]; split; [constructor|]; split; [intros x []|];
    split; [exact Hw | reflexivity].
  destruct (is_empty w) eqn:Ewe; [discriminate|].
  destruct (span is_name_char r) as [n r1] eqn:En. apply span_spec in En as [-> _].
  destruct (name_ok n && negb (mem_string n seen)) eqn:Ec; [|discriminate].
  apply andb_true_iff in Ec as [Hn Hm]. apply negb_true_iff in Hm.
  destruct (strip_prefix "=""" r1) as [r2|] eqn:E3; [|discriminate].
  apply strip_prefix_spec in E3 as ->.
  destruct (span not_quote r2) as [v r3] eqn:Ev. apply span_spec in Ev as [-> _].
  destruct (strip_prefix """" r3) as [r4|] eqn:E4; [|discriminate].
  apply strip_prefix_spec in E4 as ->.
  destruct (attr_value_ok v) eqn:Hv; [|discriminate].
  destruct (IH _ _ _ _ H) as (a & ns & w' & Ha & Hd & Hdis & Hw' & ->).
  exists (w ++ n ++ "=""" ++ v ++ """" ++ a), (n :: ns), w'.
  repeat split; auto.
  - now constructor.
  - constructor; auto. intros Hin. apply (Hdis _ Hin). now left.
  - intros x [<-|Hin]; [now apply mem_string_false|]. intros Hs. apply (Hdis _ Hin). now right.
  - seq.
Qed.

Lemma parse_close_sound n s r :
  parse_close n s = Some r -> exists w, ws_ok w = true /\ s = n ++ w ++ ">" ++ r.
Proof.
  unfold parse_close. intros H.
  destruct (strip_prefix n s) as [r1|] eqn:E1; [|discriminate].
  apply strip_prefix_spec in E1 as ->.
  destruct (span is_ws r1) as [w r2] eqn:Ew. apply span_spec in Ew as [-> Hw].
  apply strip_prefix_spec in H as ->. now exists w.
Qed.

Definition content_parser_sound (pc : string -> option string) : Prop :=
  forall s rest, pc s = Some rest -> exists c, wf_content c /\ s = c ++ rest.

Lemma parse_element_with_sound pc s n rest :
  content_parser_sound pc ->
  parse_element_with pc s = Some (n, rest) -> exists e, wf_elem n e /\ s = e ++ rest.
Proof.
  intros Hpc H. unfold parse_element_with in H.
  destruct (strip_prefix "<" s) as [r1|] eqn:E1; [|discriminate].
  apply strip_prefix_spec in E1 as ->.
  destruct (span is_name_char r1) as [m r] eqn:En. apply span_spec in En as [-> _].
  destruct (name_ok m) eqn:Hn; [|discriminate].
  destruct (parse_attrs (S (String.length r)) r []) as [[sc r2]|] eqn:Ea; [|discriminate].
  apply parse_attrs_sound in Ea as (a & ns & w & Ha & Hd & _ & Hw & ->).
  destruct sc.
  - inversion H; subst. exists ("<" ++ n ++ a ++ w ++ "/>"). split; [|seq].
    now apply we_empty with (ns := ns).
  - destruct (pc r2) as [r3|] eqn:Ec; [|discriminate].
    apply Hpc in Ec as (c & Hc & ->).
    destruct (strip_prefix "</" r3) as [r4|] eqn:E4; [|discriminate].
    apply strip_prefix_spec in E4 as ->.
    destruct (parse_close m r4) as [r5|] eqn:E5; [|discriminate].
    apply parse_close_sound in E5 as (w2 & Hw2 & ->).
    inversion H; subst.
    exists ("<" ++ n ++ a ++ w ++ ">" ++ c ++ "</" ++ n ++ w2 ++ ">"). split; [|seq].
    now apply we_open with (ns := ns).
Qed.

Lemma parse_content_sound f : content_parser_sound (parse_content f).
Proof.
  induction f as [|f IH]; intros s rest H; [discriminate|].
  cbn [parse_content] in H.
  destruct (span Xml.not_lt s) as [t r] eqn:Et. apply span_spec in Et as [-> _].
  destruct (text_ok t) eqn:Ht; [|discriminate].
  destruct (is_empty r) eqn:Er.
  { inversion H; subst. destruct r; [|discriminate]. exists t. split; [now apply wc_last | reflexivity]. }
  destruct (starts "</" r) eqn:Es.
  { inversion H; subst. exists t. split; [now apply wc_last | reflexivity]. }
  destruct (parse_element_with (parse_content f) r) as [[n r2]|] eqn:Ee; [|discriminate].
  apply parse_element_with_sound in Ee as (e & He & ->); [|exact IH].
  apply IH in H as (c & Hc & ->).
  exists (t ++ e ++ c). split; [now apply wc_cons with (n := n) | seq].
Qed.

Lemma parse_document_sound s root : parse_document s = Some root -> wf_document_root root s.
Proof.
  unfold parse_document. intros H.
  destruct (span is_ws s) as [w0 r] eqn:Ew. apply span_spec in Ew as [-> Hw0].
  destruct (parse_element_with (parse_content (S (String.length r))) r) as [[n r2]|] eqn:Ee; [|discriminate].
  apply parse_element_with_sound in Ee as (e & He & ->); [|apply parse_content_sound].
  destruct (ws_ok r2) eqn:Hw1; [|discriminate]. inversion H; subst.
  exists w0, e, r2. now repeat split.
Qed.

Theorem wf_check_sound s : wf_check s = true -> wf_document s.
Proof.
  unfold wf_check. destruct (parse_document s) as [root|] eqn:E; [|discriminate].
  intros _. exists root. now apply parse_document_sound.
Qed.
