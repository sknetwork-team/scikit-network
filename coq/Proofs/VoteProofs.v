(** Proofs about Model/Vote.v: what one call of vote_update computes (for every kernel variant),
    and the fixed-point / local-evidence theorem of label propagation. *)
From SKN Require Import Base.Util Model.Vote.
From Coq Require Import Lqa Sorted Permutation.
Close Scope Q_scope.
Open Scope nat_scope.

Lemma upd_length {A} (l : list A) i x : length (upd l i x) = length l.
Proof. revert i; induction l as [|a t IH]; intros [|i]; simpl; auto. Qed.

Lemma nth_upd_same {A} (l : list A) i x d : i < length l -> nth i (upd l i x) d = x.
Proof. revert i; induction l as [|a t IH]; intros [|i] H; simpl in *; try lia; auto. apply IH; lia. Qed.

Lemma nth_upd_other {A} (l : list A) i j x d : i <> j -> nth j (upd l i x) d = nth j l d.
Proof.
  revert i j; induction l as [|a t IH]; intros [|i] [|j] H; simpl; auto; try lia.
  all: apply IH; lia.
Qed.

Lemma upd_upd {A} (l : list A) i x y : upd (upd l i x) i y = upd l i y.
Proof. revert i; induction l as [|a t IH]; intros [|i]; simpl; auto. f_equal; apply IH. Qed.

Lemma upd_nth_same {A} (l : list A) i d : upd l i (nth i l d) = l.
Proof. revert i; induction l as [|a t IH]; intros [|i]; simpl; auto. f_equal; apply IH. Qed.

Lemma In_upd {A} (l : list A) i x y : In y (upd l i x) -> y = x \/ In y l.
Proof.
  revert i; induction l as [|a t IH]; intros [|i]; simpl; auto.
  - intros [E|H]; auto.
  - intros [E|H]; auto. destruct (IH _ H); auto.
Qed.

Lemma nth_error_nthn l i x : nth_error l i = Some x -> nthn l i = x.
Proof. intros H. unfold nthn. apply nth_error_nth. exact H. Qed.
Lemma nth_error_nthz l i x : nth_error l i = Some x -> nthz l i = x.
Proof. intros H. apply nth_error_nth. exact H. Qed.
Lemma nth_error_nthq l i x : nth_error l i = Some x -> nthq l i = x.
Proof. intros H. apply nth_error_nth. exact H. Qed.

Lemma nth_error_lt {A} (l : list A) i x : nth_error l i = Some x -> i < length l.
Proof. intros H. apply nth_error_Some. rewrite H. discriminate. Qed.

Lemma skipn_nth_error {A} (l : list A) p x : nth_error l p = Some x -> skipn p l = x :: skipn (S p) l.
Proof.
  revert p; induction l as [|a t IH]; intros [|p] H; simpl in *; try discriminate.
  - injection H as ->. reflexivity.
  - apply IH. exact H.
Qed.

Lemma tl_skipn {A} (l : list A) p : tl (skipn p l) = skipn (S p) l.
Proof. revert l; induction p as [|p IH]; intros [|a t]; try reflexivity. apply IH. Qed.

(** * std::set as a strictly increasing list *)

Lemma set_insert_In x s y : In y (set_insert x s) <-> y = x \/ In y s.
Proof.
  induction s as [|a t IH]; simpl.
  - split; intros [H|H]; auto.
  - destruct (x <? a); [split; intros [H|H]; simpl; auto|].
    destruct (Nat.eqb_spec x a) as [->|_]; simpl.
    + split; [auto|]. intros [->|H]; auto.
    + split.
      * intros [->|H]; [auto|]. apply IH in H. tauto.
      * intros [H|[->|H]]; [right; apply IH; auto|auto|right; apply IH; auto].
Qed.

Lemma set_insert_sorted x s : StronglySorted lt s -> StronglySorted lt (set_insert x s).
Proof.
  induction s as [|a t IH]; simpl; intros H.
  - repeat constructor.
  - inversion H as [|? ? Ht Ha]; subst.
    destruct (Nat.ltb_spec x a) as [E1|E1].
    + constructor; [exact H|].
      constructor; [exact E1|]. rewrite Forall_forall in *. intros y Hy. specialize (Ha y Hy). lia.
    + destruct (Nat.eqb_spec x a) as [E2|E2]; [exact H|].
      constructor; [apply IH; exact Ht|].
      rewrite Forall_forall in *. intros y Hy. apply set_insert_In in Hy. destruct Hy as [->|Hy]; [lia|auto].
Qed.

Lemma ssorted_nodup s : StronglySorted lt s -> NoDup s.
Proof.
  induction s as [|a t IH]; intros H; constructor; inversion H as [|? ? Ht Ha]; subst.
  - intros Hin. rewrite Forall_forall in Ha. specialize (Ha a Hin). lia.
  - apply IH; exact Ht.
Qed.

Definition uniq_of (ln : list Z) (s : list nat) : list nat :=
  fold_left (fun s x => if (x <? 0)%Z then s else set_insert (Z.to_nat x) s) ln s.

Lemma uniq_of_In ln : forall s x, In x (uniq_of ln s) <-> In x s \/ In (Z.of_nat x) ln.
Proof.
  induction ln as [|a t IH]; intros s x; simpl.
  - intuition.
  - unfold uniq_of in *. simpl. rewrite IH. destruct (Z.ltb_spec a 0) as [E|E].
    + split; [intuition|]. intros [H|[H|H]]; auto. lia.
    + rewrite set_insert_In. split.
      * intros [[->|H]|H]; auto. right; left. lia.
      * intros [H|[H|H]]; auto. left; left. subst a. lia.
Qed.

Lemma uniq_of_sorted ln : forall s, StronglySorted lt s -> StronglySorted lt (uniq_of ln s).
Proof.
  induction ln as [|a t IH]; intros s H; simpl; auto.
  unfold uniq_of in *. simpl. apply IH. destruct (a <? 0)%Z; auto. apply set_insert_sorted; exact H.
Qed.

(** [wsum ln ws l]: the number the kernel accumulates in [votes[l]]: the sum of [ws[p]] over the positions
    [p] of [labels_neigh] holding label [l] (positions beyond [ws] contribute nothing). *)
Fixpoint wsum (ln : list Z) (ws : list Q) (l : nat) : Q :=
  match ln, ws with
  | x :: t, w :: ws' => ((if (x =? Z.of_nat l)%Z then w else 0) + wsum t ws' l)%Q
  | _, _ => 0%Q
  end.

Lemma wsum_notin ln : forall ws l, ~ In (Z.of_nat l) ln -> (wsum ln ws l == 0)%Q.
Proof.
  induction ln as [|x t IH]; intros [|w ws] l H; simpl; try reflexivity.
  destruct (Z.eqb_spec x (Z.of_nat l)) as [E|_].
  - exfalso. apply H. left. exact E.
  - rewrite IH; [lra|]. intros Hin. apply H. right. exact Hin.
Qed.

Lemma wsum_nonneg ln : forall ws l, Forall (fun w => 0 <= w)%Q ws -> (0 <= wsum ln ws l)%Q.
Proof.
  induction ln as [|x t IH]; intros [|w ws] l H; simpl; try lra.
  inversion H; subst. specialize (IH ws l H3). destruct (x =? Z.of_nat l)%Z; lra.
Qed.

Lemma wsum_neg_head x t ws l : (x < 0)%Z -> (wsum (x :: t) ws l == wsum t (tl ws) l)%Q.
Proof.
  intros H. destruct ws as [|w ws]; simpl.
  - destruct t; reflexivity.
  - destruct (Z.eqb_spec x (Z.of_nat l)); [lia|lra].
Qed.

(** unit weights: the accumulated number is the count of the label. *)
Lemma wsum_ones ln : forall ws l,
  Forall (fun w => w == 1)%Q ws -> length ln <= length ws ->
  (wsum ln ws l == sumq (map (fun x => if (x =? Z.of_nat l)%Z then 1 else 0)%Q ln))%Q.
Proof.
  induction ln as [|x t IH]; intros [|w ws] l H Hl; simpl in *; try reflexivity; try lia.
  inversion H; subst. rewrite (IH ws l H3) by lia.
  destruct (x =? Z.of_nat l)%Z; [rewrite H2|]; reflexivity.
Qed.

(** true weights: position p of [labels_neigh] is paired with its own weight. *)
Lemma wsum_map {A} (f : A -> Z) (g : A -> Q) (js : list A) l :
  wsum (map f js) (map g js) l = sumq (map (fun j => if (f j =? Z.of_nat l)%Z then g j else 0%Q) js).
Proof. induction js as [|j t IH]; simpl; [reflexivity|]. rewrite IH. reflexivity. Qed.

Lemma total_vote_map {A} (f : A -> nat) (g : A -> Q) (js : list A) labels z :
  total_vote (map (fun j => (f j, g j)) js) labels z =
  sumq (map (fun j => if (nthz labels (f j) =? z)%Z then g j else 0%Q) js).
Proof. unfold total_vote. rewrite map_map. reflexivity. Qed.

Lemma total_vote_nonneg nb labels z :
  Forall (fun p : nat * Q => 0 <= snd p)%Q nb -> (0 <= total_vote nb labels z)%Q.
Proof.
  intros H. unfold total_vote. apply sumq_nonneg. rewrite Forall_forall in H.
  intros x Hx. apply in_map_iff in Hx. destruct Hx as [p [<- Hp]].
  specialize (H p Hp). cbn beta. destruct (nthz labels (fst p) =? z)%Z; [exact H|lra].
Qed.

Lemma gather_ok kv indices data labels js : forall ln vn ln' vn',
  gather kv indices data labels js ln vn = VOk (ln', vn') ->
  ln' = ln ++ map (fun j => nthz labels (nthn indices j)) js /\
  vn' = vn ++ map (fun j => nthq data (if wpos kv then j else nthn indices j)) js /\
  Forall (fun j => nthn indices j < length labels /\
                   (if wpos kv then j else nthn indices j) < length data) js.
Proof.
  induction js as [|j t IH]; intros ln vn ln' vn' H; simpl in H.
  - injection H as <- <-. rewrite !app_nil_r. auto.
  - destruct (nth_error indices j) as [jj|] eqn:E1; [|discriminate].
    destruct (nth_error labels jj) as [l|] eqn:E2; [|discriminate].
    destruct (nth_error data (if wpos kv then j else jj)) as [w|] eqn:E3; [|discriminate].
    apply IH in H. destruct H as [H1 [H2 H3]].
    pose proof (nth_error_nthn _ _ _ E1) as Hjj. simpl.
    rewrite Hjj, (nth_error_nthz _ _ _ E2), (nth_error_nthq _ _ _ E3).
    rewrite <- !app_assoc in *. simpl in *. split; [exact H1|]. split; [exact H2|].
    constructor; [|exact H3]. rewrite Hjj. split; eapply nth_error_lt; eassumption.
Qed.

Lemma tally_ok ln : forall p vn uniq votes uniq' votes',
  tally ln p vn uniq votes = VOk (uniq', votes') ->
  length votes' = length votes /\
  (forall l, nthq votes' l == nthq votes l + wsum ln (skipn p vn) l)%Q /\
  uniq' = uniq_of ln uniq.
Proof.
  induction ln as [|x t IH]; intros p vn uniq votes uniq' votes' H; simpl in H.
  - injection H as <- <-. split; [reflexivity|]. split; [|reflexivity]. intros l. simpl. lra.
  - change (uniq_of (x :: t) uniq) with (uniq_of t (if (x <? 0)%Z then uniq else set_insert (Z.to_nat x) uniq)).
    destruct (x <? 0)%Z eqn:Ex.
    + apply IH in H. destruct H as [H1 [H2 H3]]. split; [exact H1|]. split; [|exact H3].
      intros l. apply Z.ltb_lt in Ex. rewrite H2, (wsum_neg_head x t _ l Ex), tl_skipn. reflexivity.
    + destruct (nth_error vn p) as [w|] eqn:E1; [|discriminate].
      destruct (nth_error votes (Z.to_nat x)) as [v|] eqn:E2; [|discriminate].
      apply IH in H. destruct H as [H1 [H2 H3]]. rewrite upd_length in H1. split; [exact H1|]. split; [|exact H3].
      intros l. rewrite H2. rewrite (skipn_nth_error _ _ _ E1). simpl.
      apply Z.ltb_ge in Ex. pose proof (nth_error_lt _ _ _ E2) as Hlt.
      destruct (Nat.eq_dec l (Z.to_nat x)) as [->|Ne].
      * unfold nthq at 1. rewrite nth_upd_same by exact Hlt.
        rewrite (nth_error_nthq _ _ _ E2). rewrite Z2Nat.id by exact Ex. rewrite Z.eqb_refl. lra.
      * unfold nthq at 1. rewrite nth_upd_other by (intros E; apply Ne; symmetry; exact E).
        fold (nthq votes l). destruct (Z.eqb_spec x (Z.of_nat l)); [exfalso; lia|lra].
Qed.

Definition zero_votes (votes : list Q) : Prop := forall l, (nthq votes l == 0)%Q.

(** [f] gives the votes of the labels still to be visited: zeroing an entry leaves those of the others alone.
    Entries outside [uniq] are null before, every entry is null after. *)
Lemma select_ok uniq (f : nat -> Q) : forall i best labels votes labels' votes',
  NoDup uniq -> (forall l, In l uniq -> (nthq votes l == f l)%Q) ->
  (forall l, ~ In l uniq -> (nthq votes l == 0)%Q) ->
  select uniq i best labels votes = VOk (labels', votes') ->
  length labels' = length labels /\ zero_votes votes' /\
  ((labels' = labels /\ forall l, In l uniq -> (f l <= best)%Q) \/
   (exists l, In l uniq /\ i < length labels /\ labels' = upd labels i (Z.of_nat l) /\
              (best < f l)%Q /\ forall l', In l' uniq -> (f l' <= f l)%Q)).
Proof.
  induction uniq as [|l t IH]; intros i best labels votes labels' votes' Hnd Hf Hz H; simpl in H.
  - injection H as <- <-. split; [reflexivity|]. split; [intros l; apply Hz; intros []|].
    left. split; [reflexivity|]. intros l [].
  - inversion Hnd as [|? ? Hnotin Hnd']; subst.
    destruct (nth_error votes l) as [v|] eqn:E; [|discriminate].
    pose proof (nth_error_lt _ _ _ E) as Hlt.
    assert (Hv : (v == f l)%Q) by (rewrite <- (Hf l (or_introl eq_refl)), (nth_error_nthq _ _ _ E); reflexivity).
    assert (Hf' : forall l', In l' t -> (nthq (upd votes l 0%Q) l' == f l')%Q).
    { intros l' Hl'. rewrite <- (Hf l' (or_intror Hl')). unfold nthq. rewrite nth_upd_other; [reflexivity|].
      intros ->. contradiction. }
    assert (Hz' : forall x, ~ In x t -> (nthq (upd votes l 0%Q) x == 0)%Q).
    { intros x Hx. unfold nthq. destruct (Nat.eq_dec l x) as [->|Ne].
      - rewrite nth_upd_same by exact Hlt. reflexivity.
      - rewrite nth_upd_other by exact Ne. apply Hz. intros [E'|H']; [exact (Ne E')|exact (Hx H')]. }
    destruct (Qle_bool v best) eqn:Eb.
    + apply Qle_bool_iff in Eb.
      destruct (IH _ _ _ _ _ _ Hnd' Hf' Hz' H) as [H2 [H3 H4]].
      split; [exact H2|]. split; [exact H3|].
      destruct H4 as [[Heq Hle]|[l0 [Hin [Hi [Heq [Hb Hmax]]]]]].
      * left. split; [exact Heq|]. intros l' [<-|Hl']; [lra|apply Hle; exact Hl'].
      * right. exists l0. split; [right; exact Hin|]. split; [exact Hi|]. split; [exact Heq|]. split; [exact Hb|].
        intros l' [<-|Hl']; [lra|apply Hmax; exact Hl'].
    + assert (Hbv : (best < v)%Q).
      { destruct (Qlt_le_dec best v) as [L|L]; [exact L|]. apply Qle_bool_iff in L. congruence. }
      destruct (i <? length labels) eqn:Ei; [|discriminate]. apply Nat.ltb_lt in Ei.
      destruct (IH _ _ _ _ _ _ Hnd' Hf' Hz' H) as [H2 [H3 H4]]. rewrite upd_length in H2.
      split; [exact H2|]. split; [exact H3|].
      right. destruct H4 as [[Heq Hle]|[l0 [Hin [Hi [Heq [Hb Hmax]]]]]].
      * exists l. split; [left; reflexivity|]. split; [exact Ei|]. split; [exact Heq|]. split; [lra|].
        intros l' [<-|Hl']; [lra|]. rewrite <- Hv. apply Hle. exact Hl'.
      * exists l0. split; [right; exact Hin|]. split; [exact Ei|].
        split; [rewrite Heq; apply upd_upd|]. split; [lra|].
        intros l' [<-|Hl']; [lra|apply Hmax; exact Hl'].
Qed.

Lemma zero_votes_repeat n : zero_votes (repeat 0%Q n).
Proof.
  intros l. unfold nthq. destruct (Nat.lt_ge_cases l n) as [H|H].
  - rewrite nth_repeat. reflexivity.
  - rewrite nth_overflow by (rewrite repeat_length; exact H). reflexivity.
Qed.

Definition node_ln (indptr indices : list nat) (labels : list Z) (i : nat) : list Z :=
  map (fun j => nthz labels (nthn indices j)) (row_range indptr i).
Definition node_ws (kv : kvariant) (indptr indices : list nat) (data : list Q) (i : nat) : list Q :=
  map (fun j => nthq data (if wpos kv then j else nthn indices j)) (row_range indptr i).
(** the weights the kernel really pairs with the positions of [labels_neigh] *)
Definition node_eff (kv : kvariant) (indptr indices : list nat) (data : list Q) (i : nat) (vn : list Q) : list Q :=
  (if clr kv then [] else vn) ++ node_ws kv indptr indices data i.

(** what one node's update does to the labels, given the labels [ln] of its neighbours and the weights [eff]
    the kernel pairs with them: nothing (no label present), or the first label of maximal accumulated weight *)
Definition node_outcome (ln : list Z) (eff : list Q) (i : nat) (labels labels1 : list Z) : Prop :=
  (labels1 = labels /\ forall l, In (Z.of_nat l) ln -> (wsum ln eff l <= -1)%Q) \/
  (exists l, In (Z.of_nat l) ln /\ i < length labels /\ labels1 = upd labels i (Z.of_nat l) /\
             forall l', In (Z.of_nat l') ln -> (wsum ln eff l' <= wsum ln eff l)%Q).

Definition all_ones (l : list Q) : Prop := Forall (fun w => w == 1)%Q l.

Lemma all_ones_nonneg l : all_ones l -> Forall (fun w => 0 <= w)%Q l.
Proof. unfold all_ones. rewrite !Forall_forall. intros H x Hx. rewrite (H x Hx). lra. Qed.

Lemma all_ones_repeat m : all_ones (repeat 1%Q m).
Proof. apply Forall_forall. intros x Hx. apply repeat_spec in Hx. rewrite Hx. reflexivity. Qed.

(** If the node keeps its label, that label is a local arg-max for the weights the kernel used,
    provided those weights are non-negative and are the weights of the neighbourhood [nb]. *)
Lemma node_local_max (nb : nbrs) labels labels1 i ln eff :
  ln = map (fun p : nat * Q => nthz labels (fst p)) nb ->
  (forall l, total_vote nb labels (Z.of_nat l) == wsum ln eff l)%Q ->
  Forall (fun w => 0 <= w)%Q eff ->
  node_outcome ln eff i labels labels1 ->
  nthz labels1 i = nthz labels i -> has_labelled_neighbour nb labels -> local_max nb labels i.
Proof.
  intros Hln Hbridge Hnn Hcase Hkeep [p [Hp Hpl]].
  destruct Hcase as [[_ Hle]|[l [Hl [Hi [Heq Hmax]]]]].
  - exfalso. set (z := nthz labels (fst p)) in *.
    assert (Hin : In (Z.of_nat (Z.to_nat z)) ln).
    { rewrite Z2Nat.id by exact Hpl. rewrite Hln. apply in_map_iff. exists p. split; [reflexivity|exact Hp]. }
    specialize (Hle _ Hin). pose proof (wsum_nonneg ln eff (Z.to_nat z) Hnn). lra.
  - assert (Hli : nthz labels i = Z.of_nat l).
    { rewrite <- Hkeep, Heq. apply nth_upd_same. exact Hi. }
    split; [lia|]. intros z Hz. rewrite Hli.
    rewrite <- (Z2Nat.id z Hz). rewrite !Hbridge.
    destruct (in_dec Z.eq_dec (Z.of_nat (Z.to_nat z)) ln) as [Hin|Hnin].
    + apply Hmax. exact Hin.
    + rewrite (wsum_notin ln eff _ Hnin). apply wsum_nonneg. exact Hnn.
Qed.

Section Node.
  Context (kv : kvariant) (indptr indices : list nat) (data : list Q) (i : nat)
          (labels : list Z) (votes vn : list Q) (labels1 : list Z) (votes1 vn1 : list Q).
  Context (Hnode : vote_node kv indptr indices data i (labels, votes, vn) = VOk (labels1, votes1, vn1)).
  Context (Hz : zero_votes votes).
  Let ln := node_ln indptr indices labels i.
  Let eff := node_eff kv indptr indices data i vn.

  Lemma vote_node_ok :
    vn1 = eff /\ zero_votes votes1 /\ length labels1 = length labels /\
    Forall (fun j => nthn indices j < length labels /\
                     (if wpos kv then j else nthn indices j) < length data) (row_range indptr i) /\
    node_outcome ln eff i labels labels1.
  Proof.
    pose proof Hnode as H. unfold vote_node in H.
    destruct (nth_error indptr i) as [a|] eqn:Ea; [|discriminate].
    destruct (nth_error indptr (S i)) as [b|] eqn:Eb; [|discriminate].
    destruct (gather kv indices data labels (seq a (b - a)) [] (if clr kv then [] else vn)) as [[ln0 vn0]|] eqn:Eg; [|discriminate].
    destruct (tally ln0 0 vn0 [] votes) as [[uniq votes0]|] eqn:Et; [|discriminate].
    destruct (select uniq i (-1)%Q labels votes0) as [[labels2 votes2]|] eqn:Es; [|discriminate].
    injection H as -> -> ->.
    assert (Hrr : seq a (b - a) = row_range indptr i).
    { unfold row_range. rewrite (nth_error_nthn _ _ _ Ea), (nth_error_nthn _ _ _ Eb). reflexivity. }
    rewrite Hrr in Eg. apply gather_ok in Eg. destruct Eg as [G1 [G2 G3]].
    change (ln0 = ln) in G1. change (vn1 = eff) in G2. subst ln0.
    apply tally_ok in Et. destruct Et as [_ [T2 T3]]. simpl in T2.
    assert (Hss : StronglySorted lt uniq). { subst uniq. apply uniq_of_sorted. constructor. }
    assert (Hin : forall l, In l uniq <-> In (Z.of_nat l) ln).
    { intros l. subst uniq. rewrite uniq_of_In. simpl. intuition. }
    assert (Hv0 : forall l, (nthq votes0 l == wsum ln eff l)%Q).
    { intros l. rewrite T2, (Hz l), <- G2. lra. }
    assert (Hout : forall l, ~ In l uniq -> (nthq votes0 l == 0)%Q).
    { intros l Hl. rewrite Hv0. apply wsum_notin. rewrite <- Hin. exact Hl. }
    destruct (select_ok uniq (wsum ln eff) _ _ _ _ _ _ (ssorted_nodup _ Hss) (fun l _ => Hv0 l) Hout Es) as [S2 [S3 S4]].
    split; [exact G2|]. split; [exact S3|].
    split; [exact S2|]. split; [exact G3|].
    destruct S4 as [[Heq Hle]|[l [Hl [Hi [Heq [_ Hmax]]]]]].
    - left. split; [exact Heq|]. intros l Hl. apply Hle, Hin, Hl.
    - right. exists l. split; [apply Hin; exact Hl|]. split; [exact Hi|]. split; [exact Heq|].
      intros l' Hl'. apply Hmax, Hin, Hl'.
  Qed.

  Lemma vote_node_frame :
    (forall v, v <> i -> nthz labels1 v = nthz labels v) /\
    (forall x, In x labels1 -> In x labels).
  Proof.
    destruct vote_node_ok as [_ [_ [_ [Hf [[Heq _]|[l [Hl [Hi [Heq _]]]]]]]]]; rewrite Heq.
    - split; auto.
    - split.
      + intros v Hv. apply nth_upd_other. auto.
      + intros x Hx. apply In_upd in Hx. destruct Hx as [->|Hx]; [|exact Hx].
        apply in_map_iff in Hl. destruct Hl as [j [Hj Hjin]].
        rewrite <- Hj. rewrite Forall_forall in Hf. destruct (Hf j Hjin) as [Hlt _].
        apply nth_In. exact Hlt.
  Qed.

  Lemma node_ws_data (P : Q -> Prop) : Forall P data -> Forall P (node_ws kv indptr indices data i).
  Proof.
    intros HP. destruct vote_node_ok as [_ [_ [_ [Hf _]]]]. rewrite Forall_forall in Hf, HP.
    apply Forall_map, Forall_forall. intros j Hj. apply HP, nth_In, (Hf j Hj).
  Qed.

  (** unit weights, whatever position of [data] the kernel reads and whether or not it clears votes_neigh *)
  Lemma node_unweighted :
    all_ones data -> all_ones vn ->
    all_ones vn1 /\
    (nthz labels1 i = nthz labels i ->
     has_labelled_neighbour (nbrs_unit indptr indices i) labels -> local_max (nbrs_unit indptr indices i) labels i).
  Proof.
    intros Hdata Hones. destruct vote_node_ok as [Hvn [_ [_ [_ Hcase]]]].
    assert (Heff : all_ones eff).
    { apply Forall_app. split; [destruct (clr kv); [constructor|exact Hones]|apply node_ws_data; exact Hdata]. }
    split; [rewrite Hvn; exact Heff|].
    intros Hkeep Hnb.
    apply (node_local_max _ labels labels1 i ln eff); auto.
    - unfold ln, node_ln, nbrs_unit. rewrite map_map. reflexivity.
    - intros l. unfold nbrs_unit. rewrite total_vote_map.
      rewrite wsum_ones; [|exact Heff|].
      + unfold ln, node_ln. rewrite map_map. reflexivity.
      + unfold eff, node_eff, ln, node_ln, node_ws. rewrite app_length, !map_length. lia.
    - apply all_ones_nonneg. exact Heff.
  Qed.

  (** a kernel that reads the weight at the edge position and clears votes_neigh (the repaired source; not the
      legacy kernel, see [vote_weighted_refuted_legacy]); weights non-negative *)
  Lemma node_weighted :
    wpos kv = true -> clr kv = true -> Forall (fun w => 0 <= w)%Q data ->
    nthz labels1 i = nthz labels i ->
    has_labelled_neighbour (nbrs_weighted indptr indices data i) labels ->
    local_max (nbrs_weighted indptr indices data i) labels i.
  Proof.
    intros Hw Hc Hnn Hkeep Hnb. destruct vote_node_ok as [_ [_ [_ [_ Hcase]]]].
    apply (node_local_max _ labels labels1 i ln eff); auto.
    - unfold ln, node_ln, nbrs_weighted. rewrite map_map. reflexivity.
    - intros l. unfold nbrs_weighted. rewrite total_vote_map.
      unfold eff, node_eff, ln, node_ln, node_ws. rewrite Hw, Hc. simpl. rewrite wsum_map. reflexivity.
    - unfold eff, node_eff. rewrite Hc. apply node_ws_data. exact Hnn.
  Qed.
End Node.

Lemma vote_loop_frame kv indptr indices data index : forall labels votes vn labels' votes' vn',
  vote_loop kv indptr indices data index (labels, votes, vn) = VOk (labels', votes', vn') ->
  zero_votes votes ->
  length labels' = length labels /\
  (forall v, ~ In v index -> nthz labels' v = nthz labels v) /\
  (forall x, In x labels' -> In x labels).
Proof.
  induction index as [|i t IH]; intros labels votes vn labels' votes' vn' H Hz; cbn [vote_loop] in H.
  - injection H as <- <- <-. auto.
  - destruct (vote_node kv indptr indices data i (labels, votes, vn)) as [[[l1 v1] n1]|] eqn:En; [|discriminate].
    destruct (vote_node_ok _ _ _ _ _ _ _ _ _ _ _ En Hz) as [_ [Hz1 [Hl1 _]]].
    destruct (vote_node_frame _ _ _ _ _ _ _ _ _ _ _ En Hz) as [Hf1 Hi1].
    destruct (IH _ _ _ _ _ _ H Hz1) as [Hl' [Hf' Hi']].
    split; [lia|]. split.
    + intros v Hv. rewrite Hf' by (intros Hin; apply Hv; right; exact Hin).
      apply Hf1. intros ->. apply Hv. left. reflexivity.
    + intros x Hx. apply Hi1. apply Hi'. exact Hx.
Qed.

(** Generic fixed-point argument: [Inv] is an invariant of the votes_neigh vector, [Good labels i] the
    conclusion wanted at node i; a node that keeps its label under [Inv] is [Good]. *)
Lemma vote_loop_fixed kv indptr indices data (Inv : list Q -> Prop) (Good : list Z -> nat -> Prop) :
  (forall i labels votes vn labels1 votes1 vn1,
      vote_node kv indptr indices data i (labels, votes, vn) = VOk (labels1, votes1, vn1) ->
      zero_votes votes -> Inv vn -> Inv vn1 /\ (nthz labels1 i = nthz labels i -> Good labels i)) ->
  forall index labels votes vn labels' votes' vn',
  vote_loop kv indptr indices data index (labels, votes, vn) = VOk (labels', votes', vn') ->
  zero_votes votes -> Inv vn -> NoDup index ->
  (forall i, In i index -> nthz labels' i = nthz labels i) ->
  forall i, In i index -> Good labels i.
Proof.
  intros Hnode. induction index as [|i t IH]; intros labels votes vn labels' votes' vn' H Hz HI Hnd Hsame j Hj.
  - destruct Hj.
  - cbn [vote_loop] in H.
    destruct (vote_node kv indptr indices data i (labels, votes, vn)) as [[[l1 v1] n1]|] eqn:En; [|discriminate].
    inversion Hnd as [|? ? Hnotin Hnd']; subst.
    destruct (Hnode _ _ _ _ _ _ _ En Hz HI) as [HI1 Hgood].
    destruct (vote_node_ok _ _ _ _ _ _ _ _ _ _ _ En Hz) as [_ [Hz1 [_ [_ Hcase]]]].
    destruct (vote_loop_frame _ _ _ _ _ _ _ _ _ _ _ H Hz1) as [_ [Hf' _]].
    assert (Hkeep : nthz l1 i = nthz labels i).
    { rewrite <- (Hf' i Hnotin). apply Hsame. left. reflexivity. }
    assert (Hl1 : l1 = labels).
    { destruct Hcase as [[-> _]|[l [_ [Hi [Heq _]]]]]; [reflexivity|].
      assert (E : nthz labels i = Z.of_nat l).
      { rewrite <- Hkeep, Heq. apply nth_upd_same. exact Hi. }
      rewrite Heq, <- E. apply upd_nth_same. }
    destruct Hj as [<-|Hj]; [apply Hgood; exact Hkeep|].
    subst l1. apply (IH _ _ _ _ _ _ H Hz1 HI1 Hnd'); [|exact Hj].
    intros k Hk. apply Hsame. right. exact Hk.
Qed.

Lemma vote_update_loop kv indptr indices data labels index labels' :
  vote_update kv indptr indices data labels index = VOk labels' ->
  exists votes' vn',
    vote_loop kv indptr indices data index (labels, repeat 0%Q (votes_size kv labels), []) = VOk (labels', votes', vn').
Proof.
  unfold vote_update. intros H.
  destruct (vote_loop _ _ _ _ _ _) as [[[l1 v1] n1]|]; [|discriminate].
  injection H as ->. exists v1, n1. reflexivity.
Qed.

Lemma vote_update_fixed kv indptr indices data (Inv : list Q -> Prop) (Good : list Z -> nat -> Prop)
      labels index labels' :
  (forall i labels votes vn labels1 votes1 vn1,
      vote_node kv indptr indices data i (labels, votes, vn) = VOk (labels1, votes1, vn1) ->
      zero_votes votes -> Inv vn -> Inv vn1 /\ (nthz labels1 i = nthz labels i -> Good labels i)) ->
  Inv [] ->
  vote_update kv indptr indices data labels index = VOk labels' ->
  NoDup index ->
  (forall i, In i index -> nthz labels' i = nthz labels i) ->
  labels' = labels /\ forall i, In i index -> Good labels' i.
Proof.
  intros Hnode HI H Hnd Hsame. destruct (vote_update_loop _ _ _ _ _ _ _ H) as [v1 [n1 El]].
  pose proof (zero_votes_repeat (votes_size kv labels)) as Hz.
  destruct (vote_loop_frame _ _ _ _ _ _ _ _ _ _ _ El Hz) as [Hlen [Hframe _]].
  assert (Heq : labels' = labels).
  { apply nth_ext with (d := 0%Z) (d' := 0%Z); [exact Hlen|]. intros v _.
    destruct (in_dec Nat.eq_dec v index) as [Hin|Hnin]; [apply Hsame; exact Hin|apply Hframe; exact Hnin]. }
  split; [exact Heq|]. rewrite Heq.
  exact (vote_loop_fixed kv indptr indices data Inv Good Hnode index labels _ [] labels' v1 n1 El Hz HI Hnd Hsame).
Qed.

(** ** Unweighted path: [data] is a vector of ones (of any length the kernel did not run out of) *)

Theorem vote_fixed_point_unweighted kv indptr indices data labels index labels' :
  all_ones data ->
  vote_update kv indptr indices data labels index = VOk labels' ->
  NoDup index ->
  (forall i, In i index -> nthz labels' i = nthz labels i) ->
  labels' = labels /\
  forall i, In i index -> has_labelled_neighbour (nbrs_unit indptr indices i) labels' ->
            local_max (nbrs_unit indptr indices i) labels' i.
Proof.
  intros Hdata H Hnd Hsame.
  apply (vote_update_fixed kv indptr indices data all_ones
           (fun lab i => has_labelled_neighbour (nbrs_unit indptr indices i) lab ->
                         local_max (nbrs_unit indptr indices i) lab i)); auto.
  - intros. eapply node_unweighted; eassumption.
  - constructor.
Qed.

Theorem vote_fixed_point_weighted kv indptr indices data labels index labels' :
  wpos kv = true -> clr kv = true ->
  Forall (fun w => 0 <= w)%Q data ->
  vote_update kv indptr indices data labels index = VOk labels' ->
  NoDup index ->
  (forall i, In i index -> nthz labels' i = nthz labels i) ->
  labels' = labels /\
  forall i, In i index -> has_labelled_neighbour (nbrs_weighted indptr indices data i) labels' ->
            local_max (nbrs_weighted indptr indices data i) labels' i.
Proof.
  intros Hw Hc Hnn H Hnd Hsame.
  apply (vote_update_fixed kv indptr indices data (fun _ => True)
           (fun lab i => has_labelled_neighbour (nbrs_weighted indptr indices data i) lab ->
                         local_max (nbrs_weighted indptr indices data i) lab i)); auto.
  intros. split; [exact I|]. eapply (node_weighted kv); eassumption.
Qed.

(** ** Labels only move around: every label after a sweep was a label before it. *)
Theorem vote_update_labels_from_input kv indptr indices data labels index labels' :
  vote_update kv indptr indices data labels index = VOk labels' ->
  length labels' = length labels /\
  (forall v, ~ In v index -> nthz labels' v = nthz labels v) /\
  (forall x, In x labels' -> In x labels).
Proof.
  intros H. destruct (vote_update_loop _ _ _ _ _ _ _ H) as [v1 [n1 El]].
  destruct (vote_loop_frame _ _ _ _ _ _ _ _ _ _ _ El (zero_votes_repeat _)) as [H1 [H2 H3]]. auto.
Qed.

(** ** The LEGACY kernel on a weighted graph: a fixed point holding a non-maximal label.
    Graph: 1 -(1)- 3 -(2)- 2, node 0 isolated; seeds 1:0, 2:1; node 3 keeps label 0 although label 1
    has weight 2 against 1 (the kernel pairs neighbour 1 with data[1] = 2 and neighbour 2 with data[2] = 1). *)
Definition wit_indptr := [0; 0; 1; 2; 4].
Definition wit_indices := [3; 3; 1; 2].
Definition wit_data : list Q := [1; 2; 1; 2]%Q.
Definition wit_labels : list Z := [-1; 0; 1; 0]%Z.
Definition wit_index := [0; 3].

Theorem vote_weighted_refuted_legacy :
  vote_update_legacy wit_indptr wit_indices wit_data wit_labels wit_index = VOk wit_labels /\
  NoDup wit_index /\ Forall (fun w => 0 < w)%Q wit_data /\
  In 3 wit_index /\
  has_labelled_neighbour (nbrs_weighted wit_indptr wit_indices wit_data 3) wit_labels /\
  ~ local_max (nbrs_weighted wit_indptr wit_indices wit_data 3) wit_labels 3.
Proof.
  split; [vm_compute; reflexivity|].
  split; [repeat constructor; simpl; intuition; discriminate|].
  split; [repeat constructor|].
  split; [simpl; auto|].
  split.
  - exists (1, 1%Q). split; [vm_compute; auto|]. vm_compute. discriminate.
  - intros [_ H]. specialize (H 1%Z ltac:(lia)). vm_compute in H. apply H. reflexivity.
Qed.
