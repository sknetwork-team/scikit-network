(** Unbounded correctness of the Brandes model (Model/Centrality.v: [brandes_bfs], [back_step],
    [brandes_source], [betweenness]) against the brute-force textbook [betweenness_spec].

    Hypotheses used throughout: [gwf p] (every stored column index is < n; the same predicate as [wf_graph] of Proofs/BfsProofs.v) and [gnd p] (no row stores
    a column twice: the walk matrix [A01] of the specification is 0/1, whereas the code would count a
    duplicated CSR entry twice).  No connectivity hypothesis: unreachable nodes contribute 0. *)
From Coq Require Import Qabs Qreduction Lqa Lia Setoid.
From SKN Require Import Base.Util Model.Bfs Proofs.BfsProofs Model.PageRank Proofs.PageRankProofs Model.Centrality.
From SKN Require Proofs.BfsFrontProofs.
Close Scope Q_scope.
Open Scope nat_scope.

Definition gwf (p : graph) : Prop := forall u v, In v (row p u) -> v < length p.
Definition gnd (p : graph) : Prop := forall u, NoDup (row p u).

(** [nw p k s t]: number of walks of k edges from s to t (the specification's [nwalks] without [Qred]). *)
Fixpoint nw (p : graph) (k : nat) (s t : nat) : Q :=
  match k with
  | O => if Nat.eqb s t then 1%Q else 0%Q
  | S k' => bsum (length p) (fun u => nw p k' s u * A01 p u t)%Q
  end.

Lemma nwalks_length p k s : length (nwalks p k s) = length p.
Proof.
  destruct k as [|k]; cbn [nwalks].
  - rewrite map_length. apply seq_length.
  - apply tab_length.
Qed.

(** [sdist p s t d]: d is the length of the shortest walks from s to t. *)
Definition sdist (p : graph) (s t d : nat) : Prop :=
  (0 < nw p d s t)%Q /\ forall k, k < d -> (nw p k s t == 0)%Q.

Local Notation src p s := (single_source (length p) s).

Section Walks.
Context (p : graph) (Hwf : gwf p).

Lemma nwalks_nw k s t : t < length p -> (V (nwalks p k s) t == nw p k s t)%Q.
Proof.
  revert t. induction k as [|k IH]; intros t Ht.
  - cbn [nwalks nw]. unfold V, nthq. rewrite nth_map_seq by exact Ht. reflexivity.
  - cbn [nwalks nw]. rewrite V_tab by exact Ht. apply bsum_ext. intros u Hu.
    rewrite (IH u Hu). reflexivity.
Qed.

Lemma A01_cases u t : (A01 p u t = 1%Q /\ In t (row p u)) \/ (A01 p u t = 0%Q /\ ~ In t (row p u)).
Proof.
  unfold A01. destruct (memn t (row p u)) eqn:E.
  - left. split; [reflexivity|]. apply memn_In. exact E.
  - right. split; [reflexivity|]. intros H. apply memn_In in H. congruence.
Qed.

Lemma A01_nonneg u t : (0 <= A01 p u t)%Q.
Proof. destruct (A01_cases u t) as [[E _]|[E _]]; rewrite E; lra. Qed.

Lemma nw_nonneg k s t : (0 <= nw p k s t)%Q.
Proof.
  revert t. induction k as [|k IH]; intros t; cbn [nw].
  - destruct (Nat.eqb s t); lra.
  - apply bsum_nonneg. intros u _. assert (H1 := IH u). assert (H2 := A01_nonneg u t). nra.
Qed.

Lemma bsum_pos_iff n f :
  (forall i, i < n -> (0 <= f i)%Q) -> ((0 < bsum n f)%Q <-> exists i, i < n /\ (0 < f i)%Q).
Proof.
  induction n as [|n IH]; intros Hf; cbn [bsum].
  - split; [intros H; lra|intros (i & Hi & _); lia].
  - assert (Hf' : forall i, i < n -> (0 <= f i)%Q) by (intros i Hi; apply Hf; lia).
    assert (H0 := bsum_nonneg n f Hf'). assert (Hn := Hf n (Nat.lt_succ_diag_r n)).
    split.
    + intros H. destruct (Qlt_le_dec 0 (f n)) as [L|L].
      * exists n. split; [lia|exact L].
      * assert (Hb : (0 < bsum n f)%Q) by lra. apply (IH Hf') in Hb. destruct Hb as (i & Hi & Hp).
        exists i. split; [lia|exact Hp].
    + intros (i & Hi & Hp). destruct (Nat.eq_dec i n) as [->|Ne]; [lra|].
      assert (Hb : (0 < bsum n f)%Q) by (apply (IH Hf'); exists i; split; [lia|exact Hp]). lra.
Qed.

Lemma nthb_single_source n s v : v < n -> nthb (single_source n s) v = Nat.eqb s v.
Proof. intros Hv. unfold nthb, single_source. apply nth_map_seq. exact Hv. Qed.

Lemma reachk_lt s k v : s < length p -> reachk p (src p s) k v -> v < length p.
Proof.
  intros Hs. destruct k as [|k]; cbn [reachk].
  - intros H. destruct (Nat.lt_ge_cases v (length p)) as [L|L]; [exact L|].
    unfold nthb, single_source in H. rewrite nth_overflow in H by (rewrite map_length, seq_length; exact L). discriminate.
  - intros (u & _ & Hin). exact (Hwf _ _ Hin).
Qed.

Lemma nw_pos_reach s : s < length p ->
  forall k t, t < length p -> ((0 < nw p k s t)%Q <-> reachk p (src p s) k t).
Proof.
  intros Hs. induction k as [|k IH]; intros t Ht.
  - cbn [nw reachk]. rewrite nthb_single_source by exact Ht. destruct (Nat.eqb s t); split; intros H; try lra; try discriminate; reflexivity.
  - cbn [nw reachk]. rewrite bsum_pos_iff.
    + split.
      * intros (u & Hu & Hp). destruct (A01_cases u t) as [[E Hin]|[E _]]; rewrite E in Hp.
        -- exists u. split; [|exact Hin]. apply (IH u Hu). lra.
        -- lra.
      * intros (u & Hr & Hin). assert (Hu := row_nonempty_lt _ _ _ Hin). exists u. split; [exact Hu|].
        apply (IH u Hu) in Hr. destruct (A01_cases u t) as [[E _]|[_ Hn]]; [rewrite E; lra|contradiction].
    + intros u _. assert (H1 := nw_nonneg k s u). assert (H2 := A01_nonneg u t). nra.
Qed.

Lemma bsum_pick n (f : nat -> Q) t : t < n -> (bsum n (fun j => f j * (if Nat.eqb j t then 1 else 0)) == f t)%Q.
Proof.
  intros Ht. rewrite <- (bsum_delta n t (f t) Ht). apply bsum_ext. intros j _.
  destruct (Nat.eqb_spec j t) as [->|_]; ring.
Qed.

(** Chapman-Kolmogorov. *)
Lemma nw_compose a b s t : t < length p ->
  (nw p (a + b) s t == bsum (length p) (fun v => nw p a s v * nw p b v t))%Q.
Proof.
  revert t. induction b as [|b IH]; intros t Ht.
  - rewrite Nat.add_0_r. cbn [nw]. symmetry. apply bsum_pick. exact Ht.
  - rewrite Nat.add_succ_r. cbn [nw].
    transitivity (bsum (length p) (fun u => bsum (length p) (fun v => nw p a s v * nw p b v u * A01 p u t)))%Q.
    { apply bsum_ext. intros u Hu. rewrite (IH u Hu). rewrite <- bsum_scale_r. reflexivity. }
    rewrite bsum_swap. apply bsum_ext. intros v _.
    rewrite <- bsum_scale. apply bsum_ext. intros u _. ring.
Qed.

Lemma nw_1 v w : v < length p -> (nw p 1 v w == A01 p v w)%Q.
Proof.
  intros Hv. cbn [nw]. rewrite <- (bsum_pick (length p) (fun u => A01 p u w) v Hv). apply bsum_ext. intros u _.
  rewrite (Nat.eqb_sym v u). ring.
Qed.

Lemma nw_first m v t : v < length p -> t < length p ->
  (nw p (S m) v t == bsum (length p) (fun w => A01 p v w * nw p m w t))%Q.
Proof.
  intros Hv Ht. change (S m) with (1 + m). rewrite nw_compose by exact Ht.
  apply bsum_ext. intros w _. rewrite (nw_1 v w Hv). reflexivity.
Qed.

Lemma nw_pos_compose a b s v t : v < length p -> t < length p ->
  (0 < nw p a s v)%Q -> (0 < nw p b v t)%Q -> (0 < nw p (a + b) s t)%Q.
Proof.
  intros Hv Ht H1 H2. rewrite nw_compose by exact Ht. apply bsum_pos_iff.
  - intros u _. assert (G1 := nw_nonneg a s u). assert (G2 := nw_nonneg b u t). nra.
  - exists v. split; [exact Hv|nra].
Qed.

Lemma sdist_triangle a m s v t dt : v < length p -> t < length p ->
  (0 < nw p a s v)%Q -> (0 < nw p m v t)%Q -> sdist p s t dt -> dt <= a + m.
Proof.
  intros Hv Ht P1 P2 [_ Z]. destruct (Nat.le_gt_cases dt (a + m)) as [L|L]; [exact L|].
  assert (Pc := nw_pos_compose a m s v t Hv Ht P1 P2). rewrite (Z (a + m) L) in Pc. lra.
Qed.

Lemma nw_zero_or_pos k s t : (nw p k s t == 0)%Q \/ (0 < nw p k s t)%Q.
Proof. assert (H := nw_nonneg k s t). destruct (Qlt_le_dec 0 (nw p k s t)) as [L|L]; [right; exact L|left; lra]. Qed.

Lemma sdist_hop s t d : s < length p -> t < length p ->
  (sdist p s t d <-> hop p (src p s) t d).
Proof.
  intros Hs Ht. unfold sdist, hop. split.
  - intros [H1 H2]. split; [apply (nw_pos_reach s Hs d t Ht); exact H1|].
    intros j Hj Hr. apply (nw_pos_reach s Hs j t Ht) in Hr. rewrite (H2 j Hj) in Hr. lra.
  - intros [H1 H2]. split; [apply (nw_pos_reach s Hs d t Ht); exact H1|].
    intros k Hk. destruct (nw_zero_or_pos k s t) as [Z|Pz]; [exact Z|].
    exfalso. apply (H2 k Hk). apply (nw_pos_reach s Hs k t Ht). exact Pz.
Qed.

Lemma sdist_unique s t d1 d2 : sdist p s t d1 -> sdist p s t d2 -> d1 = d2.
Proof.
  intros [P1 Z1] [P2 Z2]. destruct (Nat.lt_trichotomy d1 d2) as [L|[E|L]]; [|exact E|].
  - rewrite (Z2 d1 L) in P1. lra.
  - rewrite (Z1 d2 L) in P2. lra.
Qed.

Lemma NoDup_map_inj_in {A B} (f : A -> B) (l : list A) :
  (forall x y, In x l -> In y l -> f x = f y -> x = y) -> NoDup l -> NoDup (map f l).
Proof.
  induction l as [|a l IH]; intros Hinj Hnd; cbn [map]; [constructor|].
  inversion Hnd as [|? ? Hna Hnd']; subst. constructor.
  - intros Hin. apply in_map_iff in Hin. destruct Hin as (y & E & Hy).
    assert (y = a) by (apply Hinj; [right; exact Hy|left; reflexivity|exact E]). subst y. contradiction.
  - apply IH; [|exact Hnd']. intros x y Hx Hy. apply Hinj; right; assumption.
Qed.

Lemma sdist_lt_n s t d : s < length p -> t < length p -> sdist p s t d -> d < length p.
Proof. intros Hs Ht H. apply (BfsFrontProofs.hop_lt p (src p s) t d); [apply sdist_hop; assumption|exact Ht]. Qed.

(** * The brute-force [sp_info] and [pair_dependency] in terms of [nw] / [sdist] *)

Definition nzb (s t k : nat) : bool := negb (Qeq_bool (V (nwalks p k s) t) 0).

Lemma nzb_true s t k : t < length p -> (nzb s t k = true <-> (0 < nw p k s t)%Q).
Proof.
  intros Ht. unfold nzb. rewrite negb_true_iff, <- not_true_iff_false, Qeq_bool_iff, (nwalks_nw k s t Ht).
  assert (H0 := nw_nonneg k s t). split; intros H; lra.
Qed.

Lemma nzb_false s t k : t < length p -> (nzb s t k = false <-> (nw p k s t == 0)%Q).
Proof.
  intros Ht. rewrite <- not_true_iff_false, (nzb_true s t k Ht).
  assert (H0 := nw_nonneg k s t). split; intros H; lra.
Qed.

Lemma sp_info_unfold s t :
  sp_info p s t = match filter (nzb s t) (seq 0 (length p)) with
                  | [] => None
                  | k :: _ => Some (k, V (nwalks p k s) t)
                  end.
Proof. reflexivity. Qed.

Lemma sp_info_inv s t d x : t < length p -> sp_info p s t = Some (d, x) ->
  sdist p s t d /\ x = V (nwalks p d s) t /\ d < length p.
Proof.
  intros Ht. rewrite sp_info_unfold. destruct (filter (nzb s t) (seq 0 (length p))) as [|k r] eqn:E; [discriminate|].
  intros H. injection H as <- <-. destruct (BfsFrontProofs.filter_seq_head _ _ _ _ _ E) as (H2 & H1 & H3).
  split; [|split; [reflexivity|lia]]. split.
  - apply nzb_true; assumption.
  - intros j Hj. apply (nzb_false s t j Ht). apply H3. lia.
Qed.

Lemma sp_info_none_inv s t : t < length p -> sp_info p s t = None ->
  forall k, k < length p -> (nw p k s t == 0)%Q.
Proof.
  intros Ht. rewrite sp_info_unfold. destruct (filter (nzb s t) (seq 0 (length p))) as [|k r] eqn:E; [|discriminate].
  intros _ k Hk. apply (nzb_false s t k Ht). apply (BfsFrontProofs.filter_seq_nil _ _ _ E). lia.
Qed.

Lemma sp_info_some s t d : s < length p -> t < length p -> sdist p s t d ->
  sp_info p s t = Some (d, V (nwalks p d s) t).
Proof.
  intros Hs Ht Hd. assert (Hdn := sdist_lt_n s t d Hs Ht Hd).
  destruct (sp_info p s t) as [[k x]|] eqn:E.
  - destruct (sp_info_inv s t k x Ht E) as (Hk & -> & _).
    rewrite (sdist_unique _ _ _ _ Hk Hd). reflexivity.
  - exfalso. assert (Z := sp_info_none_inv s t Ht E d Hdn). destruct Hd as [Pd _]. lra.
Qed.

Lemma sp_info_none s t : t < length p -> (forall k, (nw p k s t == 0)%Q) -> sp_info p s t = None.
Proof.
  intros Ht Hz. destruct (sp_info p s t) as [[k x]|] eqn:E; [|reflexivity].
  exfalso. destruct (sp_info_inv s t k x Ht E) as ([Pk _] & _ & _). rewrite (Hz k) in Pk. lra.
Qed.

Lemma pair_dep_on s t v dt dv : s < length p -> t < length p -> v < length p ->
  sdist p s t dt -> sdist p s v dv -> dv <= dt ->
  (pair_dependency p s t v == nw p dv s v * nw p (dt - dv) v t / nw p dt s t)%Q.
Proof.
  intros Hs Ht Hv Hdt Hdv Hle. unfold pair_dependency.
  rewrite (sp_info_some s t dt Hs Ht Hdt), (sp_info_some s v dv Hs Hv Hdv).
  assert (Hdtn := sdist_lt_n s t dt Hs Ht Hdt).
  destruct (sp_info p v t) as [[d2 z]|] eqn:E.
  - destruct (sp_info_inv v t d2 z Ht E) as (Hd2 & -> & _).
    destruct (Nat.eqb_spec (dv + d2) dt) as [E2|E2].
    + replace (dt - dv) with d2 by lia.
      rewrite !nwalks_nw by assumption. reflexivity.
    + assert (T := sdist_triangle dv d2 s v t dt Hv Ht (proj1 Hdv) (proj1 Hd2) Hdt).
      rewrite (proj2 Hd2 (dt - dv)) by lia. unfold Qdiv. ring.
  - assert (Z := sp_info_none_inv v t Ht E (dt - dv)). rewrite Z by lia. unfold Qdiv. ring.
Qed.

Lemma pair_dep_off s t v dt dv : s < length p -> t < length p -> v < length p ->
  sdist p s t dt -> sdist p s v dv -> dt < dv -> (pair_dependency p s t v == 0)%Q.
Proof.
  intros Hs Ht Hv Hdt Hdv Hlt. unfold pair_dependency.
  rewrite (sp_info_some s t dt Hs Ht Hdt), (sp_info_some s v dv Hs Hv Hdv).
  destruct (sp_info p v t) as [[d2 z]|]; [|reflexivity].
  destruct (Nat.eqb_spec (dv + d2) dt); [lia|reflexivity].
Qed.

Lemma pair_dep_unreach_t s t v : t < length p -> (forall k, (nw p k s t == 0)%Q) -> (pair_dependency p s t v == 0)%Q.
Proof. intros Ht Hz. unfold pair_dependency. rewrite (sp_info_none s t Ht Hz). reflexivity. Qed.

Lemma pair_dep_unreach_v s t v : v < length p -> (forall k, (nw p k s v == 0)%Q) -> (pair_dependency p s t v == 0)%Q.
Proof.
  intros Hv Hz. unfold pair_dependency. rewrite (sp_info_none s v Hv Hz).
  destruct (sp_info p s t) as [[d x]|]; reflexivity.
Qed.

End Walks.

(** * Brandes' dependency recurrence for the textbook pair dependencies *)

Section Recurrence.
  Context (p : graph) (s : nat) (Hwf : gwf p) (Hs : s < length p).
  Context (dfun : nat -> option nat).
  Context (Hsome : forall v d, v < length p -> dfun v = Some d -> sdist p s v d).
  Context (Hnone : forall v, v < length p -> dfun v = None -> forall k, (nw p k s v == 0)%Q).

  Definition sgf (v : nat) : Q := match dfun v with Some d => nw p d s v | None => 0%Q end.
  Definition isd (w d : nat) : bool := match dfun w with Some d' => Nat.eqb d' d | None => false end.
  (** dependency of s on v: sum over targets t <> v of sigma_st(v) / sigma_st *)
  Definition DD (v : nat) : Q := bsum (length p) (fun t => if Nat.eqb t v then 0%Q else pair_dependency p s t v).

  Lemma sgf_pos v d : v < length p -> dfun v = Some d -> (0 < sgf v)%Q.
  Proof. intros Hv E. unfold sgf. rewrite E. destruct (Hsome v d Hv E) as [Pz _]. exact Pz. Qed.

  Lemma isd_true w d : isd w d = true <-> dfun w = Some d.
  Proof.
    unfold isd. destruct (dfun w) as [d'|]; [|split; discriminate].
    rewrite Nat.eqb_eq. split; [intros ->; reflexivity|intros H; injection H as ->; reflexivity].
  Qed.

  (** an out-neighbour w of a reachable v is reachable, at distance <= d(v) + 1 *)
  Lemma edge_dist v w dv : v < length p -> dfun v = Some dv -> In w (row p v) ->
    exists dw, dfun w = Some dw /\ dw <= S dv.
  Proof.
    intros Hv Ev Hin. assert (Hw := Hwf _ _ Hin).
    destruct (Hsome v dv Hv Ev) as [Pv _].
    assert (P1 : (0 < nw p 1 v w)%Q).
    { rewrite (nw_1 p v w Hv). destruct (A01_cases p v w) as [[E _]|[_ Hn]]; [rewrite E; lra|contradiction]. }
    assert (Pc := nw_pos_compose p dv 1 s v w Hv Hw Pv P1).
    destruct (dfun w) as [dw|] eqn:Ew.
    - exists dw. split; [reflexivity|].
      assert (T := sdist_triangle p dv 1 s v w dw Hv Hw Pv P1 (Hsome w dw Hw Ew)). lia.
    - rewrite (Hnone w Hw Ew (dv + 1)) in Pc. lra.
  Qed.

  Lemma dep_term v t dv : v < length p -> t < length p -> dfun v = Some dv ->
    ((if Nat.eqb t v then 0 else pair_dependency p s t v) ==
     bsum (length p) (fun w =>
       if memn w (row p v) && isd w (S dv)
       then sgf v / sgf w * ((if Nat.eqb t w then 1 else 0) + (if Nat.eqb t w then 0 else pair_dependency p s t w))
       else 0))%Q.
  Proof.
    intros Hv Ht Ev. assert (Sv := Hsome v dv Hv Ev).
    destruct (dfun t) as [dt|] eqn:Et.
    2:{ (* t unreachable *)
      rewrite bsum_0; [destruct (Nat.eqb t v); [reflexivity|apply (pair_dep_unreach_t p s t v Ht (Hnone t Ht Et))]|].
      intros w Hw. destruct (memn w (row p v) && isd w (S dv)) eqn:C; [|reflexivity].
      apply andb_true_iff in C. destruct C as [_ C]. apply isd_true in C.
      destruct (Nat.eqb_spec t w) as [<-|_]; [congruence|].
      rewrite (pair_dep_unreach_t p s t w Ht (Hnone t Ht Et)). unfold Qdiv. ring. }
    assert (St := Hsome t dt Ht Et).
    destruct (Nat.le_gt_cases dt dv) as [Hle|Hgt].
    - (* d(t) <= d(v): both sides vanish *)
      assert (L0 : ((if Nat.eqb t v then 0 else pair_dependency p s t v) == 0)%Q).
      { destruct (Nat.eqb_spec t v) as [|E]; [reflexivity|].
        destruct (Nat.eq_dec dt dv) as [->|Ne].
        - rewrite (pair_dep_on p s t v dv dv Hs Ht Hv St Sv (Nat.le_refl _)).
          rewrite Nat.sub_diag. cbn [nw]. destruct (Nat.eqb_spec v t); [congruence|].
          unfold Qdiv. ring.
        - apply (pair_dep_off p s t v dt dv Hs Ht Hv St Sv). lia. }
      rewrite L0. symmetry. apply bsum_0. intros w Hw.
      destruct (memn w (row p v) && isd w (S dv)) eqn:C; [|reflexivity].
      apply andb_true_iff in C. destruct C as [_ C]. apply isd_true in C.
      destruct (Nat.eqb_spec t w) as [<-|_]; [rewrite Et in C; injection C as C; lia|].
      rewrite (pair_dep_off p s t w dt (S dv) Hs Ht Hw St (Hsome w _ Hw C)) by lia. unfold Qdiv. ring.
    - (* d(t) > d(v) *)
      assert (Ntv : Nat.eqb t v = false).
      { apply Nat.eqb_neq. intros ->. rewrite Ev in Et. injection Et as Et. lia. }
      rewrite Ntv. rewrite (pair_dep_on p s t v dt dv Hs Ht Hv St Sv) by lia.
      assert (Pt : (0 < nw p dt s t)%Q) by (destruct St as [Pz _]; exact Pz).
      assert (Pv : (0 < nw p dv s v)%Q) by (destruct Sv as [Pz _]; exact Pz).
      destruct (dt - dv) as [|m] eqn:Em; [lia|].
      rewrite (nw_first p m v t Hv Ht).
      transitivity (bsum (length p) (fun w => nw p dv s v / nw p dt s t * (A01 p v w * nw p m w t)))%Q.
      { rewrite bsum_scale. field. lra. }
      apply bsum_ext. intros w Hw. unfold A01.
      destruct (memn w (row p v)) eqn:Em1; [|cbn [andb]; ring].
      cbn [andb]. assert (Hin : In w (row p v)) by (apply memn_In; exact Em1).
      destruct (edge_dist v w dv Hv Ev Hin) as (dw & Ew & Hdw). assert (Sw := Hsome w dw Hw Ew).
      assert (Pw : (0 < nw p dw s w)%Q) by (destruct Sw as [Pz _]; exact Pz).
      destruct (isd w (S dv)) eqn:C.
      + apply isd_true in C. rewrite Ew in C. injection C as C. subst dw.
        unfold sgf. rewrite Ev, Ew.
        destruct (Nat.eqb_spec t w) as [<-|E].
        * rewrite Et in Ew. injection Ew as Ew.
          assert (m = 0) by lia. subst m. change (nw p 0 t t) with (if Nat.eqb t t then 1%Q else 0%Q).
          rewrite Nat.eqb_refl. subst dt. field. lra.
        * rewrite (pair_dep_on p s t w dt (S dv) Hs Ht Hw St Sw) by lia.
          replace (dt - S dv) with m by lia. field. split; lra.
      + assert (Hlt : dw <= dv).
        { destruct (Nat.eq_dec dw (S dv)) as [->|Ne]; [|lia].
          assert (C2 : isd w (S dv) = true) by (apply isd_true; exact Ew). congruence. }
        assert (Z : (nw p m w t == 0)%Q).
        { destruct (nw_zero_or_pos p m w t) as [Z|Pz]; [exact Z|].
          assert (T := sdist_triangle p dw m s w t dt Hw Ht Pw Pz St). lia. }
        rewrite Z. ring.
  Qed.

  Lemma DD_recurrence v dv : v < length p -> dfun v = Some dv ->
    (DD v == bsum (length p) (fun w =>
               if memn w (row p v) && isd w (S dv) then sgf v / sgf w * (1 + DD w) else 0))%Q.
  Proof.
    intros Hv Ev. unfold DD at 1.
    transitivity (bsum (length p) (fun t => bsum (length p) (fun w =>
       if memn w (row p v) && isd w (S dv)
       then sgf v / sgf w * ((if Nat.eqb t w then 1 else 0) + (if Nat.eqb t w then 0 else pair_dependency p s t w))
       else 0)))%Q.
    { apply bsum_ext. intros t Ht. apply (dep_term v t dv Hv Ht Ev). }
    rewrite bsum_swap. apply bsum_ext. intros w Hw.
    destruct (memn w (row p v) && isd w (S dv)).
    - rewrite bsum_scale. rewrite bsum_plus. rewrite (bsum_delta (length p) w 1 Hw). reflexivity.
    - apply bsum_0. intros; reflexivity.
  Qed.

  Lemma DD_unreach v : v < length p -> dfun v = None -> (DD v == 0)%Q.
  Proof.
    intros Hv Ev. unfold DD. apply bsum_0. intros t Ht. destruct (Nat.eqb t v); [reflexivity|].
    apply (pair_dep_unreach_v p s t v Hv (Hnone v Hv Ev)).
  Qed.

  (** Any family of numbers satisfying the recurrence on the reachable nodes is the dependency. *)
  Lemma recurrence_unique (dl : nat -> Q) :
    (forall v dv, v < length p -> dfun v = Some dv ->
       (dl v == bsum (length p) (fun w =>
                  if memn w (row p v) && isd w (S dv) then sgf v / sgf w * (1 + dl w) else 0))%Q) ->
    forall v dv, v < length p -> dfun v = Some dv -> (dl v == DD v)%Q.
  Proof.
    intros Hrec.
    assert (Hind : forall k v dv, v < length p -> dfun v = Some dv -> length p <= dv + k -> (dl v == DD v)%Q).
    { induction k as [|k IH]; intros v dv Hv Ev Hk.
      - assert (L := sdist_lt_n p s v dv Hs Hv (Hsome v dv Hv Ev)). lia.
      - rewrite (Hrec v dv Hv Ev), (DD_recurrence v dv Hv Ev). apply bsum_ext. intros w Hw.
        destruct (memn w (row p v) && isd w (S dv)) eqn:C; [|reflexivity].
        apply andb_true_iff in C. destruct C as [_ C]. apply isd_true in C.
        rewrite (IH w (S dv) Hw C) by lia. reflexivity. }
    intros v dv Hv Ev. apply (Hind (length p) v dv Hv Ev). lia.
  Qed.
End Recurrence.

(** * The forward phase (queue-based BFS with path counting) *)

Lemma updz_length l j v : length (updz l j v) = length l.
Proof. revert j. induction l as [|x l IH]; intros [|j]; cbn [updz length]; auto. Qed.

Lemma nthz_updz l j v i : j < length l -> nthz (updz l j v) i = if Nat.eqb i j then v else nthz l i.
Proof.
  unfold nthz. revert j i. induction l as [|x l IH]; intros [|j] [|i] H; cbn [updz nth length Nat.eqb] in *; try lia; auto.
  apply (IH j i). lia.
Qed.

Lemma nthz_updz_same l j v : j < length l -> nthz (updz l j v) j = v.
Proof. intros H. rewrite nthz_updz, Nat.eqb_refl by exact H. reflexivity. Qed.

Lemma nthz_updz_other l j v i : i <> j -> nthz (updz l j v) i = nthz l i.
Proof.
  unfold nthz. revert j i. induction l as [|x l IH]; intros [|j] [|i] H; cbn [updz nth]; try reflexivity; [congruence|].
  apply IH. congruence.
Qed.

Lemma updl_length l j v : length (updl l j v) = length l.
Proof. revert j. induction l as [|x l IH]; intros [|j]; cbn [updl length]; auto. Qed.

Lemma nth_updl l j v i : j < length l -> nth i (updl l j v) [] = if Nat.eqb i j then v else nth i l [].
Proof.
  revert j i. induction l as [|x l IH]; intros [|j] [|i] H; cbn [updl nth length Nat.eqb] in *; try lia; auto.
  apply (IH j i). lia.
Qed.

Lemma nthz_repeat c m k : k < m -> nthz (repeat c m) k = c.
Proof. revert k. induction m as [|m IH]; intros [|k] H; cbn; try lia; auto. apply IH. lia. Qed.

Lemma nodup_app {A} (l1 l2 : list A) :
  NoDup l1 -> NoDup l2 -> (forall x, In x l1 -> ~ In x l2) -> NoDup (l1 ++ l2).
Proof.
  induction 1 as [|a l1 Ha N IH]; intros N2 D; cbn [app]; [exact N2|]. constructor.
  - rewrite in_app_iff. intros [H|H]; [contradiction|exact (D a (or_introl eq_refl) H)].
  - apply IH; [exact N2|]. intros x Hx. apply D. right. exact Hx.
Qed.

Definition sortedL (f : nat -> Z) (L : list nat) : Prop :=
  forall l1 l2, L = l1 ++ l2 -> forall a b, In a l1 -> In b l2 -> (f a <= f b)%Z.

Lemma sortedL_app_const f L l c :
  sortedL f L -> (forall a, In a L -> (f a <= c)%Z) -> (forall b, In b l -> f b = c) -> sortedL f (L ++ l).
Proof.
  intros HS HL Hl l1 l2 E a b Ha Hb. symmetry in E. apply app_eq_app in E.
  destruct E as (m & [[-> ->]|[-> ->]]).
  - rewrite (Hl b) by (apply in_app_iff; right; exact Hb).
    apply in_app_iff in Ha. destruct Ha as [Ha|Ha]; [exact (HL a Ha)|].
    rewrite (Hl a) by (apply in_app_iff; left; exact Ha). lia.
  - apply in_app_iff in Hb. destruct Hb as [Hb|Hb]; [exact (HS l1 m eq_refl a b Ha Hb)|].
    rewrite (Hl b Hb). apply HL, in_app_iff. left. exact Ha.
Qed.

Lemma sortedL_ext f g L : (forall a, In a L -> f a = g a) -> sortedL f L -> sortedL g L.
Proof.
  intros He HS l1 l2 E a b Ha Hb.
  rewrite <- (He a), <- (He b); [exact (HS l1 l2 E a b Ha Hb)| |]; rewrite E; apply in_app_iff; auto.
Qed.

Lemma memn_snoc w r j : memn w (r ++ [j]) = memn w r || Nat.eqb w j.
Proof. unfold memn. rewrite existsb_app. cbn [existsb]. rewrite orb_false_r. reflexivity. Qed.

Lemma memn_ext v a b : (forall x, In x a <-> In x b) -> memn v a = memn v b.
Proof.
  intros H. destruct (memn v b) eqn:Eb.
  - apply memn_In, H, memn_In, Eb.
  - apply memn_false. intros Ha. apply H, memn_In in Ha. congruence.
Qed.

(** Sums over a duplicate-free list l of nodes are written [bsum n (fun u => if memn u l then f u else 0)]. *)
Lemma bsum_memn_cons n (f : nat -> Q) a l : a < n -> ~ In a l ->
  (bsum n (fun u => if memn u (a :: l) then f u else 0) == f a + bsum n (fun u => if memn u l then f u else 0))%Q.
Proof.
  intros Ha Hn. rewrite <- (bsum_delta n a (f a) Ha), <- bsum_plus. apply bsum_ext. intros u _.
  unfold memn. cbn [existsb]. fold (memn u l). destruct (Nat.eqb_spec u a) as [->|_]; cbn [orb].
  - rewrite (proj2 (memn_false a l) Hn). ring.
  - destruct (memn u l); ring.
Qed.

(** The row loop of the forward phase in closed form: from a state in which the popped node i has a
    distance, one pass over a duplicate-free row r discovers the nodes of r that had none, and adds
    sigma[i] and the predecessor i to the nodes of r that are then one level below i. *)
Lemma row_fold i (r : list nat) q d sg pr :
  NoDup r -> (forall j, In j r -> j < length d) -> length sg = length d -> length pr = length d ->
  (0 <= nthz d i)%Z ->
  let st' := fold_left (visit_edge i) r {| b_queue := q; b_dists := d; b_sigma := sg; b_preds := pr |} in
  let hit v := memn v r && (nthz (b_dists st') v =? nthz d i + 1)%Z in
  b_queue st' = q ++ filter (fun j => (nthz d j <? 0)%Z) r /\
  length (b_dists st') = length d /\ length (b_sigma st') = length d /\ length (b_preds st') = length d /\
  (forall v, nthz (b_dists st') v = if memn v r && (nthz d v <? 0)%Z then (nthz d i + 1)%Z else nthz d v) /\
  (forall v, nthz (b_sigma st') v = if hit v then (nthz sg v + nthz sg i)%Z else nthz sg v) /\
  (forall v, nth v (b_preds st') [] = if hit v then nth v pr [] ++ [i] else nth v pr []).
Proof.
  intros N Hlt Ls Lp Hi. induction r as [|j r IH] using rev_ind; cbv zeta.
  - cbn [fold_left b_queue b_dists b_sigma b_preds filter memn existsb andb]. rewrite app_nil_r. auto 10.
  - assert (Hjr : memn j r = false).
    { apply memn_false. apply NoDup_remove_2 in N. rewrite app_nil_r in N. exact N. }
    assert (Hj : j < length d) by (apply Hlt, in_elt).
    destruct IH as (Q1 & L1 & L2 & L3 & D1 & S1 & P1).
    { apply NoDup_remove_1 in N. rewrite app_nil_r in N. exact N. }
    { intros x Hx. apply Hlt, in_app_iff. left. exact Hx. }
    rewrite fold_left_app. cbn [fold_left].
    destruct (fold_left (visit_edge i) r _) as [q1 d1 sg1 pr1]. cbn [b_queue b_dists b_sigma b_preds] in *.
    assert (D1i : nthz d1 i = nthz d i).
    { rewrite D1. destruct (nthz d i <? 0)%Z eqn:E; [apply Z.ltb_lt in E; lia|]. rewrite andb_false_r. reflexivity. }
    assert (D1j : nthz d1 j = nthz d j) by (rewrite D1, Hjr; reflexivity).
    assert (S1i : nthz sg1 i = nthz sg i).
    { rewrite S1, D1i. destruct (nthz d i =? nthz d i + 1)%Z eqn:E; [apply Z.eqb_eq in E; lia|]. rewrite andb_false_r. reflexivity. }
    assert (S1j : nthz sg1 j = nthz sg j) by (rewrite S1, Hjr; reflexivity).
    assert (P1j : nth j pr1 [] = nth j pr []) by (rewrite P1, Hjr; reflexivity).
    rewrite filter_app. cbn [filter]. unfold visit_edge. cbn [b_queue b_dists b_sigma b_preds]. rewrite D1j.
    (* the last edge i -> j: j is discovered, or already at the next level, or neither *)
    destruct (nthz d j <? 0)%Z eqn:E; cbn [b_queue b_dists b_sigma b_preds].
    + apply Z.ltb_lt in E. assert (Hij : i <> j) by (intros ->; lia).
      rewrite nthz_updz_same, (nthz_updz_other d1 j _ i Hij), D1i, Z.eqb_refl by (rewrite L1; exact Hj).
      cbn [b_queue b_dists b_sigma b_preds]. rewrite updz_length, updz_length, updl_length, app_assoc, Q1, S1i, S1j, P1j.
      repeat split; try assumption; intros v; rewrite memn_snoc.
      * rewrite nthz_updz by (rewrite L1; exact Hj). destruct (Nat.eqb_spec v j) as [->|_].
        -- rewrite orb_true_r. apply Z.ltb_lt in E. rewrite E. reflexivity.
        -- rewrite orb_false_r. apply D1.
      * rewrite !nthz_updz by (rewrite ?L1, ?L2; exact Hj). destruct (Nat.eqb_spec v j) as [->|_].
        -- rewrite orb_true_r, Z.eqb_refl. reflexivity.
        -- rewrite orb_false_r. apply S1.
      * rewrite nth_updl, nthz_updz by (rewrite ?L1, ?L3; exact Hj). destruct (Nat.eqb_spec v j) as [->|_].
        -- rewrite orb_true_r, Z.eqb_refl. reflexivity.
        -- rewrite orb_false_r. apply P1.
    + rewrite app_nil_r, D1i, D1j.
      assert (Hv : forall v, v <> j -> memn v r || Nat.eqb v j = memn v r).
      { intros v Hv. apply Nat.eqb_neq in Hv. rewrite Hv. apply orb_false_r. }
      destruct (nthz d j =? nthz d i + 1)%Z eqn:E2; cbn [b_queue b_dists b_sigma b_preds].
      * rewrite updz_length, updl_length, S1i, S1j, P1j.
        repeat split; try assumption; intros v; rewrite memn_snoc.
        -- destruct (Nat.eq_dec v j) as [->|Hvj]; [|rewrite (Hv v Hvj); apply D1].
           rewrite E, andb_false_r. exact D1j.
        -- rewrite nthz_updz by (rewrite L2; exact Hj). destruct (Nat.eqb_spec v j) as [->|Hvj].
           ++ rewrite orb_true_r, D1j, E2. reflexivity.
           ++ rewrite orb_false_r. apply S1.
        -- rewrite nth_updl by (rewrite L3; exact Hj). destruct (Nat.eqb_spec v j) as [->|Hvj].
           ++ rewrite orb_true_r, D1j, E2. reflexivity.
           ++ rewrite orb_false_r. apply P1.
      * repeat split; try assumption; intros v; rewrite memn_snoc;
          (destruct (Nat.eq_dec v j) as [->|Hvj]; [|rewrite (Hv v Hvj)]).
        -- rewrite E, andb_false_r. exact D1j.
        -- apply D1.
        -- rewrite D1j, E2, andb_false_r. exact S1j.
        -- apply S1.
        -- rewrite D1j, E2, andb_false_r. exact P1j.
        -- apply P1.
Qed.

Section Forward.
  Context (p : graph) (s : nat) (Hwf : gwf p) (Hnd : gnd p) (Hs : s < length p).

  (** [L] = nodes discovered so far, in discovery order. *)
  Set Implicit Arguments.
  Record CoreD (L : list nat) (dists : list Z) : Prop := {
    c_len : length dists = length p;
    c_nd : NoDup L;
    c_lt : forall v, In v L -> v < length p;
    c_in : forall v, In v L -> (0 <= nthz dists v)%Z;
    c_out : forall v, v < length p -> ~ In v L -> nthz dists v = (-1)%Z;
    c_sorted : sortedL (nthz dists) L;
    c_reach : forall v, In v L -> exists k, nthz dists v = Z.of_nat k /\ reachk p (src p s) k v;
    c_s0 : nthz dists s = 0%Z }.

  Lemma core_mem L dists v : CoreD L dists -> v < length p -> (0 <= nthz dists v)%Z -> In v L.
  Proof.
    intros HC Hv H0. destruct (in_dec Nat.eq_dec v L) as [H|H]; [exact H|]. rewrite (c_out HC Hv H) in H0. lia.
  Qed.
  Unset Implicit Arguments.

  Definition pc (dists : list Z) (w u : nat) : bool := memn w (row p u) && (nthz dists u + 1 =? nthz dists w)%Z.
  Definition tm (dists sigma : list Z) (w u : nat) : Q := if pc dists w u then zq (nthz sigma u) else 0%Q.

  (** Between two pops. *)
  Record OInv (seen : list nat) (st : bstate) : Prop := {
    o_core : CoreD (rev seen ++ b_queue st) (b_dists st);
    o_range : forall x y, In x (b_queue st) -> In y (rev seen ++ b_queue st) ->
                (nthz (b_dists st) y <= nthz (b_dists st) x + 1)%Z;
    o_closed : forall u w, In u seen -> In w (row p u) ->
                 In w (rev seen ++ b_queue st) /\ (nthz (b_dists st) w <= nthz (b_dists st) u + 1)%Z;
    o_lens : length (b_sigma st) = length p;
    o_lenp : length (b_preds st) = length p;
    o_src : nthz (b_sigma st) s = 1%Z;
    o_sig : forall w, w < length p -> w <> s ->
              (zq (nthz (b_sigma st) w) ==
               bsum (length p) (fun u => if memn u seen then tm (b_dists st) (b_sigma st) w u else 0))%Q;
    o_preds : forall w, w < length p -> nth w (b_preds st) [] = filter (pc (b_dists st) w) (rev seen) }.

  Lemma OInv_pop seen i q d sg pr :
    OInv seen {| b_queue := i :: q; b_dists := d; b_sigma := sg; b_preds := pr |} ->
    OInv (i :: seen) (fold_left (visit_edge i) (row p i) {| b_queue := q; b_dists := d; b_sigma := sg; b_preds := pr |}).
  Proof.
    intros [HC HR HCl S1 S2 S3 S4 S5]. cbn [b_queue b_dists b_sigma b_preds] in *.
    set (L := rev seen ++ i :: q) in *.
    assert (HiL : In i L) by apply in_elt. assert (Hi0 := c_in HC i HiL).
    assert (HseenL : forall u, In u seen -> In u L) by (intros u Hu; apply in_app_iff; left; apply in_rev in Hu; exact Hu).
    destruct (row_fold i (row p i) q d sg pr (Hnd i)) as (Q' & L1 & L2 & L3 & D' & S' & P');
      [intros j Hj; rewrite (c_len HC); exact (Hwf _ _ Hj)|rewrite (c_len HC); exact S1|rewrite (c_len HC); exact S2|exact Hi0|].
    destruct (fold_left (visit_edge i) (row p i) _) as [q' d' sg' pr']. cbn [b_queue b_dists b_sigma b_preds] in *. subst q'.
    set (new := filter (fun j => (nthz d j <? 0)%Z) (row p i)).
    assert (Hnew : forall v, In v new <-> In v (row p i) /\ (nthz d v < 0)%Z).
    { intros v. unfold new. rewrite filter_In, Z.ltb_lt. reflexivity. }
    assert (HsameL : forall v, In v L -> nthz d' v = nthz d v).
    { intros v Hv. rewrite D'. assert (H0 := c_in HC v Hv). apply Z.ltb_ge in H0. rewrite H0, andb_false_r. reflexivity. }
    assert (Hnewd : forall v, In v new -> nthz d' v = (nthz d i + 1)%Z).
    { intros v Hv. apply Hnew in Hv. destruct Hv as [H1 H2]. apply memn_In in H1. apply Z.ltb_lt in H2.
      rewrite D', H1, H2. reflexivity. }
    assert (EL : rev (i :: seen) ++ q ++ new = L ++ new) by (cbn [rev]; unfold L; rewrite <- !app_assoc; reflexivity).
    assert (Hle : forall y, In y (L ++ new) -> (nthz d' y <= nthz d i + 1)%Z).
    { intros y Hy. apply in_app_iff in Hy. destruct Hy as [Hy|Hy]; [|rewrite (Hnewd y Hy); lia].
      rewrite (HsameL y Hy). apply HR; [left; reflexivity|exact Hy]. }
    assert (Hseen_le : forall u, In u seen -> (nthz d u <= nthz d i)%Z).
    { intros u Hu. apply (c_sorted HC (rev seen) (i :: q) eq_refl); [apply in_rev in Hu; exact Hu|left; reflexivity]. }
    assert (Hnohit : forall u, (nthz d u <= nthz d i)%Z -> In u L ->
              nthz sg' u = nthz sg u).
    { intros u Hu HuL. rewrite S', (HsameL u HuL). destruct (Z.eqb_spec (nthz d u) (nthz d i + 1)); [lia|].
      rewrite andb_false_r. reflexivity. }
    assert (Hpc : forall w u, In u seen -> pc d' w u = pc d w u).
    { intros w u Hu. unfold pc. rewrite (HsameL u (HseenL u Hu)). destruct (memn w (row p u)) eqn:E; [|reflexivity].
      apply memn_In in E. rewrite (HsameL w (proj1 (HCl u w Hu E))). reflexivity. }
    assert (Hpci : forall w, pc d' w i = memn w (row p i) && (nthz d' w =? nthz d i + 1)%Z).
    { intros w. unfold pc. rewrite (HsameL i HiL), Z.eqb_sym. reflexivity. }
    constructor; cbn [b_queue b_dists b_sigma b_preds]; rewrite ?EL.
    - constructor.
      + rewrite L1. exact (c_len HC).
      + apply nodup_app; [exact (c_nd HC)|apply NoDup_filter, Hnd|].
        intros x Hx Hn. apply Hnew in Hn. assert (H0 := c_in HC x Hx). lia.
      + intros v Hv. apply in_app_iff in Hv. destruct Hv as [Hv|Hv]; [exact (c_lt HC v Hv)|].
        apply Hnew in Hv. exact (Hwf _ _ (proj1 Hv)).
      + intros v Hv. apply in_app_iff in Hv. destruct Hv as [Hv|Hv].
        * rewrite (HsameL v Hv). exact (c_in HC v Hv).
        * rewrite (Hnewd v Hv). lia.
      + intros v Hv Hn. rewrite in_app_iff in Hn. rewrite D'.
        destruct (memn v (row p i) && (nthz d v <? 0)%Z) eqn:C.
        * exfalso. apply Hn. right. apply Hnew. apply andb_true_iff in C. rewrite memn_In, Z.ltb_lt in C. exact C.
        * apply (c_out HC Hv). intros H. apply Hn. left. exact H.
      + apply (sortedL_app_const _ _ _ (nthz d i + 1)%Z).
        * apply (sortedL_ext (nthz d)); [intros a Ha; symmetry; apply HsameL; exact Ha|exact (c_sorted HC)].
        * intros a Ha. apply Hle, in_app_iff. left. exact Ha.
        * exact Hnewd.
      + intros v Hv. apply in_app_iff in Hv. destruct Hv as [Hv|Hv].
        * rewrite (HsameL v Hv). exact (c_reach HC v Hv).
        * destruct (c_reach HC i HiL) as (k & Hk & Hr). exists (S k). split; [rewrite (Hnewd v Hv); lia|].
           cbn [reachk]. exists i. split; [exact Hr|]. apply Hnew in Hv. exact (proj1 Hv).
      + rewrite D', (c_s0 HC), andb_false_r. reflexivity.
    - intros x y Hx Hy. assert (H1 := Hle y Hy). apply in_app_iff in Hx. destruct Hx as [Hx|Hx]; [|rewrite (Hnewd x Hx); lia].
      assert (HxL : In x L) by (apply in_app_iff; right; right; exact Hx). rewrite (HsameL x HxL).
      assert (H2 : (nthz d i <= nthz d x)%Z); [|lia].
      apply (c_sorted HC (rev seen ++ [i]) q); [unfold L; rewrite <- app_assoc; reflexivity|apply in_elt|exact Hx].
    - intros u w [<-|Hu] Hw.
      + rewrite (HsameL i HiL). destruct (Z.ltb_spec (nthz d w) 0) as [Hlt|Hge].
        * assert (Hwn : In w new) by (apply Hnew; split; assumption).
           split; [apply in_app_iff; right; exact Hwn|rewrite (Hnewd w Hwn); lia].
        * assert (HwL := core_mem HC (Hwf _ _ Hw) Hge).
           split; [apply in_app_iff; left; exact HwL|apply Hle, in_app_iff; left; exact HwL].
      + destruct (HCl u w Hu Hw) as [H1 H2]. split; [apply in_app_iff; left; exact H1|].
        rewrite (HsameL w H1), (HsameL u (HseenL u Hu)). exact H2.
    - rewrite L2. exact (c_len HC).
    - rewrite L3. exact (c_len HC).
    - assert (H0 := c_s0 HC). rewrite (Hnohit s); [exact S3|lia|apply (core_mem HC Hs); lia].
    - intros w Hw Hws. rewrite bsum_memn_cons; [|exact (c_lt HC i HiL)|].
      2:{ intros H. apply (NoDup_remove_2 _ _ _ (c_nd HC)), in_app_iff. left. apply in_rev in H. exact H. }
      rewrite (bsum_ext _ _ (fun u => if memn u seen then tm d sg w u else 0%Q)).
      + unfold tm at 1. rewrite Hpci, (Hnohit i (Z.le_refl _) HiL), S'.
        destruct (memn w (row p i) && (nthz d' w =? nthz d i + 1)%Z).
        * unfold zq. rewrite inject_Z_plus. fold (zq (nthz sg w)). rewrite (S4 w Hw Hws). ring.
        * rewrite (S4 w Hw Hws). ring.
      + intros u _. destruct (memn u seen) eqn:E; [|reflexivity]. apply memn_In in E.
        unfold tm. rewrite (Hpc w u E), (Hnohit u (Hseen_le u E) (HseenL u E)). reflexivity.
    - intros w Hw. cbn [rev]. rewrite filter_app. cbn [filter]. rewrite Hpci, P', (S5 w Hw).
      rewrite (filter_ext_in (pc d' w) (pc d w)) by (intros u Hu; apply Hpc, in_rev; exact Hu).
      destruct (memn w (row p i) && (nthz d' w =? nthz d i + 1)%Z); [reflexivity|rewrite app_nil_r; reflexivity].
  Qed.

  Lemma nodup_bound (L : list nat) : NoDup L -> (forall v, In v L -> v < length p) -> length L <= length p.
  Proof.
    intros N Hlt. rewrite <- (seq_length (length p) 0). apply NoDup_incl_length; [exact N|].
    intros v Hv. apply in_seq. assert (H := Hlt v Hv). lia.
  Qed.

  Lemma brandes_bfs_inv : forall fuel st seen,
    OInv seen st -> length p <= length seen + fuel ->
    OInv (snd (brandes_bfs fuel p st seen)) (fst (brandes_bfs fuel p st seen)) /\
    b_queue (fst (brandes_bfs fuel p st seen)) = [].
  Proof.
    induction fuel as [|f IH]; intros st seen HI Hf; cbn [brandes_bfs].
    - cbn [fst snd]. split; [exact HI|]. assert (HC := o_core _ _ HI).
      assert (B := nodup_bound _ (c_nd HC) (c_lt HC)). rewrite app_length, rev_length in B.
      destruct (b_queue st) as [|x q]; [reflexivity|cbn [length] in B; lia].
    - destruct st as [q0 d sg pr]. cbn [b_queue b_dists b_sigma b_preds]. destruct q0 as [|i q].
      + cbn [fst snd]. split; [exact HI|reflexivity].
      + apply IH; [apply OInv_pop; exact HI|cbn [length]; lia].
  Qed.

  Definition fwd_init : bstate :=
    {| b_queue := [s]; b_dists := updz (repeat (-1)%Z (length p)) s 0%Z;
       b_sigma := updz (repeat 0%Z (length p)) s 1%Z; b_preds := repeat [] (length p) |}.

  Lemma OInv_init : OInv [] fwd_init.
  Proof.
    assert (Hd0 : nthz (updz (repeat (-1)%Z (length p)) s 0%Z) s = 0%Z).
    { apply nthz_updz_same. rewrite repeat_length. exact Hs. }
    constructor; cbn [fwd_init b_queue b_dists b_sigma b_preds rev app].
    - constructor.
      + rewrite updz_length. apply repeat_length.
      + constructor; [intros []|constructor].
      + intros v [<-|[]]. exact Hs.
      + intros v [<-|[]]. rewrite Hd0. lia.
      + intros v Hv Hn. rewrite nthz_updz_other by (intros ->; apply Hn; left; reflexivity).
        apply nthz_repeat. exact Hv.
      + intros l1 l2 E a b Ha Hb.
        assert (Ha' : In a [s]) by (rewrite E; apply in_app_iff; left; exact Ha).
        assert (Hb' : In b [s]) by (rewrite E; apply in_app_iff; right; exact Hb).
        destruct Ha' as [<-|[]]. destruct Hb' as [<-|[]]. lia.
      + intros v [<-|[]]. exists 0. split; [exact Hd0|]. cbn [reachk].
        rewrite nthb_single_source by exact Hs. apply Nat.eqb_refl.
      + exact Hd0.
    - intros x y [<-|[]] [<-|[]]. lia.
    - intros u w [].
    - rewrite updz_length. apply repeat_length.
    - apply repeat_length.
    - apply nthz_updz_same. rewrite repeat_length. exact Hs.
    - intros w Hw Hws. rewrite nthz_updz_other, nthz_repeat by assumption. symmetry. apply bsum_0. reflexivity.
    - intros w Hw. apply nth_repeat.
  Qed.

  (** ** What the forward phase has established when the queue is empty *)
  Set Implicit Arguments.
  Record FwdFinal (seen : list nat) (dists sigma : list Z) (preds : list (list nat)) : Prop := {
    f_nd : NoDup seen;
    f_lt : forall v, In v seen -> v < length p;
    f_seen : forall v, v < length p -> (In v seen <-> (0 <= nthz dists v)%Z);
    f_m1 : forall v, v < length p -> (nthz dists v < 0)%Z -> nthz dists v = (-1)%Z;
    f_dist : forall v k, v < length p -> (nthz dists v = Z.of_nat k <-> hop p (src p s) v k);
    f_unreach : forall v, v < length p -> (nthz dists v = (-1)%Z <-> forall k, ~ reachk p (src p s) k v);
    f_sorted : sortedL (nthz dists) (rev seen);
    f_sigma : forall v k, v < length p -> nthz dists v = Z.of_nat k -> (zq (nthz sigma v) == nw p k s v)%Q;
    f_sigma0 : forall v, v < length p -> (nthz dists v < 0)%Z -> nthz sigma v = 0%Z;
    f_preds : forall w, w < length p -> nth w preds [] = filter (pc dists w) (rev seen) }.
  Unset Implicit Arguments.

  Lemma fwd_final seen st : OInv seen st -> b_queue st = [] ->
    FwdFinal seen (b_dists st) (b_sigma st) (b_preds st).
  Proof.
    intros [HC _ HCl _ _ S3 S4 S5] Hq. rewrite Hq, app_nil_r in *. set (d := b_dists st) in *. set (sg := b_sigma st) in *.
    assert (Hnds : NoDup seen) by (rewrite <- (rev_involutive seen); apply NoDup_rev; exact (c_nd HC)).
    assert (Hlts : forall v, In v seen -> v < length p) by (intros v H; apply (c_lt HC), (in_rev seen); exact H).
    assert (Hseen : forall v, v < length p -> (In v seen <-> (0 <= nthz d v)%Z)).
    { intros v Hv. split.
      - intros H. apply (c_in HC), (in_rev seen). exact H.
      - intros H. apply (in_rev seen). exact (core_mem HC Hv H). }
    assert (Hclose : forall k v, reachk p (src p s) k v -> v < length p /\ In v seen /\ (nthz d v <= Z.of_nat k)%Z).
    { induction k as [|k IH]; intros v Hr.
      - assert (Hv := reachk_lt p Hwf s 0 v Hs Hr). cbn [reachk] in Hr. rewrite nthb_single_source in Hr by exact Hv.
        apply Nat.eqb_eq in Hr. subst v. assert (H0 := c_s0 HC). split; [exact Hv|]. split; [apply Hseen; [exact Hv|lia]|lia].
      - assert (Hv := reachk_lt p Hwf s (S k) v Hs Hr). cbn [reachk] in Hr. destruct Hr as (u & Hru & Hinv).
        destruct (IH u Hru) as (Hu & Hus & Hud). destruct (HCl u v Hus Hinv) as [H1 H2].
        split; [exact Hv|]. split; [apply (in_rev seen); exact H1|lia]. }
    assert (Hdist : forall v k, v < length p -> (nthz d v = Z.of_nat k <-> hop p (src p s) v k)).
    { intros v k Hv. split.
      - intros E. assert (Hvs : In v (rev seen)) by (apply (in_rev seen), Hseen; [exact Hv|lia]).
        destruct (c_reach HC v Hvs) as (k' & Ek & Hr). assert (k' = k) by lia. subst k'.
        split; [exact Hr|]. intros j Hj Hrj. destruct (Hclose j v Hrj) as (_ & _ & Hle). lia.
      - intros [Hr Hm]. destruct (Hclose k v Hr) as (_ & Hvs & Hle).
        destruct (c_reach HC v (proj1 (in_rev seen v) Hvs)) as (k' & Ek & Hr').
        destruct (Nat.lt_ge_cases k' k) as [L|L]; [exfalso; exact (Hm k' L Hr')|lia]. }
    assert (Hsig : forall k v, v < length p -> nthz d v = Z.of_nat k -> (zq (nthz sg v) == nw p k s v)%Q).
    { induction k as [|k IH]; intros v Hv E.
      - assert (Hh := proj1 (Hdist v 0 Hv) E). destruct Hh as [Hr _]. cbn [reachk] in Hr.
        rewrite nthb_single_source in Hr by exact Hv. apply Nat.eqb_eq in Hr. subst v.
        rewrite S3. cbn [nw]. rewrite Nat.eqb_refl. reflexivity.
      - assert (Hvs : v <> s) by (intros ->; rewrite (c_s0 HC) in E; lia).
        rewrite (S4 v Hv Hvs). cbn [nw].
        apply bsum_ext. intros u Hu. unfold tm, pc, A01.
        destruct (memn v (row p u)) eqn:Em; [|cbn [andb]; destruct (memn u seen); ring].
        cbn [andb]. apply memn_In in Em.
        destruct (nw_zero_or_pos p k s u) as [Z|Pz].
        + rewrite Z. destruct (memn u seen) eqn:Es; [|ring].
          destruct (nthz d u + 1 =? nthz d v)%Z eqn:Eq; [|ring].
          exfalso. apply Z.eqb_eq in Eq. assert (Eu : nthz d u = Z.of_nat k) by lia.
          apply (Hdist u k Hu) in Eu. destruct Eu as [Hr _]. apply (nw_pos_reach p s Hs k u Hu) in Hr. lra.
        + assert (Hr := proj1 (nw_pos_reach p s Hs k u Hu) Pz).
          destruct (Hclose k u Hr) as (_ & Hus & Hle). destruct (HCl u v Hus Em) as [_ H2].
          assert (Eu : nthz d u = Z.of_nat k) by lia.
          assert (Es : memn u seen = true) by (apply memn_In; exact Hus). rewrite Es.
          assert (Eq : (nthz d u + 1 =? nthz d v)%Z = true) by (apply Z.eqb_eq; lia). rewrite Eq.
          rewrite (IH u Hu Eu). ring. }
    constructor.
    - exact Hnds.
    - exact Hlts.
    - exact Hseen.
    - intros v Hv Hn. apply (c_out HC Hv). intros H. apply (c_in HC) in H. lia.
    - exact Hdist.
    - intros v Hv. split.
      + intros E k Hr. destruct (Hclose k v Hr) as (_ & Hvs & _). apply (Hseen v Hv) in Hvs. lia.
      + intros Hno. apply (c_out HC Hv). intros Hvs.
        destruct (c_reach HC v Hvs) as (k & _ & Hr). exact (Hno k Hr).
    - exact (c_sorted HC).
    - intros v k Hv E. exact (Hsig k v Hv E).
    - intros v Hv Hn.
      assert (Hvs : v <> s) by (intros ->; rewrite (c_s0 HC) in Hn; lia).
      assert (Zq : (zq (nthz sg v) == 0)%Q).
      { rewrite (S4 v Hv Hvs). apply bsum_0. intros u Hu. destruct (memn u seen) eqn:Es; [|reflexivity].
        apply memn_In in Es. unfold tm, pc. assert (H0 := proj1 (Hseen u Hu) Es).
        destruct (Z.eqb_spec (nthz d u + 1) (nthz d v)); [lia|]. rewrite andb_false_r. reflexivity. }
      unfold zq in Zq. change 0%Q with (inject_Z 0) in Zq. exact (proj1 (inject_Z_injective _ _) Zq).
    - exact S5.
  Qed.
End Forward.

(** * The backward phase (dependency accumulation in reverse discovery order); one source *)

Definition brandes_forward (p : graph) (s : nat) : bstate * list nat :=
  brandes_bfs (length p) p (fwd_init p s) [].

Lemma brandes_source_eq p scores s :
  brandes_source p scores s =
  snd (fold_left (back_step s (b_sigma (fst (brandes_forward p s))) (b_preds (fst (brandes_forward p s))))
                 (snd (brandes_forward p s)) (repeat 0%Q (length p), scores)).
Proof.
  unfold brandes_source, brandes_forward, fwd_init.
  destruct (brandes_bfs (length p) p _ []) as [st seen]. reflexivity.
Qed.

Lemma forward_final p s : gwf p -> gnd p -> s < length p ->
  b_queue (fst (brandes_forward p s)) = [] /\
  FwdFinal p s (snd (brandes_forward p s)) (b_dists (fst (brandes_forward p s)))
           (b_sigma (fst (brandes_forward p s))) (b_preds (fst (brandes_forward p s))).
Proof.
  intros Hwf Hnd Hs. unfold brandes_forward.
  destruct (brandes_bfs_inv p s Hwf Hnd Hs (length p) (fwd_init p s) [] (OInv_init p s Hs)) as [HI Hq]; [cbn [length]; lia|].
  split; [exact Hq|]. apply (fwd_final p s Hwf Hs); assumption.
Qed.

Definition dfun_of (dists : list Z) (v : nat) : option nat :=
  if (0 <=? nthz dists v)%Z then Some (Z.to_nat (nthz dists v)) else None.

Lemma dfun_of_some dists v d : dfun_of dists v = Some d <-> nthz dists v = Z.of_nat d.
Proof.
  unfold dfun_of. destruct (0 <=? nthz dists v)%Z eqn:E.
  - apply Z.leb_le in E. split; [intros H; injection H as H; lia|intros H; f_equal; lia].
  - apply Z.leb_gt in E. split; [discriminate|intros H; lia].
Qed.

Lemma dfun_of_none dists v : dfun_of dists v = None <-> (nthz dists v < 0)%Z.
Proof.
  unfold dfun_of. destruct (Z.leb_spec 0 (nthz dists v)); split; try discriminate; try reflexivity; lia.
Qed.

Section OneSource.
  Context (p : graph) (s : nat) (Hwf : gwf p) (Hs : s < length p).
  Context (seen : list nat) (dists sigma : list Z) (preds : list (list nat)).
  Context (HF : FwdFinal p s seen dists sigma preds).

  Definition cf2 (v w : nat) : Q := (zq (nthz sigma v) / zq (nthz sigma w))%Q.
  Definition dstepf (j : nat) (dl : list Q) (i : nat) : list Q :=
    upd dl i (Qred (V dl i + zq (nthz sigma i) / zq (nthz sigma j) * (1 + V dl j))%Q).

  Lemma back_step_eq delta scores j :
    back_step s sigma preds (delta, scores) j =
    (fold_left (dstepf j) (nth j preds []) delta,
     if Nat.eqb j s then scores
     else upd scores j (Qred (V scores j + V (fold_left (dstepf j) (nth j preds []) delta) j)%Q)).
  Proof. reflexivity. Qed.

  Lemma inner_fold j : forall l dl, NoDup l -> (forall i, In i l -> i < length dl) -> ~ In j l ->
    length (fold_left (dstepf j) l dl) = length dl /\
    forall v, (V (fold_left (dstepf j) l dl) v == V dl v + (if memn v l then cf2 v j * (1 + V dl j) else 0))%Q.
  Proof.
    induction l as [|a l IH]; intros dl N Hlt Hj.
    - split; [reflexivity|]. intros v. cbn [fold_left memn existsb]. ring.
    - cbn [fold_left]. inversion N as [|? ? Na N']; subst.
      assert (Ha : a < length dl) by (apply Hlt; left; reflexivity).
      assert (Hja : j <> a) by (intros ->; apply Hj; left; reflexivity).
      assert (L1 : length (dstepf j dl a) = length dl) by (unfold dstepf; apply upd_length).
      assert (V1 : forall x, V (dstepf j dl a) x =
                     if Nat.eqb x a then Qred (V dl a + zq (nthz sigma a) / zq (nthz sigma j) * (1 + V dl j))%Q else V dl x).
      { intros x. unfold dstepf. apply V_upd. exact Ha. }
      destruct (IH (dstepf j dl a) N') as [L2 H2].
      { intros i Hi. rewrite L1. apply Hlt. right. exact Hi. }
      { intros Hc. apply Hj. right. exact Hc. }
      split; [rewrite L2; exact L1|]. intros v. rewrite H2.
      assert (Vj : V (dstepf j dl a) j = V dl j).
      { rewrite V1. destruct (Nat.eqb_spec j a); [contradiction|reflexivity]. }
      rewrite Vj, V1. unfold memn. cbn [existsb]. fold (memn v l).
      destruct (Nat.eqb_spec v a) as [->|_].
      + rewrite (proj2 (memn_false a l) Na). cbn [orb]. rewrite Qred_correct. unfold cf2. ring.
      + cbn [orb]. reflexivity.
  Qed.

  Definition Fd (dl : list Q) (v w : nat) : Q :=
    if memn v (nth w preds []) then (cf2 v w * (1 + V dl w))%Q else 0%Q.

  Record BInv (sc0 : list Q) (done : list nat) (acc : list Q * list Q) : Prop := {
    b_ld : length (fst acc) = length p;
    b_ls : length (snd acc) = length p;
    b_delta : forall v, v < length p ->
      (V (fst acc) v == bsum (length p) (fun w => if memn w done then Fd (fst acc) v w else 0))%Q;
    b_scores : forall v, v < length p ->
      (V (snd acc) v == V sc0 v + (if memn v done && negb (Nat.eqb v s) then V (fst acc) v else 0))%Q }.

  Lemma preds_iff w : w < length p -> forall u,
    In u (nth w preds []) <->
    In w (row p u) /\ (0 <= nthz dists u)%Z /\ (nthz dists u + 1 = nthz dists w)%Z.
  Proof.
    intros Hw u. rewrite (f_preds HF Hw), filter_In. unfold pc. rewrite andb_true_iff, Z.eqb_eq, memn_In, <- in_rev. split.
    - intros (H1 & H2 & H3). split; [exact H2|]. split; [|exact H3]. apply (f_seen HF (f_lt HF u H1)). exact H1.
    - intros (H1 & H2 & H3). split; [|split; assumption]. apply (f_seen HF (row_nonempty_lt _ _ _ H1)). exact H2.
  Qed.

  Lemma preds_nodup w : w < length p -> NoDup (nth w preds []).
  Proof. intros Hw. rewrite (f_preds HF Hw). apply NoDup_filter, NoDup_rev. exact (f_nd HF). Qed.

  Lemma BInv_step sc0 done j rest acc :
    seen = rev done ++ j :: rest -> BInv sc0 done acc -> BInv sc0 (j :: done) (back_step s sigma preds acc j).
  Proof.
    intros Eseen [Ld Ls Hdl Hsc]. destruct acc as [delta scores]. cbn [fst snd] in *.
    rewrite back_step_eq. set (l := nth j preds []).
    assert (Hjs : In j seen) by (rewrite Eseen; apply in_elt).
    assert (Hj : j < length p) by (apply (f_lt HF); exact Hjs).
    assert (Nl : NoDup l) by exact (preds_nodup j Hj).
    assert (Hll : forall i, In i l -> i < length delta).
    { intros i Hi. rewrite Ld. apply (preds_iff j Hj i) in Hi. exact (row_nonempty_lt _ _ _ (proj1 Hi)). }
    assert (Hjl : ~ In j l).
    { intros Hi. apply (preds_iff j Hj j) in Hi. lia. }
    assert (Hjd : ~ In j done).
    { assert (N := f_nd HF). rewrite Eseen in N. apply NoDup_remove_2 in N.
      intros Hc. apply N. apply in_app_iff. left. apply in_rev in Hc. exact Hc. }
    assert (Hdone : forall w, In w done -> ~ In w l).
    { intros w Hw Hi. apply (preds_iff j Hj w) in Hi. destruct Hi as (_ & _ & H3).
      assert (Hle : (nthz dists j <= nthz dists w)%Z).
      { apply (f_sorted HF (rev rest ++ [j]) done).
        - rewrite Eseen, rev_app_distr, rev_involutive. cbn [rev]. reflexivity.
        - apply in_elt.
        - exact Hw. }
      lia. }
    destruct (inner_fold j l delta Nl Hll Hjl) as [L' H'].
    set (delta' := fold_left (dstepf j) l delta) in *.
    assert (Hstab : forall w, ~ In w l -> (V delta' w == V delta w)%Q).
    { intros w Hw. rewrite H', (proj2 (memn_false w l) Hw). ring. }
    constructor; cbn [fst snd].
    - rewrite L'. exact Ld.
    - destruct (Nat.eqb j s); [exact Ls|rewrite upd_length; exact Ls].
    - intros v Hv. rewrite (bsum_memn_cons _ _ j done Hj Hjd), H', (Hdl v Hv).
      rewrite (bsum_ext _ (fun w => if memn w done then Fd delta' v w else 0%Q)
                          (fun w => if memn w done then Fd delta v w else 0%Q)).
      2:{ intros w _. destruct (memn w done) eqn:Em; [|reflexivity]. apply memn_In in Em.
          unfold Fd. destruct (memn v (nth w preds [])); [|reflexivity].
          rewrite (Hstab w (Hdone w Em)). reflexivity. }
      assert (E2 : Fd delta' v j = if memn v l then (cf2 v j * (1 + V delta' j))%Q else 0%Q) by reflexivity.
      rewrite E2. destruct (memn v l); [|ring].
      rewrite (Hstab j Hjl). ring.
    - intros v Hv. unfold memn. cbn [existsb]. fold (memn v done).
      assert (Hold := Hsc v Hv).
      destruct (Nat.eqb v j) eqn:Evj.
      + apply Nat.eqb_eq in Evj. subst v. rewrite (proj2 (memn_false j done) Hjd) in Hold. cbn [orb andb] in *.
        destruct (Nat.eqb j s) eqn:Ejs; cbn [negb].
        * rewrite Hold. reflexivity.
        * rewrite V_upd by (rewrite Ls; exact Hj). rewrite Nat.eqb_refl, Qred_correct, Hold. ring.
      + assert (Vs : V (if Nat.eqb j s then scores else upd scores j (Qred (V scores j + V delta' j)%Q)) v = V scores v).
        { destruct (Nat.eqb j s); [reflexivity|]. rewrite V_upd by (rewrite Ls; exact Hj). rewrite Evj. reflexivity. }
        rewrite Vs, Hold. cbn [orb]. destruct (memn v done) eqn:Em; [|reflexivity].
        cbn [andb]. destruct (negb (Nat.eqb v s)); [|reflexivity].
        apply memn_In in Em. rewrite (Hstab v (Hdone v Em)). reflexivity.
  Qed.

  Lemma back_fold sc0 : forall rest done acc,
    seen = rev done ++ rest -> BInv sc0 done acc ->
    BInv sc0 (rev rest ++ done) (fold_left (back_step s sigma preds) rest acc).
  Proof.
    induction rest as [|j rest IH]; intros done acc E H.
    - exact H.
    - cbn [fold_left rev]. rewrite <- app_assoc. cbn [app]. apply IH.
      + cbn [rev]. rewrite <- app_assoc. exact E.
      + apply (BInv_step sc0 done j rest); assumption.
  Qed.

  Lemma BInv_init sc0 : length sc0 = length p -> BInv sc0 [] (repeat 0%Q (length p), sc0).
  Proof.
    intros L. constructor; cbn [fst snd].
    - apply repeat_length.
    - exact L.
    - intros v Hv. unfold V. rewrite nthq_repeat by exact Hv. symmetry. apply bsum_0. reflexivity.
    - intros v Hv. cbn [memn existsb andb]. ring.
  Qed.

  (** Result of the backward phase: the coded recurrence (over the predecessor lists) and the scores. *)
  Lemma backward_result sc0 : length sc0 = length p ->
    let acc := fold_left (back_step s sigma preds) seen (repeat 0%Q (length p), sc0) in
    length (snd acc) = length p /\
    (forall v, v < length p -> (V (fst acc) v == bsum (length p) (Fd (fst acc) v))%Q) /\
    (forall v, v < length p ->
       (V (snd acc) v == V sc0 v + (if memn v seen && negb (Nat.eqb v s) then V (fst acc) v else 0))%Q).
  Proof.
    intros L acc. assert (H := back_fold sc0 seen [] _ eq_refl (BInv_init sc0 L)). fold acc in H.
    rewrite app_nil_r in H. destruct H as [Ld Ls Hdl Hsc]. split; [exact Ls|]. split.
    - intros v Hv. rewrite (Hdl v Hv). apply bsum_ext. intros w Hw.
      rewrite (memn_ext w (rev seen) seen) by (intros x; symmetry; apply in_rev).
      destruct (memn w seen) eqn:E; [reflexivity|].
      unfold Fd. rewrite (proj2 (memn_false v (nth w preds []))); [reflexivity|].
      intros Hi. apply (preds_iff w Hw v) in Hi. destruct Hi as (_ & H0 & H3).
      assert (Hws : In w seen) by (apply (f_seen HF Hw); lia).
      apply memn_In in Hws. congruence.
    - intros v Hv. rewrite (Hsc v Hv). rewrite (memn_ext v (rev seen) seen); [reflexivity|].
      intros x. symmetry. apply in_rev.
  Qed.

  Lemma dfun_sdist v d : v < length p -> dfun_of dists v = Some d -> sdist p s v d.
  Proof.
    intros Hv E. apply dfun_of_some in E. apply (sdist_hop p s v d Hs Hv).
    apply (f_dist HF d Hv). exact E.
  Qed.

  Lemma dfun_unreach v : v < length p -> dfun_of dists v = None -> forall k, (nw p k s v == 0)%Q.
  Proof.
    intros Hv E k. destruct (nw_zero_or_pos p k s v) as [Z|Pz]; [exact Z|]. exfalso.
    apply (nw_pos_reach p s Hs k v Hv) in Pz. apply dfun_of_none in E.
    exact (proj1 (f_unreach HF Hv) (f_m1 HF Hv E) k Pz).
  Qed.

  Lemma memn_preds v w dv : v < length p -> w < length p -> dfun_of dists v = Some dv ->
    memn v (nth w preds []) = memn w (row p v) && isd (dfun_of dists) w (S dv).
  Proof.
    intros Hv Hw Ev. apply dfun_of_some in Ev. apply eq_iff_eq_true.
    rewrite memn_In, (preds_iff w Hw v), andb_true_iff, memn_In, isd_true, dfun_of_some, Ev. intuition lia.
  Qed.

  (** Brandes' theorem for the model: the accumulated delta is the dependency of s on v. *)
  Lemma delta_is_dependency (dl : list Q) :
    (forall v, v < length p -> (V dl v == bsum (length p) (Fd dl v))%Q) ->
    forall v, v < length p -> (0 <= nthz dists v)%Z -> (V dl v == DD p s v)%Q.
  Proof.
    intros Hrec v Hv H0.
    apply (recurrence_unique p s Hwf Hs (dfun_of dists) dfun_sdist dfun_unreach (V dl)) with (dv := Z.to_nat (nthz dists v));
      [|exact Hv|apply dfun_of_some; lia].
    clear v Hv H0. intros v dv Hv Ev. rewrite (Hrec v Hv). apply bsum_ext. intros w Hw.
    unfold Fd. rewrite (memn_preds v w dv Hv Hw Ev).
    destruct (memn w (row p v) && isd (dfun_of dists) w (S dv)) eqn:C; [|reflexivity].
    apply andb_true_iff in C. destruct C as [_ C2]. apply isd_true in C2.
    unfold cf2, sgf. rewrite Ev, C2.
    rewrite (f_sigma HF dv Hv) by (apply dfun_of_some; exact Ev).
    rewrite (f_sigma HF (S dv) Hw) by (apply dfun_of_some; exact C2).
    reflexivity.
  Qed.

  Lemma DD_neg v : v < length p -> (nthz dists v < 0)%Z -> (DD p s v == 0)%Q.
  Proof.
    intros Hv H. apply (DD_unreach p s (dfun_of dists) dfun_unreach v Hv). apply dfun_of_none. exact H.
  Qed.

  Lemma one_source_scores sc0 : length sc0 = length p ->
    let acc := fold_left (back_step s sigma preds) seen (repeat 0%Q (length p), sc0) in
    length (snd acc) = length p /\
    forall v, v < length p -> (V (snd acc) v == V sc0 v + (if Nat.eqb v s then 0 else DD p s v))%Q.
  Proof.
    intros L acc. destruct (backward_result sc0 L) as (H1 & H2 & H3).
    fold acc in H1, H2, H3. split; [exact H1|]. intros v Hv. rewrite (H3 v Hv).
    destruct (Nat.eqb v s); [rewrite andb_false_r; reflexivity|]. rewrite andb_true_r.
    destruct (memn v seen) eqn:E.
    - apply memn_In, (f_seen HF Hv) in E. rewrite (delta_is_dependency (fst acc) H2 v Hv E). reflexivity.
    - rewrite (DD_neg v Hv); [reflexivity|].
      destruct (Z.lt_ge_cases (nthz dists v) 0) as [H|H]; [exact H|]. apply (f_seen HF Hv), memn_In in H. congruence.
  Qed.
End OneSource.

Lemma brandes_source_spec p sc s : gwf p -> gnd p -> s < length p -> length sc = length p ->
  length (brandes_source p sc s) = length p /\
  forall v, v < length p -> (V (brandes_source p sc s) v == V sc v + (if Nat.eqb v s then 0 else DD p s v))%Q.
Proof.
  intros Hwf Hnd Hs L. rewrite brandes_source_eq.
  destruct (forward_final p s Hwf Hnd Hs) as [_ HF].
  exact (one_source_scores p s Hwf Hs _ _ _ _ HF sc L).
Qed.

Lemma fold_sources p : gwf p -> gnd p -> forall m sc, m <= length p -> length sc = length p ->
  length (fold_left (brandes_source p) (seq 0 m) sc) = length p /\
  forall v, v < length p ->
    (V (fold_left (brandes_source p) (seq 0 m) sc) v ==
     V sc v + bsum m (fun s => if Nat.eqb v s then 0 else DD p s v))%Q.
Proof.
  intros Hwf Hnd. induction m as [|m IH]; intros sc Hm L.
  - split; [exact L|]. intros v Hv. cbn [seq fold_left bsum]. ring.
  - rewrite seq_S, fold_left_app. cbn [fold_left Nat.add bsum].
    destruct (IH sc (Nat.lt_le_incl _ _ Hm) L) as [L1 H1].
    destruct (brandes_source_spec p _ m Hwf Hnd Hm L1) as [L2 H2].
    split; [exact L2|]. intros v Hv. rewrite (H2 v Hv), (H1 v Hv). ring.
Qed.

Lemma pair_dep_self p s v : s < length p -> v < length p -> v <> s -> (pair_dependency p s s v == 0)%Q.
Proof.
  intros Hs Hv Hvs. assert (S0 : sdist p s s 0) by (split; [cbn [nw]; rewrite Nat.eqb_refl; lra|intros k Hk; lia]).
  unfold pair_dependency. rewrite (sp_info_some p s s 0 Hs Hs S0).
  destruct (sp_info p s v) as [[d1 x]|] eqn:E1; [|reflexivity].
  destruct (sp_info p v s) as [[d2 y]|]; [|reflexivity].
  destruct (Nat.eqb (d1 + d2) 0) eqn:E; [|reflexivity]. exfalso. apply Nat.eqb_eq in E.
  destruct (sp_info_inv p s v d1 x Hv E1) as ([Pz _] & _ & _).
  assert (d1 = 0) by lia. subst d1. cbn [nw] in Pz.
  destruct (Nat.eqb_spec s v); [congruence|lra].
Qed.

Lemma total_is_ordered p v : v < length p ->
  (bsum (length p) (fun s => if Nat.eqb v s then 0 else DD p s v) == betweenness_ordered p v)%Q.
Proof.
  intros Hv. unfold betweenness_ordered. cbv zeta. rewrite Qred_correct. apply bsum_ext. intros s Hs.
  rewrite (Nat.eqb_sym v s). destruct (Nat.eqb s v) eqn:Esv.
  - cbn [orb]. symmetry. apply bsum_0. intros; reflexivity.
  - cbn [orb]. unfold DD. apply bsum_ext. intros t Ht.
    destruct (Nat.eqb t v); cbn [orb]; [reflexivity|].
    destruct (Nat.eqb s t) eqn:Est; [|reflexivity].
    apply Nat.eqb_eq in Est. subst t. apply Nat.eqb_neq in Esv.
    apply pair_dep_self; try assumption. intros E. apply Esv. symmetry. exact E.
Qed.

Lemma pattern_length g : length (pattern g) = length g.
Proof. unfold pattern. apply map_length. Qed.

(** C04, betweenness: the coded Brandes accumulation equals the textbook betweenness on EVERY graph
    whose rows store in-range, duplicate-free column indices. *)
Theorem brandes_exact_proof (g : wgraph) :
  gwf (pattern g) -> gnd (pattern g) ->
  length (betweenness g) = length g /\ length (betweenness_spec g) = length g /\
  forall v, v < length g -> (V (betweenness g) v == V (betweenness_spec g) v)%Q.
Proof.
  intros Hwf Hnd. unfold betweenness, betweenness_spec. cbv zeta.
  set (p := pattern g) in *. assert (Lp : length p = length g) by apply pattern_length.
  destruct (fold_sources p Hwf Hnd (length p) (repeat 0%Q (length p)) (Nat.le_refl _) (repeat_length _ _)) as [L1 H1].
  set (sc := fold_left (brandes_source p) (seq 0 (length p)) (repeat 0%Q (length p))) in *.
  assert (Hsc : forall v, v < length p -> (V sc v == betweenness_ordered p v)%Q).
  { intros v Hv. rewrite (H1 v Hv), (total_is_ordered p v Hv).
    unfold V at 1. rewrite nthq_repeat by exact Hv. ring. }
  rewrite <- Lp.
  split; [destruct (is_symmetric g); [rewrite map_length|]; exact L1|].
  split; [rewrite map_length; apply seq_length|].
  intros v Hv. unfold V at 2. unfold nthq. rewrite nth_map_seq by exact Hv.
  destruct (is_symmetric g).
  - rewrite V_div, Qred_correct, (Hsc v Hv). reflexivity.
  - exact (Hsc v Hv).
Qed.

(** * Shortest paths as explicit node lists; their number is [nw] *)

(** all walks of k edges starting in u, as lists of k + 1 nodes *)
Fixpoint walks_from (p : graph) (k u : nat) : list (list nat) :=
  match k with
  | O => [[u]]
  | S k' => flat_map (fun w => map (cons u) (walks_from p k' w)) (row p u)
  end.

(** consecutive nodes are joined by an arc *)
Fixpoint is_walk (p : graph) (l : list nat) : Prop :=
  match l with
  | [] => False
  | x :: r => match r with [] => True | y :: _ => In y (row p x) /\ is_walk p r end
  end.

(** the walks of d edges from s to t; they are the shortest paths when d is the hop distance *)
Definition shortest_paths (p : graph) (s t d : nat) : list (list nat) :=
  filter (fun l => Nat.eqb (last l 0) t) (walks_from p d s).

Lemma walks_from_spec p k : forall u l,
  In l (walks_from p k u) <-> length l = S k /\ hd 0 l = u /\ is_walk p l.
Proof.
  induction k as [|k IH]; intros u l; cbn [walks_from].
  - split.
    + intros [<-|[]]. cbn. auto.
    + intros (Hl & Hh & _). destruct l as [|x [|y r]]; cbn in Hl; try lia. cbn in Hh. subst x. left. reflexivity.
  - rewrite in_flat_map. split.
    + intros (w & Hw & Hin). apply in_map_iff in Hin. destruct Hin as (l' & <- & Hl').
      apply IH in Hl'. destruct Hl' as (H1 & H2 & H3). split; [cbn [length]; lia|]. split; [reflexivity|].
      destruct l' as [|y r]; [cbn in H1; lia|]. cbn [hd] in H2. subst y. cbn [is_walk]. split; [exact Hw|exact H3].
    + intros (Hl & Hh & Hw). destruct l as [|x [|y r]]; cbn [length] in Hl; try lia. cbn [hd] in Hh. subst x.
      cbn [is_walk] in Hw. destruct Hw as [Hy Hr]. exists y. split; [exact Hy|].
      apply in_map_iff. exists (y :: r). split; [reflexivity|]. apply IH. split; [cbn [length]; lia|]. split; [reflexivity|exact Hr].
Qed.

Lemma nodup_flat_map {A B} (f : A -> list B) (l : list A) :
  NoDup l -> (forall x, In x l -> NoDup (f x)) ->
  (forall x y b, In x l -> In y l -> In b (f x) -> In b (f y) -> x = y) -> NoDup (flat_map f l).
Proof.
  induction 1 as [|a l Na N IH]; intros Hf Hd; cbn [flat_map]; [constructor|].
  apply nodup_app.
  - apply Hf. left. reflexivity.
  - apply IH; [intros x Hx; apply Hf; right; exact Hx|]. intros x y b Hx Hy. apply Hd; right; assumption.
  - intros b Hb Hin. apply in_flat_map in Hin. destruct Hin as (y & Hy & Hby).
    rewrite (Hd a y b (or_introl eq_refl) (or_intror Hy) Hb Hby) in Na. contradiction.
Qed.

Lemma walks_from_nodup p : gnd p -> forall k u, NoDup (walks_from p k u).
Proof.
  intros Hnd. induction k as [|k IH]; intros u; cbn [walks_from].
  - constructor; [intros []|constructor].
  - apply nodup_flat_map.
    + apply Hnd.
    + intros w _. apply NoDup_map_inj_in; [|apply IH]. intros x y _ _ E. injection E as E. exact E.
    + intros x y b _ _ Hx Hy. apply in_map_iff in Hx. destruct Hx as (lx & <- & Hlx).
      apply in_map_iff in Hy. destruct Hy as (ly & E & Hly). injection E as E. subst ly.
      apply walks_from_spec in Hlx. apply walks_from_spec in Hly.
      destruct Hlx as (_ & H1 & _). destruct Hly as (_ & H2 & _). congruence.
Qed.

Definition cntw (p : graph) (k u t : nat) : nat := length (shortest_paths p u t k).

Lemma length_filter_flat_map {A B} (P : B -> bool) (f : A -> list B) (l : list A) :
  length (filter P (flat_map f l)) = sumn (map (fun w => length (filter P (f w))) l).
Proof.
  induction l as [|a l IH]; [reflexivity|]. cbn [flat_map map sumn fold_right].
  rewrite filter_app, app_length, IH. reflexivity.
Qed.

(** Counting the walks of k + 1 edges from u by their second node. *)
Lemma walks_filter_S p (P Q : list nat -> bool) k u : (forall y r, P (u :: y :: r) = Q (y :: r)) ->
  length (filter P (walks_from p (S k) u)) =
  sumn (map (fun w => length (filter Q (walks_from p k w))) (row p u)).
Proof.
  intros H. cbn [walks_from]. rewrite length_filter_flat_map. f_equal.
  apply map_ext. intros w. rewrite filter_map_comm, map_length. f_equal.
  apply filter_ext_in. intros l Hl. apply walks_from_spec in Hl.
  destruct l as [|y r]; [cbn in Hl; lia|]. apply H.
Qed.

Lemma cntw_S p k u t : cntw p (S k) u t = sumn (map (fun w => cntw p k w t) (row p u)).
Proof. apply walks_filter_S. reflexivity. Qed.

Lemma cntw_0 p u t : cntw p 0 u t = if Nat.eqb u t then 1 else 0.
Proof. unfold cntw, shortest_paths. cbn [walks_from filter last]. destruct (Nat.eqb u t); reflexivity. Qed.

Definition qn (m : nat) : Q := inject_Z (Z.of_nat m).

Lemma qn_sumn n (f : nat -> nat) l : NoDup l -> (forall w, In w l -> w < n) ->
  (qn (sumn (map f l)) == bsum n (fun w => if memn w l then qn (f w) else 0))%Q.
Proof.
  induction 1 as [|a l Ha N IH]; intros Hlt.
  - symmetry. apply bsum_0. reflexivity.
  - rewrite bsum_memn_cons, <- IH by (try exact Ha; intros; apply Hlt; cbn [In]; auto).
    cbn [map sumn fold_right]. fold (sumn (map f l)). unfold qn. rewrite Nat2Z.inj_add, inject_Z_plus. reflexivity.
Qed.

Lemma cntw_nw p : gwf p -> gnd p -> forall k u t, u < length p -> t < length p ->
  (qn (cntw p k u t) == nw p k u t)%Q.
Proof.
  intros Hwf Hnd. induction k as [|k IH]; intros u t Hu Ht.
  - rewrite cntw_0. cbn [nw]. destruct (Nat.eqb u t); reflexivity.
  - rewrite cntw_S, (qn_sumn (length p) _ _ (Hnd u) (Hwf u)), (nw_first p k u t Hu Ht).
    apply bsum_ext. intros w Hw. unfold A01. destruct (memn w (row p u)); [|ring].
    rewrite (IH w t Hw Ht). ring.
Qed.

(** * sigma as a number of paths; the paths through a given node *)

Lemma sigma_paths p s seen dists sigma preds : gwf p -> gnd p -> s < length p ->
  FwdFinal p s seen dists sigma preds ->
  forall v, v < length p -> forall k, hop p (single_source (length p) s) v k ->
    nthz sigma v = Z.of_nat (length (shortest_paths p s v k)).
Proof.
  intros Hwf Hnd Hs HF v Hv k Hh. apply (f_dist HF k Hv) in Hh.
  assert (E := f_sigma HF k Hv Hh). rewrite <- (cntw_nw p Hwf Hnd k s v Hs Hv) in E.
  exact (proj1 (inject_Z_injective _ _) E).
Qed.

(** The combinatorial identity behind sigma_st(v) = sigma_sv * sigma_vt: the walks of a + b edges from
    u to t whose a-th node is v are as many as (walks of a edges u -> v) x (walks of b edges v -> t). *)
Lemma filter_filter_and {A} (P R : A -> bool) (l : list A) :
  filter P (filter R l) = filter (fun x => P x && R x) l.
Proof.
  induction l as [|a l IH]; [reflexivity|]. cbn [filter]. destruct (R a); cbn [filter].
  - destruct (P a); cbn [andb]; rewrite IH; reflexivity.
  - rewrite andb_false_r. exact IH.
Qed.

Lemma sumn_scale (f : nat -> nat) c l : sumn (map (fun w => f w * c) l) = sumn (map f l) * c.
Proof. unfold sumn. induction l as [|a l IH]; [reflexivity|]. cbn [map fold_right]. rewrite IH. lia. Qed.

Lemma paths_through_proof (p : graph) : forall a b u v t,
  length (filter (fun l => Nat.eqb (nth a l 0) v) (shortest_paths p u t (a + b))) =
  length (shortest_paths p u v a) * length (shortest_paths p v t b).
Proof.
  intros a b u v t. unfold shortest_paths at 1. rewrite filter_filter_and.
  fold (cntw p a u v). fold (cntw p b v t). revert u.
  induction a as [|a IH]; intros u.
  - cbn [Nat.add]. rewrite cntw_0. destruct (Nat.eqb u v) eqn:E.
    + apply Nat.eqb_eq in E. subst u. rewrite Nat.mul_1_l. unfold cntw, shortest_paths. f_equal.
      apply filter_ext_in. intros l Hl. apply walks_from_spec in Hl. destruct Hl as (_ & Hh & _).
      destruct l as [|x r]; cbn [hd nth] in *; subst; rewrite ?Nat.eqb_refl; reflexivity.
    + rewrite filter_none; [reflexivity|]. intros l Hl. apply walks_from_spec in Hl. destruct Hl as (Hlen & Hh & _).
      destruct l as [|x r]; [cbn in Hlen; lia|]. cbn [hd nth] in *. subst x. rewrite E. reflexivity.
  - cbn [Nat.add]. rewrite cntw_S, <- sumn_scale.
    rewrite (walks_filter_S p _ (fun l => Nat.eqb (nth a l 0) v && Nat.eqb (last l 0) t)) by reflexivity.
    f_equal. apply map_ext. intros w. apply IH.
Qed.

(** * Statements with the hypotheses spelled out; executable hypothesis checkers *)

Fixpoint nodupb (l : list nat) : bool :=
  match l with [] => true | a :: t => negb (memn a t) && nodupb t end.
(** every stored column index is < n and no row stores a column twice *)
Definition rows_ok (p : graph) : bool :=
  forallb (fun r => forallb (fun v => Nat.ltb v (length p)) r && nodupb r) p.

Lemma nodupb_NoDup l : nodupb l = true <-> NoDup l.
Proof.
  induction l as [|a t IH]; cbn [nodupb]; [split; [constructor|reflexivity]|].
  rewrite andb_true_iff, negb_true_iff, IH, <- not_true_iff_false, memn_In. split.
  - intros [H1 H2]. constructor; assumption.
  - intros H. inversion H. split; assumption.
Qed.

Lemma rows_ok_sound p : rows_ok p = true -> gwf p /\ gnd p.
Proof.
  intros H. unfold rows_ok in H. rewrite forallb_forall in H.
  assert (Hrow : forall u, u < length p -> In (row p u) p) by (intros u Hu; unfold row; apply nth_In; exact Hu).
  split.
  - intros u v Hin. assert (Hu := row_nonempty_lt _ _ _ Hin). assert (Hr := H _ (Hrow u Hu)).
    apply andb_true_iff in Hr. destruct Hr as [Hr _]. rewrite forallb_forall in Hr.
    apply Nat.ltb_lt. apply Hr. exact Hin.
  - intros u. destruct (Nat.lt_ge_cases u (length p)) as [Hu|Hu].
    + assert (Hr := H _ (Hrow u Hu)). apply andb_true_iff in Hr. destruct Hr as [_ Hr]. apply nodupb_NoDup. exact Hr.
    + unfold row. rewrite nth_overflow by exact Hu. constructor.
Qed.

Theorem brandes_exact_explicit (g : wgraph) :
  (forall u v, In v (row (pattern g) u) -> v < length g) ->
  (forall u, NoDup (row (pattern g) u)) ->
  length (betweenness g) = length g /\
  forall v, v < length g ->
    (V (betweenness g) v == V (betweenness_spec g) v)%Q /\
    (V (betweenness_spec g) v ==
       let n := length g in
       let ordered := bsum n (fun s => bsum n (fun t =>
          if Nat.eqb s v || Nat.eqb t v || Nat.eqb s t then 0 else pair_dependency (pattern g) s t v)) in
       if is_symmetric g then ordered / 2 else ordered)%Q.
Proof.
  intros Hwf Hnd. assert (Lp := pattern_length g).
  assert (Hwf' : gwf (pattern g)) by (intros u v H; rewrite Lp; exact (Hwf u v H)).
  destruct (brandes_exact_proof g Hwf' Hnd) as (L1 & _ & H).
  split; [exact L1|]. intros v Hv. split; [exact (H v Hv)|].
  cbv zeta. unfold betweenness_spec. cbv zeta. unfold V, nthq. rewrite Lp. rewrite nth_map_seq by exact Hv.
  unfold betweenness_ordered. cbv zeta. rewrite Lp.
  destruct (is_symmetric g); rewrite ?Qred_correct; reflexivity.
Qed.

(** Every graph that [all_digraphs] enumerates meets the hypotheses, so the bounded cross-check of
    C04 holds for every size. *)
Lemma sublists_sub {A} (L l : list A) : NoDup L -> In l (sublists L) -> incl l L /\ NoDup l.
Proof.
  intros N. revert l. induction N as [|x L Nx N IH]; intros l; cbn [sublists].
  - intros [<-|[]]. split; [intros e []|constructor].
  - rewrite in_app_iff, in_map_iff. intros [Hl|(l' & <- & Hl)]; destruct (IH _ Hl) as [I Nl].
    + split; [apply incl_tl; exact I|exact Nl].
    + split; [apply incl_cons; [left; reflexivity|apply incl_tl; exact I]|].
      constructor; [intros Hx; exact (Nx (I x Hx))|exact Nl].
Qed.

Lemma arcs_NoDup n loops : NoDup (arcs n loops).
Proof.
  unfold arcs. apply NoDup_filter, nodup_flat_map.
  - apply seq_NoDup.
  - intros i _. apply NoDup_map_inj_in; [|apply seq_NoDup]. intros x y _ _ E. injection E as E. exact E.
  - intros i i' e _ _ Hi Hi'. apply in_map_iff in Hi, Hi'.
    destruct Hi as (j & <- & _). destruct Hi' as (j' & E & _). injection E as E _. symmetry. exact E.
Qed.

Lemma arcs_lt n loops e : In e (arcs n loops) -> snd e < n.
Proof.
  unfold arcs. rewrite filter_In, in_flat_map. intros [(i & _ & H) _].
  apply in_map_iff in H. destruct H as (j & <- & Hj). apply in_seq in Hj. exact (proj2 Hj).
Qed.

Lemma graph_of_arcs_rows_ok n es :
  NoDup es -> (forall e, In e es -> snd e < n) -> rows_ok (pattern (graph_of_arcs n es)) = true.
Proof.
  intros N Hlt. unfold rows_ok. rewrite pattern_length. unfold pattern, graph_of_arcs.
  rewrite map_map, map_length, seq_length. apply forallb_forall. intros r Hr.
  apply in_map_iff in Hr. destruct Hr as (i & <- & _). rewrite map_map. cbn [fst].
  apply andb_true_iff. split.
  - apply forallb_forall. intros v Hv. apply in_map_iff in Hv. destruct Hv as (e & <- & He).
    apply filter_In in He. apply Nat.ltb_lt, Hlt, He.
  - apply nodupb_NoDup. apply NoDup_map_inj_in; [|apply NoDup_filter; exact N].
    (* two arcs kept for row i share their tail i, so their heads tell them apart *)
    intros [a b] [a' b'] Hx Hy E. apply filter_In in Hx, Hy. destruct Hx as [_ Hx]. destruct Hy as [_ Hy].
    cbn [fst snd] in *. apply Nat.eqb_eq in Hx, Hy. congruence.
Qed.

Lemma all_digraphs_rows_ok n loops g : In g (all_digraphs n loops) -> rows_ok (pattern g) = true.
Proof.
  unfold all_digraphs. rewrite in_map_iff. intros (es & <- & Hes).
  destruct (sublists_sub _ _ (arcs_NoDup n loops) Hes) as [I N].
  apply graph_of_arcs_rows_ok; [exact N|]. intros e He. exact (arcs_lt n loops e (I e He)).
Qed.

Lemma list_eqb_veq a b : veq (length b) a (V b) -> list_eqb a b = true.
Proof.
  intros [L H]. unfold list_eqb. rewrite L, Nat.eqb_refl. cbn [andb].
  revert b L H. induction a as [|x a IH]; intros [|y b] L H; try discriminate L; [reflexivity|].
  cbn [combine forallb fst snd]. apply andb_true_iff. split.
  - apply Qeq_bool_iff. exact (H 0 (Nat.lt_0_succ _)).
  - apply IH; [injection L as L; exact L|]. intros j Hj. apply (H (S j)). cbn [length]. lia.
Qed.

Theorem brandes_exact_all_digraphs n loops :
  forallb (fun g => list_eqb (betweenness g) (betweenness_spec g)) (all_digraphs n loops) = true.
Proof.
  apply forallb_forall. intros g Hg.
  destruct (rows_ok_sound _ (all_digraphs_rows_ok n loops g Hg)) as [Hwf Hnd].
  destruct (brandes_exact_proof g Hwf Hnd) as (L1 & L2 & H).
  apply list_eqb_veq. rewrite L2. split; assumption.
Qed.

(** * Symmetric pattern: the halved ordered sum is the sum over unordered pairs *)

Definition psym (p : graph) : Prop := forall u v, In v (row p u) <-> In u (row p v).

Definition sp_match (a b : option (nat * Q)) : Prop :=
  match a, b with
  | Some (d, x), Some (d', y) => d = d' /\ (x == y)%Q
  | None, None => True
  | _, _ => False
  end.

Section Symmetric.
Context (p : graph) (Hsym : psym p).

Lemma A01_sym u v : A01 p u v = A01 p v u.
Proof.
  unfold A01. destruct (memn u (row p v)) eqn:E.
  - apply memn_In, Hsym, memn_In in E. rewrite E. reflexivity.
  - rewrite (proj2 (memn_false v (row p u))); [reflexivity|]. intros Hi. apply Hsym, memn_In in Hi. congruence.
Qed.

Lemma nw_sym k : forall s t, s < length p -> t < length p -> (nw p k s t == nw p k t s)%Q.
Proof.
  induction k as [|k IH]; intros s t Hs Ht.
  - cbn [nw]. rewrite (Nat.eqb_sym s t). reflexivity.
  - rewrite (nw_first p k t s Ht Hs). cbn [nw]. apply bsum_ext. intros u Hu.
    rewrite (IH s u Hs Hu), (A01_sym u t). ring.
Qed.

Lemma sdist_sym s t d : s < length p -> t < length p -> sdist p s t d -> sdist p t s d.
Proof.
  intros Hs Ht [Pz Z0]. split.
  - rewrite <- (nw_sym d s t Hs Ht). exact Pz.
  - intros k Hk. rewrite <- (nw_sym k s t Hs Ht). exact (Z0 k Hk).
Qed.

Lemma sp_info_sym s t : s < length p -> t < length p -> sp_match (sp_info p s t) (sp_info p t s).
Proof.
  intros Hs Ht. destruct (sp_info p s t) as [[d x]|] eqn:E1.
  - destruct (sp_info_inv p s t d x Ht E1) as (Hd & -> & _).
    rewrite (sp_info_some p t s d Ht Hs (sdist_sym s t d Hs Ht Hd)). cbn [sp_match].
    split; [reflexivity|]. rewrite !nwalks_nw by assumption. apply nw_sym; assumption.
  - destruct (sp_info p t s) as [[d y]|] eqn:E2; [|exact I]. cbn [sp_match].
    destruct (sp_info_inv p t s d y Hs E2) as ([Pz _] & _ & Hdn).
    rewrite (nw_sym d t s Ht Hs) in Pz. rewrite (sp_info_none_inv p s t Ht E1 d Hdn) in Pz. lra.
Qed.

Lemma pair_dep_sym s t v : s < length p -> t < length p -> v < length p ->
  (pair_dependency p s t v == pair_dependency p t s v)%Q.
Proof.
  intros Hs Ht Hv. unfold pair_dependency.
  assert (M1 := sp_info_sym s t Hs Ht).
  assert (M2 := sp_info_sym s v Hs Hv).
  assert (M3 := sp_info_sym v t Hv Ht).
  destruct (sp_info p s t) as [[d x]|], (sp_info p t s) as [[d' x']|]; cbn [sp_match] in M1; try contradiction.
  2:{ reflexivity. }
  destruct M1 as [<- Ex].
  destruct (sp_info p s v) as [[d1 y]|], (sp_info p v s) as [[d1' y']|]; cbn [sp_match] in M2; try contradiction.
  2:{ destruct (sp_info p t v) as [[? ?]|]; reflexivity. }
  destruct M2 as [<- Ey].
  destruct (sp_info p v t) as [[d2 z]|], (sp_info p t v) as [[d2' z']|]; cbn [sp_match] in M3; try contradiction.
  2:{ reflexivity. }
  destruct M3 as [<- Ez]. rewrite (Nat.add_comm d2 d1).
  destruct (Nat.eqb (d1 + d2) d); [|reflexivity]. rewrite Ex, Ey, Ez. unfold Qdiv. ring.
Qed.

End Symmetric.

Lemma bsum_sym_half n (f : nat -> nat -> Q) :
  (forall a b, a < n -> b < n -> (f a b == f b a)%Q) -> (forall a, a < n -> (f a a == 0)%Q) ->
  (bsum n (fun a => bsum n (f a)) / 2 == bsum n (fun a => bsum a (f a)))%Q.
Proof.
  induction n as [|n IH]; intros Hs Hd; [reflexivity|].
  cbn [bsum]. rewrite <- IH by (intros; try apply Hs; try apply Hd; lia).
  assert (E1 : (bsum n (fun a => bsum (S n) (f a)) == bsum n (fun a => bsum n (f a)) + bsum n (fun a => f a n))%Q).
  { rewrite <- bsum_plus. apply bsum_ext. intros a _. reflexivity. }
  rewrite E1, (Hd n) by lia.
  assert (E2 : (bsum n (fun a => f a n) == bsum n (f n))%Q) by (apply bsum_ext; intros a Ha; apply Hs; lia).
  rewrite E2. field.
Qed.

(** For a symmetric pattern and a symmetric adjacency, the coded betweenness of v is the sum over the
    UNORDERED pairs {s, t} (each taken once, t < s), s <> v <> t, of sigma_st(v) / sigma_st. *)
Theorem brandes_undirected_proof (g : wgraph) :
  (forall u v, In v (row (pattern g) u) -> v < length g) ->
  (forall u, NoDup (row (pattern g) u)) ->
  (forall u v, In v (row (pattern g) u) <-> In u (row (pattern g) v)) ->
  is_symmetric g = true ->
  forall v, v < length g ->
    (V (betweenness g) v ==
     bsum (length g) (fun s => bsum s (fun t =>
       if Nat.eqb s v || Nat.eqb t v then 0 else pair_dependency (pattern g) s t v)))%Q.
Proof.
  intros Hwf Hnd Hsym Hsg v Hv. assert (Lp := pattern_length g).
  destruct (brandes_exact_explicit g Hwf Hnd) as [_ H]. destruct (H v Hv) as [H1 H2].
  rewrite H1, H2. cbv zeta. rewrite Hsg.
  rewrite (bsum_sym_half (length g) (fun s t =>
     if Nat.eqb s v || Nat.eqb t v || Nat.eqb s t then 0%Q else pair_dependency (pattern g) s t v)).
  - apply bsum_ext. intros a Ha. apply bsum_ext. intros t Ht.
    assert (E : Nat.eqb a t = false) by (apply Nat.eqb_neq; lia). rewrite E, orb_false_r. reflexivity.
  - intros a b Ha Hb. rewrite (Nat.eqb_sym b a), (orb_comm (Nat.eqb b v) (Nat.eqb a v)).
    destruct (Nat.eqb a v || Nat.eqb b v || Nat.eqb a b); [reflexivity|].
    apply pair_dep_sym; try assumption; rewrite Lp; assumption.
  - intros a _. rewrite Nat.eqb_refl, orb_true_r. reflexivity.
Qed.
