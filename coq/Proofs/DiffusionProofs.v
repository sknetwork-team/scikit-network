(** Proofs about Model/Diffusion.v: maximum principle for Diffusion and Dirichlet, clamping,
    seed forms, non-expansiveness and convergence of the Dirichlet iteration, uniqueness of the
    harmonic extension (as its limit). *)
From SKN Require Import Base.Util Model.Diffusion.
From Coq Require Import Qabs Qreduction Qround Lqa Psatz.
Close Scope Q_scope.
Open Scope nat_scope.

Lemma nth_map_lt {A B} (f : A -> B) (l : list A) i d1 d2 :
  i < length l -> nth i (map f l) d1 = f (nth i l d2).
Proof.
  revert i; induction l as [|a t IH]; intros [|i] H; simpl in *; try lia; auto.
  apply IH; lia.
Qed.

Lemma iterate_inv {A} (P : A -> Prop) (f : A -> A) :
  (forall x, P x -> P (f x)) -> forall k x, P x -> P (iterate k f x).
Proof.
  intros Hf k; induction k as [|k IH]; intros x Hx; simpl; auto.
Qed.

Lemma iterate_S {A} (f : A -> A) k x : iterate (S k) f x = f (iterate k f x).
Proof.
  revert x; induction k as [|k IH]; intros x; [reflexivity|].
  change (iterate (S (S k)) f x) with (iterate (S k) f (f x)). rewrite IH. reflexivity.
Qed.

Lemma Forall_firstn_skipn {A} (P : A -> Prop) n l : Forall P l -> Forall P (firstn n l) /\ Forall P (skipn n l).
Proof. intros H. rewrite <- (firstn_skipn n l) in H. apply Forall_app in H. exact H. Qed.

Lemma sumq_scale {A} (f : A -> Q) (c : Q) (l : list A) :
  (sumq (map (fun e => c * f e) l) == c * sumq (map f l))%Q.
Proof.
  induction l as [|a t IH]; simpl; [lra|]. rewrite IH. lra.
Qed.

Lemma sumq_div {A} (f : A -> Q) (s : Q) (l : list A) :
  (sumq (map (fun e => f e / s) l) == sumq (map f l) / s)%Q.
Proof.
  induction l as [|a t IH]; simpl.
  - unfold Qdiv. lra.
  - rewrite IH. unfold Qdiv. lra.
Qed.

Lemma sumq_sub {A} (f g : A -> Q) (l : list A) :
  (sumq (map (fun e => f e - g e) l) == sumq (map f l) - sumq (map g l))%Q.
Proof.
  induction l as [|a t IH]; simpl; [lra|]. rewrite IH. lra.
Qed.

Lemma convex_bounds_scaled (pv : list (Q * Q)) (lo hi : Q) :
  (forall e, In e pv -> (0 <= fst e)%Q /\ (lo <= snd e <= hi)%Q) ->
  (lo * sumq (map fst pv) <= sumq (map (fun e => fst e * snd e) pv) <= hi * sumq (map fst pv))%Q.
Proof.
  induction pv as [|[p v] t IH]; intros H; simpl; [lra|].
  assert (Hpv : (0 <= p)%Q /\ (lo <= v <= hi)%Q) by (apply (H (p, v)); left; reflexivity).
  assert (Ht := IH (fun e He => H e (or_intror He))).
  destruct Hpv as [Hp [Hl Hh]].
  assert (H1 : (lo * p <= p * v)%Q) by nra.
  assert (H2 : (p * v <= hi * p)%Q) by nra.
  lra.
Qed.

Lemma convex_bounds_pairs (pv : list (Q * Q)) (lo hi : Q) :
  (forall e, In e pv -> (0 <= fst e)%Q /\ (lo <= snd e <= hi)%Q) ->
  (sumq (map fst pv) == 1)%Q ->
  (lo <= sumq (map (fun e => fst e * snd e) pv) <= hi)%Q.
Proof.
  intros H S. pose proof (convex_bounds_scaled pv lo hi H) as B. rewrite S in B. lra.
Qed.

(** The form stated in the property: two vectors of the same length. *)
Lemma convex_bounds (p v : list Q) (lo hi : Q) :
  length p = length v ->
  (forall x, In x p -> (0 <= x)%Q) ->
  (sumq p == 1)%Q ->
  (forall x, In x v -> (lo <= x <= hi)%Q) ->
  (lo <= sumq (map2 Qmult p v) <= hi)%Q.
Proof.
  intros L Hp S Hv.
  assert (E : forall (p v : list Q), length p = length v ->
              map2 Qmult p v = map (fun e => (fst e * snd e)%Q) (combine p v) /\ map fst (combine p v) = p).
  { clear. induction p as [|a t IH]; intros [|b t2] L; simpl in *; try lia; auto.
    destruct (IH t2) as [E1 E2]; [lia|]. rewrite E1, E2. auto. }
  destruct (E p v L) as [E1 E2]. rewrite E1.
  apply convex_bounds_pairs.
  - intros [a b] Hin. simpl. split.
    + apply Hp. apply in_combine_l in Hin. exact Hin.
    + apply Hv. apply in_combine_r in Hin. exact Hin.
  - rewrite E2. exact S.
Qed.

Lemma row_convex_bounds n r (U : nat -> Q) lo hi :
  stochastic_row n r -> (forall e, In e r -> (lo <= U (fst e) <= hi)%Q) ->
  (lo <= sumq (map (fun e => snd e * U (fst e)) r) <= hi)%Q.
Proof.
  intros [Hr Hs] HU.
  pose proof (convex_bounds_pairs (map (fun e => (snd e, U (fst e))) r) lo hi) as B.
  rewrite !map_map in B. simpl in B. apply B; [|exact Hs].
  intros e He. apply in_map_iff in He. destruct He as [x [Hx Hin]]. subst e. simpl.
  split; [apply (Hr x Hin) | apply HU; exact Hin].
Qed.

Lemma dot_row_bounds n r v lo hi :
  stochastic_row n r -> vrange n lo hi v -> (lo <= dot_row r v <= hi)%Q.
Proof.
  intros St [Hl Hv]. apply (row_convex_bounds n); [exact St|].
  intros e He. apply Hv. apply (proj1 St e He).
Qed.

Lemma row_norm_nonneg r :
  (forall e, In e r -> (0 <= snd e)%Q) -> (row_norm r == sumq (map snd r))%Q.
Proof.
  intros H. unfold row_norm. apply sumq_ext. intros e He. apply Qabs_pos. apply H. exact He.
Qed.

Lemma row_norm_ge0 r : (0 <= row_norm r)%Q.
Proof.
  unfold row_norm. apply sumq_nonneg. intros x Hx. apply in_map_iff in Hx.
  destruct Hx as [e [He _]]. subst x. apply Qabs_nonneg.
Qed.

Lemma normalize_row_stochastic n r :
  (forall e, In e r -> fst e < n /\ (0 <= snd e)%Q) ->
  ~ (row_norm r == 0)%Q ->
  stochastic_row n (normalize_row r).
Proof.
  intros H Hn. unfold normalize_row.
  destruct (Qeq_bool (row_norm r) 0) eqn:E.
  - apply Qeq_bool_eq in E. contradiction.
  - pose proof (row_norm_ge0 r) as Hge.
    assert (Hpos : (0 < row_norm r)%Q) by lra.
    split.
    + intros e He. apply in_map_iff in He. destruct He as [x [Hx Hin]]. subst e. simpl.
      destruct (H x Hin) as [Hi Hw]. split; [exact Hi|].
      apply Qle_shift_div_l; [exact Hpos| lra].
    + rewrite map_map. simpl. rewrite (sumq_div snd (row_norm r) r).
      rewrite <- (row_norm_nonneg r) by (intros e He; apply H; exact He).
      field. exact Hn.
Qed.

Lemma normalize_row_nil_or r :
  normalize_row r = [] \/ ~ (row_norm r == 0)%Q.
Proof.
  unfold normalize_row. destruct (Qeq_bool (row_norm r) 0) eqn:E; [left; reflexivity|].
  right. apply Qeq_bool_neq. exact E.
Qed.

Lemma wrow_of_normalize adj i : wrow_of (normalize adj) i = normalize_row (wrow_of adj i).
Proof.
  unfold wrow_of, normalize. destruct (Nat.lt_ge_cases i (length adj)) as [H|H].
  - apply nth_map_lt. exact H.
  - rewrite !nth_overflow by (try rewrite map_length; exact H). reflexivity.
Qed.

Definition nonneg_rows (rows : list wrow) : Prop :=
  forall r e, In r rows -> In e r -> (0 <= snd e)%Q.

Lemma wrow_of_In rows i e : In e (wrow_of rows i) -> In (wrow_of rows i) rows.
Proof.
  unfold wrow_of. intros He. destruct (Nat.lt_ge_cases i (length rows)) as [H|H].
  - apply nth_In. exact H.
  - rewrite nth_overflow in He by exact H. contradiction.
Qed.

Lemma transpose_row_entries m j e :
  In e (wrow_of (w_rows (transpose m)) j) ->
  fst e < w_nrow m /\ exists r e0, In r (w_rows m) /\ In e0 r /\ snd e = snd e0.
Proof.
  unfold transpose, wrow_of at 1. cbn [w_rows].
  destruct (Nat.lt_ge_cases j (w_ncol m)) as [Hj|Hj].
  - rewrite nth_map_seq by exact Hj. intros He.
    apply in_flat_map in He. destruct He as [i [Hi He]].
    apply in_seq in Hi. apply in_map_iff in He. destruct He as [e0 [E He0]].
    apply filter_In in He0. destruct He0 as [He0 _]. subst e. simpl. split; [lia|].
    exists (wrow_of (w_rows m) i), e0. split; [|split; [exact He0|reflexivity]].
    eapply wrow_of_In. exact He0.
  - rewrite nth_overflow by (rewrite map_length, seq_length; exact Hj). intros [].
Qed.

Lemma transpose_length m : length (w_rows (transpose m)) = w_ncol m.
Proof. unfold transpose. cbn [w_rows]. rewrite map_length, seq_length. reflexivity. Qed.

Lemma single_stochastic n i : i < n -> stochastic_row n [(i, 1%Q)].
Proof.
  intros H. split.
  - intros e [He|[]]. subst e. simpl. split; [exact H|lra].
  - simpl. lra.
Qed.

Lemma damped_row_stochastic n i alpha r :
  i < n -> (0 <= alpha <= 1)%Q -> stochastic_row n r ->
  stochastic_row n ((i, (1 - alpha)%Q) :: map (fun e => (fst e, (alpha * snd e)%Q)) r).
Proof.
  intros Hi Ha [Hr Hs]. split.
  - intros e [He|He].
    + subst e. simpl. split; [exact Hi|lra].
    + apply in_map_iff in He. destruct He as [x [Hx Hin]]. subst e. simpl.
      destruct (Hr x Hin) as [Hx Hw]. split; [exact Hx|]. nra.
  - cbn [map snd]. rewrite sumq_cons, map_map. cbn [snd].
    rewrite (sumq_scale snd alpha r), Hs. lra.
Qed.

Lemma diffusion_operator_length alpha adj : length (diffusion_operator alpha adj) = length adj.
Proof. unfold diffusion_operator. rewrite map_length, seq_length. reflexivity. Qed.

Lemma diffusion_operator_stochastic alpha adj :
  nonneg_rows adj -> (0 <= alpha <= 1)%Q ->
  forall r, In r (diffusion_operator alpha adj) -> stochastic_row (length adj) r.
Proof.
  intros Hnn Ha r Hr. unfold diffusion_operator in Hr.
  apply in_map_iff in Hr. destruct Hr as [i [<- Hi]]. apply in_seq in Hi. cbv zeta. rewrite wrow_of_normalize.
  set (t := wrow_of (w_rows (transpose _)) i).
  assert (S : ~ (row_norm t == 0)%Q -> stochastic_row (length adj) (normalize_row t)).
  { apply normalize_row_stochastic. intros e He.
    apply transpose_row_entries in He. destruct He as [Hlt [r [e0 [Hr [He0 Es]]]]].
    split; [exact Hlt|]. rewrite Es. apply (Hnn r e0 Hr He0). }
  apply damped_row_stochastic; [lia|exact Ha|].
  destruct (normalize_row_nil_or t) as [En|Hn]; [rewrite En; apply single_stochastic; lia|].
  specialize (S Hn). destruct (normalize_row t); [apply single_stochastic; lia|exact S].
Qed.

Lemma matvec_length M v : length (matvec M v) = length M.
Proof. unfold matvec. apply map_length. Qed.

Lemma nth_matvec M v i : i < length M -> nthq (matvec M v) i = Qred (dot_row (wrow_of M i) v).
Proof.
  intros H. unfold nthq, matvec, wrow_of.
  exact (nth_map_lt (fun r => Qred (dot_row r v)) M i 0%Q [] H).
Qed.

Lemma matvec_vrange n M v lo hi :
  (forall r, In r M -> stochastic_row n r) -> vrange n lo hi v ->
  vrange (length M) lo hi (matvec M v).
Proof.
  intros HM Hv. split; [apply matvec_length|].
  intros i Hi. rewrite nth_matvec by exact Hi. rewrite Qred_correct.
  apply (dot_row_bounds n); [|exact Hv]. apply HM. unfold wrow_of. apply nth_In. exact Hi.
Qed.

Lemma diffusion_core_bounds k alpha adj temps lo hi :
  nonneg_rows adj -> (0 <= alpha <= 1)%Q ->
  vrange (length adj) lo hi temps ->
  vrange (length adj) lo hi (diffusion_core k alpha adj temps).
Proof.
  intros Hnn Ha Hv. unfold diffusion_core.
  apply (iterate_inv (vrange (length adj) lo hi)); [|exact Hv].
  intros x Hx. rewrite <- (diffusion_operator_length alpha adj) at 1.
  apply (matvec_vrange (length adj)); [|exact Hx].
  apply diffusion_operator_stochastic; assumption.
Qed.

Lemma is_seed_iff x : is_seed x = true <-> (0 <= x)%Q.
Proof. unfold is_seed. apply Qle_bool_iff. Qed.

Lemma Qle_bool_false a b : Qle_bool a b = false <-> (b < a)%Q.
Proof.
  rewrite <- not_true_iff_false, Qle_bool_iff. split; [apply Qnot_le_lt | intros H L; lra].
Qed.

Lemma is_seed_false x : is_seed x = false <-> (x < 0)%Q.
Proof. unfold is_seed. apply Qle_bool_false. Qed.

Lemma inject_nat_S n : (inject_Z (Z.of_nat (S n)) == inject_Z (Z.of_nat n) + 1)%Q.
Proof. rewrite Nat2Z.inj_succ. unfold Z.succ. rewrite inject_Z_plus. reflexivity. Qed.

Lemma sumq_bounds l lo hi :
  (forall x, In x l -> (lo <= x <= hi)%Q) ->
  (lo * inject_Z (Z.of_nat (length l)) <= sumq l <= hi * inject_Z (Z.of_nat (length l)))%Q.
Proof.
  induction l as [|a t IH]; intros H.
  - simpl. unfold inject_Z. lra.
  - assert (Ha : (lo <= a <= hi)%Q) by (apply H; left; reflexivity).
    assert (Ht := IH (fun x Hx => H x (or_intror Hx))).
    cbn [length]. rewrite sumq_cons, inject_nat_S. lra.
Qed.

Lemma qmean_bounds l lo hi :
  l <> [] -> (forall x, In x l -> (lo <= x <= hi)%Q) -> (lo <= qmean l <= hi)%Q.
Proof.
  intros Hne H. unfold qmean. rewrite Qred_correct.
  pose proof (sumq_bounds l lo hi H) as B.
  assert (Hk : (0 < inject_Z (Z.of_nat (length l)))%Q).
  { change 0%Q with (inject_Z 0). rewrite <- Zlt_Qlt. destruct l; [congruence|simpl; lia]. }
  split.
  - apply Qle_shift_div_l; [exact Hk|lra].
  - apply Qle_shift_div_r; [exact Hk|lra].
Qed.

Lemma init_temperatures_spec seeds init temps border :
  init_temperatures seeds init = Ok (temps, border) ->
  exists t0,
    border = map is_seed seeds /\
    temps = map (fun x => if is_seed x then x else t0) seeds /\
    match init with
    | Some t => t0 = t
    | None => filter is_seed seeds <> [] /\ t0 = qmean (filter is_seed seeds)
    end.
Proof.
  unfold init_temperatures. destruct init as [t|].
  - intros E. inversion E. exists t. auto.
  - destruct (filter is_seed seeds) as [|x sv] eqn:F; [discriminate|].
    intros E. inversion E. exists (qmean (x :: sv)). repeat split; auto. discriminate.
Qed.

Lemma init_temperatures_nth seeds init temps border i :
  init_temperatures seeds init = Ok (temps, border) -> i < length seeds ->
  length temps = length seeds /\ length border = length seeds /\
  nthb border i = is_seed (nthq seeds i) /\
  (is_seed (nthq seeds i) = true -> nthq temps i = nthq seeds i).
Proof.
  intros E Hi. apply init_temperatures_spec in E. destruct E as [t0 [Eb [Et _]]]. subst.
  rewrite !map_length. repeat split; auto.
  - unfold nthb, nthq. apply (nth_map_lt is_seed seeds i false 0%Q Hi).
  - intros Hs. unfold nthq.
    rewrite (nth_map_lt (fun x => if is_seed x then x else t0) seeds i 0%Q 0%Q Hi).
    unfold nthq in Hs. rewrite Hs. reflexivity.
Qed.

Lemma init_temperatures_range seeds init temps border lo hi :
  init_temperatures seeds init = Ok (temps, border) ->
  (forall x, In x seeds -> (0 <= x)%Q -> (lo <= x <= hi)%Q) ->
  (forall t, init = Some t -> (lo <= t <= hi)%Q) ->
  vrange (length seeds) lo hi temps.
Proof.
  intros E Hs Hi. apply init_temperatures_spec in E. destruct E as [t0 [Eb [Et Ht0]]].
  assert (Ht : (lo <= t0 <= hi)%Q).
  { destruct init as [t|].
    - subst t0. apply Hi. reflexivity.
    - destruct Ht0 as [Hne Et0]. subst t0. apply qmean_bounds; [exact Hne|].
      intros x Hx. apply filter_In in Hx. destruct Hx as [Hin Hx]. apply Hs; [exact Hin|].
      apply is_seed_iff. exact Hx. }
  subst temps. split; [apply map_length|].
  intros i Hlt. unfold nthq.
  rewrite (nth_map_lt (fun x => if is_seed x then x else t0) seeds i 0%Q 0%Q Hlt).
  destruct (is_seed (nth i seeds 0%Q)) eqn:S; [|exact Ht].
  apply Hs; [apply nth_In; exact Hlt|]. apply is_seed_iff. exact S.
Qed.

Lemma clamp_length border temps v : length (clamp border temps v) = length v.
Proof. unfold clamp. rewrite map_length, seq_length. reflexivity. Qed.

Lemma nth_clamp border temps v i :
  i < length v -> nthq (clamp border temps v) i = if nthb border i then nthq temps i else nthq v i.
Proof.
  intros H. unfold clamp, nthq at 1.
  exact (nth_map_seq (fun i => if nthb border i then nthq temps i else nthq v i) (length v) i 0%Q H).
Qed.

Lemma dirichlet_step_length p border temps v : length (dirichlet_step p border temps v) = length p.
Proof. unfold dirichlet_step. rewrite clamp_length. apply matvec_length. Qed.

Lemma nth_dirichlet_step p border temps v i :
  i < length p ->
  nthq (dirichlet_step p border temps v) i =
  if nthb border i then nthq temps i else Qred (dot_row (wrow_of p i) v).
Proof.
  intros H. unfold dirichlet_step. rewrite nth_clamp by (rewrite matvec_length; exact H).
  rewrite nth_matvec by exact H. reflexivity.
Qed.

Lemma normalize_length adj : length (normalize adj) = length adj.
Proof. apply map_length. Qed.

Lemma wf_rows_wrow_of n adj i e : wf_rows n adj -> In e (wrow_of adj i) -> fst e < n /\ (0 <= snd e)%Q.
Proof. intros W He. apply (W (wrow_of adj i) e); [eapply wrow_of_In; exact He|exact He]. Qed.

Lemma normalized_stochastic adj i :
  wf_rows (length adj) adj -> (0 < row_norm (wrow_of adj i))%Q ->
  stochastic_row (length adj) (normalize_row (wrow_of adj i)).
Proof.
  intros W Hn. apply normalize_row_stochastic; [|lra]. intros e He. eapply wf_rows_wrow_of; eassumption.
Qed.

(** The hypothesis on sinks that is actually needed: every node that is not a seed has positive
    out-weight (seed nodes are re-imposed after each step, so their rows do not matter). *)
Definition no_free_sink (adj : list wrow) (border : list bool) : Prop :=
  forall i, i < length adj -> nthb border i = false -> (0 < row_norm (wrow_of adj i))%Q.

Lemma dirichlet_step_vrange adj border temps v lo hi :
  wf_rows (length adj) adj -> no_free_sink adj border ->
  (forall i, i < length adj -> nthb border i = true -> (lo <= nthq temps i <= hi)%Q) ->
  vrange (length adj) lo hi v ->
  vrange (length adj) lo hi (dirichlet_step (normalize adj) border temps v).
Proof.
  intros W NS Ht Hv. split.
  - rewrite dirichlet_step_length. apply normalize_length.
  - intros i Hi. rewrite nth_dirichlet_step by (rewrite normalize_length; exact Hi).
    destruct (nthb border i) eqn:B; [apply Ht; assumption|].
    rewrite Qred_correct. apply (dot_row_bounds (length adj)); [|exact Hv].
    rewrite wrow_of_normalize. apply normalized_stochastic; [exact W|]. apply NS; assumption.
Qed.

Lemma dirichlet_core_bounds k adj border temps lo hi :
  wf_rows (length adj) adj -> no_free_sink adj border ->
  vrange (length adj) lo hi temps ->
  vrange (length adj) lo hi (dirichlet_core k adj border temps).
Proof.
  intros W NS Hv. unfold dirichlet_core.
  apply (iterate_inv (vrange (length adj) lo hi)); [|exact Hv].
  intros x Hx. apply dirichlet_step_vrange; auto.
  intros i Hi _. apply Hv. exact Hi.
Qed.

Lemma dirichlet_core_seeds k adj border temps i :
  i < length adj -> nthb border i = true ->
  nthq (dirichlet_core k adj border temps) i = nthq temps i.
Proof.
  intros Hi B. unfold dirichlet_core. destruct k as [|k]; [reflexivity|].
  rewrite iterate_S. rewrite nth_dirichlet_step by (rewrite normalize_length; exact Hi).
  rewrite B. reflexivity.
Qed.

Lemma get_values_length n v d l : get_values n v d = Ok l -> length l = n.
Proof.
  unfold get_values. destruct v as [[a|a|dd]|].
  1, 2: destruct (Nat.eqb (length a) n) eqn:E; [|discriminate]; intros H; inversion H; subst;
    apply Nat.eqb_eq; exact E.
  - destruct dd as [|x t]; [discriminate|].
    destruct (forallb (fun e => fst e <? n) (x :: t)); [|discriminate].
    intros H. inversion H. rewrite map_length, seq_length. reflexivity.
  - intros H. inversion H. apply repeat_length.
Qed.

Lemma stack_values_length nr nc vr vc d l : stack_values nr nc vr vc d = Ok l -> length l = nr + nc.
Proof.
  unfold stack_values.
  destruct (get_values nr _ d) as [a|] eqn:Ea; [|discriminate].
  destruct (get_values nc _ d) as [b|] eqn:Eb; [|discriminate].
  intros H. inversion H. rewrite app_length.
  apply get_values_length in Ea. apply get_values_length in Eb. lia.
Qed.

Lemma block_undirected_length m : length (block_undirected m) = w_nrow m + w_ncol m.
Proof.
  unfold block_undirected. rewrite app_length, map_length, transpose_length. reflexivity.
Qed.

Lemma block_undirected_entry m r e :
  In r (block_undirected m) -> In e r ->
  exists r0 e0, In r0 (w_rows m) /\ In e0 r0 /\ snd e = snd e0 /\
                (fst e0 < w_ncol m -> fst e < w_nrow m + w_ncol m).
Proof.
  intros Hr He. unfold block_undirected in Hr. apply in_app_or in Hr. destruct Hr as [Hr|Hr].
  - apply in_map_iff in Hr. destruct Hr as [r0 [E Hr0]]. subst r.
    apply in_map_iff in He. destruct He as [e0 [E He0]]. subst e.
    exists r0, e0. simpl. repeat split; auto. lia.
  - destruct (In_nth _ _ [] Hr) as [j [Hj Ej]]. subst r.
    apply transpose_row_entries in He. destruct He as [Hlt [r0 [e0 [Hr0 [He0 Es]]]]].
    exists r0, e0. repeat split; auto. lia.
Qed.

Lemma block_undirected_nonneg m : nonneg_rows (w_rows m) -> nonneg_rows (block_undirected m).
Proof.
  intros H r e Hr He. destruct (block_undirected_entry m r e Hr He) as (r0 & e0 & Hr0 & He0 & Es & _).
  rewrite Es. exact (H r0 e0 Hr0 He0).
Qed.

Lemma block_undirected_wf m : wf_wmat m -> wf_rows (w_nrow m + w_ncol m) (block_undirected m).
Proof.
  intros H r e Hr He. destruct (block_undirected_entry m r e Hr He) as (r0 & e0 & Hr0 & He0 & Es & Hlt).
  destruct (H r0 e0 Hr0 He0) as [H1 H2]. rewrite Es. split; [exact (Hlt H1)|exact H2].
Qed.

Lemma wf_rows_nonneg n rows : wf_rows n rows -> nonneg_rows rows.
Proof. intros H r e Hr He. apply (H r e Hr He). Qed.

Lemma gav_spec m fb values vr vc adj seeds bip :
  get_adjacency_values m fb values vr vc = Ok (adj, seeds, bip) ->
  length seeds = length adj /\
  (nonneg_rows (w_rows m) -> nonneg_rows adj) /\
  (wf_wmat m -> wf_rows (length adj) adj).
Proof.
  unfold get_adjacency_values.
  destruct (Nat.eqb (nnz m) 0); [discriminate|].
  destruct (_ || negb (Nat.eqb (w_nrow m) (w_ncol m))) eqn:B.
  - match goal with |- match ?X with _ => _ end = _ -> _ => destruct X as [v|] eqn:Ev end; [|discriminate].
    intros H. inversion H. subst adj seeds bip.
    rewrite block_undirected_length.
    assert (L : length v = w_nrow m + w_ncol m).
    { destruct values; eapply stack_values_length; exact Ev. }
    split; [exact L|]. split; [apply block_undirected_nonneg|apply block_undirected_wf].
  - destruct (get_values (w_nrow m) values (-1)%Q) as [v|] eqn:Ev; [|discriminate].
    intros H. inversion H. subst adj seeds bip.
    apply orb_false_iff in B. destruct B as [_ B]. apply negb_false_iff in B. apply Nat.eqb_eq in B.
    split; [apply get_values_length in Ev; exact Ev|]. split; [auto|].
    unfold wf_wmat. fold (w_nrow m). rewrite B. auto.
Qed.

Definition all_in (lo hi : Q) (l : list Q) : Prop := Forall (fun x => (lo <= x <= hi)%Q) l.
Definition out_in (lo hi : Q) (o : fit_out) : Prop :=
  all_in lo hi (fst o) /\
  match snd o with None => True | Some (r, c) => all_in lo hi r /\ all_in lo hi c end.

Lemma stacked_split_vars bip nr v : stacked (split_vars bip nr v) = v.
Proof. unfold stacked, split_vars. destruct bip; simpl; [apply firstn_skipn|reflexivity]. Qed.

Lemma split_vars_bounds bip nr n lo hi v :
  vrange n lo hi v -> out_in lo hi (split_vars bip nr v) /\ length (stacked (split_vars bip nr v)) = n.
Proof.
  intros [L H]. rewrite stacked_split_vars. split; [|exact L].
  assert (A : all_in lo hi v).
  { apply Forall_forall. intros x Hx. destruct (In_nth _ _ 0%Q Hx) as [i [Hi E]]. subst x. apply H. lia. }
  unfold split_vars, out_in. destruct bip; simpl.
  - destruct (Forall_firstn_skipn _ nr v A). repeat split; assumption.
  - split; [exact A|exact I].
Qed.

Lemma diffusion_fit_bounds n_iter alpha m values vr vc init fb adj seeds bip out lo hi :
  nonneg_rows (w_rows m) -> (0 <= alpha <= 1)%Q ->
  get_adjacency_values m fb values vr vc = Ok (adj, seeds, bip) ->
  (forall x, In x seeds -> (0 <= x)%Q -> (lo <= x <= hi)%Q) ->
  (forall t, init = Some t -> (lo <= t <= hi)%Q) ->
  diffusion_fit n_iter alpha m values vr vc init fb = Ok out ->
  out_in lo hi out /\ length (stacked out) = length adj.
Proof.
  intros Hnn Ha G Hs Hi F. unfold diffusion_fit in F.
  destruct (Nat.eqb n_iter 0); [discriminate|]. rewrite G in F.
  destruct (init_temperatures seeds init) as [[temps border]|] eqn:IT; [|discriminate].
  inversion F. subst out. clear F.
  destruct (gav_spec _ _ _ _ _ _ _ _ G) as [L [Hn _]].
  pose proof (init_temperatures_range _ _ _ _ lo hi IT Hs Hi) as R. rewrite L in R.
  apply split_vars_bounds, diffusion_core_bounds; auto.
Qed.

Lemma dirichlet_fit_inv n_iter m values vr vc init fb adj seeds bip out :
  get_adjacency_values m fb values vr vc = Ok (adj, seeds, bip) ->
  dirichlet_fit n_iter m values vr vc init fb = Ok out ->
  exists temps, init_temperatures seeds init = Ok (temps, map is_seed seeds) /\
    out = split_vars bip (w_nrow m) (dirichlet_core n_iter adj (map is_seed seeds) temps).
Proof.
  intros G F. unfold dirichlet_fit in F. destruct (Nat.eqb n_iter 0); [discriminate|]. rewrite G in F.
  destruct (init_temperatures seeds init) as [[temps border]|] eqn:IT; [|discriminate].
  destruct (init_temperatures_spec _ _ _ _ IT) as [_ [-> _]].
  inversion F. exists temps. split; reflexivity.
Qed.

Lemma dirichlet_fit_bounds n_iter m values vr vc init fb adj seeds bip out lo hi :
  wf_wmat m ->
  get_adjacency_values m fb values vr vc = Ok (adj, seeds, bip) ->
  no_free_sink adj (map is_seed seeds) ->
  (forall x, In x seeds -> (0 <= x)%Q -> (lo <= x <= hi)%Q) ->
  (forall t, init = Some t -> (lo <= t <= hi)%Q) ->
  dirichlet_fit n_iter m values vr vc init fb = Ok out ->
  out_in lo hi out /\ length (stacked out) = length adj.
Proof.
  intros W G NS Hs Hi F. destruct (dirichlet_fit_inv _ _ _ _ _ _ _ _ _ _ _ G F) as [temps [IT ->]].
  destruct (gav_spec _ _ _ _ _ _ _ _ G) as [L [_ Hw]].
  pose proof (init_temperatures_range _ _ _ _ lo hi IT Hs Hi) as R. rewrite L in R.
  apply split_vars_bounds, dirichlet_core_bounds; auto.
Qed.

(** Without the hypothesis on sinks the Dirichlet bound fails (the row of a sink is null, so its
    value drops to 0): the hypothesis of the property ("every node has an outgoing edge") is needed. *)
Lemma dirichlet_bounds_needs_no_sink :
  exists m values out,
    wf_wmat m /\
    dirichlet_fit 1 m (Some values) None None None false = Ok out /\
    ~ out_in 2 2 out.
Proof.
  exists {| w_ncol := 2; w_rows := [[(1, 1%Q)]; []] |}, (SList [2; -1]%Q), ([2; 0]%Q, None).
  split; [|split].
  - intros r e [Hr|[Hr|[]]] He; subst r; simpl in He; try contradiction.
    destruct He as [He|[]]. subst e. simpl. split; [lia|lra].
  - vm_compute. reflexivity.
  - intros [H _]. simpl in H. inversion H as [|x l _ H2]. inversion H2 as [|y l2 [Hy _] _]. lra.
Qed.

Lemma qmin_list_le l d : (qmin_list l d <= d)%Q /\ forall x, In x l -> (qmin_list l d <= x)%Q.
Proof.
  induction l as [|a t [IH1 IH2]]; simpl; [split; [lra|intros x []]|].
  destruct (Qle_bool a (qmin_list t d)) eqn:E.
  - apply Qle_bool_iff in E. split; [lra|]. intros x [Hx|Hx]; [subst; lra|]. specialize (IH2 x Hx). lra.
  - apply Qle_bool_false in E. split; [exact IH1|]. intros x [Hx|Hx]; [subst; lra|auto].
Qed.

Lemma qmax_list_ge l d : (d <= qmax_list l d)%Q /\ forall x, In x l -> (x <= qmax_list l d)%Q.
Proof.
  induction l as [|a t [IH1 IH2]]; simpl; [split; [lra|intros x []]|].
  destruct (Qle_bool (qmax_list t d) a) eqn:E.
  - apply Qle_bool_iff in E. split; [lra|]. intros x [Hx|Hx]; [subst; lra|]. specialize (IH2 x Hx). lra.
  - apply Qle_bool_false in E. split; [exact IH1|]. intros x [Hx|Hx]; [subst; lra|auto].
Qed.

Lemma seed_min_max_bound seeds x :
  In x seeds -> (0 <= x)%Q -> (seed_min seeds <= x <= seed_max seeds)%Q.
Proof.
  intros Hin Hx. unfold seed_min, seed_max.
  assert (F : In x (filter is_seed seeds)) by (apply filter_In; split; [exact Hin|apply is_seed_iff; exact Hx]).
  destruct (filter is_seed seeds) as [|a t]; [contradiction|].
  destruct (qmin_list_le t a) as [A1 A2]. destruct (qmax_list_ge t a) as [B1 B2].
  destruct F as [F|F]; [subst; lra|]. specialize (A2 x F). specialize (B2 x F). lra.
Qed.

(** The dict [d] lists the same seeds as the vector [v]: every non-negative entry of [v] is in [d]
    under its index, and [d] has nothing non-negative elsewhere. *)
Definition dict_represents (n : nat) (d : list (nat * Q)) (v : list Q) : Prop :=
  d <> [] /\ (forall e, In e d -> fst e < n) /\
  forall i, i < n ->
    ((0 <= nthq v i)%Q -> dict_get d i = Some (nthq v i)) /\
    ((nthq v i < 0)%Q -> match dict_get d i with None => True | Some x => (x < 0)%Q end).

Definition same_seed (x y : Q) : Prop := is_seed x = is_seed y /\ (is_seed y = true -> x = y).

Lemma Forall2_by_nth {A} (R : A -> A -> Prop) (d : A) l1 l2 :
  length l1 = length l2 -> (forall i, i < length l1 -> R (nth i l1 d) (nth i l2 d)) -> Forall2 R l1 l2.
Proof.
  revert l2; induction l1 as [|a t IH]; intros [|b t2] L H; simpl in L; try lia; constructor.
  - apply (H 0). simpl. lia.
  - apply IH; [lia|]. intros i Hi. apply (H (S i)). simpl. lia.
Qed.

Lemma same_seed_init l1 l2 init :
  Forall2 same_seed l1 l2 -> init_temperatures l1 init = init_temperatures l2 init.
Proof.
  intros F.
  assert (E : map is_seed l1 = map is_seed l2 /\ filter is_seed l1 = filter is_seed l2 /\
              forall t, map (fun x => if is_seed x then x else t) l1 = map (fun x => if is_seed x then x else t) l2).
  { induction F as [|x y t1 t2 [H1 H2] _ (IH1 & IH2 & IH3)]; simpl; [auto|].
    rewrite H1, IH1, IH2. split; [reflexivity|].
    destruct (is_seed y); [rewrite (H2 eq_refl)|]; (split; [reflexivity|]); intros t; rewrite IH3; reflexivity. }
  destruct E as (E1 & E2 & E3). unfold init_temperatures. rewrite E1, E2. destruct init as [t|].
  - rewrite E3. reflexivity.
  - destruct (filter is_seed l2); [reflexivity|]. rewrite E3. reflexivity.
Qed.

Lemma seeds_honoured_lemma n v d init :
  length v = n -> dict_represents n d v ->
  exists dv,
    get_values n (Some (SArray v)) (-1)%Q = Ok v /\
    get_values n (Some (SList v)) (-1)%Q = Ok v /\
    get_values n (Some (SDict d)) (-1)%Q = Ok dv /\
    init_temperatures dv init = init_temperatures v init /\
    forall temps border i,
      init_temperatures v init = Ok (temps, border) -> i < n -> (0 <= nthq v i)%Q ->
      nthb border i = true /\ nthq temps i = nthq v i.
Proof.
  intros <- [Hne [Hk Hd]].
  exists (map (fun i => match dict_get d i with Some x => x | None => (-1)%Q end) (seq 0 (length v))).
  split; [unfold get_values; rewrite Nat.eqb_refl; reflexivity|].
  split; [unfold get_values; rewrite Nat.eqb_refl; reflexivity|].
  split.
  { unfold get_values. destruct d as [|e t]; [congruence|].
    assert (F : forallb (fun e => fst e <? length v) (e :: t) = true).
    { apply forallb_forall. intros x Hx. apply Nat.ltb_lt. apply Hk. exact Hx. }
    rewrite F. reflexivity. }
  split.
  { apply same_seed_init. apply (Forall2_by_nth same_seed 0%Q).
    - rewrite map_length, seq_length. lia.
    - rewrite map_length, seq_length. intros i Hi.
      rewrite (nth_map_seq (fun i => match dict_get d i with Some x => x | None => (-1)%Q end) _ i 0%Q Hi).
      destruct (Hd i Hi) as [H1 H2]. fold (nthq v i).
      destruct (Qlt_le_dec (nthq v i) 0) as [Neg|Pos].
      + specialize (H2 Neg). assert (S2 : is_seed (nthq v i) = false) by (apply is_seed_false; exact Neg).
        split; [|rewrite S2; discriminate]. rewrite S2. apply is_seed_false.
        destruct (dict_get d i) as [x|]; [exact H2|lra].
      + rewrite (H1 Pos). split; reflexivity. }
  intros temps border i IT Hi Hs.
  destruct (init_temperatures_nth _ _ _ _ i IT Hi) as [_ [_ [Eb Et]]].
  apply is_seed_iff in Hs. split; [rewrite Eb; exact Hs|apply Et; exact Hs].
Qed.

Lemma sumq_ge_term {A} (f : A -> Q) l e :
  (forall x, In x l -> (0 <= f x)%Q) -> In e l -> (f e <= sumq (map f l))%Q.
Proof.
  induction l as [|a t IH]; intros Hn He; [contradiction|]. simpl.
  assert (Ha : (0 <= f a)%Q) by (apply Hn; left; reflexivity).
  assert (Ht : (0 <= sumq (map f t))%Q).
  { apply sumq_nonneg. intros x Hx. apply in_map_iff in Hx. destruct Hx as [y [Hy Hin]]. subst x.
    apply Hn. right. exact Hin. }
  destruct He as [He|He]; [subst; lra|].
  assert (IH' := IH (fun x Hx => Hn x (or_intror Hx)) He). lra.
Qed.

Lemma row_norm_pos_of_entry r j w :
  (forall e, In e r -> (0 <= snd e)%Q) -> In (j, w) r -> (0 < w)%Q -> (0 < row_norm r)%Q.
Proof.
  intros Hn Hin Hw. rewrite (row_norm_nonneg r Hn).
  pose proof (sumq_ge_term snd r (j, w) Hn Hin) as G. simpl in G. lra.
Qed.

Lemma normalize_row_entry r j w :
  ~ (row_norm r == 0)%Q -> In (j, w) r -> In (j, (w / row_norm r)%Q) (normalize_row r).
Proof.
  intros Hn Hin. unfold normalize_row. destruct (Qeq_bool (row_norm r) 0) eqn:E.
  - apply Qeq_bool_eq in E. contradiction.
  - apply in_map_iff. exists (j, w). split; [reflexivity|exact Hin].
Qed.

Lemma edge_transition adj i j w :
  wf_rows (length adj) adj -> In (j, w) (wrow_of adj i) -> (0 < w)%Q ->
  j < length adj /\ (0 < row_norm (wrow_of adj i))%Q /\
  stochastic_row (length adj) (normalize_row (wrow_of adj i)) /\
  In (j, (w / row_norm (wrow_of adj i))%Q) (normalize_row (wrow_of adj i)).
Proof.
  intros W Hin Hw.
  assert (Hnorm : (0 < row_norm (wrow_of adj i))%Q).
  { apply (row_norm_pos_of_entry _ j w); [|exact Hin|exact Hw]. intros e He. eapply wf_rows_wrow_of; eassumption. }
  split; [exact (proj1 (wf_rows_wrow_of _ adj i (j, w) W Hin))|]. split; [exact Hnorm|].
  split; [apply normalized_stochastic; assumption | apply normalize_row_entry; [lra|exact Hin]].
Qed.

Lemma dot_row_sub r f g :
  (dot_row r f - dot_row r g == sumq (map (fun e => snd e * (nthq f (fst e) - nthq g (fst e))) r))%Q.
Proof.
  unfold dot_row. rewrite <- sumq_sub. apply sumq_ext. intros e _. lra.
Qed.

(** A convex combination in which one term of weight >= dl is at most c <= d stays below d - dl (d - c). *)
Lemma convex_small_term n r (U : nat -> Q) (d c dl : Q) e0 :
  stochastic_row n r ->
  (forall e, In e r -> (U (fst e) <= d)%Q) ->
  In e0 r -> (0 <= dl <= snd e0)%Q -> (U (fst e0) <= c)%Q -> (c <= d)%Q ->
  (sumq (map (fun e => snd e * U (fst e)) r) <= d - dl * (d - c))%Q.
Proof.
  intros [Hr Hs] Hle He0 Hdl Hc Hcd.
  assert (Z : (sumq (map (fun e => snd e * (d - U (fst e))) r) == d - sumq (map (fun e => snd e * U (fst e)) r))%Q).
  { rewrite (sumq_ext (fun e => snd e * (d - U (fst e))) (fun e => d * snd e - snd e * U (fst e)) r)%Q
      by (intros x _; lra).
    rewrite (sumq_sub (fun e => d * snd e) (fun e => snd e * U (fst e)) r)%Q.
    rewrite (sumq_scale snd d r). rewrite Hs. lra. }
  assert (G : (snd e0 * (d - U (fst e0)) <= sumq (map (fun e => snd e * (d - U (fst e))) r))%Q).
  { apply (sumq_ge_term (fun e => snd e * (d - U (fst e)))%Q r e0); [|exact He0].
    intros x Hx. destruct (Hr x Hx) as [_ Hw]. specialize (Hle x Hx). nra. }
  assert (T : (dl * (d - c) <= snd e0 * (d - U (fst e0)))%Q) by nra.
  lra.
Qed.

Lemma convex_small_abs n r (U : nat -> Q) (d c dl : Q) e0 :
  stochastic_row n r ->
  (forall e, In e r -> (Qabs (U (fst e)) <= d)%Q) ->
  In e0 r -> (0 <= dl <= snd e0)%Q -> (Qabs (U (fst e0)) <= c)%Q -> (c <= d)%Q ->
  (Qabs (sumq (map (fun e => snd e * U (fst e)) r)) <= d - dl * (d - c))%Q.
Proof.
  intros St Hle He0 Hdl Hc Hcd. apply Qabs_Qle_condition in Hc.
  assert (Hle' : forall e, In e r -> (- d <= U (fst e) <= d)%Q)
    by (intros e He; apply Qabs_Qle_condition, Hle, He).
  apply Qabs_Qle_condition. split.
  - pose proof (convex_small_term n r (fun x => - U x)%Q d c dl e0 St) as CS. cbv beta in CS.
    rewrite (sumq_ext (fun e => snd e * - U (fst e))%Q (fun e => -(1) * (snd e * U (fst e)))%Q) in CS
      by (intros x _; lra).
    rewrite sumq_scale in CS.
    assert (CS' := CS (fun e He => ltac:(specialize (Hle' e He); lra)) He0 Hdl ltac:(lra) Hcd). lra.
  - apply (convex_small_term n r U d c dl e0 St); auto; [|lra]. intros e He. apply Hle'. exact He.
Qed.

Definition reaches_border (adj : list wrow) (border : list bool) : Prop :=
  forall i, i < length adj -> exists b, b < length adj /\ nthb border b = true /\ path adj i b.

Lemma connected_reaches adj border :
  connected adj -> (exists s, s < length adj /\ nthb border s = true) -> reaches_border adj border.
Proof.
  intros C [s [Hs Bs]] i Hi. exists s. split; [exact Hs|]. split; [exact Bs|]. apply C; assumption.
Qed.

(** The error against a harmonic function evolves linearly: null on the boundary, averaged elsewhere. *)
Lemma dirichlet_step_err adj border temps h v i :
  harmonic adj border temps h -> i < length adj ->
  (nthq (dirichlet_step (normalize adj) border temps v) i - nthq h i ==
   if nthb border i then 0
   else sumq (map (fun e => snd e * (nthq v (fst e) - nthq h (fst e))) (normalize_row (wrow_of adj i))))%Q.
Proof.
  intros [_ Hh] Hi. rewrite nth_dirichlet_step by (rewrite normalize_length; exact Hi).
  specialize (Hh i Hi). destruct (nthb border i).
  - rewrite Hh. ring.
  - rewrite Qred_correct, Hh, wrow_of_normalize. apply dot_row_sub.
Qed.

Lemma dirichlet_step_nonexpansive adj border temps h v d :
  wf_rows (length adj) adj -> no_free_sink adj border ->
  harmonic adj border temps h ->
  dist_le (length adj) v h d ->
  dist_le (length adj) (dirichlet_step (normalize adj) border temps v) h d.
Proof.
  intros W NS Hh Hd i Hi. rewrite (dirichlet_step_err adj border temps h v i Hh Hi).
  destruct (nthb border i) eqn:B.
  - pose proof (Hd i Hi). pose proof (Qabs_nonneg (nthq v i - nthq h i)). change (Qabs 0) with 0%Q. lra.
  - pose proof (normalized_stochastic adj i W (NS i Hi B)) as St.
    apply Qabs_Qle_condition.
    apply (row_convex_bounds (length adj) _ (fun x => nthq v x - nthq h x)%Q); [exact St|].
    intros e He. apply Qabs_Qle_condition, Hd, (proj1 St e He).
Qed.

Fixpoint qpow (x : Q) (m : nat) : Q := match m with O => 1%Q | S m' => (x * qpow x m')%Q end.

Lemma qpow_range x m : (0 <= x <= 1)%Q -> (0 <= qpow x m <= 1)%Q.
Proof. intros H. induction m as [|m IH]; simpl; [lra|nra]. Qed.

Lemma qpow_pos x m : (0 < x)%Q -> (0 < qpow x m)%Q.
Proof. intros H. induction m as [|m IH]; simpl; [lra|nra]. Qed.

(** [near L i]: node i is within L hops (along edges of positive weight) of the boundary. *)
Fixpoint near (adj : list wrow) (border : list bool) (L : nat) (i : nat) : Prop :=
  match L with
  | O => nthb border i = true
  | S L' => near adj border L' i \/ exists j, edge adj i j /\ near adj border L' j
  end.

Lemma near_le adj border L L' i : L <= L' -> near adj border L i -> near adj border L' i.
Proof. intros H N. induction H as [|L' H IH]; [exact N|]. left. exact IH. Qed.

Lemma path_near adj border i b :
  path adj i b -> nthb border b = true -> exists L, near adj border L i.
Proof.
  intros P Hb. induction P as [i|i j k E P IH].
  - exists 0. exact Hb.
  - destruct (IH Hb) as [L HL]. exists (S L). right. exists j. split; assumption.
Qed.

Lemma all_near adj border :
  reaches_border adj border -> exists L, forall i, i < length adj -> near adj border L i.
Proof.
  intros RB.
  assert (H : forall m, m <= length adj -> exists L, forall i, i < m -> near adj border L i).
  { induction m as [|m IH]; intros Hm.
    - exists 0. intros i Hi. lia.
    - destruct IH as [L HL]; [lia|].
      destruct (RB m ltac:(lia)) as [b [_ [Bb P]]].
      destruct (path_near adj border m b P Bb) as [L2 HL2].
      exists (Nat.max L L2). intros i Hi.
      destruct (Nat.eq_dec i m) as [E|E].
      + subst i. apply (near_le adj border L2); [lia|exact HL2].
      + apply (near_le adj border L); [lia|]. apply HL. lia. }
  apply (H (length adj)). lia.
Qed.

Lemma reaches_no_free_sink adj border :
  wf_rows (length adj) adj -> reaches_border adj border -> no_free_sink adj border.
Proof.
  intros W RB i Hi B. destruct (RB i Hi) as [b [_ [Bb P]]].
  destruct P as [i|i j k [w [Hin Hw]] P]; [congruence|].
  apply (edge_transition adj i j w W Hin Hw).
Qed.

Lemma list_pos_min (l : list Q) :
  exists dl, (0 < dl <= 1)%Q /\ forall x, In x l -> (0 < x)%Q -> (dl <= x)%Q.
Proof.
  induction l as [|a t [dl [Hd Hall]]].
  - exists 1%Q. split; [lra|]. intros x [].
  - destruct (Qlt_le_dec 0 a) as [Ha|Ha]; [destruct (Qlt_le_dec a dl) as [L|L]|].
    + exists a. split; [lra|]. intros x [Hx|Hx] Hp; [subst; lra|]. specialize (Hall x Hx Hp). lra.
    + exists dl. split; [exact Hd|]. intros x [Hx|Hx] Hp; [subst; exact L|auto].
    + exists dl. split; [exact Hd|]. intros x [Hx|Hx] Hp; [subst; lra|auto].
Qed.

Definition min_prob (adj : list wrow) (dl : Q) : Prop :=
  (0 < dl <= 1)%Q /\
  forall i j w, In (j, w) (wrow_of adj i) -> (0 < w)%Q -> (dl <= w / row_norm (wrow_of adj i))%Q.

Lemma min_prob_exists adj : wf_rows (length adj) adj -> exists dl, min_prob adj dl.
Proof.
  intros W. destruct (list_pos_min (flat_map (fun r => map snd (normalize_row r)) adj)) as [dl [Hd Hall]].
  exists dl. split; [exact Hd|]. intros i j w Hin Hw.
  destruct (edge_transition adj i j w W Hin Hw) as (_ & Hnorm & _ & He0).
  apply Hall; [|apply Qlt_shift_div_l; [exact Hnorm|lra]].
  apply in_flat_map. exists (wrow_of adj i). split; [eapply wrow_of_In; exact Hin|].
  apply in_map_iff. exists (j, (w / row_norm (wrow_of adj i))%Q). split; [reflexivity|exact He0].
Qed.

Section Contraction.
  Context (adj : list wrow) (border : list bool) (temps h : list Q) (dl : Q).
  Context (W : wf_rows (length adj) adj).
  Context (NS : no_free_sink adj border).
  Context (Hh : harmonic adj border temps h).
  Context (Hdl : min_prob adj dl).

  Let n := length adj.
  Let T := dirichlet_step (normalize adj) border temps.

  Definition err_bound (d : Q) (k : nat) (v : list Q) : Prop :=
    forall m i, m < k -> i < n -> near adj border m i ->
      (Qabs (nthq v i - nthq h i) <= (1 - qpow dl m) * d)%Q.

  Lemma step_err_bound d k v :
    dist_le n v h d -> err_bound d k v -> err_bound d (S k) (T v).
  Proof.
    intros Hd Hb m. destruct Hdl as [Hdl1 Hdl2].
    induction m as [|m IHm]; intros i Hm Hi Hnear.
    - unfold T. rewrite (dirichlet_step_err adj border temps h v i Hh Hi), (Hnear : nthb border i = true).
      change (Qabs 0) with 0%Q. cbn [qpow]. lra.
    - pose proof (Hd i Hi) as Hdi.
      assert (D0 : (0 <= d)%Q) by (pose proof (Qabs_nonneg (nthq v i - nthq h i)); lra).
      pose proof (qpow_range dl m ltac:(lra)) as Pm.
      assert (G0 : (0 <= qpow dl m * d <= d)%Q) by nra.
      assert (G1 : (dl * (qpow dl m * d) <= qpow dl m * d)%Q) by nra.
      destruct Hnear as [Hnear|[j [[w [Hin Hw]] Hnear]]].
      + assert (IH := IHm i ltac:(lia) Hi Hnear). cbn [qpow]. lra.
      + unfold T. rewrite (dirichlet_step_err adj border temps h v i Hh Hi).
        destruct (nthb border i); [change (Qabs 0) with 0%Q; cbn [qpow]; lra|].
        destruct (edge_transition adj i j w W Hin Hw) as (Hj & Hnorm & St & He0).
        assert (Hp : (dl <= w / row_norm (wrow_of adj i))%Q) by (apply (Hdl2 i j w); assumption).
        assert (Bj : (Qabs (nthq v j - nthq h j) <= (1 - qpow dl m) * d)%Q) by (apply Hb; [lia|exact Hj|exact Hnear]).
        assert (Hc : ((1 - qpow dl m) * d <= d)%Q) by lra.
        setoid_replace ((1 - qpow dl (S m)) * d)%Q with (d - dl * (d - (1 - qpow dl m) * d))%Q
          by (cbn [qpow]; ring).
        apply (convex_small_abs n _ (fun x => nthq v x - nthq h x)%Q _ _ _ (j, (w / row_norm (wrow_of adj i))%Q) St);
          auto; [|cbn [fst snd]; lra].
        intros e He. apply Hd. apply (proj1 St e He).
  Qed.

  Lemma iter_err_bound d k v :
    dist_le n v h d -> dist_le n (iterate k T v) h d /\ err_bound d k (iterate k T v).
  Proof.
    intros Hd. induction k as [|k [IH1 IH2]].
    - split; [exact Hd|]. intros m i Hm. lia.
    - rewrite iterate_S. split; [apply dirichlet_step_nonexpansive|apply step_err_bound]; assumption.
  Qed.

  Lemma iterate_add {A} (f : A -> A) a b x : iterate (a + b) f x = iterate b f (iterate a f x).
  Proof. revert x; induction a as [|a IH]; intros x; simpl; [reflexivity|apply IH]. Qed.

  Lemma dist_le_weaken u v d1 d2 : (d1 <= d2)%Q -> dist_le n u v d1 -> dist_le n u v d2.
  Proof. intros H D i Hi. specialize (D i Hi). lra. Qed.

  Context (L : nat).
  Context (HL : forall i, i < n -> near adj border L i).

  Lemma block_contracts d v :
    dist_le n v h d -> dist_le n (iterate (S L) T v) h ((1 - qpow dl L) * d).
  Proof.
    intros Hd. destruct (iter_err_bound d (S L) v Hd) as [_ E].
    intros i Hi. apply (E L i); [lia|exact Hi|apply HL; exact Hi].
  Qed.

  Lemma blocks_contract d v t :
    dist_le n v h d -> dist_le n (iterate (t * S L) T v) h (qpow (1 - qpow dl L) t * d).
  Proof.
    intros Hd. induction t as [|t IH].
    - simpl. apply (dist_le_weaken _ _ d); [lra|exact Hd].
    - replace (S t * S L) with (t * S L + S L) by lia. rewrite iterate_add.
      apply (dist_le_weaken _ _ ((1 - qpow dl L) * (qpow (1 - qpow dl L) t * d))%Q); [simpl; lra|].
      apply block_contracts. exact IH.
  Qed.

  Lemma after_blocks d v t k :
    dist_le n v h d -> t * S L <= k -> dist_le n (iterate k T v) h (qpow (1 - qpow dl L) t * d).
  Proof.
    intros Hd Hk. replace k with (t * S L + (k - t * S L)) by lia. rewrite iterate_add.
    apply (iterate_inv (fun x => dist_le n x h (qpow (1 - qpow dl L) t * d))).
    - intros x Hx. apply dirichlet_step_nonexpansive; assumption.
    - apply blocks_contract. exact Hd.
  Qed.
End Contraction.

Lemma bernoulli s t : (0 < s <= 1)%Q -> (qpow (1 - s) t * (1 + inject_Z (Z.of_nat t) * s) <= 1)%Q.
Proof.
  intros Hs. induction t as [|t IH].
  - simpl. unfold inject_Z. lra.
  - rewrite inject_nat_S. cbn [qpow].
    pose proof (qpow_range (1 - s) t ltac:(lra)) as P.
    assert (T0 : (0 <= inject_Z (Z.of_nat t))%Q) by (change 0%Q with (inject_Z 0); rewrite <- Zle_Qle; lia).
    set (T := inject_Z (Z.of_nat t)) in *. set (p := qpow (1 - s) t) in *.
    assert (E : ((1 - s) * p * (1 + (T + 1) * s) == p * (1 + T * s) - p * s * s * (T + 1))%Q) by ring.
    rewrite E. assert ((0 <= p * s * s * (T + 1))%Q) by (repeat apply Qmult_le_0_compat; lra). lra.
Qed.

Lemma archimedes (q : Q) : exists t : nat, (q <= inject_Z (Z.of_nat t))%Q.
Proof.
  exists (Z.to_nat (Qceiling q)).
  apply Qle_trans with (inject_Z (Qceiling q)); [apply Qle_ceiling|].
  rewrite <- Zle_Qle. lia.
Qed.

Lemma dist_exists n u v : exists d, (0 <= d)%Q /\ dist_le n u v d.
Proof.
  exists (sumq (map (fun i => Qabs (nthq u i - nthq v i)) (seq 0 n))). split.
  - apply sumq_nonneg. intros x Hx. apply in_map_iff in Hx. destruct Hx as [i [<- _]]. apply Qabs_nonneg.
  - intros i Hi. apply (sumq_ge_term (fun i => Qabs (nthq u i - nthq v i)) (seq 0 n) i).
    + intros x _. apply Qabs_nonneg.
    + apply in_seq. lia.
Qed.

Lemma dirichlet_converges_lemma adj border temps h :
  wf_rows (length adj) adj -> reaches_border adj border ->
  harmonic adj border temps h ->
  forall eps, (0 < eps)%Q -> exists N, forall k, N <= k ->
    dist_le (length adj) (dirichlet_core k adj border temps) h eps.
Proof.
  intros W RB Hh eps Heps.
  pose proof (reaches_no_free_sink adj border W RB) as NS.
  destruct (min_prob_exists adj W) as [dl Hdl].
  destruct (all_near adj border RB) as [L HL].
  destruct (dist_exists (length adj) temps h) as [d [D0 Hd]].
  set (s := qpow dl L).
  assert (Hs : (0 < s <= 1)%Q).
  { destruct Hdl as [Hdl1 _]. split; [apply qpow_pos; lra|apply qpow_range; lra]. }
  destruct (archimedes (d / (eps * s))) as [t Ht].
  exists (t * S L). intros k Hk.
  pose proof (after_blocks adj border temps h dl W NS Hh Hdl L HL d temps t k Hd Hk) as A.
  fold s in A. unfold dirichlet_core.
  apply (dist_le_weaken adj (iterate k (dirichlet_step (normalize adj) border temps) temps) h
                        (qpow (1 - s) t * d)%Q eps); [|exact A].
  pose proof (bernoulli s t Hs) as Bn.
  pose proof (qpow_range (1 - s) t ltac:(lra)) as P.
  set (T := inject_Z (Z.of_nat t)) in *. set (p := qpow (1 - s) t) in *.
  assert (Hes : (0 < eps * s)%Q) by nra.
  assert (Hd2 : (d <= T * (eps * s))%Q).
  { assert (E : (d == d / (eps * s) * (eps * s))%Q) by (field; lra). rewrite E.
    apply Qmult_le_compat_r; [exact Ht|lra]. }
  assert (H1 : (p * d <= p * (T * (eps * s)))%Q) by nra.
  assert (H2 : (p * (T * (eps * s)) <= eps * (p * (1 + T * s)))%Q) by nra.
  assert (H3 : (eps * (p * (1 + T * s)) <= eps)%Q) by nra.
  lra.
Qed.

(** A harmonic function is the limit of the Dirichlet iteration, so there is only one. *)
Lemma harmonic_unique_reach adj border temps f g :
  wf_rows (length adj) adj -> reaches_border adj border ->
  harmonic adj border temps f -> harmonic adj border temps g ->
  forall i, i < length adj -> (nthq f i == nthq g i)%Q.
Proof.
  intros W RB Hf Hg i Hi.
  assert (Hle : forall f g, harmonic adj border temps f -> harmonic adj border temps g ->
                  (nthq f i <= nthq g i)%Q).
  { clear f g Hf Hg. intros f g Hf Hg.
    destruct (Qlt_le_dec (nthq g i) (nthq f i)) as [L|L]; [exfalso|exact L].
    assert (Heps : (0 < (nthq f i - nthq g i) / 3)%Q) by (apply Qlt_shift_div_l; lra).
    destruct (dirichlet_converges_lemma adj border temps f W RB Hf _ Heps) as [N1 H1].
    destruct (dirichlet_converges_lemma adj border temps g W RB Hg _ Heps) as [N2 H2].
    specialize (H1 (Nat.max N1 N2) ltac:(lia) i Hi). specialize (H2 (Nat.max N1 N2) ltac:(lia) i Hi).
    apply Qabs_Qle_condition in H1, H2.
    assert (E : (nthq f i - nthq g i == 3 * ((nthq f i - nthq g i) / 3))%Q) by (field; lra).
    lra. }
  pose proof (Hle f g Hf Hg). pose proof (Hle g f Hg Hf). lra.
Qed.

Lemma path_trans adj i j k : path adj i j -> path adj j k -> path adj i k.
Proof.
  intros P Q. induction P as [i|i a j E P IH]; [exact Q|].
  apply (path_step adj i a k E). apply IH. exact Q.
Qed.
