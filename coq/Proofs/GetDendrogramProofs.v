(** Property C07: [get_dendrogram] (sknetwork/hierarchy/postprocess.py) turns a well-formed tree into a valid
    dendrogram whose heights never decrease from a child merge to its parent merge; the height shift of
    LouvainHierarchy.fit / LouvainIteration.fit keeps validity ([get_dendrogram_valid], [shift_heights_valid]).
    The counterexample for the [legacy] variant of the model is [get_dendrogram_legacy_refuted] in Props/C07.v.

    Route: the rows are produced in creation order, so the proof carries the dendrogram built so far ([D]) and
    shows that every row appended is "good" with respect to the rows before it ([row_good]: children are older
    ids, the size column adds up, the child merges are not higher).  These facts only look backwards, hence are
    stable when further rows are appended.  Each call also reports which ids it consumed as children: a
    permutation of the leaves of the sub-tree and of the ids it created, except the root label.  At top level
    this gives the static characterisation [wf_dend] of Proofs/HierarchyBase.v, hence [valid]. *)
From Coq Require Import Permutation Lia QArith Lqa.
From SKN Require Import Base.Util Model.Dendrogram Model.Cuts Model.Hierarchy Proofs.DendroBase Proofs.HierarchyBase.

(** a well-formed tree over the leaves 0..n-1: every list has >= 2 elements, each leaf exactly once, not a bare leaf *)
Definition tree_ok (n : nat) (t : ptree) : Prop :=
  tree_shape t = true /\ Permutation (tleaves t) (seq 0 n) /\ (exists ts, t = PNode ts).

Lemma ptree_ind2 (P : ptree -> Prop) :
  (forall i, P (PLeaf i)) -> (forall ts, Forall P ts -> P (PNode ts)) -> forall t, P t.
Proof.
  intros Hleaf Hnode. fix IH 1. intros [i|ts].
  - apply Hleaf.
  - apply Hnode. induction ts as [|c cs IHcs]; constructor; [apply IH | exact IHcs].
Qed.

Definition cnt (l : list nat) (x : nat) : nat := count_occ Nat.eq_dec l x.

Lemma perm_cnt l1 l2 : Permutation l1 l2 <-> (forall x, cnt l1 x = cnt l2 x).
Proof. apply Permutation_count_occ. Qed.

Lemma cnt_app l1 l2 x : cnt (l1 ++ l2) x = cnt l1 x + cnt l2 x.
Proof. apply count_occ_app. Qed.

Lemma cnt_cons a l x : cnt (a :: l) x = cnt [a] x + cnt l x.
Proof. unfold cnt. simpl. destruct (Nat.eq_dec a x); lia. Qed.

Lemma cnt_nil x : cnt [] x = 0.
Proof. reflexivity. Qed.

Lemma cnt_rev l x : cnt (rev l) x = cnt l x.
Proof. apply count_occ_rev. Qed.

Ltac splits := repeat match goal with |- _ /\ _ => split end.

(** * gd on a node is gd_list on the children followed by "merge all" *)
Lemma gd_node legacy ts depth st :
  gd legacy (PNode ts) depth st =
  match gd_list legacy ts (S depth) st with
  | Err e => Err e
  | Ok (rows, labels, (index, sz)) =>
      match merge_all legacy (inject_Z (- Z.of_nat depth)) labels sz index with
      | Some (rows', index', sz') => Ok (rows ++ rows', index', (index', sz'))
      | None => Err ValueError
      end
  end.
Proof.
  cbn [gd].
  match goal with |- match ?g ts st with _ => _ end = _ =>
    assert (E : forall l s, g l s = gd_list legacy l (S depth) s) end.
  { induction l as [|c cs IHl]; intros s; [reflexivity|].
    cbn [gd_list]. destruct (gd legacy c (S depth) s) as [[[r1 l1] st1]|e]; [|reflexivity].
    rewrite IHl. reflexivity. }
  rewrite E. reflexivity.
Qed.

(** * Rows that are good with respect to the rows before them *)
Section Rows.
Context (n : nat).

Definition row_good (D : dendrogram) (t : nat) (r : drow) : Prop :=
  r_left r < n + t /\ r_right r < n + t /\
  r_size r = csize n D (r_left r) + csize n D (r_right r) /\
  child_height_ok n D (r_height r) (r_left r) = true /\
  child_height_ok n D (r_height r) (r_right r) = true.

Definition all_good (D : dendrogram) : Prop :=
  forall t r, nth_error D t = Some r -> row_good D t r.

Lemma cho_mono D h h' c : (h <= h')%Q -> child_height_ok n D h c = true -> child_height_ok n D h' c = true.
Proof.
  intros Hh. unfold child_height_ok. destruct (Nat.ltb c n); [trivial|].
  destruct (nth_error D (c - n)) as [r|]; [|trivial].
  rewrite !Qle_bool_iff. intros H. lra.
Qed.

Lemma row_good_app D1 D2 t r : t <= length D1 -> row_good D1 t r -> row_good (D1 ++ D2) t r.
Proof.
  intros Ht (Hl & Hr & Hs & Hhl & Hhr). unfold row_good.
  rewrite !csize_app, !cho_app by lia. repeat split; assumption.
Qed.

(** A child candidate [c] for a new row at height [h]: an existing id, of size [s], whose merge is not higher. *)
Definition cl_ok (D : dendrogram) (h : Q) (c s : nat) : Prop :=
  c < n + length D /\ csize n D c = s /\ child_height_ok n D h c = true.

Lemma cl_ok_app D1 D2 h c s : cl_ok D1 h c s -> cl_ok (D1 ++ D2) h c s.
Proof.
  intros (H1 & H2 & H3). unfold cl_ok. rewrite app_length, csize_app, cho_app by lia.
  repeat split; [lia | assumption | assumption].
Qed.

Lemma cl_ok_mono D h h' c s : (h <= h')%Q -> cl_ok D h c s -> cl_ok D h' c s.
Proof. intros Hh (H1 & H2 & H3). repeat split; try assumption. now apply (cho_mono D h h'). Qed.

Lemma all_good_snoc D r : all_good D -> row_good D (length D) r -> all_good (D ++ [r]).
Proof.
  intros Hg Hr t r' Ht. apply nth_error_snoc in Ht. destruct Ht as [[Hlt Ht]|[-> ->]].
  - apply row_good_app; [lia | now apply Hg].
  - apply row_good_app; [lia | assumption].
Qed.

(** The id created by the last row of [D ++ [r]]. *)
Lemma cl_ok_last D r : cl_ok (D ++ [r]) (r_height r) (n + length D) (r_size r).
Proof.
  assert (Hn : nth_error (D ++ [r]) (length D) = Some r) by apply nth_error_app_length.
  unfold cl_ok. rewrite last_length. split; [lia|]. split.
  - now apply csize_node.
  - unfold child_height_ok. rewrite ltb_add_r, add_sub_l, Hn. apply Qle_bool_iff. lra.
Qed.

Lemma all_good_merge D h i j si sj : all_good D -> cl_ok D h i si -> cl_ok D h j sj ->
  all_good (D ++ [(i, j, h, si + sj)]) /\ cl_ok (D ++ [(i, j, h, si + sj)]) h (n + length D) (si + sj).
Proof.
  intros Hg (Hi1 & Hi2 & Hi3) (Hj1 & Hj2 & Hj3). split; [|exact (cl_ok_last D (i, j, h, si + sj))].
  apply all_good_snoc; [exact Hg|]. unfold row_good, r_left, r_right, r_size, r_height. cbn [fst snd].
  rewrite Hi2, Hj2. repeat split; assumption.
Qed.

(** * The "merge all" branch *)
Definition lab_ok (D : dendrogram) (sz : sizes) (h : Q) (l : nat) : Prop :=
  cl_ok D h l (size_get sz l).

Lemma lab_ok_app D1 D2 sz h ls : Forall (lab_ok D1 sz h) ls -> Forall (lab_ok (D1 ++ D2) sz h) ls.
Proof. apply Forall_impl. intros a. apply cl_ok_app. Qed.

(** The chain of "merge all" after its first row (i, j): each further label is merged with the id just created. *)
Lemma merge_rest_spec h sz : forall ks D index i j si sj,
  index + 1 = n + length D -> all_good D -> cl_ok D h i si -> cl_ok D h j sj ->
  Forall (lab_ok D sz h) ks ->
  exists R idx sf, merge_rest false h ks sz (S index) (si + sj) = (R, idx, sf) /\
    idx + 1 = n + length (D ++ (i, j, h, si + sj) :: R) /\ all_good (D ++ (i, j, h, si + sj) :: R) /\
    cl_ok (D ++ (i, j, h, si + sj) :: R) h idx sf /\
    Permutation (i :: j :: flat_map children R ++ [idx]) (i :: j :: ks ++ seq (S index) (S (length R))).
Proof.
  induction ks as [|k ks IH]; intros D index i j si sj Hidx Hg Hi Hj Hks;
    destruct (all_good_merge D h i j _ _ Hg Hi Hj) as [Hg1 Hcl1];
    replace (n + length D) with (S index) in Hcl1 by lia.
  - exists [], (S index), (si + sj). splits; try assumption; [reflexivity | rewrite last_length; lia | reflexivity].
  - inversion Hks as [|? ? Hk Hks']; subst.
    destruct (IH (D ++ [(i, j, h, si + sj) : drow]) (S index) (S index) k (si + sj) (size_get sz k))
      as (R & idx & sf & E & Hi' & Hg' & Hcl' & Hp); try assumption.
    { rewrite last_length. lia. }
    { now apply cl_ok_app. }
    { now apply lab_ok_app. }
    rewrite <- app_assoc in Hi', Hg', Hcl'.
    exists ((S index, k, h, si + sj + size_get sz k) :: R), idx, sf. cbn [merge_rest]. rewrite E.
    splits; try assumption; [reflexivity|].
    do 2 apply perm_skip. cbn [flat_map app children r_left r_right fst snd]. rewrite Hp.
    exact (Permutation_middle (k :: ks) _ (S index)).
Qed.

Lemma size_get_cons k v sz x : size_get ((k, v) :: sz) x = if Nat.eqb x k then v else size_get sz x.
Proof. unfold size_get. simpl. destruct (Nat.eqb x k); reflexivity. Qed.

Lemma merge_all_spec h sz labels D index :
  index + 1 = n + length D -> all_good D -> 2 <= length labels -> Forall (lab_ok D sz h) labels ->
  exists R idx sf, merge_all false h labels sz index = Some (R, idx, (idx, sf) :: sz) /\
    idx + 1 = n + length (D ++ R) /\ length D < length (D ++ R) /\ all_good (D ++ R) /\
    cl_ok (D ++ R) h idx sf /\
    Permutation (flat_map children R ++ [idx]) (labels ++ seq (n + length D) (length R)).
Proof.
  intros Hidx Hg Hlen Hl. unfold merge_all.
  assert (Hrl := rev_length labels).
  assert (Hrf := Forall_rev Hl).
  assert (Hrp := Permutation_rev labels).
  destruct (rev labels) as [|i [|j rest]]; simpl in Hrl; try lia.
  inversion Hrf as [|? ? Hi Hrf1]; subst. inversion Hrf1 as [|? ? Hj Hrest]; subst.
  destruct (merge_rest_spec h sz rest D index i j _ _ Hidx Hg Hi Hj Hrest) as (R & idx & sf & E & Hi' & Hg' & Hcl' & Hp).
  exists ((i, j, h, size_get sz i + size_get sz j) :: R), idx, sf. rewrite E.
  splits; try assumption.
  - reflexivity.
  - rewrite !app_length. simpl. lia.
  - replace (n + length D) with (S index) by lia. rewrite Hrp. exact Hp.
Qed.

Definition st_ok (D : dendrogram) (index : nat) (sz : sizes) : Prop :=
  index + 1 = n + length D /\ all_good D /\ (forall k, k < n -> size_get sz k = 1).

Definition hd (depth : nat) : Q := inject_Z (- Z.of_nat depth).

Lemma hd_S depth : (hd (S depth) <= hd depth)%Q.
Proof. unfold hd. rewrite <- Zle_Qle. lia. Qed.

(** What one call [gd false t depth (index, sz)] does to the dendrogram built so far. *)
Definition gd_post (t : ptree) : Prop :=
  forall depth D index sz, st_ok D index sz ->
  exists R l index' sz',
    gd false t depth (index, sz) = Ok (R, l, (index', sz')) /\
    st_ok (D ++ R) index' sz' /\
    (forall k, k < n + length D -> size_get sz' k = size_get sz k) /\
    lab_ok (D ++ R) sz' (hd depth) l /\
    Permutation (flat_map children R ++ [l]) (tleaves t ++ seq (n + length D) (length R)).

Lemma gd_list_spec ts : Forall gd_post ts ->
  forall depth D index sz, st_ok D index sz ->
  exists R ls index' sz',
    gd_list false ts depth (index, sz) = Ok (R, ls, (index', sz')) /\
    st_ok (D ++ R) index' sz' /\
    (forall k, k < n + length D -> size_get sz' k = size_get sz k) /\
    Forall (lab_ok (D ++ R) sz' (hd depth)) ls /\
    length ls = length ts /\
    Permutation (flat_map children R ++ ls) (flat_map tleaves ts ++ seq (n + length D) (length R)).
Proof.
  induction 1 as [|c cs Hc Hcs IH]; intros depth D index sz Hst.
  - exists [], [], index, sz. rewrite app_nil_r. splits; try assumption; try reflexivity.
    constructor.
  - destruct (Hc depth D index sz Hst) as (R1 & l1 & i1 & sz1 & E1 & Hst1 & Hx1 & Hl1 & Hp1).
    destruct (IH depth (D ++ R1) i1 sz1 Hst1) as (R2 & ls & i2 & sz2 & E2 & Hst2 & Hx2 & Hl2 & Hlen & Hp2).
    exists (R1 ++ R2), (l1 :: ls), i2, sz2. cbn [gd_list]. rewrite E1, E2. rewrite app_assoc.
    splits; try assumption.
    + reflexivity.
    + intros k Hk. rewrite Hx2 by (rewrite app_length; lia). now apply Hx1.
    + constructor; [|assumption]. unfold lab_ok. rewrite Hx2 by (destruct Hl1; lia).
      now apply cl_ok_app.
    + simpl. now rewrite Hlen.
    + rewrite flat_map_app, app_length, seq_app, <- Nat.add_assoc. cbn [flat_map]. rewrite app_length in Hp2.
      transitivity ((flat_map children R1 ++ [l1]) ++ (flat_map children R2 ++ ls)).
      { rewrite <- !app_assoc. apply Permutation_app_head. symmetry. apply (Permutation_middle _ ls l1). }
      rewrite Hp1, Hp2, <- !app_assoc. apply Permutation_app_head, Permutation_app_swap_app.
Qed.

Lemma gd_spec t : Forall (fun i => i < n) (tleaves t) -> tree_shape t = true -> gd_post t.
Proof.
  induction t as [i|ts IH] using ptree_ind2; intros Hlv Hsh depth D index sz Hst.
  - (* leaf: no row, the label is the leaf *)
    cbn [tleaves] in Hlv. inversion Hlv as [|? ? Hi _]; subst.
    exists [], i, index, sz. rewrite app_nil_r. assert (Hst' := Hst). destruct Hst' as (Hs1 & Hs2 & Hs3).
    splits; try assumption; try reflexivity.
    unfold lab_ok, cl_ok. rewrite Hs3, csize_leaf by assumption. splits; [lia | reflexivity |].
    unfold child_height_ok. apply Nat.ltb_lt in Hi. now rewrite Hi.
  - cbn [tleaves] in Hlv. cbn [tree_shape] in Hsh. apply andb_true_iff in Hsh. destruct Hsh as [Hn2 Hsh].
    apply Nat.leb_le in Hn2. rewrite forallb_forall in Hsh. rewrite Forall_flat_map in Hlv.
    assert (Hposts : Forall gd_post ts).
    { rewrite Forall_forall in *. intros c Hc. apply IH; auto. }
    destruct (gd_list_spec ts Hposts (S depth) D index sz Hst)
      as (R1 & ls & i1 & sz1 & E1 & Hst1 & Hx1 & Hl1 & Hlen & Hp1).
    destruct Hst1 as (Hs1 & Hs2 & Hs3).
    assert (Hl1' : Forall (lab_ok (D ++ R1) sz1 (hd depth)) ls).
    { eapply Forall_impl; [|exact Hl1]. intros a Ha. apply (cl_ok_mono _ (hd (S depth))); [apply hd_S | exact Ha]. }
    destruct (merge_all_spec (hd depth) sz1 ls (D ++ R1) i1 Hs1 Hs2 ltac:(lia) Hl1')
      as (R2 & idx & sf & E2 & Hi2 & Hgt & Hg2 & Hcl2 & Hp2).
    exists (R1 ++ R2), idx, idx, ((idx, sf) :: sz1).
    rewrite gd_node, E1. fold (hd depth). rewrite E2. rewrite app_assoc.
    assert (Hidx : n + length D <= idx) by (rewrite !app_length in *; lia).
    unfold st_ok. splits; try assumption.
    + reflexivity.
    + intros k Hk. rewrite size_get_cons. destruct (Nat.eqb_spec k idx); [lia | now apply Hs3].
    + intros k Hk. rewrite size_get_cons. destruct (Nat.eqb_spec k idx); [lia | now apply Hx1].
    + unfold lab_ok. rewrite size_get_cons, Nat.eqb_refl. assumption.
    + rewrite flat_map_app, app_length, seq_app, <- Nat.add_assoc. cbn [tleaves]. rewrite app_length in Hp2.
      now rewrite <- app_assoc, Hp2, app_assoc, Hp1, <- app_assoc.
Qed.

End Rows.

Lemma tleaves_ge t : tree_shape t = true ->
  match t with PLeaf _ => 1 | PNode _ => 2 end <= length (tleaves t).
Proof.
  induction t as [i|ts IH] using ptree_ind2; intros Hsh; [simpl; lia|].
  cbn [tree_shape] in Hsh. apply andb_true_iff in Hsh. destruct Hsh as [Hn2 Hsh]. apply Nat.leb_le in Hn2.
  (* every child has a leaf *)
  assert (H : length ts <= length (flat_map tleaves ts)).
  { clear Hn2. induction IH as [|c cs Hc _ IHcs]; [simpl; lia|].
    cbn [forallb] in Hsh. apply andb_true_iff in Hsh. destruct Hsh as [Hsc Hsh].
    cbn [flat_map length]. rewrite app_length. specialize (Hc Hsc). specialize (IHcs Hsh). destruct c; lia. }
  cbn [tleaves]. lia.
Qed.

Lemma tree_ok_two n t : tree_ok n t -> 2 <= n.
Proof.
  intros (Hsh & Hp & ts & ->). apply Permutation_length in Hp. rewrite seq_length in Hp. rewrite <- Hp.
  exact (tleaves_ge _ Hsh).
Qed.

Lemma get_index_perm n t : 1 <= n -> Permutation (tleaves t) (seq 0 n) -> get_index t = n - 1.
Proof.
  intros Hn Hp. unfold get_index. change (fold_right Nat.max 0 (tleaves t)) with (list_max (tleaves t)).
  apply Nat.le_antisymm.
  - apply list_max_le. rewrite Hp. apply Forall_forall. intros x Hx. apply in_seq in Hx. lia.
  - apply In_le_list_max. rewrite Hp. apply in_seq. lia.
Qed.

Lemma all_good_hmono n D : all_good n D -> hmono n D = true.
Proof.
  intros Hg. unfold hmono. apply forallb_forall. intros r Hr. destruct (In_nth_error _ _ Hr) as [t Ht].
  destruct (Hg t r Ht) as (_ & _ & _ & H1 & H2). now rewrite H1, H2.
Qed.

Theorem get_dendrogram_valid : forall n t, tree_ok n t ->
  exists D, get_dendrogram t = Ok (D, 2 * n - 2) /\ valid n D = true /\ hmono n D = true /\
            (forall k r, nth_error D k = Some r -> r_size r = length (leaves n D (n + k))).
Proof.
  intros n t Hok. assert (Hn := tree_ok_two n t Hok). destruct Hok as (Hsh & Hperm & ts & Et).
  assert (Hlt : Forall (fun i => i < n) (tleaves t)).
  { rewrite Hperm. apply Forall_forall. intros x Hx. apply in_seq in Hx. lia. }
  assert (Hst : st_ok n [] (get_index t) []).
  { rewrite (get_index_perm n t ltac:(lia) Hperm). split; [simpl; lia|]. split; [|reflexivity].
    intros k r Hk. destruct k; discriminate. }
  destruct (gd_spec n t Hlt Hsh 0 [] (get_index t) [] Hst) as (D & l & idx & sz & E & Hst' & _ & _ & Hp).
  simpl app in Hst'. destruct Hst' as (Hidx & Hg & _). simpl length in Hp. rewrite Nat.add_0_r in Hp.
  assert (Hlen : S (length D) = n).
  { assert (H1 := Permutation_length Hp). assert (H2 := Permutation_length Hperm).
    rewrite !app_length, children_length, !seq_length in *. simpl in H1. lia. }
  assert (Hwf : wf_dend n D).
  { split.
    - exact Hlen.
    - assert (Hnd : NoDup (flat_map children D ++ [l])).
      { rewrite Hp, Hperm. change n with (0 + n) at 2. rewrite <- seq_app. apply seq_NoDup. }
      now apply NoDup_app_remove_aux in Hnd.
    - intros k r Hk. destruct (Hg k r Hk) as (H1 & H2 & _). split; assumption.
    - intros k r Hk. destruct (Hg k r Hk) as (_ & _ & H3 & _). exact H3. }
  assert (Hv := wf_valid n D Hwf).
  exists D. split; [|split; [exact Hv|split; [now apply all_good_hmono | now apply valid_size_leaves]]].
  subst t. unfold get_dendrogram, get_dendrogram_gen.
  destruct ts as [|a [|b ts']]; [discriminate Hsh | discriminate Hsh |].
  match goal with |- match ?g with _ => _ end = _ =>
    assert (E' : g = Ok (D, l, (idx, sz))) by exact E; rewrite E' end.
  f_equal. f_equal. lia.
Qed.

(** Non-vacuity: the tree [[[0], [1]], [2], [3]] (a two-way merge below a three-way merge). *)
Example get_dendrogram_example :
  get_dendrogram (PNode [PNode [PLeaf 0; PLeaf 1]; PLeaf 2; PLeaf 3])
  = Ok ([(1, 0, (-1 # 1)%Q, 2); (3, 2, 0%Q, 2); (5, 4, 0%Q, 4)], 6).
Proof. vm_compute. reflexivity. Qed.

Example get_dendrogram_example_valid :
  valid 4 [(1, 0, (-1 # 1)%Q, 2); (3, 2, 0%Q, 2); (5, 4, 0%Q, 4)] = true.
Proof. vm_compute. reflexivity. Qed.

(** * The height shift of LouvainHierarchy.fit / LouvainIteration.fit

    Validity never reads the height column; [hmono] survives any map that shifts all the heights by the same amount. *)
Definition shift_row (d : Q) (x : drow) : drow := (r_left x, r_right x, Qred (r_height x + d), r_size x).

Lemma valid_run_shift d : forall rows next live,
  valid_run next (map (shift_row d) rows) live = valid_run next rows live.
Proof.
  induction rows as [|[[[i j] h] s] rows IH]; intros next live; [reflexivity|].
  cbn [map shift_row valid_run r_left r_right r_size fst snd]. now rewrite IH.
Qed.

Lemma last_shift_size d D : r_size (last (map (shift_row d) D) drow0) = r_size (last D drow0).
Proof. induction D as [|r [|r' D] IH]; [reflexivity | reflexivity | exact IH]. Qed.

Lemma valid_shift d n D : valid n (map (shift_row d) D) = valid n D.
Proof.
  unfold valid, validw. rewrite map_length, valid_run_shift, last_shift_size. now destruct D.
Qed.

Lemma cho_shift n D d h c :
  child_height_ok n D h c = true -> child_height_ok n (map (shift_row d) D) (Qred (h + d)) c = true.
Proof.
  unfold child_height_ok. destruct (Nat.ltb c n); [trivial|]. rewrite nth_error_map.
  destruct (nth_error D (c - n)) as [r|]; [|discriminate]. cbn [option_map].
  rewrite !Qle_bool_iff. intros H. unfold shift_row, r_height at 1. cbn [fst snd].
  rewrite !Qred_correct. lra.
Qed.

Lemma hmono_shift n D d : hmono n D = true -> hmono n (map (shift_row d) D) = true.
Proof.
  unfold hmono. rewrite !forallb_forall. intros H r' Hr'. apply in_map_iff in Hr'.
  destruct Hr' as (r & <- & Hr). specialize (H r Hr). apply andb_true_iff in H. destruct H as [H1 H2].
  change (r_height (shift_row d r)) with (Qred (r_height r + d)).
  change (r_left (shift_row d r)) with (r_left r). change (r_right (shift_row d r)) with (r_right r).
  now rewrite !cho_shift.
Qed.

Theorem shift_heights_valid : forall n D, valid n D = true -> D <> [] ->
  exists D', shift_heights D = Ok D' /\ valid n D' = true /\ (hmono n D = true -> hmono n D' = true) /\
             map (fun r => (r_left r, r_right r, r_size r)) D' = map (fun r => (r_left r, r_right r, r_size r)) D.
Proof.
  intros n D Hv Hne. destruct D as [|r rs]; [congruence|].
  set (m := fold_right (fun x acc => qmin (r_height x) acc) (r_height r) rs).
  exists (map (shift_row (1 - m)) (r :: rs)). split; [reflexivity|]. split; [|split].
  - now rewrite valid_shift.
  - apply hmono_shift.
  - rewrite map_map. apply map_ext. intros x. reflexivity.
Qed.

Print Assumptions get_dendrogram_valid.
Print Assumptions shift_heights_valid.
Print Assumptions get_dendrogram_example.
