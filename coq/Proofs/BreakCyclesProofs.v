(** break_cycles (Model/Cycles.v), proofs WITHOUT a bound on the size of the graph.

    Directed branch: for every well-formed graph, every admissible root list and every oracle answer
    that is a correct strongly-connected-component labelling, the model returns (never [OutOfFuel])
    a loop-free subgraph on the same nodes, without any directed cycle, in which every node reachable
    from the roots in the input is still reachable from the roots.

    Structure of the argument:
    - [traversal]: what the two depth-first traversals share (instances [dir_traversal], [und_traversal]). A call only shrinks the graph ([trav_sub]), never
      exhausts the depth budget ([trav_total]), and has visited every simple path of the RESULT that extends
      its path, so that the last node of such a path has no edge back into it ([trav_complete]).
    - [bc_scan_dir_eq], [visit_scan_spec]: one scan removes the edges cur -> v with v on the path and pushes
      the other neighbours.
    - [visit_frame]: every edge removed by a call of [bc_visit_dir] with path P lies inside the component, and
      it leads from [last P] back into P or its source is outside P; reachability (inside the component) from
      any set containing [hd P] is preserved ([reach_repair]: the removed edge cur -> v is replaced by the
      path prefix). The same [frame] is the invariant of the loop over the children of the call.
    - component level ([comp_*]), label level ([labels_*]), then the theorems; reachability from the
      roots across components is an induction on the breadth-first distance ([dir_loop_reach]): an
      edge between two components is never removed, and inside a component every node stays
      reachable from a subroot, which is strictly closer to the roots.

    Undirected branch (second half of the file): same two ideas. A call with path P removes only edges
    cur - v with v on P and not the predecessor of cur, so the two ends stay joined by the path
    ([uvisit_frame]: ALL connectivity is preserved, the pattern stays symmetric); every duplicate-free
    path of the result from the start node was visited ([trav_complete]), so a simple cycle on >= 3
    nodes that a start node reaches cannot survive ([uvisit_no_cycle], [uloop_no_cycle]). *)
From SKN Require Import Base.Util Model.Bfs Model.Structure Model.Cycles
  Proofs.BfsProofs Proofs.StructureProofs Proofs.PathProofs.
Set Warnings "-notation-overridden".

(** * Generic: folds over [option] states *)

Definition ofold {A B} (f : A -> B -> option A) (l : list B) (a : option A) : option A :=
  fold_left (fun acc v => match acc with Some x => f x v | None => None end) l a.

Lemma ofold_none {A B} (f : A -> B -> option A) l : ofold f l None = None.
Proof. induction l as [|v t IH]; simpl; auto. Qed.

Lemma ofold_cons {A B} (f : A -> B -> option A) v l a :
  ofold f (v :: l) (Some a) = ofold f l (f a v).
Proof. reflexivity. Qed.

Lemma ofold_inv {A B} (f : A -> B -> option A) (I : A -> Prop) l :
  forall a h, I a -> (forall x v y, In v l -> I x -> f x v = Some y -> I y) ->
    ofold f l (Some a) = Some h -> I h.
Proof.
  induction l as [|v t IH]; intros a h Ha Hstep H.
  - simpl in H. inversion H; subst. exact Ha.
  - rewrite ofold_cons in H. destruct (f a v) as [b|] eqn:E.
    + apply (IH b h); auto.
      * eapply Hstep; eauto. left; reflexivity.
      * intros x w y Hw. apply Hstep. right; exact Hw.
    + rewrite ofold_none in H. discriminate.
Qed.

Lemma ofold_total {A B} (f : A -> B -> option A) (I : A -> Prop) l :
  forall a, I a -> (forall x v, In v l -> I x -> exists y, f x v = Some y /\ I y) ->
    exists h, ofold f l (Some a) = Some h.
Proof.
  induction l as [|v t IH]; intros a Ha Hstep.
  - exists a. reflexivity.
  - rewrite ofold_cons. destruct (Hstep a v (or_introl eq_refl) Ha) as [y [Ey Iy]]. rewrite Ey.
    apply IH; auto. intros x w Hw. apply Hstep. right; exact Hw.
Qed.

Lemma ofold_app {A B} (f : A -> B -> option A) l1 l2 a :
  ofold f (l1 ++ l2) a = ofold f l2 (ofold f l1 a).
Proof. unfold ofold. apply fold_left_app. Qed.

Lemma ofold_split {A B} (f : A -> B -> option A) l1 v l2 a h :
  ofold f (l1 ++ v :: l2) (Some a) = Some h ->
  exists x y, ofold f l1 (Some a) = Some x /\ f x v = Some y /\ ofold f l2 (Some y) = Some h.
Proof.
  rewrite ofold_app. destruct (ofold f l1 (Some a)) as [x|] eqn:E1.
  - rewrite ofold_cons. destruct (f x v) as [y|] eqn:E2.
    + intros H. exists x, y. auto.
    + rewrite ofold_none. discriminate.
  - rewrite ofold_none. discriminate.
Qed.

(** * Generic: reachability from a set, repair of removed edges *)

Definition reachS (E : nat -> nat -> Prop) (S : nat -> Prop) (x : nat) : Prop :=
  exists a, S a /\ reach E a x.

(** If the target of every edge that is lost stays reachable from S, everything stays reachable. *)
Lemma reach_repair (E E' : nat -> nat -> Prop) (S : nat -> Prop) :
  (forall u v, E u v -> E' u v \/ reachS E' S v) ->
  forall x, reachS E S x -> reachS E' S x.
Proof.
  intros Hrep x [a [Sa Hax]].
  assert (G : forall u, reach E u x -> reachS E' S u -> reachS E' S x).
  { clear a Sa Hax. intros u H. induction H as [u|u y x Huy Hyx IH]; auto.
    intros Hu. apply IH. destruct (Hrep u y Huy) as [H'|H']; auto.
    destruct Hu as [a [Sa Hau]]. exists a. split; auto. eapply reach_step_right; eauto. }
  apply (G a Hax). exists a. split; auto. apply reach_refl.
Qed.

(** * Generic: lists *)

Lemma chain_consec (E F : nat -> nat -> Prop) : forall p,
  (forall l1 a b l2, p = l1 ++ a :: b :: l2 -> E a b -> F a b) -> chain E p -> chain F p.
Proof.
  induction p as [|x t IH]; intros H Hc; [exact I|].
  apply chain_cons in Hc. destruct Hc as [A B]. apply chain_cons. split.
  - intros Hne. destruct t as [|y t']; [congruence|]. cbn [hd] in *.
    apply (H [] x y t'); [reflexivity|]. apply A. discriminate.
  - apply IH; auto. intros l1 a b l2 E1 Hab. apply (H (x :: l1) a b l2); [rewrite E1; reflexivity | exact Hab].
Qed.

(** On a duplicate-free path ending in [cur], the only chain edge that touches [cur] enters it from the
    predecessor. *)
Lemma consec_last (path : list nat) l1 a b l2 :
  NoDup path -> path = l1 ++ a :: b :: l2 ->
  a <> last path 0 /\ (b = last path 0 -> is_prev (prev_of path) a = true).
Proof.
  intros Hnd Ep. pose proof Hnd as Hnd'. rewrite Ep in Hnd'. apply NoDup_app_r in Hnd'.
  inversion Hnd' as [|x0 t0 Hni Hnd2]. split.
  - intros Ea. apply Hni.
    assert (El : last path 0 = last (b :: l2) 0) by (rewrite Ep, last_app_cons; reflexivity).
    rewrite Ea, El. apply last_In. discriminate.
  - intros Eb. destruct l2 as [|c l2'].
    + rewrite Ep. rewrite prev_of_app. simpl. apply Nat.eqb_refl.
    + exfalso. inversion Hnd2 as [|x1 t1 Hni2 _]. apply Hni2.
      assert (El : last path 0 = last (c :: l2') 0).
      { rewrite Ep. replace (l1 ++ a :: b :: c :: l2') with ((l1 ++ [a; b]) ++ c :: l2') by (rewrite <- app_assoc; reflexivity).
        apply last_app_cons. }
      rewrite Eb, El. apply last_In. discriminate.
Qed.

Lemma chain_targets (E : nat -> nat -> Prop) (Q : nat -> Prop) x t :
  (forall a b, E a b -> Q b) -> chain E (x :: t) -> forall y, In y t -> Q y.
Proof.
  intros H. revert x. induction t as [|z t' IH]; intros x Hc y Hy; [destruct Hy|].
  apply chain_cons in Hc. destruct Hc as [A B]. destruct Hy as [Hy|Hy].
  - subst z. eapply H. apply A. discriminate.
  - eapply IH; eauto.
Qed.

Lemma last_app_nonempty {A} (a b : list A) d : b <> [] -> last (a ++ b) d = last b d.
Proof. destruct b as [|x t]; [congruence|]. intros _. apply last_app_cons. Qed.

(** * Subgraphs, [remove_edge], [drop_loops] *)

Definition sub (h g : graph) : Prop := length h = length g /\ forall u v, edge h u v -> edge g u v.

Lemma sub_refl g : sub g g.
Proof. split; auto. Qed.
Lemma sub_trans a b c : sub a b -> sub b c -> sub a c.
Proof. intros [L1 H1] [L2 H2]. split; [congruence | auto]. Qed.

Lemma remove_edge_length g a b : length (remove_edge g a b) = length g.
Proof. apply map_nodes_length. Qed.

Lemma remove_edge_iff g a b x y :
  edge (remove_edge g a b) x y <-> edge g x y /\ ~ (x = a /\ y = b).
Proof.
  unfold remove_edge. rewrite edge_map_nodes. unfold edge.
  assert (Hx : edge g x y -> x < length g) by (intros A; eapply row_nonempty_lt; exact A). unfold edge in Hx.
  destruct (Nat.eqb_spec x a) as [E|E]; [rewrite filter_In, negb_true_iff, Nat.eqb_neq|]; tauto.
Qed.

Lemma wf_sub h g : wf_graph g -> sub h g -> wf_graph h.
Proof. intros Hwf [L H] u v Huv. rewrite L. eapply Hwf. apply H. exact Huv. Qed.

Lemma In_insert x y l : In x (insert y l) <-> x = y \/ In x l.
Proof.
  induction l as [|z t IH]; simpl; [intuition|].
  destruct (y <=? z); simpl; [intuition|]. rewrite IH. intuition.
Qed.

Lemma In_isort x l : In x (isort l) <-> In x l.
Proof.
  induction l as [|y t IH]; simpl; [tauto|].
  change (isort (y :: t)) with (insert y (isort t)). rewrite In_insert, IH. intuition.
Qed.

Lemma drop_loops_length g : length (drop_loops g) = length g.
Proof. apply map_nodes_length. Qed.

Lemma drop_loops_edge g u v : edge (drop_loops g) u v <-> edge g u v /\ u <> v.
Proof.
  unfold drop_loops. rewrite edge_map_nodes, In_isort, nodup_In, filter_In, negb_true_iff, Nat.eqb_neq.
  unfold edge. split; [intuition|]. intros [A B]. split; [eapply row_nonempty_lt; exact A | auto].
Qed.

Lemma drop_loops_sub g : sub (drop_loops g) g.
Proof. split; [apply drop_loops_length|]. intros u v H. apply drop_loops_edge in H. tauto. Qed.

(** * The scans: the edges towards path nodes are removed, the other neighbours are pushed *)

(** Removing, for every [v] of a list, the edges [K v]. *)
Lemma fold_remove_spec (rm : graph -> nat -> graph) (K : nat -> nat -> nat -> Prop) :
  (forall g v, length (rm g v) = length g) ->
  (forall g v a b, edge (rm g v) a b <-> edge g a b /\ ~ K v a b) ->
  forall l g, length (fold_left rm l g) = length g /\
    forall a b, edge (fold_left rm l g) a b <-> edge g a b /\ ~ exists v, In v l /\ K v a b.
Proof.
  intros Hlen Hrm. induction l as [|w t IH]; intros g; simpl.
  - split; [reflexivity|]. intros a b. split; [intros H; split; [exact H | intros [v [[] _]]] | tauto].
  - destruct (IH (rm g w)) as [L E]. split; [rewrite L; apply Hlen|]. intros a b. rewrite E, Hrm. split.
    + intros [[A B] C]. split; [exact A|]. intros [v [[Ev|Hv] Hk]]; [subst v; exact (B Hk) | apply C; exists v; auto].
    + intros [A B]. split; [split; [exact A|]|].
      * intros Hk. apply B. exists w. auto.
      * intros [v [Hv Hk]]. apply B. exists v. auto.
Qed.

Lemma bc_scan_dir_eq cur path : forall nbrs g,
  bc_scan_dir cur path nbrs g =
  (fold_left (fun ga v => remove_edge ga cur v) (filter (fun v => memn v path) nbrs) g,
   filter (fun v => negb (memn v path)) nbrs).
Proof.
  induction nbrs as [|w t IH]; intros g; simpl; [reflexivity|].
  destruct (memn w path); simpl; rewrite IH; reflexivity.
Qed.

Lemma visit_scan_spec cyc g cur path :
  let r := bc_scan_dir cur path (filter (fun v => memn v cyc) (row g cur)) g in
  sub (fst r) g /\
  (forall u v, edge (fst r) u v <-> edge g u v /\ ~ (u = cur /\ In v cyc /\ In v path)) /\
  (forall v, In v (snd r) <-> edge g cur v /\ In v cyc /\ ~ In v path).
Proof.
  cbv zeta. rewrite bc_scan_dir_eq. cbn [fst snd].
  destruct (fold_remove_spec (fun ga v => remove_edge ga cur v) (fun v a b => a = cur /\ b = v)
              (fun ga v => remove_edge_length ga cur v) (fun ga v a b => remove_edge_iff ga cur v a b)
              (filter (fun v => memn v path) (filter (fun v => memn v cyc) (row g cur))) g) as [L E].
  split; [split; [exact L | intros u v H; apply E in H; tauto]|]. split.
  - intros u v. rewrite E. split; intros [A B]; split; auto; intros H; apply B.
    + destruct H as [Eu [H1 H2]]. subst u. exists v. rewrite !filter_In, !memn_In. auto.
    + destruct H as [w [Hw [Eu Ev]]]. subst u w. rewrite !filter_In, !memn_In in Hw. tauto.
  - intros v. rewrite !filter_In, negb_true_iff, memn_false, memn_In. unfold edge. tauto.
Qed.

Lemma edge_gone_spec g path :
  edge_gone g path = true -> exists q a b, path = q ++ [a; b] /\ ~ edge g a b.
Proof.
  unfold edge_gone. destruct (rev path) as [|b [|a r]] eqn:E; try discriminate.
  intros H. exists (rev r), a, b. split.
  - rewrite <- (rev_involutive path), E. simpl. rewrite <- app_assoc. reflexivity.
  - apply negb_true_iff in H. intros He. apply edgeb_true in He. congruence.
Qed.

(** * The path of a traversal: a duplicate-free chain of the current graph, ending in [cur] *)

Definition ugood (g : graph) (path : list nat) (cur : nat) : Prop :=
  path <> [] /\ last path 0 = cur /\ NoDup path /\ chain (edge g) path.

Lemma ugood_single g s : ugood g [s] s.
Proof.
  split; [discriminate|]. split; [reflexivity|]. split; [apply NoDup_single | simpl; auto].
Qed.

Lemma ugood_last_in g path cur : ugood g path cur -> In cur path.
Proof. intros [Hne [Hl _]]. rewrite <- Hl. apply last_In. exact Hne. Qed.

Lemma ugood_extend g path cur c : ugood g path cur -> edge g cur c -> ~ In c path -> ugood g (path ++ [c]) c.
Proof.
  intros [Hne [Hl [Hnd Hc]]] He Hout. split; [destruct path; discriminate|].
  split; [apply last_last|]. split; [apply NoDup_snoc; assumption|].
  apply chain_app. split; [exact Hc|]. split; [simpl; auto|]. intros _ _. cbn [hd]. rewrite Hl. exact He.
Qed.

(** It survives the removal of edges that leave [cur], enter it from elsewhere than its predecessor, or touch a
    node outside the path. *)
Lemma ugood_scan g x path cur :
  ugood g path cur ->
  (forall a b, In a path -> In b path -> edge g a b -> a <> cur -> (b = cur -> is_prev (prev_of path) a = true) ->
     edge x a b) ->
  ugood x path cur.
Proof.
  intros [Hne [Hl [Hnd Hc]]] H. split; auto. split; auto. split; auto.
  eapply chain_consec; [|exact Hc]. intros l1 a b l2 Ep Hab.
  destruct (consec_last path l1 a b l2 Hnd Ep) as [Na Nb]. rewrite Hl in Na, Nb.
  apply H; auto; rewrite Ep; apply in_or_app; right; simpl; auto.
Qed.

(** * What the two depth-first traversals share

    [bc_visit_dir] and [bc_visit_und] stop where the edge into the current node is gone; otherwise they scan
    the row of the current node (the edges to the [back] targets on the path disappear, the unvisited [ok]
    neighbours are pushed) and call themselves on the pushed nodes in turn. *)
Set Implicit Arguments.
Record traversal (V : nat -> graph -> nat -> list nat -> option graph)
                 (scan : graph -> nat -> list nat -> graph * list nat)
                 (ok : nat -> Prop) (back : list nat -> nat -> Prop) : Prop := {
  trav_0 : forall g cur path, V 0 g cur path = None;
  trav_S : forall d g cur path, V (S d) g cur path =
    if edge_gone g path then Some g
    else ofold (fun ga v => V d ga v (path ++ [v])) (rev (snd (scan g cur path))) (Some (fst (scan g cur path)));
  scan_sub : forall g cur path, sub (fst (scan g cur path)) g;
  scan_back : forall g cur path v, back path v -> ~ edge (fst (scan g cur path)) cur v;
  scan_push : forall g cur path v, In v (snd (scan g cur path)) <-> edge g cur v /\ ok v /\ ~ In v path
}.
Unset Implicit Arguments.

Section Traversal.
Context {V scan ok back} (T : traversal V scan ok back).

Lemma trav_sub : forall d g cur path h, V d g cur path = Some h -> sub h g.
Proof.
  induction d as [|d IH]; intros g cur path h H; [rewrite (trav_0 T) in H; discriminate|].
  rewrite (trav_S T) in H. destruct (edge_gone g path).
  - inversion H; subst. apply sub_refl.
  - refine (ofold_inv _ (fun a => sub a g) _ _ h (scan_sub T g cur path) _ H).
    intros x v y _ Hx Hy. apply IH in Hy. eapply sub_trans; eauto.
Qed.

Lemma trav_kids_sub d path l a h : ofold (fun ga v => V d ga v (path ++ [v])) l (Some a) = Some h -> sub h a.
Proof.
  intros H. refine (ofold_inv _ (fun x => sub x a) _ a h (sub_refl a) _ H).
  intros x v y _ Hx Hy. apply trav_sub in Hy. eapply sub_trans; eauto.
Qed.

(** A path never repeats a node, so the depth budget is not exhausted. *)
Lemma trav_total : forall d g cur path,
  (forall u v, edge g u v -> ok v -> v < length g) ->
  NoDup path -> (forall x, In x path -> x < length g) -> length g < d + length path ->
  exists h, V d g cur path = Some h.
Proof.
  induction d as [|d IH]; intros g cur path Hb Hnd Hlt Hd.
  { pose proof (NoDup_lt_length path (length g) Hnd Hlt). lia. }
  rewrite (trav_S T). destruct (edge_gone g path); [eexists; reflexivity|].
  apply (ofold_total _ (fun a => sub a g)); [apply (scan_sub T)|].
  intros x c Hc Sx. apply in_rev in Hc. apply (scan_push T) in Hc. destruct Hc as [C1 [C2 C3]].
  pose proof Sx as [Lx Ex]. destruct (IH x c (path ++ [c])) as [y Hy].
  - intros u v Huv Hv. rewrite Lx. exact (Hb u v (Ex u v Huv) Hv).
  - apply NoDup_snoc; assumption.
  - intros z Hz. rewrite Lx. apply in_app_or in Hz. destruct Hz as [Hz|[Hz|[]]]; [auto | subst z; eauto].
  - rewrite app_length, Lx. simpl. lia.
  - exists y. split; [exact Hy|]. apply trav_sub in Hy. eapply sub_trans; eauto.
Qed.

(** Every duplicate-free chain of the result (or of a subgraph of it) that extends the path through [ok] nodes
    was visited, so its last node has no edge to a [back] target. *)
Lemma trav_complete : forall d g cur path h,
  path <> [] -> last path 0 = cur -> V d g cur path = Some h ->
  forall h', sub h' h -> forall ext q, q = path ++ ext ->
    chain (edge h') q -> NoDup q -> (forall x, In x ext -> ok x) ->
    forall v, back q v -> ~ edge h' (last q 0) v.
Proof.
  induction d as [|d IH]; intros g cur path h Hne Hl H h' Hs ext q Eq Hch Hnd Hext v Hv Hedge;
    [rewrite (trav_0 T) in H; discriminate|].
  subst q. rewrite (trav_S T) in H. destruct (edge_gone g path) eqn:Egone.
  { inversion H; subst h. apply edge_gone_spec in Egone. destruct Egone as [q [a [b [Ep Nab]]]].
    apply Nab. apply Hs. rewrite Ep in Hch. rewrite <- !app_assoc in Hch.
    apply chain_app in Hch. destruct Hch as [_ [Hch _]]. simpl in Hch. tauto. }
  assert (S1 : forall u w, edge h' u w -> edge (fst (scan g cur path)) u w).
  { intros u w A. apply (trav_kids_sub _ _ _ _ _ H). apply Hs. exact A. }
  destruct ext as [|c ext'].
  - rewrite app_nil_r in *. rewrite Hl in Hedge. exact (scan_back T g cur path v Hv (S1 _ _ Hedge)).
  - assert (Ec : edge h' cur c).
    { apply chain_app in Hch. destruct Hch as [_ [_ Hlink]]. rewrite Hl in Hlink. apply Hlink; [exact Hne | discriminate]. }
    assert (Hpush : In c (rev (snd (scan g cur path)))).
    { apply in_rev. rewrite rev_involutive. apply (scan_push T). split; [apply (scan_sub T g cur path), S1, Ec|].
      split; [apply Hext; left; reflexivity|].
      intros Hin. exact (NoDup_app_disjoint path (c :: ext') c Hnd Hin (or_introl eq_refl)). }
    destruct (in_split _ _ Hpush) as [l1 [l2 El]]. rewrite El in H.
    destruct (ofold_split _ _ _ _ _ _ H) as [x [y [H1 [H2 H3]]]]. apply trav_kids_sub in H3.
    assert (Epath : path ++ c :: ext' = (path ++ [c]) ++ ext') by (rewrite <- app_assoc; reflexivity).
    refine (IH x c (path ++ [c]) y _ (last_last _ _ _) H2 h' (sub_trans _ _ _ Hs H3) ext' _ Epath Hch Hnd _ v Hv Hedge).
    + destruct path; discriminate.
    + intros z Hz. apply Hext. right. exact Hz.
Qed.
End Traversal.

(** * [bc_visit_dir] *)

Lemma dir_traversal cyc :
  traversal (fun d => bc_visit_dir d cyc)
            (fun g cur path => bc_scan_dir cur path (filter (fun v => memn v cyc) (row g cur)) g)
            (fun v => In v cyc) (fun path v => In v path /\ In v cyc).
Proof.
  split; try reflexivity; intros g cur path; destruct (visit_scan_spec cyc g cur path) as [S [HE HP]].
  - exact S.
  - intros v Hv He. apply HE in He. tauto.
  - intros v. rewrite HP. tauto.
Qed.

(** * [bc_visit_dir]: frame and preservation of reachability inside the component *)

Definition Ein (cyc : list nat) (g : graph) (u v : nat) : Prop := edge g u v /\ In u cyc /\ In v cyc.

(** The path handed to a call of [bc_visit_dir] stays inside [cyc]. *)
Definition good (cyc : list nat) (g : graph) (path : list nat) (cur : nat) : Prop :=
  ugood g path cur /\ forall x, In x path -> In x cyc.

Definition frame (cyc path : list nat) (cur : nat) (g h : graph) : Prop :=
  sub h g /\
  (forall u v, edge g u v -> ~ edge h u v -> (u = cur /\ In v path \/ ~ In u path) /\ In u cyc /\ In v cyc) /\
  (forall (S : nat -> Prop) x, S (hd 0 path) -> reachS (Ein cyc g) S x -> reachS (Ein cyc h) S x).

Lemma edge_dec g u v : {edge g u v} + {~ edge g u v}.
Proof. unfold edge. apply in_dec. apply Nat.eq_dec. Qed.

Lemma good_reach_in cyc g path cur v : good cyc g path cur -> In v path -> reach (Ein cyc g) (hd 0 path) v.
Proof.
  intros [[_ [_ [_ Hc]]] Hin] Hv. destruct path as [|x t]; [destruct Hv|].
  cbn [hd]. eapply chain_reach_in; [|exact Hv]. eapply chain_mono_In; [|exact Hc].
  intros a b Ha Hb He. split; auto.
Qed.

Lemma good_extend cyc g path cur c :
  good cyc g path cur -> edge g cur c -> In c cyc -> ~ In c path -> good cyc g (path ++ [c]) c.
Proof.
  intros [Hu Hin] He Hc1 Hc2. split; [exact (ugood_extend g path cur c Hu He Hc2)|].
  intros x Hx. apply in_app_or in Hx. destruct Hx as [Hx|[Hx|[]]]; [auto | subst; auto].
Qed.

(** The scan alone: the edge cur -> v to a path node is made up for by the path from its head to v. *)
Lemma scan_frame cyc g path cur :
  good cyc g path cur -> frame cyc path cur g (fst (bc_scan_dir cur path (filter (fun v => memn v cyc) (row g cur)) g)).
Proof.
  intros Hg. destruct (visit_scan_spec cyc g cur path) as [SA [HE _]]. cbv zeta in SA, HE.
  set (g1 := fst (bc_scan_dir cur path (filter (fun v => memn v cyc) (row g cur)) g)) in *.
  assert (FA : forall u v, edge g u v -> ~ edge g1 u v -> u = cur /\ In v cyc /\ In v path).
  { intros u v A B. rewrite HE in B.
    destruct (Nat.eq_dec u cur), (in_dec Nat.eq_dec v cyc), (in_dec Nat.eq_dec v path); tauto. }
  assert (Hg1 : good cyc g1 path cur).
  { split; [|exact (proj2 Hg)]. apply (ugood_scan g g1 path cur (proj1 Hg)). intros a b _ _ Hab Na _.
    apply HE. split; [exact Hab|]. intros [E _]. exact (Na E). }
  split; [exact SA|]. split.
  - intros u v A B. destruct (FA u v A B) as [E1 [E2 E3]]. subst u. split; [left; auto|]. split; [|exact E2].
    apply (proj2 Hg). exact (ugood_last_in _ _ _ (proj1 Hg)).
  - intros S x HS. apply reach_repair. intros u v [Huv [Hu Hv]].
    destruct (edge_dec g1 u v) as [Y|N]; [left; split; auto|].
    right. destruct (FA u v Huv N) as [_ [_ Hvp]]. exists (hd 0 path). split; auto.
    exact (good_reach_in cyc g1 path cur v Hg1 Hvp).
Qed.

(** While the children of a call are visited, its path stays a path and the edges to the children stay. *)
Lemma kids_good cyc path cur g x c :
  good cyc g path cur -> frame cyc path cur g x -> edge g cur c -> In c cyc -> ~ In c path ->
  good cyc x (path ++ [c]) c.
Proof.
  intros [Hu Hin] [Sx [Fx _]] E1 C2 C3. pose proof (ugood_last_in _ _ _ Hu) as Hcur.
  assert (Hx : forall a b, In a path -> edge g a b -> ~ (a = cur /\ In b path) -> edge x a b).
  { intros a b Ha Hab Hn. destruct (edge_dec x a b) as [Y|N]; auto. destruct (Fx a b Hab N) as [[Na|Na] _]; contradiction. }
  apply (good_extend cyc x path cur c); auto.
  - split; [|exact Hin]. apply (ugood_scan g x path cur Hu). intros a b Ha _ Hab Na _. apply Hx; auto.
    intros [E _]. exact (Na E).
  - apply Hx; auto. intros [_ E]. exact (C3 E).
Qed.

Lemma frame_step cyc path cur g x c y :
  path <> [] -> ~ In c path -> frame cyc path cur g x -> frame cyc (path ++ [c]) c x y -> frame cyc path cur g y.
Proof.
  intros Hne C3 [Sx [Fx Rx]] [Sy [Fy Ry]].
  split; [eapply sub_trans; eauto|]. split.
  - intros u v A B. destruct (edge_dec x u v) as [Y|N]; [|apply Fx; auto].
    destruct (Fy u v Y B) as [[[E _]|E] E2]; (split; [right | exact E2]).
    + subst u. exact C3.
    + intros Hu. apply E. apply in_or_app. left. exact Hu.
  - intros S z HS Hz. apply Ry; [destruct path; [congruence | exact HS]|]. apply Rx; auto.
Qed.

Lemma visit_frame cyc : forall d g cur path h,
  good cyc g path cur -> bc_visit_dir d cyc g cur path = Some h -> frame cyc path cur g h.
Proof.
  induction d as [|d IH]; intros g cur path h Hg H; [discriminate|].
  rewrite (trav_S (dir_traversal cyc)) in H. destruct (edge_gone g path).
  { inversion H; subst. split; [apply sub_refl|]. split; [intros u v A B; contradiction | auto]. }
  refine (ofold_inv _ (frame cyc path cur g) _ _ h (scan_frame cyc g path cur Hg) _ H).
  intros x c y Hc Ix Hy. apply in_rev in Hc. apply (scan_push (dir_traversal cyc)) in Hc. destruct Hc as [C1 [C2 C3]].
  pose proof Hg as [[Hne _] _].
  exact (frame_step cyc path cur g x c y Hne C3 Ix
           (IH x c (path ++ [c]) y (kids_good cyc path cur g x c Hg Ix C1 C2 C3) Hy)).
Qed.

(** * One component *)

Definition cyc_of (comp : list nat) (l : nat) : list nat :=
  filter (fun u => nthn comp u =? l) (seq 0 (length comp)).
Definition subroots_of (comp : list nat) (dist : list Z) (l : nat) : list nat :=
  filter (fun u => (nthz dist u =? zmin_list (map (nthz dist) (cyc_of comp l)))%Z) (cyc_of comp l).

Lemma bc_component_unfold g comp dist l :
  bc_component g comp dist l =
  ofold (fun ga s => bc_visit_dir (S (length g)) (cyc_of comp l) ga s [s]) (rev (subroots_of comp dist l)) (Some g).
Proof. reflexivity. Qed.

Lemma cyc_of_In comp l u : In u (cyc_of comp l) <-> u < length comp /\ nthn comp u = l.
Proof. unfold cyc_of. rewrite filter_In, in_seq, Nat.eqb_eq. intuition lia. Qed.

Lemma subroots_cyc comp dist l s : In s (subroots_of comp dist l) -> In s (cyc_of comp l).
Proof. unfold subroots_of. rewrite filter_In. tauto. Qed.

Lemma fold_zmin_spec : forall (t : list Z) (x : Z),
  let m := fold_left Z.min t x in In m (x :: t) /\ forall y, In y (x :: t) -> (m <= y)%Z.
Proof.
  induction t as [|a t IH]; intros x; simpl.
  - split; [left; reflexivity | intros y [<-|[]]; lia].
  - destruct (IH (Z.min x a)) as [H1 H2]. pose proof (H2 _ (or_introl eq_refl)) as Hle. split.
    + destruct H1 as [H1|H1]; [|right; right; exact H1].
      destruct (Z.min_spec x a) as [[_ E]|[_ E]]; [left | right; left]; congruence.
    + intros y [<-|[<-|Hy]]; [lia | lia | apply H2; right; exact Hy].
Qed.

Lemma zmin_list_spec (l : list Z) : l <> [] -> In (zmin_list l) l /\ forall y, In y l -> (zmin_list l <= y)%Z.
Proof. destruct l as [|x t]; [congruence|]. intros _. apply fold_zmin_spec. Qed.

Lemma subroots_nonempty comp dist l : cyc_of comp l <> [] -> subroots_of comp dist l <> [].
Proof.
  intros Hne. assert (Hm : map (nthz dist) (cyc_of comp l) <> []) by (destruct (cyc_of comp l); [congruence | discriminate]).
  destruct (zmin_list_spec _ Hm) as [A _]. apply in_map_iff in A. destruct A as [u [Eu Hu]].
  intros E. assert (Hin : In u (subroots_of comp dist l)).
  { unfold subroots_of. apply filter_In. split; auto. apply Z.eqb_eq. exact Eu. }
  rewrite E in Hin. destruct Hin.
Qed.

Lemma subroots_min comp dist l s x :
  In s (subroots_of comp dist l) -> In x (cyc_of comp l) -> (nthz dist s <= nthz dist x)%Z.
Proof.
  unfold subroots_of. rewrite filter_In. intros [Hs E] Hx. apply Z.eqb_eq in E. rewrite E.
  assert (Hm : map (nthz dist) (cyc_of comp l) <> []) by (destruct (cyc_of comp l); [destruct Hx | discriminate]).
  apply (zmin_list_spec _ Hm). apply in_map. exact Hx.
Qed.

Definition cframe (cyc : list nat) (S : nat -> Prop) (g h : graph) : Prop :=
  sub h g /\
  (forall u v, edge g u v -> ~ edge h u v -> In u cyc /\ In v cyc) /\
  (forall x, reachS (Ein cyc g) S x -> reachS (Ein cyc h) S x).

Lemma good_single cyc g s : In s cyc -> good cyc g [s] s.
Proof. intros Hs. split; [apply ugood_single | intros x [<-|[]]; exact Hs]. Qed.

Lemma comp_frame g comp dist l h :
  bc_component g comp dist l = Some h ->
  cframe (cyc_of comp l) (fun s => In s (subroots_of comp dist l)) g h.
Proof.
  rewrite bc_component_unfold. intros H.
  refine (ofold_inv _ (cframe (cyc_of comp l) (fun s => In s (subroots_of comp dist l)) g) _ g h _ _ H).
  - split; [apply sub_refl|]. split; [intros u v A B; contradiction | auto].
  - intros x s y Hs [Sx [Fx Rx]] Hy. apply in_rev in Hs.
    pose proof (good_single (cyc_of comp l) x s (subroots_cyc _ _ _ _ Hs)) as Hg.
    destruct (visit_frame _ _ _ _ _ _ Hg Hy) as [Sy [Fy Ry]].
    split; [eapply sub_trans; eauto|]. split.
    + intros u v A B. destruct (edge_dec x u v) as [Y|N]; [|apply Fx; auto].
      destruct (Fy u v Y B) as [_ [E2 E3]]. auto.
    + intros z Hz. apply Ry; [exact Hs|]. apply Rx. exact Hz.
Qed.

Lemma comp_total (g : graph) comp dist l :
  length comp = length g -> exists h, bc_component g comp dist l = Some h.
Proof.
  intros Hlen. rewrite bc_component_unfold.
  apply (ofold_total _ (fun a : graph => length a = length g)); [reflexivity|].
  intros x s Hs Lx. apply in_rev in Hs. apply subroots_cyc in Hs.
  apply cyc_of_In in Hs.
  destruct (trav_total (dir_traversal (cyc_of comp l)) (S (length g)) x s [s]) as [y Hy].
  - intros u v _ Hv. apply cyc_of_In in Hv. lia.
  - apply NoDup_single.
  - intros z [Hz|[]]. subst z. lia.
  - simpl. lia.
  - exists y. split; auto. apply (trav_sub (dir_traversal _)) in Hy. destruct Hy as [Ly _]. congruence.
Qed.

(** No cycle inside [cyc] that [s] reaches inside [cyc] survives a traversal from [s]: entered along a simple
    path, it would close with an edge back into that path. *)
Lemma visit_no_cycle cyc d g s h h' c :
  bc_visit_dir d cyc g s [s] = Some h -> sub h' h ->
  dcycle h' c -> (forall x, In x c -> In x cyc) -> reach (Ein cyc h') s (hd 0 c) -> False.
Proof.
  intros H Hsub [Hne [Hndc Hchc]] Hc Hr.
  assert (Hcy : simple_cycle (Ein cyc h') c).
  { split; [exact Hne|]. split; [exact Hndc|]. eapply chain_mono_In; [|exact Hchc]. intros a b Ha Hb Hab.
    assert (Hin : forall x, In x (c ++ [hd 0 c]) -> In x cyc).
    { intros x Hx. apply in_app_or in Hx. destruct Hx as [Hx|[Hx|[]]]; [|subst x; apply hd_In_nonempty in Hne]; auto. }
    split; auto. }
  destruct (cycle_entry _ s c Hcy Hr) as [pre [w [r [_ [[ext Eq] [Hnd [Hch [Hclose [_ Hw]]]]]]]]].
  refine (trav_complete (dir_traversal cyc) d g s [s] h ltac:(discriminate) eq_refl H h' Hsub ext _ Eq _ Hnd _
            w (conj _ Hw) _).
  - eapply chain_mono; [|exact Hch]. intros a b [A _]. exact A.
  - rewrite Eq in Hch. exact (chain_targets (Ein cyc h') (fun b => In b cyc) s ext (fun a b H0 => proj2 (proj2 H0)) Hch).
  - apply in_or_app. right. left. reflexivity.
  - rewrite last_app_cons. exact Hclose.
Qed.

(** After the exploration from the first subroot, the component (whose internal edges were intact and
    which was strongly connected inside itself) contains no cycle; later explorations only remove edges. *)
Lemma comp_acyclic g comp dist l h :
  cyc_of comp l <> [] ->
  (forall s x, In s (cyc_of comp l) -> In x (cyc_of comp l) -> reach (Ein (cyc_of comp l) g) s x) ->
  bc_component g comp dist l = Some h ->
  forall c, dcycle h c -> (forall x, In x c -> In x (cyc_of comp l)) -> False.
Proof.
  intros Hne Hconn H c Hcy Hc. rewrite bc_component_unfold in H.
  set (cyc := cyc_of comp l) in *.
  pose proof (subroots_nonempty comp dist l Hne) as Hsr.
  destruct (rev (subroots_of comp dist l)) as [|s1 rest] eqn:Er.
  { apply Hsr. rewrite <- (rev_involutive (subroots_of comp dist l)), Er. reflexivity. }
  assert (Hs1 : In s1 cyc).
  { apply (subroots_cyc comp dist l). apply in_rev. rewrite Er. left. reflexivity. }
  rewrite ofold_cons in H. destruct (bc_visit_dir (S (length g)) cyc g s1 [s1]) as [h1|] eqn:E1;
    [|rewrite ofold_none in H; discriminate].
  assert (Sh : sub h h1).
  { refine (ofold_inv _ (fun x => sub x h1) _ h1 h (sub_refl h1) _ H).
    intros x v y _ Hx Hy. apply (trav_sub (dir_traversal cyc)) in Hy. eapply sub_trans; eauto. }
  destruct (visit_frame _ _ _ _ _ _ (good_single cyc g s1 Hs1) E1) as [_ [_ R1]].
  assert (Hcy1 : dcycle h1 c) by (eapply simple_cycle_ext; [|exact Hcy]; apply Sh).
  apply (visit_no_cycle cyc _ g s1 h1 h1 c E1 (sub_refl h1) Hcy1 Hc).
  destruct (R1 (eq s1) (hd 0 c) eq_refl) as [a [Ea Ra]].
  - exists s1. split; [reflexivity|]. exact (Hconn s1 _ Hs1 (Hc _ (hd_In_nonempty c (proj1 Hcy)))).
  - subst a. exact Ra.
Qed.

(** ... and every node of the component is still reached from a subroot inside it. *)
Lemma comp_reach g comp dist l h v :
  (forall s x, In s (cyc_of comp l) -> In x (cyc_of comp l) -> reach (Ein (cyc_of comp l) g) s x) ->
  bc_component g comp dist l = Some h -> In v (cyc_of comp l) ->
  reachS (Ein (cyc_of comp l) h) (fun s => In s (subroots_of comp dist l)) v.
Proof.
  intros Hconn H Hv. destruct (comp_frame _ _ _ _ _ H) as [_ [_ Rc]]. apply Rc.
  assert (Hne : cyc_of comp l <> []) by (intros E; rewrite E in Hv; destruct Hv).
  pose proof (subroots_nonempty comp dist l Hne) as Hsr.
  destruct (subroots_of comp dist l) as [|s0 rest] eqn:Esr; [congruence|].
  exists s0. split; [left; reflexivity|]. apply Hconn; [|exact Hv].
  apply (subroots_cyc comp dist l). rewrite Esr. left. reflexivity.
Qed.

(** * The loop over the labels of the components with more than one node *)

Definition labels_of (comp : list nat) : list nat := filter (fun l => 1 <? count comp l) (np_unique comp).
Definition lstep (comp : list nat) (dist : list Z) : graph -> nat -> option graph :=
  fun ga l => bc_component ga comp dist l.

Lemma labels_of_NoDup comp : NoDup (labels_of comp).
Proof. unfold labels_of, np_unique. apply NoDup_filter. apply NoDup_filter. apply seq_NoDup. Qed.

Lemma labels_of_In comp l : In l (labels_of comp) <-> In l comp /\ 1 < count comp l.
Proof. unfold labels_of. rewrite filter_In, np_unique_In, Nat.ltb_lt. tauto. Qed.

(** Only edges between two nodes of the same processed label disappear. *)
Definition lframe (comp : list nat) (L : list nat) (a b : graph) : Prop :=
  sub b a /\
  forall u v, edge a u v -> ~ edge b u v ->
    u < length comp /\ v < length comp /\ nthn comp u = nthn comp v /\ In (nthn comp u) L.

Lemma labels_frame comp dist L : forall a b, ofold (lstep comp dist) L (Some a) = Some b -> lframe comp L a b.
Proof.
  intros a b H. refine (ofold_inv _ (lframe comp L a) _ a b _ _ H).
  - split; [apply sub_refl|]. intros u v A B. contradiction.
  - intros x l y Hl [Sx Fx] Hy. unfold lstep in Hy. destruct (comp_frame _ _ _ _ _ Hy) as [Sy [Fy _]].
    split; [eapply sub_trans; eauto|]. intros u v A B.
    destruct (edge_dec x u v) as [Y|N]; [|apply Fx; auto].
    destruct (Fy u v Y B) as [Hu Hv]. apply cyc_of_In in Hu, Hv. destruct Hu as [Hu Eu], Hv as [Hv Ev].
    split; auto. split; auto. split; [congruence|]. rewrite Eu. exact Hl.
Qed.

Lemma labels_total comp dist L (a : graph) :
  length comp = length a -> exists b, ofold (lstep comp dist) L (Some a) = Some b.
Proof.
  intros Hlen. apply (ofold_total _ (fun x : graph => length x = length a)); [reflexivity|].
  intros x l _ Lx. unfold lstep. destruct (comp_total x comp dist l) as [y Hy]; [congruence|].
  exists y. split; auto. destruct (comp_frame _ _ _ _ _ Hy) as [[Ly _] _]. congruence.
Qed.

Lemma lframe_keeps comp L a b l :
  lframe comp L a b -> ~ In l L -> forall u v, Ein (cyc_of comp l) a u v -> Ein (cyc_of comp l) b u v.
Proof.
  intros [_ F] N u v [A [Hu Hv]]. split; auto. destruct (edge_dec b u v) as [Y|Nn]; auto. exfalso.
  destruct (F u v A Nn) as [_ [_ [_ Hin]]]. apply cyc_of_In in Hu. destruct Hu as [_ Eu].
  rewrite Eu in Hin. contradiction.
Qed.

(** * Strongly connected components *)

Lemma scc_internal g comp u x :
  wf_graph g -> components_contract g true comp -> u < length g -> x < length g ->
  nthn comp u = nthn comp x ->
  reach (Ein (cyc_of comp (nthn comp u)) g) u x.
Proof.
  intros Hwf [Hlen Hc] Hu Hx E. set (l := nthn comp u).
  apply (Hc u x Hu Hx) in E. destruct E as [Rux Rxu].
  assert (G : forall y, reach (edge g) y x -> reach (edge g) u y -> y < length g -> nthn comp y = l ->
                        reach (Ein (cyc_of comp l) g) y x).
  { clear Rux. intros y H. induction H as [y|y z x Hyz Hzx IH]; intros Huy Hy Ey; [apply reach_refl|].
    assert (Hz : z < length g) by (eapply Hwf; eauto).
    assert (Huz : reach (edge g) u z) by (eapply reach_step_right; eauto).
    assert (Ez : nthn comp z = l).
    { symmetry. apply (Hc u z Hu Hz). split; auto. eapply reach_trans; eauto. }
    eapply reach_step; [|apply IH; auto].
    split; auto. split; apply cyc_of_In; split; auto; lia. }
  apply G; auto. apply reach_refl.
Qed.

(** The run around the processing of one label [l]: before it the edges inside the class of [l] are intact, so
    the class is still strongly connected inside itself; after it they are not touched any more. *)
Lemma labels_run_split comp dist labels g0 h l :
  wf_graph g0 -> components_contract g0 true comp ->
  NoDup labels -> In l labels -> ofold (lstep comp dist) labels (Some g0) = Some h ->
  exists ga gb,
    (forall s x, In s (cyc_of comp l) -> In x (cyc_of comp l) -> reach (Ein (cyc_of comp l) ga) s x) /\
    bc_component ga comp dist l = Some gb /\
    sub h gb /\ (forall u v, Ein (cyc_of comp l) gb u v -> Ein (cyc_of comp l) h u v).
Proof.
  intros Hwf Hcc Hnd Hl H. destruct (in_split _ _ Hl) as [L1 [L2 EL]]. subst labels.
  destruct (ofold_split _ _ _ _ _ _ H) as [ga [gb [H1 [H2 H3]]]].
  apply labels_frame in H1, H3. apply NoDup_remove_2 in Hnd. rewrite in_app_iff in Hnd.
  exists ga, gb. split; [|split; [exact H2|]; split; [exact (proj1 H3) | apply (lframe_keeps _ _ _ _ l H3); tauto]].
  intros s z Hs Hz. pose proof Hcc as [Hlen _].
  apply cyc_of_In in Hs, Hz. destruct Hs as [Hs Es], Hz as [Hz Ez].
  eapply reach_mono; [apply (lframe_keeps _ _ _ _ l H1); tauto|].
  rewrite <- Es. apply scc_internal; auto; try lia; congruence.
Qed.

(** * Breadth-first distances *)
Lemma hop_pred g src v k : hop g src v (S k) -> exists y, hop g src y k /\ edge g y v.
Proof.
  intros [Hr Hmin]. simpl in Hr. destruct Hr as [y [Hy Hyv]]. exists y. split; auto. split; auto.
  intros j Hj Hrj. apply (Hmin (S j)); [lia|]. simpl. exists y. auto.
Qed.

Lemma reach_drop_loops g u v : reach (edge g) u v -> reach (edge (drop_loops g)) u v.
Proof.
  intros H. induction H as [u|u x v Hux Hxv IH]; [apply reach_refl|].
  destruct (Nat.eq_dec u x) as [E|E]; [subst; exact IH|].
  eapply reach_step; [|exact IH]. apply drop_loops_edge. auto.
Qed.

(** * The directed loop on a loop-free graph [g0] *)

Lemma dir_loop_acyclic g0 comp dist h :
  wf_graph g0 -> (forall u, ~ edge g0 u u) -> components_contract g0 true comp ->
  ofold (lstep comp dist) (labels_of comp) (Some g0) = Some h ->
  forall c, ~ dcycle h c.
Proof.
  intros Hwf Hlf Hcc H c Hcy. pose proof Hcc as [Hlen Hc].
  pose proof (labels_frame _ _ _ _ _ H) as [Sh _].
  assert (Hcy0 : dcycle g0 c) by (eapply simple_cycle_ext; [|exact Hcy]; apply Sh).
  destruct c as [|x [|y t]].
  - destruct Hcy as [Hn _]. congruence.
  - destruct Hcy0 as [_ [_ Hch]]. simpl in Hch. apply (Hlf x). tauto.
  - destruct (long_cycle_same_label g0 comp x y t Hwf Hcc Hcy0) as [Hx [_ [_ [_ Hcnt]]]].
    set (l := nthn comp x).
    assert (Hall : forall z, In z (x :: y :: t) -> In z (cyc_of comp l)).
    { intros z Hz. destruct (simple_cycle_hd_reach _ _ z Hcy0 Hz) as [R1 R2]. cbn [hd] in R1, R2.
      assert (Hzl : z < length g0) by exact (reach_lt g0 x z Hwf Hx R1).
      apply cyc_of_In. split; [lia|]. symmetry. apply (Hc x z Hx Hzl). split; auto. }
    assert (Hl : In l (labels_of comp)).
    { apply labels_of_In. split; [apply nthn_In; lia | exact Hcnt]. }
    destruct (labels_run_split comp dist _ g0 h l Hwf Hcc (labels_of_NoDup comp) Hl H) as [ga [gb [Ca [Hb [Shb _]]]]].
    apply (comp_acyclic ga comp dist l gb) with (c := x :: y :: t); auto.
    + intros E. specialize (Hall x (or_introl eq_refl)). rewrite E in Hall. destruct Hall.
    + eapply simple_cycle_ext; [|exact Hcy]. apply Shb.
Qed.

Lemma dir_loop_reach g0 root comp dist h :
  wf_graph g0 -> components_contract g0 true comp ->
  bfs g0 (one_hot (length g0) root) = Some dist ->
  ofold (lstep comp dist) (labels_of comp) (Some g0) = Some h ->
  forall r v, In r root -> r < length g0 -> reach (edge g0) r v ->
    exists r', In r' root /\ reach (edge h) r' v.
Proof.
  intros Hwf Hcc Hbfs H. pose proof Hcc as [Hlen Hc].
  set (src := one_hot (length g0) root) in *.
  destruct (bfs_dichotomy g0 src (one_hot_length _ _)) as [dist' [Hb' [Hld Hdist]]].
  rewrite Hbfs in Hb'. inversion Hb'; subst dist'. clear Hb'.
  pose proof (labels_frame _ _ _ _ _ H) as [Sh Fh].
  assert (Hreached : forall v k0, v < length g0 -> reachk g0 src k0 v ->
                       exists k, nthz dist v = Z.of_nat k /\ hop g0 src v k).
  { intros v k0 Hv Hk0. destruct (Hdist v Hv) as [H0|[_ Hno]]; [exact H0 | destruct (Hno k0 Hk0)]. }
  assert (G : forall k v, v < length g0 -> hop g0 src v k -> reachS (edge h) (fun r => In r root) v).
  { induction k as [k IH] using lt_wf_ind. intros v Hv Hhop. destruct k as [|k'].
    - destruct Hhop as [Hr _]. simpl in Hr. unfold src in Hr. rewrite nthb_one_hot in Hr by exact Hv.
      apply memn_In in Hr. exists v. split; auto. apply reach_refl.
    - destruct (hop_pred _ _ _ _ Hhop) as [y [Hy Hyv]].
      assert (Hyl : y < length g0) by (eapply row_nonempty_lt; eauto).
      destruct (edge_dec h y v) as [Y|N].
      + destruct (IH k' ltac:(lia) y Hyl Hy) as [r [Hr Rr]]. exists r. split; auto. eapply reach_step_right; eauto.
      + destruct (Fh y v Hyv N) as [_ [_ [Eyv Hl]]]. set (l := nthn comp y) in *.
        destruct (labels_run_split comp dist _ g0 h l Hwf Hcc (labels_of_NoDup comp) Hl H)
          as [ga [gb [Ca [Hcomp [Shb Eb]]]]].
        assert (Hvc : In v (cyc_of comp l)) by (apply cyc_of_In; split; [lia | auto]).
        assert (Hyc : In y (cyc_of comp l)) by (apply cyc_of_In; split; [lia | auto]).
        destruct (comp_reach ga comp dist l gb v Ca Hcomp Hvc) as [s [Hs Rsv]].
        assert (Rsv' : reach (edge h) s v) by (eapply reach_mono; [|exact Rsv]; intros a b Hab; exact (proj1 (Eb a b Hab))).
        pose proof (subroots_cyc _ _ _ _ Hs) as Hsc. apply cyc_of_In in Hsc. destruct Hsc as [Hsl Es].
        (* the subroot is strictly closer to the roots than v *)
        pose proof (subroots_min comp dist l s y Hs Hyc) as Hle.
        destruct (Hreached y k' Hyl (proj1 Hy)) as [k [Edy Hk]]. rewrite <- (hop_unique _ _ _ _ _ Hy Hk) in Edy.
        assert (Rys : reach (edge g0) y s).
        { apply (proj1 (Hc y s Hyl ltac:(lia))). rewrite Es. reflexivity. }
        destruct (reach_reachk g0 src y s Rys (ex_intro _ k' (proj1 Hy))) as [k0 Hk0].
        destruct (Hreached s k0 ltac:(lia) Hk0) as [ks [Eks Hks]].
        destruct (IH ks ltac:(lia) s ltac:(lia) Hks) as [r [Hr Rr]]. exists r. split; auto.
        eapply reach_trans; eauto. }
  intros r v Hr Hrl Hrv.
  assert (Hv : v < length g0) by (eapply reach_lt; eauto).
  destruct (reach_reachk g0 src r v Hrv) as [k0 Hk0].
  { exists 0. simpl. unfold src. rewrite nthb_one_hot by exact Hrl. apply memn_In. exact Hr. }
  destruct (Hreached v k0 Hv Hk0) as [k [_ Hk]]. exact (G k v Hv Hk).
Qed.

(** * Undirected branch *)

Lemma remove_edge2_iff g u v a b :
  edge (remove_edge (remove_edge g u v) v u) a b <-> edge g a b /\ ~ ((a = u /\ b = v) \/ (a = v /\ b = u)).
Proof. rewrite !remove_edge_iff. tauto. Qed.

Lemma bc_scan_und_eq cur prev path : forall nbrs g,
  bc_scan_und cur prev path nbrs g =
  (fold_left (fun ga v => remove_edge (remove_edge ga cur v) v cur)
             (filter (fun v => negb (is_prev prev v) && memn v path) nbrs) g,
   filter (fun v => negb (is_prev prev v) && negb (memn v path)) nbrs).
Proof.
  induction nbrs as [|w t IH]; intros g; simpl; [reflexivity|].
  destruct (is_prev prev w); simpl; [apply IH|]. destruct (memn w path); simpl; rewrite IH; reflexivity.
Qed.

Definition sym (g : graph) : Prop := forall u v, edge g u v -> edge g v u.

(** The scan as called by [bc_visit_und]: R v = "v is a neighbour of cur on the path, not its predecessor". *)
Definition Rv (g : graph) (path : list nat) (cur v : nat) : Prop :=
  edge g cur v /\ is_prev (prev_of path) v = false /\ In v path.

Lemma uvisit_scan_spec g cur path :
  let r := bc_scan_und cur (prev_of path) path (row g cur) g in
  sub (fst r) g /\
  (forall u v, edge (fst r) u v <->
     edge g u v /\ ~ (u = cur /\ Rv g path cur v) /\ ~ (v = cur /\ Rv g path cur u)) /\
  (forall v, In v (snd r) <-> edge g cur v /\ ~ In v path).
Proof.
  cbv zeta. rewrite bc_scan_und_eq. cbn [fst snd].
  set (K := filter (fun v => negb (is_prev (prev_of path) v) && memn v path) (row g cur)).
  destruct (fold_remove_spec (fun ga v => remove_edge (remove_edge ga cur v) v cur)
              (fun v a b => (a = cur /\ b = v) \/ (a = v /\ b = cur))
              (fun ga v => eq_trans (remove_edge_length _ v cur) (remove_edge_length ga cur v))
              (fun ga v a b => remove_edge2_iff ga cur v a b) K g) as [L E].
  assert (HK : forall w, In w K <-> Rv g path cur w).
  { intros w. unfold K, Rv, edge. rewrite filter_In, andb_true_iff, negb_true_iff, memn_In. tauto. }
  split; [split; [exact L | intros u v H; apply E in H; tauto]|]. split.
  - intros u v. rewrite E. split.
    + intros [A B]. split; [exact A|]. split; intros [Ec Hr]; subst; apply B; [exists v | exists u]; rewrite HK; auto.
    + intros [A [B C]]. split; [exact A|]. intros [w [Hw [[Eu Ev]|[Eu Ev]]]]; subst; apply HK in Hw; [apply B | apply C]; auto.
  - intros v. rewrite filter_In, andb_true_iff, !negb_true_iff, memn_false. unfold edge. split; [tauto|].
    intros [A B]. split; [exact A|]. split; [apply is_prev_notin; exact B | exact B].
Qed.

Lemma Rv_dec g path cur v : {Rv g path cur v} + {~ Rv g path cur v}.
Proof.
  unfold Rv. destruct (edge_dec g cur v) as [A|A]; [|right; tauto].
  destruct (is_prev (prev_of path) v); [right; intros [_ [B _]]; discriminate|].
  destruct (in_dec Nat.eq_dec v path) as [C|C]; [left; auto | right; tauto].
Qed.

Lemma und_traversal :
  traversal bc_visit_und (fun g cur path => bc_scan_und cur (prev_of path) path (row g cur) g)
            (fun _ => True) (fun path v => In v path /\ is_prev (prev_of path) v = false).
Proof.
  split; try reflexivity; intros g cur path; destruct (uvisit_scan_spec g cur path) as [S [HE HP]].
  - exact S.
  - intros v [Hp Hv] He. pose proof He as Hg. apply S in Hg. apply HE in He. unfold Rv in He. tauto.
  - intros v. rewrite HP. tauto.
Qed.

Lemma edge_gone_app g q a b : edge_gone g (q ++ [a; b]) = negb (edgeb g a b).
Proof. unfold edge_gone. rewrite rev_app_distr. reflexivity. Qed.

Lemma uvisit_gone d g q a b h :
  ~ edge g a b -> bc_visit_und d g b (q ++ [a; b]) = Some h -> h = g.
Proof.
  intros N H. destruct d as [|d]; [discriminate|]. rewrite (trav_S und_traversal), edge_gone_app in H.
  destruct (edgeb g a b) eqn:E; [apply edgeb_true in E; contradiction|]. simpl in H. congruence.
Qed.

Definition uframe (path : list nat) (cur : nat) (g h : graph) : Prop :=
  sub h g /\ sym h /\
  (forall u v, edge g u v -> ~ edge h u v ->
     (u = cur /\ Rv g path cur v) \/ (v = cur /\ Rv g path cur u) \/ ~ In u path \/ ~ In v path) /\
  (forall a b, reach (edge g) a b -> reach (edge h) a b).

Lemma reach_repair2 (E E' : nat -> nat -> Prop) :
  (forall u v, E u v -> reach E' u v) -> forall a b, reach E a b -> reach E' a b.
Proof.
  intros H a b R. induction R as [a|a x b Hax Hxb IH]; [apply reach_refl|].
  eapply reach_trans; [apply H; exact Hax | exact IH].
Qed.

Lemma chain_reach_to_last (E : nat -> nat -> Prop) p v : chain E p -> In v p -> reach E v (last p 0).
Proof.
  intros Hc Hv. destruct (in_split _ _ Hv) as [l1 [l2 Ep]]. subst p.
  apply chain_app in Hc. destruct Hc as [_ [Hc _]]. rewrite last_app_cons. apply chain_reach_last. exact Hc.
Qed.

(** The scan alone: the two ends of a removed edge cur - v stay joined by the path. *)
Lemma uscan_frame g path cur :
  sym g -> ugood g path cur -> uframe path cur g (fst (bc_scan_und cur (prev_of path) path (row g cur) g)).
Proof.
  intros Hsym Hg. destruct (uvisit_scan_spec g cur path) as [SA [HE _]]. cbv zeta in SA, HE.
  set (g1 := fst (bc_scan_und cur (prev_of path) path (row g cur) g)) in *.
  assert (YA : sym g1).
  { intros u v Huv. apply HE in Huv. destruct Huv as [A [B C]]. apply HE. split; auto. }
  assert (FA : forall u v, edge g u v -> ~ edge g1 u v ->
                 (u = cur /\ Rv g path cur v) \/ (v = cur /\ Rv g path cur u)).
  { intros u v A B. rewrite HE in B.
    destruct (Nat.eq_dec u cur), (Nat.eq_dec v cur), (Rv_dec g path cur v), (Rv_dec g path cur u); tauto. }
  assert (Hg1 : ugood g1 path cur).
  { apply (ugood_scan g g1 path cur Hg). intros a b _ _ Hab Na Nb. apply HE. split; [exact Hab|]. split.
    - intros [E _]. exact (Na E).
    - intros [E [_ [P _]]]. rewrite (Nb E) in P. discriminate. }
  assert (Hto : forall v, In v path -> reach (edge g1) v cur).
  { intros v Hv. destruct Hg1 as [_ [Hl [_ Hc1]]]. rewrite <- Hl. apply chain_reach_to_last; auto. }
  split; [exact SA|]. split; [exact YA|]. split; [intros u v A B; destruct (FA u v A B); auto|].
  apply reach_repair2. intros u v Huv. destruct (edge_dec g1 u v) as [Y|N]; [apply reach_one; exact Y|].
  destruct (FA u v Huv N) as [[E [_ [_ P]]]|[E [_ [_ P]]]]; subst.
  - apply reach_sym; [exact YA|]. apply Hto. exact P.
  - apply Hto. exact P.
Qed.

Lemma ukids_good path cur g x c :
  ugood g path cur -> uframe path cur g x -> edge x cur c -> ~ In c path -> ugood x (path ++ [c]) c.
Proof.
  intros Hu [Sx [_ [Fx _]]] Ecx C3. apply (ugood_extend x path cur c); auto. apply (ugood_scan g x path cur Hu).
  intros a b Ha Hb Hab Na Nb. destruct (edge_dec x a b) as [Y|N]; auto.
  destruct (Fx a b Hab N) as [[E _]|[[E [_ [P _]]]|[E|E]]]; try contradiction.
  rewrite (Nb E) in P. discriminate.
Qed.

Lemma uframe_step path cur g x c y :
  ~ In c path -> uframe path cur g x -> uframe (path ++ [c]) c x y -> uframe path cur g y.
Proof.
  intros C3 [Sx [Yx [Fx Rx]]] [Sy [Yy [Fy Ry]]].
  split; [eapply sub_trans; eauto|]. split; auto. split.
  - intros u v A B. destruct (edge_dec x u v) as [Y|N]; [|apply Fx; auto]. right. right.
    destruct (Fy u v Y B) as [[E _]|[[E _]|[E|E]]].
    + left. subst u. exact C3.
    + right. subst v. exact C3.
    + left. intros Hu. apply E. apply in_or_app. left. exact Hu.
    + right. intros Hv. apply E. apply in_or_app. left. exact Hv.
  - intros p q Hpq. apply Ry. apply Rx. exact Hpq.
Qed.

Lemma uvisit_frame : forall d g cur path h,
  sym g -> ugood g path cur -> bc_visit_und d g cur path = Some h -> uframe path cur g h.
Proof.
  induction d as [|d IH]; intros g cur path h Hsym Hg H; [discriminate|].
  rewrite (trav_S und_traversal) in H. destruct (edge_gone g path).
  { inversion H; subst. split; [apply sub_refl|]. split; [exact Hsym|]. split; [intros u v A B; contradiction | auto]. }
  refine (ofold_inv _ (uframe path cur g) _ _ h (uscan_frame g path cur Hsym Hg) _ H).
  intros x c y Hc Ix Hy. apply in_rev in Hc. apply (scan_push und_traversal) in Hc. destruct Hc as [_ [_ C3]].
  destruct (edge_dec x cur c) as [Y|N].
  - exact (uframe_step path cur g x c y C3 Ix
             (IH x c (path ++ [c]) y (proj1 (proj2 Ix)) (ukids_good path cur g x c Hg Ix Y C3) Hy)).
  - pose proof Hg as [Hne [Hl _]].
    rewrite (app_removelast_last 0 Hne), Hl, <- app_assoc in Hy. cbn [app] in Hy.
    apply uvisit_gone in Hy; auto. subst y. exact Ix.
Qed.

(** Likewise no simple cycle on >= 3 nodes that [s] reaches survives a traversal from [s]: the closing edge does
    not lead to the predecessor. *)
Lemma uvisit_no_cycle d g s h h' c :
  bc_visit_und d g s [s] = Some h -> sub h' h ->
  simple_cycle (edge h') c -> 3 <= length c -> reach (edge h') s (hd 0 c) -> False.
Proof.
  intros H Hsub Hcy Hlen Hr.
  destruct (cycle_entry _ s c Hcy Hr) as [pre [w [r [[k Ek] [[ext Eq] [Hnd [Hch Hclose]]]]]]].
  refine (trav_complete und_traversal d g s [s] h ltac:(discriminate) eq_refl H h' Hsub ext _ Eq Hch Hnd
            (fun _ _ => I) w (conj _ _) _).
  - apply in_or_app. right. left. reflexivity.
  - apply is_prev_entry; [exact Hnd|]. rewrite Ek, rot_length. lia.
  - rewrite last_app_cons. exact Hclose.
Qed.

(** * The loop over the start nodes *)

Definition ustarts (vo : bool) (comp root : list nat) : list nat :=
  if vo then root ++ other_starts comp root else root.
Definition ustep (n : nat) : graph -> nat -> option graph := fun ga s => bc_visit_und (S n) ga s [s].

Definition uloop_inv (g0 a : graph) : Prop :=
  sub a g0 /\ sym a /\ forall p q, reach (edge g0) p q -> reach (edge a) p q.

Lemma uloop_frame n starts (g0 h : graph) :
  sym g0 -> ofold (ustep n) starts (Some g0) = Some h -> uloop_inv g0 h.
Proof.
  intros Hsym H. refine (ofold_inv _ (uloop_inv g0) _ g0 h _ _ H).
  - split; [apply sub_refl|]. split; auto.
  - intros x s y _ [Sx [Yx Rx]] Hy. unfold ustep in Hy.
    destruct (uvisit_frame _ _ _ _ _ Yx (ugood_single x s) Hy) as [Sy [Yy [_ Ry]]].
    split; [eapply sub_trans; eauto|]. split; auto.
Qed.

Lemma uloop_total n starts (g0 : graph) :
  wf_graph g0 -> (forall s, In s starts -> s < length g0) -> length g0 <= n ->
  exists h, ofold (ustep n) starts (Some g0) = Some h.
Proof.
  intros Hwf Hs Hn. apply (ofold_total _ (fun a => sub a g0)); [apply sub_refl|].
  intros x s Hin Sx. assert (Lx : length x = length g0) by (destruct Sx; auto).
  destruct (trav_total und_traversal (S n) x s [s]) as [y Hy].
  - intros u v Huv _. exact (wf_sub x g0 Hwf Sx u v Huv).
  - apply NoDup_single.
  - intros z [Hz|[]]. subst. rewrite Lx. auto.
  - simpl. lia.
  - exists y. split; auto. apply (trav_sub und_traversal) in Hy. eapply sub_trans; eauto.
Qed.

Lemma uloop_no_cycle n starts (g0 h : graph) s c :
  sym g0 -> ofold (ustep n) starts (Some g0) = Some h -> In s starts ->
  simple_cycle (edge h) c -> 3 <= length c -> reach (edge g0) s (hd 0 c) -> False.
Proof.
  intros Hsym H Hs Hcy Hlen Hr. destruct (in_split _ _ Hs) as [S1 [S2 ES]]. rewrite ES in H.
  destruct (ofold_split _ _ _ _ _ _ H) as [ga [gb [H1 [H2 H3]]]].
  destruct (uloop_frame _ _ _ _ Hsym H1) as [Sa [Ya Ra]].
  unfold ustep in H2.
  destruct (uvisit_frame _ _ _ _ _ Ya (ugood_single ga s) H2) as [Sb [Yb [_ Rb]]].
  destruct (uloop_frame _ _ _ _ Yb H3) as [Sh [_ Rh]].
  apply (uvisit_no_cycle _ ga s gb h c H2 Sh Hcy Hlen). apply Rh, Rb, Ra. exact Hr.
Qed.

Lemma starts_cover comp root x :
  x < length comp -> (forall r, In r root -> r < length comp) ->
  exists s, In s (ustarts true comp root) /\ s < length comp /\ nthn comp s = nthn comp x.
Proof.
  intros Hx Hroot. unfold ustarts. set (l := nthn comp x).
  destruct (memn l (map (nthn comp) root)) eqn:E.
  - apply memn_In in E. apply in_map_iff in E. destruct E as [r [Er Hr]]. exists r.
    split; [apply in_or_app; left; exact Hr|]. split; auto.
  - assert (Hl : In l comp) by (apply nthn_In; exact Hx).
    destruct (first_with_label_spec comp l Hl) as [A B].
    exists (first_with_label comp l). split; [|split; auto].
    apply in_or_app. right. unfold other_starts. apply in_map. apply filter_In. split.
    + apply np_unique_In. exact Hl.
    + fold l. rewrite E. reflexivity.
Qed.

Lemma other_starts_lt comp root s : In s (other_starts comp root) -> s < length comp.
Proof.
  unfold other_starts. intros H. apply in_map_iff in H. destruct H as [l [El Hl]]. subst s.
  apply filter_In in Hl. destruct Hl as [Hl _]. apply (proj1 (np_unique_In comp l)) in Hl.
  apply (first_with_label_spec comp l Hl).
Qed.

Lemma ustarts_lt vo comp root s :
  (forall r, In r root -> r < length comp) -> In s (ustarts vo comp root) -> s < length comp.
Proof.
  intros Hroot Hs. unfold ustarts in Hs. destruct vo; [apply in_app_or in Hs; destruct Hs as [Hs|Hs]|]; auto.
  eapply other_starts_lt; eauto.
Qed.

Lemma drop_loops_sym g : sym g -> sym (drop_loops g).
Proof. intros H u v Huv. apply drop_loops_edge in Huv. apply drop_loops_edge. destruct Huv. split; auto. Qed.

(** * break_cycles: the general theorems *)

(** The early exit, the two root checks (IndexError / ValueError), or one of the two loops. *)
Lemma break_cycles_cases vo g root directed comp1 comp2 d :
  resolve_directed g directed = Ok d ->
  (is_acyclic g directed comp1 = Ok true /\ break_cycles vo g root directed comp1 comp2 = Ok g) \/
  (~ ((forall r, In r root -> r < length g) /\ 0 < sumn (map (fun r => length (row g r)) root)) /\
   exists e, break_cycles vo g root directed comp1 comp2 = Err e /\ e <> OutOfFuel) \/
  ((forall r, In r root -> r < length g) /\
   break_cycles vo g root directed comp1 comp2 =
   match (if d then match bfs (drop_loops g) (one_hot (length g) root) with
                    | Some dist => ofold (lstep comp2 dist) (labels_of comp2) (Some (drop_loops g))
                    | None => None
                    end
          else ofold (ustep (length g)) (ustarts vo comp2 root) (Some (drop_loops g))) with
   | Some r => Ok r
   | None => Err OutOfFuel
   end).
Proof.
  intros H. assert (Hb : exists b, is_acyclic g directed comp1 = Ok b).
  { destruct (is_acyclic_cases g directed comp1 d H) as [[E _]|[E _]]; eexists; exact E. }
  destruct Hb as [[|] Hb]; unfold break_cycles; rewrite Hb; [left; auto|]. right.
  destruct (forallb (fun r => r <? length g) root) eqn:E1; cbn [negb].
  2:{ left. split; [|exists IndexError; split; [reflexivity | discriminate]]. intros [Hr _].
      rewrite (proj2 (forallb_forall _ _)) in E1; [discriminate|]. intros r Hin. apply Nat.ltb_lt. auto. }
  destruct (sumn (map (fun r => length (row g r)) root) =? 0) eqn:E2.
  { left. split; [|exists ValueError; split; [reflexivity | discriminate]]. intros [_ Hd].
    apply Nat.eqb_eq in E2. lia. }
  right. split; [intros r Hr; rewrite forallb_forall in E1; apply Nat.ltb_lt; auto|].
  rewrite H. destruct d; [destruct (bfs (drop_loops g) (one_hot (length g) root))|]; reflexivity.
Qed.

Theorem break_cycles_directed_correct_lemma
        (vo : bool) (g : graph) (root : list nat) (directed : option bool) (comp1 comp2 : list nat) :
  wf_graph g ->
  resolve_directed g directed = Ok true ->
  components_contract g true comp1 ->
  components_contract (drop_loops g) true comp2 ->
  break_cycles vo g root directed comp1 comp2 <> Err OutOfFuel /\
  forall h, break_cycles vo g root directed comp1 comp2 = Ok h ->
    length h = length g /\
    (forall u v, edge h u v -> edge g u v /\ u <> v) /\
    (forall c, ~ dcycle h c) /\
    (forall r v, In r root -> reach (edge g) r v -> exists r', In r' root /\ reach (edge h) r' v).
Proof.
  intros Hwf Hres Hc1 Hc2. set (g0 := drop_loops g).
  assert (Hwf0 : wf_graph g0) by (apply (wf_sub g0 g Hwf); apply drop_loops_sub).
  assert (Hl0 : length g0 = length g) by apply drop_loops_length.
  destruct (break_cycles_cases vo g root directed comp1 comp2 true Hres) as [[Eac E]|[[_ [e [E Ne]]]|[Hroot E]]];
    rewrite E; clear E.
  - (* already acyclic: returned as it is *)
    split; [discriminate|]. intros h Hh. inversion Hh; subst h.
    pose proof (proj1 (is_acyclic_directed_lemma g directed comp1 true Hwf Hc1 Hres Eac) eq_refl) as Hno.
    split; auto. split; [|split].
    + intros u v Huv. split; auto. intros E. subst v. apply Hno. exists [u]. exact (loop_cycle _ u Huv).
    + intros c Hc. apply Hno. exists c. exact Hc.
    + intros r v Hr Hrv. exists r. auto.
  - split; [congruence | intros h Hh; discriminate].
  - fold g0. destruct (bfs_exact g0 (one_hot (length g) root)) as [dist [Hb _]]; [rewrite one_hot_length; auto|].
    rewrite Hb. pose proof Hc2 as [Hlen2 _]. fold g0 in Hlen2.
    destruct (labels_total comp2 dist (labels_of comp2) g0 Hlen2) as [h Hh]. rewrite Hh.
    split; [discriminate|]. intros h' Eh. inversion Eh; subst h'. clear Eh.
    pose proof (labels_frame _ _ _ _ _ Hh) as [[Lh Sh] _].
    split; [congruence|]. split; [|split].
    + intros u v Huv. apply Sh in Huv. apply drop_loops_edge in Huv. exact Huv.
    + apply (dir_loop_acyclic g0 comp2 dist h); auto.
      intros u Huu. apply drop_loops_edge in Huu. destruct Huu as [_ N]. apply N. reflexivity.
    + intros r v Hr Hrv. rewrite <- Hl0 in Hb.
      apply (dir_loop_reach g0 root comp2 dist h Hwf0 Hc2 Hb Hh r v Hr).
      * rewrite Hl0. apply Hroot. exact Hr.
      * apply reach_drop_loops. exact Hrv.
Qed.

Theorem break_cycles_directed_total_lemma
        (vo : bool) (g : graph) (root : list nat) (directed : option bool) (comp1 comp2 : list nat) :
  resolve_directed g directed = Ok true -> length comp2 = length g ->
  (forall r, In r root -> r < length g) -> 0 < sumn (map (fun r => length (row g r)) root) ->
  exists h, break_cycles vo g root directed comp1 comp2 = Ok h.
Proof.
  intros Hres Hlen Hroot Hdeg.
  destruct (break_cycles_cases vo g root directed comp1 comp2 true Hres) as [[_ E]|[[N _]|[_ E]]];
    [rewrite E; eexists; reflexivity | exfalso; apply N; split; assumption | rewrite E].
  destruct (bfs_exact (drop_loops g) (one_hot (length g) root)) as [dist [Hb _]];
    [rewrite one_hot_length, drop_loops_length; auto|].
  rewrite Hb. destruct (labels_total comp2 dist (labels_of comp2) (drop_loops g)) as [h Hh];
    [rewrite drop_loops_length; exact Hlen|].
  rewrite Hh. eexists; reflexivity.
Qed.

(** The oracle answer [comp1] matters only through the early exit: it is enough that a graph which
    is_acyclic accepts has no cycle. *)
Theorem break_cycles_undirected_correct_lemma
        (vo : bool) (g : graph) (root : list nat) (directed : option bool) (comp1 comp2 : list nat) :
  wf_graph g ->
  resolve_directed g directed = Ok false ->
  (is_acyclic g directed comp1 = Ok true -> forall c, ~ ucycle g c) ->
  components_contract (drop_loops g) false comp2 ->
  break_cycles vo g root directed comp1 comp2 <> Err OutOfFuel /\
  forall h, break_cycles vo g root directed comp1 comp2 = Ok h ->
    length h = length g /\
    (forall u v, edge h u v -> edge g u v /\ u <> v) /\
    (forall u v, edge h u v -> edge h v u) /\
    (forall c s, ucycle h c -> In s (ustarts vo comp2 root) -> ~ reach (edge g) s (hd 0 c)) /\
    (vo = true -> forall c, ~ ucycle h c) /\
    (forall a b, reach (edge g) a b -> reach (edge h) a b).
Proof.
  intros Hwf Hres Hac Hc2.
  pose proof (proj1 (is_symmetric_spec g) (resolve_directed_false g directed Hres)) as Hsym.
  set (g0 := drop_loops g).
  assert (Hwf0 : wf_graph g0) by (apply (wf_sub g0 g Hwf); apply drop_loops_sub).
  assert (Hl0 : length g0 = length g) by apply drop_loops_length.
  assert (Hsym0 : sym g0) by (apply drop_loops_sym; exact Hsym).
  destruct (break_cycles_cases vo g root directed comp1 comp2 false Hres) as [[Eac E]|[[_ [e [E Ne]]]|[Hroot E]]];
    rewrite E; clear E.
  - split; [discriminate|]. intros h Hh. inversion Hh; subst h. pose proof (Hac Eac) as Hno.
    split; auto. split; [|split; [exact Hsym|split; [|split]]].
    + intros u v Huv. split; auto. intros E. subst v. apply (Hno [u]). split; [exact (loop_cycle _ u Huv) | simpl; lia].
    + intros c s Hc. exfalso. exact (Hno c Hc).
    + intros _ c Hc. exact (Hno c Hc).
    + auto.
  - split; [congruence | intros h Hh; discriminate].
  - fold g0. pose proof Hc2 as [Hlen2 Hcc2]. fold g0 in Hlen2, Hcc2.
    destruct (uloop_total (length g) (ustarts vo comp2 root) g0 Hwf0) as [h Hh].
    { intros s. rewrite <- Hlen2. apply ustarts_lt. intros r Hr. rewrite Hlen2, Hl0. auto. }
    { lia. }
    rewrite Hh. split; [discriminate|]. intros h' Eh. inversion Eh; subst h'. clear Eh.
    destruct (uloop_frame _ _ _ _ Hsym0 Hh) as [[Lh Sh] [Yh Rh]].
    assert (Hgen : forall c s, ucycle h c -> In s (ustarts vo comp2 root) -> ~ reach (edge g0) s (hd 0 c)).
    { intros c s Hc Hs Hr.
      assert (Hlen : 3 <= length c).
      { apply (ucycle_length h c Hc). intros x Hxx. apply Sh in Hxx. apply drop_loops_edge in Hxx. tauto. }
      exact (uloop_no_cycle _ _ _ _ s c Hsym0 Hh Hs (proj1 Hc) Hlen Hr). }
    split; [congruence|]. split; [|split; [exact Yh|split; [|split]]].
    + intros u v Huv. apply Sh in Huv. apply drop_loops_edge in Huv. exact Huv.
    + intros c s Hc Hs Hr. apply (Hgen c s Hc Hs). apply reach_drop_loops. exact Hr.
    + intros Evo c Hc. subst vo. pose proof (simple_cycle_hd_lt h c (proj1 Hc)) as Hx. rewrite Lh in Hx.
      destruct (starts_cover comp2 root (hd 0 c)) as [s [Hs [Hsl Es]]]; [lia | intros r Hr; rewrite Hlen2, Hl0; auto |].
      apply (Hgen c s Hc Hs).
      assert (Hw : wconn g0 s (hd 0 c)) by (apply (Hcc2 s (hd 0 c)); [lia | exact Hx | exact Es]).
      eapply reach_mono; [|exact Hw]. intros a b [A|A]; auto.
    + intros a b Hab. apply Rh. apply reach_drop_loops. exact Hab.
Qed.

Theorem break_cycles_undirected_total_lemma
        (vo : bool) (g : graph) (root : list nat) (directed : option bool) (comp1 comp2 : list nat) :
  wf_graph g -> resolve_directed g directed = Ok false -> length comp2 = length g ->
  (forall r, In r root -> r < length g) -> 0 < sumn (map (fun r => length (row g r)) root) ->
  exists h, break_cycles vo g root directed comp1 comp2 = Ok h.
Proof.
  intros Hwf Hres Hlen Hroot Hdeg.
  destruct (break_cycles_cases vo g root directed comp1 comp2 false Hres) as [[_ E]|[[N _]|[_ E]]];
    [rewrite E; eexists; reflexivity | exfalso; apply N; split; assumption | rewrite E].
  destruct (uloop_total (length g) (ustarts vo comp2 root) (drop_loops g)) as [h Hh].
  - apply (wf_sub _ g Hwf). apply drop_loops_sub.
  - intros s. rewrite drop_loops_length, <- Hlen. apply ustarts_lt. rewrite Hlen. exact Hroot.
  - rewrite drop_loops_length. lia.
  - rewrite Hh. eexists; reflexivity.
Qed.
