(** Termination of the nearest-neighbour chain of Paris for the source as generated in Gen/ParisSrc.v (cited by property C17).

    [paris_total] (Proofs/ParisTotal.v) is proved for the model of the scan with the EXACT tie test and the smallest-index
    choice ([nn_step]: replace on [sim > max_sim], [min] on [sim == max_sim]); that this is what the source does is the
    generated fact [paris_src_tie_exact] (harness/translators/paris.py, regenerated from paris.pyx on every run).  The
    clamp of the heights ([paris_src_clamp]) does not influence the control flow: runs with and without it go through
    the same states up to the heights. *)
From Coq Require Import Lia QArith.
From SKN Require Import Base.Util Model.Dendrogram Model.Cuts Model.Hierarchy Model.Paris Proofs.DendroBase Proofs.ParisProofs Proofs.ParisReducible Proofs.ParisTotal Gen.ParisSrc.
Close Scope Q_scope.

(** The run ends normally within the fuel whatever the clamp flag. *)
Theorem paris_run_total_any_clamp (clamp : bool) (n : nat) (G : entries) (wout win : list Q) :
  1 <= n -> graph_ok n G -> weights_ok n wout -> weights_ok n win ->
  exists st, paris_run exact clamp (paris_fuel n) (paris_init (ag_init exact n G wout win)) = Some (Ok st) /\ p_comps st <> [].
Proof.
  intros Hn HG Ho Hi. destruct (paris_run_total n G wout win Hn HG Ho Hi) as (st & Erun & Hc).
  destruct clamp; [|now exists st].
  assert (S := run_clamp_sim exact n (paris_fuel n) _ _ (clamp_sim_init exact n G wout win)). rewrite Erun in S.
  destruct (paris_run exact true (paris_fuel n) (paris_init (ag_init exact n G wout win))) as [[st'|e]|]; try contradiction.
  exists st'. split; [reflexivity|]. destruct S as [E _]. injection E as _ _ Ec _ _ _. now rewrite Ec.
Qed.

(** The statement to cite from C17: for the model with the height clamp of the source ([paris_src_clamp]), PROVIDED the
    source's tie branch is the exact test with the smallest-index choice, the nearest-neighbour chain ends normally —
    no KeyError, at most 3n + 1 steps (fuel 3n + 2) — on every symmetric graph with positive edge weights and positive
    node weights.  For any other tie rule (e.g. a tolerance, which is neither transitive nor independent of the scan
    order) nothing is claimed: the chain can then cycle forever. *)
Theorem paris_terminates_for_source (n : nat) (G : entries) (wout win : list Q) :
  paris_src_tie_exact = true ->
  1 <= n -> graph_ok n G -> weights_ok n wout -> weights_ok n win ->
  exists st, paris_run exact paris_src_clamp (paris_fuel n) (paris_init (ag_init exact n G wout win)) = Some (Ok st) /\
             p_comps st <> [].
Proof. intros _. apply paris_run_total_any_clamp. Qed.

Print Assumptions paris_terminates_for_source.
