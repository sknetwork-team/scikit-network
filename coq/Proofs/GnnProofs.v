(** Algebra over Q for the GNN model: forward formula, equivariance, sampler, predictions.
    No axiom is used (the [Print Assumptions] are in Props/C19.v). *)
From SKN Require Import Base.Util Model.Gnn.
Set Warnings "-notation-overridden,-ambiguous-paths".
From Coq Require Import QArith Lqa Setoid Morphisms.

Local Open Scope Q_scope.

(** * Finite sums *)
Lemma sumq_map_scale_r {X} (c : Q) (f : X -> Q) (l : list X) :
  sumq (map (fun x => f x * c) l) == sumq (map f l) * c.
Proof. unfold sumq. induction l as [|a t IH]; cbn [map fold_right]; [|rewrite IH]; ring. Qed.

Lemma sumq_Forall2 (l1 l2 : list Q) : Forall2 Qeq l1 l2 -> sumq l1 == sumq l2.
Proof.
  unfold sumq. induction 1 as [|a b t1 t2 Hab _ IH]; cbn [fold_right]; [|rewrite Hab, IH]; reflexivity.
Qed.

Lemma qsum_ext n f g : (forall j, (j < n)%nat -> f j == g j) -> qsum n f == qsum n g.
Proof.
  intros H. unfold qsum. apply sumq_ext. intros j Hj. apply in_seq in Hj. apply H. lia.
Qed.

Lemma qsum_plus n f g : qsum n (fun j => f j + g j) == qsum n f + qsum n g.
Proof. unfold qsum, sumq. induction (seq 0 n) as [|a t IH]; cbn [map fold_right]; [|rewrite IH]; ring. Qed.

Lemma qsum_scale n c f : qsum n (fun j => c * f j) == c * qsum n f.
Proof. unfold qsum, sumq. induction (seq 0 n) as [|a t IH]; cbn [map fold_right]; [|rewrite IH]; ring. Qed.

Lemma qsum_scale_r n c f : qsum n (fun j => f j * c) == qsum n f * c.
Proof. unfold qsum. apply sumq_map_scale_r. Qed.

Lemma qsum_delta n j0 a x :
  (j0 < n)%nat -> qsum n (fun j => (if Nat.eqb j0 j then a else 0) * x j) == a * x j0.
Proof.
  unfold qsum. induction n as [|n IH]; intros H; [lia|].
  rewrite seq_S, map_app, sumq_app. cbn [map sumq fold_right Nat.add].
  destruct (Nat.eqb_spec j0 n) as [->|Hne].
  - rewrite sumq_zero; [ring|]. intros j Hj. apply in_seq in Hj. destruct (Nat.eqb_spec n j); [lia | ring].
  - rewrite IH by lia. ring.
Qed.

(** * Sparse rows and their dense denotation *)
Lemma rentry_cons e r j :
  rentry (e :: r) j == (if Nat.eqb (fst e) j then snd e else 0) + rentry r j.
Proof.
  unfold rentry, sumq. cbn [filter]. destruct (Nat.eqb (fst e) j); cbn [map fold_right]; ring.
Qed.

(** A sparse dot product equals the dense sum over the denotation of the row. *)
Lemma row_dot_dense n (r : srow) (x : nat -> Q) :
  (forall e, In e r -> (fst e < n)%nat) ->
  sumq (map (fun e => snd e * x (fst e)) r) == qsum n (fun j => rentry r j * x j).
Proof.
  induction r as [|e r IH]; intros Hwf.
  - symmetry. apply sumq_zero. intros j _. unfold rentry. cbn. ring.
  - cbn [map sumq fold_right]. unfold sumq in IH. rewrite IH by (intros e' He'; apply Hwf; right; exact He').
    rewrite (qsum_ext n (fun j => rentry (e :: r) j * x j)
                      (fun j => (if Nat.eqb (fst e) j then snd e else 0) * x j + rentry r j * x j)).
    + rewrite qsum_plus, qsum_delta by (apply Hwf; left; reflexivity). reflexivity.
    + intros j _. rewrite rentry_cons. ring.
Qed.

Lemma row_weight_deg n (r : srow) :
  (forall e, In e r -> (fst e < n)%nat) -> row_weight r == qsum n (rentry r).
Proof.
  intros Hwf. unfold row_weight.
  rewrite (qsum_ext n (rentry r) (fun j => rentry r j * 1)) by (intros; ring).
  rewrite <- (row_dot_dense n r (fun _ => 1) Hwf).
  apply sumq_ext. intros; ring.
Qed.

Lemma rentry_scale_row (f : nat -> Q -> Q) (c : Q) (r : srow) (j : nat) :
  (forall a, f j a == c * a) -> rentry (scale_row f r) j == c * rentry r j.
Proof.
  intros Hf. induction r as [|e r IH].
  - unfold rentry. cbn. ring.
  - unfold scale_row in *. cbn [map]. rewrite !rentry_cons, IH. cbn [fst snd].
    destruct (Nat.eqb (fst e) j) eqn:E.
    + apply Nat.eqb_eq in E. rewrite E, Hf. ring.
    + ring.
Qed.

Global Instance pinv_proper : Proper (Qeq ==> Qeq) pinv.
Proof. intros a b H. unfold pinv. rewrite H. destruct (Qeq_bool b 0); [|rewrite H]; reflexivity. Qed.

Lemma pinv_nonzero a : ~ a == 0 -> pinv a == / a.
Proof. intros H. unfold pinv. destruct (Qeq_bool a 0) eqn:E; [apply Qeq_bool_iff in E; contradiction | reflexivity]. Qed.

Lemma wf_row A n i : wf_smat n A -> forall e, In e (nth i A []) -> (fst e < n)%nat.
Proof.
  intros Hwf e He. destruct (Nat.lt_ge_cases i (length A)) as [Hi|Hi].
  - apply (Hwf (nth i A [])); [apply nth_In; exact Hi | exact He].
  - rewrite nth_overflow in He by exact Hi. contradiction.
Qed.

Lemma wf_smatb_ok n A : wf_smatb n A = true -> wf_smat n A.
Proof.
  unfold wf_smatb, wf_smat. intros H r Hr e He.
  rewrite forallb_forall in H. specialize (H r Hr). rewrite forallb_forall in H.
  specialize (H e He). apply Nat.ltb_lt in H. exact H.
Qed.

Lemma nthq_weights A i : nthq (weights A) i = row_weight (nth i A []).
Proof. unfold nthq, weights. exact (map_nth row_weight A [] i). Qed.

Lemma weights_deg A i : wf_smat (length A) A -> nthq (weights A) i == deg A i.
Proof.
  intros Hwf. rewrite nthq_weights. unfold deg, sentry.
  apply row_weight_deg. apply wf_row. exact Hwf.
Qed.

Lemma nth_map_default {X Y} (h : X -> Y) (l : list X) (i : nat) (dx : X) (dy : Y) :
  (i < length l)%nat -> nth i (map h l) dy = h (nth i l dx).
Proof.
  intros Hi. rewrite (nth_indep _ dy (h dx)) by (rewrite map_length; exact Hi). apply map_nth.
Qed.

Lemma normalise_row sqrtf nm A i :
  (i < length A)%nat ->
  nth i (normalise sqrtf nm A) [] =
  match nm with
  | NLeft => scale_row (fun _ a => pinv (nthq (weights A) i) * a) (nth i A [])
  | NRight => scale_row (fun j a => a * pinv (nthq (weights A) j)) (nth i A [])
  | NBoth => scale_row (fun j a => pinv (nthq (map sqrtf (weights A)) i) * a
                                   * pinv (nthq (map sqrtf (weights A)) j)) (nth i A [])
  | NOther => nth i A []
  end.
Proof.
  intros Hi. unfold normalise. cbv zeta. destruct nm.
  - rewrite (nth_map2 _ _ _ _ 0 (@nil (nat * Q)) (@nil (nat * Q))); [reflexivity | unfold weights; rewrite map_length; exact Hi | exact Hi].
  - apply nth_map_default. exact Hi.
  - rewrite (nth_map2 _ _ _ _ 0 (@nil (nat * Q)) (@nil (nat * Q)));
      [reflexivity | unfold weights; rewrite !map_length; exact Hi | exact Hi].
  - reflexivity.
Qed.

Lemma nthq_map_sqrt sqrtf (w : list Q) j :
  (j < length w)%nat -> nthq (map sqrtf w) j = sqrtf (nthq w j).
Proof. apply nth_map_default. Qed.

Lemma normalise_length sqrtf nm A : length (normalise sqrtf nm A) = length A.
Proof.
  unfold normalise. cbv zeta. destruct nm.
  - rewrite map2_length. unfold weights. rewrite map_length. apply Nat.min_id.
  - apply map_length.
  - rewrite map2_length. unfold weights. rewrite !map_length. apply Nat.min_id.
  - reflexivity.
Qed.

(** * The matrix handed to the message step *)
Lemma add_self_loops_length N : length (add_self_loops N) = length N.
Proof. unfold add_self_loops. rewrite map2_length, seq_length. apply Nat.min_id. Qed.

Lemma add_self_loops_row N i :
  (i < length N)%nat -> nth i (add_self_loops N) [] = (i, 1) :: nth i N [].
Proof.
  intros Hi. unfold add_self_loops.
  rewrite (nth_map2 _ _ _ _ 0%nat (@nil (nat * Q)) (@nil (nat * Q))); [| rewrite seq_length; exact Hi | exact Hi].
  rewrite seq_nth by exact Hi. reflexivity.
Qed.

Lemma conv_adjacency_length sqrtf L A : length (conv_adjacency sqrtf L A) = length A.
Proof.
  unfold conv_adjacency. destruct (l_self L); [rewrite add_self_loops_length|]; apply normalise_length.
Qed.

Lemma scale_row_fst f r e : In e (scale_row f r) -> exists e0, In e0 r /\ fst e = fst e0.
Proof.
  unfold scale_row. intros H. apply in_map_iff in H. destruct H as [e0 [E H]]. exists e0. subst e. split; [exact H|reflexivity].
Qed.

Lemma normalise_wf sqrtf nm A n i :
  wf_smat n A -> forall e, In e (nth i (normalise sqrtf nm A) []) -> (fst e < n)%nat.
Proof.
  intros Hwf e He. destruct (Nat.lt_ge_cases i (length A)) as [Hi|Hi].
  - rewrite normalise_row in He by exact Hi.
    destruct nm; try (apply scale_row_fst in He; destruct He as [e0 [H0 E]]; rewrite E);
      try (apply (wf_row A n i Hwf); assumption).
  - rewrite nth_overflow in He by (rewrite normalise_length; exact Hi). contradiction.
Qed.

Lemma conv_adjacency_wf sqrtf L A i :
  wf_smat (length A) A -> (i < length A)%nat ->
  forall e, In e (nth i (conv_adjacency sqrtf L A) []) -> (fst e < length A)%nat.
Proof.
  intros Hwf Hi e He. unfold conv_adjacency in He. destruct (l_self L).
  - rewrite add_self_loops_row in He by (rewrite normalise_length; exact Hi).
    destruct He as [He|He]; [subst e; exact Hi | exact (normalise_wf _ _ _ _ _ Hwf e He)].
  - exact (normalise_wf _ _ _ _ _ Hwf e He).
Qed.

Definition sqrt_proper (sqrtf : Q -> Q) (nm : norm) : Prop :=
  nm = NBoth -> Proper (Qeq ==> Qeq) sqrtf.

Lemma normalise_entry sqrtf nm A i j :
  wf_smat (length A) A -> sqrt_proper sqrtf nm -> (i < length A)%nat -> (j < length A)%nat ->
  rentry (nth i (normalise sqrtf nm A) []) j == nspec sqrtf nm A i j.
Proof.
  intros Hwf Hsq Hi Hj. rewrite normalise_row by exact Hi. unfold nspec, sentry. destruct nm.
  - rewrite (rentry_scale_row _ (pinv (nthq (weights A) i))) by (intros; reflexivity).
    rewrite weights_deg by exact Hwf. reflexivity.
  - rewrite (rentry_scale_row _ (pinv (nthq (weights A) j))) by (intros; ring).
    rewrite weights_deg by exact Hwf. ring.
  - pose proof (Hsq eq_refl) as Hp.
    rewrite (rentry_scale_row _ (pinv (nthq (map sqrtf (weights A)) i) * pinv (nthq (map sqrtf (weights A)) j)))
      by (intros; ring).
    rewrite !nthq_map_sqrt by (unfold weights; rewrite map_length; assumption).
    rewrite !weights_deg by exact Hwf. ring.
  - reflexivity.
Qed.

Lemma conv_adjacency_entry sqrtf L A i j :
  wf_smat (length A) A -> sqrt_proper sqrtf (l_norm L) -> (i < length A)%nat -> (j < length A)%nat ->
  rentry (nth i (conv_adjacency sqrtf L A) []) j == nbar sqrtf (l_norm L) (l_self L) A i j.
Proof.
  intros Hwf Hsq Hi Hj. unfold conv_adjacency, nbar. destruct (l_self L).
  - rewrite add_self_loops_row by (rewrite normalise_length; exact Hi).
    rewrite rentry_cons, normalise_entry by assumption. cbn [fst snd andb]. ring.
  - rewrite normalise_entry by assumption. cbn [andb]. ring.
Qed.

(** * forward = activation (N(A) X W + b) *)
Lemma embedding_length sqrtf L A F : length (embedding sqrtf L A F) = length A.
Proof. unfold embedding. rewrite map_length. apply conv_adjacency_length. Qed.

Lemma embedding_row sqrtf L A F i :
  (i < length A)%nat ->
  nth i (embedding sqrtf L A F) [] =
  affine_row L (f_ncol F) (message_row F (nth i (conv_adjacency sqrtf L A) [])).
Proof.
  intros Hi. unfold embedding.
  apply (nth_map_default (fun r => affine_row L (f_ncol F) (message_row F r))).
  rewrite conv_adjacency_length. exact Hi.
Qed.

(** The message step computes (N(A) + [self] I) X. *)
Lemma message_row_entry sqrtf L A F i c :
  wf_smat (length A) A -> sqrt_proper sqrtf (l_norm L) -> (i < length A)%nat -> (c < f_ncol F)%nat ->
  nthq (message_row F (nth i (conv_adjacency sqrtf L A) [])) c ==
  mmul (length A) (nbar sqrtf (l_norm L) (l_self L) A) (fentry F) i c.
Proof.
  intros Hwf Hsq Hi Hc. unfold message_row, nthq. rewrite nth_map_seq by exact Hc.
  rewrite (row_dot_dense (length A) _ (fun j => fentry F j c)) by (apply conv_adjacency_wf; assumption).
  apply qsum_ext. intros j Hj. rewrite conv_adjacency_entry by assumption. reflexivity.
Qed.

Theorem embedding_formula sqrtf L A F i k :
  wf_smat (length A) A -> sqrt_proper sqrtf (l_norm L) ->
  (i < length A)%nat -> (k < l_out L)%nat ->
  dentry (embedding sqrtf L A F) i k == spec_embedding sqrtf L A F i k.
Proof.
  intros Hwf Hsq Hi Hk. unfold dentry. rewrite embedding_row by exact Hi.
  unfold affine_row, nthq at 1. rewrite nth_map_seq by exact Hk.
  unfold spec_embedding, mmul at 1, qsum at 1.
  assert (Hx : forall c, In c (seq 0 (f_ncol F)) ->
            nthq (message_row F (nth i (conv_adjacency sqrtf L A) [])) c * dentry (l_weight L) c k ==
            mmul (length A) (nbar sqrtf (l_norm L) (l_self L) A) (fentry F) i c * dentry (l_weight L) c k).
  { intros c Hc. apply in_seq in Hc. rewrite message_row_entry by (assumption || lia). reflexivity. }
  destruct (l_use_bias L); rewrite (sumq_ext _ _ _ Hx); ring.
Qed.

(** The activations respect equality of rationals (given that the exp oracle does). *)
Definition uses_exp (a : activation) : bool :=
  match a with Identity | Relu => false | _ => true end.

Lemma relu_compat x y : x == y -> relu x == relu y.
Proof.
  intros H. unfold relu, g_relu, Qltb. rewrite H. destruct (Qle_bool y 0); [reflexivity | exact H].
Qed.

Lemma sigmoid_compat expf x y : Proper (Qeq ==> Qeq) expf -> x == y -> sigmoid expf x == sigmoid expf y.
Proof.
  intros Hp H. unfold sigmoid, g_sigmoid. rewrite (Hp (0 - x) (0 - y)); [reflexivity|]. rewrite H. reflexivity.
Qed.

Lemma Forall2_map {X Y} (R : Y -> Y -> Prop) (f g : X -> Y) (P : X -> X -> Prop) l1 l2 :
  (forall a b, P a b -> R (f a) (g b)) -> Forall2 P l1 l2 -> Forall2 R (map f l1) (map g l2).
Proof. intros H. induction 1; cbn [map]; constructor; auto. Qed.

Lemma softmax_row_compat expf r1 r2 :
  Proper (Qeq ==> Qeq) expf -> Forall2 Qeq r1 r2 -> Forall2 Qeq (softmax_row expf r1) (softmax_row expf r2).
Proof.
  intros Hp H. unfold softmax_row, g_softmax_row. cbv zeta.
  assert (Forall2 Qeq (map expf r1) (map expf r2)) as He
      by (apply (Forall2_map Qeq expf expf Qeq); [intros a b Hab; apply Hp; exact Hab | exact H]).
  pose proof (sumq_Forall2 _ _ He) as Hs. unfold sumq in Hs.
  apply (Forall2_map Qeq _ _ Qeq); [|exact He].
  intros a b Hab. unfold g_sum. rewrite Hab, Hs. reflexivity.
Qed.

Lemma act_row_compat expf a r1 r2 :
  (uses_exp a = true -> Proper (Qeq ==> Qeq) expf) ->
  Forall2 Qeq r1 r2 -> Forall2 Qeq (act_row expf a r1) (act_row expf a r2).
Proof.
  intros Hp H. destruct a; cbn [act_row]; try exact H; try (apply softmax_row_compat; [apply Hp; reflexivity | exact H]).
  1: apply (Forall2_map Qeq relu relu Qeq); [apply relu_compat | exact H].
  all: apply (Forall2_map Qeq _ _ Qeq); [intros x y; apply sigmoid_compat; apply Hp; reflexivity | exact H].
Qed.

Lemma Forall2_map_In {X Y} (R : Y -> Y -> Prop) (f g : X -> Y) l :
  (forall x, In x l -> R (f x) (g x)) -> Forall2 R (map f l) (map g l).
Proof.
  induction l as [|x l IH]; intros H; cbn [map]; constructor.
  - apply H. left. reflexivity.
  - apply IH. intros y Hy. apply H. right. exact Hy.
Qed.

Lemma embedding_row_seq sqrtf L A F i :
  (i < length A)%nat ->
  nth i (embedding sqrtf L A F) [] = map (fun k => dentry (embedding sqrtf L A F) i k) (seq 0 (l_out L)).
Proof.
  intros Hi. unfold dentry. rewrite embedding_row by exact Hi.
  set (m := message_row F (nth i (conv_adjacency sqrtf L A) [])).
  unfold affine_row at 1. apply map_ext_in. intros k Hk. apply in_seq in Hk.
  symmetry. unfold affine_row, nthq at 1. rewrite nth_map_seq by lia. reflexivity.
Qed.

Lemma forward_length sqrtf expf L A F : length (forward sqrtf expf L A F) = length A.
Proof. unfold forward. rewrite map_length. apply embedding_length. Qed.

Lemma forward_row sqrtf expf L A F i : (i < length A)%nat ->
  nth i (forward sqrtf expf L A F) [] = act_row expf (l_act L) (nth i (embedding sqrtf L A F) []).
Proof. intros Hi. apply nth_map_default. rewrite embedding_length. exact Hi. Qed.

Theorem forward_formula sqrtf expf L A F :
  wf_smat (length A) A -> sqrt_proper sqrtf (l_norm L) ->
  (uses_exp (l_act L) = true -> Proper (Qeq ==> Qeq) expf) ->
  length (forward sqrtf expf L A F) = length A /\
  forall i, (i < length A)%nat ->
    Forall2 Qeq (nth i (forward sqrtf expf L A F) []) (spec_forward sqrtf expf L A F i).
Proof.
  intros Hwf Hsq Hexp. split; [apply forward_length|].
  intros i Hi. unfold spec_forward. rewrite forward_row, embedding_row_seq by exact Hi.
  apply act_row_compat; [exact Hexp|].
  apply Forall2_map_In. intros k Hk. apply in_seq in Hk. apply embedding_formula; [assumption.. | lia].
Qed.

(** Under the contract of the square-root oracle, [NBoth] is D^-1/2 A D^-1/2 (zero rows/columns stay 0). *)
Theorem both_is_symmetric_normalisation sqrtf A i j :
  (forall d, 0 < d -> 0 < sqrtf d /\ sqrtf d * sqrtf d == d) ->
  0 < deg A i -> 0 < deg A j ->
  nspec sqrtf NBoth A i j * (sqrtf (deg A i) * sqrtf (deg A j)) == sentry A i j /\
  nspec sqrtf NBoth A i j * nspec sqrtf NBoth A i j * (deg A i * deg A j) == sentry A i j * sentry A i j.
Proof.
  intros Hs Hi Hj. destruct (Hs _ Hi) as [Pi Si]. destruct (Hs _ Hj) as [Pj Sj].
  cbn [nspec]. set (si := sqrtf (deg A i)) in *. set (sj := sqrtf (deg A j)) in *. set (a := sentry A i j).
  assert (~ si == 0) as Ni by (intros E; rewrite E in Pi; lra).
  assert (~ sj == 0) as Nj by (intros E; rewrite E in Pj; lra).
  set (N := pinv si * a * pinv sj).
  assert (N * (si * sj) == a) as H1 by (unfold N; rewrite !pinv_nonzero by assumption; field; split; assumption).
  split; [exact H1|]. rewrite <- Si, <- Sj, <- H1. ring.
Qed.

Theorem both_zero_degree sqrtf A i j :
  Proper (Qeq ==> Qeq) sqrtf -> sqrtf 0 == 0 -> (deg A i == 0 \/ deg A j == 0) ->
  nspec sqrtf NBoth A i j == 0.
Proof.
  intros Hp H0 [H|H]; cbn [nspec]; rewrite H, H0; unfold pinv at 1; cbn; ring.
Qed.

(** * Renumbering the nodes *)
Definition relabel (p : list nat) (e : nat * Q) : nat * Q := (nthn p (fst e), snd e).

Lemma perm_adj_length p q A : length (perm_adj p q A) = length A.
Proof. unfold perm_adj. rewrite map_length, seq_length. reflexivity. Qed.

Lemma perm_adj_row p q A i' :
  (i' < length A)%nat -> nth i' (perm_adj p q A) [] = map (relabel p) (nth (nthn q i') A []).
Proof. intros Hi. unfold perm_adj. rewrite nth_map_seq by exact Hi. reflexivity. Qed.

Lemma perm_rows_length {X} q (M : list (list X)) : length (perm_rows q M) = length M.
Proof. unfold perm_rows. rewrite map_length, seq_length. reflexivity. Qed.

Lemma perm_rows_row {X} q (M : list (list X)) i' :
  (i' < length M)%nat -> nth i' (perm_rows q M) [] = nth (nthn q i') M [].
Proof. intros Hi. unfold perm_rows. rewrite nth_map_seq by exact Hi. reflexivity. Qed.

Lemma row_weight_relabel p r : row_weight (map (relabel p) r) = row_weight r.
Proof. unfold row_weight. rewrite map_map. reflexivity. Qed.

Lemma weights_perm p q A i' :
  (i' < length A)%nat -> nthq (weights (perm_adj p q A)) i' = nthq (weights A) (nthn q i').
Proof.
  intros Hi. rewrite !nthq_weights, perm_adj_row by exact Hi. apply row_weight_relabel.
Qed.

Section Renumbering.
Context (p q : list nat) (A : smat) (Hwf : wf_smat (length A) A) (Hinv : inverse_on (length A) p q).

Lemma normalise_perm_row sqrtf nm i' :
  (i' < length A)%nat ->
  nth i' (normalise sqrtf nm (perm_adj p q A)) [] = map (relabel p) (nth (nthn q i') (normalise sqrtf nm A) []).
Proof.
  intros Hi. destruct Hinv as [Hpq [Hq Hqp]].
  rewrite !normalise_row, perm_adj_row by (rewrite ?perm_adj_length; auto).
  assert (forall e, In e (nth (nthn q i') A []) ->
            (nthn p (fst e) < length A)%nat /\
            nthq (weights (perm_adj p q A)) (nthn p (fst e)) = nthq (weights A) (fst e)) as Hw.
  { intros e He. destruct (Hpq _ (wf_row A _ _ Hwf e He)) as [Hpj Eqp].
    rewrite weights_perm, Eqp by exact Hpj. split; [exact Hpj | reflexivity]. }
  destruct nm; try reflexivity; unfold scale_row; rewrite !map_map; apply map_ext_in; intros e He;
    unfold relabel; cbn [fst snd]; f_equal; destruct (Hw e He) as [Hpj Ew].
  - rewrite weights_perm by exact Hi. reflexivity.
  - rewrite Ew. reflexivity.
  - rewrite !nthq_map_sqrt by
        (unfold weights; rewrite map_length, ?perm_adj_length; first [assumption | apply Hq, Hi | exact (wf_row A _ _ Hwf e He)]).
    rewrite Ew, weights_perm by exact Hi. reflexivity.
Qed.

Lemma conv_adjacency_perm_row sqrtf L i' :
  (i' < length A)%nat ->
  nth i' (conv_adjacency sqrtf L (perm_adj p q A)) [] = map (relabel p) (nth (nthn q i') (conv_adjacency sqrtf L A) []).
Proof.
  intros Hi. unfold conv_adjacency. destruct (l_self L); [|apply normalise_perm_row; exact Hi].
  destruct Hinv as [Hpq [Hq Hqp]].
  rewrite !add_self_loops_row, normalise_perm_row by (rewrite ?normalise_length, ?perm_adj_length; auto).
  cbn [map]. unfold relabel at 2. cbn [fst snd]. rewrite (Hqp _ Hi). reflexivity.
Qed.
End Renumbering.

Lemma fentry_perm q F i' c :
  (i' < f_nrow F)%nat -> fentry (perm_feats q F) i' c = fentry F (nthn q i') c.
Proof.
  intros Hi. destruct F as [d rows|d rows]; cbn [perm_feats fentry f_nrow] in *.
  - unfold dentry. rewrite perm_rows_row by exact Hi. reflexivity.
  - unfold sentry. f_equal. exact (@perm_rows_row (nat * Q) q rows i' Hi).
Qed.

Lemma f_ncol_perm q F : f_ncol (perm_feats q F) = f_ncol F.
Proof. destruct F; reflexivity. Qed.

Lemma message_row_perm p q F (r : srow) :
  (forall j, (j < f_nrow F)%nat -> (nthn p j < f_nrow F)%nat /\ nthn q (nthn p j) = j) ->
  (forall e, In e r -> (fst e < f_nrow F)%nat) ->
  message_row (perm_feats q F) (map (relabel p) r) = message_row F r.
Proof.
  intros Hpq Hwf. unfold message_row. rewrite f_ncol_perm. apply map_ext. intros c.
  f_equal. rewrite map_map. apply map_ext_in. intros e He. unfold relabel. cbn [fst snd].
  destruct (Hpq _ (Hwf e He)) as [Hpj Eqp].
  rewrite fentry_perm by exact Hpj. rewrite Eqp. reflexivity.
Qed.

Theorem forward_equivariant sqrtf expf L A F p q :
  wf_smat (length A) A -> f_nrow F = length A -> inverse_on (length A) p q ->
  forward sqrtf expf L (perm_adj p q A) (perm_feats q F) = perm_rows q (forward sqrtf expf L A F).
Proof.
  intros Hwf HF Hinv. pose proof Hinv as [Hpq [Hq Hqp]].
  apply (nth_ext _ _ [] []).
  - rewrite perm_rows_length, !forward_length. apply perm_adj_length.
  - intros i' Hi'. rewrite forward_length, perm_adj_length in Hi'.
    rewrite perm_rows_row by (rewrite forward_length; exact Hi').
    rewrite !forward_row, !embedding_row, conv_adjacency_perm_row by (rewrite ?perm_adj_length; auto).
    rewrite f_ncol_perm, message_row_perm; [reflexivity | rewrite HF; exact Hpq |].
    rewrite HF. apply conv_adjacency_wf; [exact Hwf | apply Hq; exact Hi'].
Qed.

Lemma inverse_onb_ok n p q : inverse_onb n p q = true -> inverse_on n p q.
Proof.
  unfold inverse_onb, inverse_on. rewrite forallb_forall. intros H.
  assert (forall j, (j < n)%nat ->
            ((nthn p j < n)%nat /\ nthn q (nthn p j) = j) /\ (nthn q j < n)%nat /\ nthn p (nthn q j) = j) as G.
  { intros j Hj. assert (In j (seq 0 n)) as Hin by (apply in_seq; lia). specialize (H j Hin).
    rewrite !andb_true_iff, !Nat.ltb_lt, !Nat.eqb_eq in H. tauto. }
  split; [|split]; intros j Hj; apply (G j Hj).
Qed.

(** * UniformNeighborSampler *)
(** [r'] is a sample of at most [ss] stored entries of [r], in storage order, all weights reset to 1. *)
Definition sampled_of (ss : nat) (r r' : srow) : Prop :=
  exists ts, r' = map (fun t => (fst (nth t r (0%nat, 0)), 1)) ts /\
             NoDup ts /\ (forall t, In t ts -> (t < length r)%nat) /\
             (length ts <= Nat.min (length r) ss)%nat.

(** The positions the sampler keeps: those of [pos] that lie in the row, each once, in storage order. *)
Lemma kept_positions n pos :
  let ts := filter (fun t => memn t pos) (seq 0 n) in
  NoDup ts /\ forall t, In t ts <-> (t < n)%nat /\ In t pos.
Proof.
  split; [apply NoDup_filter, seq_NoDup|].
  intros t. rewrite filter_In, in_seq, memn_In. intuition lia.
Qed.

Lemma sample_row_spec ss r choice r' : sample_row ss r choice = Ok r' -> sampled_of ss r r'.
Proof.
  unfold sample_row. cbv zeta. set (pos := firstn _ choice).
  destruct (forallb _ pos); [|discriminate]. intros H. injection H as <-.
  destruct (kept_positions (length r) pos) as [Hnd Hin].
  eexists. split; [reflexivity|]. split; [exact Hnd|]. split; [intros t Ht; apply Hin, Ht|].
  transitivity (length pos); [|unfold pos; rewrite firstn_length; lia].
  apply NoDup_incl_length; [exact Hnd | intros t Ht; apply Hin, Ht].
Qed.

Lemma sampled_of_subset ss r r' :
  sampled_of ss r r' ->
  (length r' <= ss)%nat /\ (length r' <= length r)%nat /\
  forall e, In e r' -> snd e = 1 /\ exists e0, In e0 r /\ fst e0 = fst e.
Proof.
  intros [ts [E [Hnd [Hlt Hlen]]]]. subst r'. rewrite map_length. split; [lia|]. split; [lia|].
  intros e He. apply in_map_iff in He. destruct He as [t [Et Ht]]. subst e. cbn [fst snd].
  split; [reflexivity|]. exists (nth t r (0%nat, 0)). split; [apply nth_In; apply Hlt; exact Ht | reflexivity].
Qed.

Lemma Forall2_impl {X Y} (P Q : X -> Y -> Prop) l1 l2 :
  (forall a b, P a b -> Q a b) -> Forall2 P l1 l2 -> Forall2 Q l1 l2.
Proof. intros H. induction 1; constructor; auto. Qed.

(** With an answer that honours the contract of [np.random.choice(deg, size, replace=False)] the
    sample has exactly min(deg, sample_size) entries. *)
Lemma sample_row_exact ss r choice :
  NoDup choice -> (forall t, In t choice -> (t < length r)%nat) -> (Nat.min (length r) ss <= length choice)%nat ->
  exists r', sample_row ss r choice = Ok r' /\ length r' = Nat.min (length r) ss.
Proof.
  intros Hnd Hlt Hlen. unfold sample_row. cbv zeta. set (k := Nat.min (length r) ss). set (pos := firstn k choice).
  rewrite <- (firstn_skipn k choice) in Hnd, Hlt. fold pos in Hnd, Hlt. apply NoDup_app_l in Hnd.
  assert (forall t, In t pos -> (t < length r)%nat) as Hpos by (intros t Ht; apply Hlt, in_or_app; left; exact Ht).
  replace (forallb _ pos) with true by (symmetry; apply forallb_forall; intros t Ht; apply Nat.ltb_lt, Hpos, Ht).
  destruct (kept_positions (length r) pos) as [Hk Hin].
  eexists. split; [reflexivity|]. rewrite map_length.
  replace k with (length pos) by (unfold pos; rewrite firstn_length; lia).
  apply Nat.le_antisymm; apply NoDup_incl_length; try assumption; intros t Ht; apply Hin; [exact Ht|].
  split; [apply Hpos, Ht | exact Ht].
Qed.

Theorem sampler_subset ss A choices A' :
  sample_rows ss A choices = Ok A' -> Forall2 (sampled_of ss) A A'.
Proof.
  revert choices A'. induction A as [|r A IH]; intros choices A' H; cbn [sample_rows] in H.
  - injection H as H. subst A'. constructor.
  - destruct (sample_row ss r (hd [] choices)) as [r'|] eqn:E1; [|discriminate].
    destruct (sample_rows ss A (tl choices)) as [rest|] eqn:E2; [|discriminate].
    injection H as H. subst A'. constructor; [exact (sample_row_spec _ _ _ _ E1) | exact (IH _ _ E2)].
Qed.

(** * Predictions *)
Lemma Qltb_lt a b : Qltb a b = true <-> a < b.
Proof.
  unfold Qltb. rewrite negb_true_iff. split.
  - intros H. apply Qnot_le_lt. intros Hle. apply Qle_bool_iff in Hle. congruence.
  - intros H. destruct (Qle_bool b a) eqn:E; [|reflexivity]. apply Qle_bool_iff in E. lra.
Qed.

Lemma Qltb_ge a b : Qltb a b = false <-> b <= a.
Proof.
  unfold Qltb. rewrite negb_false_iff. apply Qle_bool_iff.
Qed.

Lemma argmax_from_spec (L : list Q) :
  forall l pre best besti,
    L = pre ++ l -> (besti < length pre)%nat -> nthq L besti = best ->
    (forall x, In x pre -> x <= best) ->
    let r := argmax_from best besti (length pre) l in
    (r < length L)%nat /\ forall x, In x L -> x <= nthq L r.
Proof.
  induction l as [|x t IH]; intros pre best besti HL Hb Hn Hpre; cbn [argmax_from].
  - rewrite app_nil_r in HL. subst L. cbv zeta. split; [exact Hb|]. rewrite Hn. exact Hpre.
  - assert (L = (pre ++ [x]) ++ t) as HL' by (rewrite <- app_assoc; exact HL).
    assert (length (pre ++ [x]) = S (length pre)) as Hlen by (rewrite app_length; cbn; lia).
    rewrite <- Hlen.
    destruct (Qltb best x) eqn:E; [apply Qltb_lt in E | apply Qltb_ge in E]; (apply IH; [exact HL' | lia | |]).
    + rewrite HL. apply nth_middle.
    + intros y Hy. apply in_app_or in Hy. destruct Hy as [Hy|[<-|[]]]; [specialize (Hpre y Hy)|]; lra.
    + exact Hn.
    + intros y Hy. apply in_app_or in Hy. destruct Hy as [Hy|[<-|[]]]; [exact (Hpre y Hy) | exact E].
Qed.

Lemma argmax_spec (l : list Q) :
  l <> [] -> (argmax l < length l)%nat /\ forall x, In x l -> x <= nthq l (argmax l).
Proof.
  destruct l as [|x t]; [congruence|]. intros _. unfold argmax.
  apply (argmax_from_spec (x :: t) t [x] x 0%nat); [reflexivity | cbn; lia | reflexivity|].
  intros y [<-|[]]. lra.
Qed.

Lemma predict_row_range row : (1 <= length row)%nat -> (predict_row row < Nat.max (length row) 2)%nat.
Proof.
  intros H. destruct row as [|x [|y t]].
  - cbn in H. lia.
  - cbn [predict_row length]. destruct (Qltb (1 # 2) x); cbn; lia.
  - cbn [predict_row]. pose proof (argmax_spec (x :: y :: t)) as [Hlt _]; [discriminate|]. lia.
Qed.

Theorem predictions_in_range (output : dmat) (o : nat) :
  (1 <= o)%nat -> (forall row, In row output -> length row = o) ->
  length (compute_predictions output) = length output /\
  (forall y, In y (compute_predictions output) -> (y < Nat.max o 2)%nat) /\
  (forall row, In row output -> (2 <= o)%nat ->
     (predict_row row < o)%nat /\ forall x, In x row -> x <= nthq row (predict_row row)).
Proof.
  intros Ho Hrows. unfold compute_predictions. split; [apply map_length|]. split.
  - intros y Hy. apply in_map_iff in Hy. destruct Hy as [row [E Hrow]]. subst y.
    rewrite <- (Hrows row Hrow). apply predict_row_range. rewrite (Hrows row Hrow). exact Ho.
  - intros row Hrow H2. specialize (Hrows row Hrow).
    destruct row as [|x [|y t]]; cbn [length] in Hrows; try lia.
    cbn [predict_row]. rewrite <- Hrows. apply argmax_spec. discriminate.
Qed.

Lemma sumq_pos (l : list Q) : l <> [] -> (forall x, In x l -> 0 < x) -> 0 < sumq l.
Proof.
  induction l as [|a t IH]; [congruence|]. intros _ H. cbn [sumq fold_right].
  pose proof (H a (or_introl eq_refl)) as Ha.
  destruct t as [|b t'].
  - cbn. lra.
  - assert (0 < sumq (b :: t')) as Ht by (apply IH; [discriminate | intros x Hx; apply H; right; exact Hx]).
    unfold sumq in Ht. lra.
Qed.

Theorem softmax_rows_sum_1_Q expf row :
  (forall x, 0 < expf x) -> row <> [] -> sumq (softmax_row expf row) == 1.
Proof.
  intros Hpos Hne.
  assert (0 < sumq (map expf row)) as H.
  { apply sumq_pos; [destruct row; [congruence | discriminate]|].
    intros x Hx. apply in_map_iff in Hx. destruct Hx as [y [<- _]]. apply Hpos. }
  unfold softmax_row, g_softmax_row. cbv zeta. fold (sumq (map expf row)). set (s := sumq (map expf row)) in *.
  change (sumq (map (fun a => a * / s) (map expf row)) == 1).
  rewrite (sumq_map_scale_r (/ s) (fun a => a)), map_id. fold s. field. intros E. rewrite E in H. lra.
Qed.

Theorem probability_rows sqrtf expf L A F :
  (l_act L = Softmax \/ l_act L = CrossEntropyLoss) -> (1 <= l_out L)%nat -> (forall x, 0 < expf x) ->
  forall row, In row (forward sqrtf expf L A F) -> length row = l_out L /\ sumq row == 1.
Proof.
  intros Hact Ho Hpos row Hrow. unfold forward, embedding in Hrow. rewrite map_map in Hrow.
  apply in_map_iff in Hrow. destruct Hrow as [r [E _]]. subst row.
  set (x := affine_row L (f_ncol F) (message_row F r)).
  assert (length x = l_out L) as Hx by (unfold x, affine_row; rewrite map_length, seq_length; reflexivity).
  assert (act_row expf (l_act L) x = softmax_row expf x) as Ea by (destruct Hact as [H|H]; rewrite H; reflexivity).
  rewrite Ea. split.
  - unfold softmax_row, g_softmax_row. cbv zeta. rewrite !map_length. exact Hx.
  - apply softmax_rows_sum_1_Q; [exact Hpos|]. destruct x; [cbn in Hx; lia | discriminate].
Qed.

(** Single output channel: predict_proba returns the two columns (1 - p, p), whose rows sum to 1. *)
Theorem predict_proba_single (output : dmat) :
  (forall row, In row output -> length row = 1%nat) ->
  length (predict_proba output) = length output /\
  forall i, (i < length output)%nat ->
    exists p, nth i output [] = [p] /\ nth i (predict_proba output) [] = [1 - p; p] /\
              sumq (nth i (predict_proba output) []) == 1.
Proof.
  intros H.
  assert (predict_proba output = map (fun row => match row with [p] => [1 - p; p] | _ => row end) output) as E.
  { destruct output as [|row rest]; [reflexivity|].
    pose proof (H row (or_introl eq_refl)) as Hr. destruct row as [|x [|y t]]; cbn in Hr; try lia. reflexivity. }
  rewrite E. split; [apply map_length|].
  intros i Hi. pose proof (H (nth i output []) (nth_In _ _ Hi)) as Hr.
  destruct (nth i output []) as [|p [|y t]] eqn:En; cbn in Hr; try lia.
  exists p. split; [reflexivity|].
  rewrite (nth_map_default _ output i []) by exact Hi. rewrite En. split; [reflexivity|]. cbn. ring.
Qed.

