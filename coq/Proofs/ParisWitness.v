(** Defect D25 replayed inside Coq: the model of paris.pyx without the clamp of the heights ([clamp = false]), with IEEE rounding ([ieee]: C float = 24 bits, double =
    53 bits, round to nearest even) against the same model in exact arithmetic, on a 6-node weighted graph.
    Property C07. *)
From Coq Require Import Lia Qabs.
From SKN Require Import Base.Util Model.Dendrogram Model.Cuts Model.Hierarchy Model.Paris Proofs.ParisProofs.

(** Undirected edges 0-1 (3), 0-2 (3), 2-3 (2), 3-4 (2), 3-5 (2), 4-5 (1); both directions stored. *)
Definition d25_graph : entries :=
  [(0, 1, 3%Q); (1, 0, 3%Q); (0, 2, 3%Q); (2, 0, 3%Q); (2, 3, 2%Q); (3, 2, 2%Q);
   (3, 4, 2%Q); (4, 3, 2%Q); (3, 5, 2%Q); (5, 3, 2%Q); (4, 5, 1%Q); (5, 4, 1%Q)].
Definition d25_hinf : Q := 1000%Q.

Definition rows_of (o : option (result (dendrogram * option Q * nat))) : dendrogram :=
  match o with Some (Ok (D, _, _)) => D | _ => [] end.
Definition ran (o : option (result (dendrogram * option Q * nat))) : bool :=
  match o with Some (Ok _) => true | _ => false end.

(** exact arithmetic, creation order and reordered *)
Definition d25_exact := rows_of (paris_fit exact d25_hinf true false 6 d25_graph).
Definition d25_exact_reordered := rows_of (paris_fit exact d25_hinf true true 6 d25_graph).
(** IEEE arithmetic (= the compiled code, bit for bit), creation order and reordered *)
Definition d25_float := rows_of (paris_fit ieee d25_hinf true false 6 d25_graph).
Definition d25_float_reordered := rows_of (paris_fit ieee d25_hinf true true 6 d25_graph).

Definition close (a b : Q) : bool := Qle_bool (Qabs (a - b)) (b * (1 # 1000000)).

Lemma ran_of_rows o D : rows_of o = D -> D <> [] -> ran o = true.
Proof. destruct o as [[x|e]|]; simpl; congruence. Qed.

(** [reorder = true] is the run with [reorder = false] followed by [reorder_dendrogram]. *)
Lemma rows_reordered R clamp hinf degree n G :
  rows_of (paris_fit_gen R clamp hinf degree true n G) =
  match reorder_dendrogram (rows_of (paris_fit_gen R clamp hinf degree false n G)) with Ok D => D | Err _ => [] end.
Proof.
  unfold paris_fit_gen. destruct (Nat.leb n 1); [reflexivity|].
  destruct (paris_adjacency R degree n G) as [[G' wout] win].
  destruct (paris_core R clamp hinf n G' wout win) as [[[[D m] t]|e]|]; try reflexivity.
  simpl. destruct (reorder_dendrogram D); reflexivity.
Qed.

(** On a connected graph the clamped run returns the clamped rows of the plain run. *)
Lemma rows_clamped R hinf degree n G D :
  rows_of (paris_fit_gen R false hinf degree false n G) = D -> D <> [] ->
  forallb (fun r => negb (Qeq_bool (r_height r) hinf)) D = true ->
  rows_of (paris_fit_gen R true hinf degree false n G) = clamp_rows n [] D.
Proof.
  unfold paris_fit_gen. destruct (Nat.leb n 1); [simpl; congruence|].
  destruct (paris_adjacency R degree n G) as [[G' wout] win].
  destruct (paris_core R false hinf n G' wout win) as [[[[D0 m] t]|e]|] eqn:E; simpl; try congruence.
  intros -> _ H. now rewrite (paris_core_clamped _ _ _ _ _ _ _ _ _ E H).
Qed.

(** The same rounding as [rne], arranged so that it is cheap to evaluate: scaling by shifts, one division where
    [rne] divides three times, and none when the denominator is a power of two (as for every sum and product of
    floats), where quotient and remainder are read off the bits. *)
Definition div_scaled (x d s : Z) : Z * Z :=
  let k := Z.log2 d in
  if (d =? 2 ^ k)%Z then (Z.shiftr x (k + s), Z.land x (Z.ones (k + s))) else Z.div_eucl x (Z.shiftl d s).

Lemma div_scaled_eq x d s : (0 <= s)%Z -> (0 < d)%Z -> div_scaled x d s = Z.div_eucl x (d * 2 ^ s).
Proof.
  intros Hs Hd. unfold div_scaled. rewrite Z.shiftl_mul_pow2 by exact Hs.
  destruct (d =? 2 ^ Z.log2 d)%Z eqn:E; [|reflexivity]. apply Z.eqb_eq in E.
  assert (Hk : (0 <= Z.log2 d)%Z) by apply Z.log2_nonneg.
  rewrite Z.shiftr_div_pow2, Z.land_ones by lia. rewrite Z.pow_add_r by lia. rewrite <- E.
  unfold Z.div, Z.modulo. now destruct (Z.div_eucl x (d * 2 ^ s)).
Qed.

Definition rne_shift (p : Z) (q : Q) : Q :=
  let a := Z.abs (Qnum q) in
  let d := Zpos (Qden q) in
  if (a =? 0)%Z then 0%Q
  else
    let e0 := (Z.log2 a - Z.log2 d - p)%Z in
    let divide e := (div_scaled (Z.shiftl a (Z.max 0 (- e))) d (Z.max 0 e), Z.shiftl d (Z.max 0 e)) in
    let '(q0, r0, y0) := divide e0 in
    let '(e, y, qt, rm) :=
      if (2 ^ p <=? q0)%Z then let '(qt, rm, y) := divide (e0 + 1)%Z in (e0 + 1, y, qt, rm)%Z else (e0, y0, q0, r0) in
    let m := if (y <? 2 * rm)%Z then (qt + 1)%Z
             else if (2 * rm =? y)%Z then (if Z.odd qt then qt + 1 else qt)%Z
             else qt in
    let v := Qred (inject_Z m * (if (0 <=? e)%Z then inject_Z (2 ^ e) else / inject_Z (2 ^ (- e)))) in
    if (Qnum q <? 0)%Z then Qopp v else v.

Lemma rne_shift_eq p q : rne_shift p q = rne p q.
Proof.
  unfold rne_shift, rne. cbv zeta. destruct (Z.abs (Qnum q) =? 0)%Z; [reflexivity|].
  rewrite !div_scaled_eq by (apply Z.le_max_l || reflexivity).
  rewrite !Z.shiftl_mul_pow2 by apply Z.le_max_l.
  unfold Z.div, Z.modulo.
  set (e0 := (Z.log2 (Z.abs (Qnum q)) - Z.log2 (QDen q) - p)%Z).
  destruct (Z.div_eucl (Z.abs (Qnum q) * 2 ^ Z.max 0 (- e0)) (QDen q * 2 ^ Z.max 0 e0)) as [q0 r0] eqn:E0.
  destruct (2 ^ p <=? q0)%Z.
  - clear E0. destruct (Z.div_eucl _ _) as [qt rm]. reflexivity.
  - rewrite E0. reflexivity.
Qed.

Definition ieee_shift : rounding := {| r32 := rne_shift 24; r64 := rne_shift 53 |}.

(** Each run is evaluated once, in creation order.  The lemmas speak of the unfolded term, not of [d25_exact] and
    [d25_float]: the theorems unfold those constants before rewriting.  The other way round (a lemma about the
    constant used for the unfolded term) the kernel unfolds [rows_of] first and evaluates the run by name. *)
Lemma d25_exact_rows :
  rows_of (paris_fit_gen exact false d25_hinf true false 6 d25_graph) =
  [(1, 0, (3 # 13)%Q, 2); (4, 3, (9 # 26)%Q, 2); (6, 2, (15 # 26)%Q, 3); (7, 5, (9 # 26)%Q, 3); (9, 8, (42 # 13)%Q, 6)].
Proof. vm_compute. reflexivity. Qed.

Lemma d25_float_rows :
  rows_of (paris_fit_gen ieee false d25_hinf true false 6 d25_graph) =
  [(1, 0, (8314337468638989 # 36028797018963968)%Q, 2);
   (4, 3, (6235753444568339 # 18014398509481984)%Q, 2);
   (6, 2, (5196461060853155 # 9007199254740992)%Q, 3);
   (7, 5, (6235752929934707 # 18014398509481984)%Q, 3);
   (9, 8, (3637522992766359 # 1125899906842624)%Q, 6)].
Proof.
  rewrite <- (paris_fit_gen_ext ieee_shift ieee (rne_shift_eq 24) (rne_shift_eq 53)). vm_compute. reflexivity.
Qed.

(** In exact arithmetic the merge (4,3) [row 1, creating cluster 7] and the merge (7,5) [row 3] have the same height
    9/26; with C floats the child comes out as 0.34615385... and the parent as 0.34615382...: a strict inversion.
    Everything else agrees to 1e-6, the rows of both runs are valid in creation order, but after
    [reorder_dendrogram] the float run merges cluster 8 in row 1 before row 2 creates it: not a dendrogram. *)
Theorem paris_float_inversion_witness :
  ran (paris_fit exact d25_hinf true false 6 d25_graph) = true /\
  ran (paris_fit ieee d25_hinf true false 6 d25_graph) = true /\
  ran (paris_fit ieee d25_hinf true true 6 d25_graph) = true /\
  (* same merges, same sizes *)
  map (fun r => (r_left r, r_right r, r_size r)) d25_float = map (fun r => (r_left r, r_right r, r_size r)) d25_exact /\
  d25_exact = [(1, 0, (3 # 13)%Q, 2); (4, 3, (9 # 26)%Q, 2); (6, 2, (15 # 26)%Q, 3); (7, 5, (9 # 26)%Q, 3);
               (9, 8, (42 # 13)%Q, 6)] /\
  (* heights equal up to rounding *)
  forallb (fun p => close (r_height (fst p)) (r_height (snd p))) (combine d25_float d25_exact) = true /\
  (* exact: valid, parent never below child, reordering fine *)
  valid 6 d25_exact = true /\ hmono 6 d25_exact = true /\
  valid 6 d25_exact_reordered = true /\ sortedq (heights d25_exact_reordered) = true /\
  (* float: valid in creation order, but the parent (row 3) is strictly below its child (row 1) ... *)
  valid 6 d25_float = true /\ hmono 6 d25_float = false /\
  Qle_bool (r_height (nth 1 d25_float drow0)) (r_height (nth 3 d25_float drow0)) = false /\
  (* ... and the reordered output is invalid *)
  map (fun r => (r_left r, r_right r, r_size r)) d25_float_reordered =
    [(1, 0, 2); (8, 5, 3); (4, 3, 2); (6, 2, 3); (7, 9, 6)] /\
  valid 6 d25_float_reordered = false.
Proof.
  unfold paris_fit.
  split; [exact (ran_of_rows _ _ d25_exact_rows ltac:(discriminate))|].
  split; [exact (ran_of_rows _ _ d25_float_rows ltac:(discriminate))|].
  split; [apply (ran_of_rows _ _ (rows_reordered _ _ _ _ _ _)); rewrite d25_float_rows; vm_compute; discriminate|].
  unfold d25_exact, d25_float, d25_exact_reordered, d25_float_reordered, paris_fit.
  rewrite !rows_reordered, d25_exact_rows, d25_float_rows. repeat split; reflexivity.
Qed.

(** With the clamp (heights clamped to the children's heights, [clamp = true]) on the same input with the
    same IEEE rounding: valid and sorted after reordering. *)
Definition d25_clamped_reordered := rows_of (paris_fit_gen ieee true d25_hinf true true 6 d25_graph).

Theorem paris_clamp_repairs_witness :
  ran (paris_fit_gen ieee true d25_hinf true true 6 d25_graph) = true /\
  valid 6 d25_clamped_reordered = true /\ sortedq (heights d25_clamped_reordered) = true /\
  forallb (fun p => close (r_height (fst p)) (r_height (snd p))) (combine d25_clamped_reordered d25_exact_reordered) = true.
Proof.
  pose proof (rows_clamped _ _ _ _ _ _ d25_float_rows ltac:(discriminate) eq_refl) as Hc.
  split; [apply (ran_of_rows _ _ (rows_reordered _ _ _ _ _ _)); rewrite Hc; vm_compute; discriminate|].
  unfold d25_clamped_reordered, d25_exact_reordered, paris_fit.
  rewrite !rows_reordered, Hc, d25_exact_rows. repeat split; reflexivity.
Qed.

Print Assumptions paris_float_inversion_witness.
