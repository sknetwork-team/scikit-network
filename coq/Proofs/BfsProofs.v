(** Proofs about Model/Bfs.v: hop distances (bfs), get_dag, shortest path edges, bfs order. *)
From SKN Require Import Base.Util Model.Bfs.
From Coq Require Import Permutation Sorted.

Lemma nth_map_lt {A B} (f : A -> B) (l : list A) (i : nat) (da : A) (db : B) :
  i < length l -> nth i (map f l) db = f (nth i l da).
Proof.
  revert i; induction l as [|a t IH]; intros [|i] H; simpl in *; try lia; auto.
  apply IH; lia.
Qed.

Lemma existsb_false {A} (f : A -> bool) (l : list A) :
  existsb f l = false <-> forall x, In x l -> f x = false.
Proof.
  induction l as [|a t IH]; simpl.
  - split; [intros _ x [] | auto].
  - rewrite orb_false_iff, IH. split.
    + intros [Ha Ht] x [E|Hx]; subst; auto.
    + intros H; split; [apply H; auto | intros x Hx; apply H; auto].
Qed.

Lemma filter_none {A} (p : A -> bool) (l : list A) :
  (forall x, In x l -> p x = false) -> filter p l = [].
Proof.
  induction l as [|a t IH]; simpl; intros H; auto.
  rewrite (H a) by auto. apply IH. intros x Hx; apply H; auto.
Qed.

Lemma filter_all {A} (p : A -> bool) (l : list A) :
  (forall x, In x l -> p x = true) -> filter p l = l.
Proof.
  induction l as [|a t IH]; simpl; intros H; auto.
  rewrite (H a) by auto. f_equal. apply IH. intros x Hx; apply H; auto.
Qed.

Lemma perm_filter {A} (p : A -> bool) (l l' : list A) :
  Permutation l l' -> Permutation (filter p l) (filter p l').
Proof.
  intros H; induction H as [|x l l' H IH|x y l|l l' l'' H1 IH1 H2 IH2]; simpl.
  - constructor.
  - destruct (p x); [constructor|]; exact IH.
  - destruct (p x), (p y); try apply Permutation_refl. apply perm_swap.
  - eapply Permutation_trans; eassumption.
Qed.

Lemma sorted_skipn {A} (R : A -> A -> Prop) (n : nat) (l : list A) :
  Sorted R l -> Sorted R (skipn n l).
Proof.
  revert l; induction n as [|n IH]; intros l H; simpl; auto.
  destruct l as [|a t]; auto. apply IH. inversion H; assumption.
Qed.

Lemma nodup_skipn {A} (n : nat) (l : list A) : NoDup l -> NoDup (skipn n l).
Proof.
  revert l; induction n as [|n IH]; intros l H; simpl; auto.
  destruct l as [|a t]; auto. apply IH. inversion H; assumption.
Qed.

Lemma map_nthz_seq (dist : list Z) : map (nthz dist) (seq 0 (length dist)) = dist.
Proof. exact (map_nth_seq dist 0%Z). Qed.

Definition wf_graph (g : graph) : Prop := forall u v, In v (row g u) -> v < length g.

Theorem get_dag_length g order : length (get_dag g order) = length g.
Proof. unfold get_dag. rewrite map_length, seq_length. reflexivity. Qed.

Lemma row_get_dag (g : graph) (order : list Z) (i : nat) :
  i < length g ->
  row (get_dag g order) i =
  filter (fun j => negb (dag_removed order (nodup Z.eq_dec order) i j)) (row g i).
Proof.
  intros H. unfold row at 1, get_dag. cbv zeta.
  rewrite nth_map_seq by exact H. reflexivity.
Qed.

Lemma dag_removed_false (order : list Z) (i j : nat) :
  i < length order ->
  (dag_removed order (nodup Z.eq_dec order) i j = false <->
   (0 <= nthz order i)%Z /\ (nthz order i < nthz order j)%Z).
Proof.
  intros Hi. unfold dag_removed. rewrite existsb_false. split.
  - intros H.
    assert (Hin : In (nthz order i) (nodup Z.eq_dec order)).
    { apply nodup_In. unfold nthz. apply nth_In. exact Hi. }
    specialize (H _ Hin). rewrite Z.eqb_refl in H.
    destruct (nthz order i <? 0)%Z eqn:E; [discriminate|].
    simpl in H. apply Z.ltb_ge in E. apply Z.leb_gt in H. lia.
  - intros [H0 H1] value _.
    destruct (value <? 0)%Z eqn:E.
    + apply Z.ltb_lt in E. apply Z.eqb_neq. lia.
    + destruct (Z.eqb_spec (nthz order i) value) as [Eq|Ne]; simpl; auto.
      apply Z.leb_gt. lia.
Qed.

Theorem get_dag_exact (g : graph) (order : list Z) (i j : nat) :
  wf_graph g -> length order = length g -> i < length g ->
  (In j (row (get_dag g order) i) <->
   In j (row g i) /\ (0 <= nthz order i)%Z /\ (nthz order i < nthz order j)%Z).
Proof.
  intros _ Hlen Hi. rewrite row_get_dag by exact Hi.
  rewrite filter_In, negb_true_iff, dag_removed_false by lia. reflexivity.
Qed.

Definition hop (g : graph) (src : list bool) (v k : nat) : Prop :=
  reachk g src k v /\ forall j, j < k -> ~ reachk g src j v.

Lemma hop_unique g src v k1 k2 : hop g src v k1 -> hop g src v k2 -> k1 = k2.
Proof.
  intros [R1 M1] [R2 M2].
  destruct (Nat.lt_trichotomy k1 k2) as [L|[E|L]]; auto.
  - exfalso. exact (M2 _ L R1).
  - exfalso. exact (M1 _ L R2).
Qed.

Lemma row_nonempty_lt (g : graph) (u v : nat) : In v (row g u) -> u < length g.
Proof.
  unfold row. intros H. destruct (Nat.lt_ge_cases u (length g)) as [L|L]; auto.
  rewrite nth_overflow in H by exact L. destruct H.
Qed.

Lemma frontier_length g reach : length (frontier g reach) = length g.
Proof. unfold frontier. rewrite map_length, seq_length. reflexivity. Qed.

Lemma nthb_frontier g reach v : v < length g ->
  nthb (frontier g reach) v =
  negb (nthb reach v) &&
  existsb (fun u => nthb reach u && memn v (row g u)) (seq 0 (length g)).
Proof.
  intros H. unfold nthb at 1, frontier. rewrite nth_map_seq by exact H. reflexivity.
Qed.

Lemma frontier_true g reach v : v < length g ->
  (nthb (frontier g reach) v = true <->
   nthb reach v = false /\ exists u, nthb reach u = true /\ In v (row g u)).
Proof.
  intros H. rewrite nthb_frontier by exact H.
  rewrite andb_true_iff, negb_true_iff, existsb_exists. split.
  - intros [H1 [u [Hu H2]]]. split; auto.
    apply andb_true_iff in H2. destruct H2 as [H2 H3].
    exists u. split; auto. apply memn_In; auto.
  - intros [H1 [u [H2 H3]]]. split; auto. exists u. split.
    + apply in_seq. pose proof (row_nonempty_lt _ _ _ H3). lia.
    + rewrite H2. simpl. apply memn_In; auto.
Qed.

Lemma nthb_map2_orb (a m : list bool) (v : nat) :
  v < length a -> v < length m ->
  nthb (map2 orb a m) v = nthb a v || nthb m v.
Proof. intros Ha Hm. unfold nthb. apply nth_map2; assumption. Qed.

Lemma nthz_map2_sel (d : Z) (m : list bool) (dist : list Z) (v : nat) :
  v < length m -> v < length dist ->
  nthz (map2 (fun (b : bool) (x : Z) => if b then d else x) m dist) v =
  if nthb m v then d else nthz dist v.
Proof.
  intros Hm Hd. unfold nthz, nthb.
  apply (nth_map2 (fun (b : bool) (x : Z) => if b then d else x)); assumption.
Qed.

(** Number of [false] entries: the termination measure. *)
Fixpoint cf (l : list bool) : nat :=
  match l with
  | [] => 0
  | b :: t => (if b then 0 else 1) + cf t
  end.

Lemma cf_le_length l : cf l <= length l.
Proof. induction l as [|b t IH]; simpl; auto. destruct b; simpl; lia. Qed.

Lemma cf_map2_le (a m : list bool) : cf (map2 orb a m) <= cf a.
Proof.
  revert m; induction a as [|x t IH]; intros [|b m']; simpl; try lia.
  specialize (IH m'). destruct x, b; simpl; lia.
Qed.

Lemma cf_map2_lt (a m : list bool) (i : nat) :
  nthb a i = false -> nthb m i = true -> i < length a ->
  cf (map2 orb a m) < cf a.
Proof.
  revert m i; induction a as [|x t IH]; intros m i Ha Hm Hi; simpl in Hi; [lia|].
  destruct m as [|b m'].
  - unfold nthb in Hm. destruct i; simpl in Hm; discriminate.
  - destruct i as [|i'].
    + unfold nthb in Ha, Hm. simpl in Ha, Hm. subst x b. simpl.
      pose proof (cf_map2_le t m'). lia.
    + unfold nthb in Ha, Hm. simpl in Ha, Hm.
      assert (Hlt : cf (map2 orb t m') < cf t).
      { apply (IH m' i'); auto. lia. }
      simpl. destruct x, b; simpl; lia.
Qed.

Definition reachle (g : graph) (src : list bool) (r v : nat) : Prop :=
  exists k, k <= r /\ reachk g src k v.

Record Inv (g : graph) (src : list bool) (r : nat) (reach : list bool) (dist : list Z) : Prop :=
  { inv_lr : length reach = length g;
    inv_ld : length dist = length g;
    inv_reach : forall v, v < length g -> (nthb reach v = true <-> reachle g src r v);
    inv_dist_t : forall v, v < length g -> nthb reach v = true ->
                           exists k, nthz dist v = Z.of_nat k /\ hop g src v k;
    inv_dist_f : forall v, v < length g -> nthb reach v = false -> nthz dist v = (-1)%Z }.

Definition Final (g : graph) (src : list bool) (dist : list Z) : Prop :=
  length dist = length g /\
  forall v, v < length g ->
    (forall k, nthz dist v = Z.of_nat k <-> hop g src v k) /\
    (nthz dist v = (-1)%Z <-> forall k, ~ reachk g src k v).

Lemma inv_reached g src r reach dist k v :
  Inv g src r reach dist -> v < length g -> k <= r -> reachk g src k v -> nthb reach v = true.
Proof. intros HI Hv Hk Hr. apply (inv_reach _ _ _ _ _ HI v Hv). exists k. split; assumption. Qed.

(** Under the invariant, the frontier is exactly the set of nodes first reached at step r+1. *)
Lemma inv_frontier g src r reach dist v :
  Inv g src r reach dist -> v < length g ->
  (nthb (frontier g reach) v = true <-> nthb reach v = false /\ reachk g src (S r) v).
Proof.
  intros HI Hv. rewrite frontier_true by exact Hv. split.
  - intros [Hf [u [Hu Hin]]]. split; [exact Hf|].
    pose proof (row_nonempty_lt _ _ _ Hin) as Hun.
    apply (inv_reach _ _ _ _ _ HI u Hun) in Hu. destruct Hu as [k [Hk Hr]].
    assert (Hrv : reachk g src (S k) v) by (exists u; split; assumption).
    destruct (Nat.eq_dec k r) as [E|Ne]; [subst k; exact Hrv|].
    rewrite (inv_reached _ _ _ _ _ (S k) v HI Hv ltac:(lia) Hrv) in Hf. discriminate.
  - intros [Hf [u [Hr Hin]]]. split; [exact Hf|]. exists u. split; [|exact Hin].
    exact (inv_reached _ _ _ _ _ r u HI (row_nonempty_lt _ _ _ Hin) (le_n r) Hr).
Qed.

Lemma inv_step g src r reach dist :
  Inv g src r reach dist ->
  Inv g src (S r) (map2 orb reach (frontier g reach))
      (map2 (fun (b : bool) (x : Z) => if b then Z.of_nat (S r) else x) (frontier g reach) dist).
Proof.
  intros HI.
  pose proof (inv_lr _ _ _ _ _ HI) as Hlr.
  pose proof (inv_ld _ _ _ _ _ HI) as Hld.
  pose proof (frontier_length g reach) as Hlf.
  constructor.
  - rewrite map2_length. lia.
  - rewrite map2_length. lia.
  - intros v Hv. rewrite nthb_map2_orb by lia. rewrite orb_true_iff. split.
    + intros [Ht|Ht].
      * apply (inv_reach _ _ _ _ _ HI v Hv) in Ht. destruct Ht as [k [Hk Hr]].
        exists k. split; [lia|exact Hr].
      * apply (inv_frontier _ _ _ _ _ _ HI Hv) in Ht. destruct Ht as [_ Hr].
        exists (S r). split; [lia|exact Hr].
    + intros [k [Hk Hr]].
      destruct (nthb reach v) eqn:E; [left; reflexivity|right].
      apply (inv_frontier _ _ _ _ _ _ HI Hv). split; [exact E|].
      destruct (Nat.eq_dec k (S r)) as [Eq|Ne]; [subst k; exact Hr|].
      rewrite (inv_reached _ _ _ _ _ k v HI Hv ltac:(lia) Hr) in E. discriminate.
  - intros v Hv. rewrite nthb_map2_orb, nthz_map2_sel by lia.
    destruct (nthb (frontier g reach) v) eqn:M.
    + intros _. apply (inv_frontier _ _ _ _ _ _ HI Hv) in M. destruct M as [Hf Hr].
      exists (S r). split; [reflexivity|]. split; [exact Hr|].
      intros j Hj Hrj.
      rewrite (inv_reached _ _ _ _ _ j v HI Hv ltac:(lia) Hrj) in Hf. discriminate.
    + rewrite orb_false_r. intros Ht. exact (inv_dist_t _ _ _ _ _ HI v Hv Ht).
  - intros v Hv. rewrite nthb_map2_orb, nthz_map2_sel by lia. rewrite orb_false_iff.
    intros [Hf Hm]. rewrite Hm. exact (inv_dist_f _ _ _ _ _ HI v Hv Hf).
Qed.

Lemma inv_closed g src r reach dist :
  Inv g src r reach dist ->
  existsb (fun b : bool => b) (frontier g reach) = false ->
  forall k v, reachk g src k v -> v < length g -> nthb reach v = true.
Proof.
  intros HI HE.
  assert (Hm : forall v, v < length g -> nthb (frontier g reach) v = false).
  { intros v Hv. rewrite existsb_false in HE. apply HE.
    unfold nthb. apply nth_In. rewrite frontier_length. exact Hv. }
  induction k as [|k IH]; intros v Hr Hv.
  - exact (inv_reached _ _ _ _ _ 0 v HI Hv (Nat.le_0_l r) Hr).
  - simpl in Hr. destruct Hr as [u [Hr Hin]].
    specialize (IH u Hr (row_nonempty_lt _ _ _ Hin)).
    destruct (nthb reach v) eqn:E; [reflexivity|].
    specialize (Hm v Hv).
    rewrite (proj2 (frontier_true g reach v Hv)) in Hm; [discriminate|].
    split; [exact E|]. exists u. split; assumption.
Qed.

(** The two ways a vector can meet the specification at a node. *)
Lemma final_hop g src dist v k0 :
  hop g src v k0 -> nthz dist v = Z.of_nat k0 ->
  (forall k, nthz dist v = Z.of_nat k <-> hop g src v k) /\
  (nthz dist v = (-1)%Z <-> forall k, ~ reachk g src k v).
Proof.
  intros Hh Hd. split.
  - intros k. split.
    + intros Hk. assert (k = k0) by lia. subst k. exact Hh.
    + intros Hk. rewrite (hop_unique _ _ _ _ _ Hk Hh). exact Hd.
  - split; [lia|]. intros Hno. exfalso. destruct Hh as [Hr _]. exact (Hno _ Hr).
Qed.

Lemma final_unreached g src dist v :
  (forall k, ~ reachk g src k v) -> nthz dist v = (-1)%Z ->
  (forall k, nthz dist v = Z.of_nat k <-> hop g src v k) /\
  (nthz dist v = (-1)%Z <-> forall k, ~ reachk g src k v).
Proof.
  intros Hno Hd. split.
  - intros k. split; [lia|]. intros [Hr _]. exfalso. exact (Hno _ Hr).
  - split; intros _; assumption.
Qed.

Lemma inv_final g src r reach dist :
  Inv g src r reach dist ->
  existsb (fun b : bool => b) (frontier g reach) = false ->
  Final g src dist.
Proof.
  intros HI HE. split; [exact (inv_ld _ _ _ _ _ HI)|].
  intros v Hv. destruct (nthb reach v) eqn:E.
  - destruct (inv_dist_t _ _ _ _ _ HI v Hv E) as [k0 [Hd Hh]]. exact (final_hop _ _ _ _ _ Hh Hd).
  - apply final_unreached; [|exact (inv_dist_f _ _ _ _ _ HI v Hv E)].
    intros k Hr. rewrite (inv_closed _ _ _ _ _ HI HE k v Hr Hv) in E. discriminate.
Qed.

(** The loop ends, with the invariant and an empty frontier. *)
Lemma bfs_loop_inv g src :
  forall fuel r reach dist,
    Inv g src r reach dist -> cf reach < fuel ->
    exists dist' r' reach', bfs_loop fuel g (Z.of_nat (S r)) reach dist = Some dist' /\
      Inv g src r' reach' dist' /\ existsb (fun b : bool => b) (frontier g reach') = false.
Proof.
  induction fuel as [|f IH]; intros r reach dist HI Hf; [lia|].
  cbn [bfs_loop].
  destruct (existsb (fun b : bool => b) (frontier g reach)) eqn:E.
  - replace (Z.of_nat (S r) + 1)%Z with (Z.of_nat (S (S r))) by lia.
    apply IH.
    + apply inv_step. exact HI.
    + apply existsb_exists in E. destruct E as [b [Hb Hbt]]. subst b.
      destruct (In_nth _ _ false Hb) as [i [Hi Hn]].
      rewrite frontier_length in Hi.
      destruct (proj1 (frontier_true g reach i Hi) Hn) as [Hfi _].
      pose proof (inv_lr _ _ _ _ _ HI) as Hlr.
      pose proof (cf_map2_lt reach (frontier g reach) i Hfi Hn ltac:(lia)). lia.
  - exists dist, r, reach. split; [reflexivity|]. split; assumption.
Qed.

Lemma inv_init g src :
  length src = length g ->
  Inv g src 0 src (map (fun b : bool => if b then 0%Z else (-1)%Z) src).
Proof.
  intros Hs.
  assert (Hnd : forall v, v < length g ->
            nthz (map (fun b : bool => if b then 0%Z else (-1)%Z) src) v =
            if nthb src v then 0%Z else (-1)%Z).
  { intros v Hv. unfold nthz, nthb.
    apply (nth_map_lt (fun b : bool => if b then 0%Z else (-1)%Z)). lia. }
  constructor.
  - exact Hs.
  - rewrite map_length. exact Hs.
  - intros v Hv. split.
    + intros H. exists 0. split; [lia|exact H].
    + intros [k [Hk Hr]]. assert (k = 0) by lia. subst k. exact Hr.
  - intros v Hv Ht. exists 0. rewrite Hnd, Ht by exact Hv. split; [reflexivity|].
    split; [exact Ht|]. intros j Hj. lia.
  - intros v Hv Hf. rewrite Hnd, Hf by exact Hv. reflexivity.
Qed.

Theorem bfs_exact (g : graph) (src : list bool) :
  length src = length g ->
  exists dist, bfs g src = Some dist /\ length dist = length g /\
    forall v, v < length g ->
      (forall k, nthz dist v = Z.of_nat k <-> hop g src v k) /\
      (nthz dist v = (-1)%Z <-> forall k, ~ reachk g src k v).
Proof.
  intros Hs. unfold bfs. change 1%Z with (Z.of_nat (S 0)).
  destruct (bfs_loop_inv g src (S (length g)) 0 src _ (inv_init g src Hs))
    as [dist [r [reach [Hb [HI HE]]]]].
  - pose proof (cf_le_length src). lia.
  - exists dist. split; [exact Hb|]. exact (inv_final _ _ _ _ _ HI HE).
Qed.

(** Along an edge the hop distance grows by at most one. *)
Lemma hop_edge_le g src i j ki kj :
  hop g src i ki -> hop g src j kj -> In j (row g i) -> kj <= S ki.
Proof.
  intros [Hri _] [_ Hmj] Hin.
  destruct (Nat.le_gt_cases kj (S ki)) as [L|L]; [exact L|].
  exfalso. apply (Hmj (S ki) L). exists i. split; assumption.
Qed.

Theorem shortest_path_edges (g : graph) (src : list bool) (dist : list Z) (i j : nat) :
  wf_graph g -> length src = length g -> bfs g src = Some dist -> i < length g ->
  (In j (row (get_dag g dist) i) <->
   In j (row g i) /\ (0 <= nthz dist i)%Z /\ nthz dist j = (nthz dist i + 1)%Z).
Proof.
  intros Hwf Hs Hb Hi.
  destruct (bfs_exact g src Hs) as [dist' [Hb' [Hl Hf]]].
  rewrite Hb in Hb'. injection Hb' as Hb'. subst dist'.
  rewrite (get_dag_exact g dist i j Hwf Hl Hi). split.
  - intros [Hin [H0 Hlt]]. split; [exact Hin|]. split; [exact H0|].
    destruct (Hf i Hi) as [Hfi _]. destruct (Hf j (Hwf _ _ Hin)) as [Hfj _].
    assert (Hhi : hop g src i (Z.to_nat (nthz dist i))) by (apply Hfi; lia).
    assert (Hhj : hop g src j (Z.to_nat (nthz dist j))) by (apply Hfj; lia).
    pose proof (hop_edge_le g src i j _ _ Hhi Hhj Hin). lia.
  - intros [Hin [H0 He]]. split; [exact Hin|]. split; [exact H0|]. lia.
Qed.

Lemma skipn_neg_filter (f : nat -> Z) (l : list nat) :
  Sorted Z.le (map f l) ->
  skipn (length (filter (fun d => (d <? 0)%Z) (map f l))) l =
  filter (fun v => negb (f v <? 0)%Z) l.
Proof.
  intros HS. apply Sorted_StronglySorted in HS; [|intros x y z; apply Z.le_trans].
  induction l as [|a t IH]; simpl; auto.
  simpl in HS. apply StronglySorted_inv in HS. destruct HS as [Ht Ha].
  destruct (f a <? 0)%Z eqn:E; simpl.
  - apply IH. exact Ht.
  - assert (Hall : forall v, In v t -> (f v <? 0)%Z = false).
    { intros v Hv. rewrite Forall_forall in Ha.
      specialize (Ha (f v) (in_map f _ _ Hv)).
      apply Z.ltb_ge in E. apply Z.ltb_ge. lia. }
    rewrite (filter_none (fun d => (d <? 0)%Z) (map f t)).
    + simpl. f_equal. symmetry. apply filter_all.
      intros v Hv. rewrite (Hall v Hv). reflexivity.
    + intros x Hx. apply in_map_iff in Hx. destruct Hx as [v [Ev Hv]]. subst x.
      exact (Hall v Hv).
Qed.

Theorem bfs_order_exact (dist : list Z) (argsort : list nat) :
  Permutation argsort (seq 0 (length dist)) ->
  Sorted Z.le (map (nthz dist) argsort) ->
  (forall v, v < length dist -> (-1 <= nthz dist v)%Z) ->
  let out := bfs_order dist argsort in
  NoDup out /\
  (forall v, In v out <-> v < length dist /\ (0 <= nthz dist v)%Z) /\
  Sorted Z.le (map (nthz dist) out).
Proof.
  intros HP HS _ out. unfold out, bfs_order.
  pose proof (Permutation_map (nthz dist) HP) as HPm. rewrite map_nthz_seq in HPm.
  rewrite <- (Permutation_length (perm_filter (fun d => (d <? 0)%Z) _ _ HPm)).
  split; [|split].
  - apply nodup_skipn. apply (Permutation_NoDup (Permutation_sym HP)). apply seq_NoDup.
  - intros v. rewrite (skipn_neg_filter (nthz dist) argsort HS).
    rewrite filter_In, negb_true_iff, Z.ltb_ge. split.
    + intros [Hin H0]. split; [|exact H0].
      apply (Permutation_in _ HP) in Hin. apply in_seq in Hin. lia.
    + intros [Hv H0]. split; [|exact H0].
      apply (Permutation_in _ (Permutation_sym HP)). apply in_seq. lia.
  - rewrite <- skipn_map. apply sorted_skipn. exact HS.
Qed.

Print Assumptions bfs_exact.
Print Assumptions get_dag_exact.
Print Assumptions get_dag_length.
Print Assumptions shortest_path_edges.
Print Assumptions bfs_order_exact.
