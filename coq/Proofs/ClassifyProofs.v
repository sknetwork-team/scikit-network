(** Proofs about Model/Classify.v (C13): metrics, label sets, probability rows, seeds, fixed points, top-k links. *)
From SKN Require Import Base.Util Model.Vote Model.Bfs Model.Classify Proofs.VoteProofs Proofs.BfsProofs Proofs.BfsFrontProofs.
From Coq Require Import Lqa Sorted Permutation Qabs Qreduction.
Close Scope Q_scope.
Open Scope nat_scope.

Lemma sumqr_sumq (l : list Q) : (sumqr l == sumq l)%Q.
Proof.
  induction l as [|a t IH]; [reflexivity|].
  change (sumqr (a :: t)) with (Qred (a + sumqr t)%Q). rewrite Qred_correct, IH. reflexivity.
Qed.

Lemma sumq_app (a b : list Q) : (sumq (a ++ b) == sumq a + sumq b)%Q.
Proof. apply Util.sumq_app. Qed.

Lemma Qle_bool_gt x y : (y < x)%Q -> Qle_bool x y = false.
Proof. intros H. destruct (Qle_bool x y) eqn:E; [apply Qle_bool_iff in E; lra|reflexivity]. Qed.

Lemma sumn_map_add {A} (F G : A -> nat) (l : list A) :
  sumn (map (fun i => F i + G i) l) = sumn (map F l) + sumn (map G l).
Proof. induction l as [|a t IH]; simpl; [reflexivity|]. rewrite IH. lia. Qed.

Lemma sumn_map_ext {A} (F G : A -> nat) (l : list A) :
  (forall x, In x l -> F x = G x) -> sumn (map F l) = sumn (map G l).
Proof.
  induction l as [|a t IH]; simpl; intros H; [reflexivity|].
  rewrite (H a) by auto. rewrite IH; [reflexivity|]. intros x Hx. apply H. auto.
Qed.

Lemma nthq_map_seq0 (f : nat -> Q) (n i : nat) : i < n -> nthq (map f (seq 0 n)) i = f i.
Proof. apply nth_map_seq. Qed.

Lemma nth_map_seq_gen {B} (f : nat -> B) (n i : nat) (d : B) : nth i (map f (seq 0 n)) d = if i <? n then f i else d.
Proof.
  destruct (Nat.ltb_spec i n) as [H|H]; [apply nth_map_seq; exact H|].
  apply nth_overflow. rewrite map_length, seq_length. exact H.
Qed.

Lemma nthq_map_seq_gen (f : nat -> Q) (n i : nat) : nthq (map f (seq 0 n)) i = if i <? n then f i else 0%Q.
Proof. apply nth_map_seq_gen. Qed.

Lemma In_le_maxz (l : list Z) x : In x l -> (x <= maxz l)%Z.
Proof.
  unfold maxz. induction l as [|a t IH]; simpl; intros H; [contradiction|].
  destruct H as [->|H]; [lia|]. specialize (IH H). lia.
Qed.

Lemma maxz_ge_m1 (l : list Z) : (-1 <= maxz l)%Z.
Proof. unfold maxz. induction l as [|a t IH]; simpl; [lia|]. lia. Qed.

Lemma count_if_cons {A} (f : A -> bool) a l :
  count_if f (a :: l) = (if f a then 1 else 0) + count_if f l.
Proof. unfold count_if. simpl. destruct (f a); reflexivity. Qed.

Lemma count_if_app {A} (f : A -> bool) a b : count_if f (a ++ b) = count_if f a + count_if f b.
Proof. unfold count_if. rewrite filter_app, app_length. reflexivity. Qed.

Lemma count_if_ext {A} (f g : A -> bool) l : (forall x, In x l -> f x = g x) -> count_if f l = count_if g l.
Proof.
  induction l as [|a t IH]; intros H; [reflexivity|].
  rewrite !count_if_cons, (H a) by (left; reflexivity). rewrite IH; [reflexivity|]. intros x Hx. apply H. right. exact Hx.
Qed.

Lemma count_if_none {A} (f : A -> bool) l : (forall x, In x l -> f x = false) -> count_if f l = 0.
Proof. intros H. unfold count_if. rewrite filter_none; [reflexivity|exact H]. Qed.

Lemma count_if_split {A} (f g : A -> bool) l :
  count_if f l = count_if (fun x => f x && g x) l + count_if (fun x => f x && negb (g x)) l.
Proof.
  induction l as [|a t IH]; [reflexivity|]. rewrite !count_if_cons, IH.
  destruct (f a), (g a); simpl; lia.
Qed.

Lemma sumn_indicator (z : Z) (b : bool) (K : nat) : (0 <= z)%Z ->
  sumn (map (fun i => if (z =? Z.of_nat i)%Z && b then 1 else 0) (seq 0 K)) = if (z <? Z.of_nat K)%Z && b then 1 else 0.
Proof.
  intros Hz. induction K as [|K IH].
  - simpl. destruct (Z.ltb_spec z 0); [lia|reflexivity].
  - rewrite seq_S, map_app, sumn_app, IH. cbn [map sumn fold_right Nat.add plus].
    destruct b; rewrite ?andb_false_r, ?andb_true_r; [|reflexivity].
    destruct (Z.ltb_spec z (Z.of_nat K)); destruct (Z.eqb_spec z (Z.of_nat K));
      destruct (Z.ltb_spec z (Z.of_nat (S K))); lia.
Qed.

Lemma sumn_map_zero {A} (l : list A) : sumn (map (fun _ => 0) l) = 0.
Proof. induction l; simpl; auto. Qed.

(** the classes [key x = i], i < K, partition the elements counted by [g] *)
Lemma count_partition {A} (key : A -> Z) (g : A -> bool) (l : list A) (K : nat) (F : nat -> nat) :
  (forall x, In x l -> (0 <= key x < Z.of_nat K)%Z) ->
  (forall i, i < K -> F i = count_if (fun x => (key x =? Z.of_nat i)%Z && g x) l) ->
  sumn (map F (seq 0 K)) = count_if g l.
Proof.
  intros H HF. rewrite (sumn_map_ext F (fun i => count_if (fun x => (key x =? Z.of_nat i)%Z && g x) l))
    by (intros i Hi; apply in_seq in Hi; apply HF; lia).
  clear F HF. induction l as [|a t IH].
  - apply sumn_map_zero.
  - rewrite (sumn_map_ext _ (fun i => (if (key a =? Z.of_nat i)%Z && g a then 1 else 0) +
                                       count_if (fun x => (key x =? Z.of_nat i)%Z && g x) t))
      by (intros i _; apply (count_if_cons (fun x => (key x =? Z.of_nat i)%Z && g x))).
    rewrite sumn_map_add, IH by (intros x Hx; apply H; right; exact Hx).
    destruct (H a (or_introl eq_refl)) as [H0 HK].
    rewrite sumn_indicator, (proj2 (Z.ltb_lt _ _) HK) by exact H0. symmetry. apply (count_if_cons g).
Qed.

(** * Metrics = confusion-matrix / textbook definitions *)

Lemma masked_range lt lp x : In x (masked lt lp) ->
  (0 <= fst x < Z.of_nat (n_labels lt lp))%Z /\ (0 <= snd x < Z.of_nat (n_labels lt lp))%Z.
Proof.
  unfold masked. rewrite filter_In. intros [Hin Hb]. apply andb_true_iff in Hb. destruct Hb as [H1 H2].
  apply Z.leb_le in H1. apply Z.leb_le in H2. destruct x as [t p]. simpl in *.
  pose proof (in_combine_l _ _ _ _ Hin) as Ht. pose proof (in_combine_r _ _ _ _ Hin) as Hp.
  apply In_le_maxz in Ht. apply In_le_maxz in Hp. unfold n_labels.
  rewrite Z2Nat.id by (pose proof (maxz_ge_m1 lt); lia). lia.
Qed.

Definition trace (C : list (list nat)) : nat := sumn (map (fun i => centry C i i) (seq 0 (length C))).
Definition total (C : list (list nat)) : nat :=
  sumn (map (fun i => sumn (map (fun j => centry C i j) (seq 0 (length C)))) (seq 0 (length C))).

Section Confusion.
  Context (lt lp : list Z) (C : list (list nat)).
  Context (HC : confusion lt lp = Some C).

  Lemma confusion_entries :
    length C = n_labels lt lp /\ masked lt lp <> [] /\
    forall i j, i < n_labels lt lp -> j < n_labels lt lp ->
      centry C i j = count_if (fun tp : Z * Z => (fst tp =? Z.of_nat i)%Z && (snd tp =? Z.of_nat j)%Z) (masked lt lp).
  Proof.
    pose proof HC as H. unfold confusion in H. destruct (length (masked lt lp) =? 0) eqn:E; [discriminate|].
    injection H as H. rewrite <- H. apply Nat.eqb_neq in E.
    split; [rewrite map_length, seq_length; reflexivity|].
    split; [intros Hm; rewrite Hm in E; simpl in E; lia|].
    intros i j Hi Hj. unfold centry.
    rewrite (nth_map_seq _ _ _ [] Hi). rewrite (nth_map_seq _ _ _ 0 Hj). reflexivity.
  Qed.

  Lemma confusion_row_sum i :
    i < n_labels lt lp ->
    sumn (map (fun j => centry C i j) (seq 0 (n_labels lt lp))) =
    count_if (fun tp : Z * Z => (fst tp =? Z.of_nat i)%Z) (masked lt lp).
  Proof.
    intros Hi. destruct confusion_entries as [_ [_ He]].
    apply (count_partition (fun tp : Z * Z => snd tp)); [intros x Hx; apply (masked_range lt lp x Hx)|].
    intros j Hj. rewrite He by assumption. apply count_if_ext. intros x _. apply andb_comm.
  Qed.

  Lemma confusion_col_sum j :
    j < n_labels lt lp ->
    sumn (map (fun i => centry C i j) (seq 0 (n_labels lt lp))) =
    count_if (fun tp : Z * Z => (snd tp =? Z.of_nat j)%Z) (masked lt lp).
  Proof.
    intros Hj. destruct confusion_entries as [_ [_ He]].
    apply (count_partition (fun tp : Z * Z => fst tp)); [intros x Hx; apply (masked_range lt lp x Hx)|].
    intros i Hi. apply He; assumption.
  Qed.

  Lemma confusion_total : total C = length (masked lt lp).
  Proof.
    unfold total. destruct confusion_entries as [-> _].
    rewrite (count_partition (fun tp : Z * Z => fst tp) (fun _ => true) (masked lt lp)).
    - unfold count_if. rewrite filter_all; [reflexivity|]. auto.
    - intros x Hx. apply (masked_range lt lp x Hx).
    - intros i Hi. rewrite (confusion_row_sum i Hi). apply count_if_ext. intros x _. symmetry. apply andb_true_r.
  Qed.

  Lemma confusion_trace : trace C = count_if (fun tp : Z * Z => (fst tp =? snd tp)%Z) (masked lt lp).
  Proof.
    unfold trace. destruct confusion_entries as [-> [_ He]].
    apply (count_partition (fun tp : Z * Z => fst tp)); [intros x Hx; apply (masked_range lt lp x Hx)|].
    intros i Hi. rewrite He by assumption. apply count_if_ext. intros [t p] _. simpl.
    destruct (Z.eqb_spec t (Z.of_nat i)) as [->|_]; simpl; [apply Z.eqb_sym|reflexivity].
  Qed.
End Confusion.

Lemma tp_fn_true m k : count_if (fun x : Z * Z => (fst x =? k)%Z) m = tp m k + fn m k.
Proof. unfold tp, fn. apply (count_if_split (fun x : Z * Z => (fst x =? k)%Z) (fun x => (snd x =? k)%Z)). Qed.

Lemma tp_fp_pred m k : count_if (fun x : Z * Z => (snd x =? k)%Z) m = tp m k + fp m k.
Proof.
  unfold tp, fp. rewrite (count_if_split (fun x : Z * Z => (snd x =? k)%Z) (fun x => (fst x =? k)%Z)).
  f_equal; apply count_if_ext; intros x _; apply andb_comm.
Qed.

Lemma qnat_plus a b : (qnat (a + b) == qnat a + qnat b)%Q.
Proof. unfold qnat. rewrite Nat2Z.inj_add, inject_Z_plus. reflexivity. Qed.
Lemma qnat_pos a : 0 < a -> (0 < qnat a)%Q.
Proof. intros H. unfold qnat. change 0%Q with (inject_Z 0). rewrite <- Zlt_Qlt. lia. Qed.
Lemma qnat_nonneg a : (0 <= qnat a)%Q.
Proof. unfold qnat. change 0%Q with (inject_Z 0). rewrite <- Zle_Qle. lia. Qed.

Lemma f1_harmonic (a b c : Q) : (0 < a)%Q -> (0 <= b)%Q -> (0 <= c)%Q ->
  (2 / (1 / (a / (a + b)) + 1 / (a / (a + c))) == (a + a) / (a + a + b + c))%Q.
Proof. intros Ha Hb Hc. field. repeat split; lra. Qed.

(** F1 as the source computes it, the harmonic mean of precision and recall, is 2TP/(2TP+FP+FN) *)
Lemma spec_f1_harmonic m k :
  ((if Qle_bool (spec_precision m k) 0 || Qle_bool (spec_recall m k) 0 then 0
    else 2 / (1 / spec_precision m k + 1 / spec_recall m k)) == spec_f1 m k)%Q.
Proof.
  unfold spec_precision, spec_recall, spec_f1.
  set (a := tp m k). set (b := fp m k). set (c := fn m k).
  destruct (Nat.eqb_spec a 0) as [->|Ea].
  - replace (Qle_bool _ 0) with true; [reflexivity|]. symmetry. apply Qle_bool_iff.
    destruct (0 + b =? 0); [lra|]. unfold Qdiv. change (qnat 0) with 0%Q. lra.
  - destruct (Nat.eqb_spec (a + b) 0) as [E|_]; [lia|]. destruct (Nat.eqb_spec (a + c) 0) as [E|_]; [lia|].
    assert (Ha : (0 < qnat a)%Q) by (apply qnat_pos; lia).
    pose proof (qnat_nonneg b) as Hb. pose proof (qnat_nonneg c) as Hc.
    assert (P1 : (0 < qnat a / qnat (a + b))%Q) by (rewrite qnat_plus; apply Qlt_shift_div_l; lra).
    assert (P2 : (0 < qnat a / qnat (a + c))%Q) by (rewrite qnat_plus; apply Qlt_shift_div_l; lra).
    rewrite (Qle_bool_gt _ _ P1), (Qle_bool_gt _ _ P2). simpl orb. cbv iota.
    replace (2 * a + b + c) with (a + a + b + c) by lia. replace (2 * a) with (a + a) by lia.
    rewrite !qnat_plus.
    apply f1_harmonic; assumption.
Qed.

Lemma map2_map {A B C D} (f : B -> C -> D) (g : A -> B) (h : A -> C) (l : list A) :
  map2 f (map g l) (map h l) = map (fun x => f (g x) (h x)) l.
Proof. induction l as [|a t IH]; simpl; [reflexivity|]. rewrite IH. reflexivity. Qed.

(** per-class precision, recall and F1 computed from the confusion matrix equal the textbook formulas
    TP/(TP+FP), TP/(TP+FN), 2TP/(2TP+FP+FN) on the counted samples (0 when the denominator is 0) *)
Theorem prf_def lt lp f1 pr rc :
  f1_scores lt lp = Some (f1, pr, rc) ->
  let m := masked lt lp in
  let K := n_labels lt lp in
  length f1 = K /\ length pr = K /\ length rc = K /\
  forall k, k < K ->
    (nthq pr k == spec_precision m (Z.of_nat k))%Q /\
    (nthq rc k == spec_recall m (Z.of_nat k))%Q /\
    (nthq f1 k == spec_f1 m (Z.of_nat k))%Q.
Proof.
  intros H m K. unfold f1_scores in H. destruct (confusion lt lp) as [C|] eqn:HC; [|discriminate].
  cbn [option_map] in H. unfold prf_of_confusion in H. injection H as <- <- <-.
  destruct (confusion_entries _ _ _ HC) as [-> [_ He]].
  rewrite !map2_map, !map_length, seq_length.
  split; [reflexivity|]. split; [reflexivity|]. split; [reflexivity|].
  intros k Hk. rewrite !nthq_map_seq0 by exact Hk.
  rewrite (confusion_row_sum lt lp C HC k Hk), (confusion_col_sum lt lp C HC k Hk), tp_fn_true, tp_fp_pred.
  rewrite (He k k Hk Hk). fold m.
  split; [reflexivity|]. split; [reflexivity|]. apply spec_f1_harmonic.
Qed.

Lemma uniq_labels_In (labels : list Z) z : In z (uniq_labels labels) <-> In z labels /\ (0 <= z)%Z.
Proof.
  unfold uniq_labels. fold (uniq_of labels []). rewrite in_map_iff. split.
  - intros [x [<- Hx]]. apply uniq_of_In in Hx. destruct Hx as [[]|Hx]. split; [exact Hx|lia].
  - intros [Hin Hz]. exists (Z.to_nat z). split; [apply Z2Nat.id; exact Hz|].
    apply uniq_of_In. right. rewrite Z2Nat.id by exact Hz. exact Hin.
Qed.

Lemma uniq_labels_NoDup (labels : list Z) : NoDup (uniq_labels labels).
Proof.
  unfold uniq_labels. fold (uniq_of labels []).
  apply FinFun.Injective_map_NoDup; [intros a b H; lia|].
  apply ssorted_nodup. apply uniq_of_sorted. constructor.
Qed.

(** * Probability rows *)

Definition nonneg_row (r : list Q) : Prop := Forall (fun x => 0 <= x)%Q r.
(** a probability row: non-negative entries summing to 1, or to 0 when no label reaches the node *)
Definition prob_row (r : list Q) : Prop := nonneg_row r /\ ((sumq r == 1)%Q \/ (sumq r == 0)%Q).

Lemma sumq_abs_nonneg (r : list Q) : nonneg_row r -> (sumq (map Qabs r) == sumq r)%Q.
Proof.
  induction r as [|a t IH]; intros H; simpl; [reflexivity|]. inversion H; subst.
  rewrite (Qabs_pos a) by assumption. rewrite IH by assumption. reflexivity.
Qed.

Lemma sumq_map_div (r : list Q) (s : Q) : ~ (s == 0)%Q ->
  (sumq (map (fun x => Qred (x / s)) r) == sumq r / s)%Q.
Proof.
  intros Hs. induction r as [|a t IH].
  - simpl. unfold Qdiv. lra.
  - rewrite map_cons, !sumq_cons, Qred_correct, IH. field. exact Hs.
Qed.

Lemma normalize_row_length r : length (normalize_row r) = length r.
Proof. unfold normalize_row. destruct (Qeq_bool _ _); [reflexivity|apply map_length]. Qed.

Theorem normalize_row_prob (r : list Q) : nonneg_row r -> prob_row (normalize_row r).
Proof.
  intros H. unfold normalize_row. pose proof (sumq_abs_nonneg r H) as Habs.
  pose proof (sumq_nonneg r (proj1 (Forall_forall _ _) H)) as Hs.
  destruct (Qeq_bool (sumq (map Qabs r)) 0) eqn:E.
  - apply Qeq_bool_iff in E. split; [exact H|]. right. rewrite <- Habs. exact E.
  - apply Qeq_bool_neq in E. split.
    + apply Forall_map. eapply Forall_impl; [|exact H]. intros x Hx. cbn beta in *.
      rewrite Qred_correct. apply Qle_shift_div_l; lra.
    + left. rewrite sumq_map_div by exact E. rewrite Habs in *. field. exact E.
Qed.

Lemma normalize_row_nth (r : list Q) c :
  nonneg_row r ->
  (nthq (normalize_row r) c == if Qeq_bool (sumq r) 0 then nthq r c else nthq r c / sumq r)%Q.
Proof.
  intros H. unfold normalize_row. pose proof (sumq_abs_nonneg r H) as Habs.
  rewrite Habs. destruct (Qeq_bool (sumq r) 0); [reflexivity|].
  unfold nthq. destruct (Nat.lt_ge_cases c (length r)) as [Hc|Hc].
  - rewrite (nth_map_lt (fun x => Qred (x / sumq (map Qabs r))%Q) r c 0%Q 0%Q Hc).
    rewrite Qred_correct, Habs. reflexivity.
  - rewrite !nth_overflow by (try rewrite map_length; exact Hc). unfold Qdiv. lra.
Qed.

Theorem prop_probs_rows (adj : adjrows) (labels : list Z) :
  (forall r, In r adj -> Forall (fun p : nat * Q => 0 <= snd p)%Q r) ->
  Forall prob_row (prop_probs adj labels) /\
  Forall (fun r => length r = n_cols labels) (prop_probs adj labels) /\
  length (prop_probs adj labels) = length adj.
Proof.
  intros H. unfold prop_probs. split; [|split].
  - apply Forall_map, Forall_forall. intros r Hr.
    apply normalize_row_prob, Forall_map, Forall_forall. intros c _. rewrite sumqr_sumq.
    apply sumq_nonneg. intros x Hx. apply in_map_iff in Hx. destruct Hx as [p [<- Hp]].
    pose proof (proj1 (Forall_forall _ _) (H r Hr) p Hp) as Hw. cbn beta in Hw.
    destruct (nthz labels (fst p) =? Z.of_nat c)%Z; lra.
  - apply Forall_map, Forall_forall. intros r _.
    rewrite normalize_row_length, map_length, seq_length. reflexivity.
  - apply map_length.
Qed.

Lemma argmax_from_lt r : forall pos bp best, bp < pos -> argmax_from r pos bp best < pos + length r.
Proof.
  induction r as [|x t IH]; intros pos bp best H; simpl; [lia|].
  destruct (Qle_bool x best).
  - specialize (IH (S pos) bp best ltac:(lia)). lia.
  - specialize (IH (S pos) pos x ltac:(lia)). lia.
Qed.

Lemma argmax_first_lt r : r <> [] -> argmax_first r < length r.
Proof.
  destruct r as [|x t]; [congruence|]. intros _. simpl.
  pose proof (argmax_from_lt t 1 0 x ltac:(lia)). lia.
Qed.

(** contract of the ranking oracle: one non-negative score per node and class *)
Definition scores_ok (seeds : list Z) (scores : mat) : Prop :=
  Forall (fun r => length r = length (uniq_labels seeds) /\ nonneg_row r) scores.

Theorem rank_classify_ok (seeds : list Z) (scores : mat) :
  scores_ok seeds scores -> uniq_labels seeds <> [] ->
  let '(labels, probs) := rank_classify seeds scores in
  length labels = length scores /\ length probs = length scores /\
  (forall l, In l labels -> In l seeds /\ (0 <= l)%Z) /\
  Forall (fun r : list (Z * Q) => map fst r = uniq_labels seeds /\ prob_row (map snd r)) probs.
Proof.
  intros Hs Hne. unfold rank_classify. rewrite !map_length.
  split; [reflexivity|]. split; [reflexivity|]. unfold scores_ok in Hs. rewrite Forall_forall in Hs. split.
  - rewrite map_map. intros l Hl. apply in_map_iff in Hl. destruct Hl as [r [<- Hr]]. destruct (Hs r Hr) as [Hlen _].
    apply uniq_labels_In. apply nth_In. rewrite <- Hlen, <- (normalize_row_length r).
    apply argmax_first_lt. intros E. apply Hne. apply length_zero_iff_nil.
    rewrite <- Hlen, <- (normalize_row_length r), E. reflexivity.
  - rewrite map_map. apply Forall_map, Forall_forall. intros r Hr. destruct (Hs r Hr) as [Hlen Hnn].
    assert (L : length (uniq_labels seeds) = length (normalize_row r)) by (rewrite normalize_row_length; auto).
    rewrite map_fst_combine, map_snd_combine by exact L. split; [reflexivity|].
    apply normalize_row_prob. exact Hnn.
Qed.

(** * Propagation *)

Lemma list_eqb_Z_eq a : forall b, list_eqb_Z a b = true <-> a = b.
Proof.
  induction a as [|x t IH]; intros [|y tb]; simpl; split; intros H; try discriminate; auto.
  - apply andb_true_iff in H. destruct H as [H1 H2]. apply Z.eqb_eq in H1. apply IH in H2. subst. reflexivity.
  - injection H as -> ->. rewrite Z.eqb_refl. apply IH. reflexivity.
Qed.

Lemma scatter_length idx : forall base vals, length (scatter base idx vals) = length base.
Proof.
  induction idx as [|i t IH]; intros base [|v tv]; simpl; auto. rewrite IH. apply upd_length.
Qed.

Lemma scatter_In idx : forall base vals x, In x (scatter base idx vals) -> In x base \/ In x vals.
Proof.
  induction idx as [|i t IH]; intros base [|v tv] x H; simpl in *; auto.
  apply IH in H. destruct H as [H|H]; [|auto]. apply In_upd in H. destruct H as [->|H]; auto.
Qed.

Lemma scatter_other idx : forall base vals i, ~ In i idx -> nthz (scatter base idx vals) i = nthz base i.
Proof.
  induction idx as [|a t IH]; intros base [|v tv] i H; simpl in *; auto.
  rewrite IH by tauto. apply nth_upd_other. tauto.
Qed.

Lemma scatter_map (f : nat -> Z) idx : forall base i,
  NoDup idx -> (forall j, In j idx -> j < length base) -> In i idx ->
  nthz (scatter base idx (map f idx)) i = f i.
Proof.
  induction idx as [|a t IH]; intros base i Hnd Hlt Hin; simpl in *; [contradiction|].
  inversion Hnd as [|? ? Hnotin Hnd']; subst.
  destruct (Nat.eq_dec a i) as [->|Ne].
  - rewrite scatter_other by exact Hnotin. apply nth_upd_same. apply Hlt. auto.
  - destruct Hin as [E|Hin]; [contradiction|]. apply IH; auto.
    intros j Hj. rewrite upd_length. apply Hlt. auto.
Qed.

Lemma instantiate_vars_spec ct seeds index_seed index_remain labels_seed :
  instantiate_vars ct seeds = (index_seed, index_remain, labels_seed) ->
  let n := length seeds in
  labels_seed = map (nthz seeds) index_seed /\ NoDup index_seed /\ NoDup index_remain /\
  (forall i, In i index_seed -> i < n) /\
  (clustering_mode ct seeds = false ->
   (forall i, In i index_seed <-> i < n /\ (0 <= nthz seeds i)%Z) /\
   index_remain = filter (fun i => (nthz seeds i <? 0)%Z) (seq 0 n)).
Proof.
  intros E n. unfold instantiate_vars in E. fold n in E.
  destruct (clustering_mode ct seeds); injection E as <- <- <-.
  - split; [symmetry; apply map_nthz_seq|]. split; [apply seq_NoDup|]. split; [apply seq_NoDup|].
    split; [intros i Hi; apply in_seq in Hi; lia|]. discriminate.
  - split; [reflexivity|]. split; [apply NoDup_filter, seq_NoDup|]. split; [apply NoDup_filter, seq_NoDup|].
    split; [intros i Hi; apply filter_In in Hi; destruct Hi as [Hi _]; apply in_seq in Hi; lia|].
    intros _. split; [|reflexivity]. intros i. rewrite filter_In, in_seq, Z.leb_le. split; intros [H1 H2]; (split; [lia|exact H2]).
Qed.

(** an invariant of the labels preserved by every sweep is preserved by the loop *)
Lemma prop_loop_inv (P : list Z -> Prop) kv c data index n_iter :
  (forall labels labels', P labels ->
      vote_update kv (c_indptr c) (c_indices c) data labels index = VOk labels' -> P labels') ->
  forall fuel t lr labels labels' t' b,
    P labels -> prop_loop kv c data index n_iter fuel t lr labels = POk (labels', t', b) -> P labels'.
Proof.
  intros Hstep. induction fuel as [|f IH]; intros t lr labels labels' t' b HP H; cbn [prop_loop] in H;
    (destruct (_ && _); [|injection H as <- <- <-; exact HP]).
  - discriminate.
  - destruct (vote_update kv (c_indptr c) (c_indices c) data labels index) as [l1|] eqn:Ev; [|discriminate].
    apply (IH _ _ _ _ _ _ (Hstep _ _ HP Ev) H).
Qed.

(** when the loop ends on the array_equal test after at least one sweep, the last sweep started from the
    returned labelling and changed nothing on the updated nodes *)
Lemma prop_loop_fixed kv c data index n_iter :
  forall fuel t lr labels labels' t',
    prop_loop kv c data index n_iter fuel t lr labels = POk (labels', t', true) ->
    (t' = t /\ labels' = labels /\ lr = map (nthz labels) index) \/
    (t < t' /\ exists l0, vote_update kv (c_indptr c) (c_indices c) data l0 index = VOk labels' /\
                          map (nthz l0) index = map (nthz labels') index).
Proof.
  induction fuel as [|f IH]; intros t lr labels labels' t' H; cbn [prop_loop] in H;
    (destruct (_ && _);
     [|injection H as <- <- E; left; split; [reflexivity|]; split; [reflexivity|]; apply list_eqb_Z_eq; assumption]).
  - discriminate.
  - destruct (vote_update kv (c_indptr c) (c_indices c) data labels index) as [l1|] eqn:Ev; [|discriminate].
    apply IH in H. right. destruct H as [[-> [-> Heq]]|[Hlt [l0 [Hv Hm]]]].
    + split; [lia|]. exists labels. split; [exact Ev|exact Heq].
    + split; [lia|]. exists l0. split; assumption.
Qed.

Definition pdata (pv : pvariant) (c : csr) (n : nat) (weighted : bool) : list Q :=
  if weighted then c_data c
  else repeat 1%Q (match pv_ones pv with Ones_n => n | Ones_nnz => length (c_indices c) end).

(** admissible update orders for the theorems about "every non-seed node": index order, or any shuffle *)
Definition order_ok (oi : order_impl) (order : node_order) (oracle : list nat) (seeds : list Z) : Prop :=
  match order with
  | ONone => True
  | ORandom => Permutation (filter (fun i => (nthz seeds i <? 0)%Z) (seq 0 (length seeds))) oracle
  | _ => oi = OI_filter /\ Permutation oracle (seq 0 (length seeds))
  end.

Definition prop_nbrs (c : csr) (weighted : bool) (i : nat) : nbrs :=
  if weighted then nbrs_weighted (c_indptr c) (c_indices c) (c_data c) i
  else nbrs_unit (c_indptr c) (c_indices c) i.

(** one successful run of Propagation.fit *)
Section Run.
  Context (pv : pvariant) (c : csr) (seeds : list Z) (order : node_order) (oracle : list nat) (weighted : bool)
          (n_iter : option nat) (fuel : nat) (res : prop_result).
  Context (Hrun : propagation pv c seeds order oracle weighted n_iter fuel = POk res).

  Lemma propagation_unfold :
    exists index_seed index_remain labels_seed,
      instantiate_vars (pv_ctest pv) seeds = (index_seed, index_remain, labels_seed) /\
      pr_index res = order_index (pv_order pv) order oracle index_remain /\
      prop_loop (pv_kernel pv) c (pdata pv c (length seeds) weighted) (pr_index res) n_iter fuel 0
                (repeat 0%Z (length (pr_index res))) (scatter (repeat (-1)%Z (length seeds)) index_seed labels_seed)
      = POk (pr_labels res, pr_sweeps res, pr_fixed res).
  Proof.
    pose proof Hrun as H. unfold propagation in H. fold (pdata pv c (length seeds) weighted) in H.
    destruct (instantiate_vars (pv_ctest pv) seeds) as [[is ir] ls].
    destruct (prop_loop _ _ _ _ _ _ _ _ _) as [[[l t] b]| |] eqn:E; try discriminate.
    injection H as <-. exists is, ir, ls. auto.
  Qed.

  (** every predicted label is -1 or one of the seed labels (non-negative outside clustering mode) *)
  Theorem propagation_labels :
    length (pr_labels res) = length seeds /\
    forall x, In x (pr_labels res) ->
      x = (-1)%Z \/ (In x seeds /\ (clustering_mode (pv_ctest pv) seeds = false -> (0 <= x)%Z)).
  Proof.
    destruct propagation_unfold as [is [ir [ls [E [_ U]]]]].
    destruct (instantiate_vars_spec _ _ _ _ _ E) as [Sls [_ [_ [Sis Smode]]]].
    pattern (pr_labels res). eapply prop_loop_inv; [| |exact U]; cbv beta.
    - intros labels labels' [HL HP] Hv.
      destruct (vote_update_labels_from_input _ _ _ _ _ _ _ Hv) as [L [_ I]].
      split; [lia|]. intros x Hx. apply HP. apply I. exact Hx.
    - split.
      + rewrite scatter_length, repeat_length. reflexivity.
      + intros x Hx. apply scatter_In in Hx. destruct Hx as [Hx|Hx].
        * left. apply repeat_spec in Hx. exact Hx.
        * right. subst ls. apply in_map_iff in Hx. destruct Hx as [i [<- Hi]]. split.
          -- apply nth_In. apply Sis. exact Hi.
          -- intros Hm. destruct (Smode Hm) as [Hs _]. apply Hs in Hi. tauto.
  Qed.

  Lemma pr_index_spec :
    clustering_mode (pv_ctest pv) seeds = false -> order_ok (pv_order pv) order oracle seeds ->
    NoDup (pr_index res) /\
    forall i, In i (pr_index res) <-> i < length seeds /\ (nthz seeds i < 0)%Z.
  Proof.
    intros Hm Ho. destruct propagation_unfold as [is [ir [ls [E [U _]]]]].
    destruct (instantiate_vars_spec _ _ _ _ _ E) as [_ [_ [Sir [_ Smode]]]]. destruct (Smode Hm) as [_ Eir].
    assert (Hspec : forall i, In i ir <-> i < length seeds /\ (nthz seeds i < 0)%Z).
    { intros i. rewrite Eir, filter_In, in_seq, Z.ltb_lt. split; intros [H1 H2]; (split; [lia|exact H2]). }
    assert (Hfilt : pv_order pv = OI_filter /\ Permutation oracle (seq 0 (length seeds)) ->
                    NoDup (filter (fun i => memn i ir) oracle) /\
                    forall i, In i (filter (fun i => memn i ir) oracle) <-> i < length seeds /\ (nthz seeds i < 0)%Z).
    { intros [_ Hp]. split.
      - apply NoDup_filter. apply Permutation_sym in Hp. eapply Permutation_NoDup; [exact Hp|apply seq_NoDup].
      - intros i. rewrite filter_In, memn_In, Hspec. split; [tauto|]. intros Hi. split; [|exact Hi].
        apply Permutation_sym in Hp. apply (Permutation_in _ Hp). apply in_seq. lia. }
    rewrite U. clear U. destruct order; simpl in *.
    - rewrite <- Eir in Ho. split; [eapply Permutation_NoDup; eassumption|].
      intros i. rewrite <- Hspec. split; intros Hi; [apply Permutation_sym in Ho|]; eapply Permutation_in; eassumption.
    - rewrite (proj1 Ho). exact (Hfilt Ho).
    - rewrite (proj1 Ho). exact (Hfilt Ho).
    - split; assumption.
  Qed.

  (** seeds keep their labels (outside clustering mode, for the index and random orders) *)
  Theorem propagation_seeds_fixed_model :
    clustering_mode (pv_ctest pv) seeds = false -> order_ok (pv_order pv) order oracle seeds ->
    forall i, i < length seeds -> (0 <= nthz seeds i)%Z -> nthz (pr_labels res) i = nthz seeds i.
  Proof.
    intros Hm Ho i Hi Hs.
    destruct (pr_index_spec Hm Ho) as [_ Hidx].
    destruct propagation_unfold as [is [ir [ls [E [_ U]]]]].
    destruct (instantiate_vars_spec _ _ _ _ _ E) as [Sls [Sis [_ [Slt Smode]]]]. destruct (Smode Hm) as [Sin _].
    set (l0 := scatter (repeat (-1)%Z (length seeds)) is ls) in *.
    assert (H0 : nthz l0 i = nthz seeds i).
    { unfold l0. subst ls. apply scatter_map; auto.
      - intros j Hj. rewrite repeat_length. apply Slt. exact Hj.
      - apply Sin. split; assumption. }
    rewrite <- H0.
    apply (prop_loop_inv (fun labels => nthz labels i = nthz l0 i)) in U; [exact U| |reflexivity].
    intros labels labels' HP Hv.
    destruct (vote_update_labels_from_input _ _ _ _ _ _ _ Hv) as [_ [F _]].
    rewrite F; [exact HP|]. intros Hin. apply Hidx in Hin. lia.
  Qed.

  (** the fixed-point theorem, for the unweighted path of EVERY kernel variant and for the weighted path of a kernel
      that reads the weight of the edge and clears votes_neigh: when the loop stopped because a sweep changed
      nothing, every updated node with a labelled neighbour holds a label with a maximal total vote among its
      neighbours *)
  Theorem propagation_fixed_point_model :
    (weighted = true ->
     wpos (pv_kernel pv) = true /\ clr (pv_kernel pv) = true /\ Forall (fun w => 0 <= w)%Q (c_data c)) ->
    pr_fixed res = true -> 0 < pr_sweeps res -> NoDup (pr_index res) ->
    forall i, In i (pr_index res) ->
      has_labelled_neighbour (prop_nbrs c weighted i) (pr_labels res) ->
      local_max (prop_nbrs c weighted i) (pr_labels res) i.
  Proof.
    intros Hw Hf Ht Hnd i Hi Hnb.
    destruct propagation_unfold as [is [ir [ls [_ [_ U]]]]].
    rewrite Hf in U. apply prop_loop_fixed in U.
    destruct U as [[E _]|[_ [l0 [Hv Hm]]]]; [lia|].
    assert (Hsame : forall j, In j (pr_index res) -> nthz (pr_labels res) j = nthz l0 j).
    { intros j Hj. apply In_nth with (d := 0) in Hj. destruct Hj as [k [Hk <-]].
      apply (f_equal (fun l => nth k l 0%Z)) in Hm.
      rewrite !(nth_map_lt _ _ _ 0 0%Z) in Hm by exact Hk. symmetry. exact Hm. }
    unfold prop_nbrs, pdata in *. clear Hrun. destruct weighted.
    - destruct (Hw eq_refl) as [H1 [H2 H3]].
      apply (vote_fixed_point_weighted _ _ _ _ _ _ _ H1 H2 H3 Hv Hnd Hsame); assumption.
    - apply (vote_fixed_point_unweighted _ _ _ _ _ _ _ (all_ones_repeat _) Hv Hnd Hsame); assumption.
  Qed.

  (** the fixed-point theorem in the form of the property: every NON-SEED node with a labelled neighbour *)
  Theorem propagation_fixed_point_argmax_model :
    (weighted = true ->
     wpos (pv_kernel pv) = true /\ clr (pv_kernel pv) = true /\ Forall (fun w => 0 <= w)%Q (c_data c)) ->
    clustering_mode (pv_ctest pv) seeds = false -> order_ok (pv_order pv) order oracle seeds ->
    pr_fixed res = true -> 0 < pr_sweeps res ->
    forall i, i < length seeds -> (nthz seeds i < 0)%Z ->
      has_labelled_neighbour (prop_nbrs c weighted i) (pr_labels res) ->
      local_max (prop_nbrs c weighted i) (pr_labels res) i.
  Proof.
    intros Hw Hm Ho Hf Ht i Hi Hs.
    destruct (pr_index_spec Hm Ho) as [Hnd Hidx].
    apply (propagation_fixed_point_model Hw Hf Ht Hnd). apply Hidx. split; assumption.
  Qed.
End Run.

(** ** Refutations, all about LEGACY variants of the source.
    [pv_legacy]: the source before 32660cf6 (kernel reads data[node], never clears votes_neigh, votes of length n;
    ones of length n). [pv_32660cf6]: kernel repaired, but before 4b87643c / c0b9c86b: the clustering test is
    len(set(labels)) == n and 'increasing' / 'decreasing' index the argsort by position. *)
Definition pv_legacy : pvariant :=
  {| pv_kernel := legacy_kernel; pv_ctest := CT_distinct; pv_ones := Ones_n; pv_order := OI_position |}.
Definition pv_32660cf6 : pvariant :=
  {| pv_kernel := repaired_kernel; pv_ctest := CT_distinct; pv_ones := Ones_nnz; pv_order := OI_position |}.

(** D5: the weighted graph of [vote_weighted_refuted_legacy]; legacy propagation stops on it with node 3 holding
    label 0 although label 1 has weight 2 > 1, the repaired kernel gives label 1 (C13.propagation_weighted_refuted) *)
Definition wit_csr : csr := {| c_indptr := wit_indptr; c_indices := wit_indices; c_data := wit_data |}.

(** D21 (legacy, before 4b87643c): [[0,4,0],[4,0,0],[0,0,0]], seeds {0:0, 1:1}: three distinct values in a vector of length 3 are taken
    for clustering mode and seed 0 loses its label *)
Theorem propagation_seeds_fixed_refuted_legacy :
  let c := {| c_indptr := [0; 1; 2; 2]; c_indices := [1; 0]; c_data := [4; 4]%Q |} in
  let seeds := [0; 1; -1]%Z in
  exists res, propagation pv_32660cf6 c seeds ONone [] true None 10 = POk res /\
    pr_labels res = [1; 1; -1]%Z /\ nthz seeds 0 = 0%Z /\ nthz (pr_labels res) 0 <> nthz seeds 0 /\
    clustering_mode CT_distinct seeds = true.
Proof.
  cbv zeta. eexists. split; [vm_compute; reflexivity|]. cbn [pr_labels].
  split; [reflexivity|]. split; [reflexivity|]. split; [discriminate|reflexivity].
Qed.

(** legacy (before c0b9c86b) node_order='increasing' / 'decreasing': [index_remain = index[index_remain]] selects the entries of the
    argsort at the POSITIONS of the free nodes, not the free nodes in sorted order. Graph 0-1, 0-2, 1-2, 1-3,
    seeds {1:0, 3:1}, in-weights [2,3,2,1], argsort [3,0,2,1]: nodes 3 and 2 are updated, seed 3 loses its
    label and node 0 is never updated. *)
Theorem propagation_order_refuted_legacy :
  let c := {| c_indptr := [0; 2; 5; 7; 8]; c_indices := [1; 2; 0; 2; 3; 0; 1; 1];
              c_data := [1; 1; 1; 1; 1; 1; 1; 1]%Q |} in
  let seeds := [-1; 0; -1; 1]%Z in
  let inw := [2; 3; 2; 1]%Z in
  let oracle := [3; 0; 2; 1] in
  Permutation oracle (seq 0 4) /\ Sorted Z.le (map (nthz inw) oracle) /\
  clustering_mode CT_distinct seeds = false /\
  exists res, propagation pv_32660cf6 c seeds OIncreasing oracle true (Some 5) 5 = POk res /\
    pr_index res = [3; 2] /\ pr_labels res = [-1; 0; 0; 0]%Z /\
    nthz seeds 3 = 1%Z /\ nthz (pr_labels res) 3 <> nthz seeds 3.
Proof.
  cbv zeta. split.
  { apply (perm_trans (l' := [0; 3; 2; 1])).
    - apply perm_swap.
    - apply perm_skip. apply (perm_trans (l' := [2; 3; 1])); [apply perm_swap|].
      apply (perm_trans (l' := [2; 1; 3])); [apply perm_skip, perm_swap|]. apply perm_swap. }
  split.
  { cbv [map nthz nth]. repeat (first [apply Sorted_nil | apply HdRel_nil | apply Sorted_cons | apply HdRel_cons]); lia. }
  split; [reflexivity|].
  eexists. split; [vm_compute; reflexivity|]. cbn [pr_index pr_labels].
  split; [reflexivity|]. split; [reflexivity|]. split; [reflexivity|discriminate].
Qed.

(** * DiffusionClassifier *)

Lemma index_of_nth x l : forall c, index_of x l = Some c -> nth c l (-1)%Z = x /\ c < length l.
Proof.
  induction l as [|y t IH]; intros c H; simpl in H; [discriminate|].
  destruct (Z.eqb_spec x y) as [E|_].
  - injection H as <-. simpl. split; [auto|lia].
  - destruct (index_of x t) as [c'|]; [|discriminate]. injection H as <-.
    destruct (IH c' eq_refl) as [H1 H2]. simpl. split; [exact H1|lia].
Qed.

Lemma index_of_In x l : In x l -> exists c, index_of x l = Some c.
Proof.
  induction l as [|y t IH]; intros H; simpl in *; [contradiction|].
  destruct (Z.eqb_spec x y) as [_|E]; [eexists; reflexivity|].
  destruct H as [->|H]; [contradiction|].
  destruct (IH H) as [c Hc]. rewrite Hc. eexists; reflexivity.
Qed.

Lemma index_of_nth_nodup l : NoDup l -> forall j, j < length l -> index_of (nth j l (-1)%Z) l = Some j.
Proof.
  induction 1 as [|y t Hnotin Hnd IH]; intros j Hj; simpl in *; [lia|].
  destruct j as [|j].
  - rewrite Z.eqb_refl. reflexivity.
  - destruct (Z.eqb_spec (nth j t (-1)%Z) y) as [E|_].
    + exfalso. apply Hnotin. rewrite <- E. apply nth_In. lia.
    + rewrite IH by lia. reflexivity.
Qed.

Lemma nthq_onehot k c j : j < k -> nthq (onehot k c) j = if j =? c then 1%Q else 0%Q.
Proof. apply nth_map_seq. Qed.

Lemma nthq_repeat_q (q : Q) k j : nthq (repeat q k) j = if j <? k then q else 0%Q.
Proof.
  unfold nthq. destruct (Nat.ltb_spec j k) as [H|H].
  - apply (repeat_spec k q), nth_In. rewrite repeat_length. exact H.
  - apply nth_overflow. rewrite repeat_length. exact H.
Qed.

Lemma argmax_from_le r : forall pos bp best, (forall x, In x r -> (x <= best)%Q) -> argmax_from r pos bp best = bp.
Proof.
  induction r as [|x t IH]; intros pos bp best H; simpl; [reflexivity|].
  assert (E : Qle_bool x best = true) by (apply Qle_bool_iff; apply H; left; reflexivity).
  rewrite E. apply IH. intros y Hy. apply H. right. exact Hy.
Qed.

Lemma argmax_from_unique r : forall pos bp best c,
  c < length r -> (best < nthq r c)%Q -> (forall j, j < length r -> j <> c -> (nthq r j < nthq r c)%Q) ->
  argmax_from r pos bp best = pos + c.
Proof.
  induction r as [|x t IH]; intros pos bp best c Hc Hb H; simpl in Hc; [lia|].
  assert (Ht : forall c', c = S c' -> forall j, j < length t -> j <> c' -> (nthq t j < nthq t c')%Q).
  { intros c' -> j Hj Hjc. apply (H (S j)); simpl; lia. }
  destruct c as [|c]; cbn [argmax_from].
  - change (best < x)%Q in Hb. rewrite (Qle_bool_gt _ _ Hb), argmax_from_le; [lia|].
    intros y Hy. apply (In_nth _ _ 0%Q) in Hy. destruct Hy as [j [Hj <-]].
    apply Qlt_le_weak. apply (H (S j)); simpl; lia.
  - assert (Hx : (x < nthq t c)%Q) by (apply (H 0); simpl; lia).
    assert (Hc' : c < length t) by lia.
    destruct (Qle_bool x best); rewrite (IH _ _ _ c Hc') by (assumption || exact (Ht c eq_refl)); lia.
Qed.

Lemma argmax_first_unique (r : list Q) (c : nat) :
  c < length r -> (forall j, j < length r -> j <> c -> (nthq r j < nthq r c)%Q) -> argmax_first r = c.
Proof.
  destruct r as [|x t]; intros Hc H; simpl in Hc; [lia|]. cbn [argmax_first]. destruct c as [|c].
  - apply argmax_from_le. intros y Hy. apply (In_nth _ _ 0%Q) in Hy. destruct Hy as [j [Hj <-]].
    apply Qlt_le_weak. apply (H (S j)); simpl; lia.
  - apply (argmax_from_unique t 1 0 x c); [lia|apply (H 0); simpl; lia|].
    intros j Hj Hjc. apply (H (S j)); simpl; lia.
Qed.

(** convex combinations stay in [0, 1] *)
Definition good_row (r : list (nat * Q)) : Prop :=
  Forall (fun p : nat * Q => 0 <= snd p)%Q r /\ (sumq (map snd r) <= 1)%Q.

Lemma convex01 (r : list (nat * Q)) (x : nat * Q -> Q) :
  Forall (fun p : nat * Q => 0 <= snd p)%Q r -> (forall p, In p r -> 0 <= x p <= 1)%Q ->
  (0 <= sumq (map (fun p => snd p * x p) r) <= sumq (map snd r))%Q.
Proof.
  induction r as [|p t IH]; intros Hw Hx; simpl; [lra|].
  inversion Hw; subst. specialize (IH H2 (fun q Hq => Hx q (or_intror Hq))).
  specialize (Hx p (or_introl eq_refl)). nra.
Qed.

Lemma map_snd_norm_adj_row (r : list (nat * Q)) : map snd (norm_adj_row r) = normalize_row (map snd r).
Proof.
  unfold norm_adj_row, normalize_row. rewrite !map_map.
  destruct (Qeq_bool _ 0); [reflexivity|]. rewrite !map_map. reflexivity.
Qed.

Lemma norm_adj_row_good (r : list (nat * Q)) :
  Forall (fun p : nat * Q => 0 <= snd p)%Q r -> good_row (norm_adj_row r).
Proof.
  intros H. destruct (normalize_row_prob (map snd r)) as [Hn Hs]; [apply Forall_map; exact H|].
  rewrite <- map_snd_norm_adj_row in Hn, Hs.
  split; [apply Forall_map; exact Hn|]. destruct Hs as [Hs|Hs]; rewrite Hs; lra.
Qed.

Definition in01m (T : mat) : Prop := forall i c, (0 <= nthq (mrow T i) c <= 1)%Q.

Lemma dot_row_in01 k r T c : good_row r -> in01m T -> (0 <= nthq (dot_row k r T) c <= 1)%Q.
Proof.
  intros [Hw Hs] HT. unfold dot_row. rewrite nthq_map_seq_gen. destruct (c <? k); [|lra].
  rewrite sumqr_sumq. pose proof (convex01 r (fun p => nthq (mrow T (fst p)) c) Hw (fun p _ => HT (fst p) c)) as Hc.
  cbv beta in Hc. lra.
Qed.

Lemma dc_init_row k lu labels i : i < length labels ->
  mrow (dc_init k lu labels) i =
  if (0 <=? nthz labels i)%Z then match index_of (nthz labels i) lu with Some c => onehot k c | None => repeat 0%Q k end
  else repeat 1%Q k.
Proof. intros H. unfold mrow, dc_init. rewrite (nth_map_lt _ labels i 0%Z []) by exact H. reflexivity. Qed.

Lemma dc_init_in01 k lu labels : in01m (dc_init k lu labels).
Proof.
  intros i c. destruct (Nat.lt_ge_cases i (length labels)) as [H|H].
  - rewrite dc_init_row by exact H. destruct (0 <=? nthz labels i)%Z.
    + destruct (index_of (nthz labels i) lu).
      * unfold onehot. rewrite nthq_map_seq_gen. destruct (c <? k); [destruct (c =? n)|]; lra.
      * rewrite nthq_repeat_q. destruct (c <? k); lra.
    + rewrite nthq_repeat_q. destruct (c <? k); lra.
  - unfold mrow. rewrite nth_overflow by (unfold dc_init; rewrite map_length; exact H).
    unfold nthq. destruct c; simpl; lra.
Qed.

Lemma dc_init_row_length k lu labels i : i < length labels -> length (mrow (dc_init k lu labels) i) = k.
Proof.
  intros H. rewrite dc_init_row by exact H. destruct (0 <=? nthz labels i)%Z.
  - destruct (index_of (nthz labels i) lu); [unfold onehot; rewrite map_length, seq_length|rewrite repeat_length]; reflexivity.
  - apply repeat_length.
Qed.

Record TInv (k : nat) (labels : list Z) (T0 T : mat) : Prop :=
  { ti_len : length T = length labels;
    ti_01 : in01m T;
    ti_row : forall i, i < length labels -> length (mrow T i) = k;
    ti_seed : forall i, i < length labels -> (0 <= nthz labels i)%Z -> mrow T i = mrow T0 i }.

Lemma sumq_ge_member (l : list Q) y : (forall x, In x l -> (0 <= x)%Q) -> In y l -> (y <= sumq l)%Q.
Proof.
  induction l as [|a t IH]; intros H Hy; simpl in *; [contradiction|].
  assert (Ht : (0 <= sumq t)%Q) by (apply sumq_nonneg; intros x Hx; apply H; right; exact Hx).
  destruct Hy as [->|Hy]; [lra|]. specialize (IH (fun x Hx => H x (or_intror Hx)) Hy).
  specialize (H a (or_introl eq_refl)). lra.
Qed.

Lemma sumq_le_length (l : list Q) : (forall x, In x l -> (x <= 1)%Q) -> (sumq l <= qnat (length l))%Q.
Proof.
  induction l as [|a t IH]; intros H; [apply Qle_refl|].
  rewrite sumq_cons. change (length (a :: t)) with (1 + length t). rewrite qnat_plus.
  specialize (IH (fun x Hx => H x (or_intror Hx))). specialize (H a (or_introl eq_refl)).
  change (qnat 1) with 1%Q. lra.
Qed.

Lemma in_mat_row (T : mat) r : In r T -> exists i, i < length T /\ mrow T i = r.
Proof. intros H. apply (In_nth _ _ []) in H. destruct H as [i [Hi E]]. exists i. split; assumption. Qed.

Lemma col_mean_bounds (T : mat) (c : nat) :
  in01m T -> T <> [] ->
  (col_mean (length T) T c <= 1)%Q /\
  (forall u, u < length T -> (nthq (mrow T u) c == 1)%Q -> (0 < col_mean (length T) T c)%Q).
Proof.
  intros H01 Hne. unfold col_mean. rewrite sumqr_sumq.
  set (col := map (fun r => nthq r c) T).
  assert (Hn : (0 < qnat (length T))%Q) by (apply qnat_pos; destruct T; [congruence|simpl; lia]).
  assert (Hcol : forall x, In x col -> (0 <= x <= 1)%Q).
  { intros x Hx. unfold col in Hx. apply in_map_iff in Hx. destruct Hx as [r [<- Hr]].
    destruct (in_mat_row _ _ Hr) as [i [_ <-]]. apply H01. }
  assert (H1 : (sumq col <= qnat (length T))%Q).
  { replace (length T) with (length col) by (unfold col; apply map_length).
    apply sumq_le_length. intros x Hx. apply Hcol. exact Hx. }
  fold (qnat (length T)). split.
  - apply Qle_shift_div_r; lra.
  - intros u Hu H1u. apply Qlt_shift_div_l; [exact Hn|].
    assert (Hin : In (nthq (mrow T u) c) col) by (apply (in_map (fun r => nthq r c)), nth_In, Hu).
    pose proof (sumq_ge_member col _ (fun x Hx => proj1 (Hcol x Hx)) Hin). fold col. rewrite sumqr_sumq. lra.
Qed.

Lemma bfs_neg_iff (g : graph) (src : list bool) dist :
  length src = length g -> bfs g src = Some dist ->
  length dist = length g /\
  forall v, v < length g -> ((nthz dist v <? 0)%Z = true <-> forall k, ~ reachk g src k v).
Proof.
  intros Hl Hb. destruct (bfs_exact g src Hl) as [d [Hd [Hdl Hspec]]]. rewrite Hb in Hd. injection Hd as <-.
  split; [exact Hdl|]. intros v Hv. pose proof (bfs_dist_bound g src dist v Hl Hb Hv) as Hge.
  destruct (Hspec v Hv) as [_ Hm]. rewrite Z.ltb_lt, <- Hm. lia.
Qed.

Lemma center_row k T i : i < length T ->
  mrow (center k T) i = map (fun c => Qred (nthq (mrow T i) c - col_mean (length T) T c)%Q) (seq 0 k).
Proof. intros H. unfold center, mrow. rewrite (nth_map_lt _ T i [] []) by exact H. reflexivity. Qed.

Lemma in_map2 {A B C} (f : A -> B -> C) l1 : forall l2 x,
  In x (map2 f l1 l2) -> exists a b, In a l1 /\ In b l2 /\ x = f a b.
Proof.
  induction l1 as [|a t IH]; intros [|b t2] x H; simpl in H; try contradiction.
  destruct H as [<-|H].
  - exists a, b. simpl. auto.
  - destruct (IH _ _ H) as [a' [b' [Ha [Hb E]]]]. exists a', b'. simpl. auto.
Qed.

Section Diffusion.
  Context (adj : adjrows) (labels : list Z) (n_iter : nat) (centering : bool) (scale : Q) (expf : Q -> Q)
          (lab : list Z) (probs : mat).
  Context (Hadj : forall r, In r adj -> Forall (fun p : nat * Q => 0 <= snd p)%Q r).

  Let lu := uniq_labels labels.
  Let k := length lu.
  Let T0 := dc_init k lu labels.
  Let T := Nat.iter n_iter (dc_step k (map norm_adj_row adj) labels T0) T0.
  Let Tc := if centering then center k T else T.

  Lemma dc_iter_inv m : TInv k labels T0 (Nat.iter m (dc_step k (map norm_adj_row adj) labels T0) T0).
  Proof.
    assert (Hgood : forall i, good_row (nth i (map norm_adj_row adj) [])).
    { intros i. destruct (Nat.lt_ge_cases i (length adj)) as [H|H].
      - rewrite (nth_map_lt norm_adj_row adj i [] []) by exact H. apply norm_adj_row_good. apply Hadj. apply nth_In. exact H.
      - rewrite nth_overflow by (rewrite map_length; exact H). split; [constructor|simpl; lra]. }
    induction m as [|m IH].
    - simpl. constructor.
      + unfold T0, dc_init. apply map_length.
      + apply dc_init_in01.
      + intros i Hi. apply dc_init_row_length. exact Hi.
      + reflexivity.
    - simpl. set (T' := Nat.iter m (dc_step k (map norm_adj_row adj) labels T0) T0) in *.
      destruct IH as [I1 I2 I3 I4].
      assert (Hrow : forall i, mrow (dc_step k (map norm_adj_row adj) labels T0 T') i =
                     if i <? length labels then
                       (if (0 <=? nthz labels i)%Z then mrow T0 i else dot_row k (nth i (map norm_adj_row adj) []) T')
                     else []).
      { intros i. apply nth_map_seq_gen. }
      constructor.
      + unfold dc_step. rewrite map_length, seq_length. reflexivity.
      + intros i c. rewrite Hrow. destruct (i <? length labels); [|destruct c; unfold nthq; simpl; lra].
        destruct (0 <=? nthz labels i)%Z; [apply dc_init_in01|]. apply dot_row_in01; auto.
      + intros i Hi. rewrite Hrow, (proj2 (Nat.ltb_lt _ _) Hi).
        destruct (0 <=? nthz labels i)%Z; [apply dc_init_row_length; exact Hi|].
        unfold dot_row. rewrite map_length, seq_length. reflexivity.
      + intros i Hi Hs. rewrite Hrow, (proj2 (Nat.ltb_lt _ _) Hi), (proj2 (Z.leb_le _ _) Hs). reflexivity.
  Qed.

  Lemma dc_T_inv : TInv k labels T0 T.
  Proof. exact (dc_iter_inv n_iter). Qed.

  Lemma dc_fit_unfold :
    dc_fit adj labels n_iter centering scale expf = Some (lab, probs) ->
    k <> 0 /\
    exists dist, bfs (map (map fst) adj) (map (fun l => (0 <=? l)%Z) labels) = Some dist /\
      lab = map2 (fun (d l : Z) => if (d <? 0)%Z then (-1)%Z else l) dist
                 (map (fun r => nth (argmax_first r) lu (-1)%Z) Tc) /\
      probs = map normalize_row
                  (map2 (fun (d : Z) (r : list Q) => if (d <? 0)%Z then repeat 0%Q k else r) dist
                        (if centering then map (map (fun x => expf (scale * x)%Q)) Tc else Tc)).
  Proof.
    unfold dc_fit. intros H. cbv zeta in H.
    destruct (length (uniq_labels labels) =? 0) eqn:Ek; [discriminate|]. apply Nat.eqb_neq in Ek.
    split; [exact Ek|].
    destruct (bfs (map (map fst) adj) (map (fun l => (0 <=? l)%Z) labels)) as [dist|]; [|discriminate].
    exists dist. injection H as <- <-. auto.
  Qed.

  Lemma dc_seed_row u c :
    u < length labels -> (0 <= nthz labels u)%Z -> c < k -> nth c lu (-1)%Z = nthz labels u -> mrow T u = onehot k c.
  Proof.
    intros Hu Hs Hc E. destruct dc_T_inv as [_ _ _ I4]. rewrite I4 by assumption.
    unfold T0. rewrite dc_init_row by exact Hu.
    rewrite (proj2 (Z.leb_le _ _) Hs), <- E, (index_of_nth_nodup lu (uniq_labels_NoDup labels) c Hc). reflexivity.
  Qed.

  (** the label assigned to a seed before the "unreached" reset *)
  Lemma dc_label_seed v :
    v < length labels -> (0 <= nthz labels v)%Z -> nth (argmax_first (mrow Tc v)) lu (-1)%Z = nthz labels v.
  Proof.
    intros Hv Hs. destruct dc_T_inv as [I1 I2 _ _].
    assert (Hin : In (nthz labels v) lu).
    { apply uniq_labels_In. split; [apply nth_In; exact Hv|exact Hs]. }
    destruct (In_nth _ _ (-1)%Z Hin) as [c [Hck Hnth]]. fold k in Hck.
    pose proof (dc_seed_row v c Hv Hs Hck Hnth) as Hrow.
    assert (Harg : argmax_first (mrow Tc v) = c).
    { unfold Tc. destruct centering.
      - rewrite center_row by lia. apply argmax_first_unique.
        + rewrite map_length, seq_length. exact Hck.
        + rewrite map_length, seq_length. intros j Hj Hjc.
          rewrite !nthq_map_seq0 by assumption. rewrite !Qred_correct, Hrow, !nthq_onehot by assumption.
          rewrite Nat.eqb_refl, (proj2 (Nat.eqb_neq _ _) Hjc).
          assert (HTne : T <> []) by (intros E; rewrite E in I1; simpl in I1; lia).
          destruct (col_mean_bounds T c I2 HTne) as [Hc1 _].
          destruct (col_mean_bounds T j I2 HTne) as [_ Hpos].
          (* class j has a seed u, whose row is onehot j *)
          assert (Hlj : In (nth j lu (-1)%Z) lu) by (apply nth_In; exact Hj).
          apply uniq_labels_In in Hlj. destruct Hlj as [Hinl Hnonneg].
          apply (In_nth _ _ 0%Z) in Hinl. destruct Hinl as [u [Hu Hlu]]. fold (nthz labels u) in Hlu.
          rewrite <- Hlu in Hnonneg.
          assert (Hone : (nthq (mrow T u) j == 1)%Q).
          { rewrite (dc_seed_row u j Hu Hnonneg Hj (eq_sym Hlu)), nthq_onehot, Nat.eqb_refl by exact Hj. reflexivity. }
          specialize (Hpos u ltac:(lia) Hone). lra.
      - rewrite Hrow. apply argmax_first_unique.
        + unfold onehot. rewrite map_length, seq_length. exact Hck.
        + unfold onehot at 1. rewrite map_length, seq_length. intros j Hj Hjc.
          rewrite !nthq_onehot, Nat.eqb_refl, (proj2 (Nat.eqb_neq _ _) Hjc) by assumption. lra. }
    rewrite Harg. exact Hnth.
  Qed.

  Lemma dc_Tc_length : length Tc = length labels /\ forall i, i < length labels -> length (mrow Tc i) = k.
  Proof.
    destruct dc_T_inv as [I1 I2 I3 I4]. unfold Tc. destruct centering.
    - split; [unfold center; rewrite map_length; exact I1|].
      intros i Hi. rewrite center_row by lia. rewrite map_length, seq_length. reflexivity.
    - split; [exact I1|exact I3].
  Qed.

  Lemma dc_lab_nth :
    length adj = length labels ->
    dc_fit adj labels n_iter centering scale expf = Some (lab, probs) ->
    exists dist, length lab = length labels /\
      forall v, v < length labels ->
        ((nthz dist v <? 0)%Z = true <->
         forall k, ~ reachk (map (map fst) adj) (map (fun l => (0 <=? l)%Z) labels) k v) /\
        nthz lab v = if (nthz dist v <? 0)%Z then (-1)%Z else nth (argmax_first (mrow Tc v)) lu (-1)%Z.
  Proof.
    intros Hlen H.
    destruct (dc_fit_unfold H) as [_ [dist [Hb [Hlab _]]]]. exists dist.
    destruct dc_Tc_length as [LT _].
    assert (Hlg : length (map (fun l => (0 <=? l)%Z) labels) = length (map (map fst) adj)) by (rewrite !map_length; lia).
    destruct (bfs_neg_iff _ _ _ Hlg Hb) as [Hld Hneg]. rewrite map_length in Hld, Hneg.
    rewrite Hlab. split.
    - rewrite map2_length, map_length, Hld, LT. lia.
    - intros v Hv. split; [apply Hneg; lia|].
      unfold nthz at 1. rewrite (nth_map2 _ dist _ v 0%Z (-1)%Z 0%Z) by (try rewrite map_length; lia).
      fold (nthz dist v). rewrite (nth_map_lt _ Tc v [] (-1)%Z) by lia. reflexivity.
  Qed.

  (** seeds keep their labels *)
  Theorem dc_seeds_fixed :
    length adj = length labels ->
    dc_fit adj labels n_iter centering scale expf = Some (lab, probs) ->
    forall v, v < length labels -> (0 <= nthz labels v)%Z -> nthz lab v = nthz labels v.
  Proof.
    intros Hlen H v Hv Hs.
    destruct (dc_lab_nth Hlen H) as [dist [_ Hnth]]. destruct (Hnth v Hv) as [Hneg ->].
    rewrite (dc_label_seed v Hv Hs).
    destruct (nthz dist v <? 0)%Z; [|reflexivity]. exfalso.
    apply (proj1 Hneg eq_refl 0). simpl. unfold nthb. rewrite (nth_map_lt _ labels v 0%Z false) by exact Hv.
    apply Z.leb_le. exact Hs.
  Qed.

  (** label -1 exactly on the nodes no walk from a seed reaches (on an undirected graph: the nodes of the
      components without a seed) *)
  Theorem dc_minus1_iff_unreached :
    length adj = length labels ->
    dc_fit adj labels n_iter centering scale expf = Some (lab, probs) ->
    length lab = length labels /\
    forall v, v < length labels ->
      (nthz lab v = (-1)%Z <-> forall k, ~ reachk (map (map fst) adj) (map (fun l => (0 <=? l)%Z) labels) k v) /\
      (nthz lab v <> (-1)%Z -> In (nthz lab v) labels /\ (0 <= nthz lab v)%Z).
  Proof.
    intros Hlen H. destruct (dc_fit_unfold H) as [Hk _]. destruct (dc_lab_nth Hlen H) as [dist [L Hnth]].
    split; [exact L|]. intros v Hv. destruct (Hnth v Hv) as [Hneg ->].
    destruct dc_Tc_length as [_ LR].
    assert (Hlu : In (nth (argmax_first (mrow Tc v)) lu (-1)%Z) lu).
    { apply nth_In. fold k. rewrite <- (LR v Hv). apply argmax_first_lt.
      intros E. specialize (LR v Hv). rewrite E in LR. simpl in LR. lia. }
    apply uniq_labels_In in Hlu. destruct Hlu as [Hin Hnn].
    destruct (nthz dist v <? 0)%Z.
    - split; [|congruence]. split; [intros _; apply Hneg; reflexivity|reflexivity].
    - split; [|intros _; split; assumption]. split; [lia|]. intros Hno. apply Hneg in Hno. discriminate.
  Qed.

  (** probability rows of DiffusionClassifier; contract of the exp oracle: non-negative values *)
  Theorem dc_probs_rows :
    (forall x, 0 <= expf x)%Q ->
    dc_fit adj labels n_iter centering scale expf = Some (lab, probs) ->
    Forall prob_row probs.
  Proof.
    intros Hexp H.
    destruct (dc_fit_unfold H) as [_ [dist [_ [_ Hp]]]].
    destruct dc_T_inv as [_ I2 _ _].
    rewrite Hp. apply Forall_map, Forall_forall. intros r Hr.
    apply normalize_row_prob. apply in_map2 in Hr. destruct Hr as [d [r0 [_ [Hr0 ->]]]].
    unfold nonneg_row. destruct (d <? 0)%Z.
    - rewrite Forall_forall. intros y Hy. apply repeat_spec in Hy. subst y. lra.
    - unfold Tc in Hr0. destruct centering.
      + apply in_map_iff in Hr0. destruct Hr0 as [r1 [<- _]]. apply Forall_map, Forall_forall. intros z _. apply Hexp.
      + destruct (in_mat_row _ _ Hr0) as [i [_ <-]]. rewrite Forall_forall. intros y Hy.
        apply (In_nth _ _ 0%Q) in Hy. destruct Hy as [c [_ <-]]. apply (I2 i c).
  Qed.
End Diffusion.

(** * NNClassifier *)

Lemma count_if_map {A B} (P : B -> bool) (h : A -> B) (l : list A) :
  count_if P (map h l) = count_if (fun x => P (h x)) l.
Proof. induction l as [|a t IH]; [reflexivity|]. simpl map. rewrite !count_if_cons, IH. reflexivity. Qed.

Lemma count_if_key (s : nat) (g : nat -> bool) (l : list nat) :
  count_if (fun t => (t =? s) && g t) l = if g s then count_occ Nat.eq_dec l s else 0.
Proof.
  induction l as [|a t IH]; [destruct (g s); reflexivity|].
  rewrite count_if_cons, IH. cbn [count_occ]. destruct (Nat.eqb_spec a s) as [->|Ne].
  - destruct (Nat.eq_dec s s) as [_|C]; [|contradiction]. destruct (g s); reflexivity.
  - destruct (Nat.eq_dec a s) as [C|_]; [contradiction|]. destruct (g s); reflexivity.
Qed.

Lemma in_concat_map2 {A B C} (f : A -> B -> list C) l1 l2 x :
  In x (concat (map2 f l1 l2)) -> exists a b, In a l1 /\ In b l2 /\ In x (f a b).
Proof.
  intros H. apply in_concat in H. destruct H as [l [Hl Hx]].
  apply in_map2 in Hl. destruct Hl as [a [b [Ha [Hb ->]]]]. eauto.
Qed.

(** a training node outside the test set keeps its label, however many times index_train lists it *)
Theorem nn_train_label_kept labels index_train index_test n_neighbors argparts s :
  In s index_train -> ~ In s index_test -> s < length labels -> (0 <= nthz labels s)%Z ->
  nthz (snd (nn_fit_core labels index_train index_test n_neighbors argparts)) s = nthz labels s.
Proof.
  intros Hin Hnot Hs Hl. unfold nn_fit_core. cbn [snd].
  set (k := check_n_neighbors n_neighbors (length index_train)).
  set (A := concat (map2 (fun i ap => map (fun p => (i, nthz labels (nthn index_train p))) (firstn k ap)) index_test argparts)).
  set (B := map (fun t => (t, nthz labels t)) index_train).
  set (ncol := n_cols labels). set (L := nthz labels s) in *.
  set (row := map (fun c => inject_Z (Z.of_nat (count_if (fun p : nat * Z => (fst p =? s) && (snd p =? Z.of_nat c)%Z) (A ++ B))))
                  (seq 0 ncol)).
  set (m := count_occ Nat.eq_dec index_train s).
  assert (Hm : (0 < qnat m)%Q) by (apply qnat_pos, count_occ_In, Hin).
  assert (Hc0 : Z.to_nat L < ncol).
  { unfold ncol, n_cols. assert (In L labels) by (apply nth_In; exact Hs).
    pose proof (In_le_maxz _ _ H). lia. }
  assert (Hrow : forall c, c < ncol -> nthq row c = if (L =? Z.of_nat c)%Z then qnat m else 0%Q).
  { intros c Hc. unfold row. rewrite nthq_map_seq0 by exact Hc. rewrite count_if_app, count_if_none.
    - unfold B. rewrite count_if_map. cbn [fst snd].
      rewrite (count_if_key s (fun t => (nthz labels t =? Z.of_nat c)%Z)). fold L m.
      destruct (L =? Z.of_nat c)%Z; reflexivity.
    - intros [i z] Hp. unfold A in Hp. apply in_concat_map2 in Hp. destruct Hp as [i' [ap [Hi' [_ Hp]]]].
      apply in_map_iff in Hp. destruct Hp as [p [Hp _]]. injection Hp as -> <-. simpl.
      destruct (Nat.eqb_spec i s) as [->|_]; [contradiction|reflexivity]. }
  assert (Hnn : nonneg_row row).
  { apply Forall_map, Forall_forall. intros c _. apply (qnat_nonneg _). }
  assert (Hlr : length row = ncol) by (unfold row; rewrite map_length, seq_length; reflexivity).
  assert (H1 : nthq row (Z.to_nat L) = qnat m).
  { rewrite Hrow by exact Hc0. rewrite Z2Nat.id by exact Hl. rewrite Z.eqb_refl. reflexivity. }
  assert (HS : (qnat m <= sumq row)%Q).
  { rewrite <- H1. apply sumq_ge_member.
    - exact (proj1 (Forall_forall _ _) Hnn).
    - apply nth_In. lia. }
  assert (HSb : Qeq_bool (sumq row) 0 = false).
  { destruct (Qeq_bool (sumq row) 0) eqn:E; [|reflexivity]. apply Qeq_bool_iff in E. lra. }
  unfold nthz. rewrite (nth_map_lt _ _ s [] 0%Z).
  2:{ rewrite map_length, map_length, seq_length. exact Hs. }
  rewrite (nth_map_lt normalize_row _ s [] []) by (rewrite map_length, seq_length; exact Hs).
  rewrite nth_map_seq by exact Hs. fold A B ncol row.
  rewrite (argmax_first_unique (normalize_row row) (Z.to_nat L)).
  - apply Z2Nat.id. exact Hl.
  - rewrite normalize_row_length. lia.
  - rewrite normalize_row_length. intros j Hj Hjc. rewrite !normalize_row_nth by exact Hnn. rewrite HSb, H1.
    rewrite Hrow by lia. destruct (Z.eqb_spec L (Z.of_nat j)); [lia|].
    apply Qlt_shift_div_l; [lra|]. unfold Qdiv. lra.
Qed.

Theorem nn_seeds_fixed labels index_train index_test n_neighbors argparts s :
  NoDup index_train -> In s index_train -> ~ In s index_test -> s < length labels -> (0 <= nthz labels s)%Z ->
  nthz (snd (nn_fit_core labels index_train index_test n_neighbors argparts)) s = nthz labels s.
Proof. intros _. apply nn_train_label_kept. Qed.

(** * NNLinker: top-k then threshold *)

(** contract of np.argpartition(-sims, k): a permutation of the positions whose first k entries are at least as
    similar as every later entry *)
Definition argpartition_ok (sims : list Q) (k : nat) (ap : list nat) : Prop :=
  Permutation ap (seq 0 (length sims)) /\
  forall a b, In a (firstn k ap) -> In b (skipn k ap) -> (nthq sims b <= nthq sims a)%Q.

Theorem nnlinker_row_ok (sims : list Q) (k : nat) (thr : Q) (ap : list nat) :
  argpartition_ok sims k ap ->
  let row := nnlinker_row sims k thr ap in
  length row <= k /\ NoDup (map fst row) /\
  (forall c s, In (c, s) row -> c < length sims /\ s = nthq sims c /\ (thr <= s)%Q) /\
  (forall c s d, In (c, s) row -> d < length sims -> ~ In d (map fst row) -> (nthq sims d <= s)%Q).
Proof.
  intros [Hperm Hpart] row. unfold row, nnlinker_row.
  set (nn := firstn k ap).
  set (cols := filter (fun c => memn c nn && Qle_bool thr (nthq sims c)) (seq 0 (length sims))).
  assert (Hfst : map fst (map (fun c => (c, nthq sims c)) cols) = cols).
  { rewrite map_map. simpl. apply map_id. }
  assert (Hcols : forall c, In c cols <-> c < length sims /\ In c nn /\ (thr <= nthq sims c)%Q).
  { intros c. unfold cols. rewrite filter_In, in_seq, andb_true_iff, memn_In, Qle_bool_iff. intuition lia. }
  assert (Hndc : NoDup cols) by (apply NoDup_filter, seq_NoDup).
  split.
  { rewrite map_length. apply Nat.le_trans with (length nn); [|apply firstn_le_length].
    apply NoDup_incl_length; [exact Hndc|]. intros c Hc. apply Hcols in Hc. tauto. }
  split; [rewrite Hfst; exact Hndc|]. split.
  - intros c s Hin. apply in_map_iff in Hin. destruct Hin as [c' [E Hc']]. injection E as -> <-.
    apply Hcols in Hc'. tauto.
  - intros c s d Hin Hd Hnot. rewrite Hfst in Hnot.
    apply in_map_iff in Hin. destruct Hin as [c' [E Hc']]. injection E as -> <-. apply Hcols in Hc'.
    destruct Hc' as [_ [Hcnn Hthr]].
    destruct (in_dec Nat.eq_dec d nn) as [Hdn|Hdn].
    + (* in the top k but dropped: below the threshold *)
      destruct (Qlt_le_dec (nthq sims d) thr) as [Hlt|Hge]; [lra|].
      exfalso. apply Hnot. apply Hcols. tauto.
    + (* not in the top k: a discarded candidate *)
      apply Hpart; [exact Hcnn|].
      assert (Hdap : In d ap). { apply Permutation_sym in Hperm. apply (Permutation_in _ Hperm). apply in_seq. lia. }
      rewrite <- (firstn_skipn k ap) in Hdap. apply in_app_or in Hdap. destruct Hdap; [contradiction|assumption].
Qed.

(** with a clustering test that looks at the sign of the values, one unlabelled node is enough to leave
    clustering mode (so that [propagation_seeds_fixed_model] applies); the legacy test [CT_distinct] is not of that kind
    ([propagation_seeds_fixed_refuted_legacy]) *)
Lemma clustering_mode_unlabelled ct seeds :
  ct <> CT_distinct -> (exists i, i < length seeds /\ (nthz seeds i < 0)%Z) -> clustering_mode ct seeds = false.
Proof.
  intros Hct [i [Hi Hneg]].
  assert (F : forallb (fun l => (0 <=? l)%Z) seeds = false).
  { destruct (forallb (fun l => (0 <=? l)%Z) seeds) eqn:E; [|reflexivity].
    rewrite forallb_forall in E. specialize (E (nthz seeds i) ltac:(apply nth_In; exact Hi)).
    apply Z.leb_le in E. lia. }
  destruct ct; simpl; [congruence|exact F|rewrite F; apply andb_false_r].
Qed.

(** * The repaired source: sign-aware clustering test, orders that keep exactly the free nodes *)

(** contract of the NumPy answers: a shuffle of the free nodes / an argsort of all the nodes *)
Definition oracle_contract (order : node_order) (oracle : list nat) (seeds : list Z) : Prop :=
  match order with
  | ONone => True
  | ORandom => Permutation (filter (fun i => (nthz seeds i <? 0)%Z) (seq 0 (length seeds))) oracle
  | _ => Permutation oracle (seq 0 (length seeds))
  end.

Lemma order_ok_of_contract order oracle seeds :
  oracle_contract order oracle seeds -> order_ok OI_filter order oracle seeds.
Proof. destruct order; simpl; auto. Qed.

Theorem propagation_seeds_fixed_repaired pv c seeds order oracle weighted n_iter fuel res :
  pv_ctest pv <> CT_distinct -> pv_order pv = OI_filter ->
  (exists i, i < length seeds /\ (nthz seeds i < 0)%Z) ->
  oracle_contract order oracle seeds ->
  propagation pv c seeds order oracle weighted n_iter fuel = POk res ->
  forall i, i < length seeds -> (0 <= nthz seeds i)%Z -> nthz (pr_labels res) i = nthz seeds i.
Proof.
  intros Hct Hoi Hun Hor H.
  apply (propagation_seeds_fixed_model pv c seeds order oracle weighted n_iter fuel res H).
  - apply clustering_mode_unlabelled; assumption.
  - rewrite Hoi. apply order_ok_of_contract. exact Hor.
Qed.

Theorem propagation_fixed_point_argmax_repaired pv c seeds order oracle weighted n_iter fuel res :
  wpos (pv_kernel pv) = true -> clr (pv_kernel pv) = true ->
  pv_ctest pv <> CT_distinct -> pv_order pv = OI_filter ->
  (weighted = true -> Forall (fun w => 0 <= w)%Q (c_data c)) ->
  oracle_contract order oracle seeds ->
  propagation pv c seeds order oracle weighted n_iter fuel = POk res ->
  pr_fixed res = true -> 0 < pr_sweeps res ->
  forall i, i < length seeds -> (nthz seeds i < 0)%Z ->
    has_labelled_neighbour (prop_nbrs c weighted i) (pr_labels res) ->
    local_max (prop_nbrs c weighted i) (pr_labels res) i.
Proof.
  intros Hw Hc Hct Hoi Hnn Hor H Hf Ht i Hi Hs.
  apply (propagation_fixed_point_argmax_model pv c seeds order oracle weighted n_iter fuel res); auto.
  - apply clustering_mode_unlabelled; [exact Hct|]. exists i. split; assumption.
  - rewrite Hoi. apply order_ok_of_contract. exact Hor.
Qed.

(** the repaired source; on the two legacy witnesses the seeds keep their labels
    (C13.propagation_repaired_on_legacy_witnesses) *)
Definition pv_repaired : pvariant :=
  {| pv_kernel := repaired_kernel; pv_ctest := CT_distinct_nonneg; pv_ones := Ones_nnz; pv_order := OI_filter |}.

