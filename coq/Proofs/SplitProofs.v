(** split_dendrogram (sknetwork/hierarchy/postprocess.py) returns two valid dendrograms that agree with the
    full dendrogram restricted to each side (property C07). *)
From Coq Require Import Sorted Lia.
From SKN Require Import Base.Util Model.Dendrogram Model.Cuts Model.Hierarchy Proofs.DendroBase Proofs.HierarchyBase.

Lemma amem_true {A} k (l : list (nat * A)) : amem k l = true <-> In k (akeys l).
Proof.
  unfold amem. destruct (alookup k l) eqn:E.
  - split; [intros _; eapply alookup_key; eauto | reflexivity].
  - split; [discriminate|]. intros H. apply alookup_None in E. tauto.
Qed.

Lemma amem_false {A} k (l : list (nat * A)) : amem k l = false <-> ~ In k (akeys l).
Proof.
  rewrite <- amem_true. destruct (amem k l); split; intros H; try congruence; try discriminate.
Qed.

Lemma alookup_aremove_iff {A} x c (l : list (nat * A)) y :
  NoDup (akeys l) -> (alookup x (aremove c l) = Some y <-> x <> c /\ alookup x l = Some y).
Proof.
  intros Hnd. destruct (Nat.eq_dec x c) as [->|Hne].
  - rewrite alookup_aremove_eq by assumption. split; [discriminate | tauto].
  - rewrite alookup_aremove_neq by assumption. tauto.
Qed.

Lemma alookup_snoc_iff {A} x (l : list (nat * A)) k v y :
  ~ In k (akeys l) -> (alookup x (l ++ [(k, v)]) = Some y <-> alookup x l = Some y \/ (x = k /\ y = v)).
Proof.
  intros Hk. rewrite alookup_app. destruct (alookup x l) as [z|] eqn:E.
  - split; [tauto|]. intros [H|[-> _]]; [exact H|]. apply alookup_key in E. contradiction.
  - simpl. destruct (Nat.eqb_spec x k) as [->|Hne]; intuition congruence.
Qed.

Lemma akeys_aremove_ext {A B} k (l1 : list (nat * A)) (l2 : list (nat * B)) :
  akeys l1 = akeys l2 -> akeys (aremove k l1) = akeys (aremove k l2).
Proof.
  unfold akeys. revert l2. induction l1 as [|[k1 v1] t1 IH]; intros [|[k2 v2] t2] E; try discriminate E; [reflexivity|].
  simpl in E. injection E as -> E. simpl. destruct (Nat.eqb k k2); [exact E|]. simpl. f_equal. exact (IH _ E).
Qed.

Lemma akeys_init {A} (f : nat -> A) lo c : akeys (map (fun i => (lo + i, f i)) (seq 0 c)) = seq lo c.
Proof.
  unfold akeys. rewrite map_map. simpl. rewrite <- (Nat.add_0_r lo) at 1. generalize 0.
  induction c as [|c IH]; intros s; simpl; [reflexivity|]. now rewrite IH, Nat.add_succ_r.
Qed.

Lemma alookup_init0 {A} (f : nat -> A) lo c x y :
  alookup x (map (fun i => (lo + i, f i)) (seq 0 c)) = Some y <-> (lo <= x /\ x < lo + c /\ y = f (x - lo)).
Proof.
  split.
  - intros H. apply alookup_In, in_map_iff in H. destruct H as [i [E Hi]]. apply in_seq in Hi.
    inversion E; subst. repeat split; try lia. f_equal. lia.
  - intros (H1 & H2 & ->). apply In_alookup; [rewrite akeys_init; apply seq_NoDup|].
    apply in_map_iff. exists (x - lo). split; [f_equal; lia | apply in_seq; lia].
Qed.

(** * Leaf sets: appending rows does not change the leaf sets of the ids already defined *)
Lemma leaves_app_prefix n D1 D2 : ids_lt n (D1 ++ D2) ->
  forall k, k < n + length D1 -> leaves n (D1 ++ D2) k = leaves n D1 k.
Proof.
  intros Hids. assert (Hids1 := ids_lt_app_l _ _ _ Hids). apply (ids_ind n D1 _ Hids1).
  - intros c Hc. now rewrite !leaves_leaf.
  - intros t r Er IHl IHr.
    assert (Er2 : nth_error (D1 ++ D2) t = Some r).
    { rewrite nth_error_app1; [exact Er | now apply nth_error_Some_lt in Er]. }
    now rewrite (leaves_node _ _ _ _ Hids Er2), (leaves_node _ _ _ _ Hids1 Er), IHl, IHr.
Qed.

Lemma own_view_snoc n R r : ids_lt n (R ++ [r]) ->
  own_view n (R ++ [r]) = own_view n R ++ [(leaves n R (r_left r), leaves n R (r_right r), r_height r)].
Proof.
  intros Hids. unfold own_view. rewrite map_app. simpl.
  destruct (Hids (length R) r (nth_error_app_length R [] r)) as [Hl Hr].
  rewrite !(leaves_app_prefix n R [r] Hids) by assumption. f_equal.
  apply map_ext_in. intros x Hx. apply In_nth_error in Hx. destruct Hx as [t Ht].
  assert (Hlt := nth_error_Some_lt _ _ _ Ht).
  destruct (Hids t x) as [H1 H2]. { rewrite nth_error_app1; assumption. }
  now rewrite !(leaves_app_prefix n R [r] Hids) by lia.
Qed.

Lemma side_leaves_app lo cnt l1 l2 : side_leaves lo cnt (l1 ++ l2) = side_leaves lo cnt l1 ++ side_leaves lo cnt l2.
Proof. unfold side_leaves. now rewrite filter_app, map_app. Qed.

Definition view := (list nat * list nat * Q)%type.

Definition rv (n : nat) (D : dendrogram) (lo cnt : nat) (rows : dendrogram) : list view :=
  flat_map (fun r =>
              let a := side_leaves lo cnt (leaves n D (r_left r)) in
              let b := side_leaves lo cnt (leaves n D (r_right r)) in
              match a, b with
              | _ :: _, _ :: _ => [(a, b, r_height r)]
              | _, _ => []
              end) rows.

Lemma rv_full n D lo cnt : restrict_view n D lo cnt = rv n D lo cnt D.
Proof. reflexivity. Qed.

(** * split_step in normal form *)
Lemma split_step_merge key i j h s id sz nw R a b si sj :
  i <> j -> alookup i id = Some a -> alookup j id = Some b -> alookup i sz = Some si -> alookup j sz = Some sj ->
  split_step key (i, j, h, s) {| s_id := id; s_size := sz; s_new := nw; s_rows := R |} =
  Ok {| s_id := aremove j (aremove i id) ++ [(key, nw)]; s_size := aremove j (aremove i sz) ++ [(key, si + sj)];
        s_new := S nw; s_rows := R ++ [(a, b, h, si + sj)] |}.
Proof.
  intros Hne Ha Hb Hsi Hsj. unfold split_step, amem, r_left, r_right, r_height. simpl.
  rewrite Ha, Hb, Hsi. simpl.
  rewrite (alookup_aremove_neq j i) by congruence. rewrite Hsj.
  rewrite alookup_app, Ha.
  rewrite alookup_aremove_neq by congruence. rewrite alookup_app, Hb.
  rewrite (aremove_app_l _ _ _ _ Ha).
  rewrite (aremove_app_l j (aremove i id) _ b) by (rewrite alookup_aremove_neq by congruence; exact Hb).
  reflexivity.
Qed.

(* [c]: the child found in the dict, [c']: the other one *)
Lemma split_step_one key i j h s id sz nw R c c' a sc :
  (c = i /\ c' = j) \/ (c = j /\ c' = i) ->
  alookup c id = Some a -> alookup c' id = None -> alookup c sz = Some sc ->
  split_step key (i, j, h, s) {| s_id := id; s_size := sz; s_new := nw; s_rows := R |} =
  Ok {| s_id := aremove c id ++ [(key, a)]; s_size := aremove c sz ++ [(key, sc)]; s_new := nw; s_rows := R |}.
Proof.
  intros [[-> ->]|[-> ->]] Ha Hb Hs; unfold split_step, amem, r_left, r_right; simpl; rewrite Ha, Hb, Hs; reflexivity.
Qed.

Lemma split_step_skip key i j h s st :
  alookup i (s_id st) = None -> alookup j (s_id st) = None -> split_step key (i, j, h, s) st = Ok st.
Proof. intros Ha Hb. unfold split_step, amem, r_left, r_right. simpl. rewrite Ha, Hb. reflexivity. Qed.

Section Side.
(* the full dendrogram over n leaves and one side of it: the leaves lo .. lo + cnt - 1 *)
Context (n : nat) (D : dendrogram) (lo cnt : nat).

Definition SL (x : nat) : list nat := side_leaves lo cnt (leaves n D x).

Lemma SL_leaf_in x : x < n -> lo <= x -> x < lo + cnt -> SL x = [x - lo].
Proof.
  intros H H1 H2. unfold SL, side_leaves. rewrite leaves_leaf by assumption. simpl.
  apply Nat.leb_le in H1. apply Nat.ltb_lt in H2. now rewrite H1, H2.
Qed.

Lemma SL_leaf_ne x : x < n -> SL x <> [] -> lo <= x /\ x < lo + cnt.
Proof.
  intros H. unfold SL, side_leaves. rewrite leaves_leaf by assumption. simpl.
  destruct (Nat.leb_spec lo x), (Nat.ltb_spec x (lo + cnt)); simpl; intros E; try congruence; lia.
Qed.

Lemma SL_node t r : ids_lt n D -> nth_error D t = Some r ->
  SL (n + t) = SL (r_left r) ++ SL (r_right r).
Proof. intros Hids Hr. unfold SL. now rewrite (leaves_node _ _ _ _ Hids Hr), side_leaves_app. Qed.

Lemma rv_snoc done r :
  rv n D lo cnt (done ++ [r]) =
  rv n D lo cnt done ++
  match SL (r_left r), SL (r_right r) with
  | _ :: _, _ :: _ => [(SL (r_left r), SL (r_right r), r_height r)]
  | _, _ => []
  end.
Proof. unfold rv. rewrite flat_map_app. simpl. rewrite app_nil_r. reflexivity. Qed.

(** * The loop invariant

    After the first [t] rows of D ([C]: their children, [V]: the restricted view of these rows). *)
Record sinv (t : nat) (C : list nat) (V : list view) (st : sstate) : Prop := {
  i_ndid : NoDup (akeys (s_id st));
  i_keq : akeys (s_size st) = akeys (s_id st);
  i_ne : s_id st <> [];
  i_keys : forall x, In x (akeys (s_id st)) <-> (x < n + t /\ ~ In x C /\ SL x <> []);
  i_dead : forall c, In c C -> c < n + t;
  i_sz : forall x y, alookup x (s_id st) = Some y -> alookup x (s_size st) = Some (csize cnt (s_rows st) y);
  i_val : forall x y, alookup x (s_id st) = Some y ->
            y < cnt + length (s_rows st) /\ ~ In y (flat_map children (s_rows st)) /\
            leaves cnt (s_rows st) y = SL x;
  i_inj : forall x x' y, alookup x (s_id st) = Some y -> alookup x' (s_id st) = Some y -> x = x';
  i_new : s_new st = cnt + length (s_rows st);
  i_Rnd : NoDup (flat_map children (s_rows st));
  i_Rlt : ids_lt cnt (s_rows st);
  i_Rsz : sizes_add cnt (s_rows st);
  i_cnt : length (s_id st) + length (s_rows st) = cnt;
  i_view : own_view cnt (s_rows st) = V }.

Lemma sinv_init : 1 <= cnt -> lo + cnt <= n -> sinv 0 [] [] (split_init lo cnt).
Proof.
  intros Hc Hn. unfold split_init. split; simpl.
  - rewrite akeys_init. apply seq_NoDup.
  - now rewrite !akeys_init.
  - destruct cnt; [lia|discriminate].
  - intros x. rewrite akeys_init, in_seq. split.
    + intros [H1 H2]. split; [lia|]. split; [tauto|]. rewrite SL_leaf_in by lia. discriminate.
    + intros (H1 & _ & H2). apply SL_leaf_ne in H2; lia.
  - tauto.
  - intros x y H. apply alookup_init0 in H. destruct H as (H1 & H2 & ->).
    rewrite csize_leaf by lia. apply alookup_init0. repeat split; lia.
  - intros x y H. apply alookup_init0 in H. destruct H as (H1 & H2 & ->).
    split; [lia|]. split; [tauto|]. rewrite leaves_leaf by lia. rewrite SL_leaf_in by lia. reflexivity.
  - intros x x' y H H'. apply alookup_init0 in H. apply alookup_init0 in H'. lia.
  - lia.
  - constructor.
  - intros t r Hr. destruct t; discriminate.
  - intros t r Hr. destruct t; discriminate.
  - rewrite map_length, seq_length. lia.
  - reflexivity.
Qed.

(** ** Neither child meets the side *)
Lemma inv_skip t C V st i j h s C' :
  sinv t C V st ->
  i < n + t -> j < n + t -> SL i = [] -> SL j = [] -> SL (n + t) = [] ->
  (forall x, In x C' <-> In x C \/ x = i \/ x = j) ->
  exists st', split_step (n + t) (i, j, h, s) st = Ok st' /\ sinv (S t) C' V st'.
Proof.
  intros [Hndid Hkeq Hne Hkeys Hdead Hsz Hval Hinj Hnew HRnd HRlt HRsz Hcnt Hview] Hi Hj Ei Ej Ek HC'.
  exists st. split; [apply split_step_skip; apply alookup_None; intros Hk; apply Hkeys in Hk; tauto|].
  split; try assumption.
  - intros x. rewrite Hkeys, HC'. split.
    + intros (H1 & H2 & H3). split; [lia|]. split; [|assumption].
      intros [Hc|[-> | ->]]; [tauto | now apply H3 | now apply H3].
    + intros (H1 & H2 & H3). destruct (Nat.eq_dec x (n + t)) as [->|Hx]; [now elim H3|].
      split; [lia|]. split; [tauto|assumption].
  - intros c Hc. apply HC' in Hc. destruct Hc as [Hc|[-> | ->]]; [apply Hdead in Hc; lia | lia | lia].
Qed.

(** ** Exactly one child [c] meets the side: its entry is renamed *)
Lemma inv_rename t C V id sz nw R i j h s c c' C' :
  sinv t C V {| s_id := id; s_size := sz; s_new := nw; s_rows := R |} ->
  (c = i /\ c' = j) \/ (c = j /\ c' = i) ->
  c < n + t -> c' < n + t -> ~ In c C -> ~ In c' C ->
  SL c <> [] -> SL c' = [] -> SL (n + t) = SL c ->
  (forall x, In x C' <-> In x C \/ x = c \/ x = c') ->
  exists st', split_step (n + t) (i, j, h, s) {| s_id := id; s_size := sz; s_new := nw; s_rows := R |} = Ok st' /\
    sinv (S t) C' V st'.
Proof.
  intros [Hndid Hkeq Hne Hkeys Hdead Hsz Hval Hinj Hnew HRnd HRlt HRsz Hcnt Hview]
         Hcc Hc Hc' HnC HnC' Ec Ec' Ek HC'. simpl in *.
  assert (Hndsz : NoDup (akeys sz)) by now rewrite Hkeq.
  destruct (In_key_alookup c id) as [a Ha]; [apply Hkeys; tauto|].
  assert (Hnc' : alookup c' id = None).
  { apply alookup_None. intros Hk. apply Hkeys in Hk. tauto. }
  assert (Hkid : ~ In (n + t) (akeys (aremove c id))) by (intros Hk; apply akeys_aremove_In, Hkeys in Hk; lia).
  assert (Hksz : ~ In (n + t) (akeys (aremove c sz))) by now rewrite (akeys_aremove_ext c sz id Hkeq).
  eexists. split; [apply (split_step_one _ _ _ _ _ _ _ _ _ c c' a (csize cnt R a)); auto|].
  split; simpl; try assumption.
  - apply NoDup_akeys_app_fresh; [now apply NoDup_aremove | assumption].
  - rewrite !akeys_app. f_equal. now apply akeys_aremove_ext.
  - apply not_eq_sym, app_cons_not_nil.
  - intros x. rewrite akeys_app, in_app_iff, akeys_aremove_iff, Hkeys, HC' by assumption. simpl. split.
    + intros [[(H1 & H2 & H3) H4]|[<-|[]]].
      * split; [lia|]. split; [|assumption]. intros [Hx|[-> | ->]]; [tauto | congruence | now apply H3].
      * split; [lia|]. split; [|now rewrite Ek]. intros [Hx|[Hx|Hx]]; [apply Hdead in Hx; lia | lia | lia].
    + intros (H1 & H2 & H3). destruct (Nat.eq_dec x (n + t)) as [->|Hx]; [right; now left|].
      left. split; [|intros ->; apply H2; right; now left].
      split; [lia|]. split; [intros HxC; apply H2; now left | assumption].
  - intros x Hx. apply HC' in Hx. destruct Hx as [Hx|[-> | ->]]; [apply Hdead in Hx; lia | lia | lia].
  - intros x y. rewrite !alookup_snoc_iff, !alookup_aremove_iff by assumption.
    intros [[Hx H]|[-> ->]]; [left; split; [exact Hx | now apply Hsz] | now right].
  - intros x y. rewrite alookup_snoc_iff, alookup_aremove_iff by assumption.
    intros [[Hx H]|[-> ->]]; [now apply Hval | rewrite Ek; now apply Hval].
  - intros x x' y. rewrite !alookup_snoc_iff, !alookup_aremove_iff by assumption.
    intros [[Hx H]|[-> ->]] [[Hx' H']|[-> Ey]].
    + now apply (Hinj x x' y).
    + subst y. elim Hx. now apply (Hinj x c a).
    + elim Hx'. now apply (Hinj x' c a).
    + reflexivity.
  - rewrite app_length. simpl. assert (E := aremove_length _ _ _ Ha). lia.
Qed.

(** ** Both children meet the side: a merge of the side's dendrogram *)
Lemma inv_merge t C V id sz nw R i j h s C' :
  sinv t C V {| s_id := id; s_size := sz; s_new := nw; s_rows := R |} ->
  i <> j -> i < n + t -> j < n + t -> ~ In i C -> ~ In j C ->
  SL i <> [] -> SL j <> [] -> SL (n + t) = SL i ++ SL j ->
  (forall x, In x C' <-> In x C \/ x = i \/ x = j) ->
  exists st', split_step (n + t) (i, j, h, s) {| s_id := id; s_size := sz; s_new := nw; s_rows := R |} = Ok st' /\
    sinv (S t) C' (V ++ [(SL i, SL j, h)]) st'.
Proof.
  intros [Hndid Hkeq Hne Hkeys Hdead Hsz Hval Hinj Hnew HRnd HRlt HRsz Hcnt Hview]
         Hij Hi Hj HnCi HnCj Ei Ej Ek HC'. simpl in *.
  assert (Hndsz : NoDup (akeys sz)) by now rewrite Hkeq.
  destruct (In_key_alookup i id) as [a Ha]; [apply Hkeys; tauto|].
  destruct (In_key_alookup j id) as [b Hb]; [apply Hkeys; tauto|].
  assert (Hab : a <> b). { intros ->. apply Hij. now apply (Hinj i j b). }
  destruct (Hval _ _ Ha) as (Hva1 & Hva2 & Hva3). destruct (Hval _ _ Hb) as (Hvb1 & Hvb2 & Hvb3).
  assert (Hnd1 : NoDup (akeys (aremove i id))) by now apply NoDup_aremove.
  assert (Hnd1s : NoDup (akeys (aremove i sz))) by now apply NoDup_aremove.
  assert (Hkid : ~ In (n + t) (akeys (aremove j (aremove i id)))).
  { intros Hk. apply akeys_aremove_In, akeys_aremove_In, Hkeys in Hk. lia. }
  assert (Hkeq2 : akeys (aremove j (aremove i sz)) = akeys (aremove j (aremove i id)))
    by now apply akeys_aremove_ext, akeys_aremove_ext.
  assert (Hksz : ~ In (n + t) (akeys (aremove j (aremove i sz)))) by now rewrite Hkeq2.
  eexists. split; [apply (split_step_merge _ _ _ _ _ _ _ _ _ a b (csize cnt R a) (csize cnt R b)); auto|].
  set (sa := csize cnt R a) in *. set (sb := csize cnt R b) in *.
  set (row := (a, b, h, sa + sb)).
  assert (HRlt' : ids_lt cnt (R ++ [row])) by (apply ids_lt_snoc; assumption).
  assert (Hrow : nth_error (R ++ [row]) (length R) = Some row) by apply nth_error_app_length.
  assert (Hch : forall c, In c (flat_map children R) -> c < cnt + length R) by now apply ids_lt_children_lt.
  split; simpl.
  - apply NoDup_akeys_app_fresh; [now apply NoDup_aremove | assumption].
  - rewrite !akeys_app. now f_equal.
  - apply not_eq_sym, app_cons_not_nil.
  - intros x. rewrite akeys_app, in_app_iff, !akeys_aremove_iff, Hkeys, HC' by assumption. simpl. split.
    + intros [[[(H1 & H2 & H3) H4] H5]|[<-|[]]].
      * split; [lia|]. split; [|assumption]. intros [Hx|[Hx|Hx]]; [tauto | congruence | congruence].
      * split; [lia|]. split.
        -- intros [Hx|[Hx|Hx]]; [apply Hdead in Hx; lia | lia | lia].
        -- rewrite Ek. intros E. apply app_eq_nil in E. tauto.
    + intros (H1 & H2 & H3). destruct (Nat.eq_dec x (n + t)) as [->|Hx]; [right; now left|].
      left. split; [split; [split; [lia|]; split; [intros HxC; apply H2; now left | assumption]|]|].
      * intros ->. apply H2. right. now left.
      * intros ->. apply H2. right. now right.
  - intros x Hx. apply HC' in Hx. destruct Hx as [Hx|[-> | ->]]; [apply Hdead in Hx; lia | lia | lia].
  - intros x y. rewrite !alookup_snoc_iff, !alookup_aremove_iff by assumption.
    intros [(Hx2 & Hx1 & H)|[-> ->]].
    + left. destruct (Hval _ _ H) as (Hy & _). rewrite csize_app by assumption.
      split; [exact Hx2|]. split; [exact Hx1 | now apply Hsz].
    + right. split; [reflexivity|]. rewrite Hnew. now rewrite (csize_node cnt (R ++ [row]) (length R) row Hrow).
  - intros x y. rewrite alookup_snoc_iff, !alookup_aremove_iff by assumption.
    intros [(Hx2 & Hx1 & H)|[-> ->]].
    + destruct (Hval _ _ H) as (Hy1 & Hy2 & Hy3). split; [rewrite app_length; simpl; lia|]. split.
      * rewrite In_children_snoc. unfold r_left, r_right. simpl.
        intros [Hc|[-> | ->]]; [tauto | apply Hx1; now apply (Hinj x i a) | apply Hx2; now apply (Hinj x j b)].
      * rewrite leaves_app_prefix by assumption. exact Hy3.
    + rewrite Hnew. split; [rewrite app_length; simpl; lia|]. split.
      * rewrite In_children_snoc. unfold r_left, r_right. simpl.
        intros [Hc|[Hc|Hc]]; [apply Hch in Hc; lia | lia | lia].
      * rewrite (leaves_node cnt (R ++ [row]) (length R) row HRlt' Hrow).
        unfold row, r_left, r_right. simpl. fold row.
        rewrite !leaves_app_prefix by assumption. now rewrite Hva3, Hvb3, Ek.
  - intros x x' y. rewrite !alookup_snoc_iff, !alookup_aremove_iff by assumption.
    intros [(Hx2 & Hx1 & H)|[-> Ey]] [(Hx2' & Hx1' & H')|[-> Ey']].
    + now apply (Hinj x x' y).
    + subst y. destruct (Hval _ _ H) as (Hy & _). lia.
    + subst y. destruct (Hval _ _ H') as (Hy & _). lia.
    + reflexivity.
  - rewrite app_length. simpl. lia.
  - rewrite flat_map_app. simpl. now apply NoDup_snoc2.
  - exact HRlt'.
  - intros t0 r0 Hr0. apply nth_error_snoc in Hr0. destruct Hr0 as [[Hlt Hr0]|[-> ->]].
    + destruct (HRlt _ _ Hr0) as [H1 H2]. rewrite !csize_app by lia. now apply (HRsz t0).
    + unfold row, r_size, r_left, r_right. simpl. rewrite !csize_app by assumption. reflexivity.
  - rewrite !app_length. simpl.
    assert (E1 := aremove_length _ _ _ Ha).
    assert (Hb' : alookup j (aremove i id) = Some b) by (rewrite alookup_aremove_neq by congruence; exact Hb).
    assert (E2 := aremove_length _ _ _ Hb'). lia.
  - change (own_view cnt (R ++ [row]) = V ++ [(SL i, SL j, h)]).
    rewrite own_view_snoc by exact HRlt'. unfold row, r_left, r_right, r_height. simpl.
    now rewrite Hview, Hva3, Hvb3.
Qed.

Lemma split_step_inv done r rows st :
  valid n D = true -> D = done ++ r :: rows ->
  sinv (length done) (flat_map children done) (rv n D lo cnt done) st ->
  exists st', split_step (n + length done) r st = Ok st' /\
    sinv (S (length done)) (flat_map children (done ++ [r])) (rv n D lo cnt (done ++ [r])) st'.
Proof.
  intros Hv HD Hinv.
  assert (Hids := valid_ids_lt n D Hv).
  destruct (valid_rows n D Hv) as [_ Hrows].
  assert (Hrow : nth_error D (length done) = Some r) by (rewrite HD; apply nth_error_app_length).
  destruct (Hrows _ _ Hrow) as (Hne & Hl & Hr & Hnl & Hnr).
  rewrite HD, firstn_app_length in Hnl, Hnr.
  assert (Ek := SL_node _ _ Hids Hrow).
  assert (HC' := In_children_snoc done r).
  rewrite rv_snoc. destruct st as [id sz nw R]. destruct r as [[[i j] h] s].
  unfold r_left, r_right, r_height in *. cbn [fst snd] in *.
  destruct (SL i) as [|u lu] eqn:Ei; destruct (SL j) as [|w lw] eqn:Ej; rewrite ?app_nil_r in *.
  - apply (inv_skip _ (flat_map children done)); assumption.
  - apply (inv_rename _ (flat_map children done) _ _ _ _ _ _ _ _ _ j i); try assumption;
      [now right | rewrite Ej; discriminate | now rewrite Ej | intros x; rewrite HC'; tauto].
  - apply (inv_rename _ (flat_map children done) _ _ _ _ _ _ _ _ _ i j); try assumption;
      [now left | rewrite Ei; discriminate | now rewrite Ei].
  - rewrite <- Ei, <- Ej. apply (inv_merge _ (flat_map children done)); try assumption;
      rewrite ?Ei, ?Ej; [discriminate | discriminate | assumption].
Qed.

Lemma split_loop_inv : valid n D = true ->
  forall rows done st, D = done ++ rows ->
    sinv (length done) (flat_map children done) (rv n D lo cnt done) st ->
    exists st', split_loop (n + length done) rows st = Ok st' /\
      sinv (length D) (flat_map children D) (rv n D lo cnt D) st'.
Proof.
  intros Hv. induction rows as [|r rows IH]; intros done st HD Hinv.
  - rewrite app_nil_r in HD. subst done. exists st. split; [reflexivity|assumption].
  - destruct (split_step_inv done r rows st Hv HD Hinv) as (st1 & Hstep & Hinv1).
    simpl. rewrite Hstep.
    rewrite <- Nat.add_succ_r, <- (last_length done r). rewrite <- (last_length done r) in Hinv1.
    apply IH; [now rewrite <- app_assoc | exact Hinv1].
Qed.

End Side.

Lemma split_side_inv D n1 n2 lo cnt :
  valid (n1 + n2) D = true -> 1 <= cnt -> lo + cnt <= n1 + n2 ->
  exists st, split_side D n1 n2 lo cnt = Ok (s_rows st) /\
    sinv (n1 + n2) D lo cnt (length D) (flat_map children D) (restrict_view (n1 + n2) D lo cnt) st.
Proof.
  intros Hv Hc Hlo. destruct (valid_rows _ D Hv) as [Hlen _].
  destruct (split_loop_inv (n1 + n2) D lo cnt Hv D [] (split_init lo cnt) eq_refl) as (st & Hloop & Hinv).
  { simpl. apply sinv_init; assumption. }
  simpl in Hloop. rewrite Nat.add_0_r in Hloop.
  exists st. split; [|exact Hinv].
  unfold split_side.
  replace (Nat.ltb (length D) (n1 + n2 - 1)) with false by (symmetry; apply Nat.ltb_ge; lia).
  rewrite firstn_all2 by lia. now rewrite Hloop.
Qed.

Lemma sinv_final_valid n D lo cnt V st : valid n D = true ->
  sinv n D lo cnt (length D) (flat_map children D) V st -> valid cnt (s_rows st) = true.
Proof.
  intros Hv [Hndid _ Hne Hkeys _ _ _ _ _ HRnd HRlt HRsz Hcnt _]. apply wf_valid. split; try assumption.
  assert (H1 : length (akeys (s_id st)) <= 1).
  { apply (live_unique n D); [now apply valid_wf | exact Hndid |]. intros x Hx. apply Hkeys in Hx. tauto. }
  unfold akeys in H1. rewrite map_length in H1. destruct (s_id st); [congruence|]. simpl in *. lia.
Qed.

Theorem split_side_valid : forall D n1 n2 lo cnt,
  valid (n1 + n2) D = true -> 1 <= cnt -> lo + cnt <= n1 + n2 ->
  exists R, split_side D n1 n2 lo cnt = Ok R /\ valid cnt R = true.
Proof.
  intros D n1 n2 lo cnt Hv Hc Hlo.
  destruct (split_side_inv D n1 n2 lo cnt Hv Hc Hlo) as (st & Hs & Hinv).
  exists (s_rows st). split; [exact Hs|]. exact (sinv_final_valid _ _ _ _ _ _ Hv Hinv).
Qed.

Theorem split_side_agrees : forall D n1 n2 lo cnt R,
  valid (n1 + n2) D = true -> 1 <= cnt -> lo + cnt <= n1 + n2 ->
  split_side D n1 n2 lo cnt = Ok R ->
  own_view cnt R = restrict_view (n1 + n2) D lo cnt.
Proof.
  intros D n1 n2 lo cnt R Hv Hc Hlo HR.
  destruct (split_side_inv D n1 n2 lo cnt Hv Hc Hlo) as (st & Hs & Hinv).
  rewrite Hs in HR. inversion HR; subst R. apply (i_view _ _ _ _ _ _ _ _ Hinv).
Qed.

(** * Heights: a side shows the heights of a sub-sequence of the rows of the full dendrogram *)
Lemma sortedq_SS l : sortedq l = true <-> StronglySorted Qle l.
Proof.
  induction l as [|a l IH]; [split; [constructor | reflexivity]|].
  destruct l as [|b t].
  - split; [intros _; constructor; constructor | reflexivity].
  - change (sortedq (a :: b :: t)) with (Qle_bool a b && sortedq (b :: t)).
    rewrite andb_true_iff, IH, Qle_bool_iff. split.
    + intros [Hab Hs]. constructor; [exact Hs|]. constructor; [exact Hab|].
      apply StronglySorted_inv in Hs. destruct Hs as [_ Hf].
      eapply Forall_impl; [|exact Hf]. intros c Hc. now apply (Qle_trans a b c).
    + intros Hs. apply StronglySorted_inv in Hs. destruct Hs as [Hs Hf]. split; [|exact Hs].
      now inversion Hf.
Qed.

Lemma rv_heights_In n D lo cnt rows h : In h (map snd (rv n D lo cnt rows)) -> In h (heights rows).
Proof.
  induction rows as [|r rows IH]; [tauto|]. cbn [rv flat_map heights map]. rewrite map_app, in_app_iff.
  intros [H|H]; [left | right; exact (IH H)].
  destruct (side_leaves lo cnt (leaves n D (r_left r))), (side_leaves lo cnt (leaves n D (r_right r)));
    simpl in H; tauto.
Qed.

Lemma rv_heights_sorted n D lo cnt rows :
  StronglySorted Qle (heights rows) -> StronglySorted Qle (map snd (rv n D lo cnt rows)).
Proof.
  induction rows as [|r rows IH]; intros HS; [constructor|].
  apply StronglySorted_inv in HS. destruct HS as [HS Hf]. specialize (IH HS).
  cbn [rv flat_map]. fold (rv n D lo cnt rows).
  destruct (side_leaves lo cnt (leaves n D (r_left r))), (side_leaves lo cnt (leaves n D (r_right r)));
    try exact IH.
  constructor; [exact IH|]. rewrite Forall_forall in *. intros h Hh. now apply Hf, (rv_heights_In n D lo cnt).
Qed.

Theorem split_side_sorted : forall D n1 n2 lo cnt R,
  valid (n1 + n2) D = true -> 1 <= cnt -> lo + cnt <= n1 + n2 ->
  split_side D n1 n2 lo cnt = Ok R ->
  sortedq (heights D) = true -> sortedq (heights R) = true.
Proof.
  intros D n1 n2 lo cnt R Hv Hc Hlo HR Hs.
  assert (E : heights R = map snd (own_view cnt R)) by (unfold heights, own_view; now rewrite map_map).
  rewrite E, (split_side_agrees D n1 n2 lo cnt R Hv Hc Hlo HR), rv_full.
  apply sortedq_SS, rv_heights_sorted. now apply sortedq_SS.
Qed.

Lemma split_dendrogram_sides D n1 n2 Dr Dc :
  split_dendrogram D n1 n2 = Ok (Dr, Dc) <->
  split_side D n1 n2 0 n1 = Ok Dr /\ split_side D n1 n2 n1 n2 = Ok Dc.
Proof.
  unfold split_dendrogram. destruct (split_side D n1 n2 0 n1), (split_side D n1 n2 n1 n2); split;
    intros H; try discriminate; try (destruct H; discriminate).
  - inversion H. now split.
  - destruct H as [H1 H2]. inversion H1. inversion H2. reflexivity.
Qed.

Theorem split_dendrogram_valid : forall D n1 n2,
  1 <= n1 -> 1 <= n2 -> valid (n1 + n2) D = true ->
  exists Dr Dc, split_dendrogram D n1 n2 = Ok (Dr, Dc) /\ valid n1 Dr = true /\ valid n2 Dc = true.
Proof.
  intros D n1 n2 H1 H2 Hv.
  destruct (split_side_valid D n1 n2 0 n1 Hv H1 ltac:(lia)) as (Dr & Hr & Hvr).
  destruct (split_side_valid D n1 n2 n1 n2 Hv H2 ltac:(lia)) as (Dc & Hc & Hvc).
  exists Dr, Dc. split; [now apply split_dendrogram_sides | now split].
Qed.

Theorem split_dendrogram_agrees : forall D n1 n2 Dr Dc,
  1 <= n1 -> 1 <= n2 -> valid (n1 + n2) D = true -> split_dendrogram D n1 n2 = Ok (Dr, Dc) ->
  own_view n1 Dr = restrict_view (n1 + n2) D 0 n1 /\ own_view n2 Dc = restrict_view (n1 + n2) D n1 n2.
Proof.
  intros D n1 n2 Dr Dc H1 H2 Hv Hs. apply split_dendrogram_sides in Hs. destruct Hs as [Er Ec]. split.
  - apply (split_side_agrees D n1 n2 0 n1 Dr Hv H1 ltac:(lia) Er).
  - apply (split_side_agrees D n1 n2 n1 n2 Dc Hv H2 ltac:(lia) Ec).
Qed.

Print Assumptions split_side_valid.
Print Assumptions split_side_agrees.
Print Assumptions split_side_sorted.
Print Assumptions split_dendrogram_valid.
Print Assumptions split_dendrogram_agrees.
