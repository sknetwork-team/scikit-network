(** Proofs about the array-level model (L0) of sknetwork/topology/cliques.pyx in Model/Topology.v:
    the ListingBox arrays ns, lab, deg, sub (fields [b_ns], [b_lab], [b_deg], [b_sub] of the record [box]) and the
    in-place reordering of the CSR rows ([b_rows]).

    [inv] is the level invariant: [inv_init] (it holds for ListingBox.__cinit__ at level k),
    [level_step_invariant] (one iteration of the loop over the nodes of level l establishes it at level l-1
    for the recursive call). [ccfd_ok] is the model instrumented with the bounds check of every array access.
    [ccfd_spec]: under [inv] every check passes, the L0 count equals the L1 recursion [cliques_rec] on the
    current node set, and the state on return differs from the entry state only as [frame] allows (so [inv]
    holds again, [inv_frame]). [count_cliques_L0_exact]: count_cliques as coded returns the number of
    k-cliques. *)
From Coq Require Import Permutation Lia.
From SKN Require Import Base.Util Model.Bfs Model.Topology Proofs.BfsProofs Proofs.TopologyProofs.
Set Warnings "-notation-overridden" (* keep this line: harness dependency scan *).
Open Scope nat_scope.

Lemma upd_overflow {A} (l : list A) i x : length l <= i -> upd l i x = l.
Proof.
  intros H. unfold upd. rewrite skipn_all2 by exact H. rewrite firstn_all2 by exact H. apply app_nil_r.
Qed.

Lemma upd_row_length (ll : list (list nat)) l v x m :
  length (nthl (upd ll l (upd (nthl ll l) v x)) m) = length (nthl ll m).
Proof.
  destruct (Nat.eq_dec l m) as [->|N]; [|rewrite nthl_upd_other by exact N; reflexivity].
  destruct (Nat.lt_ge_cases m (length ll)) as [L|L].
  - rewrite nthl_upd_same, upd_length by exact L. reflexivity.
  - rewrite upd_overflow by exact L. reflexivity.
Qed.

Lemma firstn_upd_lt {A} (l : list A) i m x : i < m -> firstn m (upd l i x) = upd (firstn m l) i x.
Proof.
  revert i m; induction l as [|a t IH]; intros i m H.
  - rewrite upd_nil, firstn_nil, upd_nil. reflexivity.
  - destruct m as [|m]; [lia|]. destruct i as [|i].
    + reflexivity.
    + rewrite upd_cons_S. cbn [firstn]. rewrite upd_cons_S. f_equal. apply IH. lia.
Qed.

Lemma firstn_upd_ge {A} (l : list A) i m x : m <= i -> firstn m (upd l i x) = firstn m l.
Proof.
  revert i m; induction l as [|a t IH]; intros i m H.
  - rewrite upd_nil. reflexivity.
  - destruct m as [|m]; [reflexivity|]. destruct i as [|i]; [lia|].
    rewrite upd_cons_S. cbn [firstn]. f_equal. apply IH. lia.
Qed.

Lemma skipn_upd_lt {A} (l : list A) i m x : i < m -> skipn m (upd l i x) = skipn m l.
Proof.
  revert i m; induction l as [|a t IH]; intros i m H.
  - rewrite upd_nil. reflexivity.
  - destruct m as [|m]; [lia|]. destruct i as [|i].
    + reflexivity.
    + rewrite upd_cons_S. cbn [skipn]. apply IH. lia.
Qed.

Lemma nth_firstn_lt {A} (l : list A) i m d : i < m -> nth i (firstn m l) d = nth i l d.
Proof.
  revert i m; induction l as [|a t IH]; intros i m H.
  - rewrite firstn_nil. reflexivity.
  - destruct m as [|m]; [lia|]. destruct i as [|i]; [reflexivity|].
    cbn [firstn nth]. apply IH. lia.
Qed.

Lemma firstn_S_nth {A} (l : list A) j d : j < length l -> firstn (S j) l = firstn j l ++ [nth j l d].
Proof.
  revert j; induction l as [|a t IH]; intros j H; simpl in H; [lia|].
  destruct j as [|j]; [reflexivity|].
  cbn [firstn nth app]. f_equal. apply IH. lia.
Qed.

Lemma firstn_S_upd {A} (l : list A) j x : j < length l -> firstn (S j) (upd l j x) = firstn j l ++ [x].
Proof.
  intros H. rewrite (firstn_S_nth _ j x) by (rewrite upd_length; exact H).
  rewrite firstn_upd_ge, nth_upd_same by (exact H || lia). reflexivity.
Qed.

Lemma In_firstn_nth (l : list nat) k w :
  In w (firstn k l) <-> exists i, i < k /\ i < length l /\ nthn l i = w.
Proof.
  unfold nthn. split.
  - intros H. apply (In_nth _ _ 0) in H. destruct H as [i [Hi E]].
    rewrite firstn_length in Hi. exists i.
    rewrite nth_firstn_lt in E by lia. split; [lia|]. split; [lia|exact E].
  - intros [i [Hk [Hl E]]]. rewrite <- E, <- (nth_firstn_lt l i k 0 Hk).
    apply nth_In. rewrite firstn_length. lia.
Qed.

Lemma firstn_split_le {A} (l : list A) m m' :
  m <= m' -> firstn m' l = firstn m l ++ firstn (m' - m) (skipn m l).
Proof.
  intros H. rewrite <- (firstn_skipn m (firstn m' l)), firstn_firstn, Nat.min_l by exact H. f_equal.
  replace m' with (m + (m' - m)) at 1 by lia. symmetry. apply firstn_skipn_comm.
Qed.

Lemma skipn_split_le {A} (l : list A) m m' :
  m <= m' -> skipn m' l = skipn (m' - m) (skipn m l).
Proof.
  intros H. apply (app_inv_head (firstn m' l)). rewrite firstn_skipn.
  rewrite (firstn_split_le l m m' H), <- app_assoc, !firstn_skipn. reflexivity.
Qed.

Lemma upd_perm_cons {A} (t : list A) j a d :
  j < length t -> Permutation (nth j t d :: upd t j a) (a :: t).
Proof.
  revert j; induction t as [|b t IH]; intros j H; simpl in H; [lia|].
  destruct j as [|j].
  - cbn [nth]. rewrite upd_cons_0. apply perm_swap.
  - cbn [nth]. rewrite upd_cons_S.
    eapply perm_trans; [apply perm_swap|].
    eapply perm_trans; [apply perm_skip; apply IH; lia|]. apply perm_swap.
Qed.

Lemma swap_perm {A} (l : list A) i j d :
  i < length l -> j < length l -> Permutation (upd (upd l i (nth j l d)) j (nth i l d)) l.
Proof.
  revert i j; induction l as [|a t IH]; intros i j Hi Hj; simpl in Hi, Hj; [lia|].
  destruct i as [|i], j as [|j].
  - reflexivity.
  - cbn [nth]. rewrite upd_cons_0, upd_cons_S. apply upd_perm_cons. lia.
  - cbn [nth]. rewrite upd_cons_S, upd_cons_0. apply upd_perm_cons. lia.
  - cbn [nth]. rewrite !upd_cons_S. apply perm_skip. apply IH; lia.
Qed.

Lemma map_seq_nth {B} (f : nat -> B) (l : list nat) m :
  m <= length l -> map (fun i => f (nthn l i)) (seq 0 m) = map f (firstn m l).
Proof.
  induction m as [|m IH]; intros H; [reflexivity|].
  rewrite seq_S, map_app, IH by lia. cbn [map plus].
  rewrite (firstn_S_nth l m 0) by lia. rewrite map_app. reflexivity.
Qed.

Lemma nth_repeat_lt {A} (x d : A) n v : v < n -> nth v (repeat x n) d = x.
Proof.
  intros H. apply (repeat_spec n x). apply nth_In. rewrite repeat_length. exact H.
Qed.

Lemma fold_max_ge (l : list nat) : forall a, a <= fold_left Nat.max l a /\
  forall x, In x l -> x <= fold_left Nat.max l a.
Proof.
  induction l as [|y t IH]; intros a; simpl.
  - split; [lia|intros x []].
  - destruct (IH (Nat.max a y)) as [H1 H2]. split; [lia|].
    intros x [->|Hx]; [lia|apply H2; exact Hx].
Qed.

Lemma In_firstn {A} (l : list A) m x : In x (firstn m l) -> In x l.
Proof. intros H. rewrite <- (firstn_skipn m l). apply in_or_app. left. exact H. Qed.

Lemma NoDup_firstn {A} (l : list A) m : NoDup l -> NoDup (firstn m l).
Proof.
  intros H. revert m. induction H as [|a t Ha Ht IH]; intros m.
  - rewrite firstn_nil. constructor.
  - destruct m as [|m]; [constructor|]. cbn [firstn]. constructor; [|apply IH].
    intros Hin. apply Ha, (In_firstn t m a Hin).
Qed.

Lemma NoDup_nth_firstn (l : list nat) j : NoDup l -> j < length l -> ~ In (nthn l j) (firstn j l).
Proof.
  intros ND Hj. apply (NoDup_firstn _ (S j)) in ND. rewrite (firstn_S_nth l j 0 Hj) in ND.
  apply NoDup_remove_2 in ND. rewrite app_nil_r in ND. exact ND.
Qed.

Lemma nthn_prefix (l L : list nat) j : firstn (length L) l = L -> j < length L -> nthn l j = nthn L j.
Proof. intros E Hj. unfold nthn. rewrite <- (nth_firstn_lt l j (length L) 0 Hj), E. reflexivity. Qed.

(** * Loops over [seq a n]: an invariant indexed by the number of iterations done, and the
    conjunction of a guard evaluated before every iteration. *)

Fixpoint fold_chk {B} (ok : B -> nat -> bool) (f : B -> nat -> B) (l : list nat) (b : B) : bool :=
  match l with
  | [] => true
  | j :: t => ok b j && fold_chk ok f t (f b j)
  end.

Lemma fold_seq_chk {B} (P : nat -> B -> Prop) ok (f : B -> nat -> B) n :
  forall a b, P a b ->
  (forall j b, a <= j -> j < a + n -> P j b -> ok b j = true /\ P (S j) (f b j)) ->
  fold_chk ok f (seq a n) b = true /\ P (a + n) (fold_left f (seq a n) b).
Proof.
  induction n as [|n IH]; intros a b H0 HS.
  - simpl. rewrite Nat.add_0_r. split; [reflexivity|exact H0].
  - destruct (HS a b ltac:(lia) ltac:(lia) H0) as [Hok HP]. cbn [seq fold_chk fold_left]. rewrite Hok.
    replace (a + S n) with (S a + n) by lia. apply IH; [exact HP|].
    intros j b' Hj Hj'. apply HS; lia.
Qed.

(** * Windows of a row: the first [m] entries are permuted among themselves, the rest is untouched *)

Definition perm_within (m : nat) (r r' : list nat) : Prop :=
  Permutation (firstn m r') (firstn m r) /\ skipn m r' = skipn m r.

Lemma perm_within_refl m r : perm_within m r r.
Proof. split; reflexivity. Qed.

Lemma perm_within_trans m r1 r2 r3 : perm_within m r1 r2 -> perm_within m r2 r3 -> perm_within m r1 r3.
Proof.
  intros [P1 S1] [P2 S2]. split; [eapply perm_trans; eassumption|congruence].
Qed.

Lemma perm_within_mono m m' r r' : m <= m' -> perm_within m r r' -> perm_within m' r r'.
Proof.
  intros H [P S]. split.
  - rewrite (firstn_split_le r' m m' H), (firstn_split_le r m m' H), S.
    apply Permutation_app_tail. exact P.
  - rewrite (skipn_split_le r' m m' H), (skipn_split_le r m m' H), S. reflexivity.
Qed.

Lemma perm_within_perm m r r' : perm_within m r r' -> Permutation r' r.
Proof.
  intros [P S]. rewrite <- (firstn_skipn m r'), <- (firstn_skipn m r), S.
  apply Permutation_app_tail. exact P.
Qed.

Lemma perm_within_swap m (r : list nat) i j :
  i < m -> j < m -> m <= length r -> perm_within m r (upd (upd r i (nthn r j)) j (nthn r i)).
Proof.
  intros Hi Hj Hm. split.
  - rewrite !firstn_upd_lt by assumption. unfold nthn.
    rewrite <- (nth_firstn_lt r j m 0 Hj), <- (nth_firstn_lt r i m 0 Hi).
    apply swap_perm; rewrite firstn_length; lia.
  - rewrite !skipn_upd_lt by assumption. reflexivity.
Qed.

Lemma memn_app x l1 l2 : memn x (l1 ++ l2) = memn x l1 || memn x l2.
Proof. unfold memn. apply existsb_app. Qed.

Lemma lab_upd_snoc (lab lab0 : list nat) Lj v c :
  v < length lab -> (forall x, nthn lab x = if memn x Lj then c else nthn lab0 x) ->
  forall x, nthn (upd lab v c) x = if memn x (Lj ++ [v]) then c else nthn lab0 x.
Proof.
  intros Hv H x. rewrite memn_app. cbn [memn existsb]. rewrite orb_false_r.
  destruct (Nat.eqb_spec x v) as [->|Ne].
  - rewrite nthn_upd_same by exact Hv. rewrite orb_true_r. reflexivity.
  - rewrite nthn_upd_other by lia. rewrite orb_false_r. apply H.
Qed.

Lemma cliques_rec_perm (d : graph) j s s' : Permutation s s' -> cliques_rec d j s = cliques_rec d j s'.
Proof.
  intros HP. rewrite !cliques_rec_hc, (sumn_perm _ _ (Permutation_map _ HP)).
  apply sumn_map_ext_in. intros u _. rewrite (inter_perm _ _ _ HP). reflexivity.
Qed.

(** * The state: current node list of a level, shape of the arrays, invariant, frame *)

(** The current node list of level [l]: the first ns[l] entries of sub[l]. *)
Definition subl (b : box) (l : nat) : list nat := firstn (nthn (b_ns b) l) (nthl (b_sub b) l).

(** Bounds checks of the individual accesses (used by the instrumented model [ccfd_ok]). *)
Definition in_ns (b : box) (l : nat) : bool := l <? length (b_ns b).
Definition in_lab (b : box) (v : nat) : bool := v <? length (b_lab b).
Definition in_deg (b : box) (l v : nat) : bool := (l <? length (b_deg b)) && (v <? length (nthl (b_deg b) l)).
Definition in_sub (b : box) (l i : nat) : bool := (l <? length (b_sub b)) && (i <? length (nthl (b_sub b) l)).
Definition in_row (b : box) (v i : nat) : bool := (v <? length (b_rows b)) && (i <? length (nthl (b_rows b) v)).
Definition in_ptr (b : box) (v : nat) : bool := v <? length (b_rows b).   (* indptr[v], indptr[v+1] *)

(** [bx]: read the fields of a box built by the setters. *)
Ltac bx := cbn [b_ns b_lab b_deg b_sub b_rows set_ns set_lab set_deg set_sub set_row] in *.

Section Level.
Context (d : graph) (K M : nat).
Local Notation nn := (length d).

(** What is used of the DAG: duplicate-free rows, entries in range, rows no longer than [M] (max_deg). *)
Definition dag_wf : Prop :=
  (forall v, NoDup (row d v)) /\ (forall v w, In w (row d v) -> w < nn) /\ (forall v, length (row d v) <= M).

(** Lengths of the arrays (never changed by the code). *)
Record shape (b : box) : Prop := {
  sh_ns : length (b_ns b) = S K;
  sh_lab : length (b_lab b) = nn;
  sh_deg : length (b_deg b) = S K;
  sh_sub : length (b_sub b) = S K;
  sh_rows : length (b_rows b) = nn;
  sh_degl : forall m, m <= K -> length (nthl (b_deg b) m) = nn;
  sh_subl : forall m, m < K -> M <= length (nthl (b_sub b) m) }.

Lemma shape_set_ns b i x : shape b -> shape (set_ns b i x).
Proof. intros [H1 H2 H3 H4 H5 H6 H7]. split; bx; rewrite ?upd_length; auto. Qed.

Lemma shape_set_lab b i x : shape b -> shape (set_lab b i x).
Proof. intros [H1 H2 H3 H4 H5 H6 H7]. split; bx; rewrite ?upd_length; auto. Qed.

Lemma shape_set_row b v i x : shape b -> shape (set_row b v i x).
Proof. intros [H1 H2 H3 H4 H5 H6 H7]. split; bx; rewrite ?upd_length; auto. Qed.

Lemma shape_set_deg b l v x : shape b -> shape (set_deg b l v x).
Proof. intros [H1 H2 H3 H4 H5 H6 H7]. split; bx; intros; rewrite ?upd_length, ?upd_row_length; auto. Qed.

Lemma shape_set_sub b l v x : shape b -> shape (set_sub b l v x).
Proof. intros [H1 H2 H3 H4 H5 H6 H7]. split; bx; intros; rewrite ?upd_length, ?upd_row_length; auto. Qed.

(** The level invariant at level [l] (2 <= l <= K). With S = [subl b l]:
    S is duplicate-free and in range; lab[v] = l exactly for the members of S, larger outside;
    every row is a permutation of the original row; for v in S, the first deg[l][v] entries of row v are,
    as a set, N+(v) /\ S. *)
Record inv (l : nat) (b : box) : Prop := {
  inv_shape : shape b;
  inv_lvl : 2 <= l <= K;
  inv_ns : nthn (b_ns b) l <= length (nthl (b_sub b) l);
  inv_nodup : NoDup (subl b l);
  inv_lt : forall v, In v (subl b l) -> v < nn;
  inv_lab_in : forall v, In v (subl b l) -> nthn (b_lab b) v = l;
  inv_lab_out : forall v, v < nn -> ~ In v (subl b l) -> l < nthn (b_lab b) v;
  inv_rows : forall v, Permutation (nthl (b_rows b) v) (row d v);
  inv_deg : forall v, In v (subl b l) -> get_deg b l v <= length (row d v);
  inv_win : forall v w, In v (subl b l) ->
     (In w (firstn (get_deg b l v) (nthl (b_rows b) v)) <-> In w (row d v) /\ In w (subl b l)) }.

(** What a call at level [l] may change: nothing at the levels >= l, no label, and row v only by a
    permutation of its first deg[l][v] entries, for v in the current node list. *)
Record frame (l : nat) (b b' : box) : Prop := {
  fr_shape : shape b';
  fr_lab : forall v, nthn (b_lab b') v = nthn (b_lab b) v;
  fr_ns : forall m, l <= m -> nthn (b_ns b') m = nthn (b_ns b) m;
  fr_sub : forall m, l <= m -> nthl (b_sub b') m = nthl (b_sub b) m;
  fr_deg : forall m, l <= m -> nthl (b_deg b') m = nthl (b_deg b) m;
  fr_rows_in : forall v, In v (subl b l) ->
     perm_within (get_deg b l v) (nthl (b_rows b) v) (nthl (b_rows b') v);
  fr_rows_out : forall v, ~ In v (subl b l) -> nthl (b_rows b') v = nthl (b_rows b) v }.

Lemma frame_subl l b b' : frame l b b' -> subl b' l = subl b l.
Proof. intros F. unfold subl. rewrite (fr_ns _ _ _ F l), (fr_sub _ _ _ F l) by lia. reflexivity. Qed.

Lemma frame_get_deg l b b' : frame l b b' -> forall v, get_deg b' l v = get_deg b l v.
Proof. intros F v. unfold get_deg. rewrite (fr_deg _ _ _ F l) by lia. reflexivity. Qed.

Lemma frame_refl l b : shape b -> frame l b b.
Proof. intros H. split; auto. intros v _. apply perm_within_refl. Qed.

Lemma frame_trans l b1 b2 b3 : frame l b1 b2 -> frame l b2 b3 -> frame l b1 b3.
Proof.
  intros F1 F2. pose proof (frame_subl _ _ _ F1) as ES. pose proof (frame_get_deg _ _ _ F1) as ED.
  destruct F1 as [_ Lab1 Ns1 Sub1 Deg1 In1 Out1], F2 as [Sh2 Lab2 Ns2 Sub2 Deg2 In2 Out2].
  rewrite ES in In2, Out2. split.
  - exact Sh2.
  - intros v. rewrite Lab2. apply Lab1.
  - intros m Hm. rewrite (Ns2 m Hm). apply (Ns1 m Hm).
  - intros m Hm. rewrite (Sub2 m Hm). apply (Sub1 m Hm).
  - intros m Hm. rewrite (Deg2 m Hm). apply (Deg1 m Hm).
  - intros v Hv. eapply perm_within_trans; [apply (In1 v Hv)|]. rewrite <- ED. apply (In2 v Hv).
  - intros v Hv. rewrite (Out2 v Hv). apply (Out1 v Hv).
Qed.

Lemma frame_row_perm l b b' v : frame l b b' -> Permutation (nthl (b_rows b') v) (nthl (b_rows b) v).
Proof.
  intros F. destruct (in_dec Nat.eq_dec v (subl b l)) as [Hin|Hout].
  - eapply perm_within_perm. apply (fr_rows_in _ _ _ F v Hin).
  - rewrite (fr_rows_out _ _ _ F v Hout). reflexivity.
Qed.

(** The invariant of a level survives whatever a call at that level is allowed to change. *)
Lemma inv_frame l b b' : inv l b -> frame l b b' -> inv l b'.
Proof.
  intros I F. pose proof (frame_subl _ _ _ F) as ES. pose proof (frame_get_deg _ _ _ F) as ED.
  pose proof (fun v => frame_row_perm _ _ _ v F) as HP.
  destruct I as [_ Hl Hns Hnd Hlt Hin Hout Hrows Hdeg Hwin], F as [Sh Lab Ns Sub _ Rin _].
  split; rewrite ?ES.
  - exact Sh.
  - exact Hl.
  - rewrite Ns, Sub by lia. exact Hns.
  - exact Hnd.
  - exact Hlt.
  - intros v Hv. rewrite Lab. exact (Hin v Hv).
  - intros v Hv Hn. rewrite Lab. exact (Hout v Hv Hn).
  - intros v. eapply perm_trans; [apply HP|apply Hrows].
  - intros v Hv. rewrite ED. exact (Hdeg v Hv).
  - intros v w Hv. rewrite ED, <- (Hwin v w Hv). destruct (Rin v Hv) as [P _].
    split; apply Permutation_in; [exact P|symmetry; exact P].
Qed.

Lemma inv_row_length l b v : inv l b -> length (nthl (b_rows b) v) = length (row d v).
Proof. intros I. apply Permutation_length. apply (inv_rows _ _ I). Qed.

Lemma inv_row_nodup l b v : dag_wf -> inv l b -> NoDup (nthl (b_rows b) v).
Proof.
  intros [Hnd _] I. eapply Permutation_NoDup; [apply Permutation_sym; apply (inv_rows _ _ I)|apply Hnd].
Qed.

(** The window of v, as a list, is a permutation of N+(v) /\ S; in particular deg[l][v] = |N+(v) /\ S|. *)
Lemma inv_win_perm l b v : dag_wf -> inv l b -> In v (subl b l) ->
  Permutation (firstn (get_deg b l v) (nthl (b_rows b) v)) (inter (row d v) (subl b l)).
Proof.
  intros W I Hv. apply NoDup_Permutation.
  - apply NoDup_firstn. apply (inv_row_nodup l); assumption.
  - apply inter_nodup. apply W.
  - intros w. rewrite in_inter. apply (inv_win _ _ I v w Hv).
Qed.

Lemma inv_win_length l b v : inv l b -> In v (subl b l) ->
  length (firstn (get_deg b l v) (nthl (b_rows b) v)) = get_deg b l v.
Proof.
  intros I Hv. apply firstn_length_le. rewrite (inv_row_length l) by exact I. apply (inv_deg _ _ I v Hv).
Qed.

(** * First inner loop: selection of the nodes of level cs-1 *)

Definition select_ok (cs u : nat) (b : box) (j : nat) : bool :=
  in_row b u j &&
  (let v := get_row b u j in
   in_lab b v &&
   (if nthn (b_lab b) v =? cs
    then in_ns b (cs - 1) && in_sub b (cs - 1) (nthn (b_ns b) (cs - 1)) && in_deg b (cs - 1) v
    else true)).

(** State [b1] after the nodes [Lj] have been selected, starting from [b] with ns[cs'] reset. *)
Set Implicit Arguments.
Record sel_inv (cs' : nat) (b : box) (Lj : list nat) (b1 : box) : Prop := {
  si_shape : shape b1;
  si_rows : b_rows b1 = b_rows b;
  si_ns_other : forall m, m <> cs' -> nthn (b_ns b1) m = nthn (b_ns b) m;
  si_ns : nthn (b_ns b1) cs' = length Lj;
  si_sub_other : forall m, m <> cs' -> nthl (b_sub b1) m = nthl (b_sub b) m;
  si_sub : firstn (length Lj) (nthl (b_sub b1) cs') = Lj;
  si_deg_other : forall m, m <> cs' -> nthl (b_deg b1) m = nthl (b_deg b) m;
  si_deg : forall v, In v Lj -> get_deg b1 cs' v = 0;
  si_lab : forall v, nthn (b_lab b1) v = if memn v Lj then cs' else nthn (b_lab b) v }.
Unset Implicit Arguments.

Lemma sel_inv_init cs' b : shape b -> cs' <= K -> sel_inv cs' b [] (set_ns b cs' 0).
Proof.
  intros Sh Hc. split; bx; auto.
  - apply shape_set_ns. exact Sh.
  - intros m Hm. apply nthn_upd_other. lia.
  - apply nthn_upd_same. rewrite (sh_ns _ Sh). lia.
  - intros v [].
Qed.

Lemma window_facts cs b u : dag_wf -> inv cs b -> In u (subl b cs) ->
  let L := firstn (get_deg b cs u) (nthl (b_rows b) u) in
  NoDup L /\ length L = get_deg b cs u /\ length L <= M /\
  get_deg b cs u <= length (nthl (b_rows b) u) /\
  (forall v, In v L -> In v (subl b cs) /\ In v (row d u) /\ v < nn /\ nthn (b_lab b) v = cs).
Proof.
  intros W I Hu L. pose proof W as [Hnd [Hlt HM]].
  pose proof (inv_win_length _ _ _ I Hu) as HL. fold L in HL.
  pose proof (inv_deg _ _ I u Hu) as Hd.
  split; [apply NoDup_firstn; apply (inv_row_nodup cs); assumption|].
  split; [exact HL|]. split; [specialize (HM u); lia|].
  split; [rewrite (inv_row_length cs) by exact I; exact Hd|].
  intros v Hv. apply (inv_win _ _ I u v Hu) in Hv. destruct Hv as [Hr Hs].
  split; [exact Hs|]. split; [exact Hr|]. split; [apply (inv_lt _ _ I v Hs)|apply (inv_lab_in _ _ I v Hs)].
Qed.

Lemma select_phase cs' b u : dag_wf -> inv (S cs') b -> In u (subl b (S cs')) ->
  let b0 := set_ns b cs' 0 in
  let L := firstn (get_deg b (S cs') u) (nthl (b_rows b) u) in
  fold_chk (select_ok (S cs') u) (select_step (S cs') u) (seq 0 (get_deg b0 (S cs') u)) b0 = true /\
  sel_inv cs' b L (fold_left (select_step (S cs') u) (seq 0 (get_deg b0 (S cs') u)) b0).
Proof.
  intros W I Hu b0 L.
  destruct (window_facts _ _ _ W I Hu) as [_ [HLlen [HLM [Hdl HLin]]]]. fold L in HLlen, HLM, HLin.
  pose proof (inv_lvl _ _ I) as Hlvl. pose proof (inv_lt _ _ I u Hu) as Hun.
  change (get_deg b0 (S cs') u) with (get_deg b (S cs') u).
  set (r := nthl (b_rows b) u) in *.
  apply (fold_seq_chk (fun j b1 => sel_inv cs' b (firstn j r) b1)).
  - apply sel_inv_init; [exact (inv_shape _ _ I)|lia].
  - intros j b1 _ Hj SI. pose proof (si_shape SI) as Sh.
    assert (Hjl : j < length r) by lia.
    rewrite (firstn_S_nth _ j 0 Hjl). fold (nthn r j).
    set (v := nthn r j). set (Lj := firstn j r) in *.
    assert (HvL : In v L).
    { apply In_firstn_nth. exists j. split; [exact Hj|]. split; [exact Hjl|reflexivity]. }
    destruct (HLin v HvL) as [_ [_ [Hv Hlab]]].
    assert (Hnin : memn v Lj = false).
    { apply memn_false, NoDup_nth_firstn; [apply (inv_row_nodup (S cs')); assumption | exact Hjl]. }
    assert (HLj : length Lj = j) by (apply firstn_length_le; lia).
    assert (Egr : get_row b1 u j = v).
    { unfold get_row. rewrite (si_rows SI). reflexivity. }
    assert (Elab : nthn (b_lab b1) v = S cs').
    { rewrite (si_lab SI), Hnin. exact Hlab. }
    assert (Hsub : j < length (nthl (b_sub b1) cs')).
    { pose proof (sh_subl _ Sh cs' ltac:(lia)). lia. }
    split.
    + unfold select_ok, in_row, in_lab, in_ns, in_sub, in_deg.
      rewrite Egr, Elab, Nat.eqb_refl, Nat.sub_succ, Nat.sub_0_r.
      rewrite (si_rows SI), (sh_lab _ Sh), (sh_ns _ Sh), (sh_sub _ Sh), (sh_deg _ Sh),
        (sh_degl _ Sh cs') by lia.
      rewrite (si_ns SI), HLj, (sh_rows _ (inv_shape _ _ I)). fold r.
      repeat (apply andb_true_iff; split); apply Nat.ltb_lt; lia.
    + unfold select_step. rewrite Egr, Elab, Nat.eqb_refl, Nat.sub_succ, Nat.sub_0_r.
      split; bx.
      * apply shape_set_deg, shape_set_ns, shape_set_sub, shape_set_lab. exact Sh.
      * exact (si_rows SI).
      * intros m Hm. rewrite nthn_upd_other by lia. apply (si_ns_other SI Hm).
      * rewrite nthn_upd_same by (rewrite (sh_ns _ Sh); lia).
        rewrite (si_ns SI), app_length. simpl. lia.
      * intros m Hm. rewrite nthl_upd_other by lia. apply (si_sub_other SI Hm).
      * rewrite nthl_upd_same by (rewrite (sh_sub _ Sh); lia).
        rewrite (si_ns SI), app_length, HLj. cbn [length]. rewrite Nat.add_1_r.
        rewrite firstn_S_upd by exact Hsub. rewrite <- HLj at 1. rewrite (si_sub SI). reflexivity.
      * intros m Hm. rewrite nthl_upd_other by lia. apply (si_deg_other SI Hm).
      * intros x Hx. unfold get_deg. bx. rewrite nthl_upd_same by (rewrite (sh_deg _ Sh); lia).
        destruct (Nat.eq_dec x v) as [->|Ne].
        -- apply nthn_upd_same. rewrite (sh_degl _ Sh cs') by lia. exact Hv.
        -- rewrite nthn_upd_other by lia. apply in_app_or in Hx. destruct Hx as [Hx|[Hx|[]]]; [|congruence].
           apply (si_deg SI x Hx).
      * apply lab_upd_snoc; [rewrite (sh_lab _ Sh); exact Hv | apply (si_lab SI)].
Qed.

(** * Second inner loop: in-place partition of the window of every selected node *)

Fixpoint partition_ok (fuel : nat) (cs v k k_max : nat) (b : box) : bool :=
  match fuel with
  | O => true
  | S f =>
      if k <? k_max then
        in_row b v k &&
        (let w := get_row b v k in
         in_lab b w &&
         (if nthn (b_lab b) w =? cs - 1 then
            in_deg b (cs - 1) v &&
            partition_ok f cs v (S k) k_max (set_deg b (cs - 1) v (S (get_deg b (cs - 1) v)))
          else
            let k_max' := k_max - 1 in
            in_row b v k_max' &&
            (let b1 := set_row b v k (get_row b v k_max') in
             let b2 := set_row b1 v k_max' w in
             partition_ok f cs v k k_max' b2)))
      else true
  end.

(** [b'] differs from [b] only in row x and in deg[cs'][x], for the nodes x in [P]. *)
Set Implicit Arguments.
Record same_but (cs' : nat) (P : nat -> Prop) (b b' : box) : Prop := {
  sb_shape : shape b';
  sb_ns : b_ns b' = b_ns b;
  sb_lab : b_lab b' = b_lab b;
  sb_sub : b_sub b' = b_sub b;
  sb_deg_other : forall m, m <> cs' -> nthl (b_deg b') m = nthl (b_deg b) m;
  sb_deg : forall x, ~ P x -> get_deg b' cs' x = get_deg b cs' x;
  sb_rows : forall x, ~ P x -> nthl (b_rows b') x = nthl (b_rows b) x }.
Unset Implicit Arguments.

Lemma same_but_refl cs' P b : shape b -> same_but cs' P b b.
Proof. intros Sh. split; auto. Qed.

Lemma same_but_trans {cs'} {P Q R : nat -> Prop} {b1 b2 b3} :
  same_but cs' P b1 b2 -> same_but cs' Q b2 b3 -> (forall x, P x \/ Q x -> R x) -> same_but cs' R b1 b3.
Proof.
  intros S1 S2 H. split.
  - exact (sb_shape S2).
  - rewrite (sb_ns S2). exact (sb_ns S1).
  - rewrite (sb_lab S2). exact (sb_lab S1).
  - rewrite (sb_sub S2). exact (sb_sub S1).
  - intros m Hm. rewrite (sb_deg_other S2 Hm). exact (sb_deg_other S1 Hm).
  - intros x Hx. rewrite (sb_deg S2), (sb_deg S1); auto.
  - intros x Hx. rewrite (sb_rows S2), (sb_rows S1); auto.
Qed.

Lemma same_but_set_deg cs' v b y : shape b -> cs' <= K -> same_but cs' (fun x => x = v) b (set_deg b cs' v y).
Proof.
  intros Sh Hc. split; bx; auto.
  - apply shape_set_deg. exact Sh.
  - intros m Hm. apply nthl_upd_other. lia.
  - intros x Hx. unfold get_deg at 1. bx. rewrite nthl_upd_same by (rewrite (sh_deg _ Sh); lia).
    apply nthn_upd_other. lia.
Qed.

Lemma same_but_set_row cs' v b i y : shape b -> same_but cs' (fun x => x = v) b (set_row b v i y).
Proof.
  intros Sh. split; bx; auto.
  - apply shape_set_row. exact Sh.
  - intros x Hx. apply nthl_upd_other. lia.
Qed.

(** Loop invariant of [while k < k_max] on row v with window [m]: the entries before k satisfy the test,
    those from k_max to the end of the window do not, deg[cs'][v] = k. *)
Set Implicit Arguments.
Record part_row (cs' v m : nat) (b2 b3 : box) (k k_max : nat) : Prop := {
  pr_perm : perm_within m (nthl (b_rows b2) v) (nthl (b_rows b3) v);
  pr_deg : get_deg b3 cs' v = k;
  pr_k : k <= k_max <= m;
  pr_lo : forall i, i < k -> nthn (b_lab b2) (nthn (nthl (b_rows b3) v) i) = cs';
  pr_hi : forall i, k_max <= i < m -> nthn (b_lab b2) (nthn (nthl (b_rows b3) v) i) <> cs' }.
Unset Implicit Arguments.

Lemma partition_loop_spec cs' v m b2 :
  cs' <= K -> v < nn -> m <= length (nthl (b_rows b2) v) ->
  (forall w, In w (firstn m (nthl (b_rows b2) v)) -> w < nn) ->
  forall fuel k k_max b3, k_max - k <= fuel ->
  same_but cs' (fun x => x = v) b2 b3 -> part_row cs' v m b2 b3 k k_max ->
  partition_ok fuel (S cs') v k k_max b3 = true /\
  exists kf, same_but cs' (fun x => x = v) b2 (partition_loop fuel (S cs') v k k_max b3) /\
             part_row cs' v m b2 (partition_loop fuel (S cs') v k k_max b3) kf kf.
Proof.
  intros Hc Hv Hm Hw. induction fuel as [|f IH]; intros k k_max b3 Hf PI PR.
  - pose proof (pr_k PR) as Hk. assert (k_max = k) by lia. subst k_max.
    split; [reflexivity|]. exists k. split; assumption.
  - pose proof (pr_k PR) as Hk.
    pose proof (sb_shape PI) as Sh.
    cbn [partition_ok partition_loop]. rewrite !Nat.sub_succ, !Nat.sub_0_r.
    destruct (Nat.ltb_spec k k_max) as [Lk|Lk].
    2:{ assert (k_max = k) by lia. subst k_max. split; [reflexivity|]. exists k. split; assumption. }
    cbv zeta.
    pose proof (pr_perm PR) as PW.
    assert (Hlen : length (nthl (b_rows b3) v) = length (nthl (b_rows b2) v)).
    { apply Permutation_length. eapply perm_within_perm. exact PW. }
    set (r3 := nthl (b_rows b3) v) in *.
    assert (Hwin : forall i, i < m -> nthn r3 i < nn).
    { intros i Hi. apply Hw. destruct PW as [P _]. eapply Permutation_in; [exact P|].
      apply In_firstn_nth. exists i. split; [exact Hi|]. split; [lia|reflexivity]. }
    assert (Gr : in_row b3 v k = true).
    { unfold in_row. rewrite (sh_rows _ Sh). fold r3. apply andb_true_iff. split; apply Nat.ltb_lt; lia. }
    change (get_row b3 v k) with (nthn r3 k). change (get_row b3 v (k_max - 1)) with (nthn r3 (k_max - 1)).
    assert (Gl : in_lab b3 (nthn r3 k) = true).
    { unfold in_lab. rewrite (sh_lab _ Sh). apply Nat.ltb_lt. apply Hwin. lia. }
    rewrite Gr, Gl. cbn [andb]. rewrite (sb_lab PI).
    destruct (Nat.eqb_spec (nthn (b_lab b2) (nthn r3 k)) cs') as [Et|Et].
    + (* counted *)
      assert (Gd : in_deg b3 cs' v = true).
      { unfold in_deg. rewrite (sh_deg _ Sh), (sh_degl _ Sh cs' Hc).
        apply andb_true_iff. split; apply Nat.ltb_lt; lia. }
      rewrite Gd. cbn [andb]. apply IH; [lia| |].
      * apply (same_but_trans PI (same_but_set_deg cs' v b3 _ Sh Hc)). tauto.
      * split; bx; fold r3.
        -- exact PW.
        -- unfold get_deg at 1. bx. rewrite nthl_upd_same by (rewrite (sh_deg _ Sh); lia).
           rewrite nthn_upd_same by (rewrite (sh_degl _ Sh cs' Hc); lia).
           rewrite (pr_deg PR). reflexivity.
        -- lia.
        -- intros i Hi. destruct (Nat.eq_dec i k) as [->|Ne]; [exact Et|].
           apply (pr_lo PR). lia.
        -- exact (pr_hi PR).
    + (* swapped to the end of the window *)
      assert (Gr' : in_row b3 v (k_max - 1) = true).
      { unfold in_row. rewrite (sh_rows _ Sh). fold r3. apply andb_true_iff. split; apply Nat.ltb_lt; lia. }
      rewrite Gr'. cbn [andb].
      set (r3' := upd (upd r3 k (nthn r3 (k_max - 1))) (k_max - 1) (nthn r3 k)).
      set (b3' := set_row (set_row b3 v k (nthn r3 (k_max - 1))) v (k_max - 1) (nthn r3 k)).
      assert (Er : nthl (b_rows b3') v = r3').
      { unfold b3'. bx. rewrite !nthl_upd_same by (rewrite ?upd_length, (sh_rows _ Sh); lia). reflexivity. }
      assert (Hr3' : forall i, nthn r3' i = if i =? k_max - 1 then nthn r3 k
                                           else if i =? k then nthn r3 (k_max - 1) else nthn r3 i)
        by (intros i; apply swap_list_nth; lia).
      apply IH; [lia| |].
      * refine (same_but_trans PI (same_but_trans (R := fun x => x = v) (same_but_set_row cs' v b3 k _ Sh)
                 (same_but_set_row cs' v _ (k_max - 1) _ (shape_set_row _ _ _ _ Sh)) _) _); tauto.
      * split; rewrite ?Er.
        -- eapply perm_within_trans; [exact PW|]. unfold r3'. apply perm_within_swap; lia.
        -- unfold b3', get_deg. bx. exact (pr_deg PR).
        -- lia.
        -- intros i Hi. rewrite Hr3'.
           destruct (Nat.eqb_spec i (k_max - 1)); [lia|]. destruct (Nat.eqb_spec i k); [lia|].
           apply (pr_lo PR Hi).
        -- intros i Hi. rewrite Hr3'.
           destruct (Nat.eqb_spec i (k_max - 1)); [exact Et|]. destruct (Nat.eqb_spec i k); [lia|].
           apply (pr_hi PR). lia.
Qed.

(** At the exit of the while loop the first deg[cs'][v] entries of row v are exactly the entries of the
    window that pass the label test. *)
Lemma part_row_final cs' v m b2 b3 kf :
  part_row cs' v m b2 b3 kf kf ->
  kf <= m /\
  forall w, In w (firstn kf (nthl (b_rows b3) v)) <->
            In w (firstn m (nthl (b_rows b2) v)) /\ nthn (b_lab b2) w = cs'.
Proof.
  intros PR. pose proof (pr_k PR) as Hk. split; [lia|].
  destruct (pr_perm PR) as [P _]. intros w. split.
  - intros H. apply In_firstn_nth in H. destruct H as [i [Hi [Hl E]]]. split.
    + eapply Permutation_in; [exact P|]. apply In_firstn_nth. exists i. split; [lia|]. split; assumption.
    + rewrite <- E. apply (pr_lo PR Hi).
  - intros [H Hlab]. apply (Permutation_in _ (Permutation_sym P)) in H.
    apply In_firstn_nth in H. destruct H as [i [Hi [Hl E]]].
    apply In_firstn_nth. exists i. split; [|split; assumption].
    destruct (Nat.lt_ge_cases i kf) as [L|L]; [exact L|]. exfalso.
    apply (pr_hi PR (i:=i)); [lia|]. rewrite E. exact Hlab.
Qed.

Definition part_step (cs' : nat) (b : box) (j : nat) : box :=
  let v := get_sub b cs' j in
  partition_loop (get_deg b (S cs') v) (S cs') v 0 (get_deg b (S cs') v) b.

Definition part_step_ok (cs' : nat) (b : box) (j : nat) : bool :=
  in_sub b cs' j &&
  (let v := get_sub b cs' j in
   in_ptr b v && in_deg b (S cs') v &&
   partition_ok (get_deg b (S cs') v) (S cs') v 0 (get_deg b (S cs') v) b).

(** The window of x has been partitioned: row [r] and degree [k] of x at level cs', against the state [b]
    at the beginning of the iteration and the selected list [L]. *)
Set Implicit Arguments.
Record node_done (cs' : nat) (b : box) (L : list nat) (x k : nat) (r : list nat) : Prop := {
  nd_perm : perm_within (get_deg b (S cs') x) (nthl (b_rows b) x) r;
  nd_deg : k <= get_deg b (S cs') x;
  nd_win : forall w, In w (firstn k r) <->
                     In w (firstn (get_deg b (S cs') x) (nthl (b_rows b) x)) /\ In w L }.

(** State [b2] after the windows of the nodes [Lj] (a prefix of [L]) have been partitioned;
    [b1] is the state after the selection. *)
Record part_outer (cs' : nat) (b b1 : box) (L Lj : list nat) (b2 : box) : Prop := {
  po_same : same_but cs' (fun x => In x Lj) b1 b2;
  po_done : forall x, In x Lj -> node_done cs' b L x (get_deg b2 cs' x) (nthl (b_rows b2) x) }.
Unset Implicit Arguments.

Lemma partition_phase cs' b b1 u : dag_wf -> inv (S cs') b -> In u (subl b (S cs')) ->
  let L := firstn (get_deg b (S cs') u) (nthl (b_rows b) u) in
  sel_inv cs' b L b1 ->
  fold_chk (part_step_ok cs') (part_step cs') (seq 0 (nthn (b_ns b1) cs')) b1 = true /\
  part_outer cs' b b1 L L (fold_left (part_step cs') (seq 0 (nthn (b_ns b1) cs')) b1).
Proof.
  intros W I Hu L SI.
  destruct (window_facts _ _ _ W I Hu) as [HLnd [HLlen [HLM [Hdl HLin]]]]. fold L in HLnd, HLlen, HLM, HLin.
  pose proof (inv_lvl _ _ I) as Hlvl.
  rewrite (si_ns SI).
  replace (part_outer cs' b b1 L L) with (part_outer cs' b b1 L (firstn (length L) L))
    by (rewrite firstn_all; reflexivity).
  apply (fold_seq_chk (fun j b2 => part_outer cs' b b1 L (firstn j L) b2)).
  - split; [apply same_but_refl; exact (si_shape SI)|intros x []].
  - intros j b2 _ Hj [SB Hdone].
    pose proof (sb_shape SB) as Sh.
    set (v := nthn L j).
    assert (Ev : get_sub b2 cs' j = v).
    { unfold get_sub. rewrite (sb_sub SB). apply nthn_prefix; [apply (si_sub SI) | exact Hj]. }
    assert (HvL : In v L) by (apply nth_In; exact Hj).
    destruct (HLin v HvL) as [HvS [_ [Hvn Hvl]]].
    rewrite (firstn_S_nth L j 0 Hj). fold (nthn L j). fold v.
    assert (Hnin : ~ In v (firstn j L)) by (apply NoDup_nth_firstn; assumption).
    assert (Edeg : forall x, get_deg b2 (S cs') x = get_deg b (S cs') x).
    { intros x. unfold get_deg. rewrite (sb_deg_other SB) by lia.
      rewrite (si_deg_other SI) by lia. reflexivity. }
    assert (Erow : nthl (b_rows b2) v = nthl (b_rows b) v) by (rewrite (sb_rows SB v Hnin), (si_rows SI); reflexivity).
    set (m := get_deg b (S cs') v).
    assert (Hm : m <= length (nthl (b_rows b2) v)).
    { rewrite Erow, (inv_row_length (S cs')) by exact I. apply (inv_deg _ _ I v HvS). }
    assert (Hw : forall w, In w (firstn m (nthl (b_rows b2) v)) -> w < nn).
    { intros w Hin. rewrite Erow in Hin. apply (inv_win _ _ I v w HvS) in Hin.
      apply (inv_lt _ _ I w). tauto. }
    assert (PR0 : part_row cs' v m b2 b2 0 m).
    { split.
      - apply perm_within_refl.
      - rewrite (sb_deg SB v Hnin). apply (si_deg SI v HvL).
      - lia.
      - intros i Hi. lia.
      - intros i Hi. lia. }
    destruct (partition_loop_spec cs' v m b2 ltac:(lia) Hvn Hm Hw m 0 m b2 ltac:(lia) (same_but_refl _ _ _ Sh) PR0)
      as [Hok [kf [PI PR]]].
    unfold part_step_ok, part_step. cbv zeta. rewrite Ev, Edeg. fold m.
    set (bf := partition_loop m (S cs') v 0 m b2) in *.
    destruct (part_row_final _ _ _ _ _ _ PR) as [Hkf Hset].
    pose proof (pr_deg PR) as Ekf.
    (* the label test on the window is membership in L *)
    assert (Htest : forall w, In w (firstn m (nthl (b_rows b) v)) -> (nthn (b_lab b2) w = cs' <-> In w L)).
    { intros w Hin. apply (inv_win _ _ I v w HvS) in Hin. destruct Hin as [_ HwS].
      rewrite (sb_lab SB), (si_lab SI w).
      destruct (memn w L) eqn:E.
      - apply memn_In in E. tauto.
      - apply memn_false in E. rewrite (inv_lab_in _ _ I w HwS). split; [lia|contradiction]. }
    split.
    + unfold in_sub, in_deg, in_ptr.
      rewrite Hok, (sh_sub _ Sh), (sh_deg _ Sh), (sh_rows _ Sh), (sh_degl _ Sh (S cs')) by lia.
      pose proof (sh_subl _ Sh cs' ltac:(lia)).
      repeat (apply andb_true_iff; split); try reflexivity; apply Nat.ltb_lt; lia.
    + split.
      * apply (same_but_trans SB PI). intros x [Hx| ->]; apply in_or_app; [left; exact Hx|right; left; reflexivity].
      * intros x Hx. apply in_app_or in Hx. destruct Hx as [Hx|[<-|[]]].
        -- assert (Nx : x <> v) by (intros ->; contradiction).
           rewrite (sb_deg PI x Nx), (sb_rows PI x Nx). apply (Hdone x Hx).
        -- fold m. rewrite Ekf. split; [rewrite <- Erow; exact (pr_perm PR)|exact Hkf|].
           intros w. rewrite Hset, Erow.
           split; intros [Hin Hl]; (split; [exact Hin|]); apply (Htest w Hin); exact Hl.
Qed.

(** * Last inner loop: the labels of the selected nodes are restored *)

Definition restore_step (cs' : nat) (b : box) (j : nat) : box := set_lab b (get_sub b cs' j) (S cs').
Definition restore_ok (cs' : nat) (b : box) (j : nat) : bool := in_sub b cs' j && in_lab b (get_sub b cs' j).

Set Implicit Arguments.
Record rest_inv (cs' : nat) (b4 : box) (Lj : list nat) (b5 : box) : Prop := {
  ri_shape : shape b5;
  ri_ns : b_ns b5 = b_ns b4;
  ri_sub : b_sub b5 = b_sub b4;
  ri_deg : b_deg b5 = b_deg b4;
  ri_rows : b_rows b5 = b_rows b4;
  ri_lab : forall x, nthn (b_lab b5) x = if memn x Lj then S cs' else nthn (b_lab b4) x }.
Unset Implicit Arguments.

Lemma restore_phase cs' b4 L : shape b4 -> cs' < K ->
  nthn (b_ns b4) cs' = length L -> firstn (length L) (nthl (b_sub b4) cs') = L ->
  (forall v, In v L -> v < nn) ->
  fold_chk (restore_ok cs') (restore_step cs') (seq 0 (nthn (b_ns b4) cs')) b4 = true /\
  rest_inv cs' b4 L (fold_left (restore_step cs') (seq 0 (nthn (b_ns b4) cs')) b4).
Proof.
  intros Sh4 Hc Hns Hsub Hlt.
  assert (HL : length L <= length (nthl (b_sub b4) cs')).
  { pose proof (f_equal (@length nat) Hsub) as E. rewrite firstn_length in E. lia. }
  rewrite Hns.
  replace (rest_inv cs' b4 L) with (rest_inv cs' b4 (firstn (length L) L)) by (rewrite firstn_all; reflexivity).
  apply (fold_seq_chk (fun j b5 => rest_inv cs' b4 (firstn j L) b5)).
  - split; auto.
  - intros j b5 _ Hj RI. pose proof (ri_shape RI) as Sh.
    set (v := nthn L j).
    assert (Ev : get_sub b5 cs' j = v).
    { unfold get_sub. rewrite (ri_sub RI). apply nthn_prefix; assumption. }
    assert (Hvn : v < nn) by (apply Hlt; apply nth_In; exact Hj).
    unfold restore_ok, restore_step. rewrite Ev. split.
    + unfold in_sub, in_lab. rewrite (sh_sub _ Sh), (sh_lab _ Sh), (ri_sub RI).
      repeat (apply andb_true_iff; split); apply Nat.ltb_lt; lia.
    + rewrite (firstn_S_nth L j 0 Hj). fold (nthn L j). fold v. split; bx.
      * apply shape_set_lab. exact Sh.
      * exact (ri_ns RI).
      * exact (ri_sub RI).
      * exact (ri_deg RI).
      * exact (ri_rows RI).
      * apply lab_upd_snoc; [rewrite (sh_lab _ Sh); exact Hvn | apply (ri_lab RI)].
Qed.

(** * One iteration of the loop over the nodes of a level, and the whole recursion *)

Definition sel_run (cs' : nat) (b : box) (u : nat) : box :=
  fold_left (select_step (S cs') u) (seq 0 (get_deg (set_ns b cs' 0) (S cs') u)) (set_ns b cs' 0).
Definition part_run (cs' : nat) (b1 : box) : box :=
  fold_left (part_step cs') (seq 0 (nthn (b_ns b1) cs')) b1.
Definition rest_run (cs' : nat) (b4 : box) : box :=
  fold_left (restore_step cs') (seq 0 (nthn (b_ns b4) cs')) b4.

(** The body of [for i in range(box.ns[clique_size])], with clique_size = S cs'. *)
Definition body (cs' : nat) (st : nat * box) (i : nat) : nat * box :=
  let (total, b) := st in
  let u := get_sub b (S cs') i in
  let b3 := part_run cs' (sel_run cs' b u) in
  let (c, b4) := count_cliques_from_dag cs' b3 in
  (total + c, rest_run cs' b4).

Lemma ccfd_unfold j b :
  count_cliques_from_dag (S (S (S j))) b =
  fold_left (body (S (S j))) (seq 0 (nthn (b_ns b) (S (S (S j))))) (0, b).
Proof. reflexivity. Qed.

(** The model instrumented with the bounds check of every array access: [true] when every index used
    by the run is smaller than the length of the array it indexes. *)
Definition body_ok (cs' : nat) (rec_ok : box -> bool) (st : nat * box) (i : nat) : bool :=
  let b := snd st in
  in_sub b (S cs') i &&
  (let u := get_sub b (S cs') i in
   in_ns b cs' && in_ptr b u && in_deg b (S cs') u &&
   fold_chk (select_ok (S cs') u) (select_step (S cs') u)
            (seq 0 (get_deg (set_ns b cs' 0) (S cs') u)) (set_ns b cs' 0) &&
   (let b1 := sel_run cs' b u in
    fold_chk (part_step_ok cs') (part_step cs') (seq 0 (nthn (b_ns b1) cs')) b1 &&
    (let b3 := part_run cs' b1 in
     rec_ok b3 &&
     (let b4 := snd (count_cliques_from_dag cs' b3) in
      fold_chk (restore_ok cs') (restore_step cs') (seq 0 (nthn (b_ns b4) cs')) b4)))).

Fixpoint ccfd_ok (cs : nat) (b : box) : bool :=
  match cs with
  | O => true
  | S O => true
  | S (S O) =>
      in_ns b 2 &&
      forallb (fun i => in_sub b 2 i && in_deg b 2 (get_sub b 2 i)) (seq 0 (nthn (b_ns b) 2))
  | S cs' =>
      in_ns b cs && fold_chk (body_ok cs' (ccfd_ok cs')) (body cs') (seq 0 (nthn (b_ns b) cs)) (0, b)
  end.

Lemma ccfd_ok_unfold j b :
  ccfd_ok (S (S (S j))) b =
  in_ns b (S (S (S j))) &&
  fold_chk (body_ok (S (S j)) (ccfd_ok (S (S j)))) (body (S (S j)))
           (seq 0 (nthn (b_ns b) (S (S (S j))))) (0, b).
Proof. reflexivity. Qed.

(** The state in which the recursive call is entered satisfies the invariant of level cs-1, with the
    out-neighbours of u inside the current level (in row order) as node list. *)
Lemma level_step_invariant cs' b u : dag_wf -> 2 <= cs' -> inv (S cs') b -> In u (subl b (S cs')) ->
  let L := firstn (get_deg b (S cs') u) (nthl (b_rows b) u) in
  let b3 := part_run cs' (sel_run cs' b u) in
  inv cs' b3 /\ subl b3 cs' = L /\ Permutation L (inter (row d u) (subl b (S cs'))).
Proof.
  intros W H2 I Hu L b3.
  destruct (window_facts _ _ _ W I Hu) as [HLnd [HLlen [HLM [Hdl HLin]]]]. fold L in HLnd, HLlen, HLM, HLin.
  pose proof (inv_lvl _ _ I) as Hlvl.
  destruct (select_phase cs' b u W I Hu) as [_ SI]. cbv zeta in SI. fold (sel_run cs' b u) in SI. fold L in SI.
  destruct (partition_phase cs' b _ u W I Hu SI) as [_ [SB Hdone]]. fold (part_run cs' (sel_run cs' b u)) in SB, Hdone.
  fold L in SB, Hdone. fold b3 in SB, Hdone.
  pose proof (sb_shape SB) as Sh3.
  assert (ES : subl b3 cs' = L).
  { unfold subl. rewrite (sb_ns SB), (sb_sub SB), (si_ns SI).
    apply (si_sub SI). }
  split; [|split; [exact ES|apply (inv_win_perm (S cs')); assumption]].
  assert (Elab : forall x, nthn (b_lab b3) x = if memn x L then cs' else nthn (b_lab b) x).
  { intros x. rewrite (sb_lab SB). apply (si_lab SI). }
  split; rewrite ?ES.
  - exact Sh3.
  - lia.
  - rewrite (sb_ns SB), (si_ns SI).
    pose proof (sh_subl _ Sh3 cs' ltac:(lia)). lia.
  - exact HLnd.
  - intros v Hv. apply (HLin v Hv).
  - intros v Hv. rewrite Elab. apply memn_In in Hv. rewrite Hv. reflexivity.
  - intros v Hvn Hv. rewrite Elab. apply memn_false in Hv. rewrite Hv.
    destruct (in_dec Nat.eq_dec v (subl b (S cs'))) as [Hin|Hout].
    + rewrite (inv_lab_in _ _ I v Hin). lia.
    + pose proof (inv_lab_out _ _ I v Hvn Hout). lia.
  - intros v. destruct (in_dec Nat.eq_dec v L) as [Hin|Hout].
    + eapply perm_trans; [|apply (inv_rows _ _ I v)].
      eapply perm_within_perm. apply (nd_perm (Hdone v Hin)).
    + rewrite (sb_rows SB v Hout), (si_rows SI). apply (inv_rows _ _ I v).
  - intros v Hv. destruct (HLin v Hv) as [HvS _].
    pose proof (nd_deg (Hdone v Hv)). pose proof (inv_deg _ _ I v HvS). lia.
  - intros v w Hv. destruct (HLin v Hv) as [HvS _].
    rewrite (nd_win (Hdone v Hv) w). rewrite (inv_win _ _ I v w HvS). split.
    + tauto.
    + intros [Hr Hw]. split; [|exact Hw]. split; [exact Hr|]. apply (HLin w Hw).
Qed.

Lemma iter_spec cs' j b i :
  dag_wf -> 2 <= cs' ->
  (forall b3, inv cs' b3 ->
     ccfd_ok cs' b3 = true /\
     fst (count_cliques_from_dag cs' b3) = cliques_rec d j (subl b3 cs') /\
     frame cs' b3 (snd (count_cliques_from_dag cs' b3))) ->
  inv (S cs') b -> i < nthn (b_ns b) (S cs') ->
  forall tot,
  body_ok cs' (ccfd_ok cs') (tot, b) i = true /\
  frame (S cs') b (snd (body cs' (tot, b) i)) /\
  fst (body cs' (tot, b) i) =
  tot + cliques_rec d j (inter (row d (get_sub b (S cs') i)) (subl b (S cs'))).
Proof.
  intros W H2 Hrec I Hi tot.
  pose proof (inv_lvl _ _ I) as Hlvl. pose proof (inv_shape _ _ I) as Sh.
  pose proof (inv_ns _ _ I) as Hns.
  unfold body_ok, body. cbv zeta. cbn [snd].
  set (u := get_sub b (S cs') i).
  assert (Hu : In u (subl b (S cs'))).
  { unfold subl. apply In_firstn_nth. exists i. split; [exact Hi|]. split; [lia|reflexivity]. }
  destruct (window_facts _ _ _ W I Hu) as [_ [_ [_ [_ HLin]]]].
  destruct (select_phase cs' b u W I Hu) as [Ok1 SI]. cbv zeta in Ok1, SI. fold (sel_run cs' b u) in SI.
  destruct (partition_phase cs' b _ u W I Hu SI) as [Ok2 [SB Hdone]]. fold (part_run cs' (sel_run cs' b u)) in SB, Hdone.
  destruct (level_step_invariant cs' b u W H2 I Hu) as [I3 [ES HP]]. cbv zeta in I3, ES, HP.
  set (L := firstn (get_deg b (S cs') u) (nthl (b_rows b) u)) in *.
  set (b1 := sel_run cs' b u) in *.
  set (b3 := part_run cs' b1) in *.
  destruct (Hrec b3 I3) as [Ok3 [Ec [Sh4 Lab4 Ns4 Sub4 Deg4 In4 Out4]]]. rewrite ES in In4, Out4.
  destruct (count_cliques_from_dag cs' b3) as [c b4]. cbn [fst snd] in *.
  assert (Ens4 : nthn (b_ns b4) cs' = length L).
  { rewrite Ns4, (sb_ns SB) by lia. apply (si_ns SI). }
  assert (Esub4 : firstn (length L) (nthl (b_sub b4) cs') = L).
  { rewrite Sub4, (sb_sub SB) by lia. apply (si_sub SI). }
  destruct (restore_phase cs' b4 L Sh4 ltac:(lia) Ens4 Esub4 (fun v Hv => proj1 (proj2 (proj2 (HLin v Hv)))))
    as [Ok4 RI].
  fold (rest_run cs' b4) in RI.
  split; [|split].
  - rewrite Ok1, Ok2, Ok3, Ok4. unfold in_sub, in_ns, in_deg, in_ptr.
    rewrite (sh_sub _ Sh), (sh_ns _ Sh), (sh_deg _ Sh), (sh_rows _ Sh), (sh_degl _ Sh (S cs')) by lia.
    pose proof (inv_lt _ _ I u Hu).
    repeat (apply andb_true_iff; split); try reflexivity; apply Nat.ltb_lt; lia.
  - split.
    + exact (ri_shape RI).
    + intros x. rewrite (ri_lab RI x), Lab4, (sb_lab SB), (si_lab SI).
      destruct (memn x L) eqn:E; [|reflexivity]. apply memn_In in E. symmetry. apply (HLin x E).
    + intros m Hm. rewrite (ri_ns RI), Ns4, (sb_ns SB) by lia. apply (si_ns_other SI). lia.
    + intros m Hm. rewrite (ri_sub RI), Sub4, (sb_sub SB) by lia. apply (si_sub_other SI). lia.
    + intros m Hm. rewrite (ri_deg RI), Deg4, (sb_deg_other SB) by lia. apply (si_deg_other SI). lia.
    + intros v Hv. rewrite (ri_rows RI).
      destruct (in_dec Nat.eq_dec v L) as [Hin|Hout].
      * eapply perm_within_trans; [apply (nd_perm (Hdone v Hin))|].
        eapply perm_within_mono; [apply (nd_deg (Hdone v Hin))|apply (In4 v Hin)].
      * rewrite (Out4 v Hout), (sb_rows SB v Hout), (si_rows SI). apply perm_within_refl.
    + intros v Hv. rewrite (ri_rows RI).
      assert (Hout : ~ In v L) by (intros Hin; apply Hv; apply (HLin v Hin)).
      rewrite (Out4 v Hout), (sb_rows SB v Hout), (si_rows SI). reflexivity.
  - rewrite Ec, ES. f_equal. apply cliques_rec_perm. exact HP.
Qed.

(** The whole recursion at level l = j + 2: every bounds check passes, the count is the L1 recursion on
    the current node list, and the final state differs from the initial one only as [frame] allows. *)
Theorem ccfd_main : dag_wf -> forall j b, inv (S (S j)) b ->
  ccfd_ok (S (S j)) b = true /\
  fst (count_cliques_from_dag (S (S j)) b) = cliques_rec d j (subl b (S (S j))) /\
  frame (S (S j)) b (snd (count_cliques_from_dag (S (S j)) b)).
Proof.
  intros W. induction j as [|j IH]; intros b I;
    pose proof (inv_shape _ _ I) as Sh; pose proof (inv_lvl _ _ I) as Hlvl; pose proof (inv_ns _ _ I) as Hns.
  - (* clique_size = 2: sum of the degrees of level 2 *)
    cbn [count_cliques_from_dag ccfd_ok fst snd]. split; [|split].
    + unfold in_ns. rewrite (sh_ns _ Sh). apply andb_true_iff. split; [apply Nat.ltb_lt; lia|].
      apply forallb_forall. intros i Hi. apply in_seq in Hi.
      assert (Hu : In (get_sub b 2 i) (subl b 2)).
      { unfold subl. apply In_firstn_nth. exists i. split; [lia|]. split; [lia|reflexivity]. }
      pose proof (inv_lt _ _ I _ Hu).
      unfold in_sub, in_deg. rewrite (sh_sub _ Sh), (sh_deg _ Sh), (sh_degl _ Sh 2) by lia.
      repeat (apply andb_true_iff; split); apply Nat.ltb_lt; lia.
    + change (fun i => get_deg b 2 (get_sub b 2 i)) with (fun i => get_deg b 2 (nthn (nthl (b_sub b) 2) i)).
      rewrite (map_seq_nth (get_deg b 2) (nthl (b_sub b) 2) _ Hns). fold (subl b 2).
      apply sumn_map_ext_in. intros u Hu.
      rewrite <- (Permutation_length (inv_win_perm 2 b u W I Hu)). symmetry.
      apply (inv_win_length 2); assumption.
    + apply frame_refl. exact Sh.
  - rewrite ccfd_ok_unfold, ccfd_unfold.
    set (cs' := S (S j)) in *.
    set (S0 := subl b (S cs')).
    set (F := fun u => cliques_rec d j (inter (row d u) S0)).
    assert (HlenS : length S0 = nthn (b_ns b) (S cs')) by (unfold S0, subl; apply firstn_length_le; exact Hns).
    destruct (fold_seq_chk
                (fun i (st : nat * box) => frame (S cs') b (snd st) /\ fst st = sumn (map F (firstn i S0)))
                (body_ok cs' (ccfd_ok cs')) (body cs') (nthn (b_ns b) (S cs')) 0 (0, b)) as [Ok [Fr Et]].
    + cbn [fst snd]. split; [apply frame_refl; exact Sh|reflexivity].
    + intros i [tot b'] _ Hi [Fr Et]. cbn [fst snd] in Fr, Et.
      pose proof (inv_frame _ _ _ I Fr) as I'.
      assert (Hi' : i < nthn (b_ns b') (S cs')) by (rewrite (fr_ns _ _ _ Fr) by lia; exact Hi).
      destruct (iter_spec cs' j b' i W ltac:(unfold cs'; lia) IH I' Hi' tot) as [Ok [Fr' Ec]].
      split; [exact Ok|]. split; [eapply frame_trans; eassumption|].
      assert (Eu : get_sub b' (S cs') i = nthn S0 i).
      { unfold get_sub. rewrite (fr_sub _ _ _ Fr) by lia. unfold S0, subl, nthn.
        rewrite nth_firstn_lt by exact Hi. reflexivity. }
      rewrite Ec, Et, (frame_subl _ _ _ Fr), Eu. fold S0.
      rewrite (firstn_S_nth S0 i 0) by lia. fold (nthn S0 i).
      rewrite map_app, sumn_app. cbn [map sumn fold_right]. unfold F at 3. lia.
    + cbn [fst snd Nat.add] in Fr, Et. split; [|split].
      * unfold in_ns. rewrite (sh_ns _ Sh), Ok.
        apply andb_true_iff. split; [apply Nat.ltb_lt; lia|reflexivity].
      * rewrite Et, <- HlenS, firstn_all. reflexivity.
      * exact Fr.
Qed.

End Level.

(** * ListingBox.__cinit__ establishes the invariant at level k *)

Definition max_deg (d : graph) : nat := fold_left Nat.max (map (@length nat) d) 0.

Lemma dag_wf_max_deg (d : graph) :
  (forall v, NoDup (row d v)) -> (forall v w, In w (row d v) -> w < length d) -> dag_wf d (max_deg d).
Proof.
  intros Hnd Hlt. split; [exact Hnd|]. split; [exact Hlt|].
  intros v. destruct (Nat.lt_ge_cases v (length d)) as [L|L].
  - apply (proj2 (fold_max_ge (map (@length nat) d) 0)). apply in_map. unfold row. apply nth_In. exact L.
  - rewrite row_overflow by exact L. simpl. lia.
Qed.

Lemma box_init_ns d K m : nthn (b_ns (box_init d K)) m = if m =? K then length d else 0.
Proof.
  unfold box_init. cbv zeta. bx. destruct (Nat.eqb_spec m K) as [->|Ne].
  - apply nthn_upd_same. rewrite repeat_length. lia.
  - rewrite nthn_upd_other by lia. apply nth_repeat.
Qed.

Lemma box_init_deg d K m : m <= K ->
  nthl (b_deg (box_init d K)) m = if m =? K then map (@length nat) d else repeat 0 (length d).
Proof. intros H. unfold box_init. cbv zeta. bx. unfold nthl. apply nth_map_seq. lia. Qed.

Lemma box_init_get_deg d K v : get_deg (box_init d K) K v = length (row d v).
Proof.
  unfold get_deg. rewrite box_init_deg, Nat.eqb_refl by lia. unfold nthn, row.
  change 0 with (length (@nil nat)). apply map_nth.
Qed.

Lemma box_init_sub d K m : m <= K ->
  nthl (b_sub (box_init d K)) m = if m =? K then seq 0 (length d) else repeat 0 (max_deg d).
Proof. intros H. unfold box_init. cbv zeta. bx. unfold nthl. apply nth_map_seq. lia. Qed.

Lemma box_init_shape d K : shape d K (max_deg d) (box_init d K).
Proof.
  split.
  - unfold box_init. cbv zeta. bx. rewrite upd_length, repeat_length. reflexivity.
  - unfold box_init. cbv zeta. bx. apply repeat_length.
  - unfold box_init. cbv zeta. bx. rewrite map_length, seq_length. reflexivity.
  - unfold box_init. cbv zeta. bx. rewrite map_length, seq_length. reflexivity.
  - reflexivity.
  - intros m Hm. rewrite box_init_deg by exact Hm.
    destruct (m =? K); [apply map_length|apply repeat_length].
  - intros m Hm. rewrite box_init_sub by lia. destruct (Nat.eqb_spec m K); [lia|].
    rewrite repeat_length. lia.
Qed.

Lemma subl_init d K : subl (box_init d K) K = seq 0 (length d).
Proof.
  unfold subl. rewrite box_init_ns, box_init_sub, Nat.eqb_refl by lia.
  rewrite <- (seq_length (length d) 0) at 1. apply firstn_all.
Qed.

Theorem inv_init (d : graph) (K : nat) :
  dag_wf d (max_deg d) -> 2 <= K -> inv d K (max_deg d) K (box_init d K).
Proof.
  intros [Hnd [Hlt HM]] HK. split; rewrite ?subl_init.
  - apply box_init_shape.
  - lia.
  - rewrite box_init_ns, box_init_sub, Nat.eqb_refl, seq_length by lia. lia.
  - apply seq_NoDup.
  - intros v Hv. apply in_seq in Hv. lia.
  - intros v Hv. apply in_seq in Hv. unfold box_init. cbv zeta. bx. apply nth_repeat_lt. lia.
  - intros v Hv Hn. exfalso. apply Hn. apply in_seq. lia.
  - intros v. reflexivity.
  - intros v Hv. rewrite box_init_get_deg. lia.
  - intros v w Hv. rewrite box_init_get_deg.
    change (nthl (b_rows (box_init d K)) v) with (row d v). rewrite firstn_all.
    split; [|tauto]. intros H. split; [exact H|]. apply in_seq. specialize (Hlt v w H). lia.
Qed.

Corollary ccfd_spec (d : graph) (K M l : nat) (b : box) :
  dag_wf d M -> inv d K M l b ->
  ccfd_ok l b = true /\
  fst (count_cliques_from_dag l b) = cliques_rec d (l - 2) (subl b l) /\
  frame d K M l b (snd (count_cliques_from_dag l b)).
Proof.
  intros W I. pose proof (inv_lvl _ _ _ _ _ I) as Hl. destruct l as [|[|j]]; try lia.
  replace (S (S j) - 2) with j by lia. exact (ccfd_main d K M W j b I).
Qed.

(** From the box built by __cinit__: L0 = L1 on every DAG with duplicate-free, in-range rows. *)
Theorem count_cliques_from_dag_L0_L1 (d : graph) (k : nat) :
  (forall v, NoDup (row d v)) -> (forall v w, In w (row d v) -> w < length d) -> 2 <= k ->
  fst (count_cliques_from_dag k (box_init d k)) = count_cliques_from_dag_L1 d k /\
  ccfd_ok k (box_init d k) = true.
Proof.
  intros Hnd Hlt Hk. pose proof (dag_wf_max_deg d Hnd Hlt) as W.
  destruct (ccfd_spec d k (max_deg d) k _ W (inv_init d k W Hk)) as [Ok [E _]].
  rewrite subl_init in E. split; assumption.
Qed.

Lemma get_dag_rows_wf (g : graph) (argsort : list nat) :
  wf_graph g -> (forall u, NoDup (row g u)) -> (forall u v, In v (row g u) -> In u (row g v)) ->
  NoDup argsort -> length argsort = length g ->
  let d := get_dag g (map Z.of_nat argsort) in
  (forall v, NoDup (row d v)) /\ (forall v w, In w (row d v) -> w < length d).
Proof.
  intros Hwf Hnd Hsym Hnda Hlen d.
  destruct (dag_of_get_dag g argsort Hwf Hnd Hsym Hnda Hlen) as [_ [_ HR]]. fold d in HR.
  assert (Hl : length d = length g) by apply get_dag_length.
  split.
  - intros v. destruct (Nat.lt_ge_cases v (length g)) as [L|L].
    + apply (HR v L).
    + rewrite row_overflow by lia. constructor.
  - intros v w H. destruct (Nat.lt_ge_cases v (length g)) as [L|L].
    + apply (HR v L) in H. lia.
    + rewrite row_overflow in H by lia. destruct H.
Qed.

(** count_cliques as coded (ListingBox arrays, in-place reordering of the rows) returns the number of
    k-cliques: same hypotheses as [count_cliques_L1_exact]. *)
Theorem count_cliques_L0_exact (g : graph) (k : nat) (argsort : list nat) :
  wf_graph g -> (forall u, NoDup (row g u)) -> (forall u v, In v (row g u) -> In u (row g v)) ->
  NoDup argsort -> length argsort = length g -> 2 <= k ->
  count_cliques g k argsort = Ok (cliques_spec (adjb g) (length g) k).
Proof.
  intros Hwf Hnd Hsym Hnda Hlen Hk.
  rewrite <- (count_cliques_L1_exact g k argsort Hwf Hnd Hsym Hnda Hlen Hk).
  unfold count_cliques, count_cliques_L1. destruct (k <? 2); [reflexivity|]. f_equal.
  destruct (get_dag_rows_wf g argsort Hwf Hnd Hsym Hnda Hlen) as [H1 H2].
  apply (count_cliques_from_dag_L0_L1 _ k H1 H2 Hk).
Qed.

(** The instrumentation is not vacuous: an out-of-range column index is detected. *)
Example ccfd_ok_detects : ccfd_ok 3 (box_init [[1; 7]; []; []] 3) = false.
Proof. reflexivity. Qed.

Print Assumptions count_cliques_L0_exact.
