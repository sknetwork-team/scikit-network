(** Proofs about Model/Paris.v (property C07: the hierarchical algorithms return a valid dendrogram), for ANY
    rounding and with or without the clamp:
    - [paris_rows_valid]: a run that ends normally returns rows that form a valid dendrogram over n leaves
      (component-joining rows included); [paris_next_cluster]: next_cluster = n + number of merges;
    - [merge_bookkeeping], [merge_symmetric], [init_symmetric]: sizes and weights add, the neighbour maps stay
      symmetric (Leibniz equality of the stored weights);
    - [paris_clamped_hmono]: with the clamp ([clamp = true]; whether the source clamps is the generated flag
      [paris_src_clamp], Gen/ParisSrc.v) the heights satisfy [hmono] for any rounding; [paris_core_clamped]: the clamp
      does not influence the control flow, only the heights. *)
From Coq Require Import Permutation Lia QArith Lqa.
From SKN Require Import Base.Util Model.Dendrogram Model.Cuts Model.Hierarchy Model.Paris Proofs.DendroBase Proofs.HierarchyBase.

(** The static invariant: rows done so far and the dict of live clusters. *)
Record rinv (n : nat) (done : dendrogram) (L : list (nat * nat)) : Prop := {
  ri_nd : NoDup (flat_map children done);
  ri_lt : ids_lt n done;
  ri_sz : sizes_add n done;
  ri_linv : linv n done L;
  ri_ok : sizes_ok n done L }.

Lemma linv_perm k done L L' : Permutation L L' -> linv k done L -> linv k done L'.
Proof.
  intros P (H1 & H2 & H3).
  assert (PK : Permutation (akeys L) (akeys L')) by (apply Permutation_map; exact P).
  split; [|split].
  - exact (Permutation_NoDup PK H1).
  - intros x. rewrite <- H2. split; intros Hx.
    + exact (Permutation_in _ (Permutation_sym PK) Hx).
    + exact (Permutation_in _ PK Hx).
  - exact H3.
Qed.

Lemma rinv_perm n done L L' : Permutation L L' -> rinv n done L -> rinv n done L'.
Proof.
  intros P [H1 H2 H3 H4 H5]. split; try assumption.
  - exact (linv_perm _ _ _ _ P H4).
  - intros x s Hin. apply (H5 x s). exact (Permutation_in _ (Permutation_sym P) Hin).
Qed.

Lemma rinv_ext n done L i j h si sj :
  rinv n done L -> alookup i L = Some si -> alookup j L = Some sj -> i <> j ->
  rinv n (done ++ [(i, j, h, si + sj)]) (aremove j (aremove i L) ++ [(n + length done, si + sj)]).
Proof.
  intros [Hnd Hlt Hsz Hlinv Hok] Hi Hj Hne. set (r := (i, j, h, si + sj)).
  assert (Hstep := valid_run_step n done L r Hlinv si sj Hi Hj Hne (si + sj)).
  destruct Hlinv as (_ & Hkeys & _).
  destruct (proj1 (Hkeys i) (alookup_key _ _ _ Hi)) as [Hi1 Hi2].
  destruct (proj1 (Hkeys j) (alookup_key _ _ _ Hj)) as [Hj1 Hj2].
  split.
  - rewrite flat_map_app. apply NoDup_snoc2; assumption.
  - apply ids_lt_snoc; assumption.
  - intros t r0 Hr. apply nth_error_snoc in Hr. destruct Hr as [[Ht Hr]|[-> ->]].
    + destruct (Hlt t r0 Hr) as [Hl Hrr]. rewrite !csize_app by lia. exact (Hsz t r0 Hr).
    + cbn. rewrite !csize_app by assumption.
      now rewrite <- (Hok _ _ (alookup_In _ _ _ Hi)), <- (Hok _ _ (alookup_In _ _ _ Hj)).
  - exact Hstep.
  - apply (sizes_ok_step n (done ++ [r]) (length done) r L (nth_error_app_length _ _ _)).
    intros x sx Hin. rewrite csize_app; [exact (Hok _ _ Hin)|]. apply Hkeys, in_map_iff. now exists (x, sx).
Qed.

(** The same step, when the dict is only known up to its order. *)
Lemma rinv_merge n done L i j h si sj L0 :
  rinv n done L -> Permutation L ((i, si) :: (j, sj) :: L0) ->
  rinv n (done ++ [(i, j, h, si + sj)]) ((n + length done, si + sj) :: L0).
Proof.
  intros Hr P.
  assert (Hndk : NoDup (akeys L)) by (destruct Hr as [_ _ _ (H & _) _]; exact H).
  assert (Hi : alookup i L = Some si).
  { apply In_alookup; [exact Hndk|]. apply (Permutation_in _ (Permutation_sym P)). now left. }
  assert (Hj : alookup j L = Some sj).
  { apply In_alookup; [exact Hndk|]. apply (Permutation_in _ (Permutation_sym P)). right. now left. }
  assert (Hne : i <> j).
  { apply (Permutation_NoDup (Permutation_map fst P)) in Hndk. inversion Hndk as [|? ? Hn _]; subst.
    intros E. apply Hn. rewrite E. now left. }
  refine (rinv_perm _ _ _ _ _ (rinv_ext n done L i j h si sj Hr Hi Hj Hne)).
  rewrite <- Permutation_cons_append. constructor.
  apply (Permutation_cons_inv (a := (j, sj))). rewrite <- (aremove_perm j (aremove i L) sj).
  - apply (Permutation_cons_inv (a := (i, si))). rewrite <- P. symmetry. apply aremove_perm. exact Hi.
  - rewrite alookup_aremove_neq; [exact Hj | congruence].
Qed.

Inductive step_kind (R : rounding) (clamp : bool) (st st' : Paris.pstate) : Prop :=
| sk_same :
    p_ag st' = p_ag st -> p_rows st' = p_rows st -> p_comps st' = p_comps st -> p_hgt st' = p_hgt st ->
    step_kind R clamp st st'
| sk_comp (node s : nat) :
    alookup node (ag_size (p_ag st)) = Some s ->
    ag_next (p_ag st') = ag_next (p_ag st) ->
    ag_size (p_ag st') = aremove node (ag_size (p_ag st)) ->
    p_rows st' = p_rows st -> p_comps st' = p_comps st ++ [(node, s)] -> p_hgt st' = p_hgt st ->
    ag_nb (p_ag st') = ag_nb (p_ag st) ->
    step_kind R clamp st st'
| sk_merge (node nn : nat) (h0 : Q) (s1 s2 : nat) :
    alookup node (ag_size (p_ag st)) = Some s1 ->
    alookup nn (ag_size (p_ag st)) = Some s2 ->
    ag_merge R (p_ag st) node nn = Ok (p_ag st') ->
    p_rows st' = p_rows st ++
      [(node, nn, if clamp then qmaxq h0 (qmaxq (getq (p_hgt st) node) (getq (p_hgt st) nn)) else h0, s1 + s2)] ->
    p_comps st' = p_comps st ->
    p_hgt st' = (ag_next (p_ag st),
                 if clamp then qmaxq h0 (qmaxq (getq (p_hgt st) node) (getq (p_hgt st) nn)) else h0) :: p_hgt st ->
    step_kind R clamp st st'.

Lemma paris_step_cases R clamp st :
  match paris_step R clamp st with
  | Running st' => step_kind R clamp st st'
  | Finished st' => st' = st /\ ag_size (p_ag st) = []
  | Failed _ => True
  end.
Proof.
  unfold paris_step.
  destruct (p_chain st) as [|node chain] eqn:Ech.
  - destruct (ag_size (p_ag st)) as [|[node s] sz] eqn:Esz.
    + split; reflexivity.
    + apply sk_same; reflexivity.
  - destruct (alookup node (ag_nb (p_ag st))) as [row|] eqn:Erow; [|exact I].
    destruct (filter (fun c => negb (Nat.eqb c node)) (akeys row)) as [|c0 nbrs] eqn:Enb.
    + destruct (alookup node (ag_size (p_ag st))) as [s|] eqn:Es; [|exact I].
      apply (sk_comp R clamp _ _ node s); simpl; try reflexivity. exact Es.
    + match goal with |- context [nn_search ?a ?b] => destruct (nn_search a b) as [nn mx] eqn:Enn end.
      destruct chain as [|lst chain'].
      * apply sk_same; reflexivity.
      * destruct (Nat.eqb lst nn) eqn:Eeq.
        -- destruct (alookup node (ag_size (p_ag st))) as [s1|] eqn:Es1; [|exact I].
           destruct (alookup nn (ag_size (p_ag st))) as [s2|] eqn:Es2; [|exact I].
           destruct (ag_merge R (p_ag st) node nn) as [g'|e] eqn:Em; [|exact I].
           apply (sk_merge R clamp _ _ node nn (match mx with Some m => r64 R (1 / m) | None => 0%Q end) s1 s2);
             simpl; try reflexivity; assumption.
        -- apply sk_same; reflexivity.
Qed.

Lemma paris_run_inv R clamp (P : Paris.pstate -> Prop) :
  (forall st st', P st -> paris_step R clamp st = Running st' -> P st') ->
  forall fuel st st', P st -> paris_run R clamp fuel st = Some (Ok st') -> P st' /\ ag_size (p_ag st') = [].
Proof.
  intros Hstep. induction fuel as [|fuel IH]; intros st st' HP H; simpl in H; [discriminate|].
  assert (C := paris_step_cases R clamp st).
  destruct (paris_step R clamp st) as [st1|st1|e] eqn:E.
  - apply (IH st1); [exact (Hstep _ _ HP E) | exact H].
  - inversion H; subst st'. destruct C as [-> Es]. split; assumption.
  - discriminate.
Qed.

Lemma paris_run_ind R clamp (P : Paris.pstate -> Prop) :
  (forall st st', P st -> step_kind R clamp st st' -> P st') ->
  forall fuel st st', P st -> paris_run R clamp fuel st = Some (Ok st') -> P st' /\ ag_size (p_ag st') = [].
Proof.
  intros Hstep. apply paris_run_inv. intros st st' HP E. apply (Hstep st st' HP).
  assert (C := paris_step_cases R clamp st). now rewrite E in C.
Qed.

Definition mg (R : rounding) (g : agraph) (a b : nat) (ra rb : nrow) (s1 s2 : nat) : agraph :=
  let new := ag_next g in
  let others := filter (fun p => negb (Nat.eqb (fst p) a) && negb (Nat.eqb (fst p) b)) (ag_nb g) in
  {| ag_next := S new;
     ag_nb := map (fun p => (fst p, row_replace R a b new (snd p))) others ++
              [(new, (new, self_weight R a b ra rb) :: row_union R a b ra rb)];
     ag_size := aremove b (aremove a (ag_size g)) ++ [(new, s1 + s2)];
     ag_wout := aremove b (aremove a (ag_wout g)) ++ [(new, r64 R (getq (ag_wout g) a + getq (ag_wout g) b))];
     ag_win := aremove b (aremove a (ag_win g)) ++ [(new, r64 R (getq (ag_win g) a + getq (ag_win g) b))] |}.

Lemma ag_merge_inv R g a b g' : ag_merge R g a b = Ok g' ->
  exists ra rb s1 s2, alookup a (ag_nb g) = Some ra /\ alookup b (ag_nb g) = Some rb /\
    alookup a (ag_size g) = Some s1 /\ alookup b (ag_size g) = Some s2 /\ a <> b /\ g' = mg R g a b ra rb s1 s2.
Proof.
  unfold ag_merge. intros H.
  destruct (alookup a (ag_nb g)) as [ra|] eqn:E1; [|discriminate].
  destruct (alookup b (ag_nb g)) as [rb|] eqn:E2; [|discriminate].
  destruct (alookup a (ag_size g)) as [s1|] eqn:E3; [|discriminate].
  destruct (alookup b (ag_size g)) as [s2|] eqn:E4; [|discriminate].
  destruct (Nat.eqb a b) eqn:E5; [discriminate|]. apply Nat.eqb_neq in E5.
  exists ra, rb, s1, s2. inversion H. repeat split; auto.
Qed.

Record pinv (n : nat) (st : Paris.pstate) : Prop := {
  pi_next : ag_next (p_ag st) = n + length (p_rows st);
  pi_rinv : rinv n (p_rows st) (ag_size (p_ag st) ++ p_comps st);
  pi_len : length (ag_size (p_ag st)) + length (p_comps st) + length (p_rows st) = n }.

Lemma pinv_step R clamp n st st' : pinv n st -> step_kind R clamp st st' -> pinv n st'.
Proof.
  intros [Hnext Hrinv Hlen] [Hag Hrows Hcomps _ | node s Hs Hnx Hsz Hrows Hcomps _ | node nn h0 s1 s2 Hs1 Hs2 Hm Hrows Hcomps _].
  - split; rewrite ?Hag, ?Hrows, ?Hcomps; assumption.
  - split; rewrite ?Hnx, ?Hsz, ?Hrows, ?Hcomps.
    + exact Hnext.
    + refine (rinv_perm _ _ _ _ _ Hrinv).
      transitivity (((node, s) :: aremove node (ag_size (p_ag st))) ++ p_comps st).
      * apply Permutation_app_tail. apply aremove_perm. exact Hs.
      * simpl. rewrite app_assoc. apply Permutation_cons_append.
    + rewrite app_length. simpl. assert (E := aremove_length _ _ _ Hs). lia.
  - destruct (ag_merge_inv _ _ _ _ _ Hm) as (ra & rb & t1 & t2 & _ & _ & Et1 & Et2 & Hne & Eg).
    rewrite Hs1 in Et1. rewrite Hs2 in Et2. inversion Et1; inversion Et2; subst t1 t2. clear Et1 Et2.
    assert (Hs2' : alookup nn (aremove node (ag_size (p_ag st))) = Some s2)
      by (rewrite alookup_aremove_neq; [exact Hs2 | congruence]).
    split; rewrite Hrows, ?Hcomps, Eg; cbn [mg ag_next ag_size].
    + rewrite app_length. simpl. lia.
    + set (h := if clamp then _ else _). rewrite Hnext.
      refine (rinv_perm _ _ _ _ _ (rinv_merge n _ _ node nn h s1 s2
                (aremove nn (aremove node (ag_size (p_ag st))) ++ p_comps st) Hrinv _)).
      * rewrite <- app_assoc. apply Permutation_middle.
      * change (Permutation (ag_size (p_ag st) ++ p_comps st)
                  (((node, s1) :: (nn, s2) :: aremove nn (aremove node (ag_size (p_ag st)))) ++ p_comps st)).
        apply Permutation_app_tail. rewrite <- (aremove_perm _ _ _ Hs2'). apply aremove_perm. exact Hs1.
    + rewrite !app_length. simpl.
      assert (E1 := aremove_length _ _ _ Hs1). assert (E2 := aremove_length _ _ _ Hs2'). lia.
Qed.

Lemma akeys_map_const {A} (f : nat -> A) l : akeys (map (fun i => (i, f i)) l) = l.
Proof. unfold akeys. rewrite map_map. simpl. apply map_id. Qed.

Lemma pinv_init R n G wout win : pinv n (paris_init (ag_init R n G wout win)).
Proof.
  split; simpl.
  - lia.
  - rewrite app_nil_r. split.
    + constructor.
    + intros t r Hr. destruct t; discriminate.
    + intros t r Hr. destruct t; discriminate.
    + unfold linv. rewrite (akeys_map_const (fun _ => 1)). simpl. split; [apply seq_NoDup|]. split.
      * intros x. rewrite in_seq. lia.
      * tauto.
    + intros x s Hin. apply in_map_iff in Hin. destruct Hin as [i [E Hi]]. inversion E; subst.
      apply in_seq in Hi. rewrite csize_leaf by lia. reflexivity.
  - rewrite map_length, seq_length. lia.
Qed.

Lemma paris_run_pinv R clamp fuel n G wout win st :
  paris_run R clamp fuel (paris_init (ag_init R n G wout win)) = Some (Ok st) -> pinv n st /\ ag_size (p_ag st) = [].
Proof. exact (paris_run_ind R clamp (pinv n) (pinv_step R clamp n) fuel _ st (pinv_init R n G wout win)). Qed.

Lemma join_comps_length hinf : forall cs node csz next, length (join_comps hinf node csz next cs) = length cs.
Proof. induction cs as [|[nx ns] rest IH]; intros; simpl; [reflexivity|]. now rewrite IH. Qed.

Lemma join_rinv n hinf : forall cs done node csz L,
  rinv n done L -> Permutation L ((node, csz) :: cs) ->
  exists L', rinv n (done ++ join_comps hinf node csz (n + length done) cs) L'.
Proof.
  induction cs as [|[nx ns] rest IH]; intros done node csz L Hr P; simpl.
  - rewrite app_nil_r. now exists L.
  - destruct (IH (done ++ [(node, nx, hinf, csz + ns)]) (n + length done) (csz + ns) _
                 (rinv_merge n done L node nx hinf csz ns rest Hr P)) as [L' HL']; [reflexivity|].
    exists L'. rewrite last_length, Nat.add_succ_r, <- app_assoc in HL'. exact HL'.
Qed.

Lemma paris_finish_inv hinf st D :
  paris_finish hinf st = Ok D ->
  exists node cs tl, p_comps st = rev tl ++ [(node, cs)] /\
                     D = p_rows st ++ join_comps hinf node cs (ag_next (p_ag st)) (rev tl).
Proof.
  unfold paris_finish. intros H. destruct (rev (p_comps st)) as [|[node cs] tl] eqn:E; [discriminate|].
  apply (f_equal (@rev _)) in E. rewrite rev_involutive in E. simpl in E. exists node, cs, tl. split; [exact E|]. inversion H. rewrite E, removelast_last. reflexivity.
Qed.

Lemma paris_core_inv R clamp hinf n G wout win D m t :
  paris_core R clamp hinf n G wout win = Some (Ok (D, m, t)) ->
  exists st, paris_run R clamp (paris_fuel n) (paris_init (ag_init R n G wout win)) = Some (Ok st) /\
             paris_finish hinf st = Ok D.
Proof.
  unfold paris_core. intros H.
  destruct (paris_run R clamp (paris_fuel n) (paris_init (ag_init R n G wout win))) as [[st|e]|]; try discriminate.
  destruct (paris_finish hinf st) as [D'|e] eqn:E; [|discriminate]. inversion H; subst. now exists st.
Qed.

Lemma finish_wf n hinf st D :
  pinv n st -> ag_size (p_ag st) = [] -> paris_finish hinf st = Ok D -> wf_dend n D.
Proof.
  intros [Hnext Hrinv Hlen] Hsz Hfin.
  destruct (paris_finish_inv _ _ _ Hfin) as (node & cs & tl & Ec & ED).
  rewrite Hsz in Hrinv, Hlen. simpl in Hrinv, Hlen. rewrite Ec in Hrinv, Hlen.
  rewrite Hnext in ED.
  destruct (join_rinv n hinf (rev tl) (p_rows st) node cs _ Hrinv) as [L' [H1 H2 H3 _ _]].
  { symmetry. apply Permutation_cons_append. }
  rewrite <- ED in *. split; try assumption.
  rewrite ED, app_length, join_comps_length. rewrite app_length in Hlen. simpl in Hlen. lia.
Qed.

Theorem paris_rows_valid : forall R clamp hinf n G wout win D m t,
  paris_core R clamp hinf n G wout win = Some (Ok (D, m, t)) -> valid n D = true.
Proof.
  intros R clamp hinf n G wout win D m t H.
  destruct (paris_core_inv _ _ _ _ _ _ _ _ _ _ H) as (st & Hrun & Hfin).
  destruct (paris_run_pinv _ _ _ _ _ _ _ _ Hrun) as [Hinv Hsz].
  apply wf_valid. exact (finish_wf n hinf st D Hinv Hsz Hfin).
Qed.

Theorem paris_rows_sizes : forall R clamp hinf n G wout win D m t,
  paris_core R clamp hinf n G wout win = Some (Ok (D, m, t)) ->
  S (length D) = n /\ (forall k r, nth_error D k = Some r -> r_size r = length (leaves n D (n + k))) /\
  (D <> [] -> r_size (last D drow0) = n).
Proof.
  intros R clamp hinf n G wout win D m t H. apply paris_rows_valid in H.
  split; [exact (proj1 (valid_rows n D H))|]. split; [exact (valid_size_leaves n D H)|].
  intros Hne. unfold valid, validw in H. apply andb_true_iff in H. destruct H as [_ H].
  destruct D as [|r0 D0]; [congruence|]. apply Nat.eqb_eq in H. now rewrite sumn_repeat1 in H.
Qed.

Theorem paris_next_cluster : forall R clamp fuel n G wout win st,
  paris_run R clamp fuel (paris_init (ag_init R n G wout win)) = Some (Ok st) ->
  ag_next (p_ag st) = n + length (p_rows st).
Proof.
  intros R clamp fuel n G wout win st Hrun. exact (pi_next _ _ (proj1 (paris_run_pinv _ _ _ _ _ _ _ _ Hrun))).
Qed.

Lemma qmaxq_l a b : (a <= qmaxq a b)%Q.
Proof.
  unfold qmaxq. destruct (Qle_bool a b) eqn:E.
  - now apply Qle_bool_iff.
  - apply Qle_refl.
Qed.

Lemma qmaxq_r a b : (b <= qmaxq a b)%Q.
Proof.
  unfold qmaxq. destruct (Qle_bool a b) eqn:E.
  - apply Qle_refl.
  - apply Qlt_le_weak, Qnot_le_lt. intros Hc. apply Qle_bool_iff in Hc. congruence.
Qed.

Definition hok (n : nat) (rows : dendrogram) : Prop :=
  forall t r, nth_error rows t = Some r ->
    child_height_ok n rows (r_height r) (r_left r) = true /\ child_height_ok n rows (r_height r) (r_right r) = true.

(** [p_hgt] maps every created id n + k to the height of row k (Leibniz). *)
Definition hgt_ok (n : nat) (rows : dendrogram) (hgt : list (nat * Q)) : Prop :=
  forall k r, nth_error rows k = Some r -> alookup (n + k) hgt = Some (r_height r).

Lemma child_height_ok_app n D E h c : child_height_ok n D h c = true -> child_height_ok n (D ++ E) h c = true.
Proof.
  unfold child_height_ok. destruct (Nat.ltb c n); [auto|].
  destruct (nth_error D (c - n)) eqn:E1; [|discriminate].
  rewrite nth_error_app1 by (apply nth_error_Some; congruence). now rewrite E1.
Qed.

Lemma cho_intro n D h c : c < n + length D ->
  (forall r, nth_error D (c - n) = Some r -> n <= c -> (r_height r <= h)%Q) -> child_height_ok n D h c = true.
Proof.
  intros Hc Hh. unfold child_height_ok. destruct (Nat.ltb c n) eqn:El; [reflexivity|]. apply Nat.ltb_ge in El.
  destruct (nth_error D (c - n)) as [r|] eqn:E; [|apply nth_error_None in E; lia].
  apply Qle_bool_iff. now apply Hh.
Qed.

Lemma hok_hmono n D : hok n D -> hmono n D = true.
Proof.
  intros H. unfold hmono. apply forallb_forall. intros r Hr. apply In_nth_error in Hr. destruct Hr as [t Ht].
  destruct (H t r Ht) as [H1 H2]. now rewrite H1, H2.
Qed.

Lemma hok_snoc n rows r :
  hok n rows ->
  child_height_ok n rows (r_height r) (r_left r) = true -> child_height_ok n rows (r_height r) (r_right r) = true ->
  hok n (rows ++ [r]).
Proof.
  intros Hok H1 H2 t r0 Ht. apply nth_error_snoc in Ht. destruct Ht as [[Ht Hr0]|[-> ->]]; [destruct (Hok t r0 Hr0)|];
    split; now apply child_height_ok_app.
Qed.

Lemma clamp_child n rows hgt c h :
  hgt_ok n rows hgt -> c < n + length rows -> (getq hgt c <= h)%Q -> child_height_ok n rows h c = true.
Proof.
  intros Hh Hc Hle. apply cho_intro; [exact Hc|]. intros r Er Hn. apply Hh in Er.
  replace (n + (c - n)) with c in Er by lia. unfold getq in Hle. now rewrite Er in Hle.
Qed.

Lemma pinv_size_lt n st x s : pinv n st -> alookup x (ag_size (p_ag st)) = Some s -> x < n + length (p_rows st).
Proof.
  intros [_ [_ _ _ (_ & Hkeys & _) _] _] Hs. apply Hkeys. apply (alookup_key _ _ s). rewrite alookup_app, Hs. reflexivity.
Qed.

Definition hinv (n : nat) (st : Paris.pstate) : Prop :=
  pinv n st /\ hok n (p_rows st) /\ hgt_ok n (p_rows st) (p_hgt st).

Lemma hinv_init R n G wout win : hinv n (paris_init (ag_init R n G wout win)).
Proof.
  split; [apply pinv_init|]. split; intros t r Hr; destruct t; discriminate.
Qed.

Lemma hinv_step R n st st' : hinv n st -> step_kind R true st st' -> hinv n st'.
Proof.
  intros (Hp & Hok & Hh) Hs. assert (Hp' := pinv_step R true n st st' Hp Hs). split; [exact Hp'|]. clear Hp'.
  destruct Hs as [Hag Hrows Hcomps Hhgt | node s Hs Hnx Hsz Hrows Hcomps Hhgt
                  | node nn h0 s1 s2 Hs1 Hs2 Hm Hrows Hcomps Hhgt].
  - rewrite Hrows, Hhgt. split; assumption.
  - rewrite Hrows, Hhgt. split; assumption.
  - rewrite Hrows, Hhgt.
    set (h := qmaxq h0 (qmaxq (getq (p_hgt st) node) (getq (p_hgt st) nn))).
    pose proof (pinv_size_lt n st node s1 Hp Hs1) as Hnode. pose proof (pinv_size_lt n st nn s2 Hp Hs2) as Hnn.
    pose proof (pi_next n st Hp) as Hnext.
    split.
    + apply hok_snoc; [exact Hok | |].
      * apply (clamp_child n _ (p_hgt st)); [exact Hh | exact Hnode |].
        exact (Qle_trans _ _ _ (qmaxq_l _ _) (qmaxq_r h0 _)).
      * apply (clamp_child n _ (p_hgt st)); [exact Hh | exact Hnn |].
        exact (Qle_trans _ _ _ (qmaxq_r _ _) (qmaxq_r h0 _)).
    + intros k r Hk. apply nth_error_snoc in Hk. destruct Hk as [[Hk Hr]|[-> ->]]; simpl.
      * destruct (Nat.eqb (n + k) (ag_next (p_ag st))) eqn:E; [apply Nat.eqb_eq in E; lia|]. exact (Hh k r Hr).
      * rewrite Hnext, Nat.eqb_refl. reflexivity.
Qed.

Lemma join_hok n hinf : forall cs done node csz,
  hok n done -> child_height_ok n done hinf node = true ->
  (forall x, In x (akeys cs) -> child_height_ok n done hinf x = true) ->
  hok n (done ++ join_comps hinf node csz (n + length done) cs).
Proof.
  induction cs as [|[nx ns] rest IH]; intros done node csz Hok Hcn Hcs; simpl.
  - now rewrite app_nil_r.
  - set (r := (node, nx, hinf, csz + ns) : drow).
    assert (Hok' : hok n (done ++ [r])) by (apply hok_snoc; [exact Hok | exact Hcn | apply Hcs; now left]).
    specialize (IH (done ++ [r]) (n + length done) (csz + ns) Hok').
    rewrite last_length, Nat.add_succ_r, <- app_assoc in IH. apply IH.
    + apply cho_intro; [rewrite last_length; lia|]. rewrite add_sub_l, nth_error_app_length.
      intros r0 E _. injection E as <-. apply Qle_refl.
    + intros x Hx. apply child_height_ok_app, Hcs. now right.
Qed.

(** The rows of a finished run with [hok], joined at a height that bounds them all. *)
Lemma finish_hmono n hinf st D :
  pinv n st -> ag_size (p_ag st) = [] -> hok n (p_rows st) -> paris_finish hinf st = Ok D ->
  (forall r, In r D -> Qle (r_height r) hinf) -> hmono n D = true.
Proof.
  intros [Hnext [_ _ _ (_ & Hkeys & _) _] _] Hsz Hok Hfin Hle.
  destruct (paris_finish_inv _ _ _ Hfin) as (node & cs & tl & Ec & ED).
  rewrite Hsz in Hkeys. simpl in Hkeys. rewrite Ec in Hkeys.
  assert (Hroot : forall x, In x (akeys (rev tl ++ [(node, cs)])) -> child_height_ok n (p_rows st) hinf x = true).
  { intros x Hx. apply cho_intro; [now apply Hkeys|]. intros r Hr _. apply nth_error_In in Hr. apply Hle. rewrite ED. apply in_app_iff. now left. }
  apply hok_hmono. rewrite ED, Hnext. apply join_hok; [exact Hok | |]; intros; apply Hroot; rewrite akeys_app, in_app_iff.
  - right. now left.
  - now left.
Qed.

Theorem paris_clamped_hmono : forall R hinf n G wout win D m t,
  paris_core R true hinf n G wout win = Some (Ok (D, m, t)) ->
  (forall r, In r D -> Qle (r_height r) hinf) -> hmono n D = true.
Proof.
  intros R hinf n G wout win D m t H Hle.
  destruct (paris_core_inv _ _ _ _ _ _ _ _ _ _ H) as (st & Hrun & Hfin).
  destruct (paris_run_ind R true (hinv n) (hinv_step R n) _ _ _ (hinv_init R n G wout win) Hrun)
    as [(Hp & Hok & Hh) Hsz].
  exact (finish_hmono n hinf st D Hp Hsz Hok Hfin Hle).
Qed.

(** What [clamp = true] makes of the rows of a run with [clamp = false]: every height is raised to the heights of the
    rows that created the two children ([next]: id of the cluster the first row creates, [hgt]: heights of the
    clusters created before). *)
Fixpoint clamp_rows (next : nat) (hgt : list (nat * Q)) (D : dendrogram) : dendrogram :=
  match D with
  | [] => []
  | r :: D' =>
      let h := qmaxq (r_height r) (qmaxq (getq hgt (r_left r)) (getq hgt (r_right r))) in
      (r_left r, r_right r, h, r_size r) :: clamp_rows (S next) ((next, h) :: hgt) D'
  end.

(** Everything of a state that the heights do not touch. *)
Definition strip (st : Paris.pstate) := (p_ag st, p_chain st, p_comps st, p_nn st, p_margin st, p_ties st).

(** [sc], in a run with the clamp, and [su], in the run without it from the same graph ([n] nodes), are at the
    same point.  The rows are related through their continuations, so that a merge needs no lemma about
    [clamp_rows] on [_ ++ [_]]. *)
Definition clamp_sim (n : nat) (sc su : Paris.pstate) : Prop :=
  strip sc = strip su /\
  forall X, clamp_rows n [] (p_rows su ++ X) = p_rows sc ++ clamp_rows (ag_next (p_ag su)) (p_hgt sc) X.

Lemma step_clamp_sim R n sc su : clamp_sim n sc su ->
  match paris_step R true sc, paris_step R false su with
  | Running a, Running b | Finished a, Finished b => clamp_sim n a b
  | Failed e1, Failed e2 => e1 = e2
  | _, _ => False
  end.
Proof.
  destruct sc as [g ch rows1 comps nn hgt1 mar ti], su as [g2 ch2 rows2 comps2 nn2 hgt2 mar2 ti2].
  unfold clamp_sim, strip. cbn [p_ag p_chain p_rows p_comps p_nn p_hgt p_margin p_ties]. intros [E J].
  injection E as <- <- <- <- <- <-.
  unfold paris_step. cbn [p_ag p_chain p_rows p_comps p_nn p_hgt p_margin p_ties].
  destruct ch as [|node chain].
  - destruct (ag_size g) as [|[x s] rest]; (split; [reflexivity | exact J]).
  - destruct (alookup node (ag_nb g)) as [row|]; [|reflexivity].
    destruct (filter (fun c => negb (Nat.eqb c node)) (akeys row)) as [|c0 cs].
    + destruct (alookup node (ag_size g)) as [s|]; [|reflexivity]. split; [reflexivity | exact J].
    + destruct (nn_search nn (map (fun c => (c, similarity R g node c)) (c0 :: cs))) as [nn' mx].
      destruct chain as [|last chain']; [split; [reflexivity | exact J]|].
      destruct (Nat.eqb last nn'); [|split; [reflexivity | exact J]].
      destruct (alookup node (ag_size g)) as [s1|]; [|reflexivity].
      destruct (alookup nn' (ag_size g)) as [s2|]; [|reflexivity].
      destruct (ag_merge R g node nn') as [g'|e] eqn:Em; [|reflexivity].
      split; [reflexivity|]. cbn [p_ag p_rows p_hgt]. intros X.
      destruct (ag_merge_inv _ _ _ _ _ Em) as (ra & rb & t1 & t2 & _ & _ & _ & _ & _ & ->). cbn [mg ag_next].
      rewrite <- !app_assoc. exact (J (_ :: X)).
Qed.

Lemma run_clamp_sim R n fuel : forall sc su, clamp_sim n sc su ->
  match paris_run R true fuel sc, paris_run R false fuel su with
  | Some (Ok a), Some (Ok b) => clamp_sim n a b
  | Some (Err e1), Some (Err e2) => e1 = e2
  | None, None => True
  | _, _ => False
  end.
Proof.
  induction fuel as [|f IH]; intros sc su E; [exact I|].
  cbn [paris_run]. assert (H := step_clamp_sim R n sc su E).
  destruct (paris_step R true sc) as [a|a|e1], (paris_step R false su) as [b|b|e2]; try contradiction.
  - now apply IH.
  - exact H.
  - exact H.
Qed.

Lemma clamp_sim_init R n G wout win :
  clamp_sim n (paris_init (ag_init R n G wout win)) (paris_init (ag_init R n G wout win)).
Proof. split; reflexivity. Qed.

Lemma join_comps_height hinf : forall cs node csz next r, In r (join_comps hinf node csz next cs) -> r_height r = hinf.
Proof.
  induction cs as [|[nx ns] rest IH]; intros node csz next r H; [destruct H|].
  destruct H as [<-|H]; [reflexivity | exact (IH _ _ _ _ H)].
Qed.

(** On a connected graph (no row joins components at height [hinf]) the clamped run returns the clamped rows of
    the plain run. *)
Theorem paris_core_clamped R hinf n G wout win D m t :
  paris_core R false hinf n G wout win = Some (Ok (D, m, t)) ->
  forallb (fun r => negb (Qeq_bool (r_height r) hinf)) D = true ->
  paris_core R true hinf n G wout win = Some (Ok (clamp_rows n [] D, m, t)).
Proof.
  unfold paris_core. intros H Hh.
  assert (S := run_clamp_sim R n (paris_fuel n) _ _ (clamp_sim_init R n G wout win)).
  destruct (paris_run R false _ _) as [[su|e]|]; try discriminate.
  destruct (paris_run R true _ _) as [[sc|e]|]; try contradiction.
  destruct S as [E J]. injection E as Eg _ Ec _ Em Et.
  unfold paris_finish in *. rewrite Ec, Eg, Em, Et.
  destruct (rev (p_comps su)) as [|[node cs] tl]; [discriminate|].
  injection H as <- <- <-.
  destruct (join_comps hinf node cs (ag_next (p_ag su)) (removelast (p_comps su))) as [|r Jn] eqn:EJ.
  - rewrite (J []). reflexivity.
  - exfalso. rewrite forallb_forall in Hh. specialize (Hh r). rewrite in_app_iff in Hh.
    rewrite (join_comps_height hinf _ _ _ _ r) in Hh by (rewrite EJ; now left).
    rewrite (proj2 (Qeq_bool_iff hinf hinf) (Qeq_refl _)) in Hh. discriminate Hh. right. now left.
Qed.

(** The model depends on the rounding only through the values it returns. *)
Section RoundingExt.
Context (R R' : rounding) (E32 : forall q, r32 R q = r32 R' q) (E64 : forall q, r64 R q = r64 R' q).

Lemma probs_ext degree n G tr : probs R degree n G tr = probs R' degree n G tr.
Proof. unfold probs. apply map_ext. intros i. destruct degree; apply E64. Qed.

Lemma ag_init_ext n G wout win : ag_init R n G wout win = ag_init R' n G wout win.
Proof.
  unfold ag_init. cbv zeta. f_equal. apply map_ext. intros i. f_equal. apply map_ext. intros e.
  now rewrite E32, E64.
Qed.

Lemma similarity_ext g x y : similarity R g x y = similarity R' g x y.
Proof. unfold similarity. cbv zeta. now rewrite !E32, !E64. Qed.

Lemma row_union_ext a b ra rb : row_union R a b ra rb = row_union R' a b ra rb.
Proof.
  unfold row_union. cbv zeta. f_equal. apply map_ext. intros p. destruct (alookup _ _); [now rewrite E64 | reflexivity].
Qed.

Lemma row_replace_ext a b new rc : row_replace R a b new rc = row_replace R' a b new rc.
Proof. unfold row_replace. destruct (alookup a rc), (alookup b rc); now rewrite ?E64. Qed.

Lemma self_weight_ext a b ra rb : self_weight R a b ra rb = self_weight R' a b ra rb.
Proof.
  unfold self_weight. cbv zeta.
  destruct (alookup a ra), (alookup b ra), (alookup a rb), (alookup b rb); now rewrite ?E64.
Qed.

Lemma ag_merge_ext g x y : ag_merge R g x y = ag_merge R' g x y.
Proof.
  unfold ag_merge. destruct (alookup x (ag_nb g)) as [ra|], (alookup y (ag_nb g)) as [rb|]; try reflexivity.
  destruct (alookup x (ag_size g)), (alookup y (ag_size g)); try reflexivity.
  destruct (Nat.eqb x y); [reflexivity|]. cbv zeta. rewrite self_weight_ext, row_union_ext, !E64.
  do 2 f_equal. f_equal. apply map_ext. intros p. now rewrite row_replace_ext.
Qed.

Lemma paris_step_ext clamp st : paris_step R clamp st = paris_step R' clamp st.
Proof.
  unfold paris_step. cbv zeta. destruct (p_chain st) as [|node chain]; [reflexivity|].
  destruct (alookup node (ag_nb (p_ag st))) as [row|]; [|reflexivity].
  destruct (filter _ (akeys row)) as [|c0 cs]; [reflexivity|].
  rewrite (map_ext _ _ (fun c => f_equal (pair c) (similarity_ext (p_ag st) node c))).
  destruct (nn_search _ _) as [nn mx]. destruct chain as [|last chain']; [reflexivity|].
  destruct (Nat.eqb last nn); [|reflexivity]. rewrite ag_merge_ext. destruct mx; now rewrite ?E64.
Qed.

Lemma paris_run_ext clamp fuel : forall st, paris_run R clamp fuel st = paris_run R' clamp fuel st.
Proof.
  induction fuel as [|f IH]; intros st; [reflexivity|]. cbn [paris_run]. rewrite paris_step_ext.
  destruct (paris_step R' clamp st); [apply IH | reflexivity | reflexivity].
Qed.

Theorem paris_fit_gen_ext clamp hinf degree reorder n G :
  paris_fit_gen R clamp hinf degree reorder n G = paris_fit_gen R' clamp hinf degree reorder n G.
Proof.
  unfold paris_fit_gen, paris_adjacency, paris_core. cbv zeta. now rewrite !probs_ext, ag_init_ext, paris_run_ext.
Qed.
End RoundingExt.

(** Non-vacuity: the path graph 0-1-2-3 (one component), and two disjoint edges (components joined). *)
Definition ex_path : entries := [(0, 1, 1%Q); (1, 0, 1%Q); (1, 2, 1%Q); (2, 1, 1%Q); (2, 3, 1%Q); (3, 2, 1%Q)].
Definition ex_path_w : list Q := [(1 # 6)%Q; (2 # 6)%Q; (2 # 6)%Q; (1 # 6)%Q].

Example paris_example :
  match paris_core exact false (1000 # 1)%Q 4 ex_path ex_path_w ex_path_w with
  | Some (Ok (D, _, _)) => valid 4 D
  | _ => false
  end = true.
Proof. vm_compute. reflexivity. Qed.

Definition ex_two : entries := [(0, 1, 1%Q); (1, 0, 1%Q); (2, 3, 1%Q); (3, 2, 1%Q)].
Definition ex_two_w : list Q := [(1 # 4)%Q; (1 # 4)%Q; (1 # 4)%Q; (1 # 4)%Q].

Example paris_example_components :
  match paris_core exact true (1000 # 1)%Q 4 ex_two ex_two_w ex_two_w with
  | Some (Ok (D, _, _)) => valid 4 D && hmono 4 D && Nat.eqb (length D) 3
  | _ => false
  end = true.
Proof. vm_compute. reflexivity. Qed.

Definition nbw (g : agraph) (x y : nat) : option Q :=
  match alookup x (ag_nb g) with Some r => alookup y r | None => None end.

(** Leibniz equality of the stored weights. *)
Definition nb_symmetric (g : agraph) : Prop := forall x y, nbw g x y = nbw g y x.

(** The dict of dicts is well formed: no key twice (outer and inner), every key (outer and inner) below [ag_next]. *)
Record nb_wf (g : agraph) : Prop := {
  nw_nd : NoDup (akeys (ag_nb g));
  nw_rows : forall x r, In (x, r) (ag_nb g) -> NoDup (akeys r);
  nw_lt : forall x, In x (akeys (ag_nb g)) -> x < ag_next g;
  nw_rlt : forall x r y, In (x, r) (ag_nb g) -> In y (akeys r) -> y < ag_next g }.

Lemma getq_fresh (l : list (nat * Q)) a b new v :
  ~ In new (akeys l) -> getq (aremove b (aremove a l) ++ [(new, v)]) new = v.
Proof.
  intros Hn. unfold getq. rewrite alookup_app.
  assert (E : alookup new (aremove b (aremove a l)) = None).
  { apply alookup_None. intros Hc. apply Hn. apply akeys_aremove_In in Hc. now apply akeys_aremove_In in Hc. }
  rewrite E. simpl. now rewrite Nat.eqb_refl.
Qed.

Theorem merge_bookkeeping : forall R g a b g' sa sb,
  ag_merge R g a b = Ok g' -> alookup a (ag_size g) = Some sa -> alookup b (ag_size g) = Some sb ->
  a <> b /\ ag_next g' = S (ag_next g) /\
  ag_size g' = aremove b (aremove a (ag_size g)) ++ [(ag_next g, sa + sb)] /\
  (~ In (ag_next g) (akeys (ag_wout g)) ->
   getq (ag_wout g') (ag_next g) = r64 R (getq (ag_wout g) a + getq (ag_wout g) b)) /\
  (~ In (ag_next g) (akeys (ag_win g)) ->
   getq (ag_win g') (ag_next g) = r64 R (getq (ag_win g) a + getq (ag_win g) b)).
Proof.
  intros R g a b g' sa sb Hm Ha Hb.
  destruct (ag_merge_inv _ _ _ _ _ Hm) as (ra & rb & s1 & s2 & _ & _ & E1 & E2 & Hne & Eg).
  rewrite Ha in E1. rewrite Hb in E2. inversion E1; inversion E2; subst s1 s2. subst g'. cbn [mg ag_next ag_size ag_wout ag_win].
  split; [exact Hne|]. split; [reflexivity|]. split; [reflexivity|]. split; intros Hn; apply getq_fresh; exact Hn.
Qed.

Definition in2 (a b y : nat) : bool := Nat.eqb y a || Nat.eqb y b.

Lemma in2_false a b x : in2 a b x = false <-> x <> a /\ x <> b.
Proof. unfold in2. rewrite orb_false_iff, !Nat.eqb_neq. tauto. Qed.

Lemma alookup_filter_key {A} (f : nat -> bool) (l : list (nat * A)) y :
  alookup y (filter (fun p => f (fst p)) l) = if f y then alookup y l else None.
Proof.
  induction l as [|[k v] t IH]; simpl; [now destruct (f y)|].
  destruct (f k) eqn:Ek; simpl.
  - destruct (Nat.eqb y k) eqn:E; [apply Nat.eqb_eq in E; subst; now rewrite Ek | exact IH].
  - destruct (Nat.eqb y k) eqn:E; [apply Nat.eqb_eq in E; subst; rewrite Ek in *; exact IH | exact IH].
Qed.

Lemma alookup_filter_not2 {A} a b (l : list (nat * A)) y :
  alookup y (filter (fun p => negb (Nat.eqb (fst p) a) && negb (Nat.eqb (fst p) b)) l) =
  if in2 a b y then None else alookup y l.
Proof.
  rewrite (alookup_filter_key (fun k => negb (Nat.eqb k a) && negb (Nat.eqb k b))). unfold in2.
  destruct (Nat.eqb y a), (Nat.eqb y b); reflexivity.
Qed.

Lemma alookup_map_snd {A B} (f : A -> B) y (l : list (nat * A)) :
  alookup y (map (fun p => (fst p, f (snd p))) l) = option_map f (alookup y l).
Proof.
  induction l as [|[k v] t IH]; simpl; [reflexivity|].
  destruct (Nat.eqb y k); [reflexivity | exact IH].
Qed.

Lemma akeys_map_fst {A B} (f : nat * A -> nat * B) (l : list (nat * A)) :
  (forall p, fst (f p) = fst p) -> akeys (map f l) = akeys l.
Proof. intros H. unfold akeys. rewrite map_map. apply map_ext. exact H. Qed.

Lemma In_akeys_filter {A} (P : nat * A -> bool) (l : list (nat * A)) x : In x (akeys (filter P l)) -> In x (akeys l).
Proof.
  unfold akeys. intros H. apply in_map_iff in H. destruct H as [p [E Hp]]. apply filter_In in Hp.
  apply in_map_iff. exists p. tauto.
Qed.

Lemma NoDup_akeys_filter {A} (P : nat * A -> bool) (l : list (nat * A)) : NoDup (akeys l) -> NoDup (akeys (filter P l)).
Proof.
  induction l as [|p t IH]; simpl; intros H; [constructor|]. inversion H as [|? ? Hn Hnd]; subst.
  destruct (P p); [|now apply IH]. simpl. constructor; [|now apply IH].
  intros Hc. apply Hn. exact (In_akeys_filter P t _ Hc).
Qed.

Definition ocomb (R : rounding) (o1 o2 : option Q) : option Q :=
  match o1, o2 with
  | Some x, Some y => Some (r64 R (x + y))
  | Some x, None => Some x
  | None, Some y => Some y
  | None, None => None
  end.

Lemma row_replace_eq R a b new rc : row_replace R a b new rc =
  match ocomb R (alookup a rc) (alookup b rc) with Some v => filter (not2 a b) rc ++ [(new, v)] | None => rc end.
Proof. unfold row_replace. now destruct (alookup a rc), (alookup b rc). Qed.

Lemma alookup_row_replace R a b new rc y : a <> new -> b <> new -> alookup new rc = None ->
  alookup y (row_replace R a b new rc) =
  if Nat.eqb y new then ocomb R (alookup a rc) (alookup b rc) else if in2 a b y then None else alookup y rc.
Proof.
  intros Ha Hb Hn. rewrite row_replace_eq.
  assert (Hnew : in2 a b new = false) by (apply in2_false; split; congruence).
  destruct (ocomb R (alookup a rc) (alookup b rc)) eqn:Ev.
  - unfold not2. rewrite alookup_app, alookup_filter_not2. cbn [alookup].
    destruct (Nat.eqb y new) eqn:Ey; [apply Nat.eqb_eq in Ey; subst y; now rewrite Hnew, Hn|].
    destruct (in2 a b y); [reflexivity | now destruct (alookup y rc)].
  - destruct (alookup a rc) eqn:Ea, (alookup b rc) eqn:Eb; try discriminate Ev.
    destruct (Nat.eqb y new) eqn:Ey; [apply Nat.eqb_eq in Ey; subst y; exact Hn|]. unfold in2.
    destruct (Nat.eqb y a) eqn:E1; [apply Nat.eqb_eq in E1; subst y; exact Ea|].
    destruct (Nat.eqb y b) eqn:E2; [apply Nat.eqb_eq in E2; subst y; exact Eb | reflexivity].
Qed.

Lemma alookup_map_merge R (rb' l : nrow) y :
  alookup y (map (fun p => match alookup (fst p) rb' with
                           | Some w => (fst p, r64 R (snd p + w))
                           | None => p
                           end) l) =
  match alookup y l with
  | Some p => Some (match alookup y rb' with Some w => r64 R (p + w) | None => p end)
  | None => None
  end.
Proof.
  induction l as [|[k v] t IH]; [reflexivity|]. cbn [map fst snd alookup].
  destruct (alookup k rb') as [w|] eqn:E; cbn [alookup]; destruct (Nat.eqb y k) eqn:Ey; try exact IH;
    apply Nat.eqb_eq in Ey; subst y; now rewrite E.
Qed.

Lemma alookup_row_union R a b ra rb y :
  alookup y (row_union R a b ra rb) = if in2 a b y then None else ocomb R (alookup y ra) (alookup y rb).
Proof.
  unfold row_union. cbv zeta. rewrite alookup_app, alookup_map_merge.
  rewrite (alookup_filter_key (fun k => negb (amem k (filter (not2 a b) ra)))).
  unfold amem, not2. rewrite !alookup_filter_not2.
  destruct (in2 a b y); [reflexivity|]. destruct (alookup y ra), (alookup y rb); reflexivity.
Qed.

Lemma row_replace_keys R a b new rc y :
  In y (akeys (row_replace R a b new rc)) -> In y (akeys rc) \/ y = new.
Proof.
  rewrite row_replace_eq. destruct (ocomb R (alookup a rc) (alookup b rc)); [|now left].
  rewrite akeys_app, in_app_iff. intros [H|[H|[]]]; [left; exact (In_akeys_filter _ _ _ H) | now right].
Qed.

Lemma row_replace_NoDup R a b new rc :
  NoDup (akeys rc) -> ~ In new (akeys rc) -> NoDup (akeys (row_replace R a b new rc)).
Proof.
  intros Hnd Hn. rewrite row_replace_eq. destruct (ocomb R (alookup a rc) (alookup b rc)); [|exact Hnd].
  apply NoDup_akeys_app_fresh; [now apply NoDup_akeys_filter|]. intros Hc. exact (Hn (In_akeys_filter _ _ _ Hc)).
Qed.

Lemma row_union_keys R a b ra rb y :
  In y (akeys (row_union R a b ra rb)) -> In y (akeys ra) \/ In y (akeys rb).
Proof.
  unfold row_union. rewrite akeys_app, in_app_iff. intros [H|H].
  - left. rewrite akeys_map_fst in H.
    + exact (In_akeys_filter _ _ _ H).
    + intros [k v]. simpl. destruct (alookup k (filter (not2 a b) rb)); reflexivity.
  - right. apply In_akeys_filter in H. exact (In_akeys_filter _ _ _ H).
Qed.

Lemma row_union_NoDup R a b ra rb :
  NoDup (akeys ra) -> NoDup (akeys rb) -> NoDup (akeys (row_union R a b ra rb)).
Proof.
  intros Ha Hb. unfold row_union. set (ra' := filter (not2 a b) ra). set (rb' := filter (not2 a b) rb).
  rewrite akeys_app, akeys_map_fst by (intros [k v]; simpl; destruct (alookup k rb'); reflexivity).
  apply NoDup_app_disj.
  - now apply NoDup_akeys_filter.
  - apply NoDup_akeys_filter. now apply NoDup_akeys_filter.
  - intros x Hx Hc. unfold akeys in Hc. apply in_map_iff in Hc. destruct Hc as [p [E Hp]].
    apply filter_In in Hp. destruct Hp as [_ Hp]. rewrite E in Hp. unfold amem in Hp.
    destruct (alookup x ra') eqn:El; [discriminate|]. apply alookup_None in El. exact (El Hx).
Qed.

Lemma alookup_nb_mg R g a b ra rb s1 s2 x : alookup (ag_next g) (ag_nb g) = None ->
  alookup x (ag_nb (mg R g a b ra rb s1 s2)) =
  if Nat.eqb x (ag_next g) then Some ((ag_next g, self_weight R a b ra rb) :: row_union R a b ra rb)
  else if in2 a b x then None else option_map (row_replace R a b (ag_next g)) (alookup x (ag_nb g)).
Proof.
  intros Hn. unfold mg. cbn [ag_nb]. rewrite alookup_app, alookup_map_snd, alookup_filter_not2. cbn [alookup].
  destruct (Nat.eqb x (ag_next g)) eqn:En.
  - apply Nat.eqb_eq in En. subst x. rewrite Hn. now destruct (in2 a b (ag_next g)).
  - destruct (in2 a b x); [reflexivity|]. now destruct (alookup x (ag_nb g)).
Qed.

Definition nbw_merged (R : rounding) (g : agraph) (a b : nat) (ra rb : nrow) (x y : nat) : option Q :=
  if Nat.eqb x (ag_next g) then
    (if Nat.eqb y (ag_next g) then Some (self_weight R a b ra rb)
     else if in2 a b y then None else ocomb R (nbw g a y) (nbw g b y))
  else if in2 a b x then None
  else if Nat.eqb y (ag_next g) then ocomb R (nbw g x a) (nbw g x b)
  else if in2 a b y then None
  else nbw g x y.

Lemma nbw_mg R g a b ra rb s1 s2 x y :
  alookup a (ag_nb g) = Some ra -> alookup b (ag_nb g) = Some rb ->
  alookup (ag_next g) (ag_nb g) = None -> (forall z, nbw g z (ag_next g) = None) ->
  nbw (mg R g a b ra rb s1 s2) x y = nbw_merged R g a b ra rb x y.
Proof.
  intros Ea Eb Hn Hrn. unfold nbw_merged, nbw at 1. rewrite alookup_nb_mg by exact Hn.
  destruct (Nat.eqb x (ag_next g)).
  - cbn [alookup]. destruct (Nat.eqb y (ag_next g)); [reflexivity|].
    rewrite alookup_row_union. unfold nbw. now rewrite Ea, Eb.
  - destruct (in2 a b x); [reflexivity|]. specialize (Hrn x). unfold nbw in *.
    destruct (alookup x (ag_nb g)) as [rc|]; cbn [option_map].
    + apply alookup_row_replace; [intros ->|intros ->|exact Hrn]; congruence.
    + destruct (Nat.eqb y (ag_next g)); [reflexivity|]. now destruct (in2 a b y).
Qed.

Lemma nbw_merged_sym R g a b ra rb : nb_symmetric g -> forall x y,
  nbw_merged R g a b ra rb x y = nbw_merged R g a b ra rb y x.
Proof.
  intros Hsym x y. unfold nbw_merged.
  destruct (Nat.eqb x (ag_next g)), (Nat.eqb y (ag_next g)), (in2 a b x), (in2 a b y);
    try reflexivity; try (f_equal; apply Hsym). apply Hsym.
Qed.

Theorem merge_symmetric : forall R g a b g',
  nb_wf g -> nb_symmetric g -> ag_merge R g a b = Ok g' -> nb_wf g' /\ nb_symmetric g'.
Proof.
  intros R g a b g' [Hnd Hrows Hlt Hrlt] Hsym Hm.
  destruct (ag_merge_inv _ _ _ _ _ Hm) as (ra & rb & s1 & s2 & Ha & Hb & _ & _ & Hne & ->).
  assert (Hfresh : ~ In (ag_next g) (akeys (ag_nb g))) by (intros Hc; apply Hlt in Hc; lia).
  assert (Hrfresh : forall x rc, In (x, rc) (ag_nb g) -> ~ In (ag_next g) (akeys rc)).
  { intros x rc Hin Hc. apply (Hrlt _ _ _ Hin) in Hc. lia. }
  assert (Hain := alookup_In _ _ _ Ha). assert (Hbin := alookup_In _ _ _ Hb).
  split.
  - unfold mg. split; cbn [ag_nb ag_next].
    + rewrite akeys_app. rewrite akeys_map_fst by reflexivity. simpl. apply NoDup_snoc.
      * now apply NoDup_akeys_filter.
      * intros Hc. apply Hfresh. exact (In_akeys_filter _ _ _ Hc).
    + intros x r Hin. apply in_app_iff in Hin. destruct Hin as [Hin|[Hin|[]]].
      * apply in_map_iff in Hin. destruct Hin as [[k rc] [E Hp]]. simpl in E. inversion E; subst x r.
        apply filter_In in Hp. destruct Hp as [Hp _].
        apply row_replace_NoDup; [exact (Hrows _ _ Hp) | exact (Hrfresh _ _ Hp)].
      * inversion Hin; subst x r. simpl. constructor.
        -- intros Hc. apply row_union_keys in Hc. destruct Hc as [Hc|Hc]; [exact (Hrfresh _ _ Hain Hc) | exact (Hrfresh _ _ Hbin Hc)].
        -- apply row_union_NoDup; [exact (Hrows _ _ Hain) | exact (Hrows _ _ Hbin)].
    + intros x Hx. rewrite akeys_app, akeys_map_fst in Hx by reflexivity. apply in_app_iff in Hx.
      destruct Hx as [Hx|[Hx|[]]].
      * apply In_akeys_filter in Hx. apply Hlt in Hx. lia.
      * subst x. simpl. lia.
    + intros x r y Hin Hy. apply in_app_iff in Hin. destruct Hin as [Hin|[Hin|[]]].
      * apply in_map_iff in Hin. destruct Hin as [[k rc] [E Hp]]. simpl in E. inversion E; subst x r.
        apply filter_In in Hp. destruct Hp as [Hp _]. apply row_replace_keys in Hy. destruct Hy as [Hy|Hy].
        -- apply (Hrlt _ _ _ Hp) in Hy. lia.
        -- subst y. lia.
      * inversion Hin; subst x r. simpl in Hy. destruct Hy as [Hy|Hy]; [subst y; lia|].
        apply row_union_keys in Hy. destruct Hy as [Hy|Hy].
        -- apply (Hrlt _ _ _ Hain) in Hy. lia.
        -- apply (Hrlt _ _ _ Hbin) in Hy. lia.
  - assert (Hn : alookup (ag_next g) (ag_nb g) = None) by (apply alookup_None; exact Hfresh).
    assert (Hrn : forall z, nbw g z (ag_next g) = None).
    { intros z. unfold nbw. destruct (alookup z (ag_nb g)) as [rc|] eqn:Ez; [|reflexivity].
      apply alookup_None. exact (Hrfresh _ _ (alookup_In _ _ _ Ez)). }
    intros x y. rewrite !(nbw_mg R g a b ra rb s1 s2 _ _ Ha Hb Hn Hrn). now apply nbw_merged_sym.
Qed.

Lemma alookup_map_keyed_in {A} (F : nat -> A) l x : In x l -> alookup x (map (fun i => (i, F i)) l) = Some (F x).
Proof.
  induction l as [|k t IH]; simpl; [tauto|]. intros H. destruct (Nat.eqb x k) eqn:E.
  - apply Nat.eqb_eq in E. now subst.
  - apply Nat.eqb_neq in E. destruct H as [H|H]; [congruence | now apply IH].
Qed.

Lemma alookup_map_keyed_out {A} (F : nat -> A) l x : ~ In x l -> alookup x (map (fun i => (i, F i)) l) = None.
Proof. intros H. apply alookup_None. now rewrite akeys_map_const. Qed.

Lemma NoDup_row_keys (G : entries) x :
  NoDup (map (fun e => (e_i e, e_j e)) G) -> NoDup (map e_j (filter (fun e => Nat.eqb (e_i e) x) G)).
Proof.
  induction G as [|e t IH]; simpl; intros H; [constructor|]. inversion H as [|? ? Hn Hnd]; subst.
  destruct (Nat.eqb (e_i e) x) eqn:E; [|now apply IH]. simpl. constructor; [|now apply IH].
  intros Hc. apply Hn. apply in_map_iff in Hc. destruct Hc as [e' [Ej Hf]]. apply filter_In in Hf.
  destruct Hf as [Hin Ei]. apply Nat.eqb_eq in E, Ei. apply in_map_iff. exists e'. split; [|exact Hin]. congruence.
Qed.

Lemma nbw_init_in R n G wout win x y v :
  nbw (ag_init R n G wout win) x y = Some v -> exists w, In (x, y, w) G /\ v = r64 R (w / r32 R (total G)).
Proof.
  unfold nbw. cbn [ag_init ag_nb]. intros H.
  destruct (alookup x _) as [r|] eqn:Ex in H; [|discriminate].
  apply alookup_In, in_map_iff in Ex. destruct Ex as [i [E _]]. inversion E; subst i r.
  apply alookup_In, in_map_iff in H. destruct H as [[[i j] w] [E' Hf]].
  apply filter_In in Hf. destruct Hf as [Hin Ei]. apply Nat.eqb_eq in Ei. cbn in E', Ei. inversion E'; subst.
  now exists w.
Qed.

Lemma nbw_init_some R n G wout win x y w :
  NoDup (map (fun e => (e_i e, e_j e)) G) -> x < n -> In (x, y, w) G ->
  nbw (ag_init R n G wout win) x y = Some (r64 R (w / r32 R (total G))).
Proof.
  intros Hnd Hx Hin. unfold nbw. cbn [ag_init ag_nb].
  rewrite alookup_map_keyed_in by (apply in_seq; lia). apply In_alookup.
  - unfold akeys. rewrite map_map. now apply NoDup_row_keys.
  - apply in_map_iff. exists (x, y, w). split; [reflexivity|]. apply filter_In. split; [exact Hin|]. apply Nat.eqb_refl.
Qed.

Theorem init_symmetric : forall R n G wout win,
  NoDup (map (fun e => (e_i e, e_j e)) G) -> (forall i j w, In (i, j, w) G -> In (j, i, w) G /\ i < n /\ j < n) ->
  nb_wf (ag_init R n G wout win) /\ nb_symmetric (ag_init R n G wout win).
Proof.
  intros R n G wout win Hnd HG. split.
  - split; cbn [ag_next ag_nb ag_init].
    + rewrite akeys_map_const. apply seq_NoDup.
    + intros x r Hin. apply in_map_iff in Hin. destruct Hin as [i [E _]]. inversion E; subst.
      unfold akeys. rewrite map_map. now apply NoDup_row_keys.
    + intros x Hx. rewrite akeys_map_const in Hx. apply in_seq in Hx. lia.
    + intros x r y Hin Hy. apply in_map_iff in Hin. destruct Hin as [i [E _]]. inversion E; subst.
      unfold akeys in Hy. rewrite map_map in Hy. apply in_map_iff in Hy. destruct Hy as [[[i' j] w] [Ej Hf]].
      apply filter_In in Hf. destruct Hf as [Hin _]. cbn in Ej. subst j. destruct (HG _ _ _ Hin). lia.
  - intros x y. destruct (nbw (ag_init R n G wout win) x y) as [v|] eqn:E1.
    + destruct (nbw_init_in _ _ _ _ _ _ _ _ E1) as [w [Hin ->]]. destruct (HG _ _ _ Hin) as (Hin' & _ & Hy).
      symmetry. now apply nbw_init_some.
    + destruct (nbw (ag_init R n G wout win) y x) as [v|] eqn:E2; [|reflexivity].
      destruct (nbw_init_in _ _ _ _ _ _ _ _ E2) as [w [Hin ->]]. destruct (HG _ _ _ Hin) as (Hin' & _ & Hx).
      rewrite (nbw_init_some R n G wout win x y w Hnd Hx Hin') in E1. discriminate.
Qed.

(** The neighbour maps stay well formed and symmetric along the whole run, for any rounding. *)
Theorem paris_run_symmetric : forall R clamp fuel n G wout win st,
  NoDup (map (fun e => (e_i e, e_j e)) G) -> (forall i j w, In (i, j, w) G -> In (j, i, w) G /\ i < n /\ j < n) ->
  paris_run R clamp fuel (paris_init (ag_init R n G wout win)) = Some (Ok st) ->
  nb_wf (p_ag st) /\ nb_symmetric (p_ag st).
Proof.
  intros R clamp fuel n G wout win st Hnd HG Hrun.
  refine (proj1 (paris_run_ind R clamp (fun s => nb_wf (p_ag s) /\ nb_symmetric (p_ag s)) _ fuel
                  (paris_init (ag_init R n G wout win)) st (init_symmetric R n G wout win Hnd HG) Hrun)).
  intros s s' [Hwf Hsym] [Hag _ _ _ | node sz _ Hnx _ _ _ _ Hnb | node nn h0 s1 s2 _ _ Hm _ _ _].
  - rewrite Hag. now split.
  - destruct Hwf as [H1 H2 H3 H4]. split.
    + split; rewrite ?Hnx, ?Hnb; assumption.
    + intros x y. unfold nbw. rewrite Hnb. exact (Hsym x y).
  - exact (merge_symmetric R _ _ _ _ Hwf Hsym Hm).
Qed.

Print Assumptions paris_rows_valid.
Print Assumptions paris_rows_sizes.
Print Assumptions paris_next_cluster.
Print Assumptions merge_bookkeeping.
Print Assumptions merge_symmetric.
Print Assumptions init_symmetric.
Print Assumptions paris_run_symmetric.
Print Assumptions paris_clamped_hmono.
Print Assumptions paris_example.
Print Assumptions paris_example_components.
