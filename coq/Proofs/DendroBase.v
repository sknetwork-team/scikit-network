(** Lists, association lists, leaf sets and what [valid] gives row by row: the base shared by the proofs about
    dendrograms (properties C07 and C08). *)
From SKN Require Import Base.Util Model.Dendrogram.
From Coq Require Import Permutation Lia.
Close Scope Q_scope.
Open Scope nat_scope.


Lemma NoDup_snoc2 {A} (l : list A) a b : NoDup l -> ~ In a l -> ~ In b l -> a <> b -> NoDup (l ++ [a; b]).
Proof.
  intros H Ha Hb Hab. change [a; b] with ([a] ++ [b]). rewrite app_assoc.
  apply NoDup_snoc; [now apply NoDup_snoc|]. rewrite in_app_iff. simpl. intuition.
Qed.

Lemma NoDup_app_remove_aux {A} (l1 l2 : list A) :
  NoDup (l1 ++ l2) -> NoDup l1 /\ NoDup l2 /\ (forall x, In x l1 -> ~ In x l2).
Proof.
  induction l1 as [|a l1 IH]; simpl; intros H.
  - split; [constructor|]. split; [assumption|tauto].
  - inversion H as [|? ? Hn Hnd]; subst. destruct (IH Hnd) as (H1 & H2 & H3). split; [|split].
    + constructor; [|assumption]. intros Hc. apply Hn. apply in_app_iff. now left.
    + assumption.
    + intros x [->|Hx]; [intros Hc; apply Hn; apply in_app_iff; now right | now apply H3].
Qed.

Lemma NoDup_app_disj {A} (l1 l2 : list A) :
  NoDup l1 -> NoDup l2 -> (forall x, In x l1 -> ~ In x l2) -> NoDup (l1 ++ l2).
Proof.
  induction l1 as [|a t IH]; simpl; intros H1 H2 HD; [exact H2|].
  inversion H1 as [|? ? Hnot H1']; subst. constructor.
  - rewrite in_app_iff. intros [Hin|Hin]; [exact (Hnot Hin) | exact (HD a (or_introl eq_refl) Hin)].
  - apply IH; [exact H1' | exact H2 |]. intros x Hx. apply HD. now right.
Qed.

Lemma fold_right_permutation_sum (l l' : list nat) :
  Permutation l l' -> fold_right Nat.add 0 l = fold_right Nat.add 0 l'.
Proof. induction 1; simpl; lia. Qed.

Lemma fold_right_add_acc (l : list nat) a : fold_right Nat.add a l = fold_right Nat.add 0 l + a.
Proof. induction l; simpl; lia. Qed.

Lemma nth_repeat_lt_aux (a : nat) n x : x < n -> nth x (repeat a n) 0 = a.
Proof. revert x. induction n as [|n IH]; intros x H; [lia|]. destruct x; simpl; [reflexivity | apply IH; lia]. Qed.

Lemma firstn_In_aux {A} (l : list A) k x : In x (firstn k l) -> In x l.
Proof. intros H. rewrite <- (firstn_skipn k l). apply in_or_app. now left. Qed.

Lemma nth_error_firstn_lt {A} (l : list A) k i : i < k -> nth_error (firstn k l) i = nth_error l i.
Proof.
  revert l i. induction k as [|k IH]; intros l i H; [lia|]. destruct l as [|a l]; [now destruct i|].
  destruct i as [|i]; [reflexivity|]. simpl. apply IH. lia.
Qed.

Lemma ltb_add_r n t : Nat.ltb (n + t) n = false.
Proof. apply Nat.ltb_ge, Nat.le_add_r. Qed.

Lemma add_sub_l n t : n + t - n = t.
Proof. lia. Qed.

Lemma nth_error_Some_lt {A} (l : list A) t x : nth_error l t = Some x -> t < length l.
Proof. intros H. apply nth_error_Some. congruence. Qed.

Lemma In_firstn_nth_error {A} (l : list A) k x : In x (firstn k l) -> exists i, i < k /\ nth_error l i = Some x.
Proof.
  intros H. apply In_nth_error in H. destruct H as [i Hi]. assert (Hlt := nth_error_Some_lt _ _ _ Hi).
  assert (Hk := firstn_le_length k l). exists i. split; [lia|]. now rewrite <- (nth_error_firstn_lt l k) by lia.
Qed.

Lemma flat_map_app {A B} (f : A -> list B) l1 l2 : flat_map f (l1 ++ l2) = flat_map f l1 ++ flat_map f l2.
Proof. induction l1; simpl; [reflexivity|]. now rewrite IHl1, app_assoc. Qed.

Lemma firstn_app_length {A} (l1 l2 : list A) : firstn (length l1) (l1 ++ l2) = l1.
Proof. induction l1; simpl; [now destruct l2 | now rewrite IHl1]. Qed.

Lemma nth_error_app_length {A} (l1 l2 : list A) x : nth_error (l1 ++ x :: l2) (length l1) = Some x.
Proof. induction l1; simpl; auto. Qed.

Lemma nth_error_snoc {A} (l : list A) x t y :
  nth_error (l ++ [x]) t = Some y -> (t < length l /\ nth_error l t = Some y) \/ (t = length l /\ y = x).
Proof.
  intros H. destruct (Nat.lt_ge_cases t (length l)) as [Hlt|Hge].
  - rewrite nth_error_app1 in H by assumption. now left.
  - assert (Ht := nth_error_Some_lt _ _ _ H). rewrite app_length in Ht. simpl in Ht.
    replace t with (length l) in * by lia. rewrite nth_error_app_length in H. inversion H. now right.
Qed.

Lemma In_combine_seq {A} (l : list A) i x : In (i, x) (combine (seq 0 (length l)) l) <-> nth_error l i = Some x.
Proof.
  (* by induction for any offset a: In (a + i, x) (combine (seq a (length l)) l) *)
  change i with (0 + i) at 1. generalize 0. revert i.
  induction l as [|y l IH]; intros [|i] a; simpl; try (split; [tauto | discriminate]).
  - rewrite Nat.add_0_r. split; [|intros E; left; now inversion E].
    intros [E|H]; [now inversion E | apply in_combine_l, in_seq in H; lia].
  - rewrite Nat.add_succ_r, <- (IH i (S a)). simpl. split; [|now right].
    intros [E|H]; [inversion E; lia | exact H].
Qed.

Section Alist.
Context {A : Type}.
Implicit Types l : list (nat * A).

Lemma alookup_In k l v : alookup k l = Some v -> In (k, v) l.
Proof.
  induction l as [|[k' v'] t IH]; simpl; [discriminate|].
  destruct (Nat.eqb k k') eqn:E.
  - intros H; inversion H; subst. apply Nat.eqb_eq in E. subst. now left.
  - intros H. right. now apply IH.
Qed.

Lemma alookup_key k l v : alookup k l = Some v -> In k (akeys l).
Proof. intros H. apply alookup_In in H. unfold akeys. apply in_map_iff. now exists (k, v). Qed.

Lemma alookup_None k l : alookup k l = None <-> ~ In k (akeys l).
Proof.
  induction l as [|[k' v'] t IH]; simpl; [tauto|].
  destruct (Nat.eqb k k') eqn:E.
  - apply Nat.eqb_eq in E. subst. split; [discriminate | intros H; exfalso; apply H; now left].
  - apply Nat.eqb_neq in E. rewrite IH. split; intros H; [intros [H1|H1]; [congruence|tauto] | tauto].
Qed.

Lemma In_alookup k v l : NoDup (akeys l) -> In (k, v) l -> alookup k l = Some v.
Proof.
  induction l as [|[k' v'] t IH]; simpl; [tauto|].
  intros Hnd [H|H].
  - inversion H; subst. now rewrite Nat.eqb_refl.
  - inversion Hnd as [|? ? Hn Hnd']; subst.
    destruct (Nat.eqb k k') eqn:E.
    + apply Nat.eqb_eq in E. subst. exfalso. apply Hn. unfold akeys. apply in_map_iff. now exists (k', v).
    + now apply IH.
Qed.

Lemma In_key_alookup k l : In k (akeys l) -> exists v, alookup k l = Some v.
Proof.
  intros H. destruct (alookup k l) eqn:E; [eauto|]. apply alookup_None in E. tauto.
Qed.

Lemma aremove_In x l k : In x (aremove k l) -> In x l.
Proof.
  induction l as [|[k' v'] t IH]; simpl; [tauto|].
  destruct (Nat.eqb k k'); [tauto|]. intros [H|H]; [now left | right; now apply IH].
Qed.

Lemma akeys_aremove_In x l k : In x (akeys (aremove k l)) -> In x (akeys l).
Proof.
  unfold akeys. intros H. apply in_map_iff in H. destruct H as [[a b] [H1 H2]].
  apply in_map_iff. exists (a, b). split; [exact H1|]. now apply aremove_In in H2.
Qed.

Lemma NoDup_aremove l k : NoDup (akeys l) -> NoDup (akeys (aremove k l)).
Proof.
  induction l as [|[k' v'] t IH]; simpl; [auto|].
  intros H. inversion H as [|? ? Hn Hnd]; subst.
  destruct (Nat.eqb k k'); [exact Hnd|]. simpl. constructor; [|now apply IH].
  intros Hc. apply Hn. now apply akeys_aremove_In in Hc.
Qed.

Lemma aremove_not_key l k : NoDup (akeys l) -> ~ In k (akeys (aremove k l)).
Proof.
  induction l as [|[k' v'] t IH]; simpl; [tauto|].
  intros H. inversion H as [|? ? Hn Hnd]; subst.
  destruct (Nat.eqb k k') eqn:E.
  - apply Nat.eqb_eq in E. now subst.
  - apply Nat.eqb_neq in E. simpl. intros [Hc|Hc]; [congruence|]. now apply IH.
Qed.

Lemma aremove_In_neq k' v l k : In (k', v) l -> k' <> k -> In (k', v) (aremove k l).
Proof.
  induction l as [|[k2 v2] t IH]; simpl; [tauto|].
  intros [H|H] Hne.
  - inversion H; subst. destruct (Nat.eqb k k') eqn:E; [apply Nat.eqb_eq in E; congruence | now left].
  - destruct (Nat.eqb k k2); [exact H | right; now apply IH].
Qed.

Lemma akeys_aremove_neq x l k : In x (akeys l) -> x <> k -> In x (akeys (aremove k l)).
Proof.
  unfold akeys. intros H Hne. apply in_map_iff in H. destruct H as [[a b] [H1 H2]]. simpl in H1. subst.
  apply in_map_iff. exists (x, b). split; [reflexivity|]. now apply aremove_In_neq.
Qed.

Lemma alookup_aremove_neq k k' l : k <> k' -> alookup k (aremove k' l) = alookup k l.
Proof.
  intros Hne. induction l as [|[k2 v2] t IH]; simpl; [reflexivity|].
  destruct (Nat.eqb k' k2) eqn:E.
  - apply Nat.eqb_eq in E. subst. destruct (Nat.eqb k k2) eqn:E2; [apply Nat.eqb_eq in E2; congruence | reflexivity].
  - simpl. now rewrite IH.
Qed.

Lemma alookup_aremove_eq k l : NoDup (akeys l) -> alookup k (aremove k l) = None.
Proof. intros H. apply alookup_None. now apply aremove_not_key. Qed.

Lemma alookup_app k l1 l2 :
  alookup k (l1 ++ l2) = match alookup k l1 with Some v => Some v | None => alookup k l2 end.
Proof.
  induction l1 as [|[k' v'] t IH]; simpl; [reflexivity|]. destruct (Nat.eqb k k'); [reflexivity | exact IH].
Qed.

Lemma akeys_app l1 l2 : akeys (l1 ++ l2) = akeys l1 ++ akeys l2.
Proof. unfold akeys. apply map_app. Qed.

Lemma aremove_app_l k l1 l2 v :
  alookup k l1 = Some v -> aremove k (l1 ++ l2) = aremove k l1 ++ l2.
Proof.
  induction l1 as [|[k' v'] t IH]; simpl; [discriminate|].
  destruct (Nat.eqb k k'); [reflexivity|]. intros H. simpl. now rewrite IH.
Qed.

Lemma aremove_perm k l v : alookup k l = Some v -> Permutation l ((k, v) :: aremove k l).
Proof.
  induction l as [|[k' v'] t IH]; simpl; [discriminate|].
  destruct (Nat.eqb k k') eqn:E.
  - intros H. inversion H; subst. apply Nat.eqb_eq in E. subst. reflexivity.
  - intros H. apply IH in H. rewrite perm_swap. now constructor.
Qed.

Lemma aremove_length k l v : alookup k l = Some v -> S (length (aremove k l)) = length l.
Proof. intros H. apply aremove_perm in H. apply Permutation_length in H. simpl in H. lia. Qed.

Lemma NoDup_akeys_app_fresh l k v : NoDup (akeys l) -> ~ In k (akeys l) -> NoDup (akeys (l ++ [(k, v)])).
Proof.
  intros H Hn. rewrite akeys_app. simpl. now apply NoDup_snoc.
Qed.
End Alist.

Definition ids_lt (n : nat) (D : dendrogram) : Prop :=
  forall t r, nth_error D t = Some r -> r_left r < n + t /\ r_right r < n + t.

Lemma leaves_f_indep n D : ids_lt n D ->
  forall k f1 f2, k < f1 -> k < f2 -> leaves_f f1 n D k = leaves_f f2 n D k.
Proof.
  intros Hids k. induction k as [k IH] using lt_wf_ind. intros f1 f2 H1 H2.
  destruct f1 as [|f1]; [lia|]. destruct f2 as [|f2]; [lia|]. simpl.
  destruct (Nat.ltb k n) eqn:E; [reflexivity|]. apply Nat.ltb_ge in E.
  destruct (nth_error D (k - n)) as [r|] eqn:Er; [|reflexivity].
  destruct (Hids _ _ Er) as [Hl Hr].
  rewrite (IH (r_left r)) with (f2 := f2) by lia.
  rewrite (IH (r_right r)) with (f2 := f2) by lia. reflexivity.
Qed.

Lemma leaves_leaf n D k : k < n -> leaves n D k = [k].
Proof. intros H. unfold leaves. simpl. apply Nat.ltb_lt in H. now rewrite H. Qed.

Lemma leaves_node n D t r : ids_lt n D -> nth_error D t = Some r ->
  leaves n D (n + t) = leaves n D (r_left r) ++ leaves n D (r_right r).
Proof.
  intros Hids Hr. unfold leaves at 1. simpl.
  rewrite ltb_add_r, add_sub_l, Hr.
  destruct (Hids _ _ Hr) as [Hl Hrr]. unfold leaves.
  rewrite (leaves_f_indep n D Hids (r_left r) (n + t) (S (r_left r))) by lia.
  rewrite (leaves_f_indep n D Hids (r_right r) (n + t) (S (r_right r))) by lia. reflexivity.
Qed.

Lemma ids_lt_app_l n D1 D2 : ids_lt n (D1 ++ D2) -> ids_lt n D1.
Proof.
  intros H t r Hr. apply (H t r). rewrite nth_error_app1; [exact Hr | now apply nth_error_Some_lt in Hr].
Qed.

Lemma ids_lt_snoc n R r : ids_lt n R -> r_left r < n + length R -> r_right r < n + length R -> ids_lt n (R ++ [r]).
Proof.
  intros H Hl Hr t r0 Hr0. apply nth_error_snoc in Hr0. destruct Hr0 as [[_ Hr0]|[-> ->]]; [now apply H | tauto].
Qed.

Lemma ids_ind n D (P : nat -> Prop) : ids_lt n D ->
  (forall c, c < n -> P c) ->
  (forall t r, nth_error D t = Some r -> P (r_left r) -> P (r_right r) -> P (n + t)) ->
  forall c, c < n + length D -> P c.
Proof.
  intros Hids Hleaf Hnode c. induction c as [c IH] using lt_wf_ind. intros Hc.
  destruct (Nat.lt_ge_cases c n) as [Hlt|Hge]; [now apply Hleaf|].
  destruct (nth_error D (c - n)) as [r|] eqn:Hr; [|apply nth_error_None in Hr; lia].
  destruct (Hids _ _ Hr) as [Hl Hrr]. replace c with (n + (c - n)) by lia.
  apply (Hnode _ _ Hr); apply IH; lia.
Qed.

Lemma cho_app n D1 D2 h c : c < n + length D1 ->
  child_height_ok n (D1 ++ D2) h c = child_height_ok n D1 h c.
Proof.
  intros H. unfold child_height_ok. destruct (Nat.ltb c n) eqn:E; [reflexivity|]. apply Nat.ltb_ge in E.
  rewrite nth_error_app1 by lia. reflexivity.
Qed.

Definition children (r : drow) : list nat := [r_left r; r_right r].

Lemma In_children_snoc R r x :
  In x (flat_map children (R ++ [r])) <-> In x (flat_map children R) \/ x = r_left r \/ x = r_right r.
Proof. rewrite flat_map_app, in_app_iff. simpl. intuition congruence. Qed.

Lemma children_length R : length (flat_map children R) = 2 * length R.
Proof. induction R as [|r R IH]; simpl; lia. Qed.

Lemma ids_lt_children_lt n R : ids_lt n R -> forall c, In c (flat_map children R) -> c < n + length R.
Proof.
  intros H c Hc. apply in_flat_map in Hc. destruct Hc as [r [Hr Hc]].
  apply In_nth_error in Hr. destruct Hr as [t Ht]. assert (Hlt := nth_error_Some_lt _ _ _ Ht).
  destruct (H _ _ Ht) as [H1 H2]. destruct Hc as [<-|[<-|[]]]; lia.
Qed.

Definition row_ok (k : nat) (D : dendrogram) (t : nat) (r : drow) : Prop :=
  r_left r <> r_right r /\ r_left r < k + t /\ r_right r < k + t /\
  ~ In (r_left r) (flat_map children (firstn t D)) /\ ~ In (r_right r) (flat_map children (firstn t D)).

Definition linv (k : nat) (done : dendrogram) (live : list (nat * nat)) : Prop :=
  NoDup (akeys live) /\
  (forall x, In x (akeys live) <-> x < k + length done /\ ~ In x (flat_map children done)) /\
  (forall c, In c (flat_map children done) -> c < k + length done).

Lemma akeys_aremove_iff {A} (l : list (nat * A)) k x :
  NoDup (akeys l) -> (In x (akeys (aremove k l)) <-> In x (akeys l) /\ x <> k).
Proof.
  intros H. split.
  - intros Hx. split; [now apply akeys_aremove_In in Hx|]. intros ->. now apply (aremove_not_key l k).
  - intros [H1 H2]. now apply akeys_aremove_neq.
Qed.

Lemma valid_run_step k done live r :
  linv k done live ->
  forall si sj, alookup (r_left r) live = Some si -> alookup (r_right r) live = Some sj ->
  r_left r <> r_right r ->
  forall s, linv k (done ++ [r]) (aremove (r_right r) (aremove (r_left r) live) ++ [(k + length done, s)]).
Proof.
  intros (Hnd & Hkeys & Hch) si sj Hi Hj Hne s.
  assert (Hik := alookup_key _ _ _ Hi). assert (Hjk := alookup_key _ _ _ Hj).
  apply Hkeys in Hik. apply Hkeys in Hjk.
  assert (Hnd1 : NoDup (akeys (aremove (r_left r) live))) by now apply NoDup_aremove.
  assert (Hnd2 : NoDup (akeys (aremove (r_right r) (aremove (r_left r) live)))) by now apply NoDup_aremove.
  assert (Hkeys2 : forall x, In x (akeys (aremove (r_right r) (aremove (r_left r) live))) <->
                             In x (akeys live) /\ x <> r_left r /\ x <> r_right r).
  { intros x. rewrite akeys_aremove_iff by assumption. rewrite akeys_aremove_iff by assumption. tauto. }
  split; [|split].
  - apply NoDup_akeys_app_fresh; [assumption|]. rewrite Hkeys2, Hkeys. lia.
  - intros x. rewrite akeys_app, in_app_iff, Hkeys2, Hkeys, In_children_snoc, last_length. simpl.
    split.
    + intros [[[H1 H2] [H3 H4]]|[H|[]]].
      * split; [lia|]. tauto.
      * subst x. split; [lia|]. intros [Hc|[Hc|Hc]]; [apply Hch in Hc; lia | lia | lia].
    + intros [Hlt Hnot].
      destruct (Nat.eq_dec x (k + length done)) as [->|Hx]; [right; now left|].
      left. repeat split; try lia; try tauto; intros ->; apply Hnot; tauto.
  - intros c. rewrite In_children_snoc, last_length.
    intros [H|[-> | ->]]; [apply Hch in H; lia | lia | lia].
Qed.

Lemma valid_run_cons next r rows live live' :
  valid_run next (r :: rows) live = Some live' <->
  exists si sj, alookup (r_left r) live = Some si /\ alookup (r_right r) live = Some sj /\
    r_left r <> r_right r /\ r_size r = si + sj /\
    valid_run (S next) rows (aremove (r_right r) (aremove (r_left r) live) ++ [(next, r_size r)]) = Some live'.
Proof.
  destruct r as [[[i j] h] s]. cbn [valid_run r_left r_right r_size fst snd]. split.
  - destruct (alookup i live) as [si|]; [|discriminate]. destruct (alookup j live) as [sj|]; [|discriminate].
    destruct (negb (Nat.eqb i j) && Nat.eqb s (si + sj)) eqn:E; [|discriminate].
    apply andb_true_iff in E. destruct E as [Hne Hs]. apply negb_true_iff, Nat.eqb_neq in Hne.
    apply Nat.eqb_eq in Hs. intros H. now exists si, sj.
  - intros (si & sj & -> & -> & Hne & Hs & H). apply Nat.eqb_neq in Hne. apply Nat.eqb_eq in Hs.
    now rewrite Hne, Hs.
Qed.

Lemma valid_run_rows k D :
  forall rows done live live',
    D = done ++ rows -> linv k done live ->
    valid_run (k + length done) rows live = Some live' ->
    (forall t r, length done <= t -> nth_error D t = Some r -> row_ok k D t r) /\ linv k D live'.
Proof.
  induction rows as [|r rows IH]; intros done live live' HD Hinv Hrun.
  - simpl in Hrun. inversion Hrun; subst. rewrite app_nil_r. split; [|assumption].
    intros t r Ht Hr. apply nth_error_Some_lt in Hr. lia.
  - apply valid_run_cons in Hrun. destruct Hrun as (si & sj & Hi & Hj & Hne & _ & Hrun).
    assert (Hstep := valid_run_step k done live r Hinv si sj Hi Hj Hne (r_size r)).
    assert (HD' : D = (done ++ [r]) ++ rows) by now rewrite <- app_assoc.
    rewrite <- Nat.add_succ_r, <- (last_length done r) in Hrun.
    destruct (IH _ _ _ HD' Hstep Hrun) as [IH1 IH2]. split; [|assumption].
    intros t r' Ht Hr. destruct (Nat.eq_dec t (length done)) as [->|Hneq]; [|apply IH1; [rewrite last_length; lia|assumption]].
    rewrite HD, nth_error_app_length in Hr. inversion Hr; subst r'.
    destruct Hinv as (_ & Hkeys & _). apply alookup_key, Hkeys in Hi. apply alookup_key, Hkeys in Hj.
    unfold row_ok. rewrite HD, firstn_app_length. tauto.
Qed.

Lemma init_live_keys ws : akeys (init_live ws) = seq 0 (length ws).
Proof. apply map_fst_combine, seq_length. Qed.

Lemma linv_init ws : linv (length ws) [] (init_live ws).
Proof.
  unfold linv. rewrite init_live_keys. simpl. split; [apply seq_NoDup|]. split.
  - intros x. rewrite in_seq. lia.
  - tauto.
Qed.

Lemma linv_init_repeat n : linv n [] (init_live (repeat 1 n)).
Proof. assert (H := linv_init (repeat 1 n)). now rewrite repeat_length in H. Qed.

Lemma validw_rows ws D : validw ws D = true ->
  S (length D) = length ws /\ forall t r, nth_error D t = Some r -> row_ok (length ws) D t r.
Proof.
  unfold validw. intros H. apply andb_true_iff in H. destruct H as [H _].
  apply andb_true_iff in H. destruct H as [Hlen Hrun]. apply Nat.eqb_eq in Hlen. split; [exact Hlen|].
  destruct (valid_run (length ws) D (init_live ws)) as [live'|] eqn:E; [|discriminate].
  destruct (valid_run_rows (length ws) D D [] (init_live ws) live' eq_refl (linv_init ws)) as [H1 _].
  { simpl. now rewrite Nat.add_0_r. }
  intros t r Hr. apply H1; [simpl; lia | exact Hr].
Qed.

Lemma valid_rows n D : valid n D = true ->
  S (length D) = n /\ forall t r, nth_error D t = Some r -> row_ok n D t r.
Proof.
  unfold valid. intros H. apply validw_rows in H. now rewrite repeat_length in H.
Qed.

Lemma valid_ids_lt n D : valid n D = true -> ids_lt n D.
Proof.
  intros H t r Hr. destruct (valid_rows n D H) as [_ H2]. specialize (H2 t r Hr). unfold row_ok in H2. tauto.
Qed.

Lemma In_le_list_max x l : In x l -> x <= list_max l.
Proof.
  intros H. assert (Hf := proj1 (list_max_le l (list_max l)) (Nat.le_refl _)).
  rewrite Forall_forall in Hf. now apply Hf.
Qed.
