From Coq Require Import String Ascii.
From Coq Require Import Lia.
From SKN Require Import Base.Util Model.Graphml.
Set Warnings "-notation-overridden".

(** Facts about the first walk of [from_graphml] ([scan_root]), the [mapM] combinator, the index
    lists [indices_of] and the name table [index_last]. *)

Local Open Scope string_scope.
Local Open Scope list_scope.
Local Open Scope nat_scope.
Local Infix "==s" := String.eqb (at level 70).
Local Notation "x <- r ;; k" := (bind r (fun x => k)) (at level 61, r at next level, right associativity).

Lemma mapM_ext {A B} (f g : A -> result B) l :
  (forall x, In x l -> f x = g x) -> mapM f l = mapM g l.
Proof.
  induction l as [|a t IH]; intros Hfg; simpl.
  - reflexivity.
  - rewrite (Hfg a (or_introl eq_refl)).
    rewrite IH.
    + reflexivity.
    + intros x Hx. apply Hfg. right. exact Hx.
Qed.

Lemma mapM_cons_inv {A B} (f : A -> result B) a t r :
  mapM f (a :: t) = Ok r ->
  exists y ys, f a = Ok y /\ mapM f t = Ok ys /\ r = y :: ys.
Proof.
  simpl. intros H.
  destruct (f a) as [y|e] eqn:Efa; simpl in H; [|discriminate H].
  destruct (mapM f t) as [ys|e] eqn:Et; simpl in H; [|discriminate H].
  inversion H as [Hr]. exists y, ys. repeat split.
Qed.

Lemma mapM_Forall2 {A B} (f : A -> result B) l r :
  mapM f l = Ok r -> Forall2 (fun x y => f x = Ok y) l r.
Proof.
  revert r. induction l as [|a t IH]; intros r H.
  - simpl in H. inversion H as [Hr]. constructor.
  - apply mapM_cons_inv in H. destruct H as [y [ys [Hy [Hys Hr]]]]. subst r.
    constructor; [exact Hy | apply IH; exact Hys].
Qed.

Lemma mapM_length {A B} (f : A -> result B) l r :
  mapM f l = Ok r -> length r = length l.
Proof.
  intros H. apply mapM_Forall2 in H.
  induction H as [|x y l' r' Hxy Hrest IH]; simpl; [reflexivity | rewrite IH; reflexivity].
Qed.

Lemma mapM_app {A B} (f : A -> result B) l1 l2 r :
  mapM f (l1 ++ l2) = Ok r ->
  exists r1 r2, mapM f l1 = Ok r1 /\ mapM f l2 = Ok r2 /\ r = r1 ++ r2.
Proof.
  revert r. induction l1 as [|a t IH]; intros r H.
  - exists [], r. simpl in *. repeat split. exact H.
  - rewrite <- app_comm_cons in H.
    apply mapM_cons_inv in H. destruct H as [y [ys [Hy [Hys Hr]]]]. subst r.
    destruct (IH ys Hys) as [r1 [r2 [H1 [H2 Hr]]]]. subst ys.
    exists (y :: r1), r2. simpl. rewrite Hy, H1. simpl. repeat split. exact H2.
Qed.

Lemma mapM_indices_gen {B} (f : xml -> result B) (p : xml -> bool) (l pre : list xml) :
  mapM (fun i => bind (match nth_error (pre ++ l) i with Some e => Ok e | None => Raise IndexError end) f)
       (indices_of p (length pre) l)
  = mapM f (filter p l).
Proof.
  revert pre. induction l as [|x l IH]; intros pre; [reflexivity|].
  specialize (IH (pre ++ [x])). rewrite <- app_assoc, app_length, Nat.add_1_r in IH.
  simpl in *. destruct (p x); simpl; [|exact IH].
  rewrite nth_error_app2, Nat.sub_diag, IH by lia. reflexivity.
Qed.

Lemma mapM_indices {B} (f : xml -> result B) (p : xml -> bool) (g : xml) :
  mapM (fun i => bind (graph_item g i) f) (indices_of p 0 (x_children g))
  = mapM f (filter p (x_children g)).
Proof.
  unfold graph_item.
  exact (mapM_indices_gen f p (x_children g) []).
Qed.

Lemma length_indices_of p k l : length (indices_of p k l) = length (filter p l).
Proof.
  revert k. induction l as [|x l IH]; intros k; simpl.
  - reflexivity.
  - destruct (p x) eqn:Epx; simpl; rewrite IH; reflexivity.
Qed.

Lemma filter_nil_all {A} (p : A -> bool) l :
  filter p l = [] -> forall y, In y l -> p y = false.
Proof.
  induction l as [|a t IH]; intros H y Hy.
  - destruct Hy.
  - simpl in H. destruct (p a) eqn:Epa; [discriminate H|].
    destruct Hy as [Hy|Hy]; [subst y; exact Epa | apply IH; assumption].
Qed.

Lemma filter_singleton_split {A} (p : A -> bool) l x :
  filter p l = [x] ->
  exists pre post, l = pre ++ x :: post /\ p x = true /\
                   (forall y, In y pre -> p y = false) /\ (forall y, In y post -> p y = false).
Proof.
  induction l as [|a t IH]; intros H.
  - discriminate H.
  - simpl in H. destruct (p a) eqn:Epa.
    + inversion H as [[Hax Ht]]. subst a.
      exists [], t. simpl. repeat split.
      * exact Epa.
      * intros y Hy. destruct Hy.
      * apply filter_nil_all. exact Ht.
    + destruct (IH H) as [pre [post [Hl [Hpx [Hpre Hpost]]]]].
      exists (a :: pre), post. subst t. simpl. repeat split.
      * exact Hpx.
      * intros y [Hy|Hy]; [subst y; exact Epa | apply Hpre; exact Hy].
      * exact Hpost.
Qed.

Lemma scan_step_raise e fe : scan_step (Raise e) fe = Raise e.
Proof. reflexivity. Qed.

Lemma fold_scan_step_raise l e : fold_left scan_step l (Raise e) = Raise e.
Proof.
  induction l as [|a t IH]; simpl.
  - reflexivity.
  - exact IH.
Qed.

Lemma fold_scan_step_skip l s :
  (forall y, In y l -> is_tag "graph" y = false) -> fold_left scan_step l (Ok s) = Ok s.
Proof.
  induction l as [|a t IH]; intros H; cbn [fold_left].
  - reflexivity.
  - assert (Hstep : scan_step (Ok s) a = Ok s).
    { unfold scan_step. simpl. rewrite (H a (or_introl eq_refl)). reflexivity. }
    rewrite Hstep.
    apply IH. intros y Hy. apply H. right. exact Hy.
Qed.

Theorem scan_root_single root g s :
  scan_root root = Ok s -> doc_graphs root = [g] ->
  s_graph s = Some g /\ s_sym s = doc_sym g /\ s_naming s = doc_naming g /\
  s_nn s = length (doc_nodes g) /\
  s_ne s = sumn (map (edge_slots (doc_sym g)) (doc_edges g)) /\
  s_nidx s = indices_of el_is_node 0 (x_children g) /\
  s_eidx s = indices_of el_is_edge 0 (x_children g) /\
  attr "edgedefault" g <> None.
Proof.
  unfold scan_root, doc_graphs. intros Hscan Hdoc.
  apply filter_singleton_split in Hdoc.
  destruct Hdoc as [pre [post [Hl [Hg [Hpre Hpost]]]]].
  rewrite Hl in Hscan.
  rewrite fold_left_app in Hscan.
  rewrite (fold_scan_step_skip pre scan_init Hpre) in Hscan.
  cbn [fold_left] in Hscan.
  unfold doc_sym, doc_naming, doc_nodes, doc_edges.
  remember (scan_step (Ok scan_init) g) as st eqn:Hst.
  unfold scan_step, get_attr in Hst. cbn [bind] in Hst. rewrite Hg in Hst.
  destruct (attr "edgedefault" g) as [ed|] eqn:Eed; cbn in Hst; subst st.
  - rewrite (fold_scan_step_skip post _ Hpost) in Hscan.
    inversion Hscan as [Hs]. simpl.
    repeat split; [apply length_indices_of | discriminate].
  - rewrite fold_scan_step_raise in Hscan. discriminate Hscan.
Qed.

Theorem scan_root_no_graph root s :
  scan_root root = Ok s -> doc_graphs root = [] -> s_graph s = None.
Proof.
  unfold scan_root, doc_graphs. intros Hscan Hdoc.
  rewrite (fold_scan_step_skip _ scan_init (filter_nil_all _ _ Hdoc)) in Hscan.
  inversion Hscan as [Hs]. reflexivity.
Qed.

Lemma index_last_None l x k : index_last l x k = None <-> ~ In x l.
Proof.
  revert k. induction l as [|y t IH]; intros k; simpl; [tauto|].
  specialize (IH (S k)). destruct (index_last t x (S k)), (String.eqb_spec y x); intuition discriminate.
Qed.

Lemma index_last_bounds l x k r :
  index_last l x k = Some r -> k <= r < k + length l /\ nth_error l (r - k) = Some x.
Proof.
  revert k. induction l as [|y t IH]; intros k H; simpl in H.
  - discriminate H.
  - destruct (index_last t x (S k)) as [r'|] eqn:Et.
    + inversion H as [Hr]. subst r'.
      destruct (IH (S k) Et) as [Hb Hn]. simpl. split; [lia|].
      replace (r - k) with (S (r - S k)) by lia. simpl. exact Hn.
    + destruct (String.eqb y x) eqn:Eyx; [|discriminate H].
      inversion H as [Hr]. subst r. apply String.eqb_eq in Eyx. subst y.
      simpl. split; [lia|]. rewrite Nat.sub_diag. reflexivity.
Qed.

Lemma index_last_NoDup l x k i :
  NoDup l -> nth_error l i = Some x -> index_last l x k = Some (k + i).
Proof.
  revert k i. induction l as [|y t IH]; intros k i Hnd Hnth.
  - destruct i; discriminate Hnth.
  - inversion Hnd as [|y' t' Hnotin Hnd']. subst y' t'.
    destruct i as [|i]; simpl in Hnth.
    + inversion Hnth as [Hyx]. subst y. simpl.
      assert (Hnone : index_last t x (S k) = None) by (apply index_last_None; exact Hnotin).
      rewrite Hnone, String.eqb_refl, Nat.add_0_r. reflexivity.
    + simpl. rewrite (IH (S k) i Hnd' Hnth).
      f_equal. lia.
Qed.
