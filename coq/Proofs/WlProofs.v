(** C02 — Weisfeiler-Lehman: the functional model (Model/Wl.v) against colour refinement.

    A. one kernel round = one refinement step, under the computable hypothesis [no_hash_collision]
       (the converse direction, equal multisets => equal hashes, is unconditional) (section 6);
    B. the colouring = the iterate of colour refinement (partial: the hypothesis in every round) (section 6);
    C. equivariance: the colours of a renumbered graph (rows stored in any order) are the renumbered
       colours, label for label, whatever the two sorts do with ties (section 7);
    D. are_isomorphic on a graph and a renumbered copy returns True (section 7).
    Sections 1-5 prepare these (hash, order and sort, relabelling pass, ranks, refinement step).  Section 8:
    the iterates of colour refinement are equivalences and the n-th iterate is stable.  Section 9: a 90-node
    graph on which [no_hash_collision] fails and the kernel stops with nodes 44 and 45 in one colour. *)
From Coq Require Import Qabs Qreduction Sorted Permutation Lqa Setoid Morphisms.
From SKN Require Import Base.Util Model.Bfs Model.Format Model.Wl Proofs.BfsProofs Proofs.FormatProofs.
Set Warnings "-notation-overridden".

Lemma Qltb_ge a b : Qltb a b = false <-> (b <= a)%Q.
Proof.
  unfold Qltb. rewrite negb_false_iff. apply Qle_bool_iff.
Qed.

Lemma wl_upd_length l i x : length (wl_upd l i x) = length l.
Proof. revert i; induction l as [|a l IH]; intros [|i]; simpl; auto. Qed.

Lemma wl_upd_same l i x : i < length l -> nthn (wl_upd l i x) i = x.
Proof.
  unfold nthn. revert i; induction l as [|a l IH]; intros [|i] H; simpl in *; try lia; auto.
  apply IH. lia.
Qed.

Lemma wl_upd_other l i j x : i <> j -> nthn (wl_upd l i x) j = nthn l j.
Proof.
  unfold nthn. revert i j; induction l as [|a l IH]; intros [|i] [|j] H; simpl; try lia; auto.
Qed.

(** * 1. The hash is a function of the multiset of neighbour labels *)

Definition hsum (powers : list Q) (ls : list nat) : Q := sumq (map (nthq powers) ls).

Lemma wl_fold_sum powers labels r a :
  (fold_left (fun h j => Qred (h + nthq powers (nthn labels j))) r a
   == a + hsum powers (map (nthn labels) r))%Q.
Proof.
  revert a; induction r as [|j r IH]; intros a; simpl.
  - unfold hsum; simpl. ring.
  - rewrite IH. pose proof (Qred_correct (a + nthq powers (nthn labels j))) as E. rewrite E.
    unfold hsum. simpl. ring.
Qed.

Lemma wl_hash_perm powers labels labels' r r' :
  Permutation (map (nthn labels) r) (map (nthn labels') r') ->
  wl_hash powers labels r = wl_hash powers labels' r'.
Proof.
  intros H. unfold wl_hash. apply Qred_complete. rewrite !wl_fold_sum. unfold hsum.
  rewrite (sumq_Permutation _ _ (Permutation_map (nthq powers) H)). reflexivity.
Qed.

Lemma wl_hash_canon powers labels r : Qred (wl_hash powers labels r) = wl_hash powers labels r.
Proof. unfold wl_hash. apply Qred_complete, Qred_correct. Qed.

(** * 2. The order of [is_lower] and the sort *)

Definition kle (a b : wtuple) : Prop :=
  t_label a < t_label b \/ (t_label a = t_label b /\ (t_hash a <= t_hash b)%Q).
Definition keq (a b : wtuple) : Prop := t_label a = t_label b /\ (t_hash a == t_hash b)%Q.

Lemma is_lower_false a b : is_lower b a = false <-> kle a b.
Proof.
  unfold is_lower, kle. destruct (Nat.eqb_spec (t_label b) (t_label a)) as [E|N].
  - rewrite Qltb_ge. split.
    + intros H. right. split; [symmetry; exact E | exact H].
    + intros [H|[_ H]]; [lia | exact H].
  - rewrite Nat.ltb_ge. split.
    + intros H. left. lia.
    + intros [H|[H _]]; [lia | congruence].
Qed.

Lemma kle_label a b : kle a b -> t_label a <= t_label b.
Proof. intros [H|[H _]]; lia. Qed.

Lemma kle_hash a b : kle a b -> t_label a = t_label b -> (t_hash a <= t_hash b)%Q.
Proof. intros [H|[_ H]] E; [lia | exact H]. Qed.

Lemma kle_refl a : kle a a.
Proof. right. split; [reflexivity | apply Qle_refl]. Qed.

Lemma kle_trans a b c : kle a b -> kle b c -> kle a c.
Proof.
  unfold kle. intros [H1|[E1 H1]] [H2|[E2 H2]]; try (left; lia).
  right. split; [congruence | eapply Qle_trans; eassumption].
Qed.

Lemma kle_total a b : kle a b \/ kle b a.
Proof.
  unfold kle. destruct (lt_eq_lt_dec (t_label a) (t_label b)) as [[H|H]|H].
  - left; left; exact H.
  - destruct (Qlt_le_dec (t_hash b) (t_hash a)) as [L|L].
    + right. right. split; [symmetry; exact H | apply Qlt_le_weak; exact L].
    + left. right. split; assumption.
  - right; left; exact H.
Qed.

Lemma kle_antisym a b : kle a b -> kle b a -> keq a b.
Proof.
  unfold kle, keq. intros [H1|[E1 H1]] [H2|[E2 H2]]; try lia.
  split; [exact E1 | apply Qle_antisym; assumption].
Qed.

Lemma keq_kle a b : keq a b -> kle a b.
Proof. intros [E H]. right. split; [exact E | rewrite H; apply Qle_refl]. Qed.

Lemma keq_of_key a b : t_key a = t_key b -> keq a b.
Proof.
  unfold t_key, keq, t_label, t_hash. intros E. rewrite E. split; reflexivity.
Qed.

Definition wt0 : wtuple := (0, 0%Q, 0).

Definition ksorted (l : list wtuple) : Prop := StronglySorted kle l.

Lemma wl_sorted_ksorted l : wl_sorted l <-> ksorted l.
Proof.
  unfold wl_sorted, ksorted. split; intros H; induction H as [|a l _ IH Hf]; constructor; try exact IH;
    (eapply Forall_impl; [|exact Hf]); intros b Hb; apply is_lower_false; exact Hb.
Qed.

(** Insertion sort: [stop t x] decides that [t] goes before [x]; any test that is sound for the order
    will do. *)
Section Insertion.
Context (stop : wtuple -> wtuple -> bool)
        (stop_true : forall t x, stop t x = true -> kle t x)
        (stop_false : forall t x, stop t x = false -> kle x t).

Fixpoint insert_by (t : wtuple) (l : list wtuple) : list wtuple :=
  match l with
  | [] => [t]
  | x :: r => if stop t x then t :: l else x :: insert_by t r
  end.

Lemma insert_by_perm t l : Permutation (insert_by t l) (t :: l).
Proof.
  induction l as [|x r IH]; simpl; [reflexivity|]. destruct (stop t x); [reflexivity|].
  rewrite IH. apply perm_swap.
Qed.

Lemma insert_by_ksorted t l : ksorted l -> ksorted (insert_by t l).
Proof.
  unfold ksorted. induction l as [|x r IH]; intros Hs; simpl.
  - constructor; constructor.
  - inversion Hs as [|x' r' Hsr Hf]; subst.
    destruct (stop t x) eqn:E.
    + constructor; [exact Hs|]. constructor; [apply stop_true, E|].
      eapply Forall_impl; [|exact Hf]. intros b Hb. eapply kle_trans; [apply stop_true, E | exact Hb].
    + constructor; [apply IH; exact Hsr|].
      apply (Permutation_Forall (Permutation_sym (insert_by_perm t r))).
      constructor; [apply stop_false, E | exact Hf].
Qed.

Lemma sort_by_ok : sort_ok (fold_right insert_by []).
Proof.
  intros l. split.
  - induction l as [|a l IH]; simpl; [reflexivity|]. rewrite insert_by_perm, IH. reflexivity.
  - apply wl_sorted_ksorted. induction l as [|a l IH]; simpl; [constructor|].
    apply insert_by_ksorted. exact IH.
Qed.
End Insertion.

Lemma is_lower_kle a b : is_lower a b = true -> kle a b.
Proof. intros E. destruct (kle_total a b) as [H|H]; [exact H | apply is_lower_false in H; congruence]. Qed.

Theorem wl_sort_ok : sort_ok wl_sort.
Proof. exact (sort_by_ok (fun t x => is_lower t x) is_lower_kle (fun t x => proj1 (is_lower_false x t))). Qed.

(** The same sort, a new element going before the keys equivalent to it: one comparison instead of a walk
    through them. *)
Definition wl_sort_front : list wtuple -> list wtuple :=
  fold_right (insert_by (fun t x => negb (is_lower x t))) [].

Lemma wl_sort_front_ok : sort_ok wl_sort_front.
Proof.
  apply sort_by_ok; intros t x E.
  - apply is_lower_false, negb_true_iff, E.
  - apply is_lower_kle, negb_false_iff, E.
Qed.

(** Sorted rearrangements of the same keys list the keys in the same order (the hashes being kept in
    lowest terms, equivalent keys are equal). *)
Definition canont (t : wtuple) : Prop := Qred (t_hash t) = t_hash t.

Lemma keq_canon_key a b : canont a -> canont b -> keq a b -> t_key a = t_key b.
Proof.
  unfold canont, keq, t_key, t_label, t_hash. destruct a as [[la ha] na], b as [[lb hb] nb]; simpl.
  intros Ha Hb [E H]. rewrite E, <- Ha, <- Hb, (Qred_complete _ _ H). reflexivity.
Qed.

Lemma kle_key a a' b b' : t_key a = t_key a' -> t_key b = t_key b' -> kle a b -> kle a' b'.
Proof.
  unfold t_key, kle, t_label, t_hash. intros Ea Eb. rewrite Ea, Eb. auto.
Qed.

Lemma sorted_head_min a t b : Forall (kle a) t -> In (t_key b) (map t_key (a :: t)) -> kle a b.
Proof.
  intros F [E|Hin].
  - apply keq_kle, keq_of_key, E.
  - apply in_map_iff in Hin. destruct Hin as [x [Ex Hx]]. rewrite Forall_forall in F.
    apply (kle_key a a x b eq_refl Ex), F, Hx.
Qed.

Lemma sorted_keys_unique (l1 l2 : list wtuple) :
  ksorted l1 -> ksorted l2 -> Forall canont l1 -> Forall canont l2 ->
  Permutation (map t_key l1) (map t_key l2) -> map t_key l1 = map t_key l2.
Proof.
  unfold ksorted. revert l2. induction l1 as [|a t1 IH]; intros l2 S1 S2 C1 C2 P.
  - apply Permutation_nil in P. symmetry. exact P.
  - destruct l2 as [|b t2].
    { apply Permutation_sym, Permutation_nil in P. discriminate. }
    inversion S1 as [|? ? S1t F1]; subst. inversion S2 as [|? ? S2t F2]; subst.
    inversion C1 as [|? ? Ca C1t]; subst. inversion C2 as [|? ? Cb C2t]; subst.
    assert (Hab : kle a b).
    { apply (sorted_head_min a t1 b F1), (Permutation_in _ (Permutation_sym P)). left. reflexivity. }
    assert (Hba : kle b a).
    { apply (sorted_head_min b t2 a F2), (Permutation_in _ P). left. reflexivity. }
    assert (E : t_key a = t_key b).
    { apply keq_canon_key; [exact Ca | exact Cb | apply kle_antisym; assumption]. }
    simpl. rewrite E. f_equal. apply IH; try assumption.
    simpl in P. rewrite E in P. apply Permutation_cons_inv in P. exact P.
Qed.

(** * 3. The relabelling pass as a function of the sorted keys *)

Fixpoint ranks_from (eps : Q) (prev : wtuple) (label : nat) (l : list wtuple) : list nat :=
  match l with
  | [] => []
  | t :: r =>
      let label' := if wl_bump eps prev t then S label else label in
      label' :: ranks_from eps t label' r
  end.

Definition changed_of (ls rs : list nat) : bool :=
  existsb (fun ab => negb (fst ab =? snd ab)) (combine ls rs).

Lemma ranks_from_length eps prev label l : length (ranks_from eps prev label l) = length l.
Proof. revert prev label; induction l as [|t r IH]; intros; simpl; auto. Qed.

Definition labelled (labels : list nat) (t : wtuple) : Prop :=
  t_node t < length labels /\ nthn labels (t_node t) = t_label t.

Lemma labelled_upd labels i x l :
  ~ In i (map t_node l) -> Forall (labelled labels) l -> Forall (labelled (wl_upd labels i x)) l.
Proof.
  rewrite !Forall_forall. intros Hi H t Ht. destruct (H t Ht) as [H1 H2].
  split; [rewrite wl_upd_length; exact H1|].
  rewrite wl_upd_other; [exact H2|]. intros E. apply Hi. rewrite E. apply in_map. exact Ht.
Qed.

(** The pass from the moment the label of the tuple before [rest] is written. *)
Lemma wl_relabel_spec eps rest : forall t lab labels changed,
  NoDup (map t_node (t :: rest)) -> Forall (labelled labels) (t :: rest) ->
  let res := wl_relabel eps rest t lab (wl_upd labels (t_node t) lab) changed in
  length (fst res) = length labels /\
  (forall j, j <= length rest ->
     nthn (fst res) (t_node (nth j (t :: rest) wt0)) = nth j (lab :: ranks_from eps t lab rest) 0) /\
  (forall i, ~ In i (map t_node (t :: rest)) -> nthn (fst res) i = nthn labels i) /\
  snd res = changed || changed_of (map t_label rest) (ranks_from eps t lab rest).
Proof.
  induction rest as [|tn rest IH]; intros t lab labels changed Hnd Hf;
    inversion Hnd as [|x xs Hnin Hnd']; subst x xs; inversion Hf as [|x xs [Hlt _] Hf']; subst x xs.
  - simpl. split; [apply wl_upd_length|]. split; [|split].
    + intros j Hj. replace j with 0 by lia. apply wl_upd_same, Hlt.
    + intros i Hi. apply wl_upd_other. intros E. apply Hi. left. exact E.
    + symmetry. apply orb_false_r.
  - cbn [wl_relabel ranks_from map].
    set (lab' := if wl_bump eps t tn then S lab else lab).
    set (labels' := wl_upd labels (t_node t) lab).
    pose proof (labelled_upd labels _ lab (tn :: rest) Hnin Hf') as Hf1. destruct (Forall_inv Hf1) as [_ Hlab].
    destruct (IH tn lab' labels' (if nthn labels' (t_node tn) =? lab' then changed else true) Hnd' Hf1)
      as [I1 [I2 [I3 I4]]].
    split; [rewrite I1; apply wl_upd_length|]. split; [|split].
    + intros [|j] Hj; [|apply I2; simpl in Hj; lia]. rewrite I3 by exact Hnin. apply wl_upd_same, Hlt.
    + intros i Hi. rewrite I3 by (intros H; apply Hi; right; exact H).
      apply wl_upd_other. intros E. apply Hi. left. exact E.
    + rewrite I4. unfold labels', changed_of. rewrite Hlab. simpl.
      destruct (t_label tn =? lab'); simpl; [reflexivity | symmetry; apply orb_true_r].
Qed.

Definition ranks (eps : Q) (s : list wtuple) : list nat :=
  match s with [] => [] | t0 :: rest => 0 :: ranks_from eps t0 0 rest end.
Definition round_changed (eps : Q) (s : list wtuple) : bool :=
  match s with [] => false | t0 :: rest => changed_of (map t_label rest) (ranks_from eps t0 0 rest) end.

Lemma ranks_length eps s : length (ranks eps s) = length s.
Proof. destruct s; simpl; [reflexivity|]. rewrite ranks_from_length. reflexivity. Qed.

Lemma wl_tuples_nodes g powers labels : map t_node (wl_tuples g powers labels) = seq 0 (length g).
Proof. unfold wl_tuples. rewrite map_map. simpl. apply map_id. Qed.

Lemma wl_tuples_in g powers labels t :
  In t (wl_tuples g powers labels) <->
  t_node t < length g /\ t = (nthn labels (t_node t), wl_hash powers labels (row g (t_node t)), t_node t).
Proof.
  unfold wl_tuples. rewrite in_map_iff. split.
  - intros [i [E Hi]]. apply in_seq in Hi. subst t. simpl. split; [lia | reflexivity].
  - intros [H E]. exists (t_node t). split; [symmetry; exact E | apply in_seq; lia].
Qed.

Lemma wl_tuples_length g powers labels : length (wl_tuples g powers labels) = length g.
Proof. unfold wl_tuples. rewrite map_length, seq_length. reflexivity. Qed.

(** * 4. Ranks on a sorted vector *)

Lemma wl_bump_false eps a b :
  wl_bump eps a b = false <-> t_label b = t_label a /\ (Qabs (t_hash b - t_hash a) <= eps)%Q.
Proof.
  unfold wl_bump. rewrite orb_false_iff, Qltb_ge, negb_false_iff, Nat.eqb_eq. tauto.
Qed.

Lemma sorted_nth_kle s i j : ksorted s -> i <= j -> j < length s -> kle (nth i s wt0) (nth j s wt0).
Proof.
  intros HS. revert i j. induction HS as [|a l _ IH Hf]; intros [|i] [|j] Hij Hj; simpl in *; try lia.
  - apply kle_refl.
  - rewrite Forall_forall in Hf. apply Hf, nth_In. lia.
  - apply IH; lia.
Qed.

Section Ranks.
Context (eps : Q) (He : (0 <= eps)%Q).

Lemma ranks_from_step l : forall prev label k, k < length l ->
  nth k (ranks_from eps prev label l) 0 =
  (if wl_bump eps (nth k (prev :: l) wt0) (nth k l wt0) then S else id)
    (nth k (label :: ranks_from eps prev label l) 0).
Proof.
  induction l as [|t r IH]; intros prev label [|k] Hk; simpl in Hk; try lia.
  - simpl. destruct (wl_bump eps prev t); reflexivity.
  - apply (IH t _ k). lia.
Qed.

Lemma ranks_step s k : S k < length s ->
  nth (S k) (ranks eps s) 0 =
  (if wl_bump eps (nth k s wt0) (nth (S k) s wt0) then S else id) (nth k (ranks eps s) 0).
Proof.
  destruct s as [|t0 rest]; simpl; intros H; [lia|]. apply (ranks_from_step rest t0 0 k). lia.
Qed.

Lemma ranks_mono s i j : i <= j -> j < length s -> nth i (ranks eps s) 0 <= nth j (ranks eps s) 0.
Proof.
  intros Hij. induction Hij as [|j Hij IH]; intros Hj; [lia|].
  rewrite ranks_step by exact Hj. specialize (IH ltac:(lia)).
  destruct (wl_bump eps (nth j s wt0) (nth (S j) s wt0)); unfold id; lia.
Qed.

Lemma ranks_eq_iff s i j : i <= j -> j < length s ->
  (nth i (ranks eps s) 0 = nth j (ranks eps s) 0 <->
   forall k, i <= k < j -> wl_bump eps (nth k s wt0) (nth (S k) s wt0) = false).
Proof.
  intros Hij. induction Hij as [|j Hij IH]; intros Hj.
  - split; [intros _ k Hk; lia | reflexivity].
  - pose proof (ranks_mono s i j Hij ltac:(lia)) as Hm. specialize (IH ltac:(lia)).
    rewrite ranks_step by exact Hj. split.
    + intros E k Hk. destruct (wl_bump eps (nth j s wt0) (nth (S j) s wt0)) eqn:B; unfold id in E; [lia|].
      destruct (Nat.eq_dec k j) as [->|N]; [exact B | apply IH; [exact E | lia]].
    + intros H. rewrite (H j) by lia. apply IH. intros k Hk. apply H. lia.
Qed.

(** On a sorted vector, two keys with the same label and hashes within [eps] enclose keys with that label
    and hashes between theirs: no bump. *)
Lemma ranks_close s i j :
  ksorted s -> i < length s -> j < length s -> t_label (nth i s wt0) = t_label (nth j s wt0) ->
  (Qabs (t_hash (nth j s wt0) - t_hash (nth i s wt0)) <= eps)%Q ->
  nth i (ranks eps s) 0 = nth j (ranks eps s) 0.
Proof.
  intros HS.
  assert (W : forall i j, i <= j -> j < length s -> t_label (nth i s wt0) = t_label (nth j s wt0) ->
                          (t_hash (nth j s wt0) - t_hash (nth i s wt0) <= eps)%Q ->
                          nth i (ranks eps s) 0 = nth j (ranks eps s) 0).
  { clear i j. intros i j Hij Hj El Hh. apply ranks_eq_iff; [exact Hij | exact Hj |]. intros k Hk.
    pose proof (sorted_nth_kle s i k HS ltac:(lia) ltac:(lia)) as K1.
    pose proof (sorted_nth_kle s k (S k) HS ltac:(lia) ltac:(lia)) as K2.
    pose proof (sorted_nth_kle s (S k) j HS ltac:(lia) Hj) as K3.
    pose proof (kle_label _ _ K1). pose proof (kle_label _ _ K2). pose proof (kle_label _ _ K3).
    pose proof (kle_hash _ _ K1 ltac:(lia)). pose proof (kle_hash _ _ K2 ltac:(lia)).
    pose proof (kle_hash _ _ K3 ltac:(lia)).
    apply wl_bump_false. split; [lia|]. apply Qabs_Qle_condition. split; lra. }
  intros Hi Hj El Hh. apply Qabs_Qle_condition in Hh.
  destruct (Nat.le_ge_cases i j) as [L|L]; [apply W; try assumption; lra|].
  symmetry. apply W; try assumption; [symmetry; exact El | lra].
Qed.

Lemma ranks_keq s i j :
  ksorted s -> i < length s -> j < length s ->
  keq (nth i s wt0) (nth j s wt0) -> nth i (ranks eps s) 0 = nth j (ranks eps s) 0.
Proof.
  intros HS Hi Hj [El Hh]. apply ranks_close; try assumption. apply Qabs_Qle_condition. split; lra.
Qed.

Lemma ranks_chain (R : wtuple -> wtuple -> Prop) s i j :
  (forall a, R a a) -> (forall a b c, R a b -> R b c -> R a c) -> (forall a b, R a b -> R b a) ->
  (forall a b, In a s -> In b s -> wl_bump eps a b = false -> R a b) ->
  i < length s -> j < length s ->
  nth i (ranks eps s) 0 = nth j (ranks eps s) 0 -> R (nth i s wt0) (nth j s wt0).
Proof.
  intros Hrefl Htr Hsym HR.
  assert (W : forall i j, i <= j -> j < length s ->
                          nth i (ranks eps s) 0 = nth j (ranks eps s) 0 -> R (nth i s wt0) (nth j s wt0)).
  { clear i j. intros i j Hij. induction Hij as [|j Hij IH]; intros Hj E.
    - apply Hrefl.
    - pose proof (proj1 (ranks_eq_iff s i (S j) (le_S _ _ Hij) Hj) E) as B.
      apply Htr with (nth j s wt0).
      + apply IH; [lia|]. apply ranks_eq_iff; [exact Hij | lia |]. intros k Hk. apply B. lia.
      + apply HR; [apply nth_In; lia | apply nth_In; exact Hj | apply B; lia]. }
  intros Hi Hj E. destruct (Nat.le_ge_cases i j) as [L|L]; [apply W; assumption|].
  apply Hsym, W; [exact L | exact Hi | symmetry; exact E].
Qed.
End Ranks.

(** The ranks, and has_changed, depend on the keys only. *)
Lemma wl_bump_key eps a a' b b' : t_key a = t_key a' -> t_key b = t_key b' -> wl_bump eps a b = wl_bump eps a' b'.
Proof.
  unfold wl_bump, t_key, t_label, t_hash. intros Ea Eb. rewrite Ea, Eb. reflexivity.
Qed.

Lemma ranks_from_keys eps l : forall l' prev prev' label,
  t_key prev = t_key prev' -> map t_key l = map t_key l' ->
  ranks_from eps prev label l = ranks_from eps prev' label l'.
Proof.
  induction l as [|k r IH]; intros [|k' r'] prev prev' label Ep El; simpl in *; try discriminate; auto.
  injection El as Ek Er. rewrite (wl_bump_key eps prev prev' k k' Ep Ek).
  f_equal. apply IH; assumption.
Qed.

Lemma ranks_keys eps s s' : map t_key s = map t_key s' -> ranks eps s = ranks eps s'.
Proof.
  destruct s as [|t0 r], s' as [|t0' r']; simpl; intros E; try discriminate; auto.
  injection E as E0 Er. f_equal. apply ranks_from_keys; assumption.
Qed.

Lemma map_label_keys l l' : map t_key l = map t_key l' -> map t_label l = map t_label l'.
Proof.
  intros E. change t_label with (fun t => fst (t_key t)).
  rewrite <- (map_map t_key fst l), <- (map_map t_key fst l'), E. reflexivity.
Qed.

Lemma round_changed_keys eps s s' : map t_key s = map t_key s' -> round_changed eps s = round_changed eps s'.
Proof.
  destruct s as [|t0 r], s' as [|t0' r']; simpl; intros E; try discriminate; auto.
  injection E as E0 Er. rewrite (ranks_from_keys eps r r' t0 t0' 0 E0 Er), (map_label_keys r r' Er).
  reflexivity.
Qed.

Lemma ranks_from_unchanged eps l : forall prev label j,
  changed_of (map t_label l) (ranks_from eps prev label l) = false -> j < length l ->
  nth j (ranks_from eps prev label l) 0 = t_label (nth j l wt0).
Proof.
  unfold changed_of. induction l as [|t r IH]; intros prev label [|j] H Hj; simpl in *; try lia;
    apply orb_false_iff in H; destruct H as [H1 H2].
  - apply negb_false_iff, Nat.eqb_eq in H1. symmetry. exact H1.
  - apply IH; [exact H2 | lia].
Qed.

(** * 5. The refinement step on partitions and on labellings *)

Lemma count_in_eqb (f : nat -> nat) x r : count_in (fun a => x =? f a) r = count_occ Nat.eq_dec (map f r) x.
Proof.
  unfold count_in. induction r as [|a r IH]; simpl; [reflexivity|].
  destruct (Nat.eq_dec (f a) x) as [E|N].
  - rewrite E, Nat.eqb_refl. simpl. rewrite IH. reflexivity.
  - destruct (Nat.eqb_spec x (f a)) as [E|_]; [congruence | exact IH].
Qed.

Lemma countb_count_occ x l : countb x l = count_occ Nat.eq_dec l x.
Proof. rewrite <- (map_id l) at 2. exact (count_in_eqb (fun a => a) x l). Qed.

Lemma perm_of_counts (a b : list nat) :
  (forall x, In x a \/ In x b -> count_occ Nat.eq_dec a x = count_occ Nat.eq_dec b x) -> Permutation a b.
Proof.
  intros H. apply (Permutation_count_occ Nat.eq_dec). intros x.
  destruct (in_dec Nat.eq_dec x a) as [I|NI]; [apply H; left; exact I|].
  destruct (in_dec Nat.eq_dec x b) as [I'|NI']; [apply H; right; exact I'|].
  rewrite (proj1 (count_occ_not_In Nat.eq_dec a x) NI), (proj1 (count_occ_not_In Nat.eq_dec b x) NI').
  reflexivity.
Qed.

Lemma ms_eqb_perm a b : ms_eqb a b = true -> Permutation a b.
Proof.
  unfold ms_eqb. rewrite andb_true_iff, !forallb_forall. intros [Ha Hb].
  apply perm_of_counts. intros x [I|I]; rewrite <- !countb_count_occ; apply Nat.eqb_eq; [apply Ha | apply Hb]; exact I.
Qed.

Lemma perm_ms_eqb a b : Permutation a b -> ms_eqb a b = true.
Proof.
  intros P. unfold ms_eqb. apply andb_true_iff. split; apply forallb_forall; intros x _; apply Nat.eqb_eq;
    rewrite !countb_count_occ; apply (Permutation_count_occ Nat.eq_dec); exact P.
Qed.

Definition part_eq (n : nat) (E E' : nat -> nat -> bool) : Prop :=
  forall u v, u < n -> v < n -> E u v = E' u v.

Lemma count_in_ext f f' r : (forall x, In x r -> f x = f' x) -> count_in f r = count_in f' r.
Proof. intros H. unfold count_in. f_equal. apply filter_ext_in. exact H. Qed.

Lemma forallb_ext_in {A} (f f' : A -> bool) l : (forall x, In x l -> f x = f' x) -> forallb f l = forallb f' l.
Proof.
  intros H. induction l as [|a l IH]; simpl; [reflexivity|].
  rewrite (H a (or_introl eq_refl)), IH; [reflexivity|]. intros x Hx. apply H. right. exact Hx.
Qed.

Lemma cr_step_ext g E E' :
  wf_graph g -> part_eq (length g) E E' -> part_eq (length g) (cr_step g E) (cr_step g E').
Proof.
  intros Hwf HE u v Hu Hv. unfold cr_step. rewrite (HE u v Hu Hv). f_equal.
  apply forallb_ext_in. intros w Hw. apply in_seq in Hw.
  rewrite (count_in_ext (E w) (E' w) (row g u)), (count_in_ext (E w) (E' w) (row g v)); [reflexivity| |].
  - intros x Hx. apply HE; [lia | apply (Hwf v x Hx)].
  - intros x Hx. apply HE; [lia | apply (Hwf u x Hx)].
Qed.

Lemma count_in_same_label L w r :
  count_in (same_label L w) r = count_occ Nat.eq_dec (map (nthn L) r) (nthn L w).
Proof. exact (count_in_eqb (nthn L) (nthn L w) r). Qed.

Theorem cr_step_labels g L u v :
  wf_graph g -> u < length g -> v < length g ->
  (cr_step g (same_label L) u v = true <-> refines_to g L u v).
Proof.
  intros Hwf Hu Hv. unfold cr_step, refines_to. rewrite andb_true_iff, forallb_forall.
  unfold same_label at 1. rewrite Nat.eqb_eq. split.
  - intros [El Hc]. split; [exact El|]. apply perm_of_counts. unfold nbr_labels. intros x Hx.
    assert (Hw : exists w, w < length g /\ nthn L w = x).
    { destruct Hx as [I|I]; apply in_map_iff in I; destruct I as [w [Ew Hw]]; exists w;
        (split; [exact (Hwf _ _ Hw) | exact Ew]). }
    destruct Hw as [w [Hw <-]]. rewrite <- !count_in_same_label. apply Nat.eqb_eq, Hc, in_seq. lia.
  - intros [El Hp]. split; [exact El|]. intros w _. apply Nat.eqb_eq. rewrite !count_in_same_label.
    apply (Permutation_count_occ Nat.eq_dec). exact Hp.
Qed.

Lemma same_label_true L u v : same_label L u v = true <-> nthn L u = nthn L v.
Proof. unfold same_label. apply Nat.eqb_eq. Qed.

Lemma cr_stable_forever g k :
  wf_graph g -> part_eq (length g) (cr_iter g (S k)) (cr_iter g k) ->
  forall m, k <= m -> part_eq (length g) (cr_iter g m) (cr_iter g k).
Proof.
  intros Hwf Hs m Hm. induction Hm as [|m Hm IH]; intros u v Hu Hv; [reflexivity|].
  simpl. rewrite (cr_step_ext g _ _ Hwf IH u v Hu Hv). apply (Hs u v Hu Hv).
Qed.

(** * 6. One round = one refinement step, and the whole colouring *)

Definition wl_tuple_of (g : graph) (powers : list Q) (labels : list nat) (u : nat) : wtuple :=
  (nthn labels u, wl_hash powers labels (row g u), u).

Definition has_zero (n : nat) (L : list nat) : Prop := n = 0 \/ exists u, u < n /\ nthn L u = 0.

Section Round.
Context (sort : list wtuple -> list wtuple) (Hsort : sort_ok sort) (g : graph) (Hwf : wf_graph g).
Context (powers : list Q) (eps : Q) (He : (0 <= eps)%Q).

Lemma sorted_tuples_length labels : length (sort (wl_tuples g powers labels)) = length g.
Proof. rewrite (Permutation_length (proj1 (Hsort _))). apply wl_tuples_length. Qed.

(** Characterisation of one round: there is a sorted rearrangement [s] of the tuples such that the node
    at position j receives [ranks s][j]; has_changed is a function of the keys of [s]. *)
Lemma wl_round_spec labels :
  length labels = length g ->
  let s := sort (wl_tuples g powers labels) in
  let res := wl_round sort g powers eps labels in
  Permutation s (wl_tuples g powers labels) /\ ksorted s /\
  length (fst res) = length g /\
  (forall j, j < length g -> nthn (fst res) (t_node (nth j s wt0)) = nth j (ranks eps s) 0) /\
  snd res = round_changed eps s.
Proof.
  intros HL s res. destruct (Hsort (wl_tuples g powers labels)) as [HP HS]. fold s in HP, HS.
  apply wl_sorted_ksorted in HS.
  split; [exact HP|]. split; [exact HS|].
  assert (Hnd : NoDup (map t_node s)).
  { rewrite HP, wl_tuples_nodes. apply seq_NoDup. }
  assert (Hall : Forall (labelled labels) s).
  { apply Forall_forall. intros t Ht. apply (Permutation_in _ HP) in Ht.
    apply wl_tuples_in in Ht. destruct Ht as [H1 H2]. split; [lia|]. rewrite H2 at 2. reflexivity. }
  pose proof (sorted_tuples_length labels) as Hlen. fold s in Hlen.
  unfold res, wl_round. fold s. destruct s as [|t0 rest] eqn:Es.
  - simpl in Hlen. simpl. split; [exact HL|]. split; [intros j Hj; lia | reflexivity].
  - destruct (wl_relabel_spec eps rest t0 0 labels false Hnd Hall) as [I1 [I2 [_ I4]]].
    split; [rewrite I1; exact HL|]. split; [|exact I4]. intros j Hj. apply I2. simpl in Hlen. lia.
Qed.

Lemma wl_round_length labels :
  length labels = length g -> length (fst (wl_round sort g powers eps labels)) = length g.
Proof. intros HL. apply (wl_round_spec labels HL). Qed.

Lemma wl_round_at labels u :
  length labels = length g -> u < length g ->
  exists j, j < length (sort (wl_tuples g powers labels)) /\
            nth j (sort (wl_tuples g powers labels)) wt0 = wl_tuple_of g powers labels u /\
            nthn (fst (wl_round sort g powers eps labels)) u
            = nth j (ranks eps (sort (wl_tuples g powers labels))) 0.
Proof.
  intros HL Hu.
  destruct (wl_round_spec labels HL) as [HP [_ [_ [Hpos _]]]].
  assert (Hin : In (wl_tuple_of g powers labels u) (sort (wl_tuples g powers labels))).
  { apply (Permutation_in _ (Permutation_sym HP)). apply wl_tuples_in. split; [exact Hu | reflexivity]. }
  destruct (In_nth _ _ wt0 Hin) as [j [Hj E]]. exists j. split; [exact Hj|]. split; [exact E|].
  rewrite sorted_tuples_length in Hj. rewrite <- (Hpos j Hj), E. reflexivity.
Qed.

Lemma no_hash_collision_spec labels :
  no_hash_collision g powers eps labels = true ->
  forall u v, u < length g -> v < length g -> nthn labels u = nthn labels v ->
  (Qabs (wl_hash powers labels (row g u) - wl_hash powers labels (row g v)) <= eps)%Q ->
  Permutation (nbr_labels g labels u) (nbr_labels g labels v).
Proof.
  unfold no_hash_collision. rewrite forallb_forall. intros H.
  assert (W : forall u v, u < v -> v < length g -> nthn labels u = nthn labels v ->
              (Qabs (wl_hash powers labels (row g u) - wl_hash powers labels (row g v)) <= eps)%Q ->
              Permutation (nbr_labels g labels u) (nbr_labels g labels v)).
  { intros u v Huv Hv El Hh.
    assert (Hu' : In u (seq 0 (length g))) by (apply in_seq; lia).
    assert (Hv' : In v (seq 0 (length g))) by (apply in_seq; lia).
    pose proof (H u Hu') as H1. rewrite forallb_forall in H1. pose proof (H1 v Hv') as H2.
    unfold nthq in H2. rewrite !nth_map_seq in H2 by lia.
    apply Nat.ltb_lt in Huv. apply Nat.eqb_eq in El. apply Qle_bool_iff in Hh. rewrite Huv, El, Hh in H2.
    apply ms_eqb_perm. exact H2. }
  intros u v Hu Hv El Hh. destruct (lt_eq_lt_dec u v) as [[L|E]|L].
  - apply W; assumption.
  - subst v. apply Permutation_refl.
  - rewrite Qabs_Qminus in Hh. symmetry. apply W; auto.
Qed.

(** The kernel never separates two nodes with the same label whose hashes are within [eps]. *)
Theorem wl_round_close labels :
  length labels = length g ->
  forall u v, u < length g -> v < length g -> nthn labels u = nthn labels v ->
  (Qabs (wl_hash powers labels (row g v) - wl_hash powers labels (row g u)) <= eps)%Q ->
  nthn (fst (wl_round sort g powers eps labels)) u = nthn (fst (wl_round sort g powers eps labels)) v.
Proof.
  intros HL u v Hu Hv El Hh.
  destruct (wl_round_at labels u HL Hu) as [i [Hi [Ei Pi]]].
  destruct (wl_round_at labels v HL Hv) as [j [Hj [Ej Pj]]].
  rewrite Pi, Pj. apply (ranks_close eps He); [apply wl_sorted_ksorted, Hsort | exact Hi | exact Hj | |];
    rewrite Ei, Ej; assumption.
Qed.

(** In particular, nodes that one refinement step keeps together keep a common colour. *)
Theorem wl_round_coarser labels :
  length labels = length g ->
  forall u v, u < length g -> v < length g -> refines_to g labels u v ->
  nthn (fst (wl_round sort g powers eps labels)) u = nthn (fst (wl_round sort g powers eps labels)) v.
Proof.
  intros HL u v Hu Hv [El Hp]. apply wl_round_close; try assumption.
  rewrite (wl_hash_perm powers labels labels _ _ Hp). apply Qabs_Qle_condition. split; lra.
Qed.

(** Under the hypothesis, exactly one refinement step. *)
Theorem wl_round_refines labels :
  length labels = length g ->
  no_hash_collision g powers eps labels = true ->
  forall u v, u < length g -> v < length g ->
  (nthn (fst (wl_round sort g powers eps labels)) u = nthn (fst (wl_round sort g powers eps labels)) v
   <-> refines_to g labels u v).
Proof.
  intros HL Hnc u v Hu Hv. split; [|apply wl_round_coarser; assumption].
  destruct (wl_round_at labels u HL Hu) as [i [Hi [Ei Pi]]].
  destruct (wl_round_at labels v HL Hv) as [j [Hj [Ej Pj]]].
  destruct (Hsort (wl_tuples g powers labels)) as [HP _].
  rewrite Pi, Pj. intros E.
  pose proof (ranks_chain eps (fun a b => refines_to g labels (t_node a) (t_node b))
                          (sort (wl_tuples g powers labels)) i j) as HR.
  rewrite Ei, Ej in HR. apply HR; try assumption.
  - intros a. split; reflexivity.
  - intros a b c [E1 P1] [E2 P2]. split; [congruence | eapply Permutation_trans; eassumption].
  - intros a b [E1 P1]. split; [symmetry; exact E1 | apply Permutation_sym; exact P1].
  - intros a b Ha Hb B. apply (Permutation_in _ HP), wl_tuples_in in Ha. apply (Permutation_in _ HP), wl_tuples_in in Hb.
    destruct Ha as [Ha Ea], Hb as [Hb Eb]. apply wl_bump_false in B. destruct B as [B1 B2].
    rewrite Ea, Eb in B1, B2. unfold t_label, t_hash in B1, B2. simpl in B1, B2.
    split; [symmetry; exact B1|].
    apply (no_hash_collision_spec labels Hnc); try assumption; [symmetry; exact B1|].
    rewrite Qabs_Qminus. exact B2.
Qed.

Lemma wl_round_step L E :
  length L = length g ->
  no_hash_collision g powers eps L = true ->
  part_eq (length g) (same_label L) E ->
  part_eq (length g) (same_label (fst (wl_round sort g powers eps L))) (cr_step g E).
Proof.
  intros HL Hnc HE u v Hu Hv.
  rewrite <- (cr_step_ext g (same_label L) E Hwf HE u v Hu Hv).
  apply eq_true_iff_eq. rewrite same_label_true, cr_step_labels by assumption.
  apply wl_round_refines; assumption.
Qed.

Lemma wl_round_has_zero L :
  length L = length g -> has_zero (length g) (fst (wl_round sort g powers eps L)).
Proof.
  intros HL. destruct (Nat.eq_dec (length g) 0) as [En|En]; [left; exact En|]. right.
  destruct (wl_round_spec L HL) as [HP [_ [_ [Hpos _]]]].
  pose proof (sorted_tuples_length L) as Hls.
  exists (t_node (nth 0 (sort (wl_tuples g powers L)) wt0)). split.
  - assert (Hin : In (nth 0 (sort (wl_tuples g powers L)) wt0) (wl_tuples g powers L))
      by (apply (Permutation_in _ HP), nth_In; lia).
    apply wl_tuples_in in Hin. apply Hin.
  - rewrite (Hpos 0) by lia. destruct (sort (wl_tuples g powers L)); reflexivity.
Qed.

(** has_changed = False: no label was changed (the caller's labels contain the colour 0). *)
Lemma wl_round_unchanged L :
  length L = length g -> has_zero (length g) L ->
  snd (wl_round sort g powers eps L) = false ->
  forall u, u < length g -> nthn (fst (wl_round sort g powers eps L)) u = nthn L u.
Proof.
  intros HL Hz Hc u Hu.
  destruct (wl_round_spec L HL) as [_ [HS [_ [_ Hch]]]].
  rewrite Hc in Hch.
  destruct (wl_round_at L u HL Hu) as [j [Hj [Ej Pj]]]. rewrite Pj.
  destruct j as [|j].
  - (* the first key is the least, and some label is 0 *)
    destruct Hz as [Hz|[z [Hz Ez]]]; [lia|].
    destruct (wl_round_at L z HL Hz) as [i [Hi [Ei _]]].
    pose proof (sorted_nth_kle _ 0 i HS (Nat.le_0_l i) Hi) as Hk.
    rewrite Ej, Ei in Hk. unfold kle, wl_tuple_of, t_label in Hk. simpl in Hk.
    destruct (sort (wl_tuples g powers L)); simpl; lia.
  - destruct (sort (wl_tuples g powers L)) as [|t0 rest]; [simpl in Hj; lia|].
    simpl in Hj, Ej, Hch |- *. rewrite (ranks_from_unchanged eps rest t0 0 j (eq_sym Hch)) by lia.
    rewrite Ej. reflexivity.
Qed.

Lemma wl_loop_refines :
  forall todo L changed rounds k,
  length L = length g -> has_zero (length g) L ->
  part_eq (length g) (same_label L) (cr_iter g k) ->
  (changed = false -> part_eq (length g) (cr_iter g (S k)) (cr_iter g k)) ->
  wl_collision_free sort g powers eps todo L changed = true ->
  part_eq (length g) (same_label (fst (fst (wl_loop sort g powers eps todo L changed rounds))))
          (cr_iter g (k + todo)).
Proof.
  induction todo as [|todo IH]; intros L changed rounds k HL Hz HE Hst Hcf; simpl.
  - rewrite Nat.add_0_r. exact HE.
  - destruct changed.
    + simpl in Hcf. apply andb_true_iff in Hcf. destruct Hcf as [Hnc Hcf].
      rewrite Nat.add_succ_r, <- Nat.add_succ_l.
      set (r := wl_round sort g powers eps L) in *.
      assert (HE1 : part_eq (length g) (same_label (fst r)) (cr_iter g (S k))).
      { simpl. apply wl_round_step; assumption. }
      apply IH; try assumption.
      * apply wl_round_length; assumption.
      * apply wl_round_has_zero; assumption.
      * intros Hc.
        assert (Hsame : part_eq (length g) (cr_iter g (S k)) (cr_iter g k)).
        { intros u v Hu Hv. rewrite <- (HE1 u v Hu Hv), <- (HE u v Hu Hv). unfold same_label, r.
          rewrite !(wl_round_unchanged L HL Hz Hc) by assumption. reflexivity. }
        apply (cr_step_ext g _ _ Hwf Hsame).
    + simpl. intros u v Hu Hv. rewrite (HE u v Hu Hv). symmetry.
      apply (cr_stable_forever g k Hwf (Hst eq_refl)); [lia | assumption | assumption].
Qed.
End Round.

Lemma wl_eps_nonneg : (0 <= wl_eps)%Q.
Proof. unfold wl_eps, Qle. simpl. lia. Qed.

Theorem wl_colouring_is_refinement_partial sort g powers max_iter :
  sort_ok sort -> wf_graph g ->
  wl_collision_free sort g powers wl_eps (wl_max_iter (length g) max_iter) (repeat 0 (length g)) true = true ->
  forall u v, u < length g -> v < length g ->
  (nthn (color_weisfeiler_lehman sort g powers max_iter) u
   = nthn (color_weisfeiler_lehman sort g powers max_iter) v
   <-> cr_iter g (wl_max_iter (length g) max_iter) u v = true).
Proof.
  intros Hsort Hwf Hcf u v Hu Hv. unfold color_weisfeiler_lehman, wl_kernel. rewrite <- same_label_true.
  rewrite (wl_loop_refines sort Hsort g Hwf powers wl_eps wl_eps_nonneg _ _ true 0 0 (repeat_length 0 _));
    try assumption.
  - reflexivity.
  - destruct (length g) eqn:En; [left; reflexivity|]. right. exists 0. split; [lia | reflexivity].
  - intros a b _ _. unfold same_label, nthn. rewrite !(nth_repeat 0). reflexivity.
  - discriminate.
Qed.

Lemma wl_max_iter_default n max_iter :
  ((max_iter < 0)%Z \/ (Z.of_nat n <= max_iter)%Z) -> wl_max_iter n max_iter = n.
Proof.
  intros H. unfold wl_max_iter. destruct (max_iter <? 0)%Z eqn:E1; [reflexivity|].
  destruct (Z.of_nat n <? max_iter)%Z eqn:E2; [reflexivity|]. apply Z.ltb_ge in E1, E2. simpl. lia.
Qed.

(** * 7. Renumbering (rows stored in any order) *)

Section Iso.
Context (n : nat) (p : list nat) (Hp : Permutation p (seq 0 n)).
Context (g g' : graph) (Hn : length g = n) (Hwf : wf_graph g) (Hiso : csr_iso p g g').
Context (powers : list Q).
Context (sort sort' : list wtuple -> list wtuple) (Hsort : sort_ok sort) (Hsort' : sort_ok sort').

Local Notation pv := (perm_vec 0 p).

Lemma iso_length : length g' = n.
Proof. destruct Hiso as [H _]. lia. Qed.

Lemma iso_labels L i : i < n -> nthn (pv L) (nthn p i) = nthn L i.
Proof. intros Hi. unfold nthn at 1 3. apply (FormatProofs.perm_vec_nth n p Hp 0 L i Hi). Qed.

Lemma iso_tuple L i :
  i < n -> wl_tuple_of g' powers (pv L) (nthn p i) = (nthn L i, wl_hash powers L (row g i), nthn p i).
Proof.
  intros Hi. unfold wl_tuple_of. rewrite iso_labels by exact Hi. f_equal. f_equal.
  apply wl_hash_perm. destruct Hiso as [_ Hrow].
  eapply Permutation_trans; [apply Permutation_map; apply Hrow; lia|].
  rewrite map_map. replace (map (fun x => nthn (pv L) (nthn p x)) (row g i)) with (map (nthn L) (row g i));
    [apply Permutation_refl|].
  apply map_ext_in. intros x Hx. symmetry. apply iso_labels. rewrite <- Hn. apply (Hwf i x Hx).
Qed.

Lemma wl_tuples_as_map h powers0 L : wl_tuples h powers0 L = map (wl_tuple_of h powers0 L) (seq 0 (length h)).
Proof. reflexivity. Qed.

Lemma iso_keys L :
  Permutation (map t_key (wl_tuples g' powers (pv L))) (map t_key (wl_tuples g powers L)).
Proof.
  rewrite !wl_tuples_as_map, !map_map, iso_length, Hn.
  eapply Permutation_trans; [apply Permutation_sym, (perm_reindex n p Hp)|].
  erewrite map_ext_in; [apply Permutation_refl|].
  intros i Hi. apply in_seq in Hi. cbv beta. rewrite iso_tuple by lia. reflexivity.
Qed.

Lemma wl_tuples_canon h powers0 L s : Permutation s (wl_tuples h powers0 L) -> Forall canont s.
Proof.
  intros HP. apply Forall_forall. intros t Ht. apply (Permutation_in _ HP) in Ht.
  apply wl_tuples_in in Ht. destruct Ht as [_ E]. rewrite E. unfold canont, t_hash. simpl. apply wl_hash_canon.
Qed.

Theorem wl_round_equivariant eps L :
  (0 <= eps)%Q -> length L = n ->
  fst (wl_round sort' g' powers eps (pv L)) = pv (fst (wl_round sort g powers eps L)) /\
  snd (wl_round sort' g' powers eps (pv L)) = snd (wl_round sort g powers eps L).
Proof.
  intros He HL.
  assert (HL1 : length L = length g) by lia.
  assert (HL2 : length (pv L) = length g').
  { rewrite iso_length. apply (perm_vec_length n p Hp). }
  destruct (wl_round_spec sort Hsort g powers eps L HL1) as [HP [HS [_ [_ Hch]]]].
  destruct (wl_round_spec sort' Hsort' g' powers eps (pv L) HL2) as [HP' [HS' [Hlen' [_ Hch']]]].
  set (s := sort (wl_tuples g powers L)) in *.
  set (s' := sort' (wl_tuples g' powers (pv L))) in *.
  assert (Hkeys : map t_key s' = map t_key s).
  { apply sorted_keys_unique; try assumption.
    - apply (wl_tuples_canon _ _ _ _ HP').
    - apply (wl_tuples_canon _ _ _ _ HP).
    - rewrite HP', HP. apply iso_keys. }
  split; [|rewrite Hch, Hch'; apply round_changed_keys, Hkeys].
  apply (perm_vec_ext n p Hp); [rewrite Hlen'; apply iso_length|]. intros i Hi.
  destruct (wl_round_at sort Hsort g powers eps L i HL1 ltac:(lia)) as [j [Hj [Ej Pj]]].
  destruct (wl_round_at sort' Hsort' g' powers eps (pv L) (nthn p i) HL2) as [j' [Hj' [Ej' Pj']]].
  { rewrite iso_length. apply (perm_lt n p Hp), Hi. }
  fold s in Hj, Ej, Pj. fold s' in Hj', Ej', Pj'.
  change (nthn (fst (wl_round sort' g' powers eps (pv L))) (nthn p i) = nthn (fst (wl_round sort g powers eps L)) i).
  rewrite Pj, Pj', (ranks_keys eps s' s Hkeys).
  rewrite <- (map_length t_key), Hkeys, map_length in Hj'.
  apply (ranks_keq eps He); [exact HS | exact Hj' | exact Hj |]. apply keq_of_key.
  rewrite <- (map_nth t_key), <- Hkeys, (map_nth t_key), Ej', Ej, iso_tuple by exact Hi. reflexivity.
Qed.

Theorem wl_loop_equivariant eps todo : (0 <= eps)%Q -> forall L changed rounds,
  length L = n ->
  wl_loop sort' g' powers eps todo (pv L) changed rounds =
  (pv (fst (fst (wl_loop sort g powers eps todo L changed rounds))),
   snd (fst (wl_loop sort g powers eps todo L changed rounds)),
   snd (wl_loop sort g powers eps todo L changed rounds)).
Proof.
  intros He. induction todo as [|todo IH]; intros L changed rounds HL; simpl; [reflexivity|].
  destruct changed; [|reflexivity].
  destruct (wl_round_equivariant eps L He HL) as [E1 E2]. rewrite E1, E2.
  apply IH. rewrite wl_round_length; [exact Hn | exact Hsort | lia].
Qed.

Lemma pv_zeros : pv (repeat 0 n) = repeat 0 n.
Proof.
  symmetry. apply (perm_vec_ext n p Hp); [apply repeat_length|]. intros i _. rewrite !nth_repeat. reflexivity.
Qed.

Lemma g_nnz_rows (h : graph) : g_nnz h = sumn (map (fun i => length (row h i)) (seq 0 (length h))).
Proof. unfold g_nnz. rewrite <- (map_nth_seq h []) at 1. rewrite map_map. reflexivity. Qed.

Lemma iso_nnz : g_nnz g' = g_nnz g.
Proof.
  rewrite !g_nnz_rows, iso_length, Hn.
  rewrite <- (sumn_perm _ _ (perm_reindex n p Hp (fun i => length (row g' i)))).
  f_equal. apply map_ext_in. intros i Hi. apply in_seq in Hi.
  destruct Hiso as [_ Hrow]. rewrite (Permutation_length (Hrow i ltac:(lia))). apply map_length.
Qed.

(** C. The colours of a renumbered graph are the renumbered colours, label for label. *)
Theorem wl_equivariant_iso max_iter :
  color_weisfeiler_lehman sort' g' powers max_iter = pv (color_weisfeiler_lehman sort g powers max_iter).
Proof.
  unfold color_weisfeiler_lehman, wl_kernel. rewrite iso_length, Hn. rewrite <- pv_zeros at 1.
  rewrite (wl_loop_equivariant wl_eps _ wl_eps_nonneg) by apply repeat_length. reflexivity.
Qed.
End Iso.

Lemma list_max_perm a b : Permutation a b -> list_max a = list_max b.
Proof. intros H; induction H; simpl; lia. Qed.

Lemma uniq_counts_perm a b : Permutation a b -> uniq_counts a = uniq_counts b.
Proof.
  intros H. unfold uniq_counts. rewrite (list_max_perm a b H). f_equal.
  apply map_ext. intros v. apply (Permutation_count_occ Nat.eq_dec). exact H.
Qed.

Lemma counts_differ_refl c : counts_differ c c = Ok false.
Proof.
  unfold counts_differ. rewrite Nat.eqb_refl. f_equal.
  induction c as [|a c IH]; simpl; [reflexivity|]. rewrite Nat.eqb_refl. simpl. exact IH.
Qed.

Lemma perm_graph_csr_iso (n : nat) (p : list nat) (g : graph) :
  Permutation p (seq 0 n) -> length g = n -> csr_iso p g (perm_graph p g).
Proof.
  intros Hp Hn. split.
  - rewrite (FormatProofs.perm_graph_length n p Hp). symmetry. exact Hn.
  - intros i Hi. rewrite (FormatProofs.perm_graph_row n p Hp g i) by lia. apply Permutation_refl.
Qed.

Theorem wl_equivariant (n : nat) (p : list nat) (g : graph) (powers : list Q)
        (sort sort' : list wtuple -> list wtuple) (max_iter : Z) :
  Permutation p (seq 0 n) -> length g = n -> wf_graph g -> sort_ok sort -> sort_ok sort' ->
  color_weisfeiler_lehman sort' (perm_graph p g) powers max_iter
  = perm_vec 0 p (color_weisfeiler_lehman sort g powers max_iter).
Proof.
  intros Hp Hn Hwf Hs Hs'. apply (wl_equivariant_iso n p Hp g _ Hn Hwf (perm_graph_csr_iso n p g Hp Hn) powers sort sort' Hs Hs').
Qed.

Lemma wl_loop_length sort g powers eps :
  sort_ok sort -> forall todo L ch rounds,
  length L = length g -> length (fst (fst (wl_loop sort g powers eps todo L ch rounds))) = length g.
Proof.
  intros Hs. induction todo as [|todo IH]; intros L ch rounds HL; simpl; [exact HL|].
  destruct ch; [|exact HL]. apply IH, wl_round_length; assumption.
Qed.

(** The order in which a row is stored, and the way the sort breaks ties, are irrelevant. *)
Theorem wl_row_order_irrelevant (g g' : graph) (powers : list Q)
        (sort sort' : list wtuple -> list wtuple) (max_iter : Z) :
  wf_graph g -> Forall2 (@Permutation nat) g' g -> sort_ok sort -> sort_ok sort' ->
  color_weisfeiler_lehman sort' g' powers max_iter = color_weisfeiler_lehman sort g powers max_iter.
Proof.
  intros Hwf HF Hs Hs'.
  assert (HF' : length g' = length g /\ forall i, i < length g -> Permutation (row g' i) (row g i)).
  { clear Hwf. unfold row. induction HF as [|a b l l' Hab HF [IH1 IH2]]; simpl; [split; [reflexivity | intros; lia]|].
    split; [congruence|]. intros [|i] Hi; [exact Hab | apply IH2; lia]. }
  assert (Hid : Permutation (seq 0 (length g)) (seq 0 (length g))) by apply Permutation_refl.
  assert (Hnth : forall i, i < length g -> nthn (seq 0 (length g)) i = i).
  { intros i Hi. apply seq_nth. exact Hi. }
  assert (Hiso : csr_iso (seq 0 (length g)) g g').
  { split; [apply HF'|]. intros i Hi. rewrite Hnth by exact Hi.
    rewrite (map_ext_in _ (fun x => x)), map_id by (intros x Hx; apply Hnth, (Hwf i x Hx)).
    apply HF', Hi. }
  rewrite (wl_equivariant_iso _ _ Hid g g' eq_refl Hwf Hiso powers sort sort' Hs Hs' max_iter).
  symmetry. apply (perm_vec_ext _ _ Hid).
  - apply wl_loop_length; [exact Hs | apply repeat_length].
  - intros i Hi. rewrite Hnth by exact Hi. reflexivity.
Qed.

Corollary wl_sort_irrelevant (g : graph) (powers : list Q) (sort sort' : list wtuple -> list wtuple) (max_iter : Z) :
  wf_graph g -> sort_ok sort -> sort_ok sort' ->
  color_weisfeiler_lehman sort' g powers max_iter = color_weisfeiler_lehman sort g powers max_iter.
Proof.
  intros Hwf. apply wl_row_order_irrelevant; [exact Hwf|].
  clear Hwf. induction g as [|r g' IH]; [constructor | constructor; [apply Permutation_refl | exact IH]].
Qed.

(** D. are_isomorphic on a graph and a renumbered copy returns True. *)
Lemma iso_loop_self (n : nat) (p : list nat) (g g' : graph) (powers : list Q)
      (sort : list wtuple -> list wtuple) :
  Permutation p (seq 0 n) -> length g = n -> wf_graph g -> csr_iso p g g' -> sort_ok sort ->
  forall todo L c, length L = n ->
  iso_loop sort g g' powers todo L (perm_vec 0 p L) c c = Ok true.
Proof.
  intros Hp Hn Hwf Hiso Hs. induction todo as [|todo IH]; intros L c HL; simpl; [reflexivity|].
  destruct c; simpl; [|reflexivity].
  destruct (wl_round_equivariant n p Hp g g' Hn Hwf Hiso powers sort sort Hs Hs wl_eps L wl_eps_nonneg HL)
    as [E1 E2].
  rewrite E1, E2.
  assert (HL1 : length (fst (wl_round sort g powers wl_eps L)) = n).
  { rewrite wl_round_length; [exact Hn | exact Hs | lia]. }
  rewrite (uniq_counts_perm _ _ (perm_vec_Permutation n p 0 _ Hp HL1)).
  rewrite counts_differ_refl. apply IH. exact HL1.
Qed.

Theorem are_isomorphic_iso (n : nat) (p : list nat) (g g' : graph) (powers : list Q)
        (sort : list wtuple -> list wtuple) (max_iter : Z) :
  Permutation p (seq 0 n) -> length g = n -> wf_graph g -> csr_iso p g g' -> sort_ok sort ->
  are_isomorphic sort g g' powers max_iter = Ok true.
Proof.
  intros Hp Hn Hwf Hiso Hs. unfold are_isomorphic.
  rewrite (iso_length n p g g' Hn Hiso), Hn, Nat.eqb_refl.
  rewrite (iso_nnz n p Hp g g' Hn Hiso), Nat.eqb_refl. simpl.
  rewrite <- (pv_zeros n p Hp) at 2.
  apply (iso_loop_self n p g g' powers sort Hp Hn Hwf Hiso Hs). apply repeat_length.
Qed.

Theorem are_isomorphic_self (n : nat) (p : list nat) (g : graph) (powers : list Q)
        (sort : list wtuple -> list wtuple) (max_iter : Z) :
  Permutation p (seq 0 n) -> length g = n -> wf_graph g -> sort_ok sort ->
  are_isomorphic sort g (perm_graph p g) powers max_iter = Ok true.
Proof.
  intros Hp Hn Hwf Hs. apply (are_isomorphic_iso n p); try assumption.
  apply (perm_graph_csr_iso n); assumption.
Qed.

(** * 8. The specification: iterates are equivalences, the n-th iterate is stable *)

Definition is_equiv (n : nat) (E : nat -> nat -> bool) : Prop :=
  (forall u, u < n -> E u u = true) /\
  (forall u v, u < n -> v < n -> E u v = true -> E v u = true) /\
  (forall u v w, u < n -> v < n -> w < n -> E u v = true -> E v w = true -> E u w = true).

Lemma cr_step_true g E u v :
  cr_step g E u v = true <->
  E u v = true /\ forall w, w < length g -> count_in (E w) (row g u) = count_in (E w) (row g v).
Proof.
  unfold cr_step. rewrite andb_true_iff, forallb_forall. split; intros [H1 H2]; split; try exact H1.
  - intros w Hw. apply Nat.eqb_eq. apply H2. apply in_seq. lia.
  - intros w Hw. apply in_seq in Hw. apply Nat.eqb_eq. apply H2. lia.
Qed.

Lemma cr_step_equiv g E : is_equiv (length g) E -> is_equiv (length g) (cr_step g E).
Proof.
  intros [Hr [Hs Ht]]. split; [|split].
  - intros u Hu. apply cr_step_true. split; [apply Hr; exact Hu | reflexivity].
  - intros u v Hu Hv H. apply cr_step_true in H. destruct H as [H1 H2]. apply cr_step_true.
    split; [apply Hs; assumption|]. intros w Hw. symmetry. apply H2. exact Hw.
  - intros u v w Hu Hv Hw H H'. apply cr_step_true in H. apply cr_step_true in H'.
    destruct H as [H1 H2]. destruct H' as [H1' H2']. apply cr_step_true.
    split; [apply (Ht u v w); assumption|]. intros x Hx. rewrite H2 by exact Hx. apply H2'. exact Hx.
Qed.

Lemma cr_iter_equiv g k : is_equiv (length g) (cr_iter g k).
Proof.
  induction k as [|k IH]; simpl.
  - split; [|split]; intros; reflexivity.
  - apply cr_step_equiv. exact IH.
Qed.

Lemma cr_iter_refines g k u v : cr_iter g (S k) u v = true -> cr_iter g k u v = true.
Proof. simpl. intros H. apply cr_step_true in H. apply H. Qed.

Lemma tab_rel_cr_tab n E u v : u < n -> v < n -> tab_rel (cr_tab n E) u v = E u v.
Proof.
  intros Hu Hv. unfold tab_rel, cr_tab.
  rewrite (nth_map_seq (fun u0 => map (E u0) (seq 0 n)) n u [] Hu).
  apply (nth_map_seq (E u) n v false Hv).
Qed.

Theorem cr_iter_tab_correct g k :
  wf_graph g -> part_eq (length g) (tab_rel (cr_iter_tab g k)) (cr_iter g k).
Proof.
  intros Hwf. induction k as [|k IH]; intros u v Hu Hv; simpl.
  - apply tab_rel_cr_tab; assumption.
  - rewrite tab_rel_cr_tab by assumption. apply cr_step_ext; assumption.
Qed.

(** Counting classes by their least members. *)
Definition cmin (n : nat) (E : nat -> nat -> bool) (u : nat) : bool :=
  forallb (fun v => negb (E u v) || (u <=? v)) (seq 0 n).
Definition ncls (n : nat) (E : nat -> nat -> bool) : nat := length (filter (cmin n E) (seq 0 n)).

Lemma cmin_true n E u : cmin n E u = true <-> forall v, v < n -> E u v = true -> u <= v.
Proof.
  unfold cmin. rewrite forallb_forall. split.
  - intros H v Hv Ev. assert (Hin : In v (seq 0 n)) by (apply in_seq; lia).
    specialize (H v Hin). rewrite Ev in H. simpl in H. apply Nat.leb_le. exact H.
  - intros H v Hv. apply in_seq in Hv. destruct (E u v) eqn:Ev; simpl; [|reflexivity].
    apply Nat.leb_le. apply H; [lia | exact Ev].
Qed.

Lemma class_min n E : is_equiv n E -> forall u, u < n -> exists m, m < n /\ E u m = true /\ cmin n E m = true.
Proof.
  intros [Hr [Hs Ht]] u. induction u as [u IH] using lt_wf_ind. intros Hu.
  destruct (find (E u) (seq 0 u)) as [v|] eqn:F.
  - apply find_some in F. destruct F as [Hv Ev]. apply in_seq in Hv.
    destruct (IH v ltac:(lia) ltac:(lia)) as [m [Hm [Em Cm]]].
    exists m. split; [exact Hm|]. split; [|exact Cm]. apply (Ht u v m); auto; lia.
  - exists u. split; [exact Hu|]. split; [apply Hr, Hu|]. apply cmin_true. intros v Hv Ev.
    destruct (Nat.le_gt_cases u v) as [L|L]; [exact L|].
    rewrite (find_none _ _ F v) in Ev; [discriminate | apply in_seq; lia].
Qed.

Lemma filter_length_lt {A} (f f' : A -> bool) l :
  (forall y, In y l -> f y = true -> f' y = true) ->
  length (filter f l) <= length (filter f' l) /\
  forall x, In x l -> f x = false -> f' x = true -> length (filter f l) < length (filter f' l).
Proof.
  intros H. induction l as [|a l IH]; simpl; [split; [lia | intros x []]|].
  destruct IH as [IH1 IH2]; [intros y Hy; apply H; right; exact Hy|].
  pose proof (H a (or_introl eq_refl)) as Ha. split.
  - destruct (f a); [rewrite Ha by reflexivity | destruct (f' a)]; simpl; lia.
  - intros x [->|Hx] Fx F'x; [rewrite Fx, F'x; simpl; lia|]. specialize (IH2 x Hx Fx F'x).
    destruct (f a); [rewrite Ha by reflexivity | destruct (f' a)]; simpl; lia.
Qed.

Lemma ncls_le n E : ncls n E <= n.
Proof.
  unfold ncls. rewrite <- (seq_length n 0) at 3. generalize (seq 0 n). intros l.
  induction l as [|a l IH]; simpl; [lia|]. destruct (cmin n E a); simpl; lia.
Qed.

(** A refinement with no more classes is the same partition: if it separates [u] from [v], the least
    members of their new classes are distinct and were in one class, where only one of them is least. *)
Lemma ncls_eq_stable n E E' :
  is_equiv n E -> is_equiv n E' ->
  (forall u v, u < n -> v < n -> E' u v = true -> E u v = true) ->
  ncls n E' <= ncls n E -> part_eq n E' E.
Proof.
  intros HE HE' Href Hle u v Hu Hv. destruct (E' u v) eqn:E'uv; [symmetry; apply Href; assumption|].
  destruct (E u v) eqn:Euv; [exfalso | reflexivity]. enough (ncls n E < ncls n E') by lia.
  assert (Hmono : forall y, In y (seq 0 n) -> cmin n E y = true -> cmin n E' y = true).
  { intros y Hy C. apply in_seq in Hy. apply cmin_true. intros w Hw Ew.
    apply (proj1 (cmin_true n E y) C w Hw). apply Href; [lia | exact Hw | exact Ew]. }
  destruct (class_min n E' HE' u Hu) as [mu [Hmu [Eu Cu]]].
  destruct (class_min n E' HE' v Hv) as [mv [Hmv [Ev Cv]]].
  destruct HE as [Hr [Hs Ht]]. destruct HE' as [Hr' [Hs' Ht']].
  assert (Emm : E mu mv = true).
  { apply (Ht mu u mv); auto. apply (Ht u v mv); auto. }
  assert (Hne : mu <> mv).
  { intros ->. rewrite (Ht' u mv v) in E'uv; auto. discriminate. }
  unfold ncls.
  destruct (cmin n E mu) eqn:C1; [|apply (proj2 (filter_length_lt _ _ _ Hmono) mu); auto; apply in_seq; lia].
  destruct (cmin n E mv) eqn:C2; [|apply (proj2 (filter_length_lt _ _ _ Hmono) mv); auto; apply in_seq; lia].
  pose proof (proj1 (cmin_true n E mu) C1 mv Hmv Emm).
  pose proof (proj1 (cmin_true n E mv) C2 mu Hmu (Hs mu mv Hmu Hmv Emm)). lia.
Qed.

(** Until an iterate is stable, every round adds a class. *)
Lemma cr_classes_grow g k :
  (exists j, j < k /\ part_eq (length g) (cr_iter g (S j)) (cr_iter g j)) \/
  k <= ncls (length g) (cr_iter g k).
Proof.
  induction k as [|k [[j [Hj Fj]]|IH]].
  - right. apply Nat.le_0_l.
  - left. exists j. split; [lia | exact Fj].
  - destruct (Nat.le_gt_cases (ncls (length g) (cr_iter g (S k))) (ncls (length g) (cr_iter g k))) as [L|L];
      [left | right; lia].
    exists k. split; [lia|]. apply ncls_eq_stable; [apply cr_iter_equiv | apply cr_iter_equiv | | exact L].
    intros u v _ _. apply cr_iter_refines.
Qed.

(** Colour refinement is stable after n rounds: [cr_fix] is a fixed point of the refinement step, and every
    later iterate is the same partition. *)
Theorem cr_fix_stable g :
  wf_graph g -> part_eq (length g) (cr_step g (cr_fix g)) (cr_fix g).
Proof.
  intros Hwf. destruct (cr_classes_grow g (S (length g))) as [[j [Hj Fj]]|H1].
  2:{ pose proof (ncls_le (length g) (cr_iter g (S (length g)))). lia. }
  pose proof (cr_stable_forever g j Hwf Fj) as Hst. intros u v Hu Hv.
  change (cr_step g (cr_fix g) u v) with (cr_iter g (S (length g)) u v). unfold cr_fix.
  rewrite (Hst (S (length g))), (Hst (length g)) by first [assumption | lia]. reflexivity.
Qed.

Lemma cr_fix_iter g k u v : k <= length g -> cr_fix g u v = true -> cr_iter g k u v = true.
Proof.
  unfold cr_fix. intros L. induction L as [|m L IH]; [auto|]. intros H. apply IH, cr_iter_refines, H.
Qed.

(** * 9. The hypothesis cannot be dropped for the table the implementation builds

    A graph on 90 nodes: the connected antiregular graph on the nodes 0..43 (i ~ j iff i + j >= 43), two
    nodes 44 and 45 joined to 22 of them each, and a clique 46..89 joined to 44 and 45. The degree classes
    are stable under refinement except that 44 and 45 see different colours; with [wl_cex_powers], the exact
    values of the float64 entries of [(-pi / 3.15) ** arange(90)], their two hashes differ by 2.4e-13 <
    epsilon, so the second round changes no label and the kernel stops. (The real implementation returns the
    same colours on this graph: harness/props/c02.py runs it.) *)
Definition wl_cex_g : graph :=
  [[43; 44];
   [42; 43; 44];
   [41; 42; 43; 45];
   [40; 41; 42; 43; 45];
   [39; 40; 41; 42; 43; 45];
   [38; 39; 40; 41; 42; 43; 44];
   [37; 38; 39; 40; 41; 42; 43; 45];
   [36; 37; 38; 39; 40; 41; 42; 43; 45];
   [35; 36; 37; 38; 39; 40; 41; 42; 43; 45];
   [34; 35; 36; 37; 38; 39; 40; 41; 42; 43; 44];
   [33; 34; 35; 36; 37; 38; 39; 40; 41; 42; 43; 44];
   [32; 33; 34; 35; 36; 37; 38; 39; 40; 41; 42; 43; 45];
   [31; 32; 33; 34; 35; 36; 37; 38; 39; 40; 41; 42; 43; 44];
   [30; 31; 32; 33; 34; 35; 36; 37; 38; 39; 40; 41; 42; 43; 44];
   [29; 30; 31; 32; 33; 34; 35; 36; 37; 38; 39; 40; 41; 42; 43; 44];
   [28; 29; 30; 31; 32; 33; 34; 35; 36; 37; 38; 39; 40; 41; 42; 43; 45];
   [27; 28; 29; 30; 31; 32; 33; 34; 35; 36; 37; 38; 39; 40; 41; 42; 43; 45];
   [26; 27; 28; 29; 30; 31; 32; 33; 34; 35; 36; 37; 38; 39; 40; 41; 42; 43; 44];
   [25; 26; 27; 28; 29; 30; 31; 32; 33; 34; 35; 36; 37; 38; 39; 40; 41; 42; 43; 45];
   [24; 25; 26; 27; 28; 29; 30; 31; 32; 33; 34; 35; 36; 37; 38; 39; 40; 41; 42; 43; 45];
   [23; 24; 25; 26; 27; 28; 29; 30; 31; 32; 33; 34; 35; 36; 37; 38; 39; 40; 41; 42; 43; 44];
   [22; 23; 24; 25; 26; 27; 28; 29; 30; 31; 32; 33; 34; 35; 36; 37; 38; 39; 40; 41; 42; 43; 44];
   [21; 23; 24; 25; 26; 27; 28; 29; 30; 31; 32; 33; 34; 35; 36; 37; 38; 39; 40; 41; 42; 43; 45];
   [20; 21; 22; 24; 25; 26; 27; 28; 29; 30; 31; 32; 33; 34; 35; 36; 37; 38; 39; 40; 41; 42; 43; 44];
   [19; 20; 21; 22; 23; 25; 26; 27; 28; 29; 30; 31; 32; 33; 34; 35; 36; 37; 38; 39; 40; 41; 42; 43; 44];
   [18; 19; 20; 21; 22; 23; 24; 26; 27; 28; 29; 30; 31; 32; 33; 34; 35; 36; 37; 38; 39; 40; 41; 42; 43; 44];
   [17; 18; 19; 20; 21; 22; 23; 24; 25; 27; 28; 29; 30; 31; 32; 33; 34; 35; 36; 37; 38; 39; 40; 41; 42; 43; 45];
   [16; 17; 18; 19; 20; 21; 22; 23; 24; 25; 26; 28; 29; 30; 31; 32; 33; 34; 35; 36; 37; 38; 39; 40; 41; 42; 43; 44];
   [15; 16; 17; 18; 19; 20; 21; 22; 23; 24; 25; 26; 27; 29; 30; 31; 32; 33; 34; 35; 36; 37; 38; 39; 40; 41; 42; 43; 45];
   [14; 15; 16; 17; 18; 19; 20; 21; 22; 23; 24; 25; 26; 27; 28; 30; 31; 32; 33; 34; 35; 36; 37; 38; 39; 40; 41; 42; 43; 45];
   [13; 14; 15; 16; 17; 18; 19; 20; 21; 22; 23; 24; 25; 26; 27; 28; 29; 31; 32; 33; 34; 35; 36; 37; 38; 39; 40; 41; 42; 43; 45];
   [12; 13; 14; 15; 16; 17; 18; 19; 20; 21; 22; 23; 24; 25; 26; 27; 28; 29; 30; 32; 33; 34; 35; 36; 37; 38; 39; 40; 41; 42; 43; 44];
   [11; 12; 13; 14; 15; 16; 17; 18; 19; 20; 21; 22; 23; 24; 25; 26; 27; 28; 29; 30; 31; 33; 34; 35; 36; 37; 38; 39; 40; 41; 42; 43; 44];
   [10; 11; 12; 13; 14; 15; 16; 17; 18; 19; 20; 21; 22; 23; 24; 25; 26; 27; 28; 29; 30; 31; 32; 34; 35; 36; 37; 38; 39; 40; 41; 42; 43; 45];
   [9; 10; 11; 12; 13; 14; 15; 16; 17; 18; 19; 20; 21; 22; 23; 24; 25; 26; 27; 28; 29; 30; 31; 32; 33; 35; 36; 37; 38; 39; 40; 41; 42; 43; 44];
   [8; 9; 10; 11; 12; 13; 14; 15; 16; 17; 18; 19; 20; 21; 22; 23; 24; 25; 26; 27; 28; 29; 30; 31; 32; 33; 34; 36; 37; 38; 39; 40; 41; 42; 43; 44];
   [7; 8; 9; 10; 11; 12; 13; 14; 15; 16; 17; 18; 19; 20; 21; 22; 23; 24; 25; 26; 27; 28; 29; 30; 31; 32; 33; 34; 35; 37; 38; 39; 40; 41; 42; 43; 44];
   [6; 7; 8; 9; 10; 11; 12; 13; 14; 15; 16; 17; 18; 19; 20; 21; 22; 23; 24; 25; 26; 27; 28; 29; 30; 31; 32; 33; 34; 35; 36; 38; 39; 40; 41; 42; 43; 44];
   [5; 6; 7; 8; 9; 10; 11; 12; 13; 14; 15; 16; 17; 18; 19; 20; 21; 22; 23; 24; 25; 26; 27; 28; 29; 30; 31; 32; 33; 34; 35; 36; 37; 39; 40; 41; 42; 43; 45];
   [4; 5; 6; 7; 8; 9; 10; 11; 12; 13; 14; 15; 16; 17; 18; 19; 20; 21; 22; 23; 24; 25; 26; 27; 28; 29; 30; 31; 32; 33; 34; 35; 36; 37; 38; 40; 41; 42; 43; 45];
   [3; 4; 5; 6; 7; 8; 9; 10; 11; 12; 13; 14; 15; 16; 17; 18; 19; 20; 21; 22; 23; 24; 25; 26; 27; 28; 29; 30; 31; 32; 33; 34; 35; 36; 37; 38; 39; 41; 42; 43; 45];
   [2; 3; 4; 5; 6; 7; 8; 9; 10; 11; 12; 13; 14; 15; 16; 17; 18; 19; 20; 21; 22; 23; 24; 25; 26; 27; 28; 29; 30; 31; 32; 33; 34; 35; 36; 37; 38; 39; 40; 42; 43; 45];
   [1; 2; 3; 4; 5; 6; 7; 8; 9; 10; 11; 12; 13; 14; 15; 16; 17; 18; 19; 20; 21; 22; 23; 24; 25; 26; 27; 28; 29; 30; 31; 32; 33; 34; 35; 36; 37; 38; 39; 40; 41; 43; 44];
   [0; 1; 2; 3; 4; 5; 6; 7; 8; 9; 10; 11; 12; 13; 14; 15; 16; 17; 18; 19; 20; 21; 22; 23; 24; 25; 26; 27; 28; 29; 30; 31; 32; 33; 34; 35; 36; 37; 38; 39; 40; 41; 42; 45];
   [0; 1; 5; 9; 10; 12; 13; 14; 17; 20; 21; 23; 24; 25; 27; 31; 32; 34; 35; 36; 37; 42; 46; 47; 48; 49; 50; 51; 52; 53; 54; 55; 56; 57; 58; 59; 60; 61; 62; 63; 64; 65; 66; 67; 68; 69; 70; 71; 72; 73; 74; 75; 76; 77; 78; 79; 80; 81; 82; 83; 84; 85; 86; 87; 88; 89];
   [2; 3; 4; 6; 7; 8; 11; 15; 16; 18; 19; 22; 26; 28; 29; 30; 33; 38; 39; 40; 41; 43; 46; 47; 48; 49; 50; 51; 52; 53; 54; 55; 56; 57; 58; 59; 60; 61; 62; 63; 64; 65; 66; 67; 68; 69; 70; 71; 72; 73; 74; 75; 76; 77; 78; 79; 80; 81; 82; 83; 84; 85; 86; 87; 88; 89];
   [44; 45; 47; 48; 49; 50; 51; 52; 53; 54; 55; 56; 57; 58; 59; 60; 61; 62; 63; 64; 65; 66; 67; 68; 69; 70; 71; 72; 73; 74; 75; 76; 77; 78; 79; 80; 81; 82; 83; 84; 85; 86; 87; 88; 89];
   [44; 45; 46; 48; 49; 50; 51; 52; 53; 54; 55; 56; 57; 58; 59; 60; 61; 62; 63; 64; 65; 66; 67; 68; 69; 70; 71; 72; 73; 74; 75; 76; 77; 78; 79; 80; 81; 82; 83; 84; 85; 86; 87; 88; 89];
   [44; 45; 46; 47; 49; 50; 51; 52; 53; 54; 55; 56; 57; 58; 59; 60; 61; 62; 63; 64; 65; 66; 67; 68; 69; 70; 71; 72; 73; 74; 75; 76; 77; 78; 79; 80; 81; 82; 83; 84; 85; 86; 87; 88; 89];
   [44; 45; 46; 47; 48; 50; 51; 52; 53; 54; 55; 56; 57; 58; 59; 60; 61; 62; 63; 64; 65; 66; 67; 68; 69; 70; 71; 72; 73; 74; 75; 76; 77; 78; 79; 80; 81; 82; 83; 84; 85; 86; 87; 88; 89];
   [44; 45; 46; 47; 48; 49; 51; 52; 53; 54; 55; 56; 57; 58; 59; 60; 61; 62; 63; 64; 65; 66; 67; 68; 69; 70; 71; 72; 73; 74; 75; 76; 77; 78; 79; 80; 81; 82; 83; 84; 85; 86; 87; 88; 89];
   [44; 45; 46; 47; 48; 49; 50; 52; 53; 54; 55; 56; 57; 58; 59; 60; 61; 62; 63; 64; 65; 66; 67; 68; 69; 70; 71; 72; 73; 74; 75; 76; 77; 78; 79; 80; 81; 82; 83; 84; 85; 86; 87; 88; 89];
   [44; 45; 46; 47; 48; 49; 50; 51; 53; 54; 55; 56; 57; 58; 59; 60; 61; 62; 63; 64; 65; 66; 67; 68; 69; 70; 71; 72; 73; 74; 75; 76; 77; 78; 79; 80; 81; 82; 83; 84; 85; 86; 87; 88; 89];
   [44; 45; 46; 47; 48; 49; 50; 51; 52; 54; 55; 56; 57; 58; 59; 60; 61; 62; 63; 64; 65; 66; 67; 68; 69; 70; 71; 72; 73; 74; 75; 76; 77; 78; 79; 80; 81; 82; 83; 84; 85; 86; 87; 88; 89];
   [44; 45; 46; 47; 48; 49; 50; 51; 52; 53; 55; 56; 57; 58; 59; 60; 61; 62; 63; 64; 65; 66; 67; 68; 69; 70; 71; 72; 73; 74; 75; 76; 77; 78; 79; 80; 81; 82; 83; 84; 85; 86; 87; 88; 89];
   [44; 45; 46; 47; 48; 49; 50; 51; 52; 53; 54; 56; 57; 58; 59; 60; 61; 62; 63; 64; 65; 66; 67; 68; 69; 70; 71; 72; 73; 74; 75; 76; 77; 78; 79; 80; 81; 82; 83; 84; 85; 86; 87; 88; 89];
   [44; 45; 46; 47; 48; 49; 50; 51; 52; 53; 54; 55; 57; 58; 59; 60; 61; 62; 63; 64; 65; 66; 67; 68; 69; 70; 71; 72; 73; 74; 75; 76; 77; 78; 79; 80; 81; 82; 83; 84; 85; 86; 87; 88; 89];
   [44; 45; 46; 47; 48; 49; 50; 51; 52; 53; 54; 55; 56; 58; 59; 60; 61; 62; 63; 64; 65; 66; 67; 68; 69; 70; 71; 72; 73; 74; 75; 76; 77; 78; 79; 80; 81; 82; 83; 84; 85; 86; 87; 88; 89];
   [44; 45; 46; 47; 48; 49; 50; 51; 52; 53; 54; 55; 56; 57; 59; 60; 61; 62; 63; 64; 65; 66; 67; 68; 69; 70; 71; 72; 73; 74; 75; 76; 77; 78; 79; 80; 81; 82; 83; 84; 85; 86; 87; 88; 89];
   [44; 45; 46; 47; 48; 49; 50; 51; 52; 53; 54; 55; 56; 57; 58; 60; 61; 62; 63; 64; 65; 66; 67; 68; 69; 70; 71; 72; 73; 74; 75; 76; 77; 78; 79; 80; 81; 82; 83; 84; 85; 86; 87; 88; 89];
   [44; 45; 46; 47; 48; 49; 50; 51; 52; 53; 54; 55; 56; 57; 58; 59; 61; 62; 63; 64; 65; 66; 67; 68; 69; 70; 71; 72; 73; 74; 75; 76; 77; 78; 79; 80; 81; 82; 83; 84; 85; 86; 87; 88; 89];
   [44; 45; 46; 47; 48; 49; 50; 51; 52; 53; 54; 55; 56; 57; 58; 59; 60; 62; 63; 64; 65; 66; 67; 68; 69; 70; 71; 72; 73; 74; 75; 76; 77; 78; 79; 80; 81; 82; 83; 84; 85; 86; 87; 88; 89];
   [44; 45; 46; 47; 48; 49; 50; 51; 52; 53; 54; 55; 56; 57; 58; 59; 60; 61; 63; 64; 65; 66; 67; 68; 69; 70; 71; 72; 73; 74; 75; 76; 77; 78; 79; 80; 81; 82; 83; 84; 85; 86; 87; 88; 89];
   [44; 45; 46; 47; 48; 49; 50; 51; 52; 53; 54; 55; 56; 57; 58; 59; 60; 61; 62; 64; 65; 66; 67; 68; 69; 70; 71; 72; 73; 74; 75; 76; 77; 78; 79; 80; 81; 82; 83; 84; 85; 86; 87; 88; 89];
   [44; 45; 46; 47; 48; 49; 50; 51; 52; 53; 54; 55; 56; 57; 58; 59; 60; 61; 62; 63; 65; 66; 67; 68; 69; 70; 71; 72; 73; 74; 75; 76; 77; 78; 79; 80; 81; 82; 83; 84; 85; 86; 87; 88; 89];
   [44; 45; 46; 47; 48; 49; 50; 51; 52; 53; 54; 55; 56; 57; 58; 59; 60; 61; 62; 63; 64; 66; 67; 68; 69; 70; 71; 72; 73; 74; 75; 76; 77; 78; 79; 80; 81; 82; 83; 84; 85; 86; 87; 88; 89];
   [44; 45; 46; 47; 48; 49; 50; 51; 52; 53; 54; 55; 56; 57; 58; 59; 60; 61; 62; 63; 64; 65; 67; 68; 69; 70; 71; 72; 73; 74; 75; 76; 77; 78; 79; 80; 81; 82; 83; 84; 85; 86; 87; 88; 89];
   [44; 45; 46; 47; 48; 49; 50; 51; 52; 53; 54; 55; 56; 57; 58; 59; 60; 61; 62; 63; 64; 65; 66; 68; 69; 70; 71; 72; 73; 74; 75; 76; 77; 78; 79; 80; 81; 82; 83; 84; 85; 86; 87; 88; 89];
   [44; 45; 46; 47; 48; 49; 50; 51; 52; 53; 54; 55; 56; 57; 58; 59; 60; 61; 62; 63; 64; 65; 66; 67; 69; 70; 71; 72; 73; 74; 75; 76; 77; 78; 79; 80; 81; 82; 83; 84; 85; 86; 87; 88; 89];
   [44; 45; 46; 47; 48; 49; 50; 51; 52; 53; 54; 55; 56; 57; 58; 59; 60; 61; 62; 63; 64; 65; 66; 67; 68; 70; 71; 72; 73; 74; 75; 76; 77; 78; 79; 80; 81; 82; 83; 84; 85; 86; 87; 88; 89];
   [44; 45; 46; 47; 48; 49; 50; 51; 52; 53; 54; 55; 56; 57; 58; 59; 60; 61; 62; 63; 64; 65; 66; 67; 68; 69; 71; 72; 73; 74; 75; 76; 77; 78; 79; 80; 81; 82; 83; 84; 85; 86; 87; 88; 89];
   [44; 45; 46; 47; 48; 49; 50; 51; 52; 53; 54; 55; 56; 57; 58; 59; 60; 61; 62; 63; 64; 65; 66; 67; 68; 69; 70; 72; 73; 74; 75; 76; 77; 78; 79; 80; 81; 82; 83; 84; 85; 86; 87; 88; 89];
   [44; 45; 46; 47; 48; 49; 50; 51; 52; 53; 54; 55; 56; 57; 58; 59; 60; 61; 62; 63; 64; 65; 66; 67; 68; 69; 70; 71; 73; 74; 75; 76; 77; 78; 79; 80; 81; 82; 83; 84; 85; 86; 87; 88; 89];
   [44; 45; 46; 47; 48; 49; 50; 51; 52; 53; 54; 55; 56; 57; 58; 59; 60; 61; 62; 63; 64; 65; 66; 67; 68; 69; 70; 71; 72; 74; 75; 76; 77; 78; 79; 80; 81; 82; 83; 84; 85; 86; 87; 88; 89];
   [44; 45; 46; 47; 48; 49; 50; 51; 52; 53; 54; 55; 56; 57; 58; 59; 60; 61; 62; 63; 64; 65; 66; 67; 68; 69; 70; 71; 72; 73; 75; 76; 77; 78; 79; 80; 81; 82; 83; 84; 85; 86; 87; 88; 89];
   [44; 45; 46; 47; 48; 49; 50; 51; 52; 53; 54; 55; 56; 57; 58; 59; 60; 61; 62; 63; 64; 65; 66; 67; 68; 69; 70; 71; 72; 73; 74; 76; 77; 78; 79; 80; 81; 82; 83; 84; 85; 86; 87; 88; 89];
   [44; 45; 46; 47; 48; 49; 50; 51; 52; 53; 54; 55; 56; 57; 58; 59; 60; 61; 62; 63; 64; 65; 66; 67; 68; 69; 70; 71; 72; 73; 74; 75; 77; 78; 79; 80; 81; 82; 83; 84; 85; 86; 87; 88; 89];
   [44; 45; 46; 47; 48; 49; 50; 51; 52; 53; 54; 55; 56; 57; 58; 59; 60; 61; 62; 63; 64; 65; 66; 67; 68; 69; 70; 71; 72; 73; 74; 75; 76; 78; 79; 80; 81; 82; 83; 84; 85; 86; 87; 88; 89];
   [44; 45; 46; 47; 48; 49; 50; 51; 52; 53; 54; 55; 56; 57; 58; 59; 60; 61; 62; 63; 64; 65; 66; 67; 68; 69; 70; 71; 72; 73; 74; 75; 76; 77; 79; 80; 81; 82; 83; 84; 85; 86; 87; 88; 89];
   [44; 45; 46; 47; 48; 49; 50; 51; 52; 53; 54; 55; 56; 57; 58; 59; 60; 61; 62; 63; 64; 65; 66; 67; 68; 69; 70; 71; 72; 73; 74; 75; 76; 77; 78; 80; 81; 82; 83; 84; 85; 86; 87; 88; 89];
   [44; 45; 46; 47; 48; 49; 50; 51; 52; 53; 54; 55; 56; 57; 58; 59; 60; 61; 62; 63; 64; 65; 66; 67; 68; 69; 70; 71; 72; 73; 74; 75; 76; 77; 78; 79; 81; 82; 83; 84; 85; 86; 87; 88; 89];
   [44; 45; 46; 47; 48; 49; 50; 51; 52; 53; 54; 55; 56; 57; 58; 59; 60; 61; 62; 63; 64; 65; 66; 67; 68; 69; 70; 71; 72; 73; 74; 75; 76; 77; 78; 79; 80; 82; 83; 84; 85; 86; 87; 88; 89];
   [44; 45; 46; 47; 48; 49; 50; 51; 52; 53; 54; 55; 56; 57; 58; 59; 60; 61; 62; 63; 64; 65; 66; 67; 68; 69; 70; 71; 72; 73; 74; 75; 76; 77; 78; 79; 80; 81; 83; 84; 85; 86; 87; 88; 89];
   [44; 45; 46; 47; 48; 49; 50; 51; 52; 53; 54; 55; 56; 57; 58; 59; 60; 61; 62; 63; 64; 65; 66; 67; 68; 69; 70; 71; 72; 73; 74; 75; 76; 77; 78; 79; 80; 81; 82; 84; 85; 86; 87; 88; 89];
   [44; 45; 46; 47; 48; 49; 50; 51; 52; 53; 54; 55; 56; 57; 58; 59; 60; 61; 62; 63; 64; 65; 66; 67; 68; 69; 70; 71; 72; 73; 74; 75; 76; 77; 78; 79; 80; 81; 82; 83; 85; 86; 87; 88; 89];
   [44; 45; 46; 47; 48; 49; 50; 51; 52; 53; 54; 55; 56; 57; 58; 59; 60; 61; 62; 63; 64; 65; 66; 67; 68; 69; 70; 71; 72; 73; 74; 75; 76; 77; 78; 79; 80; 81; 82; 83; 84; 86; 87; 88; 89];
   [44; 45; 46; 47; 48; 49; 50; 51; 52; 53; 54; 55; 56; 57; 58; 59; 60; 61; 62; 63; 64; 65; 66; 67; 68; 69; 70; 71; 72; 73; 74; 75; 76; 77; 78; 79; 80; 81; 82; 83; 84; 85; 87; 88; 89];
   [44; 45; 46; 47; 48; 49; 50; 51; 52; 53; 54; 55; 56; 57; 58; 59; 60; 61; 62; 63; 64; 65; 66; 67; 68; 69; 70; 71; 72; 73; 74; 75; 76; 77; 78; 79; 80; 81; 82; 83; 84; 85; 86; 88; 89];
   [44; 45; 46; 47; 48; 49; 50; 51; 52; 53; 54; 55; 56; 57; 58; 59; 60; 61; 62; 63; 64; 65; 66; 67; 68; 69; 70; 71; 72; 73; 74; 75; 76; 77; 78; 79; 80; 81; 82; 83; 84; 85; 86; 87; 89];
   [44; 45; 46; 47; 48; 49; 50; 51; 52; 53; 54; 55; 56; 57; 58; 59; 60; 61; 62; 63; 64; 65; 66; 67; 68; 69; 70; 71; 72; 73; 74; 75; 76; 77; 78; 79; 80; 81; 82; 83; 84; 85; 86; 87; 88]].
Definition wl_cex_powers : list Q :=
  [(1 # 1)%Q;
   (-8983159050194845 # 9007199254740992)%Q;
   (8959183008927235 # 9007199254740992)%Q;
   (-8935270959686445 # 9007199254740992)%Q;
   (2227855682919457 # 2251799813685248)%Q;
   (-2221909538640647 # 2251799813685248)%Q;
   (8863917058456563 # 9007199254740992)%Q;
   (-2210064818482253 # 2251799813685248)%Q;
   (8816664632001405 # 9007199254740992)%Q;
   (-8793132964146213 # 9007199254740992)%Q;
   (4384832051142855 # 4503599627370496)%Q;
   (-8746257878790767 # 9007199254740992)%Q;
   (4361457063239829 # 4503599627370496)%Q;
   (-8699632678616865 # 9007199254740992)%Q;
   (8676413368911885 # 9007199254740992)%Q;
   (-8653256031518047 # 9007199254740992)%Q;
   (4315080250515661 # 4503599627370496)%Q;
   (-4303563306244573 # 4503599627370496)%Q;
   (1073019275171155 # 1125899906842624)%Q;
   (-8561243103588433 # 9007199254740992)%Q;
   (8538393155501493 # 9007199254740992)%Q;
   (-8515604193899957 # 9007199254740992)%Q;
   (2123219014002741 # 2251799813685248)%Q;
   (-264694018109253 # 281474976710656)%Q;
   (4223800801225107 # 4503599627370496)%Q;
   (-526565935212519 # 562949953421312)%Q;
   (2100642125326081 # 2251799813685248)%Q;
   (-2095035513887513 # 2251799813685248)%Q;
   (8357775465953941 # 9007199254740992)%Q;
   (-2083867143189993 # 2251799813685248)%Q;
   (8313221216638517 # 9007199254740992)%Q;
   (-2072758309671299 # 2251799813685248)%Q;
   (8268904480419747 # 9007199254740992)%Q;
   (-8246834783784891 # 9007199254740992)%Q;
   (8224823991145201 # 9007199254740992)%Q;
   (-8202871945285983 # 9007199254740992)%Q;
   (8180978489412147 # 9007199254740992)%Q;
   (-8159143467147087 # 9007199254740992)%Q;
   (4068683361265785 # 4503599627370496)%Q;
   (-4057824050011307 # 4503599627370496)%Q;
   (8093987444492383 # 9007199254740992)%Q;
   (-4036192300613539 # 4503599627370496)%Q;
   (8050839415925829 # 9007199254740992)%Q;
   (-2007337933674899 # 2251799813685248)%Q;
   (2001980351017517 # 2251799813685248)%Q;
   (-998318533871071 # 1125899906842624)%Q;
   (3982616091367479 # 4503599627370496)%Q;
   (-992996623389569 # 1125899906842624)%Q;
   (495173158266689 # 562949953421312)%Q;
   (-7901624666745327 # 9007199254740992)%Q;
   (492533452469663 # 562949953421312)%Q;
   (-7859502099941135 # 9007199254740992)%Q;
   (3919262548896607 # 4503599627370496)%Q;
   (-977200510405015 # 1125899906842624)%Q;
   (3898369453425513 # 4503599627370496)%Q;
   (-485995588724621 # 562949953421312)%Q;
   (7755175472834621 # 9007199254740992)%Q;
   (-3867238459167777 # 4503599627370496)%Q;
   (7713833608254857 # 9007199254740992)%Q;
   (-961655674393155 # 1125899906842624)%Q;
   (3836356065976475 # 4503599627370496)%Q;
   (-7652233672016721 # 9007199254740992)%Q;
   (7631809869066723 # 9007199254740992)%Q;
   (-1902860144305881 # 2251799813685248)%Q;
   (7591125650997041 # 9007199254740992)%Q;
   (-7570864945285505 # 9007199254740992)%Q;
   (943832289421803 # 1125899906842624)%Q;
   (-7530505616935547 # 9007199254740992)%Q;
   (3755203353012919 # 4503599627370496)%Q;
   (-7490361439086441 # 9007199254740992)%Q;
   (3735184836470831 # 4503599627370496)%Q;
   (-7450431264797941 # 9007199254740992)%Q;
   (7430546072242833 # 9007199254740992)%Q;
   (-7410713953243993 # 9007199254740992)%Q;
   (7390934766148159 # 9007199254740992)%Q;
   (-460700523105009 # 562949953421312)%Q;
   (3675767311470911 # 4503599627370496)%Q;
   (-7331913385411123 # 9007199254740992)%Q;
   (3656172258470517 # 4503599627370496)%Q;
   (-3646413938879295 # 4503599627370496)%Q;
   (3636681664231941 # 4503599627370496)%Q;
   (-1813487682507265 # 2251799813685248)%Q;
   (7234589943797337 # 9007199254740992)%Q;
   (-7215280831482003 # 9007199254740992)%Q;
   (3598011627582717 # 4503599627370496)%Q;
   (-7176817077298107 # 9007199254740992)%Q;
   (7157662160697621 # 9007199254740992)%Q;
   (-55769987254279 # 70368744177664)%Q;
   (222484548887415 # 281474976710656)%Q;
   (-7100503612159413 # 9007199254740992)%Q].
Definition wl_cex_u : nat := 44.
Definition wl_cex_v : nat := 45.

(** The bound is a parameter so that it is evaluated once, not at every entry. *)
Lemma wf_graph_b (g : graph) n : length g = n -> forallb (forallb (fun v => v <? n)) g = true -> wf_graph g.
Proof.
  intros <- H u v Hin. unfold row in Hin.
  destruct (Nat.lt_ge_cases u (length g)) as [L|L].
  - rewrite forallb_forall in H. pose proof (H (nth u g []) (nth_In g [] L)) as H1.
    rewrite forallb_forall in H1. apply Nat.ltb_lt. apply H1. exact Hin.
  - rewrite nth_overflow in Hin by exact L. destruct Hin.
Qed.

(** Evaluating the colouring. [wl_hash] reduces the running sum after every addition, which is slow to
    evaluate over large denominators. When the denominators of [powers] are powers of two that divide [D]
    (as those of float64 values are), a hash is one reduction of a sum of integers over [D]; the loop of the
    kernel is restated over an arbitrary round function so that it can be run on such hashes, the integer
    of every node being tabulated once per round.
    [cofactor D d] is [D / d] for such a [d], by a shift instead of a division; [scales] tests that it is. *)
Definition cofactor (D d : positive) : Z := Z.shiftr (Zpos D) (Z.log2 (Zpos d)).
Definition scales (D : positive) (q : Q) : bool := (cofactor D (Qden q) * Zpos (Qden q) =? Zpos D)%Z.
Definition scale (D : positive) (q : Q) : Z := (Qnum q * cofactor D (Qden q))%Z.

Definition wl_round_of (sort : list wtuple -> list wtuple) (eps : Q) (labels : list nat) (ts : list wtuple)
  : list nat * bool :=
  match sort ts with
  | [] => (labels, false)
  | t0 :: rest => wl_relabel eps rest t0 0 (wl_upd labels (t_node t0) 0) false
  end.

Fixpoint wl_loop_by (round : list nat -> list nat * bool) (todo : nat) (labels : list nat) (changed : bool)
  : list nat :=
  match todo with
  | O => labels
  | S k => if changed then let r := round labels in wl_loop_by round k (fst r) (snd r) else labels
  end.

Definition colouring_scaled (D : positive) (sort : list wtuple -> list wtuple) (g : graph) (powers : list Q)
           (max_iter : Z) : list nat :=
  let zs := map (scale D) powers in
  wl_loop_by (fun L => let hz := map (nthz zs) L in
                       wl_round_of sort wl_eps L
                         (map (fun i => (nthn L i, Qred (sumz (map (fun j => nth j hz (nthz zs 0)) (row g i)) # D), i))
                              (seq 0 (length g))))
             (wl_max_iter (length g) max_iter) (repeat 0 (length g)) true.

Lemma scale_correct D q : scales D q = true -> (q == scale D q # D)%Q.
Proof.
  unfold scales, scale, Qeq. intros H. apply Z.eqb_eq in H. cbn [Qnum Qden]. rewrite <- H. ring.
Qed.

Lemma wl_hash_scaled D powers labels r :
  forallb (scales D) powers = true ->
  wl_hash powers labels r = Qred (sumz (map (nthz (map (scale D) powers)) (map (nthn labels) r)) # D).
Proof.
  intros HD. rewrite forallb_forall in HD.
  unfold wl_hash. apply Qred_complete. rewrite wl_fold_sum, Qplus_0_l. unfold hsum.
  induction (map (nthn labels) r) as [|l ls IH]; cbn [map sumq sumz fold_right]; [reflexivity|].
  rewrite IH, <- Qinv_plus_distr. apply Qplus_comp; [|reflexivity].
  unfold nthq, nthz. change (nth l (map (scale D) powers) 0%Z) with (nth l (map (scale D) powers) (scale D 0)).
  rewrite map_nth. apply scale_correct.
  destruct (nth_in_or_default l powers 0%Q) as [Hin|E]; [apply HD, Hin | rewrite E; apply Z.eqb_eq, Z.mul_1_r].
Qed.

Lemma wl_loop_by_correct round sort g powers eps :
  (forall L, round L = wl_round sort g powers eps L) ->
  forall todo L c n, wl_loop_by round todo L c = fst (fst (wl_loop sort g powers eps todo L c n)).
Proof.
  intros H. induction todo as [|k IH]; intros L [|] n; cbn [wl_loop wl_loop_by]; try reflexivity.
  rewrite H. apply IH.
Qed.

Lemma colouring_scaled_correct D sort g powers max_iter :
  forallb (scales D) powers = true ->
  color_weisfeiler_lehman sort g powers max_iter = colouring_scaled D sort g powers max_iter.
Proof.
  intros HD. symmetry. apply wl_loop_by_correct. intros L.
  change (wl_round sort g powers wl_eps L) with (wl_round_of sort wl_eps L (wl_tuples g powers L)).
  cbv zeta. f_equal. apply map_ext. intros i. rewrite (wl_hash_scaled D) by exact HD. rewrite map_map.
  do 5 f_equal. apply map_ext. intros j. apply (map_nth (nthz (map (scale D) powers)) L 0 j).
Qed.

(** Node 0 is alone in its degree class, and of the two nodes only [wl_cex_u] is joined to it. *)
Lemma wl_cex_class_0 :
  count_in (cr_iter wl_cex_g 1 0) (row wl_cex_g wl_cex_u) <> count_in (cr_iter wl_cex_g 1 0) (row wl_cex_g wl_cex_v).
Proof. vm_compute. discriminate. Qed.

Theorem wl_colouring_is_refinement_refuted :
  wf_graph wl_cex_g /\ length wl_cex_g = 90 /\ length wl_cex_powers = 90 /\
  nthn (color_weisfeiler_lehman wl_sort wl_cex_g wl_cex_powers (-1)) wl_cex_u
  = nthn (color_weisfeiler_lehman wl_sort wl_cex_g wl_cex_powers (-1)) wl_cex_v /\
  cr_fix wl_cex_g wl_cex_u wl_cex_v = false.
Proof.
  assert (Hwf : wf_graph wl_cex_g) by (apply (wf_graph_b wl_cex_g 90 eq_refl); vm_compute; reflexivity).
  split; [exact Hwf|]. split; [reflexivity|]. split; [reflexivity|]. split.
  { rewrite (wl_sort_irrelevant wl_cex_g wl_cex_powers wl_sort_front wl_sort (-1) Hwf wl_sort_front_ok wl_sort_ok).
    rewrite (colouring_scaled_correct 9007199254740992) by reflexivity.
    apply same_label_true. vm_compute. reflexivity. }
  destruct (cr_fix wl_cex_g wl_cex_u wl_cex_v) eqn:E; [|reflexivity]. exfalso.
  apply (cr_fix_iter _ 2), cr_step_true in E; [|vm_compute; lia].
  apply wl_cex_class_0, E. vm_compute. lia.
Qed.
