(** Totality of the Paris nearest-neighbour chain in exact arithmetic (property C07).

    On every admissible input (symmetric positive weights, positive node weights, n >= 1) the run of the model
    of sknetwork/hierarchy/paris.pyx with [R = exact], [clamp = false] ends normally within the fuel
    [paris_fuel n = 3 n + 2]: no KeyError, no IndexError, never out of fuel.

    Proof: the invariant [SI] of ParisReducible is strengthened with
      - liveness: the keys of [cluster_sizes] have rows, and are closed under "is a neighbour of";
      - the chain has no duplicates and its entries are keys of [cluster_sizes];
      - for consecutive chain entries z above x: z is a neighbour of x, sim(x,z) is the maximum of sim(x,.) and
        z is the smallest index attaining it (the tie rule of the search).
    The chain never closes a cycle of length >= 3 ([no_cycle]): the similarities along such a cycle would all be
    equal and the tie rule would give c_(i+2) < c_i around the cycle.
    Potential: 3 |cluster_sizes| - |chain| decreases at every step. *)
From Coq Require Import Permutation Lia QArith Lqa Psatz.
From SKN Require Import Base.Util Model.Dendrogram Model.Cuts Model.Hierarchy Model.Paris Proofs.DendroBase Proofs.ParisProofs Proofs.ParisReducible.
Set Warnings "-notation-overridden".

Lemma nn_search_tie : forall nn0 (l : list (nat * option Q)) nn m,
  (forall c s, In (c, s) l -> s <> None) ->
  nn_search nn0 l = (nn, Some m) ->
  forall c' s', In (c', Some s') l -> (s' == m)%Q -> nn <= c'.
Proof.
  intros nn0 l nn m Hs H c' s' Hin Hq.
  destruct (nn_search_spec nn0 l nn (Some m)) as (m' & E & _ & B); [intros ->; destruct Hin | exact Hs | exact H |].
  inversion E; subst m'. now apply (B c' s').
Qed.

Lemma min_index (a : nat -> nat) m : exists k, k <= m /\ forall i, i <= m -> a k <= a i.
Proof.
  induction m as [|m (k & Hk & Hmin)].
  - exists 0. split; [lia|]. intros i Hi. now replace i with 0 by lia.
  - destruct (le_lt_dec (a k) (a (S m))) as [L|L].
    + exists k. split; [lia|]. intros i Hi. destruct (Nat.eq_dec i (S m)) as [->|]; [exact L | apply Hmin; lia].
    + exists (S m). split; [lia|]. intros i Hi. destruct (Nat.eq_dec i (S m)) as [->|]; [lia|].
      specialize (Hmin i). lia.
Qed.

(** No cyclic sequence [a 0 .. a (S k)] increases strictly at every second step: look two steps before its minimum. *)
Lemma alt_cycle (a : nat -> nat) k : 1 <= k ->
  (forall i, i < k -> a i < a (S (S i))) -> a (S k) < a 1 -> a k < a 0 -> False.
Proof.
  intros Hk H1 H2 H3. destruct (min_index a (S k)) as (j & Hj & Hmin). destruct j as [|[|j]].
  - specialize (Hmin k). lia.
  - specialize (Hmin (S k)). lia.
  - specialize (H1 j). specialize (Hmin j). lia.
Qed.

(** What [pairT g x z] says about a [y] that has [x] as a neighbour. *)
Lemma pairT_cmp g x z y : GI g -> pairT g x z -> isnb g y x ->
  (simq g y x <= simq g x z)%Q /\ ((simq g y x == simq g x z)%Q -> z <= y).
Proof.
  intros HG (_ & Hmax & Htie) Hy. apply (isnb_sym g y x HG) in Hy. rewrite (simq_sym g y x HG).
  split; [now apply Hmax | now apply Htie].
Qed.

Lemma no_cycle g (a : nat -> nat) k : GI g -> 1 <= k ->
  (forall i, i <= k -> pairT g (a (S i)) (a i)) ->
  pairT g (a 0) (a (S k)) ->
  (forall i j, i <= S k -> j <= S k -> a i = a j -> i = j) -> False.
Proof.
  intros HG Hk P PQ ND.
  set (v := fun i => simq g (a (S i)) (a i)).
  set (vt := simq g (a 0) (a (S k))).
  assert (C : forall i, i < k -> (v (S i) <= v i)%Q /\ ((v (S i) == v i)%Q -> a i <= a (S (S i)))).
  { intros i Hi. apply (pairT_cmp g _ _ _ HG); [apply P; lia | apply (P (S i)); lia]. }
  assert (Ctop : (v 0%nat <= vt)%Q /\ ((v 0%nat == vt)%Q -> a (S k) <= a 1)).
  { apply (pairT_cmp g _ _ _ HG PQ). apply (P 0). lia. }
  assert (Cbot : (vt <= v k)%Q /\ ((vt == v k)%Q -> a k <= a 0)).
  { apply (pairT_cmp g _ _ _ HG); [apply P; lia | apply PQ]. }
  assert (Mono : forall d i, i + d <= k -> (v (i + d)%nat <= v i)%Q).
  { induction d as [|d IH]; intros i Hi.
    - rewrite Nat.add_0_r. lra.
    - rewrite Nat.add_succ_r. assert (A : (v (i + d)%nat <= v i)%Q) by (apply IH; lia).
      assert (B : (v (S (i + d)) <= v (i + d)%nat)%Q) by (apply C; lia). lra. }
  assert (All : forall i, i <= k -> (v i == vt)%Q).
  { intros i Hi. assert (A : (v i <= v 0%nat)%Q) by (apply (Mono i 0); lia).
    assert (B : (v (i + (k - i))%nat <= v i)%Q) by (apply Mono; lia).
    replace (i + (k - i)) with k in B by lia. destruct Ctop, Cbot. lra. }
  apply (alt_cycle a k Hk).
  - intros i Hi. assert (L : a i <= a (S (S i))) by (apply (C i Hi); rewrite !All by lia; reflexivity).
    assert (a i <> a (S (S i))) by (intros E; apply ND in E; lia). lia.
  - assert (L : a (S k) <= a 1) by (apply Ctop, All; lia).
    assert (a (S k) <> a 1) by (intros E; apply ND in E; lia). lia.
  - assert (L : a k <= a 0) by (apply Cbot; symmetry; apply All; lia).
    assert (a k <> a 0) by (intros E; apply ND in E; lia). lia.
Qed.

Lemma chain_all_nth (P : nat -> nat -> Prop) : forall c, chain_all P c ->
  forall i, S i < length c -> P (nth (S i) c 0) (nth i c 0).
Proof.
  induction c as [|z t IH]; intros H i Hi; [cbn in Hi; lia|].
  destruct H as [A C]. destruct i as [|i].
  - destruct t as [|x t']; [cbn in Hi; lia|]. exact A.
  - cbn [nth]. apply IH; [exact C|]. cbn [length] in Hi. lia.
Qed.

Lemma pairT_ext g g' : ag_nb g = ag_nb g' -> ag_wout g = ag_wout g' -> ag_win g = ag_win g' ->
  forall x z, pairT g x z -> pairT g' x z.
Proof.
  intros H1 H2 H3 x z. unfold pairT, isnb, simq, pq, nbw, den, wo, wi. rewrite <- H1, <- H2, <- H3. auto.
Qed.

Record TI (g : agraph) (chain : list nat) (comps : list (nat * nat)) : Prop := {
  ti_nd : NoDup (akeys (ag_size g));
  ti_live : forall x, In x (akeys (ag_size g)) -> live g x;
  ti_closed : forall x y, In x (akeys (ag_size g)) -> isnb g x y -> In y (akeys (ag_size g));
  ti_cnd : NoDup chain;
  ti_cin : forall x, In x chain -> In x (akeys (ag_size g));
  ti_pairs : chain_all (pairT g) chain;
  ti_ne : ag_size g <> [] \/ comps <> [] }.

Lemma TI_start g comps node : TI g [] comps -> In node (akeys (ag_size g)) -> TI g [node] comps.
Proof.
  intros [T1 T2 T3 T4 T5 T6 T7] Hin. constructor; try assumption.
  - constructor; [intros [] | constructor].
  - intros x [<-|[]]. exact Hin.
  - cbn. tauto.
Qed.

Lemma TI_comp g node chain comps s : GI g -> TI g (node :: chain) comps ->
  (forall c, ~ isnb g node c) ->
  TI {| ag_next := ag_next g; ag_nb := ag_nb g; ag_size := aremove node (ag_size g);
        ag_wout := ag_wout g; ag_win := ag_win g |} chain (comps ++ [(node, s)]).
Proof.
  intros HG [T1 T2 T3 T4 T5 T6 T7] Hno. inversion T4 as [|? ? Hnin Hnd]; subst.
  constructor; cbn [ag_size].
  - now apply NoDup_aremove.
  - intros x H. apply akeys_aremove_In in H. exact (T2 x H).
  - intros x y H Hy. change (isnb g x y) in Hy. apply akeys_aremove_iff in H; [|exact T1]. destruct H as [H Hx].
    apply akeys_aremove_neq; [now apply (T3 x y)|]. intros ->. apply (Hno x). now apply isnb_sym.
  - exact Hnd.
  - intros x H. apply akeys_aremove_neq; [apply T5; now right|]. intros ->. tauto.
  - destruct T6 as [_ C]. revert C. apply chain_all_impl. intros x z _ _. now apply pairT_ext.
  - right. intros E. apply app_eq_nil in E. destruct E; discriminate.
Qed.

Lemma TI_push g node chain comps nn : TI g (node :: chain) comps ->
  pairT g node nn -> ~ In nn (node :: chain) -> TI g (nn :: node :: chain) comps.
Proof.
  intros [T1 T2 T3 T4 T5 T6 T7] P Hnin. constructor; try assumption.
  - now constructor.
  - intros x [<-|H]; [|now apply T5]. apply (T3 node nn); [apply T5; now left | apply P].
  - split; [exact P | exact T6].
Qed.

Lemma keys_mg_sizes (sz : list (nat * nat)) a b new s x : NoDup (akeys sz) ->
  (In x (akeys (aremove b (aremove a sz) ++ [(new, s)])) <-> (In x (akeys sz) /\ x <> a /\ x <> b) \/ x = new).
Proof.
  intros Hnd. rewrite akeys_app, in_app_iff.
  rewrite akeys_aremove_iff by now apply NoDup_aremove. rewrite akeys_aremove_iff by exact Hnd.
  cbn. intuition.
Qed.

Lemma TI_merge n g a b chain rows comps ra rb s1 s2 : SI n g (a :: b :: chain) rows ->
  TI g (a :: b :: chain) comps ->
  alookup a (ag_nb g) = Some ra -> alookup b (ag_nb g) = Some rb ->
  TI (mg exact g a b ra rb s1 s2) chain comps.
Proof.
  intros HS [T1 T2 T3 T4 T5 T6 T7] Ea Eb.
  pose proof (si_g _ _ _ _ HS) as HG. pose proof (si_size _ _ _ _ HS) as Hsz.
  inversion T4 as [|? ? Hna Hnd1]; subst. inversion Hnd1 as [|? ? Hnb Hnd2]; subst.
  pose proof (row_lt g a _ HG Ea) as La.
  pose proof (row_lt g b _ HG Eb) as Lb.
  constructor; cbn [mg ag_size].
  - apply NoDup_akeys_app_fresh; [now apply NoDup_aremove, NoDup_aremove|].
    intros H. apply akeys_aremove_In, akeys_aremove_In, Hsz in H. lia.
  - intros x H. apply keys_mg_sizes in H; [|exact T1]. apply live_mg; [exact HG|].
    destruct H as [(H & Xa & Xb)| -> ]; [right; split; [now apply T2 | tauto] | now left].
  - intros x y H Hy. apply keys_mg_sizes; [exact T1|]. apply keys_mg_sizes in H; [|exact T1].
    destruct (Nat.eq_dec y (ag_next g)) as [->|Yn]; [now right|]. left.
    destruct H as [(H & Xa & Xb)| -> ].
    + assert (Xn : x <> ag_next g) by (apply Hsz in H; lia).
      destruct (isnb_mg_old g a b ra rb s1 s2 HG Ea Eb x y Xa Xb Xn Yn Hy) as (Ya & Yb & Hy').
      split; [now apply (T3 x y) | tauto].
    + destruct (isnb_mg_new g a b ra rb s1 s2 HG Ea Eb y Hy) as (Ya & Yb & [H|H]).
      * split; [apply (T3 a y); [apply T5; now left | exact H] | tauto].
      * split; [apply (T3 b y); [apply T5; right; now left | exact H] | tauto].
  - exact Hnd2.
  - intros x H. apply keys_mg_sizes; [exact T1|]. left. split; [apply T5; right; now right|].
    split; intros ->; [apply Hna; now right | tauto].
  - assert (Hc : forall x, In x chain -> live g x /\ x <> a /\ x <> b).
    { intros x H. split; [apply T2, T5; right; now right|]. split; intros ->; [apply Hna; now right | tauto]. }
    destruct T6 as [_ [_ C]]. revert C. apply chain_all_impl. intros x z Hx Hz.
    destruct (Hc x Hx) as (Lx & Xa & Xb). destruct (Hc z Hz) as (Lz & Za & Zb).
    apply pairT_mg; try assumption. now apply (gi_lt g HG).
  - left. intros E. apply app_eq_nil in E. destruct E; discriminate.
Qed.

Definition TIs (st : Paris.pstate) : Prop := TI (p_ag st) (p_chain st) (p_comps st).

Lemma ag_merge_ok g a b ra rb s1 s2 :
  alookup a (ag_nb g) = Some ra -> alookup b (ag_nb g) = Some rb ->
  alookup a (ag_size g) = Some s1 -> alookup b (ag_size g) = Some s2 -> a <> b ->
  ag_merge exact g a b = Ok (mg exact g a b ra rb s1 s2).
Proof.
  intros E1 E2 E3 E4 Hne. unfold ag_merge. rewrite E1, E2, E3, E4. apply Nat.eqb_neq in Hne. rewrite Hne. reflexivity.
Qed.

Lemma chain_le g chain comps : TI g chain comps -> length chain <= length (ag_size g).
Proof.
  intros HT. rewrite <- (map_length fst (ag_size g)). apply NoDup_incl_length; [exact (ti_cnd _ _ _ HT)|].
  intros x H. exact (ti_cin _ _ _ HT x H).
Qed.

Lemma push_fresh g node last chain' nn : GI g -> NoDup (node :: last :: chain') ->
  chain_all (pairT g) (node :: last :: chain') -> pairT g node nn -> In nn chain' -> False.
Proof.
  intros HG Hnd HC PT Hin.
  destruct (In_nth chain' nn 0 Hin) as (i & Hi & Hnth).
  set (c := node :: last :: chain') in *.
  apply (no_cycle g (fun k => nth k c 0) (S i) HG).
  - lia.
  - intros k Hk. apply (chain_all_nth (pairT g) c HC). unfold c. cbn [length]. lia.
  - unfold c. cbn [nth]. rewrite Hnth. exact PT.
  - intros k j Hk Hj E. apply (proj1 (NoDup_nth c 0) Hnd); try exact E; unfold c; cbn [length]; lia.
Qed.

Lemma step_total n st : SIs n st -> TIs st ->
  match paris_step exact false st with
  | Running st' => TIs st' /\
      3 * length (ag_size (p_ag st')) + length (p_chain st) + 1 <=
      3 * length (ag_size (p_ag st)) + length (p_chain st')
  | Finished st' => st' = st /\ p_comps st <> []
  | Failed _ => False
  end.
Proof.
  destruct st as [g chain rows comps pnn hgt mar ties]. unfold SIs, TIs, paris_step. cbv zeta.
  cbn [p_ag p_chain p_rows p_comps p_nn p_hgt p_margin p_ties]. intros HS HT.
  pose proof (si_g _ _ _ _ HS) as HG.
  destruct chain as [|node chain].
  - destruct (ag_size g) as [|[node sz] t] eqn:Es.
    + split; [reflexivity|]. destruct (ti_ne _ _ _ HT) as [H|H]; [congruence | exact H].
    + cbn [p_ag p_chain p_comps]. split.
      * apply TI_start; [exact HT | rewrite Es; now left].
      * rewrite ?Es. cbn [length]. lia.
  - assert (Hin : In node (akeys (ag_size g))) by (apply (ti_cin _ _ _ HT); now left).
    pose proof (ti_live _ _ _ HT node Hin) as Lnode. unfold live in Lnode.
    destruct (alookup node (ag_nb g)) as [row|] eqn:Er; [|congruence].
    destruct (In_key_alookup node _ Hin) as [s Esz].
    destruct (filter (fun c => negb (Nat.eqb c node)) (akeys row)) as [|c0 nbrs] eqn:En.
    + rewrite Esz. cbn [p_ag p_chain p_comps]. split.
      * apply TI_comp; [exact HG | exact HT |]. intros c Hc. apply (nbrs_isnb _ node row c Er) in Hc.
        rewrite En in Hc. destruct Hc.
      * cbn [ag_size length]. pose proof (aremove_length _ _ _ Esz). lia.
    + destruct (nn_search _ _) as [nn mx] eqn:Es.
      rewrite <- En in Es.
      apply (search_g g node row) in Es; [|exact HG | exact Er | rewrite En; discriminate].
      destruct Es as (PT & m & -> & Hm).
      assert (Hne : node <> nn) by (apply PT).
      destruct chain as [|last chain'].
      * cbn [p_ag p_chain p_comps]. split.
        -- apply TI_push; [exact HT | exact PT |]. intros [E|[]]. congruence.
        -- cbn [length]. lia.
      * destruct (Nat.eqb last nn) eqn:El.
        -- apply Nat.eqb_eq in El. subst last.
           assert (Hin2 : In nn (akeys (ag_size g))) by (apply (ti_cin _ _ _ HT); right; now left).
           destruct (In_key_alookup nn _ Hin2) as [s2 Esz2]. rewrite Esz, Esz2.
           pose proof (ti_live _ _ _ HT nn Hin2) as Lnn. unfold live in Lnn.
           destruct (alookup nn (ag_nb g)) as [rb|] eqn:Eb; [|congruence].
           rewrite (ag_merge_ok g node nn row rb s s2 Er Eb Esz Esz2 Hne).
           cbn [p_ag p_chain p_comps]. split.
           ++ apply (TI_merge n g node nn chain' rows comps); assumption.
           ++ cbn [mg ag_size]. rewrite app_length. cbn [length].
              pose proof (aremove_length _ _ _ Esz) as L1.
              assert (Esz2' : alookup nn (aremove node (ag_size g)) = Some s2)
                by (rewrite alookup_aremove_neq by congruence; exact Esz2).
              pose proof (aremove_length _ _ _ Esz2') as L2. lia.
        -- apply Nat.eqb_neq in El. cbn [p_ag p_chain p_comps]. split.
           ++ apply TI_push; [exact HT | exact PT |]. intros [E|[E|Hdeep]]; [congruence | congruence |].
              exact (push_fresh g node last chain' nn HG (ti_cnd _ _ _ HT) (ti_pairs _ _ _ HT) PT Hdeep).
           ++ cbn [length]. lia.
Qed.

Lemma run_total n : forall fuel st, SIs n st -> TIs st ->
  3 * length (ag_size (p_ag st)) < fuel + length (p_chain st) ->
  exists st', paris_run exact false fuel st = Some (Ok st') /\ p_comps st' <> [].
Proof.
  induction fuel as [|f IH]; intros st HS HT Hf.
  - pose proof (chain_le _ _ _ HT). lia.
  - cbn [paris_run]. pose proof (step_total n st HS HT) as Hst.
    destruct (paris_step exact false st) as [st1|st1|e] eqn:E.
    + destruct Hst as [HT1 Hm]. apply IH; [now apply (step_SI n st) | exact HT1 | lia].
    + destruct Hst as [-> Hc]. exists st. split; [reflexivity | exact Hc].
    + destruct Hst.
Qed.

Lemma TI_init n G wout win : 1 <= n -> graph_ok n G -> weights_ok n wout -> weights_ok n win ->
  TIs (paris_init (ag_init exact n G wout win)).
Proof.
  intros Hn HGr Ho Hi. pose proof (GI_init n G wout win HGr Ho Hi) as HG.
  unfold TIs, paris_init. cbn [p_ag p_chain p_comps]. constructor.
  - unfold ag_init. cbn [ag_size]. rewrite akeys_map_const. apply seq_NoDup.
  - intros x H. unfold ag_init in H. cbn [ag_size] in H. rewrite akeys_map_const in H. apply in_seq in H.
    unfold live, ag_init. cbn [ag_nb]. rewrite alookup_map_keyed_in by (apply in_seq; lia). discriminate.
  - intros x y H Hy. destruct (isnb_live _ x y HG Hy) as [_ Ly]. apply live_init in Ly.
    unfold ag_init. cbn [ag_size]. rewrite akeys_map_const. apply in_seq. lia.
  - constructor.
  - intros x [].
  - exact I.
  - left. unfold ag_init. cbn [ag_size]. destruct n; [lia|]. cbn. discriminate.
Qed.

(** The loop itself ends normally within the fuel, with at least one connected component recorded. *)
Theorem paris_run_total : forall n G wout win,
  1 <= n -> graph_ok n G -> weights_ok n wout -> weights_ok n win ->
  exists st, paris_run exact false (paris_fuel n) (paris_init (ag_init exact n G wout win)) = Some (Ok st) /\
             p_comps st <> [].
Proof.
  intros n G wout win Hn HG Ho Hi. apply (run_total n).
  - now apply SI_init.
  - now apply TI_init.
  - unfold paris_fuel, paris_init, ag_init. cbn [p_ag p_chain ag_size length]. rewrite map_length, seq_length. lia.
Qed.

Theorem paris_total : forall hinf n G wout win,
  1 <= n -> graph_ok n G -> weights_ok n wout -> weights_ok n win ->
  exists D m t, paris_core exact false hinf n G wout win = Some (Ok (D, m, t)).
Proof.
  intros hinf n G wout win Hn HG Ho Hi. unfold paris_core.
  destruct (paris_run_total n G wout win Hn HG Ho Hi) as (st & Erun & Hc).
  rewrite Erun. unfold paris_finish. destruct (rev (p_comps st)) as [|[node cs] rest] eqn:Er.
  - exfalso. apply Hc. rewrite <- (rev_involutive (p_comps st)), Er. reflexivity.
  - eexists _, _, _. reflexivity.
Qed.

(** Totality and reducibility together: on admissible inputs the exact model returns a dendrogram, and its
    heights are monotone as soon as [hinf] bounds them. *)
Corollary paris_total_reducible : forall hinf n G wout win,
  1 <= n -> graph_ok n G -> weights_ok n wout -> weights_ok n win ->
  exists D m t, paris_core exact false hinf n G wout win = Some (Ok (D, m, t)) /\
                ((forall r, In r D -> (r_height r <= hinf)%Q) -> hmono n D = true).
Proof.
  intros hinf n G wout win Hn HG Ho Hi.
  destruct (paris_total hinf n G wout win Hn HG Ho Hi) as (D & m & t & E).
  exists D, m, t. split; [exact E|]. intros Hinf. exact (paris_reducible hinf n G wout win D m t HG Ho Hi E Hinf).
Qed.

(** Non-vacuity: the hypotheses hold on the 6-node example of ParisReducible, and the conclusion is the
    computed one. *)
Example paris_total_example_hyps : 1 <= 6 /\ graph_ok 6 ex_G /\ weights_ok 6 ex_w.
Proof. destruct paris_reducible_example_hyps as (A & B & _). split; [lia|]. split; [exact A | exact B]. Qed.

Example paris_total_example :
  exists D m t, paris_core exact false (1000#1)%Q 6 ex_G ex_w ex_w = Some (Ok (D, m, t)).
Proof.
  destruct paris_total_example_hyps as (Hn & HG & Hw). exact (paris_total (1000#1)%Q 6 ex_G ex_w ex_w Hn HG Hw Hw).
Qed.

Example paris_total_example_computed :
  match paris_core exact false (1000#1)%Q 6 ex_G ex_w ex_w with
  | Some (Ok (D, _, _)) => length D = 5
  | _ => False
  end.
Proof. vm_compute. reflexivity. Qed.

Print Assumptions paris_total.
Print Assumptions paris_run_total.
Print Assumptions paris_total_reducible.
Print Assumptions no_cycle.
Print Assumptions nn_search_tie.
