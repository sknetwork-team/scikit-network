(** Proofs about the ingestion model (Model/Parse.v). *)
From Coq Require Import String Ascii.
From SKN Require Import Base.Util Model.PathSafe Model.Parse Proofs.PathSafeProofs.
From Coq Require Import Lia.

Lemma combine_map {A B C} (f : A -> B) (g : A -> C) l :
  combine (map f l) (map g l) = map (fun x => (f x, g x)) l.
Proof. induction l as [|x t IH]; simpl; [reflexivity|]. rewrite IH. reflexivity. Qed.

Lemma filter_map {A B} (F : A -> B) (P : B -> bool) l :
  filter P (map F l) = map F (filter (fun x => P (F x)) l).
Proof.
  induction l as [|x t IH]; simpl; [reflexivity|].
  destruct (P (F x)); simpl; rewrite IH; reflexivity.
Qed.

Lemma pos_eqb_eq p q : pos_eqb p q = true <-> p = q.
Proof.
  destruct p as [a b], q as [c d]. unfold pos_eqb. simpl.
  rewrite andb_true_iff, !Nat.eqb_eq. split; [intros [-> ->]; reflexivity|intros H; inversion H; auto].
Qed.

Lemma pos_eqb_sym p q : pos_eqb p q = pos_eqb q p.
Proof. unfold pos_eqb. rewrite (Nat.eqb_sym (fst p)), (Nat.eqb_sym (snd p)). reflexivity. Qed.

Lemma dsum_false l : dsum false l = sumz l.
Proof. reflexivity. Qed.

Definition nz (w : Z) : Z := if (w =? 0)%Z then 0%Z else 1%Z.

Lemma dsum_true_nz l :
  dsum true (map nz l) = if existsb (fun w => negb (w =? 0)%Z) l then 1%Z else 0%Z.
Proof.
  unfold dsum. induction l as [|x t IH]; simpl; [reflexivity|]. rewrite IH.
  unfold dadd, nz. destruct (x =? 0)%Z; simpl; destruct (existsb _ t); reflexivity.
Qed.

Lemma existsb_eqb_In {A} (eqb : A -> A -> bool) a l :
  (forall x y, eqb x y = true <-> x = y) -> existsb (eqb a) l = true <-> In a l.
Proof.
  intros eqb_eq. rewrite existsb_exists. split.
  - intros [b [Hb E]]. apply eqb_eq in E. subst. exact Hb.
  - intros H. exists a. split; [exact H|apply eqb_eq; reflexivity].
Qed.

Lemma existsb_pos_In p l : existsb (pos_eqb p) l = true <-> In p l.
Proof. apply existsb_eqb_In, pos_eqb_eq. Qed.

Lemma nodup_pos_In p l : In p (nodup_pos l) <-> In p l.
Proof.
  induction l as [|q t IH]; simpl; [tauto|].
  destruct (existsb (pos_eqb q) t) eqn:E.
  - rewrite IH. split; [auto|]. intros [->|H]; [apply existsb_pos_In; exact E|exact H].
  - simpl. rewrite IH. tauto.
Qed.

Lemma nodup_pos_NoDup l : NoDup (nodup_pos l).
Proof.
  induction l as [|q t IH]; simpl; [constructor|].
  destruct (existsb (pos_eqb q) t) eqn:E; [exact IH|].
  constructor; [|exact IH]. rewrite nodup_pos_In. intros H. apply existsb_pos_In in H. congruence.
Qed.

Lemma filter_eq_NoDup q l :
  NoDup l -> filter (fun p => pos_eqb p q) l = if existsb (pos_eqb q) l then [q] else [].
Proof.
  induction l as [|x t IH]; intros H; simpl; [reflexivity|].
  inversion H as [|? ? Hx Ht]; subst. rewrite (IH Ht). rewrite (pos_eqb_sym q x).
  destruct (pos_eqb x q) eqn:E; simpl; [|reflexivity].
  apply pos_eqb_eq in E. subst x.
  destruct (existsb (pos_eqb q) t) eqn:E2; [|reflexivity].
  apply existsb_pos_In in E2. contradiction.
Qed.

Lemma filter_nil {A} (f : A -> bool) l : (forall x, In x l -> f x = false) -> filter f l = [].
Proof.
  induction l as [|x t IH]; intros H; simpl; [reflexivity|].
  rewrite (H x (or_introl eq_refl)). apply IH. intros y Hy. apply H. right. exact Hy.
Qed.

Lemma entry_no_position m i j : ~ In (i, j) (map fst (m_coo m)) -> entry m i j = 0%Z.
Proof.
  intros H. unfold entry. rewrite filter_nil; [reflexivity|]. intros t Ht.
  destruct (pos_eqb (fst t) (i, j)) eqn:E; [|reflexivity].
  exfalso. apply H. apply pos_eqb_eq in E. rewrite <- E. apply in_map, Ht.
Qed.

(** At a position the coalesced matrix stores the entry, or nothing when the entry is not stored (and zero). *)
Lemma coalesce_at m i j :
  let l := filter (fun t => pos_eqb (fst t) (i, j)) (coalesce m) in
  l = [((i, j), entry m i j)] \/ l = [] /\ entry m i j = 0%Z.
Proof.
  unfold coalesce. rewrite filter_map. simpl.
  rewrite (filter_eq_NoDup (i, j) _ (nodup_pos_NoDup _)).
  destruct (existsb (pos_eqb (i, j)) (nodup_pos (map fst (m_coo m)))) eqn:E; simpl; [left; reflexivity|].
  right. split; [reflexivity|]. apply entry_no_position. intros H. apply nodup_pos_In in H.
  apply existsb_pos_In in H. congruence.
Qed.

Lemma filter_transpose i j l :
  map snd (filter (fun t => pos_eqb (fst t) (i, j)) (transpose_coo l)) =
  map snd (filter (fun t => pos_eqb (fst t) (j, i)) l).
Proof.
  unfold transpose_coo. rewrite filter_map, map_map. simpl.
  f_equal. apply filter_ext_in. intros [[a b] w] _. unfold pos_eqb. simpl. apply andb_comm.
Qed.

(** The canonical triples list exactly the non-zero entries, once each. *)
Lemma triples_spec m i j w :
  In (i, j, w) (triples m) <-> w = entry m i j /\ w <> 0%Z /\ In (i, j) (map fst (m_coo m)).
Proof.
  unfold triples, coalesce. rewrite filter_In, in_map_iff, negb_true_iff, Z.eqb_neq. simpl. split.
  - intros [[[a b] [E Hp]] Hw]. inversion E; subst. rewrite nodup_pos_In in Hp. auto.
  - intros [-> [Hw Hp]]. split; [|exact Hw].
    exists (i, j). split; [reflexivity|apply nodup_pos_In; exact Hp].
Qed.

Lemma dsum_true_nonneg l : (0 <= dsum true l)%Z.
Proof.
  unfold dsum. induction l as [|x t IH]; cbn [fold_right]; [lia|]. unfold dadd at 1. lia.
Qed.

Lemma dsum_app b l1 l2 : dsum b (l1 ++ l2) = dadd b (dsum b l1) (dsum b l2).
Proof.
  induction l1 as [|x t IH]; cbn [app].
  - pose proof (dsum_true_nonneg l2). change (dsum b []) with 0%Z. destruct b; unfold dadd; lia.
  - change (dsum b (x :: t ++ l2)) with (dadd b x (dsum b (t ++ l2))). rewrite IH.
    change (dsum b (x :: t)) with (dadd b x (dsum b t)). destruct b; unfold dadd; lia.
Qed.

Lemma entry_nonneg_bool m i j : m_bool m = true -> (0 <= entry m i j)%Z.
Proof. intros H. unfold entry. rewrite H. apply dsum_true_nonneg. Qed.

(** Summing the coalesced matrix at a position gives the entry: in the integers, and in its own dtype. *)
Lemma dsum_coalesce b m i j :
  (b = true -> m_bool m = true) ->
  dsum b (map snd (filter (fun t => pos_eqb (fst t) (i, j)) (coalesce m))) = entry m i j.
Proof.
  intros Hb. destruct (coalesce_at m i j) as [-> | [-> ->]]; [|reflexivity].
  destruct b; unfold dsum, dadd; simpl; [|lia]. pose proof (entry_nonneg_bool m i j (Hb eq_refl)). lia.
Qed.

(** The coalesced matrix plus its transpose, added in a dtype [b] that the matrix has if [b] is [bool]. *)
Lemma entry_plus_transpose b sh m i j :
  (b = true -> m_bool m = true) ->
  entry {| m_shape := sh; m_coo := coalesce m ++ transpose_coo (coalesce m); m_bool := b |} i j
  = dadd b (entry m i j) (entry m j i).
Proof.
  intros Hb. unfold entry at 1. simpl m_coo. simpl m_bool.
  rewrite filter_app, map_app, dsum_app, filter_transpose, !dsum_coalesce by exact Hb. reflexivity.
Qed.

(** [directed2undirected] denotes A + A^T over the integers. *)
Lemma entry_directed2undirected m i j :
  entry (directed2undirected m) i j = (entry m i j + entry m j i)%Z.
Proof. apply (entry_plus_transpose false). discriminate. Qed.

Lemma entry_add_transpose m i j :
  entry (add_transpose m) i j = dadd (m_bool m) (entry m i j) (entry m j i).
Proof. apply entry_plus_transpose. auto. Qed.

Lemma coalesce_positions_NoDup m : NoDup (map fst (coalesce m)).
Proof. unfold coalesce. rewrite map_map. simpl. rewrite map_id. apply nodup_pos_NoDup. Qed.

Lemma entry_astype_bool m i j : entry (astype_bool m) i j = nz (entry m i j).
Proof.
  unfold entry at 1. unfold astype_bool. simpl m_coo. simpl m_bool.
  rewrite filter_map. simpl.
  destruct (coalesce_at m i j) as [-> | [-> ->]]; [|reflexivity].
  unfold dsum, dadd, nz. simpl. destruct (entry m i j =? 0)%Z; reflexivity.
Qed.

Lemma entry_directed2undirected_arg w m i j :
  entry (directed2undirected_arg w m) i j =
  if w then (entry m i j + entry m j i)%Z else nz (dadd (m_bool m) (entry m i j) (entry m j i)).
Proof.
  unfold directed2undirected_arg. destruct w.
  - apply entry_directed2undirected.
  - rewrite entry_astype_bool, entry_add_transpose. reflexivity.
Qed.

Lemma firstn1_In {A} (x : A) l : In x (firstn 1 l) -> In x l.
Proof. destruct l as [|y t]; simpl; [tauto|]. intros [->|[]]. left. reflexivity. Qed.

Lemma maxl_ge x l : In x l -> x <= maxl l.
Proof.
  induction l as [|y t IH]; simpl; [tauto|]. intros [->|H]; [lia|]. specialize (IH H). lia.
Qed.

Lemma combine_map_r {A B C} (f : B -> C) (l : list A) (ws : list B) :
  combine l (map f ws) = map (fun e => (fst e, f (snd e))) (combine l ws).
Proof.
  revert ws. induction l as [|x t IH]; intros [|w ws]; simpl; try reflexivity. rewrite IH. reflexivity.
Qed.

(** The names, when there are any: [n] distinct identifiers, each of which satisfies [P]. *)
Definition names_are {id} (names : option (list id)) (n : nat) (P : id -> Prop) : Prop :=
  forall ns, names = Some ns -> NoDup ns /\ length ns = n /\ forall x, In x ns -> P x.

Lemma names_are_impl {id} (P Q : id -> Prop) (names : option (list id)) n :
  (forall x, P x -> Q x) -> names_are names n P -> names_are names n Q.
Proof.
  intros HPQ H ns Hns. destruct (H ns Hns) as (Hnd & Hlen & HP).
  split; [exact Hnd|]. split; [exact Hlen|]. intros x Hx. apply HPQ, HP, Hx.
Qed.

Section IngestProofs.
  Context {id : Type}.
  Context (ideqb : id -> id -> bool) (as_int : id -> option nat) (unique : list id -> list id * list nat).
  Context (pass : bool).
  Context (ideqb_spec : forall a b, ideqb a b = true <-> a = b).
  Context (as_int_inj : forall a b k, as_int a = Some k -> as_int b = Some k -> a = b).
  Context (uniq_ok : unique_ok ideqb unique).

  Notation edge := (@edge id).
  Notation is_node := (is_node ideqb as_int).
  Notation index_of := (index_of ideqb).
  Notation first_occ := (first_occ ideqb).
  Notation to_int := (to_int as_int).

  Lemma ideqb_refl a : ideqb a a = true.
  Proof. apply ideqb_spec. reflexivity. Qed.

  Lemma index_of_nth names : forall a i, NoDup names -> In a names ->
    (index_of names a =? i) = match nth_error names i with Some x => ideqb x a | None => false end.
  Proof.
    induction names as [|x t IH]; intros a i Hnd Hin; [contradiction|].
    inversion Hnd as [|? ? Hx Ht]; subst. simpl.
    destruct (ideqb x a) eqn:E.
    - apply ideqb_spec in E. subst a. destruct i as [|i']; simpl.
      + symmetry. apply ideqb_refl.
      + destruct (nth_error t i') as [y|] eqn:N; [|reflexivity].
        symmetry. destruct (ideqb y x) eqn:E2; [|reflexivity].
        apply ideqb_spec in E2. subst y. apply nth_error_In in N. contradiction.
    - destruct Hin as [->|Hin]; [rewrite ideqb_refl in E; discriminate|].
      destruct i as [|i']; simpl; [symmetry; exact E|]. apply IH; assumption.
  Qed.

  Lemma index_of_lt names a : In a names -> index_of names a < length names.
  Proof.
    induction names as [|x t IH]; simpl; [tauto|]. intros H.
    destruct (ideqb x a) eqn:E; [lia|].
    destruct H as [->|H]; [rewrite ideqb_refl in E; discriminate|]. specialize (IH H). lia.
  Qed.

  Lemma is_node_inj names k a b : is_node names k a = true -> is_node names k b = true -> a = b.
  Proof.
    unfold Parse.is_node. destruct names as [ns|].
    - destruct (nth_error ns k) as [x|]; [|discriminate]. intros Ha Hb.
      apply ideqb_spec in Ha. apply ideqb_spec in Hb. congruence.
    - destruct (as_int a) as [u|] eqn:Ea; [|discriminate]. destruct (as_int b) as [v|] eqn:Eb; [|discriminate].
      intros Ha Hb. apply Nat.eqb_eq in Ha. apply Nat.eqb_eq in Hb. subst. eapply as_int_inj; eassumption.
  Qed.

  Lemma key_eqb_eq p q : key_eqb ideqb p q = true <-> p = q.
  Proof.
    destruct p as [a b], q as [c d]. unfold key_eqb. simpl. rewrite andb_true_iff, !ideqb_spec.
    split; [intros [-> ->]; reflexivity|intros H; inversion H; auto].
  Qed.

  Lemma memp_In p l : memp ideqb p l = true <-> In p l.
  Proof. apply existsb_eqb_In, key_eqb_eq. Qed.

  Lemma first_occ_In es : forall seen (e : edge), In e (first_occ seen es) -> In e es /\ ~ In (fst e) seen.
  Proof.
    induction es as [|x t IH]; intros seen e; simpl; [tauto|].
    destruct (memp ideqb (fst x) seen) eqn:M.
    - intros H. destruct (IH _ _ H) as [H1 H2]. auto.
    - intros [->|H].
      + split; [left; reflexivity|]. intros H. apply memp_In in H. congruence.
      + destruct (IH _ _ H) as [H1 H2]. split; [right; exact H1|]. intros H3. apply H2. right. exact H3.
  Qed.

  Lemma first_occ_keys es : forall seen (e : edge), In e es ->
    In (fst e) seen \/ exists e', In e' (first_occ seen es) /\ fst e' = fst e.
  Proof.
    induction es as [|x t IH]; intros seen e; simpl; [tauto|].
    destruct (memp ideqb (fst x) seen) eqn:M.
    - intros [->|H]; [left; apply memp_In; exact M|]. apply IH. exact H.
    - intros [->|H].
      + right. exists e. split; [left; reflexivity|reflexivity].
      + destruct (IH (fst x :: seen) e H) as [[E|H1]|[e' [H1 H2]]].
        * right. exists x. split; [left; reflexivity|exact E].
        * left. exact H1.
        * right. exists e'. split; [right; exact H1|exact H2].
  Qed.

  Lemma first_occ_map (tw : edge -> edge) : (forall e, fst (tw e) = fst e) ->
    forall es seen, first_occ seen (map tw es) = map tw (first_occ seen es).
  Proof.
    intros Htw. induction es as [|x t IH]; intros seen; simpl; [reflexivity|].
    rewrite Htw. destruct (memp ideqb (fst x) seen); simpl; rewrite IH; reflexivity.
  Qed.

  Lemma first_occ_filter (Q : id * id -> bool) :
    (forall p q, Q p = true -> Q q = true -> p = q) ->
    forall es seen, (forall p, Q p = true -> ~ In p seen) ->
    filter (fun e : edge => Q (fst e)) (first_occ seen es) = firstn 1 (filter (fun e : edge => Q (fst e)) es).
  Proof.
    intros HQ. induction es as [|x t IH]; intros seen Hs; simpl; [reflexivity|].
    destruct (memp ideqb (fst x) seen) eqn:M.
    - destruct (Q (fst x)) eqn:Qx; [|apply IH, Hs].
      exfalso. apply (Hs _ Qx), memp_In, M.
    - simpl. destruct (Q (fst x)) eqn:Qx; simpl.
      + f_equal. apply filter_nil. intros e He. apply first_occ_In in He as [_ He].
        destruct (Q (fst e)) eqn:Qe; [|reflexivity]. exfalso. apply He. left. apply HQ; assumption.
      + apply IH. intros p Qp [E|H]; [rewrite <- E in Qp; congruence|exact (Hs p Qp H)].
  Qed.

  (** The matrix of the edges [es] with rows indexed by [fr], columns by [fc]. *)
  Definition indexed (b : bool) (sh : nat * nat) (fr fc : id -> nat) (es : list edge) : matrix :=
    {| m_shape := sh; m_coo := map (fun e => ((fr (esrc e), fc (edst e)), ew e)) es; m_bool := b |}.

  Lemma entry_indexed b sh fr fc es i j :
    entry (indexed b sh fr fc es) i j
    = dsum b (map ew (filter (fun e => (fr (esrc e) =? i) && (fc (edst e) =? j)) es)).
  Proof. unfold entry. simpl. rewrite filter_map, map_map. reflexivity. Qed.

  Definition twf (fl : flags) (w : Z) : Z := if weighted fl then w else nz w.
  Definition tw (fl : flags) (e : edge) : edge := (fst e, twf fl (snd e)).

  Lemma typed_edges fl (edge_array : list (id * id)) ws :
    combine edge_array (type_weights (weighted fl) ws) = map (tw fl) (combine edge_array ws).
  Proof.
    unfold type_weights, tw, twf. destruct (weighted fl).
    - rewrite <- (map_id ws) at 1. exact (combine_map_r (fun x : Z => x) edge_array ws).
    - apply combine_map_r.
  Qed.

  Definition dedup (fl : flags) (raw : list edge) : list edge :=
    if sum_duplicates fl then raw else first_occ [] raw.

  Lemma dedup_typed fl raw :
    (if sum_duplicates fl then map (tw fl) raw else first_occ [] (map (tw fl) raw)) = map (tw fl) (dedup fl raw).
  Proof. unfold dedup. destruct (sum_duplicates fl); [reflexivity|]. apply first_occ_map. reflexivity. Qed.

  Lemma dedup_incl fl raw e : In e (dedup fl raw) -> In e raw.
  Proof. unfold dedup. destruct (sum_duplicates fl); [auto|]. intros H. apply first_occ_In in H. tauto. Qed.

  Lemma dedup_keys fl raw e : In e raw -> exists e', In e' (dedup fl raw) /\ fst e' = fst e.
  Proof.
    unfold dedup. destruct (sum_duplicates fl); [intros H; exists e; auto|].
    intros H. destruct (first_occ_keys raw [] e H) as [[]|H1]. exact H1.
  Qed.

  Lemma dtype_sum fl ws :
    dsum (negb (weighted fl)) (map (twf fl) ws) =
    if weighted fl then sumz ws else if existsb (fun w => negb (w =? 0)%Z) ws then 1%Z else 0%Z.
  Proof.
    unfold twf. destruct (weighted fl); simpl.
    - rewrite map_id. apply dsum_false.
    - apply dsum_true_nz.
  Qed.

  (** Without [sum_duplicates] only the first listed weight of a position survives. *)
  Lemma listed_dedup fl rn cn raw i j :
    listed ideqb as_int rn cn (dedup fl raw) i j
    = if sum_duplicates fl then listed ideqb as_int rn cn raw i j
      else firstn 1 (listed ideqb as_int rn cn raw i j).
  Proof.
    unfold listed, dedup. destruct (sum_duplicates fl); [reflexivity|].
    rewrite firstn_map. f_equal.
    apply (first_occ_filter (fun p => is_node rn i (fst p) && is_node cn j (snd p))).
    - intros [a b] [c d]. simpl. rewrite !andb_true_iff. intros [H1 H2] [H3 H4].
      f_equal; eapply is_node_inj; eassumption.
    - intros p _ [].
  Qed.

  (** The coded matrix before symmetrisation has the specified entries, for any pair of index
      functions that agree with the naming. *)
  Lemma base_entry_spec fl rn cn (fr fc : id -> nat) raw sh :
    (forall e, In e (dedup fl raw) -> forall k, (fr (esrc e) =? k) = is_node rn k (esrc e)) ->
    (forall e, In e (dedup fl raw) -> forall k, (fc (edst e) =? k) = is_node cn k (edst e)) ->
    forall i j, entry (indexed (negb (weighted fl)) sh fr fc (map (tw fl) (dedup fl raw))) i j
    = spec_base ideqb as_int fl rn cn raw i j.
  Proof.
    intros Hr Hc i j. rewrite entry_indexed, filter_map, map_map.
    (* [tw] leaves the ends of an edge as they are, by computation *)
    rewrite (filter_ext_in _ (fun e : edge => is_node rn i (esrc e) && is_node cn j (edst e)))
      by (intros e He; exact (f_equal2 andb (Hr e He i) (Hc e He j))).
    change (fun x : edge => ew (tw fl x)) with (fun x : edge => twf fl (ew x)).
    rewrite <- (map_map ew (twf fl)). fold (listed ideqb as_int rn cn (dedup fl raw) i j).
    rewrite dtype_sum, listed_dedup. reflexivity.
  Qed.

  Lemma unravel_ravel (f : id -> nat) (es : list edge) :
    unravel (map f (ravel es)) = map (fun e => (f (esrc e), f (edst e))) es.
  Proof. induction es as [|x t IH]; simpl; [reflexivity|]. rewrite IH. reflexivity. Qed.

  (** What one call of [index_side] establishes for the end [sel] of the edges [D]: [f] is the index
      function, [n] the dimension. *)
  Definition side (fl : flags) (D : list edge) (names : option (list id)) (f : id -> nat) (n : nat)
             (sel : edge -> id) : Prop :=
    (forall e, In e D -> (forall k, (f (sel e) =? k) = is_node names k (sel e)) /\ f (sel e) < n) /\
    names_are names n (fun x => exists e, In e D /\ (x = esrc e \/ x = edst e)) /\
    (reindex fl = true -> names <> None).

  Definition index_fn (reindexed : bool) (ids : list id) : id -> nat :=
    if reindexed then index_of (fst (unique ids)) else to_int.

  Lemma index_side_spec fl D reindexed ids sk names ix n :
    index_side as_int unique reindexed ids sk = (names, ix, n) ->
    (reindexed = false -> forall e, In e D -> is_some (as_int (esrc e)) = true /\ is_some (as_int (edst e)) = true) ->
    (reindex fl = true -> reindexed = true) ->
    (forall x, In x ids -> exists e, In e (map (tw fl) D) /\ (x = esrc e \/ x = edst e)) ->
    ix = map (index_fn reindexed ids) ids /\
    forall sel, (forall e, In e D -> In (sel e) ids) -> side fl D names (index_fn reindexed ids) n sel.
  Proof.
    intros E Hint Hre Hids'.
    assert (Hids : forall x, In x ids -> exists e, In e D /\ (x = esrc e \/ x = edst e)).
    { intros x Hx. destruct (Hids' x Hx) as (e & He & Hxe). apply in_map_iff in He as (e0 & <- & He0).
      exists e0. split; assumption. }
    clear Hids'. unfold index_side, index_fn, side, names_are in *. destruct reindexed.
    - destruct (uniq_ok ids) as [Hnd [Hin Hinv]]. inversion E; subst. clear E.
      split; [exact Hinv|]. intros sel Hsel. split; [|split].
      + intros e He. apply Hsel, Hin in He. split; [|apply index_of_lt; exact He].
        intros k. unfold Parse.is_node. apply index_of_nth; assumption.
      + intros ns Hns. inversion Hns; subst. split; [exact Hnd|]. split; [reflexivity|].
        intros x Hx. apply Hids, Hin, Hx.
      + discriminate.
    - inversion E; subst. clear E. split; [reflexivity|]. intros sel Hsel. split; [|split].
      + intros e He. apply Hsel in He. split.
        * assert (Hs : is_some (as_int (sel e)) = true)
            by (destruct (Hids _ He) as (e0 & He0 & [-> | ->]); apply (Hint eq_refl e0 He0)).
          intros k. unfold Parse.is_node, Parse.to_int. destruct (as_int (sel e)); [reflexivity|discriminate].
        * assert (H : to_int (sel e) <= maxl (map to_int ids)) by (apply maxl_ge, in_map, He).
          destruct sk; lia.
      + discriminate.
      + intros R. apply Hre in R. discriminate R.
  Qed.

  Lemma int_dtype_spec (es : list edge) e :
    int_dtype as_int es = true -> In e es -> is_some (as_int (esrc e)) = true /\ is_some (as_int (edst e)) = true.
  Proof.
    unfold int_dtype. rewrite forallb_forall. intros H He. apply andb_true_iff. apply H. exact He.
  Qed.

  Lemma in_ravel (es : list edge) a : In a (ravel es) <-> exists e, In e es /\ (a = esrc e \/ a = edst e).
  Proof.
    unfold ravel. rewrite in_flat_map. split.
    - intros [e [He [H|[H|[]]]]]; exists e; auto.
    - intros [e [He [H|H]]]; exists e; subst; simpl; auto.
  Qed.

  (** Entry of the coded result in terms of the specification of the un-symmetrised matrix:
      the undirected branch always ADDS the two directions, also when [weighted] is off. *)
  Definition coded_entry (fl : flags) (rn cn : option (list id)) (raw : list edge) (i j : nat) : Z :=
    if bipartite fl || directed fl then spec_base ideqb as_int fl rn cn raw i j
    else if (if pass then weighted fl else true)
         then (spec_base ideqb as_int fl rn cn raw i j + spec_base ideqb as_int fl rn cn raw j i)%Z
         else nz (dadd (negb (weighted fl)) (spec_base ideqb as_int fl rn cn raw i j)
                                            (spec_base ideqb as_int fl rn cn raw j i)).

  Lemma tw_in_dedup fl raw (e : edge) : In e (dedup fl raw) -> In (tw fl e) (map (tw fl) (dedup fl raw)).
  Proof. apply in_map. Qed.

  Lemma in_combine_w {A B} (l : list A) (ws : list B) x :
    length ws = length l -> In x l -> exists w, In (x, w) (combine l ws).
  Proof.
    revert ws. induction l as [|y t IH]; intros [|w ws] L; simpl in *; try tauto; try discriminate.
    intros [->|H]; [exists w; left; reflexivity|].
    destruct (IH ws (eq_add_S _ _ L) H) as [w' Hw']. exists w'. right. exact Hw'.
  Qed.

  Lemma directed2undirected_arg_shape w m : m_shape (directed2undirected_arg w m) = m_shape m.
  Proof. destruct w; reflexivity. Qed.

  Lemma spec_base_unweighted fl rn cn raw i j :
    weighted fl = false ->
    spec_base ideqb as_int fl rn cn raw i j = 0%Z \/
    spec_base ideqb as_int fl rn cn raw i j = 1%Z /\
    exists e : edge, In e raw /\ is_node rn i (esrc e) = true /\ is_node cn j (edst e) = true /\
                     negb (ew e =? 0)%Z = true.
  Proof.
    intros W. unfold spec_base. rewrite W.
    set (ws := if sum_duplicates fl then listed ideqb as_int rn cn raw i j
               else firstn 1 (listed ideqb as_int rn cn raw i j)).
    destruct (existsb (fun w => negb (w =? 0)%Z) ws) eqn:E; [right; split; [reflexivity|] | left; reflexivity].
    apply existsb_exists in E as [w [Hw Hnz]].
    assert (Hl : In w (listed ideqb as_int rn cn raw i j)).
    { unfold ws in Hw. destruct (sum_duplicates fl); [exact Hw|apply firstn1_In; exact Hw]. }
    unfold listed in Hl. apply in_map_iff in Hl as [e [<- He]]. apply filter_In in He as [He HP].
    apply andb_true_iff in HP as [H1 H2]. exists e. auto.
  Qed.

  Section Accepted.
  Context (fl : flags) (edge_array : list (id * id)) (weights : option (list Z)) (d : dataset)
          (H : from_edge_array ideqb as_int unique pass fl edge_array weights = Some d).
  Let raw := raw_edges edge_array weights.
  Let D := dedup fl raw.

  (** An accepted call, taken apart once: the edges [D] that are stored carry exactly the listed pairs;
      each side is indexed by a function that agrees with the names; the matrix is the indexed edge list,
      symmetrised unless bipartite or directed. *)
  Lemma from_edge_array_inv :
    (forall p, In p edge_array <-> exists e, In e D /\ fst e = p) /\
    d_biadj d = bipartite fl /\ d_names d = row_names d /\
    exists fr fc nr nc,
      side fl D (row_names d) fr nr esrc /\ side fl D (col_names d) fc nc edst /\
      let m := indexed (negb (weighted fl)) (nr, nc) fr fc (map (tw fl) D) in
      d_matrix d = if bipartite fl || directed fl then m
                   else directed2undirected_arg (if pass then weighted fl else true) m.
  Proof.
    pose proof H as H0. unfold from_edge_array in H0.
    destruct (negb (length (match weights with Some w => w | None => repeat 1%Z (length edge_array) end) =? length edge_array)) eqn:L1;
      [discriminate|].
    apply negb_false_iff, Nat.eqb_eq in L1.
    destruct (length edge_array =? 0); [discriminate|].
    cbv zeta in H0. rewrite typed_edges, dedup_typed in H0.
    change (combine edge_array _) with raw in H0. fold D in H0.
    set (reindexed := negb (int_dtype as_int (map (tw fl) raw)) || reindex fl) in *.
    assert (Hre : reindex fl = true -> reindexed = true).
    { intros R. unfold reindexed. rewrite R. apply orb_true_r. }
    assert (Hint : reindexed = false -> forall e, In e D ->
                   is_some (as_int (esrc e)) = true /\ is_some (as_int (edst e)) = true).
    { intros Hr e He. apply orb_false_iff in Hr as [Hr _]. apply negb_false_iff in Hr.
      apply (int_dtype_spec _ (tw fl e) Hr), in_map. eapply dedup_incl, He. }
    split.
    { intros p. split.
      - intros Hp. destruct (in_combine_w edge_array _ p L1 Hp) as [w Hw]. exact (dedup_keys fl raw _ Hw).
      - intros (e & He & <-). apply dedup_incl in He. destruct e as [k w]. eapply in_combine_l. exact He. }
    destruct (bipartite fl) eqn:Bip.
    - destruct (index_side as_int unique reindexed (map esrc (map (tw fl) D)) (option_map fst (shape fl)))
        as [[names_row r] n_row] eqn:IR.
      destruct (index_side as_int unique reindexed (map edst (map (tw fl) D)) (option_map snd (shape fl)))
        as [[names_col c] n_col] eqn:IC.
      inversion H0; subst d; clear H0. unfold row_names, col_names. simpl.
      split; [reflexivity|]. split; [reflexivity|].
      destruct (index_side_spec fl D _ _ _ _ _ _ IR Hint Hre) as (-> & Hr).
      { intros x Hx. apply in_map_iff in Hx as [e [<- He]]. exists e. auto. }
      destruct (index_side_spec fl D _ _ _ _ _ _ IC Hint Hre) as (-> & Hc).
      { intros x Hx. apply in_map_iff in Hx as [e [<- He]]. exists e. auto. }
      eexists _, _, n_row, n_col. split; [apply (Hr esrc)|split; [apply (Hc edst)|]].
      + intros e He. apply (in_map esrc _ (tw fl e)), in_map, He.
      + intros e He. apply (in_map edst _ (tw fl e)), in_map, He.
      + rewrite (map_map esrc), (map_map edst), !combine_map. reflexivity.
    - destruct (index_side as_int unique reindexed (ravel (map (tw fl) D)) (option_map fst (shape fl)))
        as [[names nodes] n] eqn:IN.
      inversion H0; subst d; clear H0. unfold row_names, col_names. simpl.
      split; [reflexivity|]. split; [reflexivity|].
      destruct (index_side_spec fl D _ _ _ _ _ _ IN Hint Hre) as (-> & Hs); [intros x; apply in_ravel|].
      eexists _, _, n, n. split; [apply (Hs esrc)|split; [apply (Hs edst)|]].
      + intros e He. apply in_ravel. exists (tw fl e). split; [apply in_map, He|left; reflexivity].
      + intros e He. apply in_ravel. exists (tw fl e). split; [apply in_map, He|right; reflexivity].
      + rewrite unravel_ravel, combine_map. reflexivity.
  Qed.

  Theorem from_edge_array_coded :
    forall i j, entry (d_matrix d) i j =
                coded_entry fl (row_names d) (col_names d) raw i j.
  Proof.
    intros i j. destruct from_edge_array_inv as (_ & _ & _ & fr & fc & nr & nc & [Hr _] & [Hc _] & ->).
    pose proof (base_entry_spec fl _ _ fr fc raw (nr, nc) (fun e He => proj1 (Hr e He))
                                (fun e He => proj1 (Hc e He))) as B.
    unfold coded_entry. destruct (bipartite fl || directed fl); [apply B|].
    rewrite entry_directed2undirected_arg, !B. reflexivity.
  Qed.

  Theorem from_edge_array_entry :
    (pass = true \/ weighted fl = true \/ directed fl = true \/ bipartite fl = true \/
     has_reciprocal ideqb raw = false) ->
    forall i j, entry (d_matrix d) i j =
                spec_entry ideqb as_int fl (row_names d) (col_names d) raw i j.
  Proof.
    intros Hex i j. rewrite from_edge_array_coded.
    unfold coded_entry, spec_entry.
    destruct (bipartite fl || directed fl) eqn:BD; [reflexivity|].
    destruct (weighted fl) eqn:W; [destruct pass; reflexivity|].
    apply orb_false_iff in BD as [Bip Dir].
    destruct from_edge_array_inv as (_ & Hb & _). rewrite Bip in Hb.
    unfold row_names, col_names. rewrite Hb. cbv iota.
    (* both base entries are 0 or 1: the sum differs from the maximum only when both are 1 *)
    destruct (spec_base_unweighted fl (d_names d) (d_names d) raw i j W)
      as [-> | [-> (e & He & E1 & E2 & E3)]];
      destruct (spec_base_unweighted fl (d_names d) (d_names d) raw j i W)
        as [-> | [-> (e' & He' & F1 & F2 & F3)]];
      try (destruct pass; reflexivity).
    destruct pass; [reflexivity|].
    destruct Hex as [Hex|[Hex|[Hex|[Hex|Hex]]]]; try congruence.
    enough (R : has_reciprocal ideqb raw = true) by congruence.
    unfold has_reciprocal. apply existsb_exists. exists e. split; [exact He|].
    apply existsb_exists. exists e'. split; [exact He'|].
    rewrite (is_node_inj _ _ _ _ E1 F2), (is_node_inj _ _ _ _ E2 F1), !ideqb_refl, E3, F3. reflexivity.
  Qed.

  Theorem from_edge_array_names :
    (forall a b, In (a, b) edge_array ->
       exists i j, i < fst (m_shape (d_matrix d)) /\ j < snd (m_shape (d_matrix d)) /\
                   is_node (row_names d) i a = true /\ is_node (col_names d) j b = true) /\
    names_are (row_names d) (fst (m_shape (d_matrix d)))
              (fun x => exists e, In e edge_array /\ (x = fst e \/ x = snd e)) /\
    names_are (col_names d) (snd (m_shape (d_matrix d)))
              (fun x => exists e, In e edge_array /\ (x = fst e \/ x = snd e)) /\
    d_names d = row_names d /\
    (reindex fl = true -> row_names d <> None /\ col_names d <> None).
  Proof.
    destruct from_edge_array_inv
      as (Hp & _ & Hn & fr & fc & nr & nc & (Hr & Hrn & Hrs) & (Hc & Hcn & Hcs) & Em).
    assert (Hshape : m_shape (d_matrix d) = (nr, nc)).
    { rewrite Em. destruct (bipartite fl || directed fl); [reflexivity | apply directed2undirected_arg_shape]. }
    rewrite Hshape. cbn [fst snd].
    assert (Hback : forall x, (exists e, In e D /\ (x = esrc e \/ x = edst e)) ->
                              exists e, In e edge_array /\ (x = fst e \/ x = snd e)).
    { intros x (e & He & Hxe). exists (fst e). split; [|exact Hxe].
      apply Hp. exists e. split; [exact He | reflexivity]. }
    split; [|split; [|split; [|split]]].
    - intros a b Hab. apply Hp in Hab as ([[a' b'] w] & He & Ee). cbn in Ee. injection Ee as -> ->.
      destruct (Hr _ He) as [Hre Hrl]. destruct (Hc _ He) as [Hce Hcl]. cbn [esrc edst fst snd] in *.
      exists (fr a), (fc b). split; [exact Hrl|]. split; [exact Hcl|].
      rewrite <- Hre, <- Hce, !Nat.eqb_refl. auto.
    - exact (names_are_impl _ _ _ _ Hback Hrn).
    - exact (names_are_impl _ _ _ _ Hback Hcn).
    - exact Hn.
    - intros R. split; [apply Hrs | apply Hcs]; exact R.
  Qed.
  End Accepted.
End IngestProofs.

Section UniqueRef.
  Context {id : Type}.
  Context (ideqb : id -> id -> bool) (leb : id -> id -> bool).
  Context (ideqb_spec : forall a b, ideqb a b = true <-> a = b).

  Lemma memb_In a l : memb ideqb a l = true <-> In a l.
  Proof.
    apply (existsb_eqb_In (fun a x => ideqb x a)). intros x y. rewrite ideqb_spec. split; congruence.
  Qed.

  Lemma insert_s_In x l z : In z (insert_s leb x l) <-> z = x \/ In z l.
  Proof.
    induction l as [|y t IH]; simpl; [intuition|].
    destruct (leb x y); simpl; [intuition|]. rewrite IH. intuition.
  Qed.

  Lemma insert_s_NoDup x l : NoDup l -> ~ In x l -> NoDup (insert_s leb x l).
  Proof.
    induction l as [|y t IH]; intros Hnd Hx; simpl.
    - constructor; [tauto|constructor].
    - destruct (leb x y); [constructor; assumption|].
      inversion Hnd as [|? ? Hy Ht]; subst. constructor.
      + rewrite insert_s_In. intros [->|H]; [apply Hx; left; reflexivity|contradiction].
      + apply IH; [exact Ht|]. intros H. apply Hx. right. exact H.
  Qed.

  Lemma sort_unique_In l z : In z (sort_unique ideqb leb l) <-> In z l.
  Proof.
    induction l as [|x t IH]; simpl; [tauto|]. unfold add_u.
    destruct (memb ideqb x (sort_unique ideqb leb t)) eqn:M.
    - rewrite IH. split; [auto|]. intros [<-|H]; [|exact H]. apply IH. apply memb_In. exact M.
    - rewrite insert_s_In, IH. intuition.
  Qed.

  Lemma sort_unique_NoDup l : NoDup (sort_unique ideqb leb l).
  Proof.
    induction l as [|x t IH]; simpl; [constructor|]. unfold add_u.
    destruct (memb ideqb x (sort_unique ideqb leb t)) eqn:M; [exact IH|].
    apply insert_s_NoDup; [exact IH|]. intros H. apply memb_In in H. congruence.
  Qed.

  Theorem unique_ref_ok : unique_ok ideqb (unique_ref ideqb leb).
  Proof.
    intros l. unfold unique_ref. simpl. split; [apply sort_unique_NoDup|].
    split; [intros x; apply sort_unique_In|reflexivity].
  Qed.
End UniqueRef.

Lemma nat_unique_ok : unique_ok Nat.eqb nat_unique.
Proof. apply unique_ref_ok. apply Nat.eqb_eq. Qed.
Lemma str_unique_ok : unique_ok String.eqb str_unique.
Proof. apply unique_ref_ok. apply String.eqb_eq. Qed.

Definition as_int_nat (k : nat) : option nat := Some k.
Definition as_int_str (s : string) : option nat := None.

Lemma as_int_nat_inj a b k : as_int_nat a = Some k -> as_int_nat b = Some k -> a = b.
Proof. unfold as_int_nat. congruence. Qed.

Lemma as_int_str_inj a b k : as_int_str a = Some k -> as_int_str b = Some k -> a = b.
Proof. discriminate. Qed.

Theorem edge_array_entry_nat pass fl edge_array weights d :
  from_edge_list_nat pass fl edge_array weights = Some d ->
  (pass = true \/ weighted fl = true \/ directed fl = true \/ bipartite fl = true \/
   has_reciprocal Nat.eqb (raw_edges edge_array weights) = false) ->
  forall i j, entry (d_matrix d) i j =
              spec_entry Nat.eqb as_int_nat fl (row_names d) (col_names d) (raw_edges edge_array weights) i j.
Proof. apply (from_edge_array_entry Nat.eqb as_int_nat nat_unique pass Nat.eqb_eq as_int_nat_inj nat_unique_ok). Qed.

Theorem edge_array_entry_str pass fl edge_array weights d :
  from_edge_list_str pass fl edge_array weights = Some d ->
  (pass = true \/ weighted fl = true \/ directed fl = true \/ bipartite fl = true \/
   has_reciprocal String.eqb (raw_edges edge_array weights) = false) ->
  forall i j, entry (d_matrix d) i j =
              spec_entry String.eqb as_int_str fl (row_names d) (col_names d) (raw_edges edge_array weights) i j.
Proof. apply (from_edge_array_entry String.eqb as_int_str str_unique pass String.eqb_eq as_int_str_inj str_unique_ok). Qed.

(** The coded symmetrisation adds the two directions even for an unweighted graph: a reciprocal pair
    gets the entry 2 where the specification (binary entry) says 1. *)
Definition d16_flags : flags :=
  {| directed := false; bipartite := false; weighted := false; reindex := false;
     sum_duplicates := true; shape := None; matrix_only := None |}.

Local Open Scope string_scope.

Lemma contains_app c a b : contains c (a ++ b) = contains c a || contains c b.
Proof. induction a as [|x t IH]; simpl; [reflexivity|]. rewrite IH. apply orb_assoc. Qed.

Lemma contains_join c (d : ascii) l :
  Ascii.eqb d c = false -> Forall (fun x => contains c x = false) l -> contains c (join (String d "") l) = false.
Proof.
  intros Hd. induction l as [|x t IH]; intros H; [reflexivity|].
  inversion H as [|? ? Hx Ht]; subst. destruct t as [|y t']; [exact Hx|].
  rewrite join_cons, contains_app, Hx. simpl. rewrite Hd. simpl. apply IH. exact Ht.
Qed.

Lemma split_render ls :
  Forall (fun l => contains newline l = false) ls -> split newline (render_lines ls) = (ls ++ [""])%list.
Proof.
  induction ls as [|l t IH]; intros H; [reflexivity|].
  inversion H as [|? ? Hl Ht]; subst. simpl render_lines.
  rewrite (split_app newline l _ Hl). rewrite (IH Ht). reflexivity.
Qed.

Lemma lines_of_render ls :
  Forall (fun l => contains newline l = false) ls -> lines_of (render_lines ls) = ls.
Proof.
  intros H. unfold lines_of. rewrite (split_render ls H). rewrite rev_app_distr. simpl. apply rev_involutive.
Qed.

Lemma scan_data n comments D : forall hl cg rows,
  Forall (fun l => starts_with_any comments l = false) D ->
  fst (fst (scan n comments D hl cg rows)) = hl.
Proof.
  induction D as [|l t IH]; intros hl cg rows H; simpl; [reflexivity|].
  inversion H as [|? ? Hl Ht]; subst. rewrite Hl.
  match goal with |- context [if ?c then _ else _] => destruct c end; [reflexivity|]. apply IH. exact Ht.
Qed.

Lemma scan_header_lines n comments header D : forall hl cg,
  Forall (fun l => starts_with_any comments l = true) header ->
  Forall (fun l => starts_with_any comments l = false) D ->
  fst (fst (scan n comments (header ++ D)%list hl cg [])) = hl + length header.
Proof.
  induction header as [|h t IH]; intros hl cg Hh HD; simpl.
  - rewrite scan_data; [lia|exact HD].
  - inversion Hh as [|? ? H1 H2]; subst. rewrite H1. rewrite IH; [lia|exact H2|exact HD].
Qed.

Theorem csv_row_join d fields :
  fields <> [] -> Forall (fun x => contains d x = false) fields -> join (String d "") fields <> "" ->
  csv_row d (join (String d "") fields) = fields.
Proof.
  intros Hne HF Hnb. unfold csv_row.
  destruct (String.eqb_spec (join (String d "") fields) ""); [contradiction|].
  apply split_join; assumption.
Qed.

Definition row_ok (d : ascii) (comments : list ascii) (r : list string) : Prop :=
  r <> [] /\ Forall (fun x => contains d x = false /\ contains newline x = false) r /\
  starts_with_any comments (join (String d "") r) = false /\ join (String d "") r <> "".

(** A whole file: header comment lines, then the rows. *)
Theorem csv_table_render n_scan d comments header rows :
  comments <> [] -> Ascii.eqb d newline = false ->
  Forall (fun h => starts_with_any comments h = true /\ contains newline h = false) header ->
  Forall (row_ok d comments) rows ->
  csv_table n_scan d comments (render_csv d header rows) = rows.
Proof.
  intros Hc Hd Hh Hr. unfold csv_table, render_csv. destruct comments as [|c0 cs]; [congruence|].
  apply Forall_and_inv in Hh as [Hhc Hhn].
  set (D := map (join (String d "")) rows).
  assert (HD : forall Q : string -> Prop,
            (forall r, row_ok d (c0 :: cs) r -> Q (join (String d "") r)) -> Forall Q D).
  { intros Q HQ. apply Forall_map. eapply Forall_impl; [exact HQ | exact Hr]. }
  rewrite lines_of_render.
  2:{ apply Forall_app. split; [exact Hhn|]. apply HD. intros r (_ & HF & _).
      apply contains_join; [exact Hd|]. apply Forall_and_inv in HF. apply HF. }
  destruct (scan n_scan (c0 :: cs) (header ++ D)%list 0 c0 []) as [[hl cg] rws] eqn:S.
  assert (Ehl : hl = length header).
  { change hl with (fst (fst (hl, cg, rws))). rewrite <- S. apply scan_header_lines; [exact Hhc|].
    apply HD. intros r (_ & _ & H & _). exact H. }
  subst hl. rewrite skipn_app, skipn_all, Nat.sub_diag. cbn [app skipn]. unfold D. rewrite map_map.
  rewrite <- (map_id rows) at 2. apply map_ext_in. intros r Hr'.
  rewrite Forall_forall in Hr. destruct (Hr r Hr') as (H1 & H2 & _ & H4).
  apply csv_row_join; [exact H1| |exact H4]. apply Forall_and_inv in H2. apply H2.
Qed.

Lemma sumn_zero l : (forall x, In x l -> x = 0) -> sumn l = 0.
Proof.
  induction l as [|x t IH]; intros H; simpl; [reflexivity|].
  rewrite (H x (or_introl eq_refl)). apply IH. intros y Hy. apply H. right. exact Hy.
Qed.

Lemma sumn_pos l x : In x l -> 0 < x -> 0 < sumn l.
Proof. induction l as [|y t IH]; simpl; [tauto|]. intros [->|H] Hx; [lia|]. specialize (IH H Hx). lia. Qed.

Lemma argmax_first_only (f : ascii -> nat) (d : ascii) : 0 < f d -> forall l best,
  (forall x, In x l -> x <> d -> f x = 0) ->
  (best = d \/ (f best = 0 /\ In d l)) -> argmax_first f l best = d.
Proof.
  intros Hd. induction l as [|x t IH]; intros best Hz Hb; simpl.
  - destruct Hb as [Hb|[_ []]]. exact Hb.
  - assert (Hz' : forall y, In y t -> y <> d -> f y = 0) by (intros y Hy; apply Hz; right; exact Hy).
    destruct (f best <? f x)%nat eqn:L.
    + apply Nat.ltb_lt in L. apply IH; [exact Hz'|]. left.
      destruct (ascii_dec x d) as [E|N]; [exact E|]. rewrite (Hz x (or_introl eq_refl) N) in L. lia.
    + apply Nat.ltb_ge in L. apply IH; [exact Hz'|].
      destruct Hb as [Hb|[Hb0 [E|Hin]]]; [left; exact Hb| |right; split; assumption].
      subst x. lia.
Qed.

(** The selection step of [guess_delimiter] for any totals and any test that implies a positive total:
    when [d] is the only candidate with a positive total, it is chosen. *)
Lemma pick_only (good : ascii -> bool) (total : ascii -> nat) delims d :
  In d delims -> 0 < total d ->
  (forall x, In x delims -> x <> d -> total x = 0) ->
  (forall x, good x = true -> 0 < total x) ->
  match filter good delims with
  | [x] => Some x
  | _ => match delims with [] => None | d0 :: t => Some (argmax_first total t d0) end
  end = Some d.
Proof.
  intros Hin Htd Ht0 Hgood.
  assert (Harg : match delims with [] => None | d0 :: t => Some (argmax_first total t d0) end = Some d).
  { destruct delims as [|d0 t]; [contradiction|]. f_equal. apply argmax_first_only; [exact Htd| |].
    - intros x Hx. apply Ht0. right. exact Hx.
    - destruct (ascii_dec d0 d) as [E|N]; [left; exact E|]. right. split; [apply Ht0; [left; reflexivity|exact N]|].
      destruct Hin as [E|H]; [contradiction|exact H]. }
  destruct (filter good delims) as [|x [|y t]] eqn:F; try exact Harg.
  assert (Hx : In x (filter good delims)) by (rewrite F; left; reflexivity).
  apply filter_In in Hx as [Hx Hg]. apply Hgood in Hg.
  destruct (ascii_dec x d) as [E|N]; [rewrite E; reflexivity|]. rewrite (Ht0 x Hx N) in Hg. lia.
Qed.
