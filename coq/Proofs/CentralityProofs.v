(** Model/Centrality.v: Katz ([katz_def_proof]), the closeness formula ([closeness_of_spec], used by
    C04.closeness_def), the HITS wrapper ([hits_wrapper_proof]), and betweenness on the enumerated small graphs as
    a corollary of Proofs/BrandesProofs.v. *)
From SKN Require Import Base.Util Model.Bfs Model.PageRank Proofs.PageRankProofs Model.Centrality
     Proofs.BrandesProofs.
From Coq Require Import Qabs Qreduction Lqa Lia Setoid.
Close Scope Q_scope.
Open Scope nat_scope.

Lemma katz_coefs_shape alpha K :
  katz_coefs alpha K = 0%Q :: map (qpow alpha) (seq 1 K).
Proof. unfold katz_coefs. cbn [seq map]. reflexivity. Qed.

Lemma walks_to_pow p n k j :
  length p = n -> j < n -> (pow_mv n (BT p) k (V (repeat 1%Q n)) j == walks_to p k j)%Q.
Proof.
  intros Lp. subst n. revert j. induction k as [|k IH]; intros j Hj; cbn [pow_mv walks_to].
  - unfold V. rewrite nthq_repeat by exact Hj. reflexivity.
  - apply mv_ext. exact IH.
Qed.

(** The coded Horner loop computes the docstring's sum_{k=1..K} alpha^k (A^T)^k 1 on the 0/1 pattern. *)
Theorem katz_def_proof (g : wgraph) (alpha : Q) (K : nat) :
  veq (length g) (katz g alpha K) (katz_spec (pattern g) alpha K).
Proof.
  unfold katz. rewrite katz_coefs_shape. set (n := length g). set (p := pattern g).
  assert (Lp : length p = n) by (unfold p, pattern; apply map_length).
  eapply veq_ext; [apply horner_eq_power_sum_proof; [apply repeat_length|discriminate]|].
  intros j Hj. unfold power_sum, katz_spec. cbn [length]. rewrite map_length, seq_length, bsum_shift.
  unfold nthq. cbn [nth]. rewrite Qmult_0_l, Qplus_0_l. apply bsum_ext. intros k Hk.
  rewrite (nth_indep _ 0%Q (qpow alpha 0)) by (rewrite map_length, seq_length; exact Hk).
  rewrite map_nth, seq_nth by exact Hk. rewrite (walks_to_pow p n (S k) j Lp Hj). reflexivity.
Qed.

Lemma closeness_of_spec n ds :
  n <> 0 -> length ds = n -> existsb (fun d => (d <? 0)%Z) ds = false ->
  (closeness_of n ds == closeness_spec n ds)%Q.
Proof.
  intros Hn Ld Hneg. unfold closeness_of, closeness_spec. rewrite Hneg. rewrite Qred_correct. rewrite Ld.
  set (a := (zq (Z.of_nat n) - 1)%Q). set (S := zq (sumz ds)). set (N := zq (Z.of_nat n)).
  assert (HN : ~ (N == 0)%Q).
  { unfold N, zq. intros E. unfold Qeq in E. cbn in E. lia. }
  destruct (Qeq_dec S 0) as [E|E].
  - rewrite E. unfold Qdiv. setoid_replace (0 * / N)%Q with 0%Q by ring.
    change (/ 0)%Q with 0%Q. ring.
  - field. split; assumption.
Qed.

Lemma single_source_length n s : length (single_source n s) = n.
Proof. unfold single_source. rewrite map_length. apply seq_length. Qed.

Theorem brandes_exact_small_partial_proof :
  forallb (fun g => list_eqb (betweenness g) (betweenness_spec g))
          (all_digraphs 1 true ++ all_digraphs 2 true ++ all_digraphs 3 true ++ all_digraphs 4 false) = true.
Proof. rewrite !forallb_app, !brandes_exact_all_digraphs. reflexivity. Qed.

Lemma Forall2_map_l {A B C} (R : B -> C -> Prop) (f : A -> B) (g : A -> C) l :
  (forall x, In x l -> R (f x) (g x)) -> Forall2 R (map f l) (map g l).
Proof.
  induction l as [|x l IH]; intros H; cbn [map]; constructor.
  - apply H. left. reflexivity.
  - apply IH. intros y Hy. apply H. right. exact Hy.
Qed.

Lemma sumq_bounds u : (forall x, In x u -> (0 <= x)%Q) -> (0 <= sumq u)%Q /\ forall x, In x u -> (x <= sumq u)%Q.
Proof.
  induction u as [|a u IH]; intros H; [split; [cbn; lra|contradiction]|]. rewrite sumq_cons.
  destruct (IH (fun y Hy => H y (or_intror Hy))) as [H0 Hle]. assert (H1 := H a (or_introl eq_refl)).
  split; [lra|]. intros x [->|Hx]; [lra|]. assert (H2 := Hle x Hx). lra.
Qed.

Lemma sumq_nonpos_list u : (forall x, In x u -> (x <= 0)%Q) -> (sumq u <= 0)%Q.
Proof.
  induction u as [|a u IH]; intros H; [cbn; lra|]. rewrite sumq_cons.
  assert (H1 := H a (or_introl eq_refl)). assert (H2 := IH (fun x Hx => H x (or_intror Hx))). lra.
Qed.

(** If the singular vector returned by the solver has entries of one sign (Perron vector, up to the
    solver's arbitrary sign), the wrapper returns its entrywise absolute value. *)
Theorem hits_wrapper_proof (u : list Q) :
  (forall x, In x u -> (0 <= x)%Q) \/ (forall x, In x u -> (x <= 0)%Q) ->
  Forall2 Qeq (sign_fix u) (map Qabs u).
Proof.
  intros Hsign. unfold sign_fix, clip_pos, clip_neg.
  assert (Hnegcase : (forall x, In x u -> (x <= 0)%Q) ->
            Forall2 Qeq (map (fun x => if Qltb (- x) 0 then 0%Q else (- x)%Q) u) (map Qabs u)).
  { intros Hneg. apply Forall2_map_l. intros x Hx. assert (H := Hneg x Hx).
    assert (E2 : Qltb (- x) 0 = false) by (apply Qltb_false_le; lra). rewrite E2.
    rewrite Qabs_neg by exact H. reflexivity. }
  destruct (Qltb 0 (sumq u)) eqn:E.
  - apply Qltb_lt in E. destruct Hsign as [Hpos|Hneg].
    + apply Forall2_map_l. intros x Hx. assert (H := Hpos x Hx).
      assert (E2 : Qltb x 0 = false) by (apply Qltb_false_le; exact H). rewrite E2.
      rewrite Qabs_pos by exact H. reflexivity.
    + exfalso. assert (H := sumq_nonpos_list u Hneg). lra.
  - apply Qltb_false_le in E. destruct Hsign as [Hpos|Hneg]; apply Hnegcase; [|exact Hneg].
    intros x Hx. assert (H := proj2 (sumq_bounds u Hpos) x Hx). lra.
Qed.
