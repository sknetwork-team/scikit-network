(** Reducibility of the Paris linkage in exact arithmetic (property C07, height monotonicity).

    In the model of sknetwork/hierarchy/paris.pyx with [R = exact] (no rounding) and [clamp = false] (the heights
    as computed, without the clamp), no merge is lower than the merges that created its two children: [hmono n D = true].

    Proof: an invariant of [paris_run].  With sim(x,y) = 2 p(x,y) / (wo(x) wi(y) + wo(y) wi(x)):
      (I3) every live cluster x created at similarity m_x (height 1/m_x) has sim(x,y) <= m_x for every
           neighbour y;
      (I4) for consecutive chain entries z above x, if both are still live then z is a neighbour of x and
           sim(x,y) <= sim(x,z) for every neighbour y of x.
    A merge of a and b replaces sim(a,c), sim(b,c) by their mediant (or by something smaller when c is a
    neighbour of one only), which is what keeps both invariants. *)
From Coq Require Import Permutation Lia QArith Lqa Psatz.
From SKN Require Import Base.Util Model.Dendrogram Model.Cuts Model.Hierarchy Model.Paris Proofs.DendroBase Proofs.ParisProofs.
Set Warnings "-notation-overridden".

Lemma Qpos_neq0 (d : Q) : (0 < d)%Q -> ~ (d == 0)%Q.
Proof. intros H E. rewrite E in H. lra. Qed.

Lemma div_le_mul (p d s : Q) : (0 < d)%Q -> (p / d <= s)%Q -> (p <= s * d)%Q.
Proof.
  intros Hd H. assert (E : (p == p / d * d)%Q) by (field; now apply Qpos_neq0).
  rewrite E. apply Qmult_le_compat_r; [exact H | lra].
Qed.

Lemma mediant_le : forall p1 d1 p2 d2 s : Q,
  (0 < d1)%Q -> (0 < d2)%Q -> (p1 / d1 <= s)%Q -> (p2 / d2 <= s)%Q -> ((p1 + p2) / (d1 + d2) <= s)%Q.
Proof.
  intros p1 d1 p2 d2 s H1 H2 L1 L2. apply Qle_shift_div_r; [lra|].
  pose proof (div_le_mul _ _ _ H1 L1) as M1. pose proof (div_le_mul _ _ _ H2 L2) as M2. lra.
Qed.

Lemma mediant_le_single : forall p1 d1 d2 s : Q,
  (0 < d1)%Q -> (0 <= d2)%Q -> (0 <= p1)%Q -> (p1 / d1 <= s)%Q -> (p1 / (d1 + d2) <= s)%Q.
Proof.
  intros p1 d1 d2 s H1 H2 Hp L1. apply Qle_shift_div_r; [lra|].
  pose proof (div_le_mul _ _ _ H1 L1) as M1.
  assert (Hs : (0 <= s)%Q).
  { apply Qle_trans with (p1 / d1)%Q; [|exact L1]. apply Qle_shift_div_l; [exact H1 | lra]. }
  pose proof (Qmult_le_0_compat _ _ Hs H2) as M2. lra.
Qed.

Lemma inv_le_inv (m m' : Q) : (0 < m)%Q -> (m <= m')%Q -> (1 / m' <= 1 / m)%Q.
Proof.
  intros H0 H1. apply Qle_shift_div_l; [exact H0|]. apply Qle_trans with (1 / m' * m')%Q.
  - apply Qmult_le_l.
    + apply Qlt_shift_div_l; lra.
    + exact H1.
  - assert (E : (1 / m' * m' == 1)%Q) by (field; apply Qpos_neq0; lra). rewrite E. lra.
Qed.

Lemma alookup_not_None_key {A} k (l : list (nat * A)) : alookup k l <> None <-> In k (akeys l).
Proof.
  split.
  - intros H. destruct (alookup k l) eqn:E; [now apply alookup_key in E | congruence].
  - intros H E. apply alookup_None in E. tauto.
Qed.

(** [c], at similarity [m], is what the scan should choose from [l]: an entry of maximal similarity, and of
    smallest index among those. *)
Definition best (l : list (nat * option Q)) (c : nat) (m : Q) : Prop :=
  (exists s, In (c, Some s) l /\ (s == m)%Q) /\
  forall c' s', In (c', Some s') l -> (s' <= m)%Q /\ ((s' == m)%Q -> c <= c').

(** The choice from [l1 ++ l2] is the choice from [l2] and the choice from [l1]. *)
Lemma best_app l1 l2 a ma c m : best l1 a ma -> best ((a, Some ma) :: l2) c m -> best (l1 ++ l2) c m.
Proof.
  intros [(s0 & I0 & E0) H1] [(s & I & E) H2].
  destruct (H2 a ma (or_introl eq_refl)) as [Hle Htie]. split.
  - destruct I as [I|I].
    + inversion I; subst c s. exists s0. split; [apply in_app_iff; now left | lra].
    + exists s. split; [apply in_app_iff; now right | exact E].
  - intros c' s' Hin. apply in_app_iff in Hin. destruct Hin as [Hin|Hin]; [|apply H2; now right].
    destruct (H1 c' s' Hin) as [A B]. split; [lra|]. intros Q.
    assert (a <= c') by (apply B; lra). assert (c <= a) by (apply Htie; lra). lia.
Qed.

Lemma best_two c0 m0 c1 s1 :
  best [(c0, Some m0); (c1, Some s1)]
       (if Qle_bool s1 m0 then if Qeq_bool s1 m0 then Nat.min c1 c0 else c0 else c1)
       (if Qle_bool s1 m0 then m0 else s1).
Proof.
  destruct (Qle_bool s1 m0) eqn:E1.
  - apply Qle_bool_iff in E1. destruct (Qeq_bool s1 m0) eqn:E2.
    + apply Qeq_bool_iff in E2. split.
      * destruct (Nat.min_dec c1 c0) as [->| ->]; [exists s1 | exists m0]; (split; [cbn; tauto | lra]).
      * intros c' s' [H|[H|[]]]; inversion H; subst c' s'; (split; [lra | lia]).
    + apply Qeq_bool_neq in E2. split.
      * exists m0. split; [now left | lra].
      * intros c' s' [H|[H|[]]]; inversion H; subst c' s'; (split; [lra | intros; lra || lia]).
  - assert (L : ~ (s1 <= m0)%Q) by (intros L; apply Qle_bool_iff in L; congruence). split.
    + exists s1. split; [right; now left | lra].
    + intros c' s' [H|[H|[]]]; inversion H; subst c' s'; (split; [lra | intros; lra || lia]).
Qed.

Lemma nn_fold : forall (l : list (nat * option Q)) c0 m0 c mx,
  (forall c s, In (c, s) l -> s <> None) ->
  fold_left nn_step l (c0, Some m0) = (c, mx) -> exists m, mx = Some m /\ best ((c0, Some m0) :: l) c m.
Proof.
  induction l as [|[c1 [s1|]] t IH]; intros c0 m0 c mx Hs H.
  - inversion H; subst. exists m0. split; [reflexivity|]. split; [exists m0; split; [now left | lra]|].
    intros c' s' [E|[]]. inversion E. split; [lra | lia].
  - assert (Ht : forall c s, In (c, s) t -> s <> None) by (intros c' s H'; apply (Hs c' s); now right).
    pose proof (best_two c0 m0 c1 s1) as B2.
    cbn [fold_left nn_step ogtb oeqb] in H.
    destruct (Qle_bool s1 m0); cbn [negb] in H; [destruct (Qeq_bool s1 m0)|];
      apply (IH _ _ _ _ Ht) in H; destruct H as (m & -> & B); exists m; (split; [reflexivity|]);
      exact (best_app _ _ _ _ _ _ B2 B).
  - exfalso. apply (Hs c1 None); [now left | reflexivity].
Qed.

Lemma nn_search_spec : forall nn0 (l : list (nat * option Q)) nn mx,
  l <> [] -> (forall c s, In (c, s) l -> s <> None) ->
  nn_search nn0 l = (nn, mx) -> exists m, mx = Some m /\ best l nn m.
Proof.
  intros nn0 [|[c1 [s1|]] t] nn mx Hne Hs H; [congruence| |exfalso; apply (Hs c1 None); [now left | reflexivity]].
  apply (nn_fold t c1 s1 nn mx); [|exact H]. intros c s Hin. apply (Hs c s). now right.
Qed.

Definition live (g : agraph) (x : nat) : Prop := alookup x (ag_nb g) <> None.
Definition pq (g : agraph) (x y : nat) : Q := match nbw g x y with Some p => p | None => 0%Q end.
Definition wo (g : agraph) (x : nat) : Q := getq (ag_wout g) x.
Definition wi (g : agraph) (x : nat) : Q := getq (ag_win g) x.
Definition den (g : agraph) (x y : nat) : Q := (wo g x * wi g y + wo g y * wi g x)%Q.
Definition simq (g : agraph) (x y : nat) : Q := (2 * pq g x y / den g x y)%Q.
Definition isnb (g : agraph) (x y : nat) : Prop := x <> y /\ nbw g x y <> None.

(** [z] is the choice of the scan from [x]: a neighbour of maximal similarity, of smallest index among those. *)
Definition pairT (g : agraph) (x z : nat) : Prop :=
  isnb g x z /\ (forall y, isnb g x y -> (simq g x y <= simq g x z)%Q) /\
  (forall y, isnb g x y -> (simq g x y == simq g x z)%Q -> z <= y).

Lemma nbw_live g x y : nbw g x y <> None -> live g x.
Proof. unfold nbw, live. destruct (alookup x (ag_nb g)); congruence. Qed.

Record GI (g : agraph) : Prop := {
  gi_sym : forall x y, nbw g x y = nbw g y x;
  gi_lt : forall x, live g x -> x < ag_next g;
  gi_pos : forall x y p, nbw g x y = Some p -> x <> y -> (0 < p)%Q;
  gi_w : forall x, live g x -> (0 < wo g x)%Q /\ (0 < wi g x)%Q;
  gi_fresh : forall x, ag_next g <= x -> alookup x (ag_wout g) = None /\ alookup x (ag_win g) = None }.

Lemma isnb_sym g x y : GI g -> isnb g x y -> isnb g y x.
Proof. intros HG [H1 H2]. split; [congruence | now rewrite (gi_sym g HG)]. Qed.

Lemma isnb_live g x y : GI g -> isnb g x y -> live g x /\ live g y.
Proof.
  intros HG H. split; [exact (nbw_live _ _ _ (proj2 H)) | exact (nbw_live _ _ _ (proj2 (isnb_sym _ _ _ HG H)))].
Qed.

Lemma row_lt g x r : GI g -> alookup x (ag_nb g) = Some r -> x < ag_next g.
Proof. intros HG E. apply (gi_lt g HG). unfold live. congruence. Qed.

Lemma den_pos g x y : GI g -> live g x -> live g y -> (0 < den g x y)%Q.
Proof.
  intros HG Hx Hy. destruct (gi_w g HG x Hx) as [A B]. destruct (gi_w g HG y Hy) as [C D]. unfold den.
  pose proof (Qmult_lt_0_compat _ _ A D). pose proof (Qmult_lt_0_compat _ _ C B). lra.
Qed.

Lemma den_sym g x y : (den g x y == den g y x)%Q.
Proof. unfold den. ring. Qed.

Lemma simq_sym g x y : GI g -> (simq g x y == simq g y x)%Q.
Proof. intros HG. unfold simq. unfold pq. rewrite (gi_sym g HG x y), (den_sym g x y). reflexivity. Qed.

Lemma simq_pos g x y : GI g -> isnb g x y -> (0 < simq g x y)%Q.
Proof.
  intros HG Hn. destruct (isnb_live g x y HG Hn) as [Hx Hy]. pose proof (den_pos g x y HG Hx Hy) as Hd.
  destruct Hn as [Hne Hn]. unfold simq, pq. destruct (nbw g x y) as [p|] eqn:E; [|congruence].
  pose proof (gi_pos g HG x y p E Hne) as Hp. apply Qlt_shift_div_l; [exact Hd | lra].
Qed.

Lemma sim_exact g x y : (0 < den g x y)%Q -> exists s, similarity exact g x y = Some s /\ (s == simq g x y)%Q.
Proof.
  intros Hd. unfold similarity. cbv beta zeta. cbn [r32 r64 exact].
  destruct (Qle_bool _ 0) eqn:E.
  - apply Qle_bool_iff in E. rewrite !Qred_correct in E. unfold den, wo, wi in Hd. lra.
  - eexists. split; [reflexivity|]. rewrite !Qred_correct. unfold simq, pq, nbw, den, wo, wi, getq.
    destruct (alookup x (ag_nb g)); reflexivity.
Qed.

Lemma next_dead g : GI g -> alookup (ag_next g) (ag_nb g) = None.
Proof.
  intros HG. destruct (alookup (ag_next g) (ag_nb g)) eqn:E; [|reflexivity].
  assert (L : live g (ag_next g)) by (unfold live; congruence). apply (gi_lt g HG) in L. lia.
Qed.

Lemma getq_merged (l : list (nat * Q)) a b new v x : x <> a -> x <> b -> alookup new l = None ->
  getq (aremove b (aremove a l) ++ [(new, v)]) x = if Nat.eqb x new then v else getq l x.
Proof.
  intros Ha Hb Hn. unfold getq. rewrite alookup_app, !alookup_aremove_neq by assumption. cbn [alookup].
  destruct (Nat.eqb x new) eqn:E.
  - apply Nat.eqb_eq in E. subst x. now rewrite Hn.
  - now destruct (alookup x l).
Qed.

Lemma comb_pos o1 o2 r : (forall p, o1 = Some p -> (0 < p)%Q) -> (forall q, o2 = Some q -> (0 < q)%Q) ->
  ocomb exact o1 o2 = Some r -> (0 < r)%Q.
Proof.
  intros H1 H2 H. destruct o1 as [p|], o2 as [q|]; cbn [ocomb r64 exact] in H; try discriminate.
  - replace r with (Qred (p + q)) by congruence.
    rewrite Qred_correct. pose proof (H1 p eq_refl). pose proof (H2 q eq_refl). lra.
  - exact (H1 r H).
  - exact (H2 r H).
Qed.

Definition pair_ok (g : agraph) (x z : nat) : Prop :=
  live g x -> live g z -> isnb g x z /\ forall y, isnb g x y -> (simq g x y <= simq g x z)%Q.

(** One merge: the clusters [a] and [b], with rows [ra] and [rb], of a graph with [GI]. *)
Section Merge.
Context (g : agraph) (a b : nat) (ra rb : nrow) (s1 s2 : nat) (HG : GI g)
        (Ea : alookup a (ag_nb g) = Some ra) (Eb : alookup b (ag_nb g) = Some rb).

Lemma nbw_merge x y : nbw (mg exact g a b ra rb s1 s2) x y = nbw_merged exact g a b ra rb x y.
Proof.
  apply nbw_mg; [exact Ea | exact Eb | now apply next_dead |].
  intros z. rewrite (gi_sym g HG). unfold nbw. now rewrite next_dead.
Qed.

Lemma live_mg x : live (mg exact g a b ra rb s1 s2) x <-> x = ag_next g \/ (live g x /\ x <> a /\ x <> b).
Proof.
  unfold live. rewrite alookup_nb_mg by now apply next_dead.
  destruct (Nat.eqb x (ag_next g)) eqn:En.
  - apply Nat.eqb_eq in En. split; [now left | congruence].
  - apply Nat.eqb_neq in En. destruct (in2 a b x) eqn:I.
    + split; [congruence|]. intros [H|(_ & Ha & Hb)]; [congruence|].
      assert (in2 a b x = false) by (apply in2_false; tauto). congruence.
    + apply in2_false in I. destruct (alookup x (ag_nb g)); cbn [option_map].
      * split; [intros _; right; split; [congruence | exact I] | congruence].
      * split; [congruence | intros [H|(H & _)]; congruence].
Qed.

Lemma wo_mg x : x <> a -> x <> b ->
  wo (mg exact g a b ra rb s1 s2) x = if Nat.eqb x (ag_next g) then Qred (wo g a + wo g b) else wo g x.
Proof. intros Ha Hb. apply getq_merged; [exact Ha | exact Hb | now apply (gi_fresh g HG)]. Qed.

Lemma wi_mg x : x <> a -> x <> b ->
  wi (mg exact g a b ra rb s1 s2) x = if Nat.eqb x (ag_next g) then Qred (wi g a + wi g b) else wi g x.
Proof. intros Ha Hb. apply getq_merged; [exact Ha | exact Hb | now apply (gi_fresh g HG)]. Qed.

Lemma GI_mg : GI (mg exact g a b ra rb s1 s2).
Proof.
  pose proof (row_lt g a _ HG Ea) as La.
  pose proof (row_lt g b _ HG Eb) as Lb.
  constructor.
  - intros x y. rewrite !nbw_merge. apply nbw_merged_sym. exact (gi_sym g HG).
  - intros x H. apply live_mg in H. cbn [mg ag_next]. destruct H as [->|[H _]]; [lia|].
    apply (gi_lt g HG) in H. lia.
  - intros x y p H Hne. rewrite nbw_merge in H. unfold nbw_merged in H.
    destruct (Nat.eqb x (ag_next g)) eqn:Ex.
    + destruct (Nat.eqb y (ag_next g)) eqn:Ey.
      { apply Nat.eqb_eq in Ex, Ey. congruence. }
      destruct (in2 a b y) eqn:Iy; [discriminate|]. apply in2_false in Iy.
      apply (comb_pos _ _ _ (fun p E => gi_pos g HG a y p E (not_eq_sym (proj1 Iy)))
                            (fun p E => gi_pos g HG b y p E (not_eq_sym (proj2 Iy))) H).
    + destruct (in2 a b x) eqn:Ix; [discriminate|]. apply in2_false in Ix.
      destruct (Nat.eqb y (ag_next g)) eqn:Ey.
      * apply (comb_pos _ _ _ (fun p E => gi_pos g HG x a p E (proj1 Ix))
                              (fun p E => gi_pos g HG x b p E (proj2 Ix)) H).
      * destruct (in2 a b y); [discriminate|]. apply (gi_pos g HG x y p H Hne).
  - intros x H. apply live_mg in H. destruct H as [->|(H & Ha & Hb)].
    + rewrite wo_mg, wi_mg by lia. rewrite Nat.eqb_refl, !Qred_correct.
      assert (L1 : live g a) by (unfold live; congruence). assert (L2 : live g b) by (unfold live; congruence).
      destruct (gi_w g HG a L1), (gi_w g HG b L2). split; lra.
    + rewrite wo_mg, wi_mg by assumption.
      assert (En : Nat.eqb x (ag_next g) = false) by (apply Nat.eqb_neq; apply (gi_lt g HG) in H; lia).
      rewrite En. now apply (gi_w g HG).
  - intros x Hx. cbn [mg ag_next] in Hx. unfold mg. cbn [ag_wout ag_win].
    rewrite !alookup_app, !alookup_aremove_neq by lia. cbn [alookup].
    assert (En : Nat.eqb x (ag_next g) = false) by (apply Nat.eqb_neq; lia). rewrite En.
    destruct (gi_fresh g HG x) as [F1 F2]; [lia|]. now rewrite F1, F2.
Qed.

Lemma simq_mg_old x y :
  x <> a -> x <> b -> x <> ag_next g -> y <> a -> y <> b -> y <> ag_next g ->
  nbw (mg exact g a b ra rb s1 s2) x y = nbw g x y /\ simq (mg exact g a b ra rb s1 s2) x y = simq g x y.
Proof.
  intros Xa Xb Xn Ya Yb Yn.
  assert (N : nbw (mg exact g a b ra rb s1 s2) x y = nbw g x y).
  { rewrite nbw_merge. unfold nbw_merged.
    apply Nat.eqb_neq in Xn, Yn. rewrite Xn, Yn.
    assert (I1 : in2 a b x = false) by (apply in2_false; tauto).
    assert (I2 : in2 a b y = false) by (apply in2_false; tauto). now rewrite I1, I2. }
  split; [exact N|]. unfold simq, den. unfold pq. rewrite N, !wo_mg, !wi_mg by assumption.
  apply Nat.eqb_neq in Xn, Yn. now rewrite Xn, Yn.
Qed.

Lemma den_mg_new c : c <> a -> c <> b -> c <> ag_next g ->
  (den (mg exact g a b ra rb s1 s2) (ag_next g) c == den g a c + den g b c)%Q.
Proof.
  intros Ca Cb Cn.
  pose proof (row_lt g a _ HG Ea) as La.
  pose proof (row_lt g b _ HG Eb) as Lb.
  unfold den. rewrite !wo_mg, !wi_mg by (try assumption; lia).
  apply Nat.eqb_neq in Cn. rewrite Cn, Nat.eqb_refl, !Qred_correct. ring.
Qed.

(** The neighbours of the new cluster are neighbours of one of its halves. *)
Lemma isnb_mg_new c :
  isnb (mg exact g a b ra rb s1 s2) (ag_next g) c -> c <> a /\ c <> b /\ (isnb g a c \/ isnb g b c).
Proof.
  intros [Hne Hn]. rewrite nbw_merge in Hn. unfold nbw_merged in Hn. rewrite Nat.eqb_refl in Hn.
  assert (Cn : Nat.eqb c (ag_next g) = false) by (apply Nat.eqb_neq; congruence). rewrite Cn in Hn.
  destruct (in2 a b c) eqn:Ic; [congruence|]. apply in2_false in Ic. destruct Ic as [Ca Cb].
  split; [exact Ca|]. split; [exact Cb|].
  destruct (nbw g a c) eqn:E1; [left; split; congruence|].
  destruct (nbw g b c) eqn:E2; [right; split; congruence | now cbn in Hn].
Qed.

Lemma merge_similarity_le c s :
  isnb (mg exact g a b ra rb s1 s2) (ag_next g) c ->
  (isnb g a c -> (simq g a c <= s)%Q) -> (isnb g b c -> (simq g b c <= s)%Q) ->
  (simq (mg exact g a b ra rb s1 s2) (ag_next g) c <= s)%Q.
Proof.
  intros Hn Ha Hb. destruct (isnb_mg_new c Hn) as (Ca & Cb & Hc).
  assert (Cn : c <> ag_next g) by (intros E; apply (proj1 Hn); now rewrite E).
  assert (La : live g a) by (unfold live; congruence). assert (Lb : live g b) by (unfold live; congruence).
  assert (Lc : live g c) by (destruct Hc as [H|H]; apply (isnb_live g _ c HG H)).
  pose proof (den_pos g a c HG La Lc) as D1. pose proof (den_pos g b c HG Lb Lc) as D2.
  unfold simq at 1, pq. rewrite (den_mg_new c Ca Cb Cn), nbw_merge.
  unfold nbw_merged.
  rewrite Nat.eqb_refl. apply Nat.eqb_neq in Cn. rewrite Cn.
  assert (Ic : in2 a b c = false) by (apply in2_false; tauto). rewrite Ic.
  unfold isnb, simq, pq in Ha, Hb.
  destruct (nbw g a c) as [p|] eqn:E1; destruct (nbw g b c) as [q|] eqn:E2; cbn [ocomb r64 exact] in *.
  - rewrite Qred_correct.
    assert (E : (2 * (p + q) == 2 * p + 2 * q)%Q) by ring. rewrite E.
    apply mediant_le; [exact D1 | exact D2 | apply Ha | apply Hb]; split; congruence.
  - pose proof (gi_pos g HG a c p E1 (not_eq_sym Ca)) as Pp.
    apply mediant_le_single; [exact D1 | lra | lra | apply Ha; split; congruence].
  - pose proof (gi_pos g HG b c q E2 (not_eq_sym Cb)) as Pq.
    rewrite (Qplus_comm (den g a c)).
    apply mediant_le_single; [exact D2 | lra | lra | apply Hb; split; congruence].
  - destruct Hc as [[_ H]|[_ H]]; congruence.
Qed.

Lemma isnb_mg_old x y :
  x <> a -> x <> b -> x <> ag_next g -> y <> ag_next g ->
  isnb (mg exact g a b ra rb s1 s2) x y -> y <> a /\ y <> b /\ isnb g x y.
Proof.
  intros Xa Xb Xn Yn [Hne Hn].
  rewrite nbw_merge in Hn. unfold nbw_merged in Hn.
  apply Nat.eqb_neq in Xn, Yn. rewrite Xn, Yn in Hn.
  assert (I1 : in2 a b x = false) by (apply in2_false; tauto). rewrite I1 in Hn.
  destruct (in2 a b y) eqn:Iy; [congruence|]. apply in2_false in Iy. destruct Iy as [Ya Yb].
  split; [exact Ya|]. split; [exact Yb|]. split; assumption.
Qed.

Lemma old_sim_le x s :
  live g x -> x <> a -> x <> b ->
  (forall y, isnb g x y -> (simq g x y <= s)%Q) ->
  forall y, isnb (mg exact g a b ra rb s1 s2) x y -> (simq (mg exact g a b ra rb s1 s2) x y <= s)%Q.
Proof.
  intros Lx Xa Xb Hs y [Hne Hn].
  pose proof GI_mg as HG'.
  assert (Xn : x <> ag_next g) by (apply (gi_lt g HG) in Lx; lia).
  destruct (Nat.eq_dec y (ag_next g)) as [->|Yn].
  - rewrite (simq_sym _ x (ag_next g) HG'). apply merge_similarity_le.
    + exact (isnb_sym _ _ _ HG' (conj Hne Hn)).
    + intros Ha. rewrite (simq_sym g a x HG). apply Hs. now apply isnb_sym.
    + intros Hb. rewrite (simq_sym g b x HG). apply Hs. now apply isnb_sym.
  - destruct (isnb_mg_old x y Xa Xb Xn Yn (conj Hne Hn)) as (Ya & Yb & Hy).
    rewrite (proj2 (simq_mg_old x y Xa Xb Xn Ya Yb Yn)). now apply Hs.
Qed.

Lemma pair_ok_mg x z : x < ag_next g -> z < ag_next g ->
  pair_ok g x z -> pair_ok (mg exact g a b ra rb s1 s2) x z.
Proof.
  intros Hx Hz P Lx Lz. apply live_mg in Lx, Lz.
  destruct Lx as [Lx|(Lx & Xa & Xb)]; [lia|]. destruct Lz as [Lz|(Lz & Za & Zb)]; [lia|].
  destruct (P Lx Lz) as [[Hne Hnb] Hmax].
  destruct (simq_mg_old x z Xa Xb ltac:(lia) Za Zb ltac:(lia)) as [N S].
  split.
  - split; [exact Hne | now rewrite N].
  - rewrite S. now apply old_sim_le.
Qed.

Lemma pairT_mg x z :
  live g x -> x <> a -> x <> b -> z <> a -> z <> b -> z < ag_next g ->
  pairT g x z -> pairT (mg exact g a b ra rb s1 s2) x z.
Proof.
  intros Lx Xa Xb Za Zb Zl (Hnb & Hmax & Htie).
  assert (Xn : x <> ag_next g) by (apply (gi_lt g HG) in Lx; lia).
  assert (Zn : z <> ag_next g) by lia.
  destruct (simq_mg_old x z Xa Xb Xn Za Zb Zn) as [N S].
  split; [|split].
  - split; [exact (proj1 Hnb) | rewrite N; exact (proj2 Hnb)].
  - rewrite S. now apply old_sim_le.
  - intros y Hy Hq. destruct (Nat.eq_dec y (ag_next g)) as [->|Yn]; [lia|].
    destruct (isnb_mg_old x y Xa Xb Xn Yn Hy) as (Ya & Yb & Hy').
    rewrite (proj2 (simq_mg_old x y Xa Xb Xn Ya Yb Yn)), S in Hq. now apply Htie.
Qed.
End Merge.

(** [P x z] for all consecutive chain entries [z] above [x]. *)
Fixpoint chain_all (P : nat -> nat -> Prop) (c : list nat) : Prop :=
  match c with
  | [] => True
  | z :: t => match t with x :: _ => P x z | [] => True end /\ chain_all P t
  end.

Lemma chain_all_impl (P Q : nat -> nat -> Prop) : forall c,
  (forall x z, In x c -> In z c -> P x z -> Q x z) -> chain_all P c -> chain_all Q c.
Proof.
  induction c as [|z t IH]; [auto|]. cbn [chain_all]. intros H [A B]. split.
  - destruct t as [|x t']; [exact I|]. apply H; [right; now left | now left | exact A].
  - apply IH; [|exact B]. intros x z' Hx Hz. apply H; now right.
Qed.

Record SI (n : nat) (g : agraph) (chain : list nat) (rows : dendrogram) : Prop := {
  si_g : GI g;
  si_next : ag_next g = n + length rows;
  si_chain : forall x, In x chain -> x < ag_next g;
  si_size : forall x, In x (akeys (ag_size g)) -> x < ag_next g;
  si_I3 : forall x, live g x -> n <= x ->
          exists r m, nth_error rows (x - n) = Some r /\ (0 < m)%Q /\ (r_height r == 1 / m)%Q /\
                      forall y, isnb g x y -> (simq g x y <= m)%Q;
  si_I4 : chain_all (pair_ok g) chain;
  si_mono : hok n rows }.

Lemma pair_ok_ext g g' x z : ag_nb g = ag_nb g' -> ag_wout g = ag_wout g' -> ag_win g = ag_win g' ->
  pair_ok g x z -> pair_ok g' x z.
Proof.
  intros H1 H2 H3 P. unfold pair_ok, live, isnb, simq, pq, nbw, den, wo, wi in *. rewrite <- H1, <- H2, <- H3. exact P.
Qed.

Lemma SI_start n g rows node : SI n g [] rows -> In node (akeys (ag_size g)) -> SI n g [node] rows.
Proof.
  intros [HG Hnext Hchain Hsize HI3 HI4 Hmono] Hin. constructor; try assumption.
  - intros x [<-|[]]. now apply Hsize.
  - cbn. tauto.
Qed.

Lemma SI_comp n g node chain rows : SI n g (node :: chain) rows ->
  SI n {| ag_next := ag_next g; ag_nb := ag_nb g; ag_size := aremove node (ag_size g);
          ag_wout := ag_wout g; ag_win := ag_win g |} chain rows.
Proof.
  intros [HG Hnext Hchain Hsize HI3 HI4 Hmono]. constructor.
  - destruct HG as [G1 G2 G3 G4 G5]. constructor; assumption.
  - exact Hnext.
  - intros x H. apply Hchain. now right.
  - cbn [ag_size ag_next]. intros x H. apply akeys_aremove_In in H. now apply Hsize.
  - exact HI3.
  - destruct HI4 as [_ C]. revert C. apply chain_all_impl. intros x z _ _. now apply pair_ok_ext.
  - exact Hmono.
Qed.

Lemma SI_push n g node chain rows nn : SI n g (node :: chain) rows ->
  isnb g node nn -> (forall y, isnb g node y -> (simq g node y <= simq g node nn)%Q) ->
  SI n g (nn :: node :: chain) rows.
Proof.
  intros [HG Hnext Hchain Hsize HI3 HI4 Hmono] Hn Hmax. constructor; try assumption.
  - intros x [<-|H]; [|now apply Hchain]. apply (gi_lt g HG). now apply (isnb_live g node nn).
  - split; [|exact HI4]. intros _ _. split; assumption.
Qed.

Lemma SI_merge n g a b chain rows ra rb s1 s2 m h sz : SI n g (a :: b :: chain) rows ->
  alookup a (ag_nb g) = Some ra -> alookup b (ag_nb g) = Some rb ->
  isnb g a b -> (forall y, isnb g a y -> (simq g a y <= simq g a b)%Q) -> (m == simq g a b)%Q -> (h == 1 / m)%Q ->
  SI n (mg exact g a b ra rb s1 s2) chain (rows ++ [(a, b, h, sz)]).
Proof.
  intros [HG Hnext Hchain Hsize HI3 HI4 Hmono] Ea Eb Hab Hmaxa Hm Hh.
  setoid_rewrite <- Hm in Hmaxa.
  pose proof (GI_mg g a b ra rb s1 s2 HG Ea Eb) as HG'.
  assert (La : live g a) by (unfold live; congruence). assert (Lb : live g b) by (unfold live; congruence).
  assert (Mpos : (0 < m)%Q) by (rewrite Hm; now apply simq_pos).
  assert (Hba := isnb_sym g a b HG Hab).
  assert (Hmaxb : forall y, isnb g b y -> (simq g b y <= m)%Q).
  { destruct HI4 as [P _]. destruct (P Lb La) as [_ Hmax].
    intros y Hy. rewrite Hm, (simq_sym g a b HG). now apply Hmax. }
  constructor.
  - exact HG'.
  - cbn [mg ag_next]. rewrite app_length. cbn [length]. lia.
  - cbn [mg ag_next]. intros x H. assert (x < ag_next g) by (apply Hchain; right; now right). lia.
  - cbn [mg ag_next ag_size]. intros x H. rewrite akeys_app in H. apply in_app_iff in H. destruct H as [H|[<-|[]]]; [|cbn [fst]; lia].
    apply akeys_aremove_In, akeys_aremove_In, Hsize in H. lia.
  - intros x Lx Hx. apply live_mg in Lx; [|exact HG]. destruct Lx as [->|(Lx & Xa & Xb)].
    + exists (a, b, h, sz), m.
      split; [rewrite Hnext, add_sub_l; apply nth_error_app_length|]. split; [exact Mpos|]. split; [exact Hh|].
      intros y Hy. apply merge_similarity_le; try assumption; [apply Hmaxa | apply Hmaxb].
    + destruct (HI3 x Lx Hx) as (r & mx & Er & Mx & Hr & Hmax). exists r, mx.
      split; [rewrite nth_error_app1 by (apply nth_error_Some; congruence); exact Er|].
      split; [exact Mx|]. split; [exact Hr|]. now apply old_sim_le.
  - destruct HI4 as [_ [_ C]]. revert C. apply chain_all_impl. intros x z Hx Hz.
    apply pair_ok_mg; try assumption; apply Hchain; right; now right.
  - assert (K : forall c c', live g c -> isnb g c c' -> (m == simq g c c')%Q -> child_height_ok n rows h c = true).
    { intros c c' Lc Hcc Hmc. unfold child_height_ok. destruct (Nat.ltb c n) eqn:El; [reflexivity|].
      apply Nat.ltb_ge in El. destruct (HI3 c Lc El) as (r & mc & Er & Mc & Hr & Hmax). rewrite Er.
      apply Qle_bool_iff. rewrite Hr, Hh. apply inv_le_inv; [exact Mpos|]. rewrite Hmc. now apply Hmax. }
    apply hok_snoc; [exact Hmono | apply (K a b La Hab Hm) | apply (K b a Lb Hba)].
    now rewrite Hm, (simq_sym g a b HG).
Qed.

Lemma nbrs_isnb g node row c : alookup node (ag_nb g) = Some row ->
  (In c (filter (fun c => negb (Nat.eqb c node)) (akeys row)) <-> isnb g node c).
Proof.
  intros Er. rewrite filter_In, negb_true_iff, Nat.eqb_neq. unfold isnb, nbw. rewrite Er.
  rewrite alookup_not_None_key. split; intros [H1 H2]; split; auto.
Qed.

Lemma search_g g node row nn0 nn mx : GI g -> alookup node (ag_nb g) = Some row ->
  filter (fun c => negb (Nat.eqb c node)) (akeys row) <> [] ->
  nn_search nn0 (map (fun c => (c, similarity exact g node c))
                     (filter (fun c => negb (Nat.eqb c node)) (akeys row))) = (nn, mx) ->
  pairT g node nn /\ exists m, mx = Some m /\ (m == simq g node nn)%Q.
Proof.
  intros HG Er Hne Hs.
  assert (Hsim : forall c, isnb g node c -> exists s, similarity exact g node c = Some s /\ (s == simq g node c)%Q).
  { intros c Hc. apply sim_exact. destruct (isnb_live g node c HG Hc). now apply den_pos. }
  apply nn_search_spec in Hs.
  - destruct Hs as (m & -> & (s & Hin & Hsm) & Hall).
    apply in_map_iff in Hin. destruct Hin as (c & Hc & Hcin).
    assert (c = nn) by congruence. subst c.
    apply (nbrs_isnb g node row nn Er) in Hcin.
    destruct (Hsim nn Hcin) as (s' & Es' & Hs'). assert (s' = s) by congruence. subst s'.
    assert (Hm : (m == simq g node nn)%Q) by (now rewrite <- Hsm).
    assert (Hy : forall y, isnb g node y -> (simq g node y <= m)%Q /\ ((simq g node y == m)%Q -> nn <= y)).
    { intros y Hy. destruct (Hsim y Hy) as (sy & Esy & Hsy). rewrite <- Hsy. apply (Hall y).
      apply in_map_iff. exists y. split; [now rewrite Esy|]. now apply (nbrs_isnb g node row y Er). }
    split; [|now exists m]. split; [exact Hcin|]. split; intros y Hy'; rewrite <- Hm; now apply Hy.
  - destruct (filter _ (akeys row)); [congruence | discriminate].
  - intros c s Hin. apply in_map_iff in Hin. destruct Hin as (c' & Hc & Hcin).
    apply (nbrs_isnb g node row c' Er) in Hcin. destruct (Hsim c' Hcin) as (s' & Es' & _). congruence.
Qed.

Definition SIs (n : nat) (st : Paris.pstate) : Prop := SI n (p_ag st) (p_chain st) (p_rows st).

Lemma Running_inj st1 st2 : Running st1 = Running st2 -> st1 = st2.
Proof. congruence. Qed.

Lemma step_SI n st st' : SIs n st -> paris_step exact false st = Running st' -> SIs n st'.
Proof.
  unfold SIs. intros HS H. unfold paris_step in H. cbv zeta in H.
  destruct (p_chain st) as [|node chain] eqn:Ec.
  - destruct (ag_size (p_ag st)) as [|[node sz] t] eqn:Es; [discriminate|].
    apply Running_inj in H. subst st'. cbn [p_ag p_chain p_rows p_comps].
    apply SI_start; [exact HS|]. rewrite Es. now left.
  - destruct (alookup node (ag_nb (p_ag st))) as [row|] eqn:Er; [|discriminate].
    destruct (filter (fun c => negb (Nat.eqb c node)) (akeys row)) as [|c0 nbrs] eqn:En.
    + destruct (alookup node (ag_size (p_ag st))) as [s|]; [|discriminate].
      apply Running_inj in H. subst st'. cbn [p_ag p_chain p_rows p_comps]. now apply SI_comp.
    + destruct (nn_search _ _) as [nn mx] eqn:Es.
      rewrite <- En in Es. apply (search_g (p_ag st) node row) in Es;
        [|exact (si_g _ _ _ _ HS) | exact Er | rewrite En; discriminate].
      destruct Es as ((Hnn & Hmax & _) & m & -> & Hm).
      destruct chain as [|last chain'].
      * apply Running_inj in H. subst st'. cbn [p_ag p_chain p_rows p_comps]. now apply SI_push.
      * destruct (Nat.eqb last nn) eqn:El.
        -- apply Nat.eqb_eq in El. subst last.
           destruct (alookup node (ag_size (p_ag st))) as [s1|]; [|discriminate].
           destruct (alookup nn (ag_size (p_ag st))) as [s2|]; [|discriminate].
           destruct (ag_merge exact (p_ag st) node nn) as [g'|e] eqn:Em; [|discriminate].
           apply Running_inj in H. subst st'. cbn [p_ag p_chain p_rows p_comps].
           apply ag_merge_inv in Em. destruct Em as (ra & rb & t1 & t2 & Ea & Eb & _ & _ & _ & ->).
           apply (SI_merge n (p_ag st) node nn chain' (p_rows st) ra rb t1 t2 m); try assumption.
           apply Qred_correct.
        -- apply Running_inj in H. subst st'. cbn [p_ag p_chain p_rows p_comps]. now apply SI_push.
Qed.

(* input of AggregateGraph: stored entries of a symmetric matrix with positive weights, one entry per position,
   indices < n; positive node weights (what get_probs returns for 'uniform', and for 'degree' when no node is
   isolated) *)
Definition graph_ok (n : nat) (G : entries) : Prop :=
  NoDup (map (fun e => (e_i e, e_j e)) G) /\
  (forall i j w, In (i, j, w) G -> In (j, i, w) G /\ i < n /\ j < n /\ (0 < w)%Q).
Definition weights_ok (n : nat) (w : list Q) : Prop := length w = n /\ (forall q, In q w -> (0 < q)%Q).

Lemma akeys_combine_seq (w : list Q) n : length w = n -> akeys (combine (seq 0 n) w) = seq 0 n.
Proof. intros Hl. apply map_fst_combine. rewrite seq_length. lia. Qed.

Lemma alookup_combine_lt (w : list Q) n x : length w = n -> x < n ->
  exists q, alookup x (combine (seq 0 n) w) = Some q /\ In q w.
Proof.
  intros Hl H.
  destruct (In_key_alookup x (combine (seq 0 n) w)) as [q Eq]; [rewrite akeys_combine_seq by exact Hl; apply in_seq; lia|].
  exists q. split; [exact Eq|]. apply alookup_In in Eq. now apply in_combine_r in Eq.
Qed.

Lemma alookup_combine_ge (w : list Q) n x : length w = n -> n <= x -> alookup x (combine (seq 0 n) w) = None.
Proof. intros Hl H. apply alookup_None. rewrite akeys_combine_seq by exact Hl. rewrite in_seq. lia. Qed.

Lemma qsumr_pos l : l <> [] -> (forall q, In q l -> (0 < q)%Q) -> (0 < qsumr l)%Q.
Proof.
  induction l as [|a l IH]; intros Hne H; [congruence|]. cbn [qsumr fold_right]. rewrite Qred_correct.
  assert (0 < a)%Q by (apply H; now left). destruct l as [|b l']; [cbn; lra|].
  assert (0 < qsumr (b :: l'))%Q by (apply IH; [discriminate | intros q Hq; apply H; now right]).
  unfold qsumr in *. lra.
Qed.

Lemma total_pos n G i j w : graph_ok n G -> In (i, j, w) G -> (0 < total G)%Q.
Proof.
  intros [_ HG] Hin. apply qsumr_pos; [destruct G; [destruct Hin | discriminate]|].
  intros q Hq. apply in_map_iff in Hq. destruct Hq as ([[i' j'] w'] & <- & Hin'). now apply HG in Hin'.
Qed.

Lemma live_init n G wout win x : live (ag_init exact n G wout win) x -> x < n.
Proof.
  unfold live, ag_init. cbn [ag_nb]. intros H. destruct (lt_dec x n) as [L|L]; [exact L|].
  rewrite alookup_map_keyed_out in H by (rewrite in_seq; lia). congruence.
Qed.

Lemma GI_init n G wout win : graph_ok n G -> weights_ok n wout -> weights_ok n win ->
  GI (ag_init exact n G wout win).
Proof.
  intros HG [Lo Po] [Li Pi]. constructor.
  - apply (init_symmetric exact n G wout win (proj1 HG)). intros i j w H. destruct (proj2 HG i j w H). tauto.
  - intros x H. apply live_init in H. exact H.
  - intros x y p H _. apply nbw_init_in in H. destruct H as (w & Hin & ->).
    pose proof (total_pos n G x y w HG Hin) as T. apply (proj2 HG) in Hin. destruct Hin as (_ & _ & _ & W).
    cbn [r32 r64 exact]. rewrite !Qred_correct. apply Qlt_shift_div_l; [exact T | lra].
  - intros x H. apply live_init in H. unfold wo, wi, getq, ag_init. cbn [ag_wout ag_win].
    destruct (alookup_combine_lt wout n x Lo H) as (q1 & -> & I1).
    destruct (alookup_combine_lt win n x Li H) as (q2 & -> & I2). split; [now apply Po | now apply Pi].
  - intros x H. cbn [ag_init ag_next] in H. unfold ag_init. cbn [ag_wout ag_win].
    split; now apply alookup_combine_ge.
Qed.

Lemma SI_init n G wout win : graph_ok n G -> weights_ok n wout -> weights_ok n win ->
  SIs n (paris_init (ag_init exact n G wout win)).
Proof.
  intros HG Ho Hi. unfold SIs, paris_init. cbn [p_ag p_chain p_rows p_comps]. constructor.
  - now apply GI_init.
  - cbn. lia.
  - intros x [].
  - unfold ag_init. cbn [ag_size ag_next]. intros x H. rewrite akeys_map_const in H. apply in_seq in H. lia.
  - intros x H Hx. apply live_init in H. lia.
  - exact I.
  - intros [|k] r Hr; discriminate.
Qed.

Theorem paris_reducible : forall hinf n G wout win D m t,
  graph_ok n G -> weights_ok n wout -> weights_ok n win ->
  paris_core exact false hinf n G wout win = Some (Ok (D, m, t)) ->
  (forall r, In r D -> (r_height r <= hinf)%Q) ->
  hmono n D = true.
Proof.
  intros hinf n G wout win D m t HG Ho Hi H Hinf.
  destruct (paris_core_inv _ _ _ _ _ _ _ _ _ _ H) as (st & Hrun & Hfin).
  destruct (paris_run_pinv _ _ _ _ _ _ _ _ Hrun) as [Hp Hsz].
  destruct (paris_run_inv exact false (SIs n) (step_SI n) _ _ _ (SI_init n G wout win HG Ho Hi) Hrun) as [HS _].
  exact (finish_hmono n hinf st D Hp Hsz (si_mono _ _ _ _ HS) Hfin Hinf).
Qed.

(** Non-vacuity: a 6-node graph (two triangle-like blocks joined by an edge). *)
Definition ex_edges : list (nat * nat * Z) :=
  [(0, 1, 3%Z); (0, 2, 3%Z); (2, 3, 2%Z); (3, 4, 2%Z); (3, 5, 2%Z); (4, 5, 1%Z)].
Definition ex_G : entries :=
  flat_map (fun e => [(fst (fst e), snd (fst e), inject_Z (snd e)); (snd (fst e), fst (fst e), inject_Z (snd e))]) ex_edges.
Definition ex_w : list Q := [(6#26)%Q; (3#26)%Q; (5#26)%Q; (6#26)%Q; (3#26)%Q; (3#26)%Q].

Example paris_reducible_example :
  match paris_core exact false (1000#1)%Q 6 ex_G ex_w ex_w with
  | Some (Ok (D, _, _)) => hmono 6 D = true /\ length D = 5
  | _ => False
  end.
Proof. vm_compute. split; reflexivity. Qed.

(** Every hypothesis of [paris_reducible] holds on this example (so the theorem is not vacuous there). *)
Example paris_reducible_example_hyps :
  graph_ok 6 ex_G /\ weights_ok 6 ex_w /\
  match paris_core exact false (1000#1)%Q 6 ex_G ex_w ex_w with
  | Some (Ok (D, _, _)) => forallb (fun r => Qle_bool (r_height r) (1000#1)%Q) D = true
  | _ => False
  end.
Proof.
  split; [|split].
  - split.
    + vm_compute. repeat (constructor; [cbn; intuition discriminate|]). constructor.
    + intros i j w H. vm_compute in H.
      repeat (destruct H as [H|H];
              [injection H as <- <- <-; split; [vm_compute; auto 15 | repeat split; lia || reflexivity]|]).
      destruct H.
  - split; [reflexivity|]. intros q H. vm_compute in H. intuition (subst q; reflexivity).
  - vm_compute. reflexivity.
Qed.

Print Assumptions paris_reducible.
Print Assumptions mediant_le.
Print Assumptions mediant_le_single.
Print Assumptions merge_similarity_le.
Print Assumptions nn_search_spec.
