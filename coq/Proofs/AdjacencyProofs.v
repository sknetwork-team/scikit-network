(** from_adjacency_list: the model (Parse.from_adjacency_dict / from_adjacency_list_nat) meets the
    specification written on the adjacency list itself (Model/AdjacencyList.v): entries and names for the dict
    form; names for the list form, whose entry statement is C18.adjacency_list_entry. *)
From Coq Require Import String Ascii.
From Coq Require Import Lia.
From SKN Require Import Base.Util Model.PathSafe Model.Parse Model.AdjacencyList Proofs.PathSafeProofs Proofs.ParseProofs.
Set Warnings "-notation-overridden".

Lemma sumz_repeat_1 c : sumz (repeat 1%Z c) = Z.of_nat c.
Proof. induction c as [|c IH]; [reflexivity|].
  change (sumz (repeat 1%Z (S c))) with (1 + sumz (repeat 1%Z c))%Z. rewrite IH. lia.
Qed.

Lemma in_adjacency_edges {id} (adj : list (id * list id)) a b :
  In (a, b) (adjacency_edges adj) <-> exists nb, In (a, nb) adj /\ In b nb.
Proof.
  unfold adjacency_edges. rewrite in_flat_map. split.
  - intros [[k nb] [Hr Hab]]. simpl in Hab. apply in_map_iff in Hab as [b' [E Hb']].
    inversion E; subst. exists nb. split; assumption.
  - intros [nb [Hr Hb]]. exists (a, nb). split; [exact Hr|]. simpl. apply in_map_iff.
    exists b. split; [reflexivity|exact Hb].
Qed.

Section AdjacencyProofs.
  Context {id : Type} (ideqb : id -> id -> bool) (as_int : id -> option nat)
          (unique : list id -> list id * list nat) (pass : bool)
          (ideqb_spec : forall a b, ideqb a b = true <-> a = b)
          (as_int_inj : forall a b k, as_int a = Some k -> as_int b = Some k -> a = b)
          (uniq_ok : unique_ok ideqb unique).

  Notation is_node := (is_node ideqb as_int).

  (** Unit weights: the listed weights are as many 1s as there are matching edges. *)
  Lemma listed_unit rn cn (ea : list (id * id)) i j :
    listed ideqb as_int rn cn (raw_edges ea None) i j =
    repeat 1%Z (length (filter (fun p => is_node rn i (fst p) && is_node cn j (snd p)) ea)).
  Proof.
    unfold listed, raw_edges.
    induction ea as [|[a b] t IH]; [reflexivity|].
    cbn [length repeat combine filter esrc edst fst snd].
    destruct (is_node rn i a && is_node cn j b); cbn [map length repeat ew snd]; rewrite IH; reflexivity.
  Qed.

  Lemma count_row rn cn (k : id) (nb : list id) i j :
    length (filter (fun p => is_node rn i (fst p) && is_node cn j (snd p)) (map (fun b => (k, b)) nb)) =
    if is_node rn i k then length (filter (is_node cn j) nb) else 0.
  Proof.
    induction nb as [|b t IH]; [destruct (is_node rn i k); reflexivity|].
    cbn [map filter fst snd]. destruct (is_node rn i k) eqn:Hk; cbn [andb] in *.
    - destruct (is_node cn j b); cbn [length]; rewrite IH; reflexivity.
    - exact IH.
  Qed.

  Lemma count_adjacency rn cn (adj : list (id * list id)) i j :
    length (filter (fun p => is_node rn i (fst p) && is_node cn j (snd p)) (adjacency_edges adj)) =
    adj_count ideqb as_int rn cn adj i j.
  Proof.
    unfold adjacency_edges. induction adj as [|[k nb] t IH]; [reflexivity|].
    cbn [flat_map fst snd]. rewrite filter_app, app_length, count_row, IH. reflexivity.
  Qed.

  Lemma listed_adjacency rn cn adj i j :
    listed ideqb as_int rn cn (raw_edges (adjacency_edges adj) None) i j =
    repeat 1%Z (adj_count ideqb as_int rn cn adj i j).
  Proof. rewrite listed_unit, count_adjacency. reflexivity. Qed.

  Lemma spec_base_adjacency fl rn cn adj i j :
    spec_base ideqb as_int fl rn cn (raw_edges (adjacency_edges adj) None) i j =
    adj_base fl (adj_count ideqb as_int rn cn adj i j).
  Proof.
    unfold spec_base, adj_base. rewrite listed_adjacency.
    destruct (adj_count ideqb as_int rn cn adj i j) as [|c].
    - destruct (weighted fl), (sum_duplicates fl); reflexivity.
    - destruct (weighted fl), (sum_duplicates fl); try reflexivity. apply sumz_repeat_1.
  Qed.

  Lemma spec_entry_adjacency fl rn cn adj i j :
    spec_entry ideqb as_int fl rn cn (raw_edges (adjacency_edges adj) None) i j =
    adj_spec_entry ideqb as_int fl rn cn adj i j.
  Proof.
    unfold spec_entry, adj_spec_entry. rewrite !spec_base_adjacency. reflexivity.
  Qed.

  Theorem adjacency_dict_entry fl adj d :
    from_adjacency_dict ideqb as_int unique pass fl adj = Some d ->
    pass = true ->
    forall i j, entry (d_matrix d) i j =
                adj_spec_entry ideqb as_int fl (row_names d) (col_names d) adj i j.
  Proof.
    unfold from_adjacency_dict, from_edge_list. intros H Hp i j.
    rewrite <- spec_entry_adjacency.
    apply (from_edge_array_entry ideqb as_int unique pass ideqb_spec as_int_inj uniq_ok
                                 fl (adjacency_edges adj) None d H (or_introl Hp)).
  Qed.

  Theorem adjacency_dict_names fl adj d :
    from_adjacency_dict ideqb as_int unique pass fl adj = Some d ->
    (forall k nb b, In (k, nb) adj -> In b nb ->
       exists i j, i < fst (m_shape (d_matrix d)) /\ j < snd (m_shape (d_matrix d)) /\
                   is_node (row_names d) i k = true /\ is_node (col_names d) j b = true) /\
    names_are (row_names d) (fst (m_shape (d_matrix d)))
              (fun x => exists k nb, In (k, nb) adj /\ nb <> [] /\ (x = k \/ In x nb)) /\
    names_are (col_names d) (snd (m_shape (d_matrix d)))
              (fun x => exists k nb, In (k, nb) adj /\ nb <> [] /\ (x = k \/ In x nb)) /\
    d_names d = row_names d /\
    (reindex fl = true -> row_names d <> None /\ col_names d <> None).
  Proof.
    unfold from_adjacency_dict, from_edge_list. intros H.
    destruct (from_edge_array_names ideqb as_int unique pass ideqb_spec uniq_ok
                                    fl (adjacency_edges adj) None d H) as [H1 [H2 [H3 [H4 H5]]]].
    assert (Hback : forall x, (exists e, In e (adjacency_edges adj) /\ (x = fst e \/ x = snd e)) ->
                    exists k nb, In (k, nb) adj /\ nb <> [] /\ (x = k \/ In x nb)).
    { intros x [[a b] [He Hx]]. apply in_adjacency_edges in He as [nb [Hr Hb]]. simpl in Hx.
      exists a, nb. split; [exact Hr|]. split.
      - intros E. rewrite E in Hb. exact Hb.
      - destruct Hx as [->| ->]; [left; reflexivity|right; exact Hb]. }
    split; [|split; [|split; [|split]]].
    - intros k nb b Hr Hb. apply H1. apply in_adjacency_edges. exists nb. split; assumption.
    - exact (names_are_impl _ _ _ _ Hback H2).
    - exact (names_are_impl _ _ _ _ Hback H3).
    - exact H4.
    - exact H5.
  Qed.
End AdjacencyProofs.

Lemma from_adjacency_list_nat_dict pass fl (adj : list (list nat)) :
  from_adjacency_list_nat pass fl adj =
  from_adjacency_dict Nat.eqb as_int_nat nat_unique pass fl (enumerate_rows adj).
Proof. reflexivity. Qed.

Theorem adjacency_list_names pass fl (adj : list (list nat)) d :
  from_adjacency_list_nat pass fl adj = Some d ->
  (forall k nb b, In (k, nb) (enumerate_rows adj) -> In b nb ->
     exists i j, i < fst (m_shape (d_matrix d)) /\ j < snd (m_shape (d_matrix d)) /\
                 is_node Nat.eqb as_int_nat (row_names d) i k = true /\
                 is_node Nat.eqb as_int_nat (col_names d) j b = true) /\
  d_names d = row_names d /\
  (reindex fl = true -> row_names d <> None /\ col_names d <> None).
Proof.
  rewrite from_adjacency_list_nat_dict. intros H.
  destruct (adjacency_dict_names Nat.eqb as_int_nat nat_unique pass Nat.eqb_eq nat_unique_ok
                                 fl (enumerate_rows adj) d H) as [H1 [_ [_ [H4 H5]]]].
  split; [exact H1|]. split; [exact H4|exact H5].
Qed.

Lemma count_filter_eqb (l : list nat) j :
  length (filter (is_node Nat.eqb as_int_nat None j) l) = count_occ Nat.eq_dec l j.
Proof.
  induction l as [|x t IH]; [reflexivity|].
  cbn [filter count_occ]. unfold is_node at 1, as_int_nat at 1.
  destruct (Nat.eq_dec x j) as [E|E].
  - apply Nat.eqb_eq in E. rewrite E. cbn [length]. rewrite IH. reflexivity.
  - apply Nat.eqb_neq in E. rewrite E. exact IH.
Qed.

Lemma adj_count_seq (adj : list (list nat)) i j : forall s,
  adj_count Nat.eqb as_int_nat None None (combine (seq s (length adj)) adj) i j =
  if s <=? i then count_occ Nat.eq_dec (nth (i - s) adj []) j else 0.
Proof.
  unfold adj_count. induction adj as [|r t IH]; intros s.
  - cbn. destruct (s <=? i); [|reflexivity]. destruct (i - s); reflexivity.
  - cbn [length seq combine map sumn fold_right fst snd].
    fold (sumn (map (fun r0 : nat * list nat =>
                       if is_node Nat.eqb as_int_nat None i (fst r0)
                       then length (filter (is_node Nat.eqb as_int_nat None j) (snd r0)) else 0)
                    (combine (seq (S s) (length t)) t))).
    rewrite IH. unfold is_node at 1, as_int_nat at 1.
    destruct (Nat.eqb_spec s i) as [E|E].
    + subst i. rewrite count_filter_eqb, Nat.leb_refl, Nat.sub_diag.
      destruct (Nat.leb_spec (S s) s) as [L|L]; [lia|]. cbn [nth]. lia.
    + destruct (Nat.leb_spec s i) as [L|L].
      * destruct (Nat.leb_spec (S s) i) as [L'|L']; [|lia].
        replace (i - s) with (S (i - S s)) by lia. reflexivity.
      * destruct (Nat.leb_spec (S s) i) as [L'|L']; [lia|reflexivity].
Qed.

Theorem adjacency_dict_entry_str pass fl (adj : list (string * list string)) d :
  from_adjacency_dict_str pass fl adj = Some d ->
  pass = true ->
  forall i j, entry (d_matrix d) i j =
              adj_spec_entry String.eqb as_int_str fl (row_names d) (col_names d) adj i j.
Proof. apply (adjacency_dict_entry String.eqb as_int_str str_unique pass String.eqb_eq as_int_str_inj str_unique_ok). Qed.

Definition adj_example_flags : flags :=
  {| directed := true; bipartite := false; weighted := true; reindex := false;
     sum_duplicates := true; shape := None; matrix_only := None |}.
Definition adj_example_flags_sym : flags :=
  {| directed := false; bipartite := false; weighted := false; reindex := true;
     sum_duplicates := true; shape := None; matrix_only := None |}.

Example adjacency_nonvacuous :
  view (from_adjacency_list_nat true adj_example_flags [[1;1;2];[];[0]]) =
    Some ((3, 3), [((0, 1), 2%Z); ((0, 2), 1%Z); ((2, 0), 1%Z)], false, (None, None, None), true) /\
  view (from_adjacency_list_nat true adj_example_flags_sym [[1;1;2];[];[0]]) =
    Some ((3, 3), [((0, 1), 1%Z); ((1, 0), 1%Z); ((2, 0), 1%Z); ((0, 2), 1%Z)], true,
          (Some [0; 1; 2], None, None), false) /\
  (exists d, from_adjacency_list_nat true adj_example_flags [[1;1;2];[];[0]] = Some d /\
             entry (d_matrix d) 0 1 = 2%Z /\ entry (d_matrix d) 0 2 = 1%Z /\
             entry (d_matrix d) 2 0 = 1%Z /\ entry (d_matrix d) 1 0 = 0%Z) /\
  adj_spec_entry Nat.eqb as_int_nat adj_example_flags None None (enumerate_rows [[1;1;2];[];[0]]) 0 1 = 2%Z /\
  occurrences [[1;1;2];[];[0]] 0 1 = 2.
Proof.
  split; [vm_compute; reflexivity|]. split; [vm_compute; reflexivity|].
  split; [eexists; split; [vm_compute; reflexivity|]; vm_compute; repeat split; reflexivity|].
  split; vm_compute; reflexivity.
Qed.
