From Coq Require Import String Ascii.
From Coq Require Import Lia.
From SKN Require Import Base.Util Model.Graphml.
Set Warnings "-notation-overridden".
(** The key table of a GraphML document: the second walk of [from_graphml] ([scan_keys]) agrees, on
    every document it accepts, with the exception-free reading [doc_keys]; the weight-key rule read
    off [doc_keys]; and the two dialect switches ([d_for_checked], [d_bool_strict]) spelled out. *)
Local Open Scope string_scope.
Local Open Scope list_scope.
Local Open Scope nat_scope.
Local Infix "==s" := String.eqb (at level 70).
Local Notation "x <- r ;; k" := (bind r (fun x => k)) (at level 61, r at next level, right associativity).

Lemma bind_ok {A B} (r : result A) (f : A -> result B) b :
  bind r f = Ok b -> exists a, r = Ok a /\ f a = Ok b.
Proof.
  destruct r as [a|e]; cbn [bind]; intros H.
  - exists a. split; [reflexivity | exact H].
  - discriminate H.
Qed.

Ltac bind_inv H x Hx :=
  apply bind_ok in H; destruct H as [x [Hx H]]; cbv beta zeta in H.

Lemma get_attr_ok k e v :
  get_attr k e = Ok v -> attr k e = Some v /\ attr_or_empty k e = v.
Proof.
  unfold get_attr, attr_or_empty.
  destruct (attr k e) as [w|] eqn:E; intros H; inversion H; subst; auto.
Qed.

Lemma weight_default_ok dl ty kes dw v :
  weight_default dl ty kes dw = Ok v -> v = weight_default_pure dl ty kes dw.
Proof.
  unfold weight_default_pure. revert dw.
  induction kes as [|ke t IH]; cbn [weight_default fold_left]; intros dw H.
  - inversion H; reflexivity.
  - destruct (is_tag "default" ke) eqn:Ed.
    + bind_inv H w Hc. unfold cast_or. rewrite Hc. apply IH. exact H.
    + apply IH. exact H.
Qed.

Lemma key_children_ok dl name ty kes descs dv descs' dv' :
  key_children dl name ty kes descs dv = Ok (descs', dv') ->
  descs' = descs_pure name kes descs /\ dv' = last_default dl ty kes dv.
Proof.
  unfold descs_pure, last_default. revert descs dv.
  induction kes as [|ke t IH]; cbn [key_children fold_left]; intros descs dv H.
  - inversion H; auto.
  - destruct (is_tag "desc" ke) eqn:Es; cbn [negb andb].
    + apply IH. exact H.
    + destruct (is_tag "default" ke) eqn:Ed.
      * bind_inv H w Hc. unfold cast_or. rewrite Hc. apply IH. exact H.
      * apply IH. exact H.
Qed.

Lemma key_step_ok dl wk mss k fe k' :
  key_step dl wk mss (Ok k) fe = Ok k' -> k' = key_step_pure dl wk mss k fe.
Proof.
  intros H. unfold key_step in H. cbn [bind] in H.
  unfold key_step_pure, key_type. cbv zeta.
  destruct (is_tag "key" fe) eqn:Ek.
  - bind_inv H name Hn. apply get_attr_ok in Hn. destruct Hn as [_ Hn].
    bind_inv H tyname Ht. apply get_attr_ok in Ht. destruct Ht as [_ Ht].
    rewrite Hn, Ht.
    destruct (weight_key_test dl wk name fe) eqn:Ew.
    + bind_inv H kid Hid. apply get_attr_ok in Hid. destruct Hid as [Hid _].
      bind_inv H dw Hdw. apply weight_default_ok in Hdw.
      inversion H; subst k'; clear H. rewrite Hid, <- Hdw. reflexivity.
    + bind_inv H dom Hd. apply get_attr_ok in Hd. destruct Hd as [_ Hd].
      bind_inv H k1 Hk1.
      bind_inv H kid Hid. apply get_attr_ok in Hid. destruct Hid as [_ Hid].
      inversion H; subst k'; clear H. rewrite Hd, Hid.
      destruct (dom ==s "node") eqn:En; [|destruct (dom ==s "edge") eqn:Ee].
      (* a node key and an edge key are read in the same way *)
      1, 2: bind_inv Hk1 r Hr; destruct r as [ds dv]; apply key_children_ok in Hr as [Hr1 Hr2];
        inversion Hk1; subst k1; cbn [fst snd k_dw k_wty k_wid k_nattr k_eattr k_keys k_desc k_dnode k_dedge];
        rewrite Hr1, Hr2; reflexivity.
      inversion Hk1; subst k1. reflexivity.
  - destruct (is_tag "desc" fe) eqn:Es; inversion H; reflexivity.
Qed.

Lemma key_step_raise dl wk mss e fe : key_step dl wk mss (Raise e) fe = Raise e.
Proof. reflexivity. Qed.

Lemma fold_key_step_raise dl wk mss l e :
  fold_left (key_step dl wk mss) l (Raise e) = Raise e.
Proof.
  induction l as [|fe t IH]; cbn [fold_left].
  - reflexivity.
  - rewrite key_step_raise. exact IH.
Qed.

Lemma fold_key_step_pure dl wk mss l :
  forall k0 k, fold_left (key_step dl wk mss) l (Ok k0) = Ok k ->
               k = fold_left (key_step_pure dl wk mss) l k0.
Proof.
  induction l as [|fe t IH]; cbn [fold_left]; intros k0 k H.
  - inversion H; reflexivity.
  - destruct (key_step dl wk mss (Ok k0) fe) as [k1|e] eqn:E.
    + apply key_step_ok in E. subst k1. apply IH. exact H.
    + rewrite fold_key_step_raise in H. discriminate H.
Qed.

Theorem scan_keys_pure dl wk mss root k :
  scan_keys dl wk mss root = Ok k -> k = doc_keys dl wk mss root.
Proof. unfold scan_keys, doc_keys. apply fold_key_step_pure. Qed.

(** What the walk knows of the weights: default, type, id of the weight key. *)
Definition wpart (k : kstate) : value * ptype * option string := (k_dw k, k_wty k, k_wid k).

Lemma key_step_pure_nonweight dl wk mss k fe :
  is_weight_key dl wk fe = false -> wpart (key_step_pure dl wk mss k fe) = wpart k.
Proof.
  unfold is_weight_key, key_step_pure. cbv zeta.
  destruct (is_tag "key" fe); cbn [andb]; intros H.
  - rewrite H. reflexivity.
  - destruct (is_tag "desc" fe); reflexivity.
Qed.

Lemma key_step_pure_weight dl wk mss k fe :
  is_weight_key dl wk fe = true ->
  wpart (key_step_pure dl wk mss k fe)
  = (weight_default_pure dl (key_type fe) (x_children fe) (k_dw k), key_type fe, attr "id" fe).
Proof.
  unfold is_weight_key, key_step_pure. cbv zeta. intros H.
  apply andb_true_iff in H as [Hk Hw]. rewrite Hk, Hw. reflexivity.
Qed.

Lemma fold_key_step_pure_nonweight dl wk mss l :
  forall k, (forall fe, In fe l -> is_weight_key dl wk fe = false) ->
  wpart (fold_left (key_step_pure dl wk mss) l k) = wpart k.
Proof.
  induction l as [|fe t IH]; cbn [fold_left]; intros k Hall; [reflexivity|].
  rewrite IH by (intros fe' Hin; apply Hall; right; exact Hin).
  apply key_step_pure_nonweight, Hall. left. reflexivity.
Qed.

Theorem weight_rule_no_key dl wk mss root :
  (forall fe, In fe (x_children root) -> is_weight_key dl wk fe = false) ->
  k_dw (doc_keys dl wk mss root) = VInt 1 /\
  k_wty (doc_keys dl wk mss root) = PBool /\
  k_wid (doc_keys dl wk mss root) = None.
Proof.
  intros Hall. pose proof (fold_key_step_pure_nonweight dl wk mss (x_children root) kinit Hall) as H.
  injection H as H1 H2 H3. auto.
Qed.

Theorem weight_rule_one_key dl wk mss root pre kw post :
  x_children root = pre ++ kw :: post ->
  is_weight_key dl wk kw = true ->
  (forall fe, In fe pre \/ In fe post -> is_weight_key dl wk fe = false) ->
  k_wty (doc_keys dl wk mss root) = key_type kw /\
  k_wid (doc_keys dl wk mss root) = attr "id" kw /\
  k_dw (doc_keys dl wk mss root) = weight_default_pure dl (key_type kw) (x_children kw) (VInt 1).
Proof.
  intros Hsplit Hkw Hall.
  assert (H : wpart (doc_keys dl wk mss root)
              = (weight_default_pure dl (key_type kw) (x_children kw) (VInt 1), key_type kw, attr "id" kw)).
  { unfold doc_keys. rewrite Hsplit, fold_left_app. cbn [fold_left].
    rewrite fold_key_step_pure_nonweight by (intros fe Hin; apply Hall; right; exact Hin).
    rewrite (key_step_pure_weight _ _ _ _ _ Hkw).
    pose proof (fold_key_step_pure_nonweight dl wk mss pre kinit (fun fe Hin => Hall fe (or_introl Hin))) as P.
    injection P as -> _ _. reflexivity. }
  injection H as H1 H2 H3. auto.
Qed.

(** The default weight is the cast of the LAST <default> child of the weight key. *)
Lemma weight_default_pure_last dl ty kes dw :
  (forall d, In d kes -> is_tag "default" d = true -> exists v, cast dl ty (x_text d) = Ok v) ->
  weight_default_pure dl ty kes dw =
  match rev (filter (is_tag "default") kes) with
  | d :: _ => cast_or dl ty (x_text d) dw
  | [] => dw
  end.
Proof.
  unfold weight_default_pure.
  induction kes as [|x l IH] using rev_ind; intros Hall.
  - reflexivity.
  - rewrite fold_left_app, filter_app. cbn [fold_left filter].
    destruct (is_tag "default" x) eqn:Ed.
    + rewrite rev_app_distr. cbn [rev app].
      destruct (Hall x) as [v Hv].
      { apply in_or_app. right. left. reflexivity. }
      { exact Ed. }
      unfold cast_or. rewrite Hv. reflexivity.
    + rewrite app_nil_r. apply IH.
      intros d Hin Hd. apply Hall; [apply in_or_app; left; exact Hin | exact Hd].
Qed.

Theorem weight_key_current wk fe : is_weight_key current wk fe = is_edge_weight_key wk fe.
Proof.
  unfold is_weight_key, is_edge_weight_key, weight_key_test. cbn [current d_for_checked].
  rewrite andb_assoc. reflexivity.
Qed.

Theorem weight_key_legacy wk fe :
  is_weight_key legacy wk fe = (is_tag "key" fe && (attr_or_empty "attr.name" fe ==s wk)).
Proof.
  unfold is_weight_key, weight_key_test. cbn [legacy d_for_checked].
  rewrite andb_true_r. reflexivity.
Qed.

Theorem bool_cast_current text : cast current PBool text = Ok (VBool (bool_text text)).
Proof. reflexivity. Qed.

Theorem bool_cast_legacy text :
  cast legacy PBool text =
  Ok (VBool (match text with Some s => negb (String.eqb s "") | None => false end)).
Proof. reflexivity. Qed.

Lemma lower_cons_fix a t :
  lower (String a t) = String a t -> lower_ascii a = a /\ lower t = t.
Proof. cbn [lower]. intros H. injection H as H1 H2. auto. Qed.

Lemma lower_lstrip_fix s : lower s = s -> lower (lstrip s) = lstrip s.
Proof.
  induction s as [|a t IH]; intros H.
  - reflexivity.
  - cbn [lstrip]. destruct (is_blank a) eqn:Eb.
    + apply IH. apply (lower_cons_fix a t H).
    + exact H.
Qed.

Lemma lower_rstrip_fix s : lower s = s -> lower (rstrip s) = rstrip s.
Proof.
  induction s as [|a t IH]; intros H.
  - reflexivity.
  - destruct (lower_cons_fix a t H) as [Ha Ht]. specialize (IH Ht).
    cbn [rstrip]. destruct (rstrip t) as [|b r] eqn:Er.
    + destruct (is_blank a) eqn:Eb.
      * reflexivity.
      * cbn [lower]. rewrite Ha. reflexivity.
    + change (lower (String a (String b r))) with (String (lower_ascii a) (lower (String b r))).
      rewrite Ha, IH. reflexivity.
Qed.

Lemma lower_strip_fix s : lower s = s -> lower (strip s) = strip s.
Proof. intros H. unfold strip. apply lower_rstrip_fix. apply lower_lstrip_fix. exact H. Qed.

Theorem bool_text_gml s : lower s = s -> bool_text (Some s) = gml_bool (Some s).
Proof.
  intros H. unfold bool_text, gml_bool. cbv beta iota zeta.
  rewrite (lower_strip_fix s H). reflexivity.
Qed.

Theorem bool_text_none : bool_text None = false.
Proof. reflexivity. Qed.
