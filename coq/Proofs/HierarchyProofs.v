(** reorder_dendrogram (model in Model/Cuts.v, shared with C08) keeps a dendrogram valid when no merge is lower than
    the merges that created its children ([reorder_valid]).  [inverted_example] is the dendrogram on which Props/C07.v
    shows that the hypothesis is needed ([reorder_parent_below_child_refuted]).  Property C07. *)
From SKN Require Import Base.Util Model.Dendrogram Model.Cuts Model.Hierarchy Proofs.DendroBase Proofs.HierarchyBase.
From Coq Require Import Permutation Sorted Lia QArith Lqa.
Close Scope Q_scope.

Definition rkey (x : nat * drow) : Q * nat := (r_height (snd x), Nat.max (r_left (snd x)) (r_right (snd x))).
Definition RK (a b : nat * drow) : Prop := rkey_le a b = true.

Lemma qltb_iff a b : qltb a b = true <-> (a < b)%Q.
Proof.
  unfold qltb. rewrite negb_true_iff. split.
  - intros H. apply Qnot_le_lt. intros Hc. apply Qle_bool_iff in Hc. congruence.
  - intros H. destruct (Qle_bool b a) eqn:E; [|reflexivity]. apply Qle_bool_iff in E. lra.
Qed.

Lemma rkey_le_iff a b :
  rkey_le a b = true <->
  (fst (rkey a) < fst (rkey b))%Q \/ ((fst (rkey a) == fst (rkey b))%Q /\ snd (rkey a) <= snd (rkey b)).
Proof.
  unfold rkey_le, rkey. cbn [fst snd]. rewrite orb_true_iff, andb_true_iff, qltb_iff, Qeq_bool_iff, Nat.leb_le. tauto.
Qed.

Lemma RK_total a b : rkey_le a b = false -> RK b a.
Proof.
  intros H. unfold RK. apply rkey_le_iff.
  assert (Hn : ~ ((fst (rkey a) < fst (rkey b))%Q \/ ((fst (rkey a) == fst (rkey b))%Q /\ snd (rkey a) <= snd (rkey b))))
    by (rewrite <- rkey_le_iff; congruence).
  destruct (Q_dec (fst (rkey a)) (fst (rkey b))) as [[Hlt|Hgt]|Heq]; [tauto | now left | right].
  split; [now symmetry|]. destruct (Nat.le_gt_cases (snd (rkey b)) (snd (rkey a))) as [H1|H1]; [exact H1|].
  exfalso. apply Hn. right. split; [exact Heq | lia].
Qed.

Lemma RK_trans a b c : RK a b -> RK b c -> RK a c.
Proof.
  unfold RK. rewrite !rkey_le_iff. intros [H1|[H1 H1']] [H2|[H2 H2']].
  - left. lra.
  - left. lra.
  - left. lra.
  - right. split; [lra|lia].
Qed.

Lemma ins_row_perm x l : Permutation (ins_row x l) (x :: l).
Proof.
  induction l as [|y t IH]; simpl; [reflexivity|].
  destruct (rkey_le x y); [reflexivity|]. rewrite IH. apply perm_swap.
Qed.

Lemma lexsort_perm D : Permutation (lexsort_rows D) (combine (seq 0 (length D)) D).
Proof.
  unfold lexsort_rows. induction (combine (seq 0 (length D)) D) as [|x l IH]; simpl; [reflexivity|].
  rewrite ins_row_perm. now constructor.
Qed.

Lemma lexsort_rows_perm D : Permutation (map snd (lexsort_rows D)) D.
Proof.
  now rewrite (lexsort_perm D), map_snd_combine by apply seq_length.
Qed.

Lemma lexsort_index_perm D : Permutation (map fst (lexsort_rows D)) (seq 0 (length D)).
Proof.
  now rewrite (lexsort_perm D), map_fst_combine by apply seq_length.
Qed.

Lemma ins_row_sorted x l : StronglySorted RK l -> StronglySorted RK (ins_row x l).
Proof.
  induction 1 as [|y t Hs IH Hall]; simpl.
  - constructor; constructor.
  - destruct (rkey_le x y) eqn:E.
    + constructor; [now constructor|]. constructor; [exact E|].
      rewrite Forall_forall in *. intros z Hz. apply (RK_trans x y z); [exact E | now apply Hall].
    + constructor; [exact IH|]. apply RK_total in E.
      rewrite Forall_forall in *. intros z Hz.
      apply (Permutation_in _ (ins_row_perm x t)) in Hz. destruct Hz as [<-|Hz]; [exact E | now apply Hall].
Qed.

Lemma lexsort_sorted D : StronglySorted RK (lexsort_rows D).
Proof.
  unfold lexsort_rows. induction (combine (seq 0 (length D)) D) as [|x l IH]; simpl; [constructor|].
  now apply ins_row_sorted.
Qed.

Lemma StronglySorted_nth {A} (R : A -> A -> Prop) l : StronglySorted R l ->
  forall p q d, p < q -> q < length l -> R (nth p l d) (nth q l d).
Proof.
  induction 1 as [|y t Hs IH Hall]; intros p q d Hpq Hq; simpl in Hq; [lia|].
  destruct q as [|q]; [lia|]. destruct p as [|p]; simpl.
  - rewrite Forall_forall in Hall. apply Hall. apply nth_In. lia.
  - apply IH; lia.
Qed.

Lemma nth_error_pos x l : In x l -> nth_error l (pos x l) = Some x.
Proof.
  induction l as [|y t IH]; simpl; [tauto|]. intros H.
  destruct (Nat.eqb_spec x y) as [->|E]; [reflexivity|]. destruct H as [H|H]; [congruence | now apply IH].
Qed.

Lemma pos_lt x l : In x l -> pos x l < length l.
Proof. intros H. exact (nth_error_Some_lt _ _ _ (nth_error_pos x l H)). Qed.

Lemma pos_nth_error x l p : NoDup l -> nth_error l p = Some x -> pos x l = p.
Proof.
  intros Hnd. revert p. induction Hnd as [|y t Hn Hnd IH]; intros [|p] H; simpl in *; try discriminate.
  - inversion H. now rewrite Nat.eqb_refl.
  - destruct (Nat.eqb_spec x y) as [->|_]; [elim Hn; eapply nth_error_In; exact H | f_equal; now apply IH].
Qed.

Lemma pos_inj x y l : In x l -> In y l -> pos x l = pos y l -> x = y.
Proof. intros Hx Hy E. apply nth_error_pos in Hx. apply nth_error_pos in Hy. rewrite E in Hx. congruence. Qed.

Lemma hmono_row n D : hmono n D = true ->
  forall t r, nth_error D t = Some r ->
  forall c, In c (children r) -> n <= c ->
  exists r', nth_error D (c - n) = Some r' /\ (r_height r' <= r_height r)%Q.
Proof.
  unfold hmono. rewrite forallb_forall. intros H t r Hr c Hc Hge.
  specialize (H r (nth_error_In _ _ Hr)). apply andb_true_iff in H. destruct H as [H1 H2].
  assert (Hcc : child_height_ok n D (r_height r) c = true).
  { destruct Hc as [<-|[<-|[]]]; assumption. }
  unfold child_height_ok in Hcc.
  replace (Nat.ltb c n) with false in Hcc by (symmetry; apply Nat.ltb_ge; lia).
  destruct (nth_error D (c - n)) as [r'|]; [|discriminate].
  exists r'. split; [reflexivity|]. now apply Qle_bool_iff.
Qed.

Definition merge_view (n : nat) (D : dendrogram) : list (list nat * list nat * Q * nat) :=
  map (fun r => (leaves n D (r_left r), leaves n D (r_right r), r_height r, r_size r)) D.

Section Reorder.
(* a valid dendrogram in which no merge is lower than the merges that created its children *)
Context (n : nat) (D : dendrogram) (Hwf : wf_dend n D) (Hmono : hmono n D = true).

Let srt := lexsort_rows D.
Let index := map fst srt.
Let rename (c : nat) := if Nat.ltb c n then c else n + pos (c - n) index.
Let D' : dendrogram :=
  map (fun x => let r := snd x in ((rename (r_left r), rename (r_right r), r_height r, r_size r) : drow)) srt.

Lemma srt_in t r : In (t, r) srt <-> nth_error D t = Some r.
Proof.
  unfold srt. now rewrite (lexsort_perm D), In_combine_seq.
Qed.

Lemma index_in t : In t index <-> t < length D.
Proof. unfold index, srt. rewrite (lexsort_index_perm D), in_seq. lia. Qed.

Lemma index_length : length index = length D.
Proof. unfold index, srt. now rewrite (lexsort_index_perm D), seq_length. Qed.

Lemma srt_length : length srt = length D.
Proof. rewrite <- index_length. unfold index. now rewrite map_length. Qed.

Lemma index_NoDup : NoDup index.
Proof. unfold index, srt. rewrite (lexsort_index_perm D). apply seq_NoDup. Qed.

Lemma srt_pos p t r : nth_error srt p = Some (t, r) -> p = pos t index.
Proof.
  intros E. symmetry. apply pos_nth_error; [apply index_NoDup|]. unfold index. now rewrite nth_error_map, E.
Qed.

Lemma srt_at_pos t r : nth_error D t = Some r -> nth_error srt (pos t index) = Some (t, r).
Proof.
  intros Hr. apply srt_in, In_nth_error in Hr. destruct Hr as [p Hp]. now rewrite <- (srt_pos _ _ _ Hp).
Qed.

(* the row that created a child is sorted strictly before the parent's row *)
Lemma child_before_parent t r c : nth_error D t = Some r -> In c (children r) -> n <= c ->
  pos (c - n) index < pos t index.
Proof.
  intros Hr Hc Hge.
  destruct (hmono_row n D Hmono t r Hr c Hc Hge) as [r' [Hr' Hh]].
  assert (Hct : c < n + t /\ c <= Nat.max (r_left r) (r_right r)).
  { destruct (wf_lt _ _ Hwf _ _ Hr) as [H1 H2]. destruct Hc as [<-|[<-|[]]]; lia. }
  assert (Ht := nth_error_Some_lt _ _ _ Hr).
  assert (Hin : In t index) by now apply index_in.
  assert (Hin' : In (c - n) index) by (apply index_in; lia).
  (* strict key order *)
  assert (Hmax' : Nat.max (r_left r') (r_right r') < c).
  { destruct (wf_lt _ _ Hwf _ _ Hr') as [H1 H2]. lia. }
  assert (Hnot : rkey_le (t, r) (c - n, r') = false).
  { destruct (rkey_le (t, r) (c - n, r')) eqn:E; [|reflexivity]. exfalso.
    apply rkey_le_iff in E. unfold rkey in E. cbn [fst snd] in E. destruct E as [E|[E1 E2]]; [lra|lia]. }
  destruct (Nat.lt_trichotomy (pos (c - n) index) (pos t index)) as [H|[H|H]]; [exact H| |].
  - apply pos_inj in H; [lia | assumption | assumption].
  - exfalso.
    assert (Hs := StronglySorted_nth RK srt (lexsort_sorted D) (pos t index) (pos (c - n) index) (0, drow0) H).
    rewrite srt_length, <- index_length in Hs. specialize (Hs (pos_lt _ _ Hin')).
    rewrite (nth_error_nth _ _ _ (srt_at_pos _ _ Hr)), (nth_error_nth _ _ _ (srt_at_pos _ _ Hr')) in Hs.
    unfold RK in Hs. congruence.
Qed.

Lemma D'_length : length D' = length D.
Proof. unfold D'. now rewrite map_length, srt_length. Qed.

(* row [pos t index] of the output is row t renamed *)
Lemma D'_at_pos t r : nth_error D t = Some r ->
  nth_error D' (pos t index) = Some (rename (r_left r), rename (r_right r), r_height r, r_size r).
Proof.
  intros Hr. unfold D'. now rewrite nth_error_map, (srt_at_pos _ _ Hr).
Qed.

(* every row of the output is some row of the input, renamed *)
Lemma D'_row p r' : nth_error D' p = Some r' ->
  exists t r, nth_error D t = Some r /\ p = pos t index /\
              r' = (rename (r_left r), rename (r_right r), r_height r, r_size r).
Proof.
  intros H. unfold D' in H. rewrite nth_error_map in H.
  destruct (nth_error srt p) as [[t r]|] eqn:E; [|discriminate]. inversion H; subst r'.
  exists t, r. split; [apply srt_in; eapply nth_error_In; exact E|].
  split; [exact (srt_pos _ _ _ E) | reflexivity].
Qed.

Lemma rename_lt c : c < n + length D -> rename c < n + length D.
Proof.
  intros H. unfold rename. destruct (Nat.ltb_spec c n); [lia|].
  assert (Hp := pos_lt (c - n) index (proj2 (index_in (c - n)) ltac:(lia))).
  rewrite index_length in Hp. lia.
Qed.

Lemma rename_inj c1 c2 : c1 < n + length D -> c2 < n + length D -> rename c1 = rename c2 -> c1 = c2.
Proof.
  intros H1 H2. unfold rename. destruct (Nat.ltb_spec c1 n), (Nat.ltb_spec c2 n); intros E; try lia.
  assert (Hp : pos (c1 - n) index = pos (c2 - n) index) by lia.
  apply pos_inj in Hp; [lia | apply index_in; lia | apply index_in; lia].
Qed.

Lemma rename_leaf c : c < n -> rename c = c.
Proof. intros H. unfold rename. apply Nat.ltb_lt in H. now rewrite H. Qed.

Lemma rename_node t : rename (n + t) = n + pos t index.
Proof.
  unfold rename. now rewrite ltb_add_r, add_sub_l.
Qed.

Lemma csize_rename c : c < n + length D -> csize n D' (rename c) = csize n D c.
Proof.
  revert c. apply (ids_ind n D (fun c => csize n D' (rename c) = csize n D c) (wf_lt _ _ Hwf)).
  - intros c Hc. now rewrite rename_leaf, !csize_leaf.
  - intros t r Hr _ _. now rewrite rename_node, (csize_node n D' _ _ (D'_at_pos _ _ Hr)), (csize_node n D t r Hr).
Qed.

Lemma NoDup_map_inj_in {A B} (f : A -> B) l :
  (forall x y, In x l -> In y l -> f x = f y -> x = y) -> NoDup l -> NoDup (map f l).
Proof.
  intros Hinj Hnd. induction Hnd as [|a l Hn Hnd IH]; simpl; [constructor|].
  constructor.
  - intros Hc. apply in_map_iff in Hc. destruct Hc as [y [Hy Hin]].
    apply Hinj in Hy; [subst; tauto | now right | now left].
  - apply IH. intros x y Hx Hy. apply Hinj; now right.
Qed.

Lemma D'_wf : wf_dend n D'.
Proof.
  split.
  - rewrite D'_length. exact (wf_len _ _ Hwf).
  - (* children of the output = renamed children of a permutation of the rows *)
    assert (E : flat_map children D' = map rename (flat_map children (map snd srt))).
    { unfold D'. generalize srt. intros l. induction l as [|x l IH]; [reflexivity|]. simpl in *. now rewrite IH. }
    rewrite E. unfold srt. rewrite (lexsort_rows_perm D).
    apply NoDup_map_inj_in; [|exact (wf_nodup _ _ Hwf)].
    intros x y Hx Hy. apply rename_inj; now apply (ids_lt_children_lt n D (wf_lt _ _ Hwf)).
  - intros p r' Hr'. destruct (D'_row _ _ Hr') as (t & r & Hr & -> & ->).
    unfold r_left, r_right. cbn [fst snd].
    assert (Hone : forall c, In c (children r) -> rename c < n + pos t index).
    { intros c Hc. unfold rename. destruct (Nat.ltb_spec c n) as [E|E]; [lia|].
      assert (X := child_before_parent _ _ _ Hr Hc E). lia. }
    split; apply Hone; simpl; tauto.
  - intros p r' Hr'. destruct (D'_row _ _ Hr') as (t & r & Hr & -> & ->).
    assert (Ht := nth_error_Some_lt _ _ _ Hr).
    destruct (wf_lt _ _ Hwf _ _ Hr) as [H1 H2]. assert (Hsz := wf_size _ _ Hwf _ _ Hr).
    destruct r as [[[i j] h] s]. unfold r_left, r_right, r_size in *. cbn [fst snd] in *.
    rewrite !csize_rename by lia. exact Hsz.
Qed.

Lemma D'_sorted : sortedq (heights D') = true.
Proof.
  assert (Hh : heights D' = map (fun x => r_height (snd x)) srt).
  { unfold heights, D'. rewrite map_map. reflexivity. }
  rewrite Hh. assert (Hs := lexsort_sorted D). fold srt in Hs. clear Hh.
  induction Hs as [|x l Hs IH Hall]; [reflexivity|].
  destruct l as [|y l']; [reflexivity|]. simpl. simpl in IH. rewrite IH, andb_true_r.
  inversion Hall as [|? ? Hxy _]; subst. apply Qle_bool_iff.
  apply rkey_le_iff in Hxy. unfold rkey in Hxy. cbn [fst snd] in Hxy. destruct Hxy as [H|[H _]]; lra.
Qed.

Lemma leaves_rename c : c < n + length D -> leaves n D' (rename c) = leaves n D c.
Proof.
  revert c. apply (ids_ind n D (fun c => leaves n D' (rename c) = leaves n D c) (wf_lt _ _ Hwf)).
  - intros c Hc. now rewrite rename_leaf, !leaves_leaf.
  - intros t r Hr IHl IHr.
    rewrite rename_node, (leaves_node n D' _ _ (wf_lt _ _ D'_wf) (D'_at_pos _ _ Hr)), (leaves_node n D t r (wf_lt _ _ Hwf) Hr).
    destruct r as [[[i j] h] s]. unfold r_left, r_right in *. cbn [fst snd] in *. now rewrite IHl, IHr.
Qed.

Lemma D'_same_merges : Permutation (merge_view n D) (merge_view n D').
Proof.
  assert (E : merge_view n D' = map (fun r => (leaves n D (r_left r), leaves n D (r_right r), r_height r, r_size r)) (map snd srt)).
  { unfold merge_view, D'. rewrite !map_map. apply map_ext_in. intros [t r] Hin. apply srt_in in Hin.
    assert (Ht := nth_error_Some_lt _ _ _ Hin).
    destruct (wf_lt _ _ Hwf _ _ Hin) as [H1 H2].
    destruct r as [[[i j] h] s]. unfold r_left, r_right, r_height, r_size in *. cbn [fst snd] in *.
    rewrite !leaves_rename by lia. reflexivity. }
  rewrite E. unfold merge_view. apply Permutation_map, Permutation_sym, lexsort_rows_perm.
Qed.

Lemma reorder_runs : reorder_dendrogram D = Ok D'.
Proof.
  unfold reorder_dendrogram.
  assert (Hn : S (length D) = n) by exact (wf_len _ _ Hwf).
  replace (forallb _ D) with true.
  - rewrite Hn. reflexivity.
  - symmetry. apply forallb_forall. intros r Hr. apply In_nth_error in Hr. destruct Hr as [t Hr].
    assert (Ht := nth_error_Some_lt _ _ _ Hr).
    destruct (wf_lt _ _ Hwf _ _ Hr) as [H1 H2]. apply andb_true_iff. split; apply Nat.ltb_lt; lia.
Qed.
End Reorder.

Theorem reorder_valid n D :
  valid n D = true -> hmono n D = true ->
  exists D', reorder_dendrogram D = Ok D' /\ valid n D' = true /\ sortedq (heights D') = true /\
             Permutation (merge_view n D) (merge_view n D').
Proof.
  intros Hv Hm. apply valid_wf in Hv. eexists. split; [apply (reorder_runs n D Hv)|].
  split; [apply wf_valid, (D'_wf n D Hv Hm)|]. split; [apply D'_sorted | apply (D'_same_merges n D Hv Hm)].
Qed.

(** A dendrogram without the height hypothesis (the parent is lower than the row that creates its child), used by
    [reorder_parent_below_child_refuted] in Props/C07.v: the output of reorder_dendrogram is invalid. *)
Definition inverted_example : dendrogram :=
  [(0, 1, (2 # 1)%Q, 2); (2, 3, (1 # 1)%Q, 3)].

Print Assumptions reorder_valid.
