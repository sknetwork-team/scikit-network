(** get_labels of sknetwork/hierarchy/postprocess.py at source level: the statements regenerated on every run (Gen/PyCuts.v:
    src_get_labels_head, src_reduce_init_stmt, src_reduce_loop) compute, for every dendrogram, cluster dict, option value and
    every answer of np.argsort, exactly the labels / reduced dendrogram / error of Model/Cuts.v:get_labels. *)
From SKN Require Import Base.Util Model.Dendrogram Model.Cuts Model.PyImp Gen.PyCuts Proofs.PyCutsProofs.
From Coq Require Import String Qround.
Local Open Scope nat_scope.
Local Open Scope string_scope.

(** * get_labels: clusters in dict order, sorting through np.argsort, the labels array *)

Definition upd_list (L : list nat) (c : list nat) (l : nat) : list nat :=
  map (fun v => if memn v c then l else nth v L 0) (seq 0 (Datatypes.length L)).

Lemma upd_list_nil L l : upd_list L [] l = L.
Proof. unfold upd_list. cbn [memn existsb]. apply map_nth_seq. Qed.

Lemma fancy_set_vnat : forall c L l, Forall (fun v => v < Datatypes.length L) c ->
  fancy_set (map vnat L) (map vnat c) (vnat l) = POk (map vnat (upd_list L c l)).
Proof.
  induction c as [|a t IH]; intros L l Hc.
  - simpl. rewrite upd_list_nil. reflexivity.
  - inversion Hc as [|? ? Ha Ht]; subst. cbn [map fancy_set vnat].
    change (VInt (Z.of_nat l)) with (vnat l). rewrite (list_set_map vnat), (proj2 (Nat.ltb_lt _ _) Ha).
    rewrite IH by (rewrite set_nth_length; exact Ht). f_equal. f_equal.
    unfold upd_list. rewrite set_nth_length. apply map_ext_in. intros v Hv. apply in_seq in Hv.
    cbn [memn existsb]. fold (memn v t).
    destruct (memn v t); [rewrite orb_true_r; reflexivity|]. rewrite orb_false_r.
    rewrite nth_set_nth by exact Ha. reflexivity.
Qed.

Lemma upd_list_length L c l : Datatypes.length (upd_list L c l) = Datatypes.length L.
Proof. unfold upd_list. rewrite map_length, seq_length. reflexivity. Qed.

Lemma nth_upd_list L c l v : v < Datatypes.length L -> nth v (upd_list L c l) 0 = if memn v c then l else nth v L 0.
Proof.
  intros Hv. apply (nth_map_seq (fun v => if memn v c then l else nth v L 0)). exact Hv.
Qed.

Definition lab_f : Z -> val -> env -> pres env :=
  fun pos item e' => exec (loop_body src_get_labels_head) (upd "nodes" item (upd "label" (VInt pos) e')).

Lemma labels_loop : forall cs l0 L (e : env),
  e "labels" = Some (VList (map vnat L)) -> Forall (Forall (fun v => v < Datatypes.length L)) cs ->
  exists e', for_enum lab_f (map embL cs) (Z.of_nat l0) e = POk e' /\
             e' "labels" = Some (VList (map vnat (map (fun v => label_of cs l0 v (nth v L 0)) (seq 0 (Datatypes.length L))))) /\
             (forall x, x <> "labels" -> x <> "nodes" -> x <> "label" -> e' x = e x).
Proof.
  induction cs as [|c cs IH]; intros l0 L e HL Hcs.
  - exists e. split; [reflexivity|]. split; [|reflexivity]. cbn [label_of]. rewrite map_nth_seq. exact HL.
  - inversion Hcs as [|? ? Hc Hrest]; subst. cbn [map for_enum].
    assert (Hstep : lab_f (Z.of_nat l0) (embL c) e =
                    POk (upd "labels" (VList (map vnat (upd_list L c l0)))
                           (upd "nodes" (embL c) (upd "label" (VInt (Z.of_nat l0)) e)))).
    { unfold lab_f.
      expose (loop_body src_get_labels_head).
      erewrite exec_setitem_fancy by run. change (VInt (Z.of_nat l0)) with (vnat l0).
      rewrite fancy_set_vnat by exact Hc. reflexivity. }
    rewrite Hstep. replace (Z.of_nat l0 + 1)%Z with (Z.of_nat (S l0)) by lia.
    match goal with |- context [for_enum lab_f _ _ ?e2] =>
      destruct (IH (S l0) (upd_list L c l0) e2) as (e' & F & HL' & Fr) end.
    + reflexivity.
    + rewrite upd_list_length. exact Hrest.
    + exists e'. split; [exact F|]. split.
      * rewrite HL'. rewrite upd_list_length. do 3 f_equal. symmetry. apply map_ext_in. intros v Hv. apply in_seq in Hv.
        cbn [label_of]. rewrite nth_upd_list by lia. reflexivity.
      * intros x H1 H2 H3. rewrite Fr by assumption. rewrite !PyImpFrame.upd_other by congruence. reflexivity.
Qed.

Lemma map_pres_len x (e : env) cs :
  map_pres (fun item => match eval (ELen (EVar x)) (upd x item e) with PErr err => PErr err | POk (_, v) => POk v end)
           (map embL cs) = POk (map (fun c => vnat (Datatypes.length c)) cs).
Proof.
  induction cs as [|c cs IH]; [reflexivity|]. cbn [map map_pres]. rewrite IH.
  cbn [eval]. unfold upd at 1. rewrite String.eqb_refl. cbn [embL]. rewrite map_length. reflexivity.
Qed.

Lemma map_pres_index x y (e : env) cs idx :
  e y = Some (VList (map embL cs)) -> x <> y -> Forall (fun i => i < Datatypes.length cs) idx ->
  map_pres (fun item => match eval (EIndex (EVar y) (EVar x)) (upd x item e) with PErr err => PErr err | POk (_, v) => POk v end)
           (map vnat idx) = POk (map embL (map (fun i => nth i cs []) idx)).
Proof.
  intros Hy Hxy Hidx. induction idx as [|i idx IH]; [reflexivity|].
  inversion Hidx as [|? ? Hi Hrest]; subst. cbn [map map_pres]. rewrite (IH Hrest).
  cbn [eval]. unfold upd.
  destruct (String.eqb_spec x y) as [E|_]; [congruence|]. rewrite Hy. rewrite String.eqb_refl.
  cbn [index_vals vnat]. rewrite list_index_nat, nth_error_map, (nth_error_nth' cs [] Hi). reflexivity.
Qed.

Lemma neg_val_vnats l : exists r, neg_val (VList (map (fun c : list nat => vnat (Datatypes.length c)) l)) = POk (VList r).
Proof.
  induction l as [|c l [r IH]]; [exists []; reflexivity|].
  cbn [map neg_val vnat] in *. rewrite IH. eexists. reflexivity.
Qed.

Lemma eval_neg a (e e1 : env) v r : eval a e = POk (e1, v) -> neg_val v = POk r -> eval (ENeg a) e = POk (e1, r).
Proof. intros H Hr. cbn [eval]. rewrite H, Hr. reflexivity. Qed.

Lemma eval_oracle name a (e e1 : env) l v :
  eval a e = POk (e1, VList l) -> e1 (String.append "oracle:" name) = Some v -> eval (EOracle name a) e = POk (e1, v).
Proof. intros H Hv. cbn [eval]. rewrite H, Hv. reflexivity. Qed.

Lemma eval_listcomp x body it (e e1 : env) items :
  eval it e = POk (e1, VList items) ->
  eval (EListComp x body it) e =
  match map_pres (fun item => match eval body (upd x item e1) with PErr err => PErr err | POk (_, v) => POk v end) items with
  | POk vs => POk (e1, VList vs)
  | PErr err => PErr err
  end.
Proof. intros H. cbn [eval]. rewrite H. reflexivity. Qed.

Definition model_clusters (argsort : list Z -> list nat) (st : cstate) (sort : bool) : list (list nat) :=
  let clusters0 := map snd st in
  if sort then map (fun i => nth i clusters0 []) (argsort (map (fun c => (- Z.of_nat (Datatypes.length c))%Z) clusters0))
  else clusters0.

Lemma dict_values_embC st : map snd (embA embL st) = map embL (map snd st).
Proof. unfold embA. rewrite !map_map. reflexivity. Qed.

Theorem src_get_labels_head_is_model argsort D st sort (e0 : env) :
  let n := S (Datatypes.length D) in
  let answer := argsort (map (fun c => (- Z.of_nat (Datatypes.length c))%Z) (map snd st)) in
  let cl := model_clusters argsort st sort in
  e0 "dendrogram" = Some (embD D) -> e0 "cluster" = Some (embC st) -> e0 "sort_clusters" = Some (VBool sort) ->
  e0 "oracle:np.argsort" = Some (VList (map vnat answer)) ->
  Forall (fun i => i < Datatypes.length st) answer ->
  Forall (Forall (fun v => v < n)) (map snd st) ->
  exists e', exec src_get_labels_head e0 = POk e' /\
             e' "labels" = Some (VList (map vnat (labels_of n cl))) /\
             e' "clusters" = Some (VList (map embL cl)) /\
             e' "dendrogram" = Some (embD D).
Proof.
  intros n answer cl Hd Hc Hs Ho Hans Hnodes. unfold src_get_labels_head. change 1%Z with (Z.of_nat 1).
  erewrite exec_seq_ok by run. rewrite Nat.add_1_r. fold n.
  erewrite exec_seq_ok by run. rewrite dict_values_embC.
  set (e2 := upd "clusters" _ _). rewrite exec_seq.
  match goal with |- context [exec ?s e2] =>
    assert (Hcl : exists e3, exec s e2 = POk e3 /\ e3 "clusters" = Some (VList (map embL cl)) /\ e3 "n" = Some (vnat n) /\
                             e3 "dendrogram" = Some (embD D)) end.
  { unfold cl, model_clusters. fold answer. destruct sort; [|exists e2; split; [run | repeat split; lookup]].
    destruct (neg_val_vnats (map snd st)) as [r Hr].
    eexists. split.
    { eapply exec_if_run; [run|]. cbv beta iota.
      eapply exec_seq_run.
      { apply exec_assign. erewrite eval_listcomp by run. rewrite map_pres_len. reflexivity. }
      eapply exec_seq_run.
      { apply exec_assign. eapply eval_oracle; [eapply eval_neg; [run | exact Hr] | lookup]. }
      apply exec_assign. erewrite eval_listcomp by run.
      rewrite (map_pres_index "i" "clusters" _ (map snd st) answer) by first [lookup | discriminate | rewrite map_length; exact Hans].
      reflexivity. }
    repeat split; lookup. }
  destruct Hcl as (e3 & F3 & Hcl3 & Hn3 & Hd3). rewrite F3.
  erewrite exec_seq_ok by run. erewrite exec_for_enum by run.
  match goal with |- context [for_enum ?f _ _ ?e4] =>
    destruct (labels_loop cl 0 (repeat 0 n) e4) as (e' & F & HL & Fr) end.
  - lookup.
  - rewrite repeat_length. unfold cl, model_clusters.
    destruct sort; [|exact Hnodes].
    apply Forall_forall. intros c Hin. apply in_map_iff in Hin. destruct Hin as [i [<- _]].
    destruct (Nat.lt_ge_cases i (Datatypes.length (map snd st))) as [Hi|Hi].
    + rewrite Forall_forall in Hnodes. apply Hnodes. apply nth_In. exact Hi.
    + rewrite nth_overflow by exact Hi. constructor.
  - exists e'. split; [exact F|]. split.
    + rewrite HL. rewrite repeat_length. unfold labels_of. do 3 f_equal. apply map_ext_in. intros v Hv.
      apply in_seq in Hv. f_equal. apply nth_repeat.
    + rewrite !Fr by discriminate. split; lookup.
Qed.

(** ** the initialisation before the loop that builds the reduced dendrogram *)
(** [{i: h(x) for i, x in enumerate(a)}] over an array embedded elementwise *)
Lemma dict_enum_emb {A B} (f : A -> val) (g : A -> B) (h : B -> val) (F : nat -> val -> pres (Z * val)) l : forall p acc,
  (forall pos a, In a l -> F pos (f a) = POk (Z.of_nat pos, h (g a))) ->
  (forall k, In k (map fst acc) -> (k < Z.of_nat p)%Z) ->
  dict_enum F (map f l) p acc = POk (acc ++ embA h (combine (seq p (Datatypes.length l)) (map g l)))%list.
Proof.
  induction l as [|a l IH]; intros p acc Hf Hacc.
  - cbn [map dict_enum Datatypes.length seq combine embA]. rewrite app_nil_r. reflexivity.
  - cbn [map dict_enum Datatypes.length seq combine embA fst snd]. rewrite Hf by (left; reflexivity).
    destruct (dset_next p (h (g a)) acc Hacc) as [-> Hacc'].
    rewrite (IH _ _ (fun pos it Hin => Hf pos it (or_intror Hin)) Hacc'), <- app_assoc. reflexivity.
Qed.

Theorem src_reduce_init_is_model labels cl (e0 : env) :
  e0 "labels" = Some (VList (map vnat labels)) -> e0 "clusters" = Some (VList (map embL cl)) ->
  exists e', exec src_reduce_init_stmt e0 = POk e' /\
    e' "cluster_index" = Some (embN (combine (seq 0 (Datatypes.length labels)) labels)) /\
    e' "cluster_size" = Some (embN (combine (seq 0 (Datatypes.length cl)) (map (@Datatypes.length nat) cl))) /\
    e' "dendrogram_new" = Some (VList []) /\
    e' "current_cluster" = Some (vnat (Datatypes.length labels)) /\
    e' "current_cluster_new" = Some (vnat (Datatypes.length cl)) /\
    e' "dendrogram" = e0 "dendrogram" /\ e' "labels" = e0 "labels".
Proof.
  intros HL HC. unfold src_reduce_init_stmt.
  erewrite exec_seq_ok.
  2:{ apply exec_assign. cbn [eval]. rewrite HL, (dict_enum_emb vnat (fun l => l) vnat); [rewrite map_id; reflexivity | | intros k []].
      intros pos a _. cbn [eval]. unfold upd. cbn [String.eqb Ascii.eqb Bool.eqb]. reflexivity. }
  erewrite exec_seq_ok.
  2:{ apply exec_assign. cbn [eval upd String.eqb Ascii.eqb Bool.eqb].
      rewrite HC, (dict_enum_emb embL (@Datatypes.length nat) vnat); [reflexivity | | intros k []].
      intros pos c _. cbn [eval]. unfold upd. cbn [String.eqb Ascii.eqb Bool.eqb embL]. rewrite map_length. reflexivity. }
  do 2 erewrite exec_seq_ok by run.
  eexists. split; [run|]. repeat split; lookup.
Qed.

(** ** get_labels as a whole (return_dendrogram = True: head; initialisation; loop.  False: head) *)
Definition src_get_labels_ret : stmt := SSeq src_get_labels_head (SSeq src_reduce_init_stmt src_reduce_loop).

Lemma keys_lt_combine_seq {A} (l : list A) n : keys_lt n (combine (seq 0 n) l).
Proof.
  intros k Hk. unfold akeys in Hk. apply in_map_iff in Hk. destruct Hk as [[a b] [<- Hin]].
  apply in_combine_l in Hin. apply in_seq in Hin. simpl. lia.
Qed.

Lemma labels_of_length n cl : Datatypes.length (labels_of n cl) = n.
Proof. unfold labels_of. rewrite map_length, seq_length. reflexivity. Qed.

Theorem src_get_labels_is_model argsort D st sort ret (e0 : env) :
  let n := S (Datatypes.length D) in
  let answer := argsort (map (fun c => (- Z.of_nat (Datatypes.length c))%Z) (map snd st)) in
  e0 "dendrogram" = Some (embD D) -> e0 "cluster" = Some (embC st) -> e0 "sort_clusters" = Some (VBool sort) ->
  e0 "oracle:np.argsort" = Some (VList (map vnat answer)) ->
  Forall (fun i => i < Datatypes.length st) answer ->
  Forall (Forall (fun v => v < n)) (map snd st) ->
  match get_labels argsort D st sort ret with
  | Ok (labels, od) =>
      exists e', exec (if ret then src_get_labels_ret else src_get_labels_head) e0 = POk e' /\
                 e' "labels" = Some (VList (map vnat labels)) /\
                 match od with
                 | Some Dnew => ret = true /\ e' "dendrogram_new" = Some (VList (map embNewRow Dnew))
                 | None => ret = false
                 end
  | Err er => ret = true /\ exec src_get_labels_ret e0 = PErr (conv er)
  end.
Proof.
  intros n answer Hd Hc Hs Ho Hans Hnodes.
  destruct (src_get_labels_head_is_model argsort D st sort e0 Hd Hc Hs Ho Hans Hnodes) as (e1 & F1 & HL1 & HC1 & Hd1).
  fold n in HL1. unfold get_labels. fold n.
  change (if sort then map (fun i => nth i (map snd st) []) (argsort (map (fun c => (- Z.of_nat (Datatypes.length c))%Z) (map snd st)))
          else map snd st) with (model_clusters argsort st sort).
  set (cl := model_clusters argsort st sort) in *.
  destruct ret.
  - destruct (src_reduce_init_is_model (labels_of n cl) cl e1 HL1 HC1) as (e2 & F2 & Hci & Hcs & Hdn & Hcur & Hnew & Hd2 & Hl2).
    rewrite labels_of_length in Hci.
    assert (Kci : keys_lt (Datatypes.length (labels_of n cl)) (combine (seq 0 n) (labels_of n cl)))
      by (rewrite labels_of_length; apply keys_lt_combine_seq).
    assert (Kcs : keys_lt (Datatypes.length cl) (combine (seq 0 (Datatypes.length cl)) (map (@Datatypes.length nat) cl)))
      by apply keys_lt_combine_seq.
    rewrite Hd1 in Hd2.
    pose proof (src_reduce_loop_is_model D _ _ _ _ e2 Hd2 Hci Hcs Hcur Hnew Hdn Kci Kcs) as L.
    unfold src_get_labels_ret.
    rewrite (exec_seq_ok _ _ _ _ F1), (exec_seq_ok _ _ _ _ F2).
    destruct (reduce_loop D _ _ _ _) as [Dnew|er].
    + destruct L as (e3 & F3 & H3 & Hl3). exists e3. split; [exact F3|]. split; [|split; [reflexivity | exact H3]].
      rewrite Hl3, Hl2. exact HL1.
    + split; [reflexivity | exact L].
  - exists e1. split; [exact F1|]. split; [exact HL1 | reflexivity].
Qed.
