(** C17 — proofs about the checked flat models of Model/Safety2.v (WL colouring, Brandes, Leiden refinement)
    and the termination of the push work-list loop of Model/Safety.v. *)
From Coq Require Import Lia Qabs Lqa.
From SKN Require Import Base.Util Model.Vote Proofs.VoteProofs Model.Safety Proofs.SafetyProofs Model.Safety2.
Set Warnings "-notation-overridden".

(** * weisfeiler_lehman_core.pyx *)

Section WL.
  Context (n m : nat) (indptr indices : list nat) (powers : list Q).
  Context (Hwf : csr_pat_wf n indptr indices) (Hm : length powers = m) (Hnm : n <= m).

  Definition wl_inv (labels : list nat) : Prop := length labels = n /\ Forall (fun l => l < m) labels.
  Definition tuples_ok (l : list wtuple) : Prop := Forall (fun t : wtuple => snd t < n) l.

  Lemma wl_hash_ok labels : wl_inv labels ->
    forall jjs h, (forall k, In k jjs -> k < length indices) ->
      exists h', wl_hash jjs indices labels powers h = KOk h'.
  Proof.
    intros [HL HF]. induction jjs as [|jj t IH]; intros h Hjs; cbn [wl_hash]; [eexists; reflexivity|].
    destruct (csr_rd_indices _ _ _ jj Hwf (Hjs jj (or_introl eq_refl))) as [Hr Hlt].
    rewrite Hr. cbn [kbind].
    destruct (rd_Forall _ labels (nth jj indices 0) HF ltac:(lia)) as (l & Hr2 & Hl).
    rewrite Hr2. cbn [kbind].
    step_rd 0%Q.
    apply IH. exact (In_tail _ _ _ Hjs).
  Qed.

  Lemma wl_collect_ok labels T : wl_inv labels ->
    forall nodes acc, (forall i, In i nodes -> i < n) -> tuples_ok acc -> length acc + length nodes = T ->
      exists nl, wl_collect nodes indptr indices labels powers acc = KOk nl /\ length nl = T /\ tuples_ok nl.
  Proof.
    intros Hinv. pose proof Hinv as [HL HF].
    induction nodes as [|i t IH]; intros acc Hn Hacc HT; cbn [wl_collect]; simpl in HT.
    - exists acc. split; [reflexivity|]. split; [lia|exact Hacc].
    - assert (Hi : i < n) by (apply Hn; left; reflexivity).
      rewrite (csr_row_rd Hwf Hi).
      destruct (wl_hash_ok labels Hinv (seq (ip indptr i) (ip indptr (S i) - ip indptr i)) 0%Q)
        as (h & Hh).
      { apply (row_range_lt n); auto. }
      rewrite Hh. cbn [kbind].
      step_rd 0.
      apply IH; [exact (In_tail _ _ _ Hn) | apply Forall_app_one; [exact Hacc | exact Hi] |].
      rewrite app_length. simpl. lia.
  Qed.

  Lemma wl_relabel_ok sorted eps : tuples_ok sorted ->
    forall js labels tn label changed,
      (forall j, In j js -> j < length sorted) -> wl_inv labels -> label + length js < m ->
      exists labels' ch, wl_relabel js sorted eps labels tn label changed = KOk (labels', ch) /\
                         wl_inv labels'.
  Proof.
    intros Hs. induction js as [|j t IH]; intros labels tn label changed Hjs [HL HF] Hlab; cbn [wl_relabel].
    - exists labels, changed. split; [reflexivity|split; assumption].
    - destruct (rd_Forall _ sorted j Hs (Hjs j (or_introl eq_refl))) as (tnew & Hr & Htn).
      rewrite Hr. cbn [kbind]. destruct tn as [[label_ref hash_ref] x]. destruct tnew as [[label_new hash_new] i].
      cbn [snd] in Htn.
      set (label' := if Qlt_le_dec eps (Qabs (hash_new - hash_ref)) then S label
                     else if label_new =? label_ref then label else S label).
      assert (Hl' : label' <= S label).
      { unfold label'. destruct (Qlt_le_dec _ _); [lia|]. destruct (label_new =? label_ref); lia. }
      step_rd 0. step_wr.
      apply IH.
      + exact (In_tail _ _ _ Hjs).
      + split; [rewrite set_nth_length; exact HL|]. apply Forall_set_nth; [exact HF|]. simpl in Hlab. lia.
      + simpl in Hlab. lia.
  Qed.

  Lemma wl_round_ok sort eps labels :
    sort_contract sort -> 1 <= n -> wl_inv labels ->
    exists labels' ch, wl_round sort n indptr indices powers eps labels = KOk (labels', ch) /\
                       wl_inv labels'.
  Proof.
    intros Hsort Hn Hinv. pose proof Hinv as [HL HF]. unfold wl_round.
    destruct (wl_collect_ok labels n Hinv (seq 0 n) []) as (nl & E & Hlen & Hok);
      [intros i Hi; apply in_seq in Hi; lia | constructor | apply seq_length |].
    rewrite E. cbn [kbind].
    destruct (Hsort nl) as [Hslen Hsin].
    pose proof (incl_Forall Hsin Hok) as Hsok.
    destruct (rd_Forall _ (sort nl) 0 Hsok ltac:(lia)) as (t0 & Hr & Ht0).
    rewrite Hr. cbn [kbind]. step_wr.
    apply (wl_relabel_ok (sort nl) eps Hsok).
    - intros j Hj. apply in_seq in Hj. lia.
    - split; [rewrite set_nth_length; exact HL|]. apply Forall_set_nth; [exact HF|lia].
    - rewrite seq_length. lia.
  Qed.

  (** Never out of bounds; out of fuel only when there is less of it than max_iter - iteration; the loop
      counter never passes max_iter. *)
  Lemma wl_loop_ok sort eps max_iter :
    sort_contract sort -> (max_iter = 0 \/ 1 <= n) ->
    forall fuel iteration labels changed, wl_inv labels -> iteration <= max_iter ->
      (wl_loop fuel sort n indptr indices powers eps max_iter iteration labels changed = OutOfFuel /\
       fuel < max_iter - iteration) \/
      (exists labels' ch it,
         wl_loop fuel sort n indptr indices powers eps max_iter iteration labels changed
         = KOk (labels', ch, it) /\ it <= max_iter /\ wl_inv labels').
  Proof.
    intros Hsort Hn. induction fuel as [|f IH]; intros iteration labels changed Hinv Hit; cbn [wl_loop];
      (destruct (iteration <? max_iter) eqn:E; [apply Nat.ltb_lt in E; destruct changed|]); cbn [andb];
      try (right; eexists _, _, _; split; [reflexivity|]; split; [exact Hit|exact Hinv]).
    - left. split; [reflexivity|lia].
    - destruct Hn as [Hn|Hn]; [lia|].
      destruct (wl_round_ok sort eps labels Hsort Hn Hinv) as (l1 & c1 & E1 & Hinv1).
      rewrite E1. cbn [kbind fst snd].
      destruct (IH (S iteration) l1 c1 Hinv1 ltac:(lia)) as [[E2 Hlt]|H];
        [left; split; [exact E2|lia] | right; exact H].
  Qed.
End WL.

(** * betweenness.pyx (Brandes) *)

(** number of nodes not yet discovered ([dists[v] < 0]) *)
Definition negs (dists : list Z) : nat := length (filter (fun d => (d <? 0)%Z) dists).

Lemma count_set_nth {A} (p : A -> bool) d : forall (l : list A) j v, j < length l ->
  length (filter p (set_nth l j v)) + (if p (nth j l d) then 1 else 0) =
  length (filter p l) + (if p v then 1 else 0).
Proof.
  induction l as [|a t IH]; intros [|j] v Hj; simpl in Hj; try lia; cbn [set_nth filter nth].
  - destruct (p a), (p v); simpl; lia.
  - specialize (IH j v ltac:(lia)). destruct (p a); simpl; lia.
Qed.

Lemma negs_set (l : list Z) j v :
  j < length l -> (nth j l 0 < 0)%Z -> (0 <= v)%Z -> negs (set_nth l j v) + 1 = negs l.
Proof.
  intros Hj Hn Hv. pose proof (count_set_nth (fun d => (d <? 0)%Z) 0%Z l j v Hj) as H. cbv beta in H.
  rewrite (proj2 (Z.ltb_lt _ _) Hn), (proj2 (Z.ltb_ge _ _) Hv) in H. unfold negs. lia.
Qed.

Lemma negs_repeat n : negs (repeat (-1)%Z n) = n.
Proof. unfold negs. induction n as [|n IH]; simpl; [reflexivity|]. rewrite IH. reflexivity. Qed.

Lemma nth_set_nth_same {A} (l : list A) i x d : i < length l -> nth i (set_nth l i x) d = x.
Proof. exact (nth_upd_same l i x d). Qed.

Lemma nth_set_nth_other {A} (l : list A) i j x d : j <> i -> nth j (set_nth l i x) d = nth j l d.
Proof. intros H. apply (nth_upd_other l i j x d). congruence. Qed.

Section Brandes.
  Context (n : nat) (indptr indices : list nat).
  Context (Hwf : csr_pat_wf n indptr indices).

  Definition binv (st : fbstate) : Prop :=
    length (fb_dists st) = n /\ length (fb_sigma st) = n /\ length (fb_preds st) = n /\
    Forall (fun v => v < n) (fb_queue st) /\
    Forall (fun v => (0 <= nth v (fb_dists st) 0)%Z) (fb_queue st) /\
    Forall (Forall (fun v => v < n)) (fb_preds st).

  Definition bmeasure (st : fbstate) : nat := length (fb_queue st) + negs (fb_dists st).

  (** what the scan of the row of [i] keeps: the storage invariant, [i] discovered, the measure [k] *)
  Definition browinv (i k : nat) (st : fbstate) : Prop :=
    binv st /\ (0 <= nth i (fb_dists st) 0)%Z /\ bmeasure st = k.

  Lemma br_row_ok i k : i < n ->
    forall jjs st, (forall k, In k jjs -> k < length indices) -> browinv i k st ->
      exists st', br_row jjs indices i st = KOk st' /\ browinv i k st'.
  Proof.
    intros Hi. induction jjs as [|jj t IH]; intros st Hjs Hinv; cbn [br_row].
    - exists st. auto.
    - pose proof Hinv as ((HD & HS & HP & HQ & HQd & HPp) & Hdi & Hm).
      destruct (csr_rd_indices _ _ _ jj Hwf (Hjs jj (or_introl eq_refl))) as [Hr Hj]. rewrite Hr. cbn [kbind].
      set (j := nth jj indices 0) in *.
      step_rd 0%Z.
      match goal with |- exists st', (do st1 <- ?X ;; _) = _ /\ _ =>
        assert (H1 : exists st1, X = KOk st1 /\ browinv i k st1) end.
      { destruct (nth j (fb_dists st) 0 <? 0)%Z eqn:Ed; [|exists st; auto].
        apply Z.ltb_lt in Ed.
        step_rd 0%Z. step_wr.
        eexists. split; [reflexivity|].
        assert (Hji : j <> i) by (intros ->; lia).
        split; [|split].
        - unfold binv; cbn [fb_queue fb_dists fb_sigma fb_preds]. rewrite set_nth_length.
          split; [exact HD|]. split; [exact HS|]. split; [exact HP|].
          split; [apply Forall_app_one; assumption|]. split; [|exact HPp].
          apply Forall_app_one.
          + apply Forall_forall. intros v Hv. pose proof (Forall_In _ _ _ HQd Hv) as Hvd. cbn beta in Hvd.
            destruct (Nat.eq_dec v j) as [->|Hne]; [lia|]. rewrite nth_set_nth_other by exact Hne. exact Hvd.
          + rewrite nth_set_nth_same by lia. lia.
        - cbn [fb_dists]. rewrite nth_set_nth_other by congruence. exact Hdi.
        - unfold bmeasure in *; cbn [fb_queue fb_dists]. rewrite app_length. simpl.
          pose proof (negs_set (fb_dists st) j (nth i (fb_dists st) 0 + 1)%Z ltac:(lia) Ed ltac:(lia)). lia. }
      destruct H1 as (st1 & E1 & Hinv1). rewrite E1. cbn [kbind].
      pose proof Hinv1 as ((HD1 & HS1 & HP1 & HQ1 & HQd1 & HPp1) & Hdi1 & Hm1).
      step_rd 0%Z. step_rd 0%Z.
      match goal with |- exists st', (do st2 <- ?X ;; _) = _ /\ _ =>
        assert (H2 : exists st2, X = KOk st2 /\ browinv i k st2) end.
      { destruct (nth j (fb_dists st1) 0 =? nth i (fb_dists st1) 0 + 1)%Z; [|exists st1; auto].
        step_rd 0%Z. step_rd 0%Z. step_wr.
        destruct (rd_Forall _ (fb_preds st1) j HPp1 ltac:(lia)) as (pj & Hrp & Hpj).
        rewrite Hrp. cbn [kbind]. step_wr.
        eexists. split; [reflexivity|]. split; [|split; [exact Hdi1|exact Hm1]].
        unfold binv; cbn [fb_queue fb_dists fb_sigma fb_preds]. rewrite !set_nth_length.
        repeat split; auto. apply Forall_set_nth; [exact HPp1|]. apply Forall_app_one; assumption. }
      destruct H2 as (st2 & E2 & Hinv2). rewrite E2. cbn [kbind].
      apply IH; [exact (In_tail _ _ _ Hjs) | exact Hinv2].
  Qed.

  (** The BFS loop: never out of bounds; with fuel >= |queue| + #undiscovered it returns; every pop pushes
      one node on [seen] ([pops] = |seen| throughout), and |seen| + |queue| + #undiscovered never grows. *)
  Lemma br_bfs_ok B : forall fuel st seen,
    binv st -> Forall (fun v => v < n) seen -> length seen + bmeasure st <= B ->
    (br_bfs fuel indptr indices st seen (length seen) = OutOfFuel /\ fuel < bmeasure st) \/
    (exists st' seen', br_bfs fuel indptr indices st seen (length seen) = KOk (st', seen', length seen') /\
                       binv st' /\ Forall (fun v => v < n) seen' /\ length seen' <= B).
  Proof.
    induction fuel as [|f IH]; intros st seen Hinv Hseen HB; cbn [br_bfs];
      destruct (fb_queue st) as [|i q] eqn:Eq.
    1, 3: right; exists st, seen; split; [reflexivity|]; split; [exact Hinv|]; split; [exact Hseen|lia].
    - left. split; [reflexivity|]. unfold bmeasure. rewrite Eq. simpl. lia.
    - destruct Hinv as (HD & HS & HP & HQ & HQd & HPp). rewrite Eq in HQ, HQd.
      apply Forall_cons_iff in HQ. destruct HQ as [Hi HQ].
      apply Forall_cons_iff in HQd. destruct HQd as [Hdi HQd].
      rewrite (csr_row_rd Hwf Hi).
      set (st0 := {| fb_queue := q; fb_dists := fb_dists st; fb_sigma := fb_sigma st; fb_preds := fb_preds st |}).
      destruct (br_row_ok i (bmeasure st0) Hi _ st0
                  (row_range_lt n _ _ i Hwf Hi)) as (st1 & E1 & Hinv1 & _ & Hm1).
      { split; [|split; [exact Hdi|reflexivity]].
        unfold binv, st0; cbn [fb_queue fb_dists fb_sigma fb_preds]. auto 10. }
      rewrite E1. cbn [kbind].
      assert (Hm0 : bmeasure st = S (bmeasure st0)).
      { unfold bmeasure, st0; cbn [fb_queue fb_dists]. rewrite Eq. simpl. reflexivity. }
      destruct (IH st1 (i :: seen) Hinv1 ltac:(constructor; assumption) ltac:(simpl; lia)) as [[E Hlt]|H];
        [left; split; [exact E|lia] | right; exact H].
  Qed.

  Lemma br_back_preds_ok sigma j : length sigma = n -> j < n ->
    forall ps delta, Forall (fun v => v < n) ps -> length delta = n ->
      exists delta', br_back_preds ps sigma delta j = KOk delta' /\ length delta' = n.
  Proof.
    intros HS Hj. induction ps as [|i t IH]; intros delta Hps Hd; cbn [br_back_preds].
    - exists delta. auto.
    - apply Forall_cons_iff in Hps. destruct Hps as [Hi Hps].
      step_rd 0%Q. step_rd 0%Z. step_rd 0%Z. step_rd 0%Q. step_wr.
      apply IH; [exact Hps|]. rewrite set_nth_length. exact Hd.
  Qed.

  (** the back-propagation loop pops every seen node exactly once *)
  Lemma br_back_ok source sigma preds :
    length sigma = n -> length preds = n -> Forall (Forall (fun v => v < n)) preds ->
    forall T fuel seen delta scores pops,
      Forall (fun v => v < n) seen -> length delta = n -> length scores = n -> length seen <= fuel ->
      pops + length seen = T ->
      exists scores', br_back fuel source sigma preds seen delta scores pops = KOk (scores', T) /\
                      length scores' = n.
  Proof.
    intros HS HP HPp T. induction fuel as [|f IH]; intros seen delta scores pops Hseen Hd Hsc Hf HT;
      destruct seen as [|j rest]; cbn [br_back]; simpl in Hf, HT; try lia;
      try (exists scores; rewrite <- HT, Nat.add_0_r; auto; fail).
    apply Forall_cons_iff in Hseen. destruct Hseen as [Hj Hrest].
    destruct (rd_Forall _ preds j HPp ltac:(lia)) as (pj & Hr & Hpj). rewrite Hr. cbn [kbind].
    destruct (br_back_preds_ok sigma j HS Hj pj delta Hpj Hd) as (delta' & E1 & Hd'). rewrite E1. cbn [kbind].
    assert (H2 : exists scores1,
               (if j =? source then KOk scores
                else do sj <- rd scores j ;; do dj <- rd delta' j ;; wr scores j (sj + dj)%Q) = KOk scores1 /\
               length scores1 = n).
    { destruct (j =? source); [exists scores; auto|].
      step_rd 0%Q. step_rd 0%Q. step_wr. eexists. split; [reflexivity|]. rewrite set_nth_length. exact Hsc. }
    destruct H2 as (scores1 & E2 & Hsc1). rewrite E2. cbn [kbind].
    apply IH; auto; lia.
  Qed.

  Lemma binv_init source : source < n ->
    let st0 := {| fb_queue := [source]; fb_dists := set_nth (repeat (-1)%Z n) source 0%Z;
                  fb_sigma := set_nth (repeat 0%Z n) source 1%Z; fb_preds := repeat [] n |} in
    binv st0 /\ bmeasure st0 = n.
  Proof.
    intros Hs st0. split.
    - unfold binv, st0; cbn [fb_queue fb_dists fb_sigma fb_preds]. rewrite !set_nth_length, !repeat_length.
      repeat split; auto.
      + constructor; [rewrite nth_set_nth_same by (rewrite repeat_length; lia); lia|constructor].
      + apply Forall_repeat. constructor.
    - unfold bmeasure, st0; cbn [fb_queue fb_dists length].
      pose proof (negs_set (repeat (-1)%Z n) source 0%Z) as H. rewrite repeat_length, negs_repeat in H.
      assert (Hn1 : nth source (repeat (-1)%Z n) 0%Z = (-1)%Z).
      { apply (repeat_spec n). apply nth_In. rewrite repeat_length. exact Hs. }
      specialize (H Hs). rewrite Hn1 in H. specialize (H ltac:(lia) ltac:(lia)). lia.
  Qed.

  (** One source: with any BFS fuel either the BFS reports OutOfFuel (only when fuel < n) or the body
      returns; never OOB. The back loop pops as many nodes as the BFS did. *)
  Lemma br_source_ok bfs_fuel scores source :
    source < n -> length scores = n ->
    (br_source bfs_fuel n indptr indices scores source = OutOfFuel /\ bfs_fuel < n) \/
    (exists scores' p, br_source bfs_fuel n indptr indices scores source = KOk (scores', (p, p)) /\
                       length scores' = n /\ p <= n).
  Proof.
    intros Hs Hsc. unfold br_source.
    step_wr. step_wr.
    destruct (binv_init source Hs) as [Hinv0 Hm0].
    destruct (br_bfs_ok n bfs_fuel _ [] Hinv0 (Forall_nil _) ltac:(simpl; lia))
      as [[E Hlt] | (st' & seen' & E & (HD & HS & HP & _ & _ & HPp) & Hseen' & Hlen)]; cbn [length] in E;
      rewrite E; cbn [kbind].
    - left. split; [reflexivity|]. lia.
    - right.
      destruct (br_back_ok source (fb_sigma st') (fb_preds st') HS HP HPp (length seen') (length seen') seen'
                  (repeat 0%Q n) scores 0 Hseen' (repeat_length _ _) Hsc (le_n _) eq_refl) as (scores' & Eb & Hsc').
      rewrite Eb. cbn [kbind fst snd]. exists scores', (length seen'). auto.
  Qed.

  Lemma br_sources_ok bfs_fuel T : forall srcs scores log,
    (forall s, In s srcs -> s < n) -> length scores = n ->
    Forall (fun pq => fst pq <= n /\ snd pq = fst pq) log -> length log + length srcs = T ->
    (br_sources bfs_fuel srcs n indptr indices scores log = OutOfFuel /\ bfs_fuel < n) \/
    (exists scores' log', br_sources bfs_fuel srcs n indptr indices scores log = KOk (scores', log') /\
                          length scores' = n /\ length log' = T /\
                          Forall (fun pq => fst pq <= n /\ snd pq = fst pq) log').
  Proof.
    induction srcs as [|s t IH]; intros scores log Hs Hsc Hlog HT; cbn [br_sources]; simpl in HT.
    - right. exists scores, log. rewrite Nat.add_0_r in HT. auto.
    - destruct (br_source_ok bfs_fuel scores s (Hs s (or_introl eq_refl)) Hsc)
        as [[E Hlt] | (scores1 & p & E & Hsc1 & Hp)]; rewrite E; cbn [kbind fst snd]; [left; auto|].
      apply IH; [exact (In_tail _ _ _ Hs) | exact Hsc1 | | rewrite app_length; simpl; lia].
      apply Forall_app_one; [exact Hlog | simpl; auto].
  Qed.
End Brandes.

(** * push.pyx: the work-list loop terminates

    Residuals are never reset and every increment [residuals[vertex] * (1 - damping) / degrees[vertex]] is
    >= 0, so residuals only grow. A node is pushed only when its residual crosses [tol] upwards
    ([residuals[neighbor] > tol > tmp]); afterwards it stays above tol: after the initial n entries every
    node enters the queue at most once. Potential: |worklist| + #{v : residuals[v] <= tol}. *)

Definition lows (tol : Q) (residuals : list Q) : nat := length (filter (fun r => Qle_bool r tol) residuals).

Lemma lows_le_length tol l : lows tol l <= length l.
Proof. unfold lows. induction l as [|a t IH]; simpl; [lia|]. destruct (Qle_bool a tol); simpl; lia. Qed.

Lemma lows_set_grow tol (l : list Q) j v :
  j < length l -> (nth j l 0 <= v)%Q -> lows tol (set_nth l j v) <= lows tol l.
Proof.
  intros Hj Hv. pose proof (count_set_nth (fun r => Qle_bool r tol) 0%Q l j v Hj) as H. cbv beta in H.
  destruct (Qle_bool v tol) eqn:E1; destruct (Qle_bool (nth j l 0%Q) tol) eqn:E2; unfold lows; try lia.
  apply Qle_bool_iff in E1. assert (E : (nth j l 0 <= tol)%Q) by lra. apply Qle_bool_iff in E. congruence.
Qed.

Lemma lows_set_cross tol (l : list Q) j v :
  j < length l -> (nth j l 0 < tol)%Q -> (tol < v)%Q -> lows tol (set_nth l j v) + 1 = lows tol l.
Proof.
  intros Hj Hlo Hv. pose proof (count_set_nth (fun r => Qle_bool r tol) 0%Q l j v Hj) as H. cbv beta in H.
  assert (E1 : Qle_bool v tol = false).
  { destruct (Qle_bool v tol) eqn:E; [|reflexivity]. apply Qle_bool_iff in E. lra. }
  assert (E2 : Qle_bool (nth j l 0%Q) tol = true) by (apply Qle_bool_iff; lra).
  rewrite E1, E2 in H. unfold lows. lia.
Qed.

Lemma qdiv_nonneg a b : (0 <= a)%Q -> (0 <= b)%Q -> (0 <= a / b)%Q.
Proof. intros Ha Hb. unfold Qdiv. apply Qmult_le_0_compat; [exact Ha|]. apply Qinv_le_0_compat. exact Hb. Qed.

Lemma inject_nat_nonneg k : (0 <= inject_Z (Z.of_nat k))%Q.
Proof. change 0%Q with (inject_Z 0). rewrite <- Zle_Qle. lia. Qed.

Definition qnn (l : list Q) : Prop := Forall (fun r => (0 <= r)%Q) l.

Section Push.
  Context (n : nat) (indptr indices degrees : list nat) (damping tol : Q).
  Context (Hwf : csr_pat_wf n indptr indices) (Hdg : length degrees = n).
  Context (Hd0 : (0 <= damping)%Q) (Hd1 : (damping <= 1)%Q).

  Lemma push_row_progress vertex B : vertex < n ->
    forall js residuals worklist,
      (forall k, In k js -> k < length indices) -> length residuals = n -> qnn residuals ->
      Forall (fun v => v < n) worklist -> length worklist + lows tol residuals <= B ->
      exists r w, push_row js indices degrees damping tol vertex residuals worklist = KOk (r, w) /\
                  length r = n /\ qnn r /\ Forall (fun v => v < n) w /\ length w + lows tol r <= B.
  Proof.
    intros Hv. induction js as [|j t IH]; intros residuals worklist Hjs Hr Hnn Hw HB; cbn [push_row].
    - exists residuals, worklist. auto.
    - destruct (csr_rd_indices _ _ _ j Hwf (Hjs j (or_introl eq_refl))) as [Hrd Hlt].
      rewrite Hrd. cbn [kbind]. set (nb := nth j indices 0) in *.
      step_rd 0%Q. step_rd 0%Q. step_rd 0. step_wr.
      set (tmp := nth nb residuals 0%Q).
      set (new := (tmp + nth vertex residuals 0 * (1 - damping) / inject_Z (Z.of_nat (nth vertex degrees 0%nat)))%Q).
      step_rd 0%Q.
      rewrite nth_set_nth_same by lia.
      assert (Htmp : (0 <= tmp)%Q) by (apply (Forall_nth_lt _ residuals nb 0%Q Hnn); lia).
      assert (Hrv : (0 <= nth vertex residuals 0)%Q) by (apply (Forall_nth_lt _ residuals vertex 0%Q Hnn); lia).
      assert (Hinc : (tmp <= new)%Q).
      { unfold new.
        assert (H : (0 <= nth vertex residuals 0 * (1 - damping) / inject_Z (Z.of_nat (nth vertex degrees 0%nat)))%Q).
        { apply qdiv_nonneg; [|apply inject_nat_nonneg]. apply Qmult_le_0_compat; [exact Hrv|lra]. }
        lra. }
      assert (Hnn' : qnn (set_nth residuals nb new)) by (apply Forall_set_nth; [exact Hnn|lra]).
      assert (Hr' : length (set_nth residuals nb new) = n) by (rewrite set_nth_length; exact Hr).
      match goal with |- context [push_row t _ _ _ _ _ _ ?W] => set (w1 := W) end.
      assert (Hw1 : Forall (fun v => v < n) w1 /\ length w1 + lows tol (set_nth residuals nb new) <= B).
      { pose proof (lows_set_grow tol residuals nb new ltac:(lia) Hinc) as Hgrow. unfold w1.
        destruct (Qlt_le_dec tol new) as [H1|H1]; [destruct (Qlt_le_dec tmp tol) as [H2|H2]|];
          try (split; [exact Hw|lia]).
        split; [apply Forall_app_one; assumption|]. rewrite app_length. simpl.
        pose proof (lows_set_cross tol residuals nb new ltac:(lia) H2 H1). lia. }
      apply IH; [exact (In_tail _ _ _ Hjs) | exact Hr' | exact Hnn' | apply Hw1 | apply Hw1].
  Qed.

  (** |worklist| + #{residual <= tol} units of fuel suffice *)
  Lemma push_loop_terminates : forall fuel scores residuals worklist,
    length scores = n -> length residuals = n -> qnn residuals -> Forall (fun v => v < n) worklist ->
    length worklist + lows tol residuals <= fuel ->
    exists scores', push_loop fuel indptr indices degrees damping tol scores residuals worklist = KOk scores' /\
                    length scores' = n.
  Proof.
    induction fuel as [|f IH]; intros scores residuals worklist Hs Hr Hnn Hw Hf;
      destruct worklist as [|v rest]; cbn [push_loop]; try (exists scores; auto; fail);
      [simpl in Hf; lia|].
    apply Forall_cons_iff in Hw. destruct Hw as [Hv Hrest].
    step_rd 0%Q. step_rd 0%Q. step_wr.
    rewrite (csr_row_rd Hwf Hv).
    destruct (push_row_progress v f Hv _ residuals rest
                (row_range_lt n _ _ v Hwf Hv) Hr Hnn Hrest ltac:(simpl in Hf; lia))
      as (r & w & E & Hlr & Hnr & Hwr & Hm).
    rewrite E. cbn [kbind fst snd]. apply IH; auto. rewrite set_nth_length. exact Hs.
  Qed.
End Push.

Lemma push_init_nn n rev_indptr rev_indices degrees (seeds : list Q) damping :
  csr_pat_wf n rev_indptr rev_indices -> length degrees = n -> length seeds = n ->
  (0 <= damping)%Q -> (damping <= 1)%Q -> Forall (fun s => (- (1) <= s)%Q) seeds ->
  exists r, push_init (seq 0 n) rev_indptr rev_indices degrees seeds damping (repeat 0%Q n) = KOk r /\
            length r = n /\ qnn r.
Proof.
  intros Hrev Hdg Hsd Hd0 Hd1 Hseeds.
  apply (push_init_ok (fun r => (0 <= r)%Q) (fun s => (- (1) <= s)%Q) n rev_indptr rev_indices degrees seeds
           damping Hrev Hdg Hsd Hseeds).
  - intros r dg Hr. pose proof (Qinv_le_0_compat _ (inject_nat_nonneg dg)). lra.
  - intros r s Hr Hs. repeat apply Qmult_le_0_compat; lra.
  - intros v Hv. apply in_seq in Hv. lia.
  - apply repeat_length.
  - apply Forall_repeat. lra.
Qed.

(** * leiden_core.pyx: optimize_refine_core

    Accesses are in range for every [rand()] stream, and the loop terminates (exact arithmetic):

    Every accepted move has [delta_local > 0]. Under the refinement invariant (a refined cluster never
    straddles two coarse clusters: true for labels_refined = arange(n) and preserved by every move) the
    scratch array holds, for the node's own refined cluster and for every candidate, the full weight between
    the node and that cluster, so [delta_local] IS the change of the objective
    sum_ij (A_ij - res out_i in_j) delta(lr_i, lr_j) (same algebra as Louvain: LouvainProofs.move_gain).
    A pass that sets [increase] therefore strictly increases the objective, which takes at most m^n values:
    the [while increase] loop ends within m^n + 1 passes, whatever rand() returns. As for Louvain with
    tol = 0 this is a statement about exact arithmetic: in float32 a "gain" can be rounding noise. *)
From Coq Require Import Sorted Setoid Morphisms.
From SKN Require Import Model.Modularity Model.Louvain Proofs.ModularityProofs Proofs.LouvainProofs Proofs.LouvainTermination Proofs.LouvainFlatTermination.
Set Warnings "-notation-overridden".
Local Open Scope Q_scope.

Definition rinv (n m : nat) (st : rstate) : Prop :=
  length (r_lr st) = n /\ Forall (fun l => (l < m)%nat) (r_lr st) /\
  length (r_ocw st) = m /\ length (r_icw st) = m /\ length (r_cw st) = m.

Lemma nthq_upd_any (l : list Q) i j v : (i < length l)%nat ->
  nthq (upd l i v) j = if Nat.eqb j i then v else nthq l j.
Proof.
  intros H. destruct (Nat.eqb_spec j i) as [->|Hne]; [apply nthq_upd_same; exact H|apply nthq_upd_other; exact Hne].
Qed.

Section Leiden.
  Context (n m : nat) (indptr indices : list nat) (data ows iws sls : list Q) (labels : list nat) (res : Q)
          (rnd : nat -> nat).
  Context (Hcsr : csr_wf n indptr indices data) (Hlab : length labels = n).
  Context (How : length ows = n) (Hiw : length iws = n) (Hsl : length sls = n).

  Definition rrow (js : list nat) : wrow := map (fun j => (nth j indices 0%nat, nth j data 0)) js.

  Lemma ld_gather_spec lr label : length lr = n -> Forall (fun l => (l < m)%nat) lr ->
    forall js lset cw, (forall k, In k js -> (k < length indices)%nat) -> length cw = m ->
      Forall (fun l => (l < m)%nat) lset -> StronglySorted lt lset ->
      exists lset' cw', ld_gather js indices data labels lr label lset cw = KOk (lset', cw') /\
        length cw' = m /\ Forall (fun l => (l < m)%nat) lset' /\ StronglySorted lt lset' /\
        (forall t, In t lset' <-> In t lset \/
                   In t (map (fun j => lab lr (nth j indices 0%nat))
                             (filter (fun j => Nat.eqb (lab labels (nth j indices 0%nat)) label) js))) /\
        (forall c, nthq cw' c == nthq cw c +
                   rsum (rrow js) (fun y => ind (Nat.eqb (lab labels y) label) * ind (Nat.eqb (lab lr y) c))).
  Proof.
    intros HLR HF. pose proof Hcsr as [Hpat Hd]. pose proof Hpat as (_ & _ & _ & _ & Hidx).
    induction js as [|j t IH]; intros lset cw Hjs Hcw Hls Hss; cbn [ld_gather rrow map rsum filter].
    - exists lset, cw. split; [reflexivity|]. split; [exact Hcw|]. split; [exact Hls|]. split; [exact Hss|].
      split; [|intros c; ring]. intros u. cbn [In]. tauto.
    - assert (Hj : (j < length indices)%nat) by (apply Hjs; left; reflexivity).
      pose proof (Hidx j Hj) as Hjj.
      rewrite (rdn_ok indices j Hj). cbn [kbind]. change (nthn indices j) with (nth j indices 0%nat).
      set (y := nth j indices 0%nat) in *.
      rewrite (rdn_ok labels y) by lia. cbn [kbind]. change (nthn labels y) with (lab labels y).
      destruct (Nat.eqb (lab labels y) label).
      + assert (Hlt : (lab lr y < m)%nat).
        { unfold lab, nthn. apply (Forall_nth_lt _ lr y 0%nat HF). lia. }
        rewrite (rdn_ok lr y) by lia. cbn [kbind]. change (nthn lr y) with (lab lr y).
        rq. rq. wq.
        destruct (IH (Vote.set_insert (lab lr y) lset) (upd cw (lab lr y) (nthq cw (lab lr y) + nthq data j)))
          as (lset' & cw' & E & Hl' & Hf' & Hs' & Hin' & Hcw').
        * exact (In_tail _ _ _ Hjs).
        * rewrite upd_length. exact Hcw.
        * apply Forall_set_insert; assumption.
        * apply VoteProofs.set_insert_sorted. exact Hss.
        * exists lset', cw'. split; [exact E|]. split; [exact Hl'|]. split; [exact Hf'|]. split; [exact Hs'|].
          split.
          -- intros u. rewrite Hin', VoteProofs.set_insert_In. cbn [map In]. fold y. intuition congruence.
          -- intros c. rewrite Hcw'. fold (rrow t). rewrite nthq_upd_any by lia.
             change (nth j data 0) with (nthq data j).
             cbn [ind].
             destruct (Nat.eqb_spec c (lab lr y)) as [->|Hne].
             ++ rewrite Nat.eqb_refl. cbn [ind]. ring.
             ++ rewrite (ind_false (Nat.eqb (lab lr y) c)) by (apply Nat.eqb_neq; congruence). ring.
      + destruct (IH lset cw (In_tail _ _ _ Hjs) Hcw Hls Hss) as (lset' & cw' & E & Hl' & Hf' & Hs' & Hin' & Hcw').
        exists lset', cw'. split; [exact E|]. split; [exact Hl'|]. split; [exact Hf'|]. split; [exact Hs'|].
        split; [exact Hin'|]. intros c. rewrite Hcw'. fold (rrow t). cbn [ind]. ring.
  Qed.

  (** [ls0]: the whole list of candidates, of which [ls] is what remains to be visited *)
  Lemma ld_targets_spec ow iw delta icw ocw cw1 ls0 : length icw = m -> length ocw = m ->
    let gain t := In t ls0 /\ 0 < delta_local res ow iw delta ocw icw cw1 t in
    forall ls cw tset, (forall t, In t ls -> In t ls0) -> NoDup ls -> Forall (fun l => (l < m)%nat) ls ->
      length cw = m -> (forall t, In t ls -> nthq cw t = nthq cw1 t) -> Forall gain tset ->
      exists tset' cw', ld_targets ls res ow iw delta icw ocw cw tset = KOk (tset', cw') /\
        length cw' = m /\ Forall gain tset' /\
        (forall c, In c ls -> nthq cw' c = 0) /\ (forall c, ~ In c ls -> nthq cw' c = nthq cw c).
  Proof.
    intros Hi Ho gain. induction ls as [|lt t IH]; intros cw tset Hin Hnd Hls Hcw Heq Hts; cbn [ld_targets].
    - exists tset, cw. split; [reflexivity|]. split; [exact Hcw|]. split; [exact Hts|]. split; [intros c []|reflexivity].
    - apply Forall_cons_iff in Hls. destruct Hls as [Hlt Hls]. apply NoDup_cons_iff in Hnd. destruct Hnd as [Hnotin Hnd'].
      rq. rq. rq. wq.
      assert (Edl : 2 * nthq cw lt - res * ow * nthq icw lt - res * iw * nthq ocw lt - delta
                    = delta_local res ow iw delta ocw icw cw1 lt).
      { unfold delta_local. rewrite (Heq lt (or_introl eq_refl)). reflexivity. }
      rewrite Edl.
      match goal with |- context [if ?D then _ else _] =>
        destruct (IH (upd cw lt 0) (if D then Vote.set_insert lt tset else tset) (In_tail _ _ _ Hin) Hnd' Hls)
          as (tset' & cw' & E & Hl' & Hts' & Hz' & Hnz') end.
      { rewrite upd_length. exact Hcw. }
      { intros u Hu. rewrite nthq_upd_other by (intros ->; contradiction). apply Heq. right. exact Hu. }
      { destruct (Qlt_le_dec _ _) as [Hpos|_]; [|exact Hts].
        apply Forall_set_insert; [|exact Hts]. split; [apply Hin; left; reflexivity | exact Hpos]. }
      exists tset', cw'. split; [destruct (Qlt_le_dec _ _); exact E|]. split; [exact Hl'|]. split; [exact Hts'|]. split.
      + intros c [<-|Hc]; [|apply Hz'; exact Hc]. rewrite (Hnz' lt Hnotin). apply nthq_upd_same. lia.
      + intros c Hc. rewrite Hnz' by (intros H; apply Hc; right; exact H).
        apply nthq_upd_other. intros ->. apply Hc. left. reflexivity.
  Qed.

  (** ** accesses in range, whatever the weights *)
  Lemma ld_pick_Forall (P : nat -> Prop) : forall ls k cur, Forall P ls -> P cur -> P (ld_pick ls k cur).
  Proof.
    induction ls as [|lt t IH]; intros k cur Hls Hc; cbn [ld_pick]; [exact Hc|].
    apply Forall_cons_iff in Hls. destruct Hls as [Hlt Ht].
    destruct (k - 1 =? 0)%Z; [exact Hlt|]. apply IH; assumption.
  Qed.

  Lemma ld_node_ok i st : (i < n)%nat -> rinv n m st ->
    exists st', ld_node rnd indptr indices data ows iws sls labels res i st = KOk st' /\ rinv n m st'.
  Proof.
    intros Hi (HL & HF & HO & HI & HC). pose proof Hcsr as [Hpat Hd].
    unfold ld_node. step_rd 0%nat.
    destruct (rd_Forall _ (r_lr st) i HF ltac:(lia)) as (lref & Hr & Hlref). rewrite Hr. cbn [kbind].
    rewrite (csr_row_rd Hpat Hi).
    destruct (ld_gather_spec (r_lr st) (nth i labels 0%nat) HL HF _ [] (r_cw st)
                (row_range_lt n _ _ i Hpat Hi) HC (Forall_nil _) (SSorted_nil lt))
      as (lset0 & cw1 & Hg & Hcw1 & Hls0 & Hss0 & _).
    rewrite Hg. cbn [kbind fst snd]. rewrite remove_set_erase.
    assert (Hnd : NoDup (set_erase lref lset0)) by (apply set_erase_NoDup, sorted_NoDup; exact Hss0).
    assert (Hls : Forall (fun l => (l < m)%nat) (set_erase lref lset0))
      by (rewrite <- remove_set_erase; apply Forall_remove, Hls0).
    match goal with |- exists st', (do st1 <- ?X ;; _) = _ /\ _ =>
      assert (H1 : exists st1, X = KOk st1 /\ rinv n m st1) end.
    { destruct (set_erase lref lset0) as [|l0 lrest].
      - eexists. split; [reflexivity|]. unfold rinv; cbn [r_lr r_ocw r_icw r_cw]. auto.
      - do 6 step_rd 0.
        match goal with |- context [ld_targets ?ls _ ?o ?w ?d ?ic ?oc ?c ?ts] =>
          destruct (ld_targets_spec o w d ic oc c ls HI HO ls c ts (fun _ H => H) Hnd Hls Hcw1
                      (fun _ _ => eq_refl) (Forall_nil _)) as (tset & cw2 & Hs & Hcw2 & Hgain & _) end.
        rewrite Hs. cbn [kbind fst snd].
        pose proof (Forall_impl _ (fun t (Ht : In t _ /\ _) => Forall_In _ _ _ Hls (proj1 Ht)) Hgain) as Hts.
        destruct tset as [|t0 trest].
        + eexists. split; [reflexivity|]. unfold rinv; cbn [r_lr r_ocw r_icw r_cw]. auto.
        + match goal with |- context [ld_pick ?ls ?k ?c] =>
            pose proof (ld_pick_Forall _ ls k c Hts (Forall_inv Hts)) as Hpick;
            set (lt := ld_pick ls k c) in * end.
          cbn beta in Hpick.
          repeat first [step_rd 0 | step_wr].
          eexists. split; [reflexivity|]. unfold rinv; cbn [r_lr r_ocw r_icw r_cw].
          rewrite !set_nth_length. repeat split; auto. apply Forall_set_nth; auto. }
    destruct H1 as (st1 & E1 & (HL1 & HF1 & HO1 & HI1 & HC1)). rewrite E1. cbn [kbind].
    step_wr. eexists. split; [reflexivity|]. unfold rinv; cbn [r_lr r_ocw r_icw r_cw].
    rewrite set_nth_length. auto.
  Qed.

  Lemma ld_loop_safe : forall fuel st passes, rinv n m st ->
    ld_loop fuel n rnd indptr indices data ows iws sls labels res st passes <> OOB.
  Proof.
    induction fuel as [|f IH]; intros st passes Hinv; cbn [ld_loop]; [discriminate|].
    destruct (for_inv (ld_node rnd indptr indices data ows iws sls labels res)
                (fun nodes st => ld_pass nodes rnd indptr indices data ows iws sls labels res st)
                (fun i => (i < n)%nat) (rinv n m) (fun _ => eq_refl) (fun _ _ _ => eq_refl) ld_node_ok (seq 0 n)
                {| r_lr := r_lr st; r_ocw := r_ocw st; r_icw := r_icw st; r_cw := r_cw st;
                   r_inc := false; r_draws := r_draws st |}) as (st' & H1 & Hinv').
    { intros i Hi. apply in_seq in Hi. lia. }
    { exact Hinv. }
    rewrite H1. cbn [kbind]. destruct (r_inc st'); [apply IH; exact Hinv'|discriminate].
  Qed.

  Let g := csr_graph n indptr indices data.
  Context (Hsym : wsymmetric g) (Hdiag : forall i, (i < n)%nat -> nthq sls i == entry g i i).

  Let Hg : length g = n := csr_graph_length n indptr indices data.
  Let Hgwf : wf_wgraph g := csr_graph_wf n indptr indices data (proj1 Hcsr).

  Definition robj (lr : list nat) : Q := objective g ows iws res lr.

  (** the quantity compared by the kernel is the change of the objective, as soon as the scratch array holds
      the weights between node i and the two clusters involved *)
  Lemma refine_gain lr ocw icw cw1 i t :
    (i < n)%nat -> length lr = n -> t <> lab lr i ->
    nthq cw1 t == qsum n (fun y => entry g i y * ind (Nat.eqb (lab lr y) t)) ->
    nthq cw1 (lab lr i) == qsum n (fun y => entry g i y * ind (Nat.eqb (lab lr y) (lab lr i))) ->
    nthq ocw t == csum g lr ows t -> nthq ocw (lab lr i) == csum g lr ows (lab lr i) ->
    nthq icw t == csum g lr iws t -> nthq icw (lab lr i) == csum g lr iws (lab lr i) ->
    delta_local res (nthq ows i) (nthq iws i)
       (delta_leave res (nthq ows i) (nthq iws i) (nthq sls i) ocw icw cw1 (lab lr i)) ocw icw cw1 t
    == robj (upd lr i t) - robj lr.
  Proof.
    intros Hi Hlen Hne C1 C2 O1 O2 I1 I2. unfold robj.
    rewrite !objective_objF. rewrite Hg.
    rewrite (objF_ext n (Fk g ows iws res) (lab (upd lr i t)) (fun x => if Nat.eqb x i then t else lab lr x))
      by (intros x _; apply lab_upd; lia).
    rewrite (move_gain n (Fk g ows iws res) (lab lr) i t Hi Hne).
    transitivity (qsum n (fun y => (2 * entry g i y - res * nthq ows i * nthq iws y - res * nthq iws i * nthq ows y)
                                   * (ind (Nat.eqb (lab lr y) t) - ind (Nat.eqb (lab lr y) (lab lr i))))
                  + 2 * Fk g ows iws res i i).
    2:{ apply Qplus_comp; [|reflexivity]. apply qsum_ext. intros y Hy. unfold Fk.
        rewrite (Hsym y i ltac:(lia) ltac:(lia)). ring. }
    rewrite lin6. unfold delta_local, delta_leave.
    rewrite C1, C2, O1, O2, I1, I2. rewrite (Hdiag i Hi). unfold csum, membership_T_dot, Fk. rewrite Hg. ring.
  Qed.

  (** ** cluster weight arrays under a move (flat form) *)
  Lemma cluster_move_flat lr (arr v : list Q) i best :
    (i < n)%nat -> length lr = n -> length arr = m ->
    (forall c, (c < m)%nat -> nthq arr c == csum g lr v c) ->
    (lab lr i < m)%nat -> (best < m)%nat -> best <> lab lr i ->
    let arr1 := upd arr (lab lr i) (nthq arr (lab lr i) - nthq v i) in
    let arr2 := upd arr1 best (nthq arr1 best + nthq v i) in
    forall c, (c < m)%nat -> nthq arr2 c == csum g (upd lr i best) v c.
  Proof.
    intros Hi Hlen Hal Harr Hlk Hbk Hne arr1 arr2 c Hc.
    rewrite (csum_move g lr v i best c ltac:(lia) ltac:(lia)).
    unfold arr2. rewrite nthq_upd_any by (unfold arr1; rewrite upd_length; lia).
    unfold arr1. rewrite !nthq_upd_any by lia.
    destruct (Nat.eqb_spec c best) as [->|Hcb].
    - assert (E : Nat.eqb best (lab lr i) = false) by (apply Nat.eqb_neq; exact Hne). rewrite E.
      rewrite (Harr best Hbk). rewrite Nat.eqb_refl.
      rewrite (ind_false (Nat.eqb (lab lr i) best)) by (apply Nat.eqb_neq; congruence). cbn [ind]. ring.
    - rewrite (ind_false (Nat.eqb best c)) by (apply Nat.eqb_neq; congruence).
      destruct (Nat.eqb_spec c (lab lr i)) as [->|Hcl].
      + rewrite (Harr (lab lr i) Hlk). rewrite Nat.eqb_refl. cbn [ind]. ring.
      + rewrite (Harr c Hc). rewrite (ind_false (Nat.eqb (lab lr i) c)) by (apply Nat.eqb_neq; congruence).
        cbn [ind]. ring.
  Qed.

  Definition refines (lr : list nat) : Prop :=
    forall x y, (x < n)%nat -> (y < n)%nat -> lab lr x = lab lr y -> lab labels x = lab labels y.

  Record rJ (st : rstate) : Prop := mk_rJ {
    rj_inv : rinv n m st;
    rj_ocw : forall c, (c < m)%nat -> nthq (r_ocw st) c == csum g (r_lr st) ows c;
    rj_icw : forall c, (c < m)%nat -> nthq (r_icw st) c == csum g (r_lr st) iws c;
    rj_cw : forall c, (c < m)%nat -> nthq (r_cw st) c == 0;
    rj_ref : refines (r_lr st) }.

  (** kept by every node of a pass: the objective is at least [x0], and above it once [increase] is set
      (unless it was set on entry, [b0]) *)
  Definition rprog (x0 : Q) (b0 : bool) (st : rstate) : Prop :=
    rJ st /\ x0 <= robj (r_lr st) /\ (r_inc st = true -> b0 = true \/ x0 < robj (r_lr st)).

  Lemma ld_node_progress x0 b0 i st : (i < n)%nat -> rprog x0 b0 st ->
    exists st', ld_node rnd indptr indices data ows iws sls labels res i st = KOk st' /\ rprog x0 b0 st'.
  Proof.
    intros Hi ([Hinv Hocw Hicw Hcw Href] & Hle & Hinc). destruct Hinv as (HL & HF & HO & HI & HC).
    pose proof Hcsr as [Hpat Hd]. pose proof Hpat as (Hipl & _ & _ & _ & Hidx).
    unfold ld_node. rn. rn. rn. rn.
    set (lr := r_lr st) in *. change (nthn labels i) with (lab labels i). change (nthn lr i) with (lab lr i).
    set (label := lab labels i). set (lref := lab lr i).
    assert (Hlref : (lref < m)%nat) by (unfold lref, lab, nthn; apply (Forall_nth_lt _ lr i 0%nat HF); lia).
    change (nthn indptr i) with (ip indptr i). change (nthn indptr (S i)) with (ip indptr (S i)).
    set (js := seq (ip indptr i) (ip indptr (S i) - ip indptr i)).
    assert (Hjs : forall k, In k js -> (k < length indices)%nat) by (apply (row_range_lt n); auto).
    destruct (ld_gather_spec lr label HL HF js [] (r_cw st) Hjs HC (Forall_nil _) (SSorted_nil lt))
      as (lset0 & cw1 & Eg & Lc1 & Hls0 & Hss0 & Hin0 & Hcw1).
    rewrite Eg. cbn [kbind fst snd]. rewrite remove_set_erase.
    assert (Hrow : wrow_of g i = rrow js).
    { unfold g. rewrite (csr_graph_row n indptr indices data i Hi). reflexivity. }
    assert (Hin0' : forall t, In t lset0 <->
              exists j, In j js /\ lab labels (nth j indices 0%nat) = label /\ lab lr (nth j indices 0%nat) = t).
    { intros t. rewrite Hin0, in_map_iff. split.
      - intros [[]|(j & E & Hj)]. apply filter_In in Hj. destruct Hj as [Hj Hb]. apply Nat.eqb_eq in Hb.
        exists j. auto.
      - intros (j & Hj & H1 & H2). right. exists j. split; [exact H2|].
        apply filter_In. split; [exact Hj|]. apply Nat.eqb_eq. exact H1. }
    assert (Hwit : forall c, c = lref \/ In c lset0 ->
              exists z, (z < n)%nat /\ lab lr z = c /\ lab labels z = label).
    { intros c [->|Hc]; [exists i; auto|].
      apply Hin0' in Hc. destruct Hc as (j & Hj & H1 & H2).
      exists (nth j indices 0%nat). split; [apply Hidx; apply Hjs; exact Hj|]. auto. }
    assert (CW : forall c, (c < m)%nat -> c = lref \/ In c lset0 ->
              nthq cw1 c == qsum n (fun y => entry g i y * ind (Nat.eqb (lab lr y) c))).
    { intros c Hc Hw. destruct (Hwit c Hw) as (z & Hz & Hz1 & Hz2).
      rewrite Hcw1, (Hcw c Hc). rewrite <- Hrow. rewrite (rsum_row_entries g i _ Hgwf). rewrite Hg.
      rewrite Qplus_0_l. apply qsum_ext. intros y Hy.
      destruct (Nat.eqb_spec (lab lr y) c) as [E|E]; cbn [ind]; [|ring].
      assert (El : lab labels y = label) by (rewrite <- Hz2; apply Href; auto; congruence).
      rewrite El. unfold label. rewrite Nat.eqb_refl. cbn [ind]. ring. }
    set (s := set_erase lref lset0).
    assert (Hs_in : forall t, In t s <-> In t lset0 /\ t <> lref) by (intros t; apply set_erase_In).
    assert (Hs_nd : NoDup s) by (apply set_erase_NoDup, sorted_NoDup; exact Hss0).
    assert (Hs_lt : Forall (fun l => (l < m)%nat) s)
      by (unfold s; rewrite <- remove_set_erase; apply Forall_remove, Hls0).
    assert (CZ : forall c, (c < m)%nat -> c <> lref -> ~ In c s -> nthq cw1 c == 0).
    { intros c Hc Hne Hnin. rewrite Hcw1, (Hcw c Hc). rewrite rsum_zero; [ring|].
      intros y w Hyw. unfold rrow in Hyw. apply in_map_iff in Hyw. destruct Hyw as (j & E & Hj).
      assert (Ey : y = nth j indices 0%nat) by congruence. subst y.
      destruct (Nat.eqb_spec (lab labels (nth j indices 0%nat)) label) as [E1|E1]; cbn [ind]; [|ring].
      destruct (Nat.eqb_spec (lab lr (nth j indices 0%nat)) c) as [E2|E2]; cbn [ind]; [|ring].
      exfalso. apply Hnin. apply Hs_in. split; [|exact Hne]. apply Hin0'. exists j. auto. }
    assert (Hzero : forall cwF, length cwF = m -> (forall c, In c s -> nthq cwF c = 0) ->
                      (forall c, ~ In c s -> nthq cwF c = nthq cw1 c) ->
                      forall c, (c < m)%nat -> nthq (upd cwF lref 0) c == 0).
    { intros cwF HlF Hz Hnz c Hc. rewrite nthq_upd_any by lia.
      destruct (Nat.eqb_spec c lref) as [->|Hne]; [reflexivity|].
      destruct (in_dec Nat.eq_dec c s) as [Hin|Hnin]; [rewrite (Hz c Hin); reflexivity|].
      rewrite (Hnz c Hnin). apply CZ; assumption. }
    fold s. destruct s as [|t0 s'] eqn:Es.
    - (* no neighbouring refined cluster inside the coarse cluster *)
      cbn [kbind r_lr r_ocw r_icw r_cw r_inc r_draws]. wq.
      eexists. split; [reflexivity|]. split; [|cbn [r_lr r_inc]; auto].
      constructor; cbn [r_lr r_ocw r_icw r_cw]; [|exact Hocw|exact Hicw| |exact Href].
      + unfold rinv; cbn [r_lr r_ocw r_icw r_cw]. rewrite upd_length. auto.
      + apply Hzero; auto. intros c [].
    - do 6 rq.
      set (ow := nthq ows i). set (iw := nthq iws i).
      set (dlt := 2 * (nthq cw1 lref - nthq sls i) - res * ow * (nthq (r_icw st) lref - iw)
                  - res * iw * (nthq (r_ocw st) lref - ow)).
      assert (Edlt : dlt = delta_leave res ow iw (nthq sls i) (r_ocw st) (r_icw st) cw1 lref) by reflexivity.
      destruct (ld_targets_spec ow iw dlt (r_icw st) (r_ocw st) cw1 (t0 :: s') HI HO (t0 :: s') cw1 []
                  (fun _ H => H) Hs_nd Hs_lt Lc1 (fun _ _ => eq_refl) (Forall_nil _))
        as (tset & cw2 & Et & Lc2 & Hts & Hz & Hnz).
      rewrite Et. cbn [kbind fst snd].
      destruct tset as [|u0 urest] eqn:Ets.
      + (* no strictly positive gain *)
        cbn [kbind r_lr r_ocw r_icw r_cw r_inc r_draws]. wq.
        eexists. split; [reflexivity|]. split; [|cbn [r_lr r_inc]; auto].
        constructor; cbn [r_lr r_ocw r_icw r_cw]; [|exact Hocw|exact Hicw| |exact Href].
        * unfold rinv; cbn [r_lr r_ocw r_icw r_cw]. rewrite upd_length. auto.
        * apply Hzero; auto.
      + (* a move *)
        set (kk := Z.of_nat (rnd (r_draws st) mod length (u0 :: urest))).
        set (lt := ld_pick (u0 :: urest) kk u0).
        destruct (ld_pick_Forall _ (u0 :: urest) kk u0 Hts (Forall_inv Hts)) as [Hlt_in Hpos]. fold lt in Hlt_in, Hpos.
        assert (Hlt_s : In lt lset0 /\ lt <> lref) by (apply Hs_in; exact Hlt_in).
        destruct Hlt_s as [Hlt0 Hltne].
        assert (Hltm : (lt < m)%nat) by exact (Forall_In _ _ _ Hls0 Hlt0).
        repeat first [rq | wq]. cbn [kbind r_lr r_ocw r_icw r_cw r_inc r_draws]. wq.
        eexists. split; [reflexivity|]. unfold rprog. cbn [r_lr r_ocw r_icw r_cw r_inc r_draws]. fold lr.
        split.
        * constructor; cbn [r_lr r_ocw r_icw r_cw].
          -- unfold rinv; cbn [r_lr r_ocw r_icw r_cw]. rewrite !upd_length.
             repeat split; auto. apply Forall_upd; auto.
          -- exact (cluster_move_flat lr (r_ocw st) ows i lt Hi HL HO Hocw Hlref Hltm Hltne).
          -- exact (cluster_move_flat lr (r_icw st) iws i lt Hi HL HI Hicw Hlref Hltm Hltne).
          -- apply Hzero; auto.
          -- destruct (Hwit lt (or_intror Hlt0)) as (z & Hz0 & Hz1 & Hz2).
             intros x y Hx Hy. rewrite !lab_upd by lia.
             destruct (Nat.eqb_spec x i) as [->|Hxi]; destruct (Nat.eqb_spec y i) as [->|Hyi]; intros E.
             ++ reflexivity.
             ++ fold label. rewrite <- Hz2. apply Href; auto. congruence.
             ++ fold label. rewrite <- Hz2. apply Href; auto. congruence.
             ++ apply Href; auto.
        * rewrite Edlt in Hpos.
          pose proof (refine_gain lr (r_ocw st) (r_icw st) cw1 i lt Hi HL Hltne
                        (CW lt Hltm (or_intror Hlt0)) (CW lref Hlref (or_introl eq_refl))
                        (Hocw lt Hltm) (Hocw lref Hlref) (Hicw lt Hltm) (Hicw lref Hlref)) as Hgain.
          unfold ow, iw, lref in Hpos. split; [lra | intros _; right; lra].
  Qed.

  Lemma rJ_kinv st : rJ st ->
    kinv g ows iws m {| k_labels := r_lr st; k_out_cw := r_ocw st; k_in_cw := r_icw st; k_cw := r_cw st;
                        k_inc_pass := 0; k_margin := marg0 |}.
  Proof.
    intros [(HL & HF & HO & HI & HC) Hocw Hicw Hcw _].
    constructor; cbn [k_labels k_out_cw k_in_cw k_cw]; auto.
    - congruence.
    - intros x Hx. unfold lab, nthn. apply (Forall_nth_lt _ (r_lr st) x 0%nat HF). lia.
  Qed.

  Definition rabove (x : Q) : nat := above g ows iws res m x.

  Lemma ld_loop_terminates T x0 : forall fuel st passes, rJ st ->
    (rabove (robj (r_lr st)) < fuel)%nat -> (passes + S (rabove (robj (r_lr st))) <= T)%nat ->
    x0 <= robj (r_lr st) ->
    exists lr' p, ld_loop fuel n rnd indptr indices data ows iws sls labels res st passes = KOk (lr', p) /\
      (p <= T)%nat /\ length lr' = n /\ Forall (fun l => (l < m)%nat) lr' /\ refines lr' /\ x0 <= robj lr'.
  Proof.
    induction fuel as [|f IH]; intros st passes HJ Hf HT Hx; [lia|]. cbn [ld_loop].
    set (st0 := {| r_lr := r_lr st; r_ocw := r_ocw st; r_icw := r_icw st; r_cw := r_cw st; r_inc := false;
                   r_draws := r_draws st |}).
    destruct (for_inv (ld_node rnd indptr indices data ows iws sls labels res)
                (fun nodes st => ld_pass nodes rnd indptr indices data ows iws sls labels res st)
                (fun i => (i < n)%nat) (rprog (robj (r_lr st)) false) (fun _ => eq_refl) (fun _ _ _ => eq_refl)
                (ld_node_progress _ _) (seq 0 n) st0) as (st' & E & HJ' & Hle & Hinc).
    { intros i Hi. apply in_seq in Hi. lia. }
    { split; [destruct HJ as [H1 H2 H3 H4 H5]; constructor; assumption|].
      cbn [st0 r_lr r_inc]. split; [apply Qle_refl|discriminate]. }
    rewrite E. cbn [kbind].
    destruct (r_inc st') eqn:Ei.
    - destruct (Hinc eq_refl) as [H|Hlt]; [discriminate|].
      pose proof (above_decr g ows iws res m _ (robj (r_lr st)) (rJ_kinv st' HJ') Hlt) as Hd.
      cbn [k_labels] in Hd. fold (robj (r_lr st')) in Hd. fold (rabove (robj (r_lr st'))) in Hd.
      fold (rabove (robj (r_lr st))) in Hd.
      apply IH; [exact HJ'|lia|lia|lra].
    - exists (r_lr st'), (S passes). split; [reflexivity|]. split; [lia|].
      destruct HJ' as [(HL & HF & _) _ _ _ Hr]. repeat split; auto. lra.
  Qed.

  Lemma ld_loop_terminates_pow fuel st : rJ st -> (S (m ^ n) <= fuel)%nat ->
    exists lr' p, ld_loop fuel n rnd indptr indices data ows iws sls labels res st 0%nat = KOk (lr', p) /\
      (p <= S (m ^ n))%nat /\
      length lr' = n /\ Forall (fun l => (l < m)%nat) lr' /\ refines lr' /\ robj (r_lr st) <= robj lr'.
  Proof.
    intros HJ Hf. pose proof (above_le g ows iws res m (robj (r_lr st))) as Hab. rewrite Hg in Hab.
    apply ld_loop_terminates; [exact HJ | unfold rabove; lia | unfold rabove; lia | apply Qle_refl].
  Qed.
End Leiden.

