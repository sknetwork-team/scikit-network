(** Front end of get_distances / get_shortest_path (Model/Bfs.v): transposition, the bipartite block
    graph, the initial mask, the error branches and the split of the result; plus soundness and
    completeness of the brute-force validator [dist_ok]. *)
From Coq Require Import Permutation.
From SKN Require Import Base.Util Model.Bfs Proofs.BfsProofs.
Set Warnings "-notation-overridden".

Definition wf_pmat (m : pmat) : Prop :=
  forall i j, In j (row (p_rows m) i) -> j < p_ncol m.

Lemma transpose_nrow m : p_nrow (transpose m) = p_ncol m.
Proof. unfold p_nrow, transpose. cbn [p_rows]. rewrite map_length, seq_length. reflexivity. Qed.

Lemma transpose_ncol m : p_ncol (transpose m) = p_nrow m.
Proof. reflexivity. Qed.

Lemma row_transpose m j : j < p_ncol m ->
  row (p_rows (transpose m)) j =
  filter (fun i => memn j (row (p_rows m) i)) (seq 0 (p_nrow m)).
Proof.
  intros Hj. unfold row at 1, transpose. cbn [p_rows].
  rewrite nth_map_seq by exact Hj. reflexivity.
Qed.

(** Holds for every pattern matrix (no well-formedness needed). *)
Lemma transpose_edges m i j :
  In i (row (p_rows (transpose m)) j) <->
  i < p_nrow m /\ j < p_ncol m /\ In j (row (p_rows m) i).
Proof.
  split.
  - intros H. pose proof (row_nonempty_lt _ _ _ H) as Hj.
    fold (p_nrow (transpose m)) in Hj. rewrite transpose_nrow in Hj.
    rewrite row_transpose in H by exact Hj.
    apply filter_In in H. destruct H as [Hi Hm].
    apply in_seq in Hi. apply memn_In in Hm. repeat split; [lia|exact Hj|exact Hm].
  - intros [Hi [Hj Hin]]. rewrite row_transpose by exact Hj.
    apply filter_In. split; [apply in_seq; lia | apply memn_In; exact Hin].
Qed.

Lemma wf_transpose m : wf_pmat (transpose m).
Proof. intros j i H. apply transpose_edges in H. rewrite transpose_ncol. tauto. Qed.

Lemma block_length m : length (block_undirected m) = p_nrow m + p_ncol m.
Proof.
  unfold block_undirected. rewrite app_length, map_length.
  fold (p_nrow m). fold (p_nrow (transpose m)). rewrite transpose_nrow. reflexivity.
Qed.

Lemma row_block_lo m u : u < p_nrow m ->
  row (block_undirected m) u = map (fun j => p_nrow m + j) (row (p_rows m) u).
Proof.
  intros Hu. unfold row, block_undirected.
  rewrite app_nth1 by (rewrite map_length; exact Hu).
  apply (nth_map_lt (fun r => map (fun j => p_nrow m + j) r)). exact Hu.
Qed.

Lemma row_block_hi m j :
  row (block_undirected m) (p_nrow m + j) = row (p_rows (transpose m)) j.
Proof.
  unfold row, block_undirected.
  rewrite app_nth2 by (rewrite map_length; fold (p_nrow m); lia).
  rewrite map_length. fold (p_nrow m). f_equal. lia.
Qed.

Lemma wf_block m : wf_pmat m -> wf_graph (block_undirected m).
Proof.
  intros Hwf u v H. rewrite block_length. destruct (Nat.lt_ge_cases u (p_nrow m)) as [L|L].
  - rewrite row_block_lo in H by exact L. apply in_map_iff in H. destruct H as [j [E H]].
    pose proof (Hwf _ _ H). lia.
  - replace u with (p_nrow m + (u - p_nrow m)) in H by lia.
    rewrite row_block_hi, transpose_edges in H. lia.
Qed.

Lemma block_edges_iff m u v :
  wf_pmat m ->
  (In v (row (block_undirected m) u) <->
   (exists j, u < p_nrow m /\ v = p_nrow m + j /\ In j (row (p_rows m) u)) \/
   (exists j, u = p_nrow m + j /\ v < p_nrow m /\ In j (row (p_rows m) v))).
Proof.
  intros Hwf. destruct (Nat.lt_ge_cases u (p_nrow m)) as [L|L].
  - rewrite row_block_lo by exact L. rewrite in_map_iff. split.
    + intros [j [E H]]. left. exists j. split; [exact L|]. split; [symmetry; exact E|exact H].
    + intros [[j [_ [E H]]]|[j [E _]]]; [|lia]. exists j. split; [symmetry; exact E|exact H].
  - replace u with (p_nrow m + (u - p_nrow m)) at 1 by lia.
    rewrite row_block_hi, transpose_edges. split.
    + intros [Hv [_ H]]. right. exists (u - p_nrow m). split; [lia|]. split; [exact Hv|exact H].
    + intros [[j [Hu _]]|[j [E [Hv H]]]]; [lia|].
      replace (u - p_nrow m) with j by lia. split; [exact Hv|]. split; [exact (Hwf _ _ H)|exact H].
Qed.

Lemma block_symmetric m u v :
  wf_pmat m -> In v (row (block_undirected m) u) -> In u (row (block_undirected m) v).
Proof.
  intros Hwf. rewrite !(block_edges_iff m _ _ Hwf).
  intros [[j [Hu [E H]]]|[j [E [Hv H]]]].
  - right. exists j. split; [exact E|]. split; [exact Hu|exact H].
  - left. exists j. split; [exact Hv|]. split; [exact E|exact H].
Qed.

Lemma nthb_map_seq (f : nat -> bool) n v : nthb (map f (seq 0 n)) v = true <-> v < n /\ f v = true.
Proof.
  unfold nthb. destruct (Nat.lt_ge_cases v n) as [L|L].
  - rewrite nth_map_seq by exact L. tauto.
  - rewrite nth_overflow by (rewrite map_length, seq_length; exact L).
    split; [discriminate|]. intros [H _]. lia.
Qed.

Lemma nthb_ext (l l' : list bool) :
  length l = length l' -> (forall v, nthb l v = true <-> nthb l' v = true) -> l = l'.
Proof.
  intros Hl H. apply nth_ext with (d := false) (d' := false); [exact Hl|].
  intros v _. fold (nthb l v). fold (nthb l' v).
  destruct (nthb l v) eqn:E1.
  - symmetry. apply H. exact E1.
  - destruct (nthb l' v) eqn:E2; [|reflexivity]. apply H in E2. congruence.
Qed.

Lemma forallb_ltb_spec n off idx :
  forallb (fun i => Nat.ltb (off + i) n) idx = true <-> forall i, In i idx -> off + i < n.
Proof.
  rewrite forallb_forall. split; intros H i Hi; apply Nat.ltb_lt; exact (H i Hi).
Qed.

Lemma set_mask_ok n off idx mask :
  (forall i, In i idx -> off + i < n) ->
  set_mask n off idx mask =
  Ok (map (fun v => nthb mask v || memn v (map (fun i => off + i) idx)) (seq 0 n)).
Proof.
  intros H. unfold set_mask.
  rewrite (proj2 (forallb_ltb_spec n off idx) H). reflexivity.
Qed.

Lemma set_mask_err n off idx mask i :
  In i idx -> n <= off + i -> set_mask n off idx mask = Err IndexError.
Proof.
  intros Hi Hn. unfold set_mask.
  destruct (forallb (fun i => Nat.ltb (off + i) n) idx) eqn:E; [|reflexivity].
  pose proof (proj1 (forallb_ltb_spec n off idx) E i Hi). lia.
Qed.

Lemma in_range_dec n off idx :
  {forall i, In i idx -> off + i < n} + {exists i, In i idx /\ n <= off + i}.
Proof.
  destruct (Forall_Exists_dec (fun i => off + i < n) (fun i => lt_dec (off + i) n) idx) as [H|H].
  - left. apply Forall_forall. exact H.
  - right. apply Exists_exists in H. destruct H as [i [Hi Hn]]. exists i. split; [exact Hi|lia].
Qed.

Theorem set_mask_spec n off idx mask :
  (forall mask', set_mask n off idx mask = Ok mask' <->
     (forall i, In i idx -> off + i < n) /\
     length mask' = n /\
     forall v, (nthb mask' v = true <->
                v < n /\ (nthb mask v = true \/ exists i, In i idx /\ v = off + i))) /\
  (set_mask n off idx mask = Err IndexError <-> exists i, In i idx /\ n <= off + i) /\
  (forall e, set_mask n off idx mask = Err e -> e = IndexError).
Proof.
  assert (Hchar : forall v,
            nthb (map (fun v => nthb mask v || memn v (map (fun i => off + i) idx)) (seq 0 n)) v = true <->
            v < n /\ (nthb mask v = true \/ exists i, In i idx /\ v = off + i)).
  { intros v. rewrite nthb_map_seq, orb_true_iff, memn_In, in_map_iff.
    split.
    - intros [L [H|[i [E H]]]]; (split; [exact L|]); [left; exact H | right; exists i; auto].
    - intros [L [H|[i [H E]]]]; (split; [exact L|]); [left; exact H | right; exists i; auto]. }
  split; [|split].
  - intros mask'. split.
    + intros H. destruct (in_range_dec n off idx) as [Hr|[i [Hi Hn]]].
      * rewrite set_mask_ok in H by exact Hr. injection H as H. subst mask'.
        split; [exact Hr|]. split; [rewrite map_length, seq_length; reflexivity|exact Hchar].
      * rewrite (set_mask_err n off idx mask i Hi Hn) in H. discriminate.
    + intros [Hr [Hl Hc]]. rewrite set_mask_ok by exact Hr. f_equal. apply nthb_ext.
      * rewrite map_length, seq_length. symmetry. exact Hl.
      * intros v. rewrite Hchar, Hc. reflexivity.
  - split.
    + intros H. destruct (in_range_dec n off idx) as [Hr|Hx]; [|exact Hx].
      rewrite set_mask_ok in H by exact Hr. discriminate.
    + intros [i [Hi Hn]]. exact (set_mask_err n off idx mask i Hi Hn).
  - intros e H. unfold set_mask in H.
    destruct (forallb (fun i => Nat.ltb (off + i) n) idx); [discriminate|].
    injection H as H. symmetry. exact H.
Qed.

Definition olist {A} (o : option (list A)) : list A :=
  match o with Some l => l | None => [] end.

(** Boolean indicator vector of a list of nodes. *)
Definition mask_of (n : nat) (nodes : list nat) : list bool :=
  map (fun v => memn v nodes) (seq 0 n).

(** The matrix, the bipartite decision, the graph and the source nodes of a call. *)
Definition gd_matrix (m0 : pmat) (tr : bool) : pmat := if tr then transpose m0 else m0.

Definition gd_bipartite (m : pmat) (sr sc : option (list nat)) (fb : bool) : bool :=
  (match sr, sc with None, None => fb | _, _ => true end) ||
  negb (Nat.eqb (p_nrow m) (p_ncol m)).

Definition gd_graph (m : pmat) (bip : bool) : graph :=
  if bip then block_undirected m else p_rows m.

Definition gd_rows (s sr : option (list nat)) : option (list nat) :=
  match s with Some x => Some x | None => sr end.

Definition gd_nodes (m : pmat) (bip : bool) (s sr sc : option (list nat)) : list nat :=
  if bip then olist (gd_rows s sr) ++ map (fun j => p_nrow m + j) (olist sc) else olist s.

Definition gd_value_error (bip : bool) (s sr sc : option (list nat)) : Prop :=
  (bip = false /\ s = None) \/
  (bip = true /\ s <> None /\ sr <> None) \/
  (bip = true /\ s = None /\ sr = None /\ sc = None).

Definition gd_index_error (G : graph) (nodes : list nat) : Prop :=
  exists v, In v nodes /\ length G <= v.

Lemma mask_of_length n nodes : length (mask_of n nodes) = n.
Proof. unfold mask_of. rewrite map_length, seq_length. reflexivity. Qed.

Lemma nthb_mask_of n nodes v :
  nthb (mask_of n nodes) v = true <-> v < n /\ In v nodes.
Proof. unfold mask_of. rewrite nthb_map_seq, memn_In. reflexivity. Qed.

Lemma nthb_mask_of_lt n nodes v : v < n -> nthb (mask_of n nodes) v = memn v nodes.
Proof. intros L. unfold mask_of, nthb. rewrite nth_map_seq by exact L. reflexivity. Qed.

Lemma mask_of_nil n : mask_of n [] = repeat false n.
Proof.
  unfold mask_of. cbn [memn existsb]. generalize 0.
  induction n as [|n IH]; intros a; simpl; [reflexivity|]. rewrite IH. reflexivity.
Qed.

Lemma memn_app v l1 l2 : memn v (l1 ++ l2) = memn v l1 || memn v l2.
Proof. unfold memn. apply existsb_app. Qed.

Lemma set_mask_on_mask n off idx nodes :
  (forall j, In j idx -> off + j < n) ->
  set_mask n off idx (mask_of n nodes) = Ok (mask_of n (nodes ++ map (fun j => off + j) idx)).
Proof.
  intros H. rewrite set_mask_ok by exact H. f_equal. unfold mask_of at 2.
  apply map_ext_in. intros v Hv. apply in_seq in Hv.
  rewrite nthb_mask_of_lt by lia. rewrite memn_app. reflexivity.
Qed.

(** The bipartite mask: rows first (offset 0), then columns (offset n_row). *)
Definition bip_mask (n n_row : nat) (rows cols : option (list nat)) : result (list bool) :=
  match (match rows with Some s => set_mask n 0 s (repeat false n) | None => Ok (repeat false n) end) with
  | Err e => Err e
  | Ok mk => match cols with Some s => set_mask n n_row s mk | None => Ok mk end
  end.

(** One optional stage [mask[off + idx] = 1] on the indicator vector of [nodes]. *)
Lemma mask_stage n off (o : option (list nat)) nodes :
  let r := match o with Some s => set_mask n off s (mask_of n nodes) | None => Ok (mask_of n nodes) end in
  ((forall j, In j (olist o) -> off + j < n) /\
   r = Ok (mask_of n (nodes ++ map (fun j => off + j) (olist o)))) \/
  ((exists j, In j (olist o) /\ n <= off + j) /\ r = Err IndexError).
Proof.
  destruct o as [s|]; cbn [olist].
  - destruct (in_range_dec n off s) as [Hr|[j [Hj Hn]]].
    + left. split; [exact Hr | apply set_mask_on_mask; exact Hr].
    + right. split; [exists j; split; assumption | exact (set_mask_err _ _ _ _ j Hj Hn)].
  - left. split; [intros j []|]. cbn [map]. rewrite app_nil_r. reflexivity.
Qed.

Lemma bip_mask_cases n n_row rows cols :
  let nodes := olist rows ++ map (fun j => n_row + j) (olist cols) in
  ((forall v, In v nodes -> v < n) /\ bip_mask n n_row rows cols = Ok (mask_of n nodes)) \/
  ((exists v, In v nodes /\ n <= v) /\ bip_mask n n_row rows cols = Err IndexError).
Proof.
  intros nodes. unfold bip_mask. rewrite <- mask_of_nil.
  destruct (mask_stage n 0 rows []) as [[Hr E1]|[[i [Hi Hn]] E1]]; rewrite E1.
  - cbn [app Nat.add]. rewrite map_id.
    destruct (mask_stage n n_row cols (olist rows)) as [[Hc E2]|[[j [Hj Hn]] E2]]; rewrite E2.
    + left. split; [|reflexivity]. intros v Hv. apply in_app_or in Hv. destruct Hv as [Hv|Hv].
      * exact (Hr v Hv).
      * apply in_map_iff in Hv. destruct Hv as [j [E Hj]]. subst v. exact (Hc j Hj).
    + right. split; [|reflexivity]. exists (n_row + j). split; [|exact Hn].
      apply in_or_app. right. apply in_map. exact Hj.
  - right. split; [|reflexivity]. exists i. split; [|exact Hn]. apply in_or_app. left. exact Hi.
Qed.

(** * get_distances refactored: the ValueError test first, then one mask over rows and columns
    (an ordinary graph has its sources as rows and no columns) *)

Definition gd_verr_b (bip : bool) (s sr sc : option (list nat)) : bool :=
  match s, sr, sc with
  | Some _, Some _, _ => bip
  | Some _, None, _ => false
  | None, None, None => true
  | None, _, _ => negb bip
  end.

Lemma gd_verr_b_iff bip s sr sc : gd_verr_b bip s sr sc = true <-> gd_value_error bip s sr sc.
Proof.
  unfold gd_value_error. split.
  - destruct s as [s|], sr as [r|]; cbn.
    + intros ->. right; left. repeat split; discriminate.
    + discriminate.
    + intros H. apply negb_true_iff in H. left. split; [exact H|reflexivity].
    + destruct sc as [c|]; intros H.
      * apply negb_true_iff in H. left. split; [exact H|reflexivity].
      * destruct bip; [right; right | left]; repeat split; reflexivity.
  - intros [[-> ->]|[[-> [Hs Hr]]|[-> [-> [-> ->]]]]].
    + destruct sr, sc; reflexivity.
    + destruct s; [|contradiction]. destruct sr; [|contradiction]. reflexivity.
    + reflexivity.
Qed.

Definition gd_rmask (m : pmat) (bip : bool) (s sr sc : option (list nat)) : result (list bool) :=
  if gd_verr_b bip s sr sc then Err ValueError
  else bip_mask (length (gd_graph m bip)) (p_nrow m)
                (if bip then gd_rows s sr else s) (if bip then sc else None).

Definition gd_core (m : pmat) (bip : bool) (s sr sc : option (list nat))
  : result (list Z * option (list Z)) :=
  match gd_rmask m bip s sr sc with
  | Err e => Err e
  | Ok mk =>
      match bfs (gd_graph m bip) mk with
      | None => Err OutOfFuel
      | Some dist =>
          if bip then Ok (firstn (p_nrow m) dist, Some (skipn (p_nrow m) dist)) else Ok (dist, None)
      end
  end.

Lemma get_distances_unfold m0 s sr sc tr fb :
  get_distances m0 s sr sc tr fb =
  gd_core (gd_matrix m0 tr) (gd_bipartite (gd_matrix m0 tr) sr sc fb) s sr sc.
Proof.
  destruct s as [s|], sr as [r|], sc as [c|];
    unfold get_distances, gd_core, gd_rmask, gd_verr_b, gd_bipartite, gd_graph, gd_rows, bip_mask;
    fold (gd_matrix m0 tr); cbn [orb negb]; try reflexivity;
    destruct (fb || negb (p_nrow (gd_matrix m0 tr) =? p_ncol (gd_matrix m0 tr))); try reflexivity;
    destruct (set_mask _ 0 s _); reflexivity.
Qed.

Lemma gd_rmask_cases m bip s sr sc :
  let n := length (gd_graph m bip) in
  let nodes := gd_nodes m bip s sr sc in
  (gd_value_error bip s sr sc /\ gd_rmask m bip s sr sc = Err ValueError) \/
  (~ gd_value_error bip s sr sc /\ gd_index_error (gd_graph m bip) nodes /\
   gd_rmask m bip s sr sc = Err IndexError) \/
  (~ gd_value_error bip s sr sc /\ (forall v, In v nodes -> v < n) /\
   gd_rmask m bip s sr sc = Ok (mask_of n nodes)).
Proof.
  intros n nodes. unfold gd_index_error, gd_rmask. fold n.
  destruct (gd_verr_b bip s sr sc) eqn:Ev.
  - left. split; [apply gd_verr_b_iff; exact Ev | reflexivity].
  - right. assert (Hve : ~ gd_value_error bip s sr sc).
    { rewrite <- gd_verr_b_iff, Ev. discriminate. }
    assert (En : olist (if bip then gd_rows s sr else s) ++
                 map (fun j => p_nrow m + j) (olist (if bip then sc else None)) = nodes).
    { unfold nodes, gd_nodes. destruct bip; [reflexivity | apply app_nil_r]. }
    pose proof (bip_mask_cases n (p_nrow m) (if bip then gd_rows s sr else s) (if bip then sc else None))
      as Hc.
    cbv zeta in Hc. rewrite En in Hc. destruct Hc as [[Hr E]|[Hx E]]; [right | left]; auto.
Qed.

Lemma gd_graph_length m bip :
  length (gd_graph m bip) = if bip then p_nrow m + p_ncol m else p_nrow m.
Proof. destruct bip; cbn [gd_graph]; [apply block_length|reflexivity]. Qed.

Lemma gd_core_cases m bip s sr sc :
  let G := gd_graph m bip in
  let nodes := gd_nodes m bip s sr sc in
  (gd_value_error bip s sr sc /\ gd_core m bip s sr sc = Err ValueError) \/
  (~ gd_value_error bip s sr sc /\ gd_index_error G nodes /\
   gd_core m bip s sr sc = Err IndexError) \/
  (~ gd_value_error bip s sr sc /\ (forall v, In v nodes -> v < length G) /\
   exists d c, bfs G (mask_of (length G) nodes) = Some (d ++ olist c) /\
     Final G (mask_of (length G) nodes) (d ++ olist c) /\
     gd_core m bip s sr sc = Ok (d, c) /\
     if bip then length d = p_nrow m /\ exists c', c = Some c' /\ length c' = p_ncol m else c = None).
Proof.
  intros G nodes. unfold gd_core.
  destruct (gd_rmask_cases m bip s sr sc) as [[Hve E]|[[Hve [Hx E]]|[Hve [Hr E]]]].
  - left. rewrite E. auto.
  - right; left. rewrite E. auto.
  - right; right. rewrite E. split; [exact Hve|]. split; [exact Hr|].
    fold G. fold nodes.
    destruct (bfs_exact G (mask_of (length G) nodes) (mask_of_length _ _)) as [dist [Hb [Hl Hf]]].
    rewrite Hb. pose proof (gd_graph_length m bip) as HlG. fold G in HlG.
    destruct bip.
    + exists (firstn (p_nrow m) dist), (Some (skipn (p_nrow m) dist)). cbn [olist].
      rewrite firstn_skipn. split; [reflexivity|]. split; [split; [exact Hl|exact Hf]|].
      split; [reflexivity|]. split; [rewrite firstn_length; lia|].
      exists (skipn (p_nrow m) dist). split; [reflexivity|]. rewrite skipn_length. lia.
    + exists dist, None. cbn [olist]. rewrite app_nil_r.
      split; [reflexivity|]. split; [split; [exact Hl|exact Hf]|]. split; reflexivity.
Qed.

Theorem get_distances_full_exact m0 s sr sc tr fb d c :
  get_distances m0 s sr sc tr fb = Ok (d, c) ->
  let m := gd_matrix m0 tr in
  let bip := gd_bipartite m sr sc fb in
  let G := gd_graph m bip in
  let nodes := gd_nodes m bip s sr sc in
  let src := mask_of (length G) nodes in
  let dist := d ++ olist c in
  ~ gd_value_error bip s sr sc /\
  (forall v, In v nodes -> v < length G) /\
  (forall v, nthb src v = true <-> In v nodes) /\
  (if bip
   then length G = p_nrow m + p_ncol m /\ length d = p_nrow m /\
        exists c', c = Some c' /\ length c' = p_ncol m
   else length G = p_nrow m /\ p_nrow m = p_ncol m /\ c = None) /\
  bfs G src = Some dist /\ Final G src dist.
Proof.
  intros H m bip G nodes src dist.
  rewrite get_distances_unfold in H. fold m in H. fold bip in H.
  destruct (gd_core_cases m bip s sr sc)
    as [[_ E]|[[_ [_ E]]|[Hve [Hr [d' [c' [Hb [HF [E Hshape]]]]]]]]];
    rewrite E in H; try discriminate.
  injection H as -> ->.
  split; [exact Hve|]. split; [exact Hr|]. split.
  { intros v. unfold src. rewrite nthb_mask_of. split; [tauto|]. intros Hv. split; [apply Hr|]; exact Hv. }
  split; [|split; [exact Hb|exact HF]].
  pose proof (gd_graph_length m bip) as HlG. fold G in HlG.
  destruct bip eqn:Eb.
  - split; [exact HlG|exact Hshape].
  - split; [exact HlG|]. split; [|exact Hshape].
    unfold bip, gd_bipartite in Eb. apply orb_false_iff in Eb. destruct Eb as [_ Eb].
    apply negb_false_iff in Eb. apply Nat.eqb_eq in Eb. exact Eb.
Qed.

(** Error branches, and totality: every call ends in exactly one of the three outcomes. *)
Theorem get_distances_errors m0 s sr sc tr fb :
  let m := gd_matrix m0 tr in
  let bip := gd_bipartite m sr sc fb in
  let G := gd_graph m bip in
  let nodes := gd_nodes m bip s sr sc in
  (get_distances m0 s sr sc tr fb = Err ValueError <-> gd_value_error bip s sr sc) /\
  (get_distances m0 s sr sc tr fb = Err IndexError <->
     ~ gd_value_error bip s sr sc /\ gd_index_error G nodes) /\
  get_distances m0 s sr sc tr fb <> Err OutOfFuel /\
  ((exists d c, get_distances m0 s sr sc tr fb = Ok (d, c)) <->
     ~ gd_value_error bip s sr sc /\ forall v, In v nodes -> v < length G).
Proof.
  intros m bip G nodes. subst G nodes. rewrite get_distances_unfold. fold m. fold bip.
  destruct (gd_core_cases m bip s sr sc)
    as [[Hve E]|[[Hve [Hx E]]|[Hve [Hr [d [c [_ [_ [E _]]]]]]]]]; rewrite E.
  - split; [split; [intros _; exact Hve | reflexivity]|].
    split; [split; [discriminate | intros [Hn _]; contradiction]|].
    split; [discriminate|].
    split; [intros [d [c H]]; discriminate H | intros [Hn _]; contradiction].
  - split; [split; [discriminate | intros H; contradiction]|].
    split; [split; [intros _; split; assumption | reflexivity]|].
    split; [discriminate|].
    split; [intros [d [c H]]; discriminate H|].
    intros [_ Hr]. destruct Hx as [v [Hv Hn]]. specialize (Hr v Hv). lia.
  - split; [split; [discriminate | intros H; contradiction]|].
    split; [split; [discriminate | intros [_ [v [Hv Hn]]]; specialize (Hr v Hv); lia]|].
    split; [discriminate|].
    split; [intros _; split; assumption | intros _; exists d, c; reflexivity].
Qed.

Lemma wf_gd_graph m bip :
  wf_pmat m -> (bip = false -> p_nrow m = p_ncol m) -> wf_graph (gd_graph m bip).
Proof.
  intros Hwf Hsq. destruct bip; cbn [gd_graph].
  - apply wf_block. exact Hwf.
  - intros u v H. fold (p_nrow m). rewrite (Hsq eq_refl). exact (Hwf _ _ H).
Qed.

Theorem get_shortest_path_full_exact m s sr sc fb gr :
  wf_pmat m ->
  get_shortest_path false true m s sr sc fb = Ok gr ->
  let bip := gd_bipartite m sr sc fb in
  let G := gd_graph m bip in
  let nodes := gd_nodes m bip s sr sc in
  let src := mask_of (length G) nodes in
  exists dist,
    bfs G src = Some dist /\
    length dist = length G /\
    (forall v, v < length G ->
       (forall k, nthz dist v = Z.of_nat k <-> hop G src v k) /\
       (nthz dist v = (-1)%Z <-> forall k, ~ reachk G src k v)) /\
    length gr = length G /\
    forall i j, i < length G ->
      (In j (row gr i) <->
       In j (row G i) /\ (0 <= nthz dist i)%Z /\ nthz dist j = (nthz dist i + 1)%Z) /\
      (In j (row gr i) <->
       In j (row G i) /\ exists k, hop G src i k /\ hop G src j (S k)).
Proof.
  intros Hwf H bip G nodes src.
  unfold get_shortest_path in H. cbn [andb] in H.
  destruct (get_distances m s sr sc false fb) as [[d c]|e] eqn:E; [|discriminate].
  destruct (get_distances_full_exact m s sr sc false fb d c E) as [_ [_ [_ [Hshape [Hb [Hl Hf]]]]]].
  cbn [gd_matrix] in Hshape, Hb, Hl, Hf. fold bip G nodes src in Hshape, Hb, Hl, Hf.
  assert (HwfG : wf_graph G).
  { apply wf_gd_graph; [exact Hwf|]. intros Eb. fold bip in Eb. rewrite Eb in Hshape.
    exact (proj1 (proj2 Hshape)). }
  assert (Hgr : gr = get_dag G (d ++ olist c)).
  { unfold G, gd_graph. destruct bip.
    - destruct Hshape as [_ [_ [c' [-> _]]]]. injection H as <-. reflexivity.
    - destruct Hshape as [_ [_ ->]]. injection H as <-. cbn [olist]. rewrite app_nil_r. reflexivity. }
  subst gr.
  exists (d ++ olist c). split; [exact Hb|]. split; [exact Hl|]. split; [exact Hf|].
  split; [apply get_dag_length|].
  intros i j Hi.
  pose proof (shortest_path_edges G src _ i j HwfG (mask_of_length _ _) Hb Hi) as H1.
  split; [exact H1|]. rewrite H1. split.
  - intros [Hin [H0 He]]. split; [exact Hin|].
    pose proof (HwfG _ _ Hin) as Hj.
    exists (Z.to_nat (nthz (d ++ olist c) i)). split.
    + apply (proj1 (Hf i Hi)). lia.
    + apply (proj1 (Hf j Hj)). lia.
  - intros [Hin [k [Hhi Hhj]]]. split; [exact Hin|].
    pose proof (HwfG _ _ Hin) as Hj.
    apply (proj1 (Hf i Hi)) in Hhi. apply (proj1 (Hf j Hj)) in Hhj. lia.
Qed.

Lemma get_shortest_path_errors ft ff m s sr sc fb e :
  get_shortest_path ft ff m s sr sc fb = Err e <->
  get_distances m s sr sc (ft && fb) (ff && fb) = Err e.
Proof.
  unfold get_shortest_path.
  destruct (get_distances m s sr sc (ft && fb) (ff && fb)) as [[d [c|]]|e']; split; intros H;
    try discriminate; injection H as H; subst; reflexivity.
Qed.

Lemma reachk_b_length g src k : length (reachk_b g src k) = length g.
Proof. destruct k; cbn [reachk_b]; rewrite map_length, seq_length; reflexivity. Qed.

Lemma reachk_b_spec g src k : forall v, v < length g ->
  (nthb (reachk_b g src k) v = true <-> reachk g src k v).
Proof.
  induction k as [|k IH]; intros v Hv.
  - cbn [reachk_b reachk]. unfold nthb at 1. rewrite nth_map_seq by exact Hv. reflexivity.
  - cbn [reachk_b reachk]. unfold nthb at 1. rewrite nth_map_seq by exact Hv.
    rewrite existsb_exists. split.
    + intros [u [Hu H]]. apply in_seq in Hu. apply andb_true_iff in H. destruct H as [H1 H2].
      exists u. split; [apply IH; [lia|exact H1] | apply memn_In; exact H2].
    + intros [u [H1 H2]]. pose proof (row_nonempty_lt _ _ _ H2) as Hu.
      exists u. split; [apply in_seq; lia|].
      apply andb_true_iff. split; [apply IH; assumption | apply memn_In; exact H2].
Qed.

Lemma filter_seq_head (p : nat -> bool) len : forall a k t,
  filter p (seq a len) = k :: t ->
  p k = true /\ a <= k < a + len /\ forall j, a <= j < k -> p j = false.
Proof.
  induction len as [|len IH]; intros a k t H; [discriminate|].
  cbn [seq filter] in H. destruct (p a) eqn:E.
  - injection H as H _. subst k. split; [exact E|]. split; [lia|]. intros j Hj. lia.
  - destruct (IH _ _ _ H) as [Hp [Hr Hm]]. split; [exact Hp|]. split; [lia|].
    intros j Hj. destruct (Nat.eq_dec j a) as [->|Ne]; [exact E|]. apply Hm. lia.
Qed.

Lemma filter_seq_nil (p : nat -> bool) a len :
  filter p (seq a len) = [] -> forall j, a <= j < a + len -> p j = false.
Proof.
  intros H j Hj. destruct (p j) eqn:E; [|reflexivity].
  assert (Hin : In j (filter p (seq a len))).
  { apply filter_In. split; [apply in_seq; lia|exact E]. }
  rewrite H in Hin. destruct Hin.
Qed.

(** What the filtered range says about [v]: its first element is the hop distance; if it is empty, no step
    below [len] reaches [v]. *)
Lemma reach_filter_spec g src v len : v < length g ->
  match filter (fun k => nthb (reachk_b g src k) v) (seq 0 len) with
  | [] => forall k, k < len -> ~ reachk g src k v
  | k0 :: _ => hop g src v k0 /\ k0 < len
  end.
Proof.
  intros Hv. destruct (filter _ (seq 0 len)) as [|k0 t] eqn:E.
  - intros k Hk Hr. apply (reachk_b_spec g src k v Hv) in Hr.
    rewrite (filter_seq_nil _ 0 len E k) in Hr by lia. discriminate.
  - destruct (filter_seq_head _ _ _ _ _ E) as [Hp [Hr Hm]]. cbv beta in Hp, Hm.
    split; [split|lia].
    + apply (reachk_b_spec g src k0 v Hv). exact Hp.
    + intros j Hj Hrj. apply (reachk_b_spec g src j v Hv) in Hrj.
      rewrite (Hm j ltac:(lia)) in Hrj. discriminate.
Qed.

Lemma reach_least g src v k : v < length g -> reachk g src k v ->
  exists k0, k0 <= k /\ hop g src v k0.
Proof.
  intros Hv Hr. pose proof (reach_filter_spec g src v (S k) Hv) as Hs.
  destruct (filter _ _) as [|k0 t].
  - exfalso. exact (Hs k (Nat.lt_succ_diag_r k) Hr).
  - exists k0. split; [lia|exact (proj1 Hs)].
Qed.

Lemma hop_pred g src v k : hop g src v (S k) ->
  exists u, hop g src u k /\ In v (row g u).
Proof.
  intros [Hr Hm]. cbn [reachk] in Hr. destruct Hr as [u [Hu Hin]].
  exists u. split; [|exact Hin]. split; [exact Hu|].
  intros j Hj Hrj. apply (Hm (S j)); [lia|]. cbn [reachk]. exists u. split; assumption.
Qed.

(** A shortest walk visits pairwise distinct nodes (their hop values differ). *)
Lemma hop_chain g src : forall k v, hop g src v k -> v < length g ->
  exists l, length l = S k /\ NoDup l /\
    forall x, In x l -> x < length g /\ exists j, j <= k /\ hop g src x j.
Proof.
  induction k as [|k IH]; intros v Hh Hv.
  - exists [v]. split; [reflexivity|]. split.
    + constructor; [intros []|constructor].
    + intros x [E|[]]. subst x. split; [exact Hv|]. exists 0. split; [lia|exact Hh].
  - destruct (hop_pred _ _ _ _ Hh) as [u [Hu Hin]].
    pose proof (row_nonempty_lt _ _ _ Hin) as Hun.
    destruct (IH u Hu Hun) as [l [Hl [Hnd Hall]]].
    exists (v :: l). split; [cbn [length]; lia|]. split.
    + constructor; [|exact Hnd]. intros Hvl.
      destruct (Hall v Hvl) as [_ [j [Hj Hhj]]].
      pose proof (hop_unique _ _ _ _ _ Hh Hhj). lia.
    + intros x [E|Hx].
      * subst x. split; [exact Hv|]. exists (S k). split; [lia|exact Hh].
      * destruct (Hall x Hx) as [Hxn [j [Hj Hhj]]]. split; [exact Hxn|].
        exists j. split; [lia|exact Hhj].
Qed.

Lemma hop_lt g src v k : hop g src v k -> v < length g -> k < length g.
Proof.
  intros Hh Hv. destruct (hop_chain g src k v Hh Hv) as [l [Hl [Hnd Hall]]].
  assert (Hincl : incl l (seq 0 (length g))).
  { intros x Hx. apply in_seq. destruct (Hall x Hx) as [Hxn _]. lia. }
  pose proof (NoDup_incl_length Hnd Hincl) as Hle. rewrite seq_length in Hle. lia.
Qed.

Definition hits (g : graph) (src : list bool) (v : nat) : list nat :=
  filter (fun k => nthb (reachk_b g src k) v) (seq 0 (S (length g))).

Lemma dist_ok_unfold g src dist :
  dist_ok g src dist =
  Nat.eqb (length dist) (length g) &&
  forallb (fun v => match hits g src v with
                    | [] => (nthz dist v =? -1)%Z
                    | k :: _ => (nthz dist v =? Z.of_nat k)%Z
                    end) (seq 0 (length g)).
Proof. reflexivity. Qed.

Lemma hits_spec g src v : v < length g ->
  match hits g src v with
  | [] => forall k, ~ reachk g src k v
  | k :: _ => hop g src v k
  end.
Proof.
  intros Hv. unfold hits. pose proof (reach_filter_spec g src v (S (length g)) Hv) as Hs.
  destruct (filter _ _) as [|k0 t]; [|exact (proj1 Hs)].
  intros k Hr. destruct (reach_least g src v k Hv Hr) as [k0 [_ Hh]].
  pose proof (hop_lt _ _ _ _ Hh Hv) as Hlt. exact (Hs k0 ltac:(lia) (proj1 Hh)).
Qed.

Lemma dist_ok_final g src dist :
  dist_ok g src dist = true <-> Final g src dist.
Proof.
  rewrite dist_ok_unfold, andb_true_iff, Nat.eqb_eq, forallb_forall. unfold Final.
  split; intros [Hl Hf]; (split; [exact Hl|]).
  - intros v Hv. specialize (Hf v ltac:(apply in_seq; lia)).
    pose proof (hits_spec g src v Hv) as Hs.
    destruct (hits g src v) as [|k0 t]; apply Z.eqb_eq in Hf.
    + exact (final_unreached g src dist v Hs Hf).
    + exact (final_hop g src dist v k0 Hs Hf).
  - intros v Hv. apply in_seq in Hv. assert (Hvn : v < length g) by lia.
    destruct (Hf v Hvn) as [Hk Hneg].
    pose proof (hits_spec g src v Hvn) as Hs.
    destruct (hits g src v) as [|k0 t]; apply Z.eqb_eq.
    + apply Hneg. exact Hs.
    + apply Hk. exact Hs.
Qed.

Lemma final_unique g src d1 d2 : Final g src d1 -> Final g src d2 -> d1 = d2.
Proof.
  intros [Hl1 Hf1] [Hl2 Hf2].
  apply nth_ext with (d := 0%Z) (d' := 0%Z); [lia|].
  intros v Hv. rewrite Hl1 in Hv. fold (nthz d1 v). fold (nthz d2 v).
  pose proof (hits_spec g src v Hv) as Hs.
  destruct (Hf1 v Hv) as [Hk1 Hneg1]. destruct (Hf2 v Hv) as [Hk2 Hneg2].
  destruct (hits g src v) as [|k0 t].
  - rewrite (proj2 Hneg1 Hs), (proj2 Hneg2 Hs). reflexivity.
  - rewrite (proj2 (Hk1 k0) Hs), (proj2 (Hk2 k0) Hs). reflexivity.
Qed.

Corollary bfs_dist_bound g src dist v :
  length src = length g -> bfs g src = Some dist -> v < length g ->
  (-1 <= nthz dist v < Z.of_nat (length g))%Z.
Proof.
  intros Hs Hb Hv. destruct (bfs_exact g src Hs) as [dist' [Hb' [_ Hf]]].
  rewrite Hb in Hb'. injection Hb' as <-. destruct (Hf v Hv) as [Hk Hneg].
  pose proof (hits_spec g src v Hv) as Hh. destruct (hits g src v) as [|k0 t].
  - apply Hneg in Hh. lia.
  - pose proof (hop_lt _ _ _ _ Hh Hv). apply Hk in Hh. lia.
Qed.

Print Assumptions set_mask_spec.
Print Assumptions get_distances_full_exact.
Print Assumptions get_distances_errors.
Print Assumptions get_shortest_path_full_exact.
Print Assumptions bfs_dist_bound.

(** Executable well-formedness check (for concrete examples). *)
Definition wf_pmatb (m : pmat) : bool :=
  forallb (fun r => forallb (fun j => Nat.ltb j (p_ncol m)) r) (p_rows m).

Lemma wf_pmatb_sound m : wf_pmatb m = true -> wf_pmat m.
Proof.
  unfold wf_pmatb. rewrite forallb_forall. intros H i j Hin.
  pose proof (row_nonempty_lt _ _ _ Hin) as Hi.
  specialize (H (row (p_rows m) i) ltac:(unfold row; apply nth_In; exact Hi)).
  rewrite forallb_forall in H. apply Nat.ltb_lt. exact (H j Hin).
Qed.
Print Assumptions wf_pmatb_sound.
