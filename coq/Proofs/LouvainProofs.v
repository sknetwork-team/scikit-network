(** Proofs about Model/Louvain.v: the kernel's delta is the objective gain, a pass / the whole
    optimisation / the whole fit report exactly the objective increase, aggregation preserves the
    objective, clusters stay inside connected components.  Also: Leiden.fit with the refinement as an oracle
    ([refine_contract]; aggregation by the refined partition keeps the coarse objective, section
    RefinedAggregation; the levels of the loop, section LeidenLevels; the refinement's label step is in
    Proofs/LeidenProofs.v), and _post_processing (the returned labels_ describe the same partition). *)
From SKN Require Import Base.Util Model.Modularity Model.Louvain Proofs.ModularityProofs.
From Coq Require Import Lqa Setoid Morphisms Sorted.

Local Open Scope Q_scope.

Lemma qn_eq x : qn x == x.
Proof. apply Qred_correct. Qed.

Lemma upd_length {A} (l : list A) i v : length (upd l i v) = length l.
Proof. revert i; induction l as [|a t IH]; intros [|i]; simpl; auto. Qed.

Lemma nth_upd_same {A} (l : list A) i v d : (i < length l)%nat -> nth i (upd l i v) d = v.
Proof.
  revert i; induction l as [|a t IH]; intros [|i] H; simpl in *; try lia; auto. apply IH. lia.
Qed.

Lemma nth_upd_other {A} (l : list A) i j v d : j <> i -> nth j (upd l i v) d = nth j l d.
Proof.
  revert i j; induction l as [|a t IH]; intros [|i] [|j] H; simpl; auto; try congruence.
Qed.

Lemma nthq_upd_same l i v : (i < length l)%nat -> nthq (upd l i v) i = v.
Proof. apply nth_upd_same. Qed.

Lemma nthq_upd_other l i j v : j <> i -> nthq (upd l i v) j = nthq l j.
Proof. apply nth_upd_other. Qed.

(** [l[i] += d], read at [j]. *)
Lemma nthq_upd_add l i d j :
  (i < length l)%nat -> nthq (upd l i (qn (nthq l i + d))) j == nthq l j + ind (Nat.eqb i j) * d.
Proof.
  intros Hi. destruct (Nat.eqb_spec i j) as [<-|Hne]; cbn [ind].
  - rewrite nthq_upd_same by exact Hi. rewrite qn_eq. ring.
  - rewrite nthq_upd_other by congruence. ring.
Qed.

Lemma lab_upd labels i d x :
  (i < length labels)%nat -> lab (upd labels i d) x = if Nat.eqb x i then d else lab labels x.
Proof.
  intros H. unfold lab. destruct (Nat.eqb_spec x i) as [->|Hne].
  - apply nth_upd_same; exact H.
  - apply nth_upd_other; exact Hne.
Qed.

(** Unrolling a loop by this equation keeps the step function folded; unrolling it by conversion makes
    the kernel compare the accumulators [a] and [f a t], which evaluates [f]. *)
Lemma fold_left_cons {A B} (f : A -> B -> A) t s a : fold_left f (t :: s) a = fold_left f s (f a t).
Proof. reflexivity. Qed.

Lemma Qltb_lt x y : Qltb x y = true <-> x < y.
Proof.
  unfold Qltb. rewrite negb_true_iff, <- not_true_iff_false, Qle_bool_iff.
  split; [apply Qnot_le_lt|apply Qlt_not_le].
Qed.

Definition objF (n : nat) (F : nat -> nat -> Q) (L : nat -> nat) : Q :=
  qsum2 n n (fun x y => F x y * ind (Nat.eqb (L x) (L y))).

Lemma objF_ext n F L L' :
  (forall x, (x < n)%nat -> L x = L' x) -> objF n F L == objF n F L'.
Proof.
  intros H. unfold objF. apply qsum2_ext. intros x y Hx Hy. rewrite (H x Hx), (H y Hy). reflexivity.
Qed.

Lemma objF_pattern n F L L' :
  (forall x y, (x < n)%nat -> (y < n)%nat -> Nat.eqb (L x) (L y) = Nat.eqb (L' x) (L' y)) ->
  objF n F L == objF n F L'.
Proof.
  intros H. unfold objF. apply qsum2_ext. intros x y Hx Hy. rewrite (H x y Hx Hy). reflexivity.
Qed.

Lemma objF_Fext n F F' L :
  (forall x y, (x < n)%nat -> (y < n)%nat -> F x y == F' x y) -> objF n F L == objF n F' L.
Proof.
  intros H. unfold objF. apply qsum2_ext. intros x y Hx Hy. rewrite (H x y Hx Hy). reflexivity.
Qed.

Lemma qsum2_ind_row n m i (f : nat -> nat -> Q) :
  (i < n)%nat -> qsum2 n m (fun x y => ind (Nat.eqb x i) * f x y) == qsum m (f i).
Proof.
  intros Hi. unfold qsum2. rewrite <- (qsum_ind n i (fun x => qsum m (f x)) Hi).
  apply qsum_ext. intros x _. apply qsum_scal.
Qed.

Lemma qsum2_ind_col n m j (f : nat -> nat -> Q) :
  (j < m)%nat -> qsum2 n m (fun x y => ind (Nat.eqb y j) * f x y) == qsum n (fun x => f x j).
Proof. intros Hj. unfold qsum2. apply qsum_ext. intros x _. exact (qsum_ind m j (f x) Hj). Qed.

Lemma qsum2_prod n m (a b : nat -> Q) : qsum2 n m (fun i j => a i * b j) == qsum n a * qsum m b.
Proof.
  unfold qsum2. transitivity (qsum n (fun i => a i * qsum m b)).
  - apply qsum_ext. intros i _. apply qsum_scal.
  - apply qsum_scal_r.
Qed.

Section MoveGain.
  Context (n : nat) (F : nat -> nat -> Q) (L : nat -> nat) (i d : nat).
  Context (Hi : (i < n)%nat) (Hd : d <> L i).

  Let L' := fun x => if Nat.eqb x i then d else L x.
  Let G := fun y => ind (Nat.eqb (L y) d) - ind (Nat.eqb (L y) (L i)).

  Lemma move_pointwise x y :
    ind (Nat.eqb (L' x) (L' y)) - ind (Nat.eqb (L x) (L y))
    == ind (Nat.eqb x i) * ((1 - ind (Nat.eqb y i)) * G y)
       + ind (Nat.eqb y i) * ((1 - ind (Nat.eqb x i)) * G x).
  Proof.
    unfold L', G.
    destruct (Nat.eqb_spec x i) as [Ex|Ex]; destruct (Nat.eqb_spec y i) as [Ey|Ey]; subst; simpl.
    - rewrite !Nat.eqb_refl. simpl. ring.
    - rewrite (Nat.eqb_sym d (L y)), (Nat.eqb_sym (L i) (L y)). ring.
    - ring.
    - ring.
  Qed.

  Lemma move_gain :
    objF n F L' - objF n F L == qsum n (fun y => (F i y + F y i) * G y) + 2 * F i i.
  Proof.
    unfold objF. rewrite <- qsum2_minus.
    set (A := fun x y => F x y * ((1 - ind (Nat.eqb y i)) * G y)).
    set (B := fun x y => F x y * ((1 - ind (Nat.eqb x i)) * G x)).
    transitivity (qsum2 n n (fun x y => ind (Nat.eqb x i) * A x y)
                  + qsum2 n n (fun x y => ind (Nat.eqb y i) * B x y)).
    { rewrite <- qsum2_plus. apply qsum2_ext. intros x y _ _. unfold A, B.
      transitivity (F x y * (ind (Nat.eqb (L' x) (L' y)) - ind (Nat.eqb (L x) (L y)))); [ring|].
      rewrite move_pointwise. ring. }
    rewrite (qsum2_ind_row n n i A Hi), (qsum2_ind_col n n i B Hi). unfold A, B. rewrite <- qsum_plus.
    transitivity (qsum n (fun y => (F i y + F y i) * G y) - qsum n (fun y => ind (Nat.eqb y i) * ((F i y + F y i) * G y))).
    { rewrite <- qsum_minus. apply qsum_ext. intros y _. ring. }
    rewrite (qsum_ind n i (fun y => (F i y + F y i) * G y) Hi).
    unfold G. rewrite Nat.eqb_refl, ind_false by (apply Nat.eqb_neq; congruence). simpl. ring.
  Qed.
End MoveGain.

Lemma set_insert_In x y s : In x (set_insert y s) <-> x = y \/ In x s.
Proof.
  induction s as [|z t IH]; simpl.
  - split; [intros [<-|[]]|intros [->|[]]]; left; reflexivity.
  - destruct (Nat.ltb y z); simpl; [split; [intros [<-|H]|intros [->|H]]; auto|].
    destruct (Nat.eqb_spec y z) as [->|E2]; simpl; [split; [auto|intros [->|H]; auto]|].
    rewrite IH. split; [intros [H|[H|H]]|intros [H|[H|H]]]; auto.
Qed.

Lemma set_insert_sorted y s : StronglySorted lt s -> StronglySorted lt (set_insert y s).
Proof.
  induction s as [|z t IH]; intros H; simpl.
  - constructor; constructor.
  - destruct (Nat.ltb y z) eqn:E1.
    + apply Nat.ltb_lt in E1. constructor; [exact H|].
      inversion H as [|? ? Ht Hall]; subst. constructor; [exact E1|].
      eapply Forall_impl; [|exact Hall]. intros a Ha. simpl in Ha. lia.
    + apply Nat.ltb_ge in E1. destruct (Nat.eqb_spec y z) as [->|E2]; [exact H|].
      inversion H as [|? ? Ht Hall]; subst. constructor; [apply IH; exact Ht|].
      apply Forall_forall. intros a Ha. apply set_insert_In in Ha. destruct Ha as [->|Ha]; [lia|].
      rewrite Forall_forall in Hall. apply Hall. exact Ha.
Qed.

Lemma sorted_NoDup s : StronglySorted lt s -> NoDup s.
Proof.
  induction s as [|z t IH]; intros H; [constructor|].
  inversion H as [|? ? Ht Hall]; subst. constructor; [|apply IH; exact Ht].
  intros Hin. rewrite Forall_forall in Hall. specialize (Hall z Hin). lia.
Qed.

Lemma set_erase_In x y s : In x (set_erase y s) <-> In x s /\ x <> y.
Proof.
  unfold set_erase. rewrite filter_In. rewrite negb_true_iff, Nat.eqb_neq. tauto.
Qed.

Lemma set_erase_NoDup y s : NoDup s -> NoDup (set_erase y s).
Proof. intros H. unfold set_erase. apply NoDup_filter. exact H. Qed.

Lemma lin6 n (e a b io oo : nat -> Q) c1 c2 :
  qsum n (fun y => (2 * e y - c1 * io y - c2 * oo y) * (a y - b y))
  == 2 * (qsum n (fun y => e y * a y) - qsum n (fun y => e y * b y))
     - c1 * (qsum n (fun y => a y * io y) - qsum n (fun y => b y * io y))
     - c2 * (qsum n (fun y => a y * oo y) - qsum n (fun y => b y * oo y)).
Proof. induction n as [|n IH]; simpl; [ring|]. rewrite IH. ring. Qed.

Lemma distinct_fold l : forall s,
  StronglySorted lt s ->
  StronglySorted lt (fold_left (fun s x => set_insert x s) l s) /\
  (forall x, In x (fold_left (fun s x => set_insert x s) l s) <-> In x s \/ In x l).
Proof.
  induction l as [|a l IH]; intros s Hs; cbn [fold_left].
  - split; [exact Hs|]. intros x. simpl. tauto.
  - destruct (IH (set_insert a s) (set_insert_sorted a s Hs)) as [H1 H2]. split; [exact H1|].
    intros x. rewrite H2, set_insert_In. simpl. split; [intros [[->|H]|H]|intros [H|[->|H]]]; auto.
Qed.

Lemma nb_fold_fst labels r : forall s0 cw0,
  fst (fold_left (nb_step labels) r (s0, cw0))
  = fold_left (fun s x => set_insert x s) (map (fun p => lab labels (fst p)) r) s0.
Proof. induction r as [|[j w] r IH]; intros s0 cw0; [reflexivity|]. cbn [fold_left map]. apply IH. Qed.

Lemma nb_fold_snd labels r : forall s0 cw0,
  (forall j w, In (j, w) r -> (lab labels j < length cw0)%nat) ->
  let out := fold_left (nb_step labels) r (s0, cw0) in
  length (snd out) = length cw0 /\
  (forall c, nthq (snd out) c == nthq cw0 c + rsum r (fun j => ind (Nat.eqb (lab labels j) c))).
Proof.
  induction r as [|[j w] r IH]; intros s0 cw0 Hlt; cbn [fold_left].
  - split; [reflexivity|]. intros c. simpl. ring.
  - set (lt0 := lab labels j).
    assert (Hlt0 : (lt0 < length cw0)%nat) by (apply (Hlt j w); left; reflexivity).
    destruct (IH (set_insert lt0 s0) (upd cw0 lt0 (qn (nthq cw0 lt0 + w)))) as [H1 H4].
    { intros j' w' Hin. rewrite upd_length. apply (Hlt j' w'). right. exact Hin. }
    change (nb_step labels (s0, cw0) (j, w)) with (set_insert lt0 s0, upd cw0 lt0 (qn (nthq cw0 lt0 + w))).
    split; [rewrite H1; apply upd_length|].
    intros c. rewrite H4, nthq_upd_add by exact Hlt0. cbn [rsum]. fold lt0. ring.
Qed.

Lemma tgt_step_cw res ow iw dlt ocw icw a t : t_cw (tgt_step res ow iw dlt ocw icw a t) = upd (t_cw a) t 0.
Proof. unfold tgt_step. destruct (Qltb _ _); reflexivity. Qed.

Lemma tgt_step_best res ow iw dlt ocw icw a t :
  let a' := tgt_step res ow iw dlt ocw icw a t in
  let dl := qn (delta_local res ow iw dlt ocw icw (t_cw a) t) in
  (t_best a < dl /\ t_best a' = dl /\ t_label a' = t) \/
  (dl <= t_best a /\ t_best a' = t_best a /\ t_label a' = t_label a).
Proof.
  unfold tgt_step. set (dl := qn _).
  destruct (Qltb (t_best a) dl) eqn:E; [left|right]; (split; [|split; reflexivity]).
  - apply Qltb_lt. exact E.
  - destruct (Qlt_le_dec (t_best a) dl) as [H|H]; [|exact H]. apply Qltb_lt in H. congruence.
Qed.

Section Kernel.
  Context (g : wgraph) (ows iws sls : list Q) (res : Q) (k : nat).
  Let n := length g.
  Context (Hwf : wf_wgraph g) (Hsym : wsymmetric g).
  Context (Hsl : forall i, (i < n)%nat -> nthq sls i == entry g i i).

  Definition Fk (x y : nat) : Q := entry g x y - res * nthq ows x * nthq iws y.

  Lemma objective_objF labels : objective g ows iws res labels = objF n Fk (lab labels).
  Proof. reflexivity. Qed.

  Definition csum (labels : list nat) (v : list Q) (c : nat) : Q :=
    membership_T_dot n labels (nthq v) c.

  Record kinv (st : kstate) : Prop := mk_kinv {
    ki_labels : length (k_labels st) = n;
    ki_ocw_len : length (k_out_cw st) = k;
    ki_icw_len : length (k_in_cw st) = k;
    ki_cw_len : length (k_cw st) = k;
    ki_lt : forall x, (x < n)%nat -> (lab (k_labels st) x < k)%nat;
    ki_ocw : forall c, (c < k)%nat -> nthq (k_out_cw st) c == csum (k_labels st) ows c;
    ki_icw : forall c, (c < k)%nat -> nthq (k_in_cw st) c == csum (k_labels st) iws c;
    ki_cw : forall c, (c < k)%nat -> nthq (k_cw st) c == 0
  }.

  Section Target.
    Context (ow iw dlt : Q) (ocw icw cw1 : list Q) (label : nat) (S : list nat).

    Definition tgood (a : tstate) : Prop :=
      (t_label a = label /\ t_best a == 0) \/
      (In (t_label a) S /\ t_best a == delta_local res ow iw dlt ocw icw cw1 (t_label a) /\ 0 < t_best a).

    Lemma delta_local_cw cw cw' t :
      nthq cw t = nthq cw' t ->
      delta_local res ow iw dlt ocw icw cw t = delta_local res ow iw dlt ocw icw cw' t.
    Proof. intros H. unfold delta_local. rewrite H. reflexivity. Qed.

    Lemma tgt_step_good a t :
      In t S -> nthq (t_cw a) t = nthq cw1 t -> tgood a -> tgood (tgt_step res ow iw dlt ocw icw a t).
    Proof.
      intros Ht Hcw Hgood.
      destruct (tgt_step_best res ow iw dlt ocw icw a t) as [[Hlt [Eb El]]|[_ [Eb El]]]; unfold tgood; rewrite Eb, El.
      - right. rewrite qn_eq, (delta_local_cw _ _ _ Hcw) in Hlt |- *.
        split; [exact Ht|]. split; [reflexivity|]. destruct Hgood as [[_ H0]|[_ [_ H0]]]; lra.
      - exact Hgood.
    Qed.

    Lemma tgt_loop : forall s a,
      NoDup s -> (forall t, In t s -> In t S) ->
      (forall t, In t s -> (t < length (t_cw a))%nat /\ nthq (t_cw a) t = nthq cw1 t) ->
      tgood a ->
      let a' := fold_left (tgt_step res ow iw dlt ocw icw) s a in
      tgood a' /\ length (t_cw a') = length (t_cw a) /\
      (forall c, In c s -> nthq (t_cw a') c = 0) /\
      (forall c, ~ In c s -> nthq (t_cw a') c = nthq (t_cw a) c).
    Proof.
      induction s as [|t s IH]; intros a Hnd Hsub Hcw Hgood; cbv zeta.
      - split; [exact Hgood|]. split; [reflexivity|]. split; [intros c []|reflexivity].
      - rewrite fold_left_cons. inversion Hnd as [|? ? Hnotin Hnd']; subst.
        destruct (Hcw t (or_introl eq_refl)) as [Htlen Hteq].
        set (a1 := tgt_step res ow iw dlt ocw icw a t).
        assert (Hcw1 : t_cw a1 = upd (t_cw a) t 0) by apply tgt_step_cw.
        destruct (IH a1 Hnd') as [G1 [G2 [G3 G4]]].
        + intros t' Hin. apply Hsub. right. exact Hin.
        + intros t' Hin. rewrite Hcw1, upd_length.
          destruct (Hcw t' (or_intror Hin)) as [Hl He]. split; [exact Hl|].
          rewrite nthq_upd_other by (intros ->; contradiction). exact He.
        + apply tgt_step_good; [apply Hsub; left; reflexivity|exact Hteq|exact Hgood].
        + split; [exact G1|]. split; [rewrite G2, Hcw1; apply upd_length|]. split.
          * intros c [<-|Hin]; [|apply G3; exact Hin].
            rewrite (G4 t Hnotin), Hcw1. apply nthq_upd_same. exact Htlen.
          * intros c Hc. rewrite G4 by (intros H; apply Hc; right; exact H).
            rewrite Hcw1. apply nthq_upd_other. intros ->. apply Hc. left. reflexivity.
    Qed.
  End Target.

  Lemma csum_move labels v i t c :
    (i < n)%nat -> length labels = n ->
    csum (upd labels i t) v c
    == csum labels v c + (ind (Nat.eqb t c) - ind (Nat.eqb (lab labels i) c)) * nthq v i.
  Proof.
    intros Hi Hlen. unfold csum, membership_T_dot.
    rewrite <- (qsum_ind n i (fun x => (ind (Nat.eqb t c) - ind (Nat.eqb (lab labels x) c)) * nthq v x) Hi).
    rewrite <- qsum_plus. apply qsum_ext. intros x _.
    rewrite lab_upd by lia. destruct (Nat.eqb_spec x i) as [->|Hne]; simpl; ring.
  Qed.

  Definition nb_of (st : kstate) (i : nat) : list nat * list Q :=
    neighbours (k_labels st) (wrow_of g i) (k_cw st).
  Definition targets_of (st : kstate) (i : nat) : list nat :=
    set_erase (nthn (k_labels st) i) (fst (nb_of st i)).
  Definition ts_of (st : kstate) (i : nat) : tstate :=
    let label := nthn (k_labels st) i in
    let ow := nthq ows i in
    let iw := nthq iws i in
    let cw1 := snd (nb_of st i) in
    fold_left (tgt_step res ow iw
                 (qn (delta_leave res ow iw (nthq sls i) (k_out_cw st) (k_in_cw st) cw1 label))
                 (k_out_cw st) (k_in_cw st))
              (targets_of st i)
              {| t_cw := cw1; t_best := 0; t_label := label; t_margin := k_margin st |}.
  Definition node_stay (st : kstate) (i : nat) (cw : list Q) (mg : marg) : kstate :=
    {| k_labels := k_labels st; k_out_cw := k_out_cw st; k_in_cw := k_in_cw st;
       k_cw := upd cw (nthn (k_labels st) i) 0; k_inc_pass := k_inc_pass st; k_margin := mg |}.
  Definition node_move (st : kstate) (i : nat) (ts : tstate) : kstate :=
    let label := nthn (k_labels st) i in
    let best := t_label ts in
    let ow := nthq ows i in
    let iw := nthq iws i in
    let ocw1 := upd (k_out_cw st) label (qn (nthq (k_out_cw st) label - ow)) in
    let icw1 := upd (k_in_cw st) label (qn (nthq (k_in_cw st) label - iw)) in
    {| k_labels := upd (k_labels st) i best;
       k_out_cw := upd ocw1 best (qn (nthq ocw1 best + ow));
       k_in_cw := upd icw1 best (qn (nthq icw1 best + iw));
       k_cw := upd (t_cw ts) label 0; k_inc_pass := qn (k_inc_pass st + t_best ts);
       k_margin := t_margin ts |}.

  Lemma node_step_eq st i :
    node_step g ows iws sls res st i =
    match targets_of st i with
    | [] => node_stay st i (snd (nb_of st i)) (k_margin st)
    | _ :: _ =>
        if Nat.eqb (t_label (ts_of st i)) (nthn (k_labels st) i)
        then node_stay st i (t_cw (ts_of st i)) (t_margin (ts_of st i))
        else node_move st i (ts_of st i)
    end.
  Proof. reflexivity. Qed.

  Lemma nb_of_spec st i :
    kinv st -> (i < n)%nat ->
    length (snd (nb_of st i)) = k /\
    StronglySorted lt (fst (nb_of st i)) /\
    (forall t, In t (fst (nb_of st i)) <-> exists j w, In (j, w) (wrow_of g i) /\ lab (k_labels st) j = t) /\
    (forall c, (c < k)%nat ->
       nthq (snd (nb_of st i)) c == rsum (wrow_of g i) (fun j => ind (Nat.eqb (lab (k_labels st) j) c))).
  Proof.
    intros [_ _ _ Hcl Hlt _ _ Hcw] Hi. unfold nb_of, neighbours.
    destruct (nb_fold_snd (k_labels st) (wrow_of g i) [] (k_cw st)) as [H1 H4].
    { intros j w Hin. rewrite Hcl. apply Hlt. exact (Hwf i j w Hin). }
    destruct (distinct_fold (map (fun p => lab (k_labels st) (fst p)) (wrow_of g i)) [] (SSorted_nil lt)) as [H2 H3].
    rewrite nb_fold_fst. split; [rewrite <- Hcl; exact H1|]. split; [exact H2|]. split.
    - intros t. rewrite H3, in_map_iff. split.
      + intros [[]|[[j w] [E Hin]]]. exists j, w. split; [exact Hin|exact E].
      + intros [j [w [Hin E]]]. right. exists (j, w). split; [exact E|exact Hin].
    - intros c Hc. rewrite H4, (Hcw c Hc). ring.
  Qed.

  (** The quantity compared by the kernel is the change of the objective. *)
  Lemma delta_is_gain st i t :
    kinv st -> (i < n)%nat ->
    let labels := k_labels st in
    let label := lab labels i in
    let cw1 := snd (neighbours labels (wrow_of g i) (k_cw st)) in
    t <> label -> (t < k)%nat ->
    delta_local res (nthq ows i) (nthq iws i)
                (delta_leave res (nthq ows i) (nthq iws i) (nthq sls i) (k_out_cw st) (k_in_cw st) cw1 label)
                (k_out_cw st) (k_in_cw st) cw1 t
    == objective g ows iws res (upd labels i t) - objective g ows iws res labels.
  Proof.
    intros Hinv Hi labels label cw1 Hne Htk.
    destruct (nb_of_spec st i Hinv Hi) as [_ [_ [_ Hcw1]]]. change (snd (nb_of st i)) with cw1 in Hcw1.
    destruct Hinv as [Hlen _ _ _ Hlt Hocw Hicw _]. fold labels in Hlen, Hlt, Hocw, Hicw, Hcw1.
    assert (Hlk : (label < k)%nat) by (apply Hlt; exact Hi).
    assert (CW : forall c, (c < k)%nat ->
                 nthq cw1 c == qsum n (fun y => entry g i y * ind (Nat.eqb (lab labels y) c))).
    { intros c Hc. rewrite (Hcw1 c Hc). apply (rsum_row_entries g i _ Hwf). }
    rewrite !objective_objF.
    rewrite (objF_ext n Fk (lab (upd labels i t)) (fun x => if Nat.eqb x i then t else lab labels x))
      by (intros x _; apply lab_upd; lia).
    rewrite (move_gain n Fk (lab labels) i t Hi Hne).
    transitivity (qsum n (fun y => (2 * entry g i y - res * nthq ows i * nthq iws y - res * nthq iws i * nthq ows y)
                                   * (ind (Nat.eqb (lab labels y) t) - ind (Nat.eqb (lab labels y) label)))
                  + 2 * Fk i i).
    2:{ apply Qplus_comp; [|reflexivity]. apply qsum_ext. intros y Hy. unfold Fk.
        rewrite (Hsym y i Hy Hi). fold label. ring. }
    rewrite lin6. unfold delta_local, delta_leave.
    pose proof (Hocw t Htk) as O1. pose proof (Hocw label Hlk) as O2.
    pose proof (Hicw t Htk) as I1. pose proof (Hicw label Hlk) as I2.
    unfold csum, membership_T_dot in O1, O2, I1, I2. unfold Fk.
    ring [(CW t Htk) (CW label Hlk) O1 O2 I1 I2 (Hsl i Hi)].
  Qed.

  Lemma cluster_move labels (arr v : list Q) i best :
    (i < n)%nat -> length labels = n -> length arr = k ->
    (forall c, (c < k)%nat -> nthq arr c == csum labels v c) ->
    let label := lab labels i in
    (label < k)%nat -> (best < k)%nat ->
    let x := nthq v i in
    let arr1 := upd arr label (qn (nthq arr label - x)) in
    let arr2 := upd arr1 best (qn (nthq arr1 best + x)) in
    length arr2 = k /\
    forall c, (c < k)%nat -> nthq arr2 c == csum (upd labels i best) v c.
  Proof.
    intros Hi Hlen Hal Harr label Hlk Hbk x arr1 arr2.
    assert (Hal1 : length arr1 = k) by (unfold arr1; rewrite upd_length; exact Hal).
    split; [unfold arr2; rewrite upd_length; exact Hal1|].
    intros c Hc. unfold arr2. rewrite nthq_upd_add by lia. unfold arr1, Qminus. rewrite nthq_upd_add by lia.
    rewrite (Harr c Hc), (csum_move labels v i best c Hi Hlen). fold label x. ring.
  Qed.

  Definition obj (labels : list nat) : Q := objective g ows iws res labels.

  Definition cc_inv (labels : list nat) : Prop :=
    forall a b, (a < n)%nat -> (b < n)%nat -> lab labels a = lab labels b -> connected g a b.

  Definition run_ok (st st' : kstate) : Prop :=
    kinv st' /\
    k_inc_pass st' - k_inc_pass st == obj (k_labels st') - obj (k_labels st) /\
    k_inc_pass st <= k_inc_pass st' /\
    (cc_inv (k_labels st) -> cc_inv (k_labels st')).

  Lemma run_ok_trans st1 st2 st3 : run_ok st1 st2 -> run_ok st2 st3 -> run_ok st1 st3.
  Proof.
    intros [_ [A2 [A3 A4]]] [B1 [B2 [B3 B4]]].
    split; [exact B1|]. split; [lra|]. split; [lra|]. intros H. apply B4, A4, H.
  Qed.

  Lemma run_ok_stay st st' :
    kinv st -> k_labels st' = k_labels st -> k_out_cw st' = k_out_cw st -> k_in_cw st' = k_in_cw st ->
    k_inc_pass st' = k_inc_pass st ->
    length (k_cw st') = k -> (forall c, (c < k)%nat -> nthq (k_cw st') c == 0) ->
    run_ok st st'.
  Proof.
    intros [H1 H2 H3 H4 H5 H6 H7 H8] E1 E2 E3 E4 Hl Hz. unfold run_ok. rewrite E1, E4.
    split; [constructor; rewrite ?E1, ?E2, ?E3; assumption|].
    split; [ring|]. split; [apply Qle_refl|auto].
  Qed.

  Lemma cc_move labels i j w :
    length labels = n -> (i < n)%nat -> In (j, w) (wrow_of g i) ->
    lab labels j <> lab labels i ->
    cc_inv labels -> cc_inv (upd labels i (lab labels j)).
  Proof.
    intros Hlen Hi Hin Hne Hcc a b Ha Hb. rewrite !lab_upd by lia.
    assert (Hj : (j < n)%nat) by exact (Hwf i j w Hin).
    assert (Hij : connected g i j) by (apply conn_edge; exists w; exact Hin).
    destruct (Nat.eqb_spec a i) as [->|Hai]; destruct (Nat.eqb_spec b i) as [->|Hbi]; intros E.
    - apply conn_refl.
    - apply conn_trans with j; [exact Hij|]. apply Hcc; assumption.
    - apply conn_sym. apply conn_trans with j; [exact Hij|]. apply Hcc; auto.
    - apply Hcc; assumption.
  Qed.

  Section Node.
    Context (st : kstate) (i : nat) (Hinv : kinv st) (Hi : (i < n)%nat).

    Lemma targets_of_spec :
      NoDup (targets_of st i) /\
      (forall t, In t (targets_of st i) <->
         (exists j w, In (j, w) (wrow_of g i) /\ lab (k_labels st) j = t) /\ t <> lab (k_labels st) i) /\
      (forall t, In t (targets_of st i) -> (t < k)%nat).
    Proof.
      destruct (nb_of_spec st i Hinv Hi) as [_ [Hsort [Hnb _]]].
      assert (Hin : forall t, In t (targets_of st i) <->
                (exists j w, In (j, w) (wrow_of g i) /\ lab (k_labels st) j = t) /\ t <> lab (k_labels st) i).
      { intros t. unfold targets_of. rewrite set_erase_In, Hnb. reflexivity. }
      split; [apply set_erase_NoDup, sorted_NoDup; exact Hsort|]. split; [exact Hin|].
      intros t Ht. apply Hin in Ht. destruct Ht as [[j [w [Hjw <-]]] _].
      apply (ki_lt _ Hinv). exact (Hwf i j w Hjw).
    Qed.

    (** Once the entries of the neighbouring clusters (by the target loop) and of the node's own cluster (by
        the last statement of the body) are reset, the scratch array is zero again. *)
    Lemma scratch_reset cwF :
      length cwF = k ->
      (forall c, In c (targets_of st i) -> nthq cwF c = 0) ->
      (forall c, ~ In c (targets_of st i) -> nthq cwF c = nthq (snd (nb_of st i)) c) ->
      forall c, (c < k)%nat -> nthq (upd cwF (lab (k_labels st) i) 0) c == 0.
    Proof.
      intros HlF Hz Hnz c Hc.
      destruct (nb_of_spec st i Hinv Hi) as [_ [_ [_ Hcw1]]].
      destruct targets_of_spec as [_ [Hin _]].
      pose proof (ki_lt _ Hinv i Hi) as Hlk.
      destruct (Nat.eq_dec c (lab (k_labels st) i)) as [->|Hcl].
      - rewrite nthq_upd_same by lia. reflexivity.
      - rewrite nthq_upd_other by exact Hcl.
        destruct (in_dec Nat.eq_dec c (targets_of st i)) as [Hc'|Hc'].
        + rewrite (Hz c Hc'). reflexivity.
        + rewrite (Hnz c Hc'), (Hcw1 c Hc). apply rsum_zero. intros j w Hjw.
          rewrite ind_false; [reflexivity|]. apply Nat.eqb_neq. intros E.
          apply Hc', Hin. split; [exists j, w; split; assumption|exact Hcl].
    Qed.

    (** The target loop ends on the node's own label, or on a neighbouring cluster whose recorded gain is
        positive and is the gain of the objective; it leaves the scratch array ready to be reset. *)
    Lemma ts_of_spec :
      let ts := ts_of st i in
      (t_label ts = lab (k_labels st) i \/
       In (t_label ts) (targets_of st i) /\
       t_best ts == obj (upd (k_labels st) i (t_label ts)) - obj (k_labels st) /\ 0 < t_best ts) /\
      length (t_cw ts) = k /\
      (forall c, (c < k)%nat -> nthq (upd (t_cw ts) (lab (k_labels st) i) 0) c == 0).
    Proof.
      pose proof (proj1 (nb_of_spec st i Hinv Hi)) as Hl1. destruct targets_of_spec as [Hnd [Hin Hlt]].
      unfold ts_of. cbv zeta. set (label := nthn (k_labels st) i). set (cw1 := snd (nb_of st i)) in *.
      set (dlt0 := delta_leave res (nthq ows i) (nthq iws i) (nthq sls i) (k_out_cw st) (k_in_cw st) cw1 label).
      set (a0 := {| t_cw := cw1; t_best := 0; t_label := label; t_margin := k_margin st |}).
      destruct (tgt_loop (nthq ows i) (nthq iws i) (qn dlt0) (k_out_cw st) (k_in_cw st) cw1 label
                  (targets_of st i) (targets_of st i) a0 Hnd (fun t H => H)) as [Hgood [Hlts [Hz Hnz]]].
      { intros t Ht. cbn [a0 t_cw]. split; [rewrite Hl1; apply Hlt; exact Ht|reflexivity]. }
      { left. split; reflexivity. }
      set (ts := fold_left _ _ a0) in *. cbn [a0 t_cw] in Hlts, Hnz. rewrite Hl1 in Hlts.
      split; [|split; [exact Hlts|exact (scratch_reset (t_cw ts) Hlts Hz Hnz)]].
      destruct Hgood as [[Hc _]|[Hbin [Hbest Hpos]]]; [left; exact Hc|right].
      split; [exact Hbin|]. split; [|exact Hpos]. rewrite Hbest.
      transitivity (delta_local res (nthq ows i) (nthq iws i) dlt0 (k_out_cw st) (k_in_cw st) cw1 (t_label ts)).
      { unfold delta_local. rewrite qn_eq. reflexivity. }
      exact (delta_is_gain st i (t_label ts) Hinv Hi (proj2 (proj1 (Hin _) Hbin)) (Hlt _ Hbin)).
    Qed.

    Lemma node_step_ok : run_ok st (node_step g ows iws sls res st i).
    Proof.
      pose proof Hinv as [Hlen Hol Hil Hcl Hlt Hocw Hicw Hcw].
      pose proof (proj1 (nb_of_spec st i Hinv Hi)) as Hl1.
      destruct targets_of_spec as [_ [Hs_in Hs_lt]].
      destruct ts_of_spec as [Hts [Hlts Hzero]].
      rewrite node_step_eq. destruct (targets_of st i) as [|t0 s'] eqn:Es.
      - (* no neighbouring cluster *)
        apply run_ok_stay; cbn [node_stay k_labels k_out_cw k_in_cw k_cw k_inc_pass]; auto.
        + rewrite upd_length. exact Hl1.
        + apply scratch_reset; rewrite ?Es; auto. intros c [].
      - destruct (Nat.eqb_spec (t_label (ts_of st i)) (nthn (k_labels st) i)) as [Eb|Eb].
        + (* stays *)
          apply run_ok_stay; cbn [node_stay k_labels k_out_cw k_in_cw k_cw k_inc_pass]; auto.
          rewrite upd_length. exact Hlts.
        + (* moves to t_label ts, the label of a neighbour *)
          destruct Hts as [Hc|[Hbin [Hgain Hpos]]]; [contradiction|].
          set (ts := ts_of st i) in *. set (best := t_label ts) in *.
          set (labels := k_labels st) in *. set (label := nthn labels i) in *.
          assert (Hlk : (label < k)%nat) by (apply Hlt; exact Hi).
          assert (Hbk : (best < k)%nat) by (apply Hs_lt; exact Hbin).
          destruct (cluster_move labels (k_out_cw st) ows i best Hi Hlen Hol Hocw Hlk Hbk) as [Ho1 Ho2].
          destruct (cluster_move labels (k_in_cw st) iws i best Hi Hlen Hil Hicw Hlk Hbk) as [Hi1 Hi2].
          unfold node_move. cbv zeta. fold labels label best.
          split; [|split; [|split]].
          * constructor; cbn [k_labels k_out_cw k_in_cw k_cw]; rewrite ?upd_length; auto.
            intros x Hx. rewrite lab_upd by lia. destruct (Nat.eqb x i); [exact Hbk|apply Hlt; exact Hx].
          * cbn [k_inc_pass k_labels]. rewrite qn_eq, Hgain. fold labels. ring.
          * cbn [k_inc_pass]. rewrite qn_eq. lra.
          * cbn [k_labels]. apply Hs_in in Hbin. destruct Hbin as [[j [w [Hin Hj]]] _].
            rewrite <- Hj in Eb |- *. exact (cc_move labels i j w Hlen Hi Hin Eb).
    Qed.
  End Node.

  Lemma kinv_same st st' :
    k_labels st' = k_labels st -> k_out_cw st' = k_out_cw st -> k_in_cw st' = k_in_cw st ->
    k_cw st' = k_cw st -> kinv st -> kinv st'.
  Proof.
    intros E1 E2 E3 E4 [H1 H2 H3 H4 H5 H6 H7 H8].
    constructor; rewrite ?E1, ?E2, ?E3, ?E4; assumption.
  Qed.

  Lemma nodes_fold_ok : forall l st,
    kinv st -> (forall i, In i l -> (i < n)%nat) ->
    run_ok st (fold_left (node_step g ows iws sls res) l st).
  Proof.
    induction l as [|i l IH]; intros st Hinv Hl; cbn [fold_left].
    - split; [exact Hinv|]. split; [ring|]. split; [apply Qle_refl|auto].
    - pose proof (node_step_ok st i Hinv (Hl i (or_introl eq_refl))) as K.
      exact (run_ok_trans _ _ _ K (IH _ (proj1 K) (fun x H => Hl x (or_intror H)))).
  Qed.

  Lemma one_pass_ok st :
    kinv st ->
    let st' := one_pass g ows iws sls res st in
    kinv st' /\
    k_inc_pass st' == obj (k_labels st') - obj (k_labels st) /\
    0 <= k_inc_pass st' /\
    (cc_inv (k_labels st) -> cc_inv (k_labels st')).
  Proof.
    intros Hinv. unfold one_pass.
    set (st0 := {| k_labels := k_labels st; k_out_cw := k_out_cw st; k_in_cw := k_in_cw st;
                   k_cw := k_cw st; k_inc_pass := 0; k_margin := k_margin st |}).
    assert (H0 : kinv st0) by (apply (kinv_same st st0); auto).
    destruct (nodes_fold_ok (seq 0 (length (k_labels st))) st0 H0) as [R1 [R2 [R3 R4]]].
    { intros i Hin. apply in_seq in Hin. rewrite (ki_labels _ Hinv) in Hin. lia. }
    cbn [st0 k_inc_pass k_labels] in R2, R3, R4.
    split; [exact R1|]. split; [|split; [exact R3|exact R4]].
    lra.
  Qed.

  Lemma opt_loop_ok tol : forall fuel st inc st' inc',
    kinv st ->
    opt_loop fuel g ows iws sls res tol st inc = Some (st', inc') ->
    kinv st' /\
    inc' - inc == obj (k_labels st') - obj (k_labels st) /\
    inc <= inc' /\
    (cc_inv (k_labels st) -> cc_inv (k_labels st')).
  Proof.
    induction fuel as [|fuel IH]; intros st inc st' inc' Hinv H; cbn [opt_loop] in H; [discriminate|].
    destruct (one_pass_ok st Hinv) as [P1 [P2 [P3 P4]]].
    set (st1 := one_pass g ows iws sls res st) in *.
    set (st2 := {| k_labels := k_labels st1; k_out_cw := k_out_cw st1; k_in_cw := k_in_cw st1;
                   k_cw := k_cw st1; k_inc_pass := k_inc_pass st1;
                   k_margin := mmin_tol (k_margin st1) (k_inc_pass st1) tol |}) in *.
    assert (H2 : kinv st2) by (apply (kinv_same st1 st2); auto).
    destruct (Qle_bool (k_inc_pass st1) tol).
    - assert (E1 : st' = st2) by congruence.
      assert (E2 : inc' = qn (inc + k_inc_pass st1)) by congruence.
      subst st' inc'. split; [exact H2|]. cbn [st2 k_labels].
      split; [rewrite qn_eq; lra|]. split; [rewrite qn_eq; lra|exact P4].
    - destruct (IH st2 (qn (inc + k_inc_pass st1)) st' inc' H2 H) as [R1 [R2 [R3 R4]]].
      cbn [st2 k_labels] in R2, R4. rewrite qn_eq in R2, R3.
      split; [exact R1|]. split; [|split].
      + lra.
      + lra.
      + intros Hcc. apply R4, P4, Hcc.
  Qed.
End Kernel.

Lemma agg_sum k n (l : nat -> nat) (F D : nat -> nat -> Q) :
  (forall i, (i < n)%nat -> (l i < k)%nat) ->
  qsum2 k k (fun c c' => qsum2 n n (fun i j => ind (Nat.eqb (l i) c) * ind (Nat.eqb (l j) c') * F i j) * D c c')
  == qsum2 n n (fun i j => F i j * D (l i) (l j)).
Proof.
  intros Hl. unfold qsum2.
  transitivity (qsum k (fun c => qsum n (fun i => ind (Nat.eqb (l i) c) *
                  qsum k (fun c' => qsum n (fun j => ind (Nat.eqb (l j) c') * (F i j * D c c')))))).
  - apply qsum_ext. intros c _.
    transitivity (qsum k (fun c' => qsum n (fun i => ind (Nat.eqb (l i) c) *
                    qsum n (fun j => ind (Nat.eqb (l j) c') * (F i j * D c c'))))).
    + apply qsum_ext. intros c' _. rewrite <- qsum_scal_r. apply qsum_ext. intros i _.
      rewrite <- qsum_scal_r, <- qsum_scal. apply qsum_ext. intros j _. ring.
    + rewrite qsum_swap. apply qsum_ext. intros i _. apply qsum_scal.
  - rewrite (qsum_by_label k n l
               (fun i c => qsum k (fun c' => qsum n (fun j => ind (Nat.eqb (l j) c') * (F i j * D c c')))) Hl).
    apply qsum_ext. intros i _.
    exact (qsum_by_label k n l (fun j c' => F i j * D (l i) c') Hl).
Qed.

Lemma existsb_false_iff {A} (f : A -> bool) l : existsb f l = false <-> forall x, In x l -> f x = false.
Proof.
  induction l as [|a t IH]; simpl.
  - split; [intros _ x []|reflexivity].
  - rewrite orb_false_iff, IH. split.
    + intros [Ha Ht] x [<-|Hx]; auto.
    + intros H. split; [apply H; left; reflexivity|intros x Hx; apply H; right; exact Hx].
Qed.

Lemma rsum_map_filter_seq (p : nat -> bool) (f : nat -> Q) k h :
  rsum (map (fun j => (j, f j)) (filter p (seq 0 k))) h == qsum k (fun j => ind (p j) * (f j * h j)).
Proof.
  induction k as [|k IH]; [reflexivity|].
  rewrite seq_S, filter_app, map_app, rsum_app, IH. cbn [qsum]. apply Qplus_comp; [reflexivity|].
  simpl. destruct (p k); simpl; ring.
Qed.

Lemma wrow_of_map_seq (F : nat -> wrow) k c : (c < k)%nat -> wrow_of (map F (seq 0 k)) c = F c.
Proof. apply nth_map_seq. Qed.

Lemma wrow_of_overflow g i : (length g <= i)%nat -> wrow_of g i = [].
Proof. intros H. unfold wrow_of. apply nth_overflow. exact H. Qed.

(** [symmetrize] and [aggregate_graph] have the same shape: row c < k lists the columns c' < k with
    [P c c' = true], with value [F c c']. *)
Definition tab_graph (k : nat) (P : nat -> nat -> bool) (F : nat -> nat -> Q) : wgraph :=
  map (fun c => map (fun c' => (c', F c c')) (filter (P c) (seq 0 k))) (seq 0 k).

Lemma tab_length k P F : length (tab_graph k P F) = k.
Proof. unfold tab_graph. rewrite map_length, seq_length. reflexivity. Qed.

Lemma tab_In k P F c c' w :
  In (c', w) (wrow_of (tab_graph k P F) c) <-> (c < k)%nat /\ (c' < k)%nat /\ P c c' = true /\ w = F c c'.
Proof.
  destruct (Nat.lt_ge_cases c k) as [Hc|Hc].
  - unfold tab_graph. rewrite wrow_of_map_seq by exact Hc. rewrite in_map_iff. split.
    + intros [x [E Hx]]. injection E as <- <-. apply filter_In in Hx. destruct Hx as [Hx HP].
      apply in_seq in Hx. repeat split; auto. lia.
    + intros (_ & Hc' & HP & ->). exists c'. split; [reflexivity|].
      apply filter_In. split; [apply in_seq; lia|exact HP].
  - rewrite wrow_of_overflow by (rewrite tab_length; exact Hc). split; [intros []|lia].
Qed.

Lemma tab_wf k P F : wf_wgraph (tab_graph k P F).
Proof. intros c c' w Hin. rewrite tab_length. apply tab_In in Hin. apply Hin. Qed.

Lemma tab_wedge k P F c c' : wedge (tab_graph k P F) c c' <-> (c < k)%nat /\ (c' < k)%nat /\ P c c' = true.
Proof.
  split.
  - intros [w Hin]. apply tab_In in Hin. tauto.
  - intros H. exists (F c c'). apply tab_In. tauto.
Qed.

(** The entries left out are zero, so reading the table gives [F] everywhere. *)
Lemma tab_entry k P F c c' :
  (c < k)%nat -> (c' < k)%nat -> (P c c' = false -> F c c' == 0) ->
  entry (tab_graph k P (fun a b => qn (F a b))) c c' == F c c'.
Proof.
  intros Hc Hc' H0. unfold entry, tab_graph. rewrite wrow_of_map_seq by exact Hc.
  rewrite (rsum_map_filter_seq (P c) (fun b => qn (F c b)) k).
  transitivity (qsum k (fun j => ind (Nat.eqb j c') * (ind (P c j) * qn (F c j)))).
  { apply qsum_ext. intros j _. ring. }
  rewrite (qsum_ind k c' (fun j => ind (P c j) * qn (F c j)) Hc'), qn_eq.
  destruct (P c c'); simpl; [ring|]. rewrite H0 by reflexivity. ring.
Qed.

Lemma lab_map (f : nat -> nat) labels i :
  (i < length labels)%nat -> lab (map f labels) i = f (lab labels i).
Proof.
  intros H. unfold lab, nthn. rewrite (nth_indep _ 0%nat (f 0%nat)) by (rewrite map_length; exact H).
  apply map_nth.
Qed.

Section Aggregate.
  Context (g : wgraph) (labels : list nat) (k : nat).
  Let n := length g.
  Context (Hwf : wf_wgraph g) (Hlen : length labels = n).
  Context (Hlt : forall i, (i < n)%nat -> (lab labels i < k)%nat).

  Lemma agg_length : length (aggregate_graph g labels k) = k.
  Proof. apply tab_length. Qed.

  Lemma agg_wf : wf_wgraph (aggregate_graph g labels k).
  Proof. apply tab_wf. Qed.

  Lemma agg_entry_sum c c' :
    agg_entry g labels c c'
    == qsum2 n n (fun i j => ind (Nat.eqb (lab labels i) c) * ind (Nat.eqb (lab labels j) c') * entry g i j).
  Proof.
    unfold agg_entry, membership_T_dot, adj_dot_membership, qsum2. fold n.
    apply qsum_ext. intros i _. rewrite (rsum_row_entries g i _ Hwf). fold n.
    rewrite <- qsum_scal. apply qsum_ext. intros j _. ring.
  Qed.

  Lemma agg_not_stored c c' : agg_stored g labels c c' = false -> agg_entry g labels c c' == 0.
  Proof.
    intros H. unfold agg_stored in H. rewrite existsb_false_iff in H.
    unfold agg_entry, membership_T_dot. apply qsum_zero. intros i Hi.
    specialize (H i). rewrite in_seq in H. specialize (H (conj (Nat.le_0_l i) Hi)).
    apply andb_false_iff in H. destruct H as [H|H].
    - rewrite H. simpl. ring.
    - rewrite existsb_false_iff in H. unfold adj_dot_membership.
      rewrite rsum_zero; [ring|]. intros j w Hin. specialize (H (j, w) Hin). simpl in H.
      rewrite H. reflexivity.
  Qed.

  Lemma agg_entry_ok c c' :
    (c < k)%nat -> (c' < k)%nat -> entry (aggregate_graph g labels k) c c' == agg_entry g labels c c'.
  Proof.
    intros Hc Hc'. exact (tab_entry k _ (agg_entry g labels) c c' Hc Hc' (agg_not_stored c c')).
  Qed.

  Lemma agg_symmetric : wsymmetric g -> wsymmetric (aggregate_graph g labels k).
  Proof.
    intros Hsym c c' Hc Hc'. rewrite agg_length in Hc, Hc'.
    rewrite (agg_entry_ok c c' Hc Hc'), (agg_entry_ok c' c Hc' Hc). rewrite !agg_entry_sum.
    unfold qsum2. rewrite qsum_swap. apply qsum_ext. intros i Hi. apply qsum_ext. intros j Hj.
    rewrite (Hsym j i Hj Hi). ring.
  Qed.

  Lemma cluster_sums_length v : length (cluster_sums k labels v) = k.
  Proof. unfold cluster_sums. rewrite map_length, seq_length. reflexivity. Qed.

  Lemma cluster_sums_nth v c :
    (c < k)%nat -> nthq (cluster_sums k labels v) c == membership_T_dot n labels (nthq v) c.
  Proof.
    intros Hc. unfold cluster_sums. rewrite nthq_map_seq by exact Hc. rewrite qn_eq, Hlen. reflexivity.
  Qed.

  Lemma aggregate_objective ows iws res l2 :
    objective (aggregate_graph g labels k) (cluster_sums k labels ows) (cluster_sums k labels iws) res l2
    == objective g ows iws res (map (nthn l2) labels).
  Proof.
    rewrite !objective_objF, agg_length. unfold objF. fold n.
    transitivity (qsum2 n n (fun i j => Fk g ows iws res i j * ind (Nat.eqb (lab l2 (lab labels i)) (lab l2 (lab labels j))))).
    2:{ apply qsum2_ext. intros i j Hi Hj. rewrite !lab_map by (rewrite Hlen; assumption). reflexivity. }
    rewrite <- (agg_sum k n (lab labels) (Fk g ows iws res) (fun c c' => ind (Nat.eqb (lab l2 c) (lab l2 c'))) Hlt).
    apply qsum2_ext. intros c c' Hc Hc'. apply Qmult_comp; [|reflexivity]. unfold Fk.
    rewrite (agg_entry_ok c c' Hc Hc'), agg_entry_sum.
    rewrite (cluster_sums_nth ows c Hc), (cluster_sums_nth iws c' Hc').
    unfold membership_T_dot.
    rewrite <- Qmult_assoc, <- qsum2_prod.
    rewrite <- qsum2_scal, <- qsum2_minus. apply qsum2_ext. intros i j _ _. ring.
  Qed.
End Aggregate.

Lemma distinct_sorted_In l x : In x (distinct_sorted l) <-> In x l.
Proof.
  unfold distinct_sorted. destruct (distinct_fold l [] (SSorted_nil lt)) as [_ H].
  rewrite H. simpl. tauto.
Qed.

Lemma index_of_eqb a b u : In a u -> Nat.eqb (index_of a u) (index_of b u) = Nat.eqb a b.
Proof.
  induction u as [|y t IH]; intros Hin; [destruct Hin|]. simpl.
  destruct (Nat.eqb_spec y a) as [<-|Ea]; destruct (Nat.eqb_spec y b) as [<-|Eb]; simpl.
  - reflexivity.
  - reflexivity.
  - symmetry. apply Nat.eqb_neq. congruence.
  - apply IH. destruct Hin as [H|H]; [congruence|exact H].
Qed.

Lemma unique_inverse_length l : length (unique_inverse l) = length l.
Proof. unfold unique_inverse. apply map_length. Qed.

Lemma unique_inverse_pattern l x y :
  (x < length l)%nat -> (y < length l)%nat ->
  Nat.eqb (lab (unique_inverse l) x) (lab (unique_inverse l) y) = Nat.eqb (lab l x) (lab l y).
Proof.
  intros Hx Hy. unfold unique_inverse. rewrite !lab_map by assumption.
  apply index_of_eqb, distinct_sorted_In, nth_In. exact Hx.
Qed.

Lemma index_of_lt x u : In x u -> (index_of x u < length u)%nat.
Proof.
  induction u as [|y t IH]; intros H; [destruct H|]. simpl.
  destruct (Nat.eqb_spec y x) as [E|E]; [lia|]. destruct H as [H|H]; [congruence|].
  specialize (IH H). lia.
Qed.

Lemma nth_index_of x u : In x u -> nth (index_of x u) u 0%nat = x.
Proof.
  induction u as [|y t IH]; intros H; [destruct H|]. simpl.
  destruct (Nat.eqb_spec y x) as [E|E]; [exact E|]. destruct H as [H|H]; [congruence|]. apply IH. exact H.
Qed.

Lemma connected_map (g g' : wgraph) (f : nat -> nat) :
  (forall i j, wedge g i j -> connected g' (f i) (f j)) ->
  forall i j, connected g i j -> connected g' (f i) (f j).
Proof.
  intros H i j C. induction C as [i|i j He|i j C IH|i j k' C1 IH1 C2 IH2].
  - apply conn_refl.
  - apply H. exact He.
  - apply conn_sym. exact IH.
  - apply conn_trans with (f j); assumption.
Qed.

Lemma agg_wedge_inv g labels k C C' :
  wedge (aggregate_graph g labels k) C C' ->
  exists i j, (i < length g)%nat /\ lab labels i = C /\ wedge g i j /\ lab labels j = C'.
Proof.
  intros H. apply tab_wedge in H. destruct H as (_ & _ & Hx). unfold agg_stored in Hx.
  apply existsb_exists in Hx. destruct Hx as [i [Hi Hx]]. apply in_seq in Hi.
  apply andb_true_iff in Hx. destruct Hx as [Hx1 Hx2]. apply Nat.eqb_eq in Hx1.
  apply existsb_exists in Hx2. destruct Hx2 as [[j w'] [Hj Hx2]]. simpl in Hx2. apply Nat.eqb_eq in Hx2.
  exists i, j. split; [lia|]. split; [exact Hx1|]. split; [exists w'; exact Hj|exact Hx2].
Qed.

(** Clusters connected in the aggregate have connected members: map every cluster to its first member;
    with [cc_inv] every member is connected to that one. *)
Lemma agg_connected_members g labels k a b :
  wf_wgraph g -> length labels = length g -> cc_inv g labels -> (a < length g)%nat -> (b < length g)%nat ->
  connected (aggregate_graph g labels k) (lab labels a) (lab labels b) -> connected g a b.
Proof.
  intros Hwf Hlen Hcc Ha Hb H. set (rep := fun C => index_of C labels).
  assert (Hrep : forall x, (x < length g)%nat -> connected g x (rep (lab labels x))).
  { intros x Hx. assert (Hin : In (lab labels x) labels) by (apply nth_In; lia).
    apply Hcc; [exact Hx|rewrite <- Hlen; apply index_of_lt; exact Hin|].
    symmetry. apply nth_index_of. exact Hin. }
  apply conn_trans with (rep (lab labels a)); [apply Hrep; exact Ha|].
  apply conn_trans with (rep (lab labels b)); [|apply conn_sym, Hrep; exact Hb].
  revert H. apply connected_map. intros C C' He.
  destruct (agg_wedge_inv g labels k C C' He) as (i & j & Hi & <- & [w Hw] & <-).
  apply conn_trans with i; [apply conn_sym, Hrep; exact Hi|].
  apply conn_trans with j; [apply conn_edge; exists w; exact Hw|apply Hrep; exact (Hwf i j w Hw)].
Qed.

Lemma cc_inv_pattern g labels labels' :
  (forall x y, (x < length g)%nat -> (y < length g)%nat ->
     Nat.eqb (lab labels' x) (lab labels' y) = Nat.eqb (lab labels x) (lab labels y)) ->
  cc_inv g labels -> cc_inv g labels'.
Proof.
  intros H Hcc a b Ha Hb E. apply Hcc; auto. apply Nat.eqb_eq. rewrite <- (H a b Ha Hb). apply Nat.eqb_eq. exact E.
Qed.

Lemma objective_pattern g ows iws res labels labels' :
  (forall x y, (x < length g)%nat -> (y < length g)%nat ->
     Nat.eqb (lab labels' x) (lab labels' y) = Nat.eqb (lab labels x) (lab labels y)) ->
  objective g ows iws res labels' == objective g ows iws res labels.
Proof. intros H. rewrite !objective_objF. apply objF_pattern. exact H. Qed.

Lemma objective_ext g ows iws res labels labels' :
  (forall x, (x < length g)%nat -> lab labels' x = lab labels x) ->
  objective g ows iws res labels' == objective g ows iws res labels.
Proof. intros H. rewrite !objective_objF. apply objF_ext. exact H. Qed.

Lemma unique_inverse_objective g ows iws res l :
  length l = length g -> objective g ows iws res (unique_inverse l) == objective g ows iws res l.
Proof.
  intros Hl. apply objective_pattern. intros x y Hx Hy. apply unique_inverse_pattern; rewrite Hl; assumption.
Qed.

Lemma unique_inverse_cc_inv g l : length l = length g -> cc_inv g l -> cc_inv g (unique_inverse l).
Proof.
  intros Hl. apply cc_inv_pattern. intros x y Hx Hy. apply unique_inverse_pattern; rewrite Hl; assumption.
Qed.

Lemma diagonal_nth g i : (i < length g)%nat -> nthq (diagonal g) i == entry g i i.
Proof. intros H. unfold diagonal. rewrite nthq_map_seq by exact H. apply qn_eq. Qed.

(** The state in which [optimize] enters the pass loop. *)
Definition opt_start (labels : list nat) (ocw icw : list Q) (mg : marg) : kstate :=
  {| k_labels := labels; k_out_cw := ocw; k_in_cw := icw;
     k_cw := repeat 0 (length ocw); k_inc_pass := 0; k_margin := mg |}.

Lemma kinv_opt_start g ows iws labels ocw icw mg :
  length labels = length g -> length ocw = length icw ->
  (forall x, (x < length g)%nat -> (lab labels x < length ocw)%nat) ->
  (forall c, (c < length ocw)%nat -> nthq ocw c == csum g labels ows c) ->
  (forall c, (c < length ocw)%nat -> nthq icw c == csum g labels iws c) ->
  kinv g ows iws (length ocw) (opt_start labels ocw icw mg).
Proof.
  intros Hlen Hoi Hlt Hocw Hicw. constructor; cbn [opt_start k_labels k_out_cw k_in_cw k_cw]; auto.
  - apply repeat_length.
  - intros c Hc. rewrite nthq_repeat by exact Hc. reflexivity.
Qed.

Lemma lab_seq n x : (x < n)%nat -> lab (seq 0 n) x = x.
Proof. intros H. unfold lab, nthn. rewrite seq_nth by exact H. reflexivity. Qed.

Lemma csum_singletons g v c : (c < length g)%nat -> nthq v c == csum g (seq 0 (length g)) v c.
Proof.
  intros Hc. unfold csum, membership_T_dot.
  rewrite <- (qsum_ind (length g) c (nthq v) Hc). apply qsum_ext. intros i Hi.
  rewrite lab_seq by exact Hi. reflexivity.
Qed.

Lemma cc_inv_singletons g : cc_inv g (seq 0 (length g)).
Proof. intros a b Ha Hb. rewrite !lab_seq by assumption. intros ->. apply conn_refl. Qed.

(** Louvain's call: labels = arange(n), cluster weights = copies of the node weights. *)
Lemma kinv_singletons g ows iws mg :
  length ows = length g -> length iws = length g ->
  kinv g ows iws (length ows) (opt_start (seq 0 (length g)) ows iws mg).
Proof.
  intros Ho Hi. apply kinv_opt_start.
  - apply seq_length.
  - congruence.
  - intros x Hx. rewrite lab_seq by exact Hx. lia.
  - intros c Hc. apply csum_singletons. lia.
  - intros c Hc. apply csum_singletons. lia.
Qed.

(** Leiden's call: any labels, cluster weights = membership.T.dot(node weights). *)
Lemma kinv_cluster_sums g ows iws labels mg :
  length labels = length g ->
  let k := n_labels labels in
  kinv g ows iws (length (cluster_sums k labels ows))
       (opt_start labels (cluster_sums k labels ows) (cluster_sums k labels iws) mg).
Proof.
  intros Hl k. apply kinv_opt_start; rewrite ?cluster_sums_length; auto.
  - intros x Hx. apply lab_lt_n_labels. lia.
  - intros c Hc. apply (cluster_sums_nth g labels k Hl ows c Hc).
  - intros c Hc. apply (cluster_sums_nth g labels k Hl iws c Hc).
Qed.

Definition log_total (log : list logline) : Q := sumq (map l_increase log).
Lemma log_total_app log x : log_total (log ++ [x]) == log_total log + l_increase x.
Proof. unfold log_total. rewrite map_app, sumq_app. simpl. ring. Qed.

Definition log_nonneg (log : list logline) : Prop := forall x, In x log -> 0 <= l_increase x.
Lemma log_nonneg_app log x : log_nonneg log -> 0 <= l_increase x -> log_nonneg (log ++ [x]).
Proof. intros Hn Hx y Hy. apply in_app_or in Hy. destruct Hy as [Hy|[<-|[]]]; [apply Hn; exact Hy|exact Hx]. Qed.

Lemma log_total_nonneg log : log_nonneg log -> 0 <= log_total log.
Proof.
  intros H. apply sumq_nonneg. intros q Hq. apply in_map_iff in Hq. destruct Hq as [x [<- Hx]]. exact (H x Hx).
Qed.
Section Levels.
  Context (g0 : wgraph) (ows0 iws0 : list Q) (res : Q).
  Let n0 := length g0.
  Let obj0 := objective g0 ows0 iws0 res.

  (** What both loops establish about their answer [r], started from the partition [start] of the input
      nodes with [log] already written. *)
  Definition loop_spec (start : list nat) (log : list logline) (r : fit_result) : Prop :=
    log_total (r_log r) - log_total log == obj0 (r_membership r) - obj0 start /\
    (log_nonneg log -> log_nonneg (r_log r)) /\
    length (r_membership r) = n0 /\ cc_inv g0 (r_membership r).

  Lemma loop_spec_continue start start' log x r :
    loop_spec start' (log ++ [x]) r ->
    l_increase x == obj0 start' - obj0 start -> 0 <= l_increase x -> loop_spec start log r.
  Proof.
    intros [R1 [R2 [R3 R4]]] Hx Hpos. rewrite log_total_app in R1.
    split; [lra|]. split; [|split; assumption].
    intros Hn. apply R2, log_nonneg_app; assumption.
  Qed.

  Record level_inv (g : wgraph) (ows iws : list Q) (membership : list nat) : Prop := mk_level {
    lv_wf : wf_wgraph g;
    lv_sym : wsymmetric g;
    lv_ows : length ows = length g;
    lv_iws : length iws = length g;
    lv_mem_len : length membership = n0;
    lv_mem_lt : forall u, (u < n0)%nat -> (lab membership u < length g)%nat;
    lv_obj : forall l2, objective g ows iws res l2 == objective g0 ows0 iws0 res (map (nthn l2) membership);
    lv_conn : forall u v, (u < n0)%nat -> (v < n0)%nat ->
                connected g (lab membership u) (lab membership v) -> connected g0 u v
  }.
  Lemma level_init :
    wf_wgraph g0 -> wsymmetric g0 -> length ows0 = n0 -> length iws0 = n0 ->
    level_inv g0 ows0 iws0 (seq 0 n0).
  Proof.
    intros Hwf Hsym Ho Hi. constructor; auto.
    - apply seq_length.
    - intros u Hu. rewrite lab_seq by exact Hu. exact Hu.
    - intros l2. apply objective_ext. intros x Hx. rewrite lab_map by (rewrite seq_length; exact Hx).
      rewrite lab_seq by exact Hx. reflexivity.
    - intros u v Hu Hv. rewrite !lab_seq by assumption. auto.
  Qed.

  Lemma level_members_lt g ows iws membership :
    level_inv g ows iws membership -> forall c, In c membership -> (c < length g)%nat.
  Proof.
    intros [_ _ _ _ Hml Hmlt _ _] c Hc. apply (In_nth _ _ 0%nat) in Hc. destruct Hc as [u [Hu <-]].
    apply (Hmlt u). rewrite <- Hml. exact Hu.
  Qed.

  Lemma level_step g ows iws membership lu :
    level_inv g ows iws membership ->
    length lu = length g -> cc_inv g lu ->
    let k := n_labels lu in
    level_inv (aggregate_graph g lu k) (cluster_sums k lu ows) (cluster_sums k lu iws)
              (map (nthn lu) membership).
  Proof.
    intros Hlv Hlen Hcc k. pose proof (level_members_lt g ows iws membership Hlv) as Hmem.
    destruct Hlv as [Hwf Hsym Ho Hi Hml Hmlt Hobj Hconn].
    assert (Hlt : forall i, (i < length g)%nat -> (lab lu i < k)%nat).
    { intros i Hi'. apply lab_lt_n_labels. lia. }
    constructor.
    - apply agg_wf.
    - apply agg_symmetric; auto.
    - rewrite cluster_sums_length, agg_length. reflexivity.
    - rewrite cluster_sums_length, agg_length. reflexivity.
    - rewrite map_length. exact Hml.
    - intros u Hu. rewrite agg_length. rewrite lab_map by (rewrite Hml; exact Hu).
      apply Hlt. apply Hmlt. exact Hu.
    - intros l2. rewrite (aggregate_objective g lu k Hwf Hlen Hlt ows iws res l2), Hobj, map_map.
      rewrite (map_ext_in _ (fun c => nthn l2 (nthn lu c)) membership); [reflexivity|].
      intros c Hc. apply (lab_map (nthn l2) lu c). rewrite Hlen. exact (Hmem c Hc).
    - intros u v Hu Hv. rewrite !lab_map by (rewrite Hml; assumption). intros Hc.
      apply Hconn; auto.
      apply (agg_connected_members g lu k); auto.
  Qed.

  Lemma level_mem_id g ows iws membership :
    level_inv g ows iws membership -> map (nthn (seq 0 (length g))) membership = membership.
  Proof.
    intros Hlv. rewrite <- (map_id membership) at 2. apply map_ext_in. intros c Hc.
    apply (lab_seq (length g) c). exact (level_members_lt _ _ _ _ Hlv c Hc).
  Qed.

  (** One call of _optimize on a level, read on the input nodes. *)
  Lemma level_optimize kfuel tol g ows iws membership labels ocw icw mg st inc :
    level_inv g ows iws membership ->
    kinv g ows iws (length ocw) (opt_start labels ocw icw mg) ->
    optimize kfuel g ows iws res tol labels ocw icw mg = Some (st, inc) ->
    let lu := unique_inverse (k_labels st) in
    length lu = length g /\ 0 <= inc /\
    inc == obj0 (map (nthn lu) membership) - obj0 (map (nthn labels) membership) /\
    (cc_inv g labels -> cc_inv g lu).
  Proof.
    intros Hlv H0 H lu. pose proof Hlv as [Hwf Hsym _ _ _ _ Hobj _].
    destruct (opt_loop_ok g ows iws (diagonal g) res (length ocw) Hwf Hsym (diagonal_nth g)
                tol kfuel _ 0 st inc H0 H) as [K [Kinc [Kpos Kcc]]].
    cbn [opt_start k_labels] in Kinc, Kcc. unfold obj in Kinc.
    pose proof (ki_labels _ _ _ _ _ K) as Kl.
    split; [unfold lu; rewrite unique_inverse_length; exact Kl|]. split; [exact Kpos|]. split.
    - unfold obj0. rewrite <- (Hobj lu), <- (Hobj labels). unfold lu.
      rewrite (unique_inverse_objective g ows iws res _ Kl). lra.
    - intros Hcc. apply unique_inverse_cc_inv; [exact Kl|]. apply Kcc, Hcc.
  Qed.

  (** The stop branch: the loop returns the membership composed with the labels [lu] of the level. *)
  Lemma loop_spec_stop g ows iws membership lu start log x mg :
    level_inv g ows iws membership -> cc_inv g lu ->
    l_increase x == obj0 (map (nthn lu) membership) - obj0 start -> 0 <= l_increase x ->
    loop_spec start log {| r_membership := map (nthn lu) membership; r_log := log ++ [x]; r_fit_margin := mg |}.
  Proof.
    intros [_ _ _ _ Hml Hmlt _ Hconn] Hcc Hx Hpos. unfold loop_spec. cbn [r_membership r_log].
    split; [rewrite log_total_app; lra|]. split; [|split].
    - intros Hn. apply log_nonneg_app; assumption.
    - rewrite map_length. exact Hml.
    - intros u v Hu Hv E. rewrite !lab_map in E by (rewrite Hml; assumption).
      apply Hconn; [exact Hu|exact Hv|]. apply Hcc; [apply Hmlt; exact Hu|apply Hmlt; exact Hv|exact E].
  Qed.

  Lemma louvain_loop_ok kfuel tol_opt tol_agg n_agg : forall fuel g ows iws membership count log mg r,
    level_inv g ows iws membership ->
    louvain_loop fuel kfuel res tol_opt tol_agg n_agg g ows iws membership count log mg = MOk r ->
    loop_spec membership log r.
  Proof.
    induction fuel as [|fuel IH]; intros g ows iws membership count log mg r Hlv H;
      cbn [louvain_loop] in H; [discriminate|].
    destruct (optimize kfuel g ows iws res tol_opt (seq 0 (length g)) ows iws mg) as [[st inc]|] eqn:Eopt;
      [|discriminate].
    destruct (level_optimize _ _ _ _ _ _ _ _ _ _ _ _ Hlv
                (kinv_singletons g ows iws mg (lv_ows _ _ _ _ Hlv) (lv_iws _ _ _ _ Hlv)) Eopt)
      as [Hlu [Kpos [Hinc Hcc]]].
    rewrite (level_mem_id _ _ _ _ Hlv) in Hinc. specialize (Hcc (cc_inv_singletons g)).
    change (fun c => nthn ?l c) with (nthn l) in H.
    set (lu := unique_inverse (k_labels st)) in *.
    destruct (Nat.eqb (n_labels lu) 1 || Qle_bool inc tol_agg || Z.eqb (Z.of_nat (S count)) n_agg).
    - injection H as <-. apply (loop_spec_stop g ows iws); assumption.
    - apply IH in H; [|exact (level_step _ _ _ _ lu Hlv Hlu Hcc)].
      exact (loop_spec_continue _ _ _ _ _ H Hinc Kpos).
  Qed.
End Levels.

Lemma stored_false_entry g i j : stored g i j = false -> entry g i j == 0.
Proof.
  intros H. unfold stored in H. rewrite existsb_false_iff in H. unfold entry.
  apply rsum_zero. intros j' w Hin. specialize (H (j', w) Hin). simpl in H. rewrite H. reflexivity.
Qed.

Lemma symmetrize_length g : length (symmetrize g) = length g.
Proof. apply tab_length. Qed.

Lemma symmetrize_wf g : wf_wgraph (symmetrize g).
Proof. apply tab_wf. Qed.

Lemma symmetrize_entry g i j :
  (i < length g)%nat -> (j < length g)%nat ->
  entry (symmetrize g) i j == entry g i j + entry g j i.
Proof.
  intros Hi Hj. apply (tab_entry (length g) _ (fun a b => entry g a b + entry g b a) i j Hi Hj).
  intros H. apply orb_false_iff in H. destruct H as [E1 E2].
  rewrite (stored_false_entry g i j E1), (stored_false_entry g j i E2). ring.
Qed.

Lemma scale_length g s : length (scale_graph g s) = length g.
Proof. unfold scale_graph. apply map_length. Qed.

Lemma wrow_of_scale g s i :
  wrow_of (scale_graph g s) i = map (fun p => (fst p, qn (snd p / s))) (wrow_of g i).
Proof.
  unfold wrow_of, scale_graph.
  change (@nil (nat * Q)) with (map (fun p : nat * Q => (fst p, qn (snd p / s))) []) at 1.
  apply map_nth.
Qed.

Lemma scale_entry g s i j : entry (scale_graph g s) i j == entry g i j / s.
Proof.
  unfold entry. rewrite wrow_of_scale. generalize (wrow_of g i). intros r.
  induction r as [|[j' w] t IH]; cbn [map rsum fst snd].
  - unfold Qdiv. ring.
  - rewrite IH, qn_eq. unfold Qdiv. ring.
Qed.

Lemma scale_wedge g s i j : wedge (scale_graph g s) i j -> wedge g i j.
Proof.
  intros [w Hin]. rewrite wrow_of_scale in Hin. apply in_map_iff in Hin.
  destruct Hin as [[j' w'] [E Hin]]. simpl in E. injection E as -> _. exists w'. exact Hin.
Qed.

Lemma scale_wf g s : wf_wgraph g -> wf_wgraph (scale_graph g s).
Proof.
  intros H i j w Hin. rewrite scale_length.
  destruct (scale_wedge g s i j (ex_intro _ w Hin)) as [w' Hin']. exact (H i j w' Hin').
Qed.

Lemma symmetrize_wedge g i j :
  wedge (symmetrize g) i j -> wedge g i j \/ wedge g j i.
Proof.
  intros H. apply tab_wedge in H. destruct H as (_ & _ & Hx). apply orb_true_iff in Hx.
  destruct Hx as [Hx|Hx]; unfold stored in Hx; apply existsb_exists in Hx;
    destruct Hx as [[j' w'] [Hin E]]; simpl in E; apply Nat.eqb_eq in E; subst j'.
  - left. exists w'. exact Hin.
  - right. exists w'. exact Hin.
Qed.

Lemma prep_connected g s i j : connected (scale_graph (symmetrize g) s) i j -> connected g i j.
Proof.
  apply (connected_map _ g (fun x => x)). intros a b Hw. apply scale_wedge in Hw. apply symmetrize_wedge in Hw.
  destruct Hw as [Hw|Hw]; [apply conn_edge; exact Hw|apply conn_sym, conn_edge; exact Hw].
Qed.

(** The node weights are [get_probs] of one weight per node of the graph. *)
Lemma node_weights_inv kind g ow iw :
  node_weights kind g = MOk (ow, iw) ->
  exists wo wi, get_probs_of wo = MOk ow /\ get_probs_of wi = MOk iw /\
                length wo = length g /\ length wi = length g.
Proof.
  unfold node_weights. intros H.
  destruct kind; repeat (destruct (get_probs_of _) eqn:? in H; [|discriminate]); injection H as <- <-.
  - exists (make_weights_out Degree g), (make_weights_in Degree g).
    rewrite make_weights_out_length, make_weights_in_length. auto.
  - exists (make_weights_out Degree g), (make_weights_out Degree g). rewrite make_weights_out_length. auto.
  - exists (make_weights_out Uniform g), (make_weights_out Uniform g). rewrite make_weights_out_length. auto.
Qed.

(** The adjacency the estimator works on (after get_adjacency and the optional shuffle). *)
Definition working_graph (kind : modkind) (m : wmat) (force_bipartite : bool) (index : option (list nat)) : wgraph :=
  let g0 := fst (get_adjacency m (match kind with Dugue => true | _ => false end) force_bipartite) in
  match index with Some ix => permute_graph g0 ix | None => g0 end.
Lemma pre_processing_inv kind m fb index p :
  pre_processing kind m fb index = MOk p ->
  let g1 := working_graph kind m fb index in
  exists ow iw, node_weights kind g1 = MOk (ow, iw) /\
    p_out p = ow /\ p_in p = iw /\
    p_adj p = scale_graph (symmetrize g1) (data_sum (symmetrize g1)).
Proof.
  unfold pre_processing, working_graph.
  destruct (get_adjacency m (match kind with Dugue => true | _ => false end) fb) as [g0 bip]. cbn [fst].
  set (g1 := match index with Some ix => permute_graph g0 ix | None => g0 end).
  destruct (node_weights kind g1) as [[ow iw]|] eqn:E; [|intros; discriminate].
  intros [= <-]. exists ow, iw. auto.
Qed.

Lemma prep_level kind m fb index p res :
  pre_processing kind m fb index = MOk p ->
  level_inv (p_adj p) (p_out p) (p_in p) res (p_adj p) (p_out p) (p_in p) (seq 0 (length (p_adj p))) /\
  length (p_adj p) = length (working_graph kind m fb index).
Proof.
  intros H. destruct (pre_processing_inv kind m fb index p H) as [ow [iw [Hnw [Ho [Hi Ha]]]]].
  set (g1 := working_graph kind m fb index) in *.
  destruct (node_weights_inv kind g1 ow iw Hnw) as [wo [wi [Eo [Ei [Lo Li]]]]].
  rewrite <- (get_probs_length _ _ Eo) in Lo. rewrite <- (get_probs_length _ _ Ei) in Li.
  assert (Hlen : length (p_adj p) = length g1) by (rewrite Ha, scale_length, symmetrize_length; reflexivity).
  split; [|exact Hlen].
  apply level_init.
  - rewrite Ha. apply scale_wf, symmetrize_wf.
  - rewrite Ha. intros i j Hi' Hj'. rewrite scale_length, symmetrize_length in Hi', Hj'.
    rewrite !scale_entry, !symmetrize_entry by assumption. unfold Qdiv. ring.
  - rewrite Ho, Lo, Hlen. reflexivity.
  - rewrite Hi, Li, Hlen. reflexivity.
Qed.

Lemma prep_nonempty kind m fb index p : pre_processing kind m fb index = MOk p -> (0 < length (p_adj p))%nat.
Proof.
  intros H. destruct (pre_processing_inv kind m fb index p H) as [ow [iw [Hnw _]]].
  destruct (node_weights_inv kind _ ow iw Hnw) as [wo [_ [Eo [_ [Lo _]]]]].
  rewrite (proj2 (prep_level kind m fb index p 0 H)), <- Lo. exact (get_probs_nonempty _ _ Eo).
Qed.

Lemma total_weight_symmetrize g :
  data_sum (symmetrize g) == 2 * total_weight g.
Proof.
  rewrite (data_sum_spec _ (symmetrize_wf g)). unfold total_weight. rewrite symmetrize_length.
  transitivity (qsum2 (length g) (length g) (fun i j => entry g i j + entry g j i)).
  { apply qsum2_ext. intros i j Hi Hj. apply symmetrize_entry; assumption. }
  rewrite qsum2_plus. unfold qsum2.
  rewrite (qsum_swap (length g) (length g) (fun i j => entry g j i)). ring.
Qed.

(** The objective the kernel optimises is the documented objective of the modularity kind,
    written on the working graph. *)
Lemma prep_objective kind m fb index p res labels :
  pre_processing kind m fb index = MOk p ->
  let g1 := working_graph kind m fb index in
  wf_wgraph g1 ->
  objective (p_adj p) (p_out p) (p_in p) res labels == kind_objective kind g1 res labels.
Proof.
  intros H g1 Hwf. destruct (pre_processing_inv kind m fb index p H) as [ow [iw [Hnw [Ho [Hi Ha]]]]].
  fold g1 in Hnw, Ha.
  unfold objective, kind_objective. rewrite Ha, scale_length, symmetrize_length.
  set (n := length g1). set (w := total_weight g1).
  apply qsum_ext. intros i Hi'. apply qsum_ext. intros j Hj'. apply Qmult_comp; [|reflexivity].
  rewrite scale_entry, (symmetrize_entry g1 i j Hi' Hj'), total_weight_symmetrize. fold w.
  apply Qplus_comp; [reflexivity|]. apply Qopp_comp. rewrite <- Qmult_assoc. apply Qmult_comp; [reflexivity|].
  assert (Hdiv : forall a b d, 0 < d -> (a / d) * (b / d) == a * b / (d * d)).
  { intros a b d Hd. field. intros E. rewrite E in Hd. lra. }
  rewrite Ho, Hi. unfold node_weights in Hnw. destruct kind.
  - destruct (get_probs_of (make_weights_out Degree g1)) as [pr|] eqn:E1; [|discriminate].
    destruct (get_probs_of (make_weights_in Degree g1)) as [pc|] eqn:E2; [|discriminate].
    injection Hnw as <- <-.
    destruct (degree_probs_out g1 pr i Hwf E1 Hi') as [Hw Eo].
    destruct (degree_probs_in g1 pc j E2 Hj') as [_ Ei].
    exact (Qeq_trans _ _ _ (Qmult_comp _ _ Eo _ _ Ei) (Hdiv _ _ _ Hw)).
  - destruct (get_probs_of (make_weights_out Degree g1)) as [pr|] eqn:E1; [|discriminate].
    injection Hnw as <- <-.
    destruct (degree_probs_out g1 pr i Hwf E1 Hi') as [Hw Eo].
    destruct (degree_probs_out g1 pr j Hwf E1 Hj') as [_ Eo'].
    exact (Qeq_trans _ _ _ (Qmult_comp _ _ Eo _ _ Eo') (Hdiv _ _ _ Hw)).
  - destruct (get_probs_of (make_weights_out Uniform g1)) as [pr|] eqn:E1; [|discriminate].
    injection Hnw as <- <-. simpl make_weights_out in E1.
    refine (Qeq_trans _ _ _ (Qmult_comp _ _ (uniform_probs g1 pr i E1 Hi') _ _ (uniform_probs g1 pr j E1 Hj'))
              (Hdiv 1 1 _ _)).
    pose proof (get_probs_nonempty _ _ E1) as Hne. rewrite repeat_length in Hne.
    unfold Qlt. simpl. lia.
Qed.

(** For the (default) Dugue kind this is the directed modularity of get_modularity's docstring. *)
Lemma kind_objective_dugue_spec g res labels :
  ~ total_weight g == 0 ->
  kind_objective Dugue g res labels == spec_modularity g labels res.
Proof.
  intros Hw. unfold kind_objective, spec_modularity. set (n := length g). set (w := total_weight g) in *.
  fold (qsum2 n n (fun i j => ((entry g i j + entry g j i) / (2 * w)
           - res * (spec_out_deg g i * spec_in_deg g j / (w * w))) * delta labels i j)).
  fold (qsum2 n n (fun i j => (entry g i j - res * spec_out_deg g i * spec_in_deg g j / w) * delta labels i j)).
  rewrite <- qsum2_scal.
  transitivity (qsum2 n n (fun i j => (1 / (2 * w)) * (entry g i j * delta labels i j))
                + qsum2 n n (fun i j => (1 / (2 * w)) * (entry g j i * delta labels i j))
                - qsum2 n n (fun i j => res * (spec_out_deg g i * spec_in_deg g j / (w * w)) * delta labels i j)).
  { rewrite <- qsum2_plus, <- qsum2_minus. apply qsum2_ext. intros i j _ _. unfold Qdiv. ring. }
  assert (Esw : qsum2 n n (fun i j => (1 / (2 * w)) * (entry g j i * delta labels i j))
                == qsum2 n n (fun i j => (1 / (2 * w)) * (entry g i j * delta labels i j))).
  { unfold qsum2. rewrite qsum_swap. apply qsum_ext. intros i _. apply qsum_ext. intros j _.
    unfold delta. rewrite (Nat.eqb_sym (lab labels j)). reflexivity. }
  rewrite Esw. rewrite <- qsum2_plus, <- qsum2_minus. apply qsum2_ext. intros i j _ _. field. exact Hw.
Qed.

(** The loop as Louvain.fit / Leiden.fit call it on the pre-processed input. *)
Definition louvain_run fuel kfuel res tol_opt tol_agg n_agg (p : prep) : mres fit_result :=
  louvain_loop fuel kfuel res tol_opt tol_agg n_agg (p_adj p) (p_out p) (p_in p)
               (seq 0 (length (p_adj p))) 0 [] marg0.
Definition leiden_run fuel kfuel res tol_opt tol_agg n_agg refine (p : prep) : mres fit_result :=
  leiden_loop fuel kfuel res tol_opt tol_agg n_agg refine (p_adj p) (p_out p) (p_in p)
              (seq 0 (length (p_adj p))) (seq 0 (length (p_adj p))) 0 [] marg0.

(** * Louvain.fit: objective(final partition) - objective(singletons) = sum of the reported increases >= 0,
      and clusters lie inside connected components of the working graph *)
Definition fit_core_spec kind m fb index p res (r : fit_result) : Prop :=
  let obj := objective (p_adj p) (p_out p) (p_in p) res in
  let g1 := working_graph kind m fb index in
  obj (r_membership r) - obj (seq 0 (length (p_adj p))) == log_total (r_log r) /\
  0 <= log_total (r_log r) /\
  log_nonneg (r_log r) /\
  length (r_membership r) = length g1 /\ cc_inv g1 (r_membership r).

Lemma fit_core_of_loop kind m fb index p res r :
  pre_processing kind m fb index = MOk p ->
  loop_spec (p_adj p) (p_out p) (p_in p) res (seq 0 (length (p_adj p))) [] r ->
  fit_core_spec kind m fb index p res r.
Proof.
  intros Hp [R1 [R2 [R3 R4]]]. destruct (prep_level kind m fb index p res Hp) as [_ Hlen].
  assert (Hnn : log_nonneg (r_log r)) by (apply R2; intros x []).
  unfold log_total at 2 in R1. simpl in R1.
  split; [lra|]. split; [apply log_total_nonneg; exact Hnn|]. split; [exact Hnn|].
  split; [rewrite R3; exact Hlen|].
  intros u v Hu Hv E. rewrite <- Hlen in Hu, Hv. specialize (R4 u v Hu Hv E).
  destruct (pre_processing_inv kind m fb index p Hp) as [ow [iw [_ [_ [_ Ha]]]]].
  rewrite Ha in R4. exact (prep_connected _ _ u v R4).
Qed.

Lemma louvain_fit_core fuel kfuel kind res tol_opt tol_agg n_agg m fb index p r :
  pre_processing kind m fb index = MOk p ->
  louvain_run fuel kfuel res tol_opt tol_agg n_agg p = MOk r ->
  fit_core_spec kind m fb index p res r.
Proof.
  intros Hp Hl. apply fit_core_of_loop; [exact Hp|].
  exact (louvain_loop_ok _ _ _ _ _ _ _ _ _ _ _ _ _ _ _ _ r (proj1 (prep_level kind m fb index p res Hp)) Hl).
Qed.

Lemma index_of_nth u c : NoDup u -> (c < length u)%nat -> index_of (nth c u 0%nat) u = c.
Proof.
  revert c; induction u as [|y t IH]; intros c Hnd Hc; [simpl in Hc; lia|].
  inversion Hnd as [|? ? Hnin Hnd']; subst. destruct c as [|c]; simpl.
  - rewrite Nat.eqb_refl. reflexivity.
  - simpl in Hc. destruct (Nat.eqb_spec y (nth c t 0%nat)) as [E|E].
    + exfalso. apply Hnin. rewrite E. apply nth_In. lia.
    + rewrite IH by (auto; lia). reflexivity.
Qed.

Lemma fold_max_In (l : list nat) : l <> [] -> In (fold_right Nat.max 0%nat l) l.
Proof.
  induction l as [|a t IH]; intros H; [congruence|]. simpl.
  destruct t as [|b t'].
  - simpl. left. lia.
  - assert (Ht : In (fold_right Nat.max 0%nat (b :: t')) (b :: t')) by (apply IH; discriminate).
    destruct (Nat.max_spec a (fold_right Nat.max 0%nat (b :: t'))) as [[_ E]|[_ E]]; rewrite E.
    + right. exact Ht.
    + left. reflexivity.
Qed.

Lemma distinct_sorted_NoDup l : NoDup (distinct_sorted l).
Proof.
  unfold distinct_sorted. apply sorted_NoDup. exact (proj1 (distinct_fold l [] (SSorted_nil lt))).
Qed.

Lemma unique_inverse_used l C :
  l <> [] -> (C < n_labels (unique_inverse l))%nat -> In C (unique_inverse l).
Proof.
  intros Hne HC. set (u := distinct_sorted l).
  assert (Hmax : In (fold_right Nat.max 0%nat (unique_inverse l)) (unique_inverse l)).
  { apply fold_max_In. unfold unique_inverse. destruct l; [congruence|discriminate]. }
  unfold unique_inverse in Hmax. fold u in Hmax. apply in_map_iff in Hmax.
  destruct Hmax as [y [Ey Hy]].
  assert (Hyu : In y u) by (apply distinct_sorted_In; exact Hy).
  assert (Hlt : (C < length u)%nat).
  { unfold n_labels in HC. unfold unique_inverse in HC. fold u in HC. rewrite <- Ey in HC.
    pose proof (index_of_lt y u Hyu). lia. }
  unfold unique_inverse. fold u. apply in_map_iff. exists (nth C u 0%nat).
  split; [apply index_of_nth; [apply distinct_sorted_NoDup|exact Hlt]|].
  apply distinct_sorted_In, nth_In. exact Hlt.
Qed.

Lemma nthn_map_seq (f : nat -> nat) k c : (c < k)%nat -> nthn (map f (seq 0 k)) c = f c.
Proof. apply nth_map_seq. Qed.

(** Edges of the graph map to edges (or to the same node) of the aggregate. *)
Lemma connected_to_aggregate g labels k :
  wf_wgraph g -> (forall i, (i < length g)%nat -> (lab labels i < k)%nat) ->
  forall a b, connected g a b -> connected (aggregate_graph g labels k) (lab labels a) (lab labels b).
Proof.
  intros Hwf Hlt. apply connected_map. intros a b [w Hin].
  assert (Ha : (a < length g)%nat).
  { destruct (Nat.lt_ge_cases a (length g)) as [H|H]; [exact H|].
    rewrite wrow_of_overflow in Hin by exact H. destruct Hin. }
  assert (Hb : (b < length g)%nat) by exact (Hwf a b w Hin).
  apply conn_edge, tab_wedge. split; [apply Hlt; exact Ha|]. split; [apply Hlt; exact Hb|].
  unfold agg_stored. apply existsb_exists. exists a. split; [apply in_seq; lia|].
  rewrite Nat.eqb_refl. simpl. apply existsb_exists. exists (b, w). split; [exact Hin|].
  simpl. apply Nat.eqb_refl.
Qed.

Definition refines (n : nat) (fine coarse : list nat) : Prop :=
  forall x y, (x < n)%nat -> (y < n)%nat -> lab fine x = lab fine y -> lab coarse x = lab coarse y.
(** What optimize_refine_core guarantees about its answer: one refined label per node, refined
    clusters are subsets of the coarse clusters, and every refined cluster is connected (a node only
    ever joins the refined cluster of a neighbour inside its own coarse cluster). *)
Definition refine_contract (refine : nat -> wgraph -> list nat -> list nat) : Prop :=
  forall count g labels, wf_wgraph g -> length labels = length g ->
    let rf := refine count g labels in
    length rf = length g /\ refines (length g) rf labels /\ cc_inv g rf.
Lemma unique_inverse_refines n rf lu :
  length rf = n -> refines n rf lu -> refines n (unique_inverse rf) lu.
Proof.
  intros Hl Href x y Hx Hy E. apply Href; auto. apply Nat.eqb_eq.
  rewrite <- (unique_inverse_pattern rf x y) by (rewrite Hl; assumption). apply Nat.eqb_eq. exact E.
Qed.

(** [labels_refined = np.unique(refine ...)[1]], for an oracle meeting the contract. *)
Lemma refined_labels_ok refine count g labels :
  refine_contract refine -> wf_wgraph g -> length labels = length g -> (0 < length g)%nat ->
  let rho := unique_inverse (refine count g labels) in
  length rho = length g /\ refines (length g) rho labels /\ cc_inv g rho /\
  (forall C, (C < n_labels rho)%nat -> In C rho).
Proof.
  intros Hc Hwf Hlen Hpos rho. destruct (Hc count g labels Hwf Hlen) as [Rl [Rref Rcc]].
  split; [unfold rho; rewrite unique_inverse_length; exact Rl|].
  split; [apply unique_inverse_refines; assumption|]. split; [apply unique_inverse_cc_inv; assumption|].
  intros C HC. apply unique_inverse_used; [|exact HC]. intros E. rewrite E in Rl. simpl in Rl. lia.
Qed.

(** One aggregation of Leiden.fit: by the REFINED labels [rho], keeping the COARSE labels [lu]. *)
Section RefinedAggregation.
  Context (g : wgraph) (lu rho : list nat).
  Let k := n_labels rho.
  Context (Hlu : length lu = length g) (Hrho : length rho = length g).
  Context (Href : refines (length g) rho lu).
  Context (Honto : forall C, (C < k)%nat -> In C rho).

  Lemma coarse_of_refined_length : length (coarse_of_refined lu rho k) = k.
  Proof. unfold coarse_of_refined. rewrite map_length, seq_length. reflexivity. Qed.

  Lemma coarse_of_refined_lab C :
    (C < k)%nat -> lab (coarse_of_refined lu rho k) C = lab lu (index_of C rho).
  Proof. intros HC. exact (nthn_map_seq (fun c => nthn lu (index_of c rho)) k C HC). Qed.
  (** the aggregated node [rho y] gets the coarse label of y, whichever member y of the refined cluster *)
  Lemma coarse_of_refined_member y :
    (y < length g)%nat -> lab (coarse_of_refined lu rho k) (lab rho y) = lab lu y.
  Proof.
    intros Hy. assert (HC : (lab rho y < k)%nat) by (apply lab_lt_n_labels; lia).
    rewrite (coarse_of_refined_lab _ HC).
    pose proof (Honto _ HC) as Hin.
    apply Href.
    - rewrite <- Hrho. apply index_of_lt. exact Hin.
    - exact Hy.
    - unfold lab, nthn. apply nth_index_of. exact Hin.
  Qed.
  (** [membership.dot(get_membership(labels_refined))] followed by the coarse labels of the aggregated nodes
      = the coarse labels of the level, node by node *)
  Lemma coarse_partition_preserved (membership : list nat) :
    (forall c, In c membership -> (c < length g)%nat) ->
    map (nthn (coarse_of_refined lu rho k)) (map (fun c => nthn rho c) membership)
    = map (fun c => nthn lu c) membership.
  Proof.
    intros H. rewrite map_map. apply map_ext_in. intros c Hc. exact (coarse_of_refined_member c (H c Hc)).
  Qed.
  Context (Hwf : wf_wgraph g).

  Lemma refined_aggregation_objective ows iws res :
    objective (aggregate_graph g rho k) (cluster_sums k rho ows) (cluster_sums k rho iws) res
              (coarse_of_refined lu rho k)
    == objective g ows iws res lu.
  Proof.
    assert (Hlt : forall i, (i < length g)%nat -> (lab rho i < k)%nat).
    { intros i Hi. apply lab_lt_n_labels. lia. }
    etransitivity; [exact (aggregate_objective g rho k Hwf Hrho Hlt ows iws res _)|].
    apply objective_ext. intros x Hx. rewrite lab_map by (rewrite Hrho; exact Hx).
    exact (coarse_of_refined_member x Hx).
  Qed.

  Lemma coarse_of_refined_cc_inv :
    cc_inv g lu -> cc_inv (aggregate_graph g rho k) (coarse_of_refined lu rho k).
  Proof.
    intros Hcc a b Ha Hb E. rewrite agg_length in Ha, Hb.
    rewrite (coarse_of_refined_lab a Ha), (coarse_of_refined_lab b Hb) in E.
    pose proof (Honto a Ha) as Ia. pose proof (Honto b Hb) as Ib.
    assert (G : connected (aggregate_graph g rho k) (lab rho (index_of a rho)) (lab rho (index_of b rho))).
    { apply connected_to_aggregate; [exact Hwf|intros i Hi; apply lab_lt_n_labels; rewrite Hrho; exact Hi|].
      apply Hcc; [rewrite <- Hrho; apply index_of_lt; exact Ia|rewrite <- Hrho; apply index_of_lt; exact Ib|exact E]. }
    unfold lab, nthn in G. rewrite (nth_index_of a rho Ia), (nth_index_of b rho Ib) in G. exact G.
  Qed.
End RefinedAggregation.

Section LeidenLevels.
  Context (g0 : wgraph) (ows0 iws0 : list Q) (res : Q).
  Let obj0 := objective g0 ows0 iws0 res.
  Context (refine : nat -> wgraph -> list nat -> list nat) (Hrefine : refine_contract refine).

  (** One iteration of the [while not stop] loop, from the answer of _optimize to the arguments of the
      next iteration. *)
  Lemma leiden_step kfuel tol_opt g ows iws labels membership count mg st inc :
    level_inv g0 ows0 iws0 res g ows iws membership ->
    length labels = length g -> (0 < length g)%nat ->
    optimize kfuel g ows iws res tol_opt labels (cluster_sums (n_labels labels) labels ows)
             (cluster_sums (n_labels labels) labels iws) mg = Some (st, inc) ->
    let lu := unique_inverse (k_labels st) in
    let rho := unique_inverse (refine (S count) g lu) in
    let k := n_labels rho in
    let g' := aggregate_graph g rho k in
    let labels' := coarse_of_refined lu rho k in
    let membership' := map (nthn rho) membership in
    0 <= inc /\
    inc == obj0 (map (nthn lu) membership) - obj0 (map (nthn labels) membership) /\
    (cc_inv g labels -> cc_inv g lu) /\
    level_inv g0 ows0 iws0 res g' (cluster_sums k rho ows) (cluster_sums k rho iws) membership' /\
    length labels' = length g' /\ (0 < length g')%nat /\
    (cc_inv g lu -> cc_inv g' labels') /\
    map (nthn labels') membership' = map (nthn lu) membership.
  Proof.
    intros Hlv Hll Hpos Eopt lu rho k g' labels' membership'.
    destruct (level_optimize _ _ _ _ _ _ _ _ _ _ _ _ _ _ _ _ Hlv (kinv_cluster_sums g ows iws labels mg Hll) Eopt)
      as [Hlu [Kpos [Hinc Hcc]]]. fold lu in Hlu, Hinc, Hcc.
    pose proof (lv_wf _ _ _ _ _ _ _ _ Hlv) as Hwf.
    destruct (refined_labels_ok refine (S count) g lu Hrefine Hwf Hlu Hpos) as [Hrho [Hrefrho [Hccrho Honto]]].
    fold rho in Hrho, Hrefrho, Hccrho, Honto. fold k in Honto.
    split; [exact Kpos|]. split; [exact Hinc|]. split; [exact Hcc|].
    split; [exact (level_step g0 ows0 iws0 res g ows iws membership rho Hlv Hrho Hccrho)|].
    split; [unfold labels', g', k; rewrite (coarse_of_refined_length lu rho), agg_length; reflexivity|].
    split; [unfold g'; rewrite agg_length; unfold k, n_labels; lia|].
    split; [exact (coarse_of_refined_cc_inv g lu rho Hrho Honto Hwf)|].
    exact (coarse_partition_preserved g lu rho Hlu Hrho Hrefrho Honto membership
             (level_members_lt g0 ows0 iws0 res g ows iws membership Hlv)).
  Qed.

  Lemma leiden_loop_ok kfuel tol_opt tol_agg n_agg : forall fuel g ows iws labels membership count log mg r,
    level_inv g0 ows0 iws0 res g ows iws membership ->
    length labels = length g -> (0 < length g)%nat -> cc_inv g labels ->
    leiden_loop fuel kfuel res tol_opt tol_agg n_agg refine g ows iws labels membership count log mg = MOk r ->
    loop_spec g0 ows0 iws0 res (map (nthn labels) membership) log r.
  Proof.
    induction fuel as [|fuel IH]; intros g ows iws labels membership count log mg r Hlv Hll Hpos Hccl H;
      cbn [leiden_loop] in H; [discriminate|].
    destruct (optimize kfuel g ows iws res tol_opt labels (cluster_sums (n_labels labels) labels ows)
                       (cluster_sums (n_labels labels) labels iws) mg) as [[st inc]|] eqn:Eopt; [|discriminate].
    pose proof (leiden_step kfuel tol_opt g ows iws labels membership count mg st inc Hlv Hll Hpos Eopt) as S.
    cbv zeta in S. destruct S as [Kpos [Hinc [Hcc [Hnext [Hl' [Hp' [Hcc' Ecomp]]]]]]].
    specialize (Hcc Hccl). specialize (Hcc' Hcc).
    change (fun c => nthn ?l c) with (nthn l) in H.
    set (lu := unique_inverse (k_labels st)) in *.
    set (rho := unique_inverse (refine (S count) g lu)) in *.
    destruct (Nat.eqb (n_labels rho) 1 || Qle_bool inc tol_agg || Z.eqb (Z.of_nat (S count)) n_agg).
    - injection H as <-. apply (loop_spec_stop g0 ows0 iws0 res g ows iws); assumption.
    - apply IH in H; [|assumption..]. rewrite Ecomp in H.
      exact (loop_spec_continue g0 ows0 iws0 res _ _ _ _ _ H Hinc Kpos).
  Qed.
End LeidenLevels.

Lemma leiden_fit_core refine fuel kfuel kind res tol_opt tol_agg n_agg m fb index p r :
  refine_contract refine ->
  pre_processing kind m fb index = MOk p ->
  leiden_run fuel kfuel res tol_opt tol_agg n_agg refine p = MOk r ->
  fit_core_spec kind m fb index p res r.
Proof.
  intros Hc Hp Hl. apply fit_core_of_loop; [exact Hp|].
  pose proof (proj1 (prep_level kind m fb index p res Hp)) as Hlv.
  rewrite <- (level_mem_id _ _ _ _ _ _ _ _ Hlv).
  exact (leiden_loop_ok _ _ _ _ refine Hc _ _ _ _ _ _ _ _ _ _ _ _ _ r Hlv (seq_length _ _)
           (prep_nonempty kind m fb index p Hp) (cc_inv_singletons (p_adj p)) Hl).
Qed.

(** * _post_processing (no shuffle): the returned labels_ describe the same partition *)

Lemma insert_by_In size c l x : In x (insert_by size c l) <-> x = c \/ In x l.
Proof.
  induction l as [|d t IH]; simpl.
  - split; [intros [<-|[]]|intros [->|[]]]; left; reflexivity.
  - destruct (Nat.ltb (size d) (size c)); simpl; [split; [intros [<-|H]|intros [->|H]]; auto|].
    rewrite IH. split; [intros [H|[H|H]]|intros [H|[H|H]]]; auto.
Qed.

Lemma argsort_fold_In size l0 : forall acc x,
  In x (fold_left (fun acc c => insert_by size c acc) l0 acc) <-> In x acc \/ In x l0.
Proof.
  induction l0 as [|c t IH]; intros acc x; cbn [fold_left].
  - simpl. tauto.
  - rewrite IH, insert_by_In. simpl. split; [intros [[->|H]|H]|intros [H|[->|H]]]; auto.
Qed.

Lemma argsort_desc_In sizes x : In x (argsort_desc sizes) <-> (x < length sizes)%nat.
Proof.
  unfold argsort_desc. rewrite argsort_fold_In, in_seq. simpl. intuition lia.
Qed.

Lemma post_processing_pattern mem sort x y :
  (x < length mem)%nat -> (y < length mem)%nat ->
  let labels := post_processing mem sort
                  (argsort_desc (cluster_sizes (unique_inverse mem) (n_clusters mem))) None in
  Nat.eqb (lab labels x) (lab labels y) = Nat.eqb (lab mem x) (lab mem y).
Proof.
  intros Hx Hy. unfold post_processing. destruct sort; [|reflexivity].
  unfold reindex_labels. set (order := argsort_desc _). set (u := unique_inverse mem).
  assert (Hu : length u = length mem) by apply unique_inverse_length.
  rewrite !lab_map by (rewrite Hu; assumption).
  rewrite <- (unique_inverse_pattern mem x y Hx Hy). fold u.
  apply index_of_eqb, argsort_desc_In. unfold cluster_sizes. rewrite map_length, seq_length.
  unfold u, unique_inverse. rewrite lab_map by exact Hx. unfold n_clusters.
  apply index_of_lt, distinct_sorted_In, nth_In. exact Hx.
Qed.

Lemma post_processing_length mem sort order : length (post_processing mem sort order None) = length mem.
Proof.
  unfold post_processing. destruct sort; [|reflexivity].
  unfold reindex_labels. rewrite map_length. apply unique_inverse_length.
Qed.

(** What Louvain.fit and Leiden.fit do around their loop. *)
Definition fit_with (loop : prep -> mres fit_result) (kind : modkind) (sort_clusters : bool) (m : wmat)
           (force_bipartite : bool) (index : option (list nat)) : mres (list nat * list logline * marg) :=
  if Nat.eqb (nnz (w_rows m)) 0 then MErr MValueError
  else
  match pre_processing kind m force_bipartite index with
  | MErr e => MErr e
  | MOk p =>
      match loop p with
      | MErr e => MErr e
      | MOk r =>
          let mem := r_membership r in
          let order := argsort_desc (cluster_sizes (unique_inverse mem) (n_clusters mem)) in
          MOk (post_processing mem sort_clusters order index, r_log r, r_fit_margin r)
      end
  end.

Lemma louvain_fit_with fuel kfuel kind res tol_opt tol_agg n_agg sort m fb index :
  louvain_fit fuel kfuel kind res tol_opt tol_agg n_agg sort m fb index
  = fit_with (louvain_run fuel kfuel res tol_opt tol_agg n_agg) kind sort m fb index.
Proof. reflexivity. Qed.

Lemma leiden_fit_with fuel kfuel kind res tol_opt tol_agg n_agg sort refine m fb index :
  leiden_fit fuel kfuel kind res tol_opt tol_agg n_agg sort refine m fb index
  = fit_with (leiden_run fuel kfuel res tol_opt tol_agg n_agg refine) kind sort m fb index.
Proof. reflexivity. Qed.

(** Without shuffling, on the returned labels_ and the documented objective of the modularity kind on
    the working graph. *)
Lemma fit_with_labels loop kind res sort m fb labels log mg :
  (forall p r, pre_processing kind m fb None = MOk p -> loop p = MOk r -> fit_core_spec kind m fb None p res r) ->
  fit_with loop kind sort m fb None = MOk (labels, log, mg) ->
  let g1 := working_graph kind m fb None in
  wf_wgraph g1 ->
  kind_objective kind g1 res labels - kind_objective kind g1 res (seq 0 (length g1)) == log_total log /\
  0 <= log_total log /\ log_nonneg log /\
  length labels = length g1 /\ cc_inv g1 labels.
Proof.
  intros Hloop H g1 Hwf. revert H. unfold fit_with.
  destruct (Nat.eqb (nnz (w_rows m)) 0); [discriminate|].
  destruct (pre_processing kind m fb None) as [p|] eqn:Hp; [|discriminate].
  destruct (loop p) as [r|] eqn:Hl; [|discriminate].
  intros H. injection H as <- <- _.
  destruct (Hloop p r eq_refl Hl) as [Hobj [Hnn [Hlog [Hlen Hconn]]]]. fold g1 in Hlen, Hconn.
  set (labels := if sort then _ else _).
  pose proof (proj2 (prep_level kind m fb None p res Hp)) as Hlg. fold g1 in Hlg.
  assert (Hpat : forall x y, (x < length g1)%nat -> (y < length g1)%nat ->
            Nat.eqb (lab labels x) (lab labels y) = Nat.eqb (lab (r_membership r) x) (lab (r_membership r) y)).
  { intros x y Hx Hy. rewrite <- Hlen in Hx, Hy.
    exact (post_processing_pattern (r_membership r) sort x y Hx Hy). }
  split; [|split; [exact Hnn|split; [exact Hlog|split]]].
  - pose proof (prep_objective kind m fb None p res labels Hp Hwf) as P1.
    pose proof (prep_objective kind m fb None p res (seq 0 (length g1)) Hp Hwf) as P2.
    cbv zeta in P1, P2. fold g1 in P1, P2. rewrite <- P1, <- P2, <- Hlg.
    rewrite (objective_pattern _ _ _ res (r_membership r) labels) by (rewrite Hlg; exact Hpat).
    exact Hobj.
  - exact (eq_trans (post_processing_length (r_membership r) sort _) Hlen).
  - exact (cc_inv_pattern g1 (r_membership r) labels Hpat Hconn).
Qed.
