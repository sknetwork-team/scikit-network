(** C01, second sentence - the aliasing side: proofs about the may-alias / may-mutate analysis of
    Model/ArgFrame.v.

    1. FRAME: if the analysis reports no parameter bound (at entry) to a location of the entry heap, that
       location holds the same array after any terminating run ([frame_loc], [frame_all]).
    2. MONOTONICITY: the analysis is monotone in the abstract environment and the accumulator, and replacing
       aliases / views by copies can only shrink the report ([an_mono], [more_copies_shrinks]).
    3. On the historical shapes of Model/ArgFrame.v: the repairs are [more_copies] instances
       ([asarray_fixed_more_copies], [kernel_fixed_more_copies]), the inclusion is strict there
       ([asarray_report_strict]), the repaired kernel reports nothing ([kernel_fixed_clean]), the frame theorem
       applied to a repaired variant ([asarray_fixed_frame]); a program without writes reports nothing
       ([no_write_acc]). *)
From Coq Require Import Lia.
From SKN Require Import Base.Util Model.ArgFrame.
Set Warnings "-notation-overridden".

Lemma lookup_cons_eq {A : Type} (x : var) (v : A) (e : list (var * A)) :
  lookup x ((x, v) :: e) = Some v.
Proof. simpl. rewrite Nat.eqb_refl. reflexivity. Qed.

Lemma lookup_cons_neq {A : Type} (x y : var) (v : A) (e : list (var * A)) :
  x <> y -> lookup x ((y, v) :: e) = lookup x e.
Proof. intros Hne. simpl. apply Nat.eqb_neq in Hne. rewrite Hne. reflexivity. Qed.

Lemma set_nth_spec {A : Type} (l : list A) (i : nat) (v : A) (l' : list A) :
  set_nth l i v = Some l' ->
  length l' = length l /\ forall k, k <> i -> nth_error l' k = nth_error l k.
Proof.
  revert i l'. induction l as [|a t IH]; intros i l' Hs; simpl in Hs.
  - discriminate Hs.
  - destruct i as [|j].
    + injection Hs as Hs. subst l'. split; [reflexivity|].
      intros [|k] Hk; [congruence | reflexivity].
    + destruct (set_nth t j v) as [t'|] eqn:Et; [|discriminate Hs].
      injection Hs as Hs. subst l'. destruct (IH j t' Et) as [Hl Ho].
      split; [simpl; f_equal; exact Hl|].
      intros [|k] Hk; [reflexivity|]. simpl. apply Ho. congruence.
Qed.

Lemma aget_cons_eq (x : var) (s : list var) (a : aenv) : aget x ((x, s) :: a) = s.
Proof. unfold aget. rewrite lookup_cons_eq. reflexivity. Qed.

Lemma aget_cons_neq (x y : var) (s : list var) (a : aenv) : x <> y -> aget x ((y, s) :: a) = aget x a.
Proof. intros Hne. unfold aget. rewrite (lookup_cons_neq x y s a Hne). reflexivity. Qed.

Lemma lookup_map_keys {B : Type} (f : var -> B) (x : var) (ks : list var) :
  lookup x (map (fun k => (k, f k)) ks) = if memn x ks then Some (f x) else None.
Proof.
  induction ks as [|k t IH]; simpl.
  - reflexivity.
  - unfold memn in *. simpl. destruct (Nat.eqb x k) eqn:Exk.
    + apply Nat.eqb_eq in Exk. subst k. reflexivity.
    + simpl. exact IH.
Qed.

Lemma lookup_none_not_key {A : Type} (x : var) (a : list (var * A)) :
  ~ In x (map fst a) -> lookup x a = None.
Proof.
  induction a as [|[y v] t IH]; intros Hn; simpl.
  - reflexivity.
  - simpl in Hn. destruct (Nat.eqb x y) eqn:Exy.
    + apply Nat.eqb_eq in Exy. subst y. exfalso. apply Hn. left. reflexivity.
    + apply IH. intros Hin. apply Hn. right. exact Hin.
Qed.

(** The identity that makes the join easy to reason about: it holds for EVERY name, bound or not. *)
Lemma aget_ajoin (x : var) (a1 a2 : aenv) : aget x (ajoin a1 a2) = aget x a1 ++ aget x a2.
Proof.
  unfold ajoin.
  unfold aget at 1.
  rewrite (lookup_map_keys (fun k => aget k a1 ++ aget k a2) x (map fst a1 ++ map fst a2)).
  destruct (memn x (map fst a1 ++ map fst a2)) eqn:Em; [reflexivity|].
  apply memn_false in Em. rewrite in_app_iff in Em.
  unfold aget. rewrite !lookup_none_not_key by tauto. reflexivity.
Qed.

Lemma aget_entry (e0 : env) (x : var) (v : view) :
  lookup x e0 = Some v -> aget x (entry_aenv e0) = [x].
Proof.
  unfold aget, entry_aenv.
  induction e0 as [|[y w] t IH]; intros Hl; simpl in Hl.
  - discriminate Hl.
  - simpl. destruct (Nat.eqb x y) eqn:Exy.
    + apply Nat.eqb_eq in Exy. subst y. reflexivity.
    + apply IH. exact Hl.
Qed.

(** Callee frame: concrete and abstract bindings of a formal sit at the same position. *)
Lemma lookup_combine_frames (e : env) (g : var -> list var) (x : var) (v : view) :
  forall (formals actuals : list var) (vs : list view),
    lookup_list e actuals = Some vs ->
    lookup x (combine formals vs) = Some v ->
    exists y, lookup y e = Some v /\ lookup x (combine formals (map g actuals)) = Some (g y).
Proof.
  induction formals as [|f ft IH]; intros actuals vs Hll Hl.
  - simpl in Hl. discriminate Hl.
  - destruct actuals as [|y yt].
    + simpl in Hll. injection Hll as Hll. subst vs. simpl in Hl. discriminate Hl.
    + simpl in Hll.
      destruct (lookup y e) as [w|] eqn:Ey; [|discriminate Hll].
      destruct (lookup_list e yt) as [ws|] eqn:Eyt; [|discriminate Hll].
      injection Hll as Hll. subst vs. simpl in Hl. simpl.
      destruct (Nat.eqb x f) eqn:Exf.
      * injection Hl as Hl. subst w. exists y. split; [exact Ey | reflexivity].
      * apply (IH yt ws Eyt Hl).
Qed.

(** The analysis of the compound constructs, written with projections: the proofs below rewrite with
    these instead of destructing the intermediate pairs. *)
Lemma an_cmd_if (e : expr) (p1 p2 : prog) (a : aenv) (m : list var) :
  an_cmd (CIf e p1 p2) a m =
  (ajoin (fst (an_prog p1 a m)) (fst (an_prog p2 a (snd (an_prog p1 a m)))),
   snd (an_prog p2 a (snd (an_prog p1 a m)))).
Proof.
  simpl. destruct (an_prog p1 a m) as [a1 m1]. simpl. destruct (an_prog p2 a m1). reflexivity.
Qed.

Lemma an_cmd_call (x : var) (fs acts : list var) (b : prog) (r : var) (a : aenv) (m : list var) :
  an_cmd (CCall x fs acts b r) a m =
  ((x, aget r (fst (an_prog b (combine fs (map (fun y => aget y a) acts)) m))) :: a,
   snd (an_prog b (combine fs (map (fun y => aget y a) acts)) m)).
Proof. simpl. destruct (an_prog b (combine fs (map (fun y => aget y a) acts)) m). reflexivity. Qed.

Lemma an_prog_seq (c : cmd) (p : prog) (a : aenv) (m : list var) :
  an_prog (PSeq c p) a m = an_prog p (fst (an_cmd c a m)) (snd (an_cmd c a m)).
Proof. simpl. destruct (an_cmd c a m). reflexivity. Qed.

Scheme cmd_prog_ind := Induction for cmd Sort Prop
  with prog_cmd_ind := Induction for prog Sort Prop.
Combined Scheme cmd_prog_mutind from cmd_prog_ind, prog_cmd_ind.

Lemma an_acc_grows :
  (forall (c : cmd) (a : aenv) (m : list var), incl m (snd (an_cmd c a m))) /\
  (forall (p : prog) (a : aenv) (m : list var), incl m (snd (an_prog p a m))).
Proof.
  apply cmd_prog_mutind.
  - intros x y a m. simpl. apply incl_refl.
  - intros x y off a m. simpl. apply incl_refl.
  - intros x y a m. simpl. apply incl_refl.
  - intros x es a m. simpl. apply incl_refl.
  - intros x i e a m. simpl. apply incl_appr. apply incl_refl.
  - intros e p1 IH1 p2 IH2 a m. rewrite an_cmd_if. cbn [snd].
    apply (incl_tran (IH1 a m)). apply IH2.
  - intros x formals actuals body IHb ret a m. rewrite an_cmd_call. cbn [snd]. apply IHb.
  - intros a m. simpl. apply incl_refl.
  - intros c IHc p IHp a m. rewrite an_prog_seq. apply (incl_tran (IHc a m)). apply IHp.
Qed.

Lemma an_cmd_acc_grows (c : cmd) (a : aenv) (m : list var) (a' : aenv) (m' : list var) :
  an_cmd c a m = (a', m') -> incl m m'.
Proof. intros H. pose proof (proj1 an_acc_grows c a m) as Hi. rewrite H in Hi. exact Hi. Qed.

(** Order on abstract environments: every alias set is included. *)
Definition ale (a a' : aenv) : Prop := forall x, incl (aget x a) (aget x a').

Lemma ale_refl (a : aenv) : ale a a.
Proof. intros x. apply incl_refl. Qed.

Lemma ale_cons (a a' : aenv) (x : var) (s s' : list var) :
  ale a a' -> incl s s' -> ale ((x, s) :: a) ((x, s') :: a').
Proof.
  intros Ha Hs z. destruct (Nat.eq_dec z x) as [Ezx|Nzx].
  - subst z. rewrite !aget_cons_eq. exact Hs.
  - rewrite (aget_cons_neq z x s a Nzx), (aget_cons_neq z x s' a' Nzx). apply Ha.
Qed.

Lemma ale_ajoin (a1 a1' a2 a2' : aenv) : ale a1 a1' -> ale a2 a2' -> ale (ajoin a1 a2) (ajoin a1' a2').
Proof.
  intros H1 H2 x. rewrite !aget_ajoin. apply incl_app.
  - apply incl_appl. apply H1.
  - apply incl_appr. apply H2.
Qed.

Lemma ale_ajoin_l (a1 a2 : aenv) : ale a1 (ajoin a1 a2).
Proof. intros x. rewrite aget_ajoin. apply incl_appl. apply incl_refl. Qed.

Lemma ale_ajoin_r (a1 a2 : aenv) : ale a2 (ajoin a1 a2).
Proof. intros x. rewrite aget_ajoin. apply incl_appr. apply incl_refl. Qed.

Lemma ale_combine (g g' : var -> list var) :
  (forall y, incl (g y) (g' y)) ->
  forall (formals actuals : list var),
    ale (combine formals (map g actuals)) (combine formals (map g' actuals)).
Proof.
  intros Hg. induction formals as [|f ft IH]; intros actuals.
  - simpl. apply ale_refl.
  - destruct actuals as [|y yt].
    + simpl. apply ale_refl.
    + simpl. apply ale_cons; [apply IH | apply Hg].
Qed.

(** * 1. The frame theorem *)

Section Frame.
  Context (e0 : env) (n0 : nat).

  (** every name that points into the entry heap has, in its alias set, a parameter bound to that
      location at entry *)
  Definition sound (a : aenv) (e : env) : Prop :=
    forall x l o, lookup x e = Some (l, o) -> l < n0 ->
                  exists q o', In q (aget x a) /\ lookup q e0 = Some (l, o').

  Definition inv (a : aenv) (e : env) (h : heap) : Prop :=
    sound a e /\ wf_entry e h /\ n0 <= length h.

  (** no parameter bound to [l] at entry is in the reported set [m] *)
  Definition unreported (m : list var) (l : loc) : Prop :=
    forall q o, lookup q e0 = Some (l, o) -> ~ In q m.

  Lemma unreported_incl (m m' : list var) (l : loc) : incl m m' -> unreported m' l -> unreported m l.
  Proof. intros Hi Hu q o Hq Hin. apply (Hu q o Hq). apply Hi. exact Hin. Qed.

  Lemma sound_ale (a a' : aenv) (e : env) : ale a a' -> sound a e -> sound a' e.
  Proof.
    intros Ha Hs x l o Hl Hlt. destruct (Hs x l o Hl Hlt) as [q [o' [Hin Hq]]].
    exists q, o'. split; [|exact Hq]. apply Ha. exact Hin.
  Qed.

  Lemma inv_grow (a : aenv) (e : env) (h h' : heap) : inv a e h -> length h <= length h' -> inv a e h'.
  Proof.
    intros [Hs [Hl Hn]] Hle. split; [exact Hs|]. split; [|lia].
    intros z l o Hz. specialize (Hl z l o Hz). lia.
  Qed.

  (** A new binding keeps the invariant when its location is in the heap and, if that location belongs
      to the entry heap, its alias set names a parameter bound to it at entry. *)
  Lemma inv_bind (a : aenv) (e : env) (h : heap) (x : var) (s : list var) (l o : nat) :
    inv a e h -> l < length h ->
    (l < n0 -> exists q o', In q s /\ lookup q e0 = Some (l, o')) ->
    inv ((x, s) :: a) ((x, (l, o)) :: e) h.
  Proof.
    intros [Hs [Hl Hn]] Hlt Hx. split; [|split; [|exact Hn]].
    - intros z l1 o1 Hz Hlt1. destruct (Nat.eq_dec z x) as [Ezx|Nzx].
      + subst z. rewrite lookup_cons_eq in Hz. injection Hz as Hz1 Hz2. subst l1 o1.
        rewrite aget_cons_eq. exact (Hx Hlt1).
      + rewrite lookup_cons_neq in Hz by exact Nzx.
        rewrite (aget_cons_neq z x s a Nzx). exact (Hs z l1 o1 Hz Hlt1).
    - intros z l1 o1 Hz. destruct (Nat.eq_dec z x) as [Ezx|Nzx].
      + subst z. rewrite lookup_cons_eq in Hz. injection Hz as Hz1 Hz2. subst l1 o1. exact Hlt.
      + rewrite lookup_cons_neq in Hz by exact Nzx. exact (Hl z l1 o1 Hz).
  Qed.

  Definition frame_post (a' : aenv) (m' : list var) (h : heap) (e' : env) (h' : heap) : Prop :=
    inv a' e' h' /\ length h <= length h' /\
    (forall l, l < n0 -> unreported m' l -> nth_error h' l = nth_error h l).

  Lemma frame_post_mono (a a' : aenv) (m m' : list var) (h : heap) (e' : env) (h' : heap) :
    ale a a' -> incl m m' -> frame_post a m h e' h' -> frame_post a' m' h e' h'.
  Proof.
    intros Ha Hm [[Hs [Hl Hn]] [Hle Hfr]].
    split; [split; [exact (sound_ale a a' e' Ha Hs) | split; assumption]|].
    split; [exact Hle|]. intros l Hlt Hun. apply (Hfr l Hlt). exact (unreported_incl m m' l Hm Hun).
  Qed.

  (** [x] bound to a view of the buffer of [y]: nothing moves, [x] inherits the alias set of [y]. *)
  Lemma frame_post_view (a : aenv) (m : list var) (e : env) (h : heap) (x y : var) (l o o' : nat) :
    inv a e h -> lookup y e = Some (l, o) ->
    frame_post ((x, aget y a) :: a) m h ((x, (l, o')) :: e) h.
  Proof.
    intros Hinv Ey. pose proof Hinv as [Hs [Hl _]]. split; [|split; [lia | reflexivity]].
    apply (inv_bind a e h x (aget y a) l o' Hinv (Hl y l o Ey)). intros Hlt. exact (Hs y l o Ey Hlt).
  Qed.

  (** [x] bound to a fresh buffer appended to the heap: it aliases no parameter. *)
  Lemma frame_post_fresh (a : aenv) (m : list var) (e : env) (h : heap) (x : var) (arr : list Z) :
    inv a e h -> frame_post ((x, []) :: a) m h ((x, (length h, 0)) :: e) (h ++ [arr]).
  Proof.
    intros Hinv. pose proof Hinv as [_ [_ Hn]].
    assert (Hlen : length (h ++ [arr]) = S (length h)).
    { rewrite app_length. simpl. lia. }
    split; [|split; [lia|]].
    - apply inv_bind; [apply (inv_grow a e h _ Hinv); lia | lia | intros Hlt; exfalso; lia].
    - intros l1 Hl1 _. apply nth_error_app1. lia.
  Qed.

  Lemma frame_mutual :
    (forall (c : cmd) (a : aenv) (m : list var) (e : env) (h : heap) (e' : env) (h' : heap),
        inv a e h -> exec_cmd c (e, h) = Some (e', h') ->
        frame_post (fst (an_cmd c a m)) (snd (an_cmd c a m)) h e' h') /\
    (forall (p : prog) (a : aenv) (m : list var) (e : env) (h : heap) (e' : env) (h' : heap),
        inv a e h -> exec_prog p (e, h) = Some (e', h') ->
        frame_post (fst (an_prog p a m)) (snd (an_prog p a m)) h e' h').
  Proof.
    apply cmd_prog_mutind.
    - (* CAlias *)
      intros x y a m e h e' h' Hinv Hex. simpl in Hex.
      destruct (lookup y e) as [[l o]|] eqn:Ey; [|discriminate Hex].
      injection Hex as He' Hh'. subst e' h'. apply (frame_post_view a m e h x y l o o Hinv Ey).
    - (* CView *)
      intros x y off a m e h e' h' Hinv Hex. simpl in Hex.
      destruct (lookup y e) as [[l o]|] eqn:Ey; [|discriminate Hex].
      injection Hex as He' Hh'. subst e' h'. apply (frame_post_view a m e h x y l o (o + off) Hinv Ey).
    - (* CCopy *)
      intros x y a m e h e' h' Hinv Hex. simpl in Hex.
      destruct (lookup y e) as [[l o]|]; [|discriminate Hex].
      destruct (nth_error h l) as [arr|]; [|discriminate Hex].
      injection Hex as He' Hh'. subst e' h'. apply (frame_post_fresh a m e h x (skipn o arr) Hinv).
    - (* CPure *)
      intros x es a m e h e' h' Hinv Hex. simpl in Hex.
      destruct (eval_list e h es) as [vs|]; [|discriminate Hex].
      injection Hex as He' Hh'. subst e' h'. apply (frame_post_fresh a m e h x vs Hinv).
    - (* CWrite: the written location is reported through the alias set of [x] *)
      intros x i ex a m e h e' h' Hinv Hex. pose proof Hinv as [Hs _]. simpl in Hex.
      destruct (lookup x e) as [[l o]|] eqn:Ex; [|discriminate Hex].
      destruct (eval e h ex) as [v|]; [|discriminate Hex].
      destruct (nth_error h l) as [arr|]; [|discriminate Hex].
      destruct (set_nth arr (o + i) v) as [arr'|]; [|discriminate Hex].
      destruct (set_nth h l arr') as [h2|] eqn:Eh2; [|discriminate Hex].
      injection Hex as He' Hh'. subst e' h'.
      destruct (set_nth_spec h l arr' h2 Eh2) as [Hlen Hoth].
      split; [|split; [lia|]].
      + apply (inv_grow a e h _ Hinv). lia.
      + intros l1 Hl1 Hun.
        apply (Hoth l1). intros El. subst l1.
        destruct (Hs x l o Ex Hl1) as [q [o' [Hin Hq]]].
        apply (Hun q o' Hq). simpl. apply in_or_app. left. exact Hin.
    - (* CIf *)
      intros ex p1 IH1 p2 IH2 a m e h e' h' Hinv Hex. rewrite an_cmd_if. cbn [fst snd]. simpl in Hex.
      destruct (eval e h ex) as [v|]; [|discriminate Hex].
      destruct (Z.eqb v 0).
      + eapply frame_post_mono; [apply ale_ajoin_r | apply incl_refl | exact (IH2 _ _ e h e' h' Hinv Hex)].
      + eapply frame_post_mono;
          [apply ale_ajoin_l | apply (proj2 an_acc_grows p2) | exact (IH1 _ _ e h e' h' Hinv Hex)].
    - (* CCall *)
      intros x formals actuals body IHb ret a m e h e' h' Hinv Hex. pose proof Hinv as [Hs [Hl Hn]].
      rewrite an_cmd_call. cbn [fst snd]. simpl in Hex.
      destruct (lookup_list e actuals) as [vs|] eqn:Evs; [|discriminate Hex].
      destruct (exec_prog body (combine formals vs, h)) as [[eb hb]|] eqn:Exb; [|discriminate Hex].
      destruct (lookup ret eb) as [[lr or]|] eqn:Er; [|discriminate Hex].
      injection Hex as He' Hh'. subst e' h'.
      assert (Hinvc : inv (combine formals (map (fun y => aget y a) actuals)) (combine formals vs) h).
      { split; [|split; [|exact Hn]].
        - intros z l o Hz Hlt.
          destruct (lookup_combine_frames e (fun y => aget y a) z (l, o) formals actuals vs Evs Hz)
            as [y [Hy Hza]].
          destruct (Hs y l o Hy Hlt) as [q [o' [Hin Hq]]].
          exists q, o'. split; [|exact Hq]. unfold aget at 1. rewrite Hza. exact Hin.
        - intros z l o Hz.
          destruct (lookup_combine_frames e (fun _ => []) z (l, o) formals actuals vs Evs Hz)
            as [y [Hy _]].
          apply (Hl y l o Hy). }
      destruct (IHb _ m _ h eb hb Hinvc Exb) as [[Hsb [Hlb Hnb]] [Hle Hfr]].
      split; [|split; [exact Hle | exact Hfr]].
      apply (inv_bind a e hb x _ lr or (inv_grow a e h hb Hinv Hle) (Hlb ret lr or Er)).
      intros Hlt. exact (Hsb ret lr or Er Hlt).
    - (* PNil *)
      intros a m e h e' h' Hinv Hex. simpl in Hex.
      injection Hex as He' Hh'. subst e' h'.
      split; [exact Hinv|]. split; [lia | reflexivity].
    - (* PSeq *)
      intros c IHc p IHp a m e h e' h' Hinv Hex. rewrite an_prog_seq. simpl in Hex.
      destruct (exec_cmd c (e, h)) as [[e1 h1]|] eqn:Exc; [|discriminate Hex].
      destruct (IHc a m e h e1 h1 Hinv Exc) as [Hinv1 [Hle1 Hfr1]].
      destruct (IHp (fst (an_cmd c a m)) (snd (an_cmd c a m)) e1 h1 e' h' Hinv1 Hex)
        as [Hinv2 [Hle2 Hfr2]].
      split; [exact Hinv2|]. split; [lia|].
      intros l Hl Hun. rewrite (Hfr2 l Hl Hun). apply (Hfr1 l Hl).
      apply (unreported_incl _ _ l (proj2 an_acc_grows p _ _) Hun).
  Qed.
End Frame.

Lemma inv_entry (e0 : env) (h0 : heap) :
  wf_entry e0 h0 -> inv e0 (length h0) (entry_aenv e0) e0 h0.
Proof.
  intros Hwf. split; [|split; [exact Hwf | lia]].
  intros x l o Hx _. exists x, o. split; [|exact Hx].
  rewrite (aget_entry e0 x (l, o) Hx). left. reflexivity.
Qed.

Theorem frame_loc (p : prog) (e0 : env) (h0 : heap) (e' : env) (h' : heap) (l : loc) :
  wf_entry e0 h0 ->
  exec_prog p (e0, h0) = Some (e', h') ->
  l < length h0 ->
  (forall q o, lookup q e0 = Some (l, o) -> ~ In q (may_mutate e0 p)) ->
  nth_error h' l = nth_error h0 l.
Proof.
  intros Hwf Hex Hl Hun.
  destruct (proj2 (frame_mutual e0 (length h0)) p (entry_aenv e0) [] e0 h0 e' h'
              (inv_entry e0 h0 Hwf) Hex) as [_ [_ Hfr]].
  apply (Hfr l Hl). exact Hun.
Qed.

Theorem frame_all (p : prog) (e0 : env) (h0 : heap) (e' : env) (h' : heap) :
  wf_entry e0 h0 ->
  exec_prog p (e0, h0) = Some (e', h') ->
  may_mutate e0 p = [] ->
  forall l, l < length h0 -> nth_error h' l = nth_error h0 l.
Proof.
  intros Hwf Hex Hm l Hl.
  apply (frame_loc p e0 h0 e' h' l Hwf Hex Hl).
  intros q o _ Hin. rewrite Hm in Hin. exact Hin.
Qed.

(** * 2. Monotonicity of the analysis; adding a copy can only shrink the report *)

Definition an_le (r r' : aenv * list var) : Prop := ale (fst r) (fst r') /\ incl (snd r) (snd r').

(** The compound constructs are monotone as soon as their parts are; the parts may be different
    programs, which is what [more_copies_mono] needs. *)
Lemma an_le_if (e : expr) (p1 p2 q1 q2 : prog) (a a' : aenv) (m m' : list var) :
  an_le (an_prog p1 a m) (an_prog q1 a' m') ->
  (forall m1 m1', incl m1 m1' -> an_le (an_prog p2 a m1) (an_prog q2 a' m1')) ->
  an_le (an_cmd (CIf e p1 p2) a m) (an_cmd (CIf e q1 q2) a' m').
Proof.
  intros [Ha1 Hm1] H2. destruct (H2 _ _ Hm1) as [Ha2 Hm2].
  rewrite !an_cmd_if. split; cbn [fst snd]; [apply ale_ajoin; assumption | exact Hm2].
Qed.

Lemma an_le_call (x : var) (fs acts : list var) (b b' : prog) (r : var) (a a' : aenv) (m m' : list var) :
  ale a a' ->
  (forall c c', ale c c' -> an_le (an_prog b c m) (an_prog b' c' m')) ->
  an_le (an_cmd (CCall x fs acts b r) a m) (an_cmd (CCall x fs acts b' r) a' m').
Proof.
  intros Ha Hb.
  destruct (Hb _ _ (ale_combine (fun y => aget y a) (fun y => aget y a') Ha fs acts)) as [Hab Hmb].
  rewrite !an_cmd_call. split; cbn [fst snd]; [|exact Hmb].
  apply ale_cons; [exact Ha | apply Hab].
Qed.

Lemma an_le_seq (c c' : cmd) (p p' : prog) (a a' : aenv) (m m' : list var) :
  an_le (an_cmd c a m) (an_cmd c' a' m') ->
  (forall a1 a1' m1 m1', ale a1 a1' -> incl m1 m1' -> an_le (an_prog p a1 m1) (an_prog p' a1' m1')) ->
  an_le (an_prog (PSeq c p) a m) (an_prog (PSeq c' p') a' m').
Proof. intros [Ha1 Hm1] Hp. rewrite !an_prog_seq. apply Hp; assumption. Qed.

Lemma an_mono :
  (forall (c : cmd) (a a' : aenv) (m m' : list var),
      ale a a' -> incl m m' -> an_le (an_cmd c a m) (an_cmd c a' m')) /\
  (forall (p : prog) (a a' : aenv) (m m' : list var),
      ale a a' -> incl m m' -> an_le (an_prog p a m) (an_prog p a' m')).
Proof.
  apply cmd_prog_mutind.
  - intros x y a a' m m' Ha Hm. split; simpl; [|exact Hm].
    apply ale_cons; [exact Ha | apply Ha].
  - intros x y off a a' m m' Ha Hm. split; simpl; [|exact Hm].
    apply ale_cons; [exact Ha | apply Ha].
  - intros x y a a' m m' Ha Hm. split; simpl; [|exact Hm].
    apply ale_cons; [exact Ha | apply incl_refl].
  - intros x es a a' m m' Ha Hm. split; simpl; [|exact Hm].
    apply ale_cons; [exact Ha | apply incl_refl].
  - intros x i e a a' m m' Ha Hm. split; simpl; [exact Ha|].
    apply incl_app; [apply incl_appl; apply Ha | apply incl_appr; exact Hm].
  - intros e p1 IH1 p2 IH2 a a' m m' Ha Hm.
    apply an_le_if; [apply IH1; assumption | intros m1 m1' Hm1; apply IH2; assumption].
  - intros x formals actuals body IHb ret a a' m m' Ha Hm.
    apply an_le_call; [exact Ha | intros c c' Hc; apply IHb; assumption].
  - intros a a' m m' Ha Hm. split; assumption.
  - intros c IHc p IHp a a' m m' Ha Hm. apply an_le_seq; [apply IHc; assumption | exact IHp].
Qed.

Scheme mc_cmd_min := Minimality for more_copies_cmd Sort Prop
  with mc_prog_min := Minimality for more_copies Sort Prop.
Combined Scheme mc_mutmin from mc_cmd_min, mc_prog_min.

(** [c'] has more copies than [c], and runs in a smaller abstract state: its result is smaller. *)
Lemma more_copies_mono :
  (forall c c' : cmd, more_copies_cmd c c' ->
      forall (a a' : aenv) (m m' : list var),
        ale a' a -> incl m' m -> an_le (an_cmd c' a' m') (an_cmd c a m)) /\
  (forall p p' : prog, more_copies p p' ->
      forall (a a' : aenv) (m m' : list var),
        ale a' a -> incl m' m -> an_le (an_prog p' a' m') (an_prog p a m)).
Proof.
  apply mc_mutmin.
  - intros c a a' m m' Ha Hm. apply (proj1 an_mono c a' a m' m Ha Hm).
  - intros x y a a' m m' Ha Hm. split; simpl; [|exact Hm].
    apply ale_cons; [exact Ha | apply incl_nil_l].
  - intros x y off a a' m m' Ha Hm. split; simpl; [|exact Hm].
    apply ale_cons; [exact Ha | apply incl_nil_l].
  - intros e p1 p2 q1 q2 _ IH1 _ IH2 a a' m m' Ha Hm.
    apply an_le_if; [apply IH1; assumption | intros m1 m1' Hm1; apply IH2; assumption].
  - intros x fs acts b b' r _ IHb a a' m m' Ha Hm.
    apply an_le_call; [exact Ha | intros c c' Hc; apply IHb; assumption].
  - intros a a' m m' Ha Hm. split; assumption.
  - intros c c' p p' _ IHc _ IHp a a' m m' Ha Hm.
    apply an_le_seq; [apply IHc; assumption | intros a1 a1' m1 m1' Ha1 Hm1; apply IHp; assumption].
Qed.

Theorem more_copies_shrinks (e0 : env) (p p' : prog) :
  more_copies p p' -> incl (may_mutate e0 p') (may_mutate e0 p).
Proof.
  intros Hmc. unfold may_mutate.
  apply (proj2 more_copies_mono p p' Hmc (entry_aenv e0) (entry_aenv e0) [] []).
  - apply ale_refl.
  - apply incl_refl.
Qed.

(** * 3. The historical shapes *)

Lemma wf_entry0 : wf_entry entry0 heap0.
Proof.
  intros x l o Hx. unfold entry0 in Hx. simpl in Hx.
  destruct (Nat.eqb x 0); [|discriminate Hx].
  injection Hx as Hl Ho. subst l o. simpl. lia.
Qed.

Lemma more_copies_refl :
  (forall c : cmd, more_copies_cmd c c) /\ (forall p : prog, more_copies p p).
Proof.
  split; [intros c; apply mc_refl|].
  induction p as [|c p IH]; [apply mc_nil | apply mc_seq; [apply mc_refl | exact IH]].
Qed.

(** The repaired variants are "more copies" instances of the defective ones where the repair is a plain
    alias -> copy replacement of the first command, so [more_copies_shrinks] applies to them (non-vacuity
    of item 2). *)
Lemma mc_alias_head (x y : var) (p : prog) : more_copies (PSeq (CAlias x y) p) (PSeq (CCopy x y) p).
Proof. apply mc_seq; [apply mc_alias | apply more_copies_refl]. Qed.

Lemma asarray_fixed_more_copies : more_copies prog_asarray prog_asarray_fixed.
Proof. apply mc_alias_head. Qed.

(** The report is neither always empty nor always everything: the alias version reports the parameter,
    its copy version does not, and the inclusion of [more_copies_shrinks] is strict here. *)
Lemma asarray_report_strict :
  incl (may_mutate entry0 prog_asarray_fixed) (may_mutate entry0 prog_asarray) /\
  ~ incl (may_mutate entry0 prog_asarray) (may_mutate entry0 prog_asarray_fixed).
Proof.
  split.
  - apply more_copies_shrinks. apply asarray_fixed_more_copies.
  - intros Hi. specialize (Hi 0). vm_compute in Hi. apply Hi. left. reflexivity.
Qed.

(** [prog_helper_fixed] is NOT a [more_copies] instance of [prog_helper] (the callee returns a different
    name), so its cleanliness can only be shown by computation; the kernel example with the outer alias
    replaced by a copy IS an instance. *)
Definition prog_kernel_fixed : prog :=
  PSeq (CCopy 1 0) (PSeq (CCall 2 [7] [1] kernel_writes 8) PNil).

Lemma kernel_fixed_more_copies : more_copies prog_kernel prog_kernel_fixed.
Proof. apply mc_alias_head. Qed.

Lemma kernel_fixed_clean :
  may_mutate entry0 prog_kernel_fixed = [] /\
  exists e' h', exec_prog prog_kernel_fixed (entry0, heap0) = Some (e', h') /\
                nth_error h' 0 = nth_error heap0 0.
Proof.
  split; [reflexivity|].
  eexists. eexists. split; reflexivity.
Qed.

(** The frame theorem instantiated on a repaired variant (uses the general theorem, not computation). *)
Lemma asarray_fixed_frame (e' : env) (h' : heap) :
  exec_prog prog_asarray_fixed (entry0, heap0) = Some (e', h') ->
  nth_error h' 0 = nth_error heap0 0.
Proof.
  intros Hex.
  apply (frame_all prog_asarray_fixed entry0 heap0 e' h' wf_entry0 Hex).
  - reflexivity.
  - simpl. lia.
Qed.

Lemma may_mutate_nil (e0 : env) : may_mutate e0 PNil = [].
Proof. reflexivity. Qed.

(** A program without writes (and without calls / branches containing writes) reports nothing: the report
    only ever comes from a [CWrite]. *)
Fixpoint no_write_cmd (c : cmd) : Prop :=
  match c with
  | CWrite _ _ _ => False
  | CIf _ p1 p2 => no_write_prog p1 /\ no_write_prog p2
  | CCall _ _ _ body _ => no_write_prog body
  | _ => True
  end
with no_write_prog (p : prog) : Prop :=
  match p with
  | PNil => True
  | PSeq c q => no_write_cmd c /\ no_write_prog q
  end.

Lemma no_write_acc :
  (forall (c : cmd) (a : aenv) (m : list var), no_write_cmd c -> snd (an_cmd c a m) = m) /\
  (forall (p : prog) (a : aenv) (m : list var), no_write_prog p -> snd (an_prog p a m) = m).
Proof.
  apply cmd_prog_mutind.
  - intros x y a m _. reflexivity.
  - intros x y off a m _. reflexivity.
  - intros x y a m _. reflexivity.
  - intros x es a m _. reflexivity.
  - intros x i e a m Hf. simpl in Hf. contradiction.
  - intros e p1 IH1 p2 IH2 a m [H1 H2]. rewrite an_cmd_if. cbn [snd].
    rewrite (IH1 a m H1). apply IH2. exact H2.
  - intros x formals actuals body IHb ret a m Hb. rewrite an_cmd_call. cbn [snd]. apply IHb. exact Hb.
  - intros a m _. reflexivity.
  - intros c IHc p IHp a m [Hc Hp]. rewrite an_prog_seq, (IHc a m Hc). apply IHp. exact Hp.
Qed.

Print Assumptions frame_loc.
Print Assumptions frame_all.
Print Assumptions more_copies_shrinks.
Print Assumptions wf_entry0.
Print Assumptions asarray_fixed_more_copies.
Print Assumptions asarray_report_strict.
Print Assumptions kernel_fixed_more_copies.
Print Assumptions kernel_fixed_clean.
Print Assumptions asarray_fixed_frame.
Print Assumptions may_mutate_nil.
