(** Proofs about Model/Structure.v: is_bipartite is total and sound ([is_bipartite_total],
    [is_bipartite_sound_lemma]), with the loop lemma [bip_loop_runs] from which Props/C12.v derives completeness;
    helper lemmas for is_connected (stated in Props/C12.v); get_largest_connected_component under the oracle
    contract ([largest_component_lemma]). *)
From SKN Require Import Base.Util Model.Bfs Model.Structure Proofs.BfsProofs.
From Coq Require Import Permutation.

(** * Generic helpers *)

Lemma row_oob (g : graph) (u : nat) : length g <= u -> row g u = [].
Proof. intros H. unfold row. apply nth_overflow. exact H. Qed.

Lemma edgeb_true g u v : edgeb g u v = true <-> In v (row g u).
Proof. unfold edgeb. apply memn_In. Qed.

Lemma nodes_In g u : In u (nodes g) <-> u < length g.
Proof. unfold nodes. rewrite in_seq. lia. Qed.

(** Graphs built row by row over the nodes of [g] (symmetrise, remove_edge, drop_loops, close_sym). *)
Lemma map_nodes_length (f : nat -> list nat) g : length (map f (nodes g)) = length g.
Proof. unfold nodes. rewrite map_length, seq_length. reflexivity. Qed.

Lemma row_map_nodes (f : nat -> list nat) g u : u < length g -> row (map f (nodes g)) u = f u.
Proof. intros H. exact (nth_map_seq f (length g) u [] H). Qed.

Lemma edge_map_nodes (f : nat -> list nat) g u v : edge (map f (nodes g)) u v <-> u < length g /\ In v (f u).
Proof.
  unfold edge. destruct (Nat.lt_ge_cases u (length g)) as [Hu|Hu].
  - rewrite row_map_nodes by exact Hu. tauto.
  - rewrite row_oob by (rewrite map_nodes_length; exact Hu). simpl. split; [tauto | lia].
Qed.

Lemma is_symmetric_spec g :
  is_symmetric g = true <-> forall u v, In v (row g u) -> In u (row g v).
Proof.
  unfold is_symmetric. rewrite forallb_forall. split.
  - intros H u v Hv. assert (Hu : u < length g) by (eapply row_nonempty_lt; eauto).
    specialize (H u (proj2 (nodes_In g u) Hu)). rewrite forallb_forall in H.
    apply edgeb_true. apply H. exact Hv.
  - intros H u _. apply forallb_forall. intros v Hv. apply edgeb_true. apply H. exact Hv.
Qed.

Lemma has_loops_spec g : has_loops g = true <-> exists u, u < length g /\ In u (row g u).
Proof.
  unfold has_loops. rewrite existsb_exists. setoid_rewrite nodes_In. setoid_rewrite edgeb_true. reflexivity.
Qed.

Lemma has_loops_false g : has_loops g = false <-> forall u, ~ In u (row g u).
Proof.
  split.
  - intros H u Hu. assert (has_loops g = true); [|congruence].
    apply has_loops_spec. exists u. split; [eapply row_nonempty_lt; eauto | exact Hu].
  - intros H. destruct (has_loops g) eqn:E; auto.
    apply has_loops_spec in E. destruct E as [u [_ Hu]]. exfalso. eapply H; eauto.
Qed.

Lemma submatrix_entry (m : pmat) (rws cls : list nat) (a b : nat) :
  a < length rws -> b < length cls ->
  (In b (row (p_rows (submatrix m rws cls)) a) <-> In (nthn cls b) (row (p_rows m) (nthn rws a))).
Proof.
  intros Ha Hb. unfold submatrix. cbn [p_rows].
  unfold row at 1. rewrite (nth_map_lt _ rws a 0) by exact Ha.
  rewrite filter_In, in_seq, memn_In. unfold nthn. split; [tauto|]. intros H. split; [lia | exact H].
Qed.

Lemma submatrix_shape (m : pmat) (rws cls : list nat) :
  p_nrow (submatrix m rws cls) = length rws /\ p_ncol (submatrix m rws cls) = length cls.
Proof. unfold submatrix, p_nrow. cbn. rewrite map_length. auto. Qed.

(** * reach *)
Lemma reach_trans E u v w : reach E u v -> reach E v w -> reach E u w.
Proof. intros H; induction H as [u|u x v Hux Hxv IH]; intros Hw; auto. eapply reach_step; eauto. Qed.

Lemma reach_one (E : nat -> nat -> Prop) u v : E u v -> reach E u v.
Proof. intros H. eapply reach_step; [exact H | apply reach_refl]. Qed.

Lemma reach_sym (E : nat -> nat -> Prop) :
  (forall a b, E a b -> E b a) -> forall u v, reach E u v -> reach E v u.
Proof.
  intros Hs u v H. induction H as [u|u x v Hux Hxv IH]; [apply reach_refl|].
  eapply reach_trans; [exact IH | apply reach_one; apply Hs; exact Hux].
Qed.

Lemma sedge_sym g a b : sedge g a b -> sedge g b a.
Proof. unfold sedge. tauto. Qed.

Lemma wconn_sym g u v : wconn g u v -> wconn g v u.
Proof. apply reach_sym. apply sedge_sym. Qed.

Lemma reach_mono (E F : nat -> nat -> Prop) :
  (forall a b, E a b -> F a b) -> forall u v, reach E u v -> reach F u v.
Proof.
  intros HEF u v H. induction H as [u|u x v Hux Hxv IH]; [apply reach_refl|].
  eapply reach_step; [apply HEF; exact Hux | exact IH].
Qed.

(** * [reach_from] decides reachability from a set of sources *)

Lemma one_hot_length n srcs : length (one_hot n srcs) = n.
Proof. unfold one_hot. rewrite map_length, seq_length. reflexivity. Qed.

Lemma nthb_one_hot n srcs v : v < n -> nthb (one_hot n srcs) v = memn v srcs.
Proof. intros H. unfold nthb, one_hot. exact (nth_map_seq (fun v => memn v srcs) n v false H). Qed.

Lemma bfs_dichotomy g src : length src = length g ->
  exists dist, bfs g src = Some dist /\ length dist = length g /\
    forall v, v < length g ->
      (exists k, nthz dist v = Z.of_nat k /\ hop g src v k) \/
      (nthz dist v = (-1)%Z /\ forall k, ~ reachk g src k v).
Proof.
  intros Hs. unfold bfs. change 1%Z with (Z.of_nat (S 0)).
  destruct (bfs_loop_inv g src (S (length g)) 0 src _ (inv_init g src Hs)) as [dist [r [rch [Hb [HI HE]]]]].
  { pose proof (cf_le_length src). lia. }
  exists dist. split; auto. split; [exact (inv_ld _ _ _ _ _ HI)|]. intros v Hv.
  pose proof (inv_closed _ _ _ _ _ HI HE) as Hcl.
  destruct (nthb rch v) eqn:E.
  - left. exact (inv_dist_t _ _ _ _ _ HI v Hv E).
  - right. split; [exact (inv_dist_f _ _ _ _ _ HI v Hv E)|].
    intros k Hr. rewrite (Hcl k v Hr Hv) in E. discriminate.
Qed.

Lemma reach_step_right (E : nat -> nat -> Prop) u x v : reach E u x -> E x v -> reach E u v.
Proof. intros H1 H2. eapply reach_trans; [exact H1 | apply reach_one; exact H2]. Qed.

Lemma reachk_reach g src : forall k v, reachk g src k v -> exists s, nthb src s = true /\ reach (edge g) s v.
Proof.
  induction k as [|k IH]; intros v H; simpl in H.
  - exists v. split; auto. apply reach_refl.
  - destruct H as [u [Hu Huv]]. destruct (IH u Hu) as [s [Hs Hr]]. exists s. split; auto.
    eapply reach_step_right; eauto.
Qed.

Lemma reach_reachk g src u v : reach (edge g) u v -> (exists k, reachk g src k u) -> exists k, reachk g src k v.
Proof.
  intros H. induction H as [u|u x v Hux Hxv IH]; auto.
  intros [k Hk]. apply IH. exists (S k). simpl. exists u. split; auto.
Qed.

Lemma reach_from_iff g srcs v : v < length g ->
  (nthb (reach_from g srcs) v = true <-> exists s, In s srcs /\ s < length g /\ reach (edge g) s v).
Proof.
  intros Hv. transitivity (exists k, reachk g (one_hot (length g) srcs) k v).
  - unfold reach_from.
    destruct (bfs_dichotomy g _ (one_hot_length (length g) srcs)) as [dist [Hb [Hl Hd]]]. rewrite Hb.
    unfold nthb. rewrite (nth_map_lt (fun x => (0 <=? x)%Z) dist v 0%Z false) by lia. fold (nthz dist v).
    destruct (Hd v Hv) as [[k [Ek [Hr _]]]|[E Hno]].
    + rewrite Ek. split; [intros _; exists k; exact Hr | intros _; apply Z.leb_le; lia].
    + rewrite E. split; [discriminate | intros [k Hk]; destruct (Hno k Hk)].
  - split.
    + intros [k Hk]. destruct (reachk_reach g _ k v Hk) as [s [Hs Hr]]. exists s.
      destruct (Nat.lt_ge_cases s (length g)) as [Hlt|Hge].
      * rewrite nthb_one_hot in Hs by exact Hlt. apply memn_In in Hs. auto.
      * unfold nthb in Hs. rewrite nth_overflow in Hs by (rewrite one_hot_length; exact Hge). discriminate.
    + intros [s [Hin [Hs Hr]]]. apply (reach_reachk g _ s v Hr). exists 0. simpl.
      rewrite nthb_one_hot by exact Hs. apply memn_In. exact Hin.
Qed.

Lemma reach_lt g u v : wf_graph g -> u < length g -> reach (edge g) u v -> v < length g.
Proof.
  intros Hwf Hu H. induction H as [u|u x v Hux Hxv IH]; auto. apply IH. eapply Hwf; eauto.
Qed.

(** * The brute-force connectivity matrix, the canonical labels, the contract checker *)

Lemma reach_from_single g a b : a < length g -> b < length g ->
  (nthb (reach_from g [a]) b = true <-> reach (edge g) a b).
Proof.
  intros Ha Hb. rewrite (reach_from_iff g [a] b Hb). split.
  - intros [s [[E|[]] [_ Hr]]]. subst. exact Hr.
  - intros Hr. exists a. split; [left; reflexivity | auto].
Qed.

Lemma symmetrise_length g : length (symmetrise g) = length g.
Proof. apply map_nodes_length. Qed.

Lemma symmetrise_edge g u v : wf_graph g -> (edge (symmetrise g) u v <-> sedge g u v).
Proof.
  intros Hwf. unfold symmetrise, sedge. rewrite edge_map_nodes, in_app_iff, filter_In, nodes_In, edgeb_true.
  unfold edge. split; [tauto|]. intros [A|A].
  - split; [eapply row_nonempty_lt; exact A | left; exact A].
  - split; [exact (Hwf v u A) | right; split; [eapply row_nonempty_lt; exact A | exact A]].
Qed.

Definition conn (g : graph) (strong : bool) (u v : nat) : Prop := if strong then sconn g u v else wconn g u v.

Lemma conn_refl g strong u : conn g strong u u.
Proof. destruct strong; [split|]; apply reach_refl. Qed.

Lemma conn_sym g strong u v : conn g strong u v -> conn g strong v u.
Proof. destruct strong; [intros [A B]; split; assumption | apply wconn_sym]. Qed.

Lemma conn_trans g strong u v w : conn g strong u v -> conn g strong v w -> conn g strong u w.
Proof.
  destruct strong; [|apply reach_trans]. intros [A B] [C D]. split; eapply reach_trans; eassumption.
Qed.

(** The symmetrised graph stands for [sedge] only when the column indices are in range. *)
Lemma conn_matrix_spec g strong u v :
  (strong = false -> wf_graph g) -> u < length g -> v < length g ->
  (nthb (nth u (conn_matrix g strong) []) v = true <-> conn g strong u v).
Proof.
  intros Hwf Hu Hv. unfold conn_matrix, nodes, conn. destruct strong.
  - cbv zeta. unfold nthb at 1.
    rewrite (nth_map_seq _ _ u [] Hu), (nth_map_seq _ _ v false Hv), (nth_map_seq _ _ u [] Hu), (nth_map_seq _ _ v [] Hv).
    rewrite andb_true_iff, (reach_from_single g u v Hu Hv), (reach_from_single g v u Hv Hu). reflexivity.
  - specialize (Hwf eq_refl).
    rewrite (nth_map_seq _ _ u [] Hu).
    rewrite reach_from_single by (rewrite symmetrise_length; assumption).
    split; apply reach_mono; intros a b; apply symmetrise_edge; exact Hwf.
Qed.

Lemma conn_matrix_length g strong : length (conn_matrix g strong) = length g.
Proof. unfold conn_matrix, nodes. destruct strong; cbv zeta; rewrite map_length, seq_length; reflexivity. Qed.

Lemma components_contract_b_sound g strong comp :
  (strong = false -> wf_graph g) ->
  components_contract_b g strong comp = true -> components_contract g strong comp.
Proof.
  intros Hwf. unfold components_contract_b. cbv zeta. intros H. apply andb_true_iff in H. destruct H as [H1 H2].
  apply Nat.eqb_eq in H1. split; auto. intros u v Hu Hv.
  rewrite forallb_forall in H2. specialize (H2 u (proj2 (nodes_In g u) Hu)).
  rewrite forallb_forall in H2. specialize (H2 v (proj2 (nodes_In g v) Hv)).
  apply Bool.eqb_prop in H2. fold (conn g strong u v).
  rewrite <- (conn_matrix_spec g strong u v Hwf Hu Hv), <- H2. symmetry. apply Nat.eqb_eq.
Qed.

(** [first_true] returns the least index that holds [true]. *)
Lemma first_true_from_spec l : forall i k, nthb l k = true ->
  exists m, first_true_from l i = i + m /\ m <= k /\ nthb l m = true /\ forall j, j < m -> nthb l j = false.
Proof.
  unfold nthb. induction l as [|b t IH]; intros i k Hk; [destruct k; discriminate|].
  destruct b; simpl.
  - exists 0. split; [lia|]. split; [lia|]. split; [reflexivity | intros j Hj; lia].
  - destruct k as [|k]; [discriminate|]. destruct (IH (S i) k Hk) as [m [E [Hle [Hm Hmin]]]].
    exists (S m). split; [lia|]. split; [lia|]. split; [exact Hm|]. intros [|j] Hj; [reflexivity | apply Hmin; lia].
Qed.

Lemma first_true_spec l k : nthb l k = true ->
  first_true l <= k /\ nthb l (first_true l) = true /\ forall j, j < first_true l -> nthb l j = false.
Proof. intros H. unfold first_true. destruct (first_true_from_spec l 0 k H) as [m [E R]]. rewrite E. exact R. Qed.

Lemma first_true_unique l k :
  nthb l k = true -> (forall j, j < k -> nthb l j = false) -> first_true l = k.
Proof.
  intros H1 H2. destruct (first_true_spec l k H1) as [Hle [Hm _]].
  destruct (Nat.eq_dec (first_true l) k) as [|Ne]; auto. rewrite H2 in Hm by lia. discriminate.
Qed.

(** The canonical labels (smallest node of the class) are an admissible oracle answer. *)
Theorem canon_labels_contract g strong : wf_graph g -> components_contract g strong (canon_labels g strong).
Proof.
  intros Hwf. unfold canon_labels. split; [rewrite map_length; apply conn_matrix_length|].
  set (C := fun u => nth u (conn_matrix g strong) []).
  assert (HC : forall u v, u < length g -> v < length g -> (nthb (C u) v = true <-> conn g strong u v)).
  { intros u v. apply conn_matrix_spec. intros _. exact Hwf. }
  assert (Hn : forall u, u < length g -> nthn (map first_true (conn_matrix g strong)) u = first_true (C u)).
  { intros u Hu. unfold nthn. apply nth_map_lt. rewrite conn_matrix_length. exact Hu. }
  assert (Hlab : forall u, u < length g ->
            first_true (C u) < length g /\ conn g strong u (first_true (C u)) /\
            forall j, j < first_true (C u) -> nthb (C u) j = false).
  { intros u Hu. assert (Huu : nthb (C u) u = true) by (apply HC; auto; apply conn_refl).
    destruct (first_true_spec (C u) u Huu) as [Hle [Hm Hmin]].
    split; [lia|]. split; [apply HC; [exact Hu | lia | exact Hm] | exact Hmin]. }
  intros u v Hu Hv. fold (conn g strong u v). rewrite (Hn u Hu), (Hn v Hv).
  destruct (Hlab u Hu) as [Hmu [Cu Minu]]. destruct (Hlab v Hv) as [Hmv [Cv Minv]]. split.
  - intros E. rewrite <- E in Cv. eapply conn_trans; [exact Cu | apply conn_sym; exact Cv].
  - intros Huv. symmetry. apply first_true_unique.
    + apply HC; auto. eapply conn_trans; [apply conn_sym; exact Huv | exact Cu].
    + intros j Hj. destruct (nthb (C v) j) eqn:Ej; auto. rewrite <- (Minu j Hj). symmetry.
      apply HC; [exact Hu | lia |]. eapply conn_trans; [exact Huv | apply HC; [exact Hv | lia | exact Ej]].
Qed.

(** * Colour vectors *)
Lemma setc_length col v c : length (setc col v c) = length col.
Proof. revert v; induction col as [|x t IH]; intros [|v]; simpl; auto. Qed.

Lemma getc_setc col v c w :
  getc (setc col v c) w = if (v <? length col) && (w =? v) then c else getc col w.
Proof.
  unfold getc. revert v w; induction col as [|x t IH]; intros v w.
  - simpl. destruct v, w; reflexivity.
  - destruct v as [|v], w as [|w]; simpl; auto.
    + rewrite andb_false_r. reflexivity.
    + rewrite IH. replace (S v <? S (length t)) with (v <? length t) by reflexivity. reflexivity.
Qed.

Lemma getc_setc_same col v c : v < length col -> getc (setc col v c) v = c.
Proof.
  intros H. rewrite getc_setc. apply Nat.ltb_lt in H. rewrite H, Nat.eqb_refl. reflexivity.
Qed.

Lemma getc_setc_other col v c w : w <> v -> getc (setc col v c) w = getc col w.
Proof.
  intros H. rewrite getc_setc. apply Nat.eqb_neq in H. rewrite H, andb_false_r. reflexivity.
Qed.

Fixpoint count_none (col : list color) : nat :=
  match col with
  | [] => 0
  | None :: t => S (count_none t)
  | Some _ :: t => count_none t
  end.

Lemma count_none_setc col v c :
  getc col v = None -> v < length col -> S (count_none (setc col v (Some c))) = count_none col.
Proof.
  unfold getc. revert v; induction col as [|x t IH]; intros [|v] Hg Hl; simpl in *; try lia.
  - subst x. reflexivity.
  - destruct x; [apply IH; auto; lia | f_equal; apply IH; auto; lia].
Qed.

Lemma count_none_zero col : count_none col = 0 -> forall u, u < length col -> getc col u <> None.
Proof.
  unfold getc. induction col as [|x t IH]; intros H u Hu; simpl in *; [lia|].
  destruct x; [|discriminate]. destruct u; [discriminate|]. apply IH; auto; lia.
Qed.

Lemma count_none_le col : count_none col <= length col.
Proof. induction col as [|[x|] t IH]; simpl; lia. Qed.

Lemma first_none_spec col i r :
  first_none col i = Some r -> i <= r /\ r - i < length col /\ getc col (r - i) = None.
Proof.
  unfold getc. revert i; induction col as [|x t IH]; intros i H; simpl in *; [discriminate|].
  destruct x.
  - apply IH in H. destruct H as [H1 [H2 H3]].
    replace (r - i) with (S (r - S i)) by lia. simpl. repeat split; try lia. exact H3.
  - inversion H; subst. rewrite Nat.sub_diag. simpl. repeat split; lia.
Qed.

Lemma first_none_none col i : first_none col i = None -> count_none col = 0.
Proof.
  revert i; induction col as [|x t IH]; intros i H; simpl in *; auto.
  destruct x; [eapply IH; eauto | discriminate].
Qed.

Lemma count_none_repeat n : count_none (repeat None n) = n.
Proof. induction n; simpl; auto. Qed.

Lemma getc_repeat n u : getc (repeat None n) u = None.
Proof.
  unfold getc. revert u; induction n as [|n IH]; intros [|u]; simpl; auto.
Qed.

Lemma color_eqb_eq a b : color_eqb a b = true <-> a = b.
Proof.
  destruct a as [[]|], b as [[]|]; simpl; split; intros H; try discriminate; auto; inversion H.
Qed.

(** * is_bipartite: invariants of the colouring loop *)

(** Every coloured node that is not waiting on the stack has all its neighbours coloured with the
    opposite colour; stack entries are coloured nodes of the graph. *)
Record binv (g : graph) (col : list color) (stack : list nat) (rem : nat) : Prop := {
  binv_len : length col = length g;
  binv_rem : rem = count_none col;
  binv_stack : forall u, In u stack -> u < length g /\ getc col u <> None;
  binv_done : forall u c, getc col u = Some c ->
      In u stack \/ forall v, In v (row g u) -> getc col v = Some (negb c)
}.

(** Any proper 2-colouring agrees with the partial colouring up to a swap on each connected class. *)
Definition consistent (g : graph) (col : list color) : Prop :=
  forall f, proper g f -> forall u v cu cv,
    getc col u = Some cu -> getc col v = Some cv -> wconn g u v -> xorb cu cv = xorb (f u) (f v).

Lemma proper_edge g f u v : proper g f -> In v (row g u) -> f v = negb (f u).
Proof.
  intros Hp Hv. assert (Hu : u < length g) by (eapply row_nonempty_lt; eauto).
  specialize (Hp u v Hu Hv). destruct (f u), (f v); simpl; congruence.
Qed.

Lemma consistent_set g col v c :
  consistent g col ->
  (forall f, proper g f -> forall a ca, getc col a = Some ca -> wconn g a v -> xorb ca c = xorb (f a) (f v)) ->
  consistent g (setc col v (Some c)).
Proof.
  intros Hc Hv f Hp a b ca cb Ha Hb Hab. rewrite getc_setc in Ha, Hb.
  destruct ((v <? length col) && (a =? v)) eqn:Ea; destruct ((v <? length col) && (b =? v)) eqn:Eb.
  - apply andb_true_iff in Ea, Eb. destruct Ea as [_ Ea], Eb as [_ Eb].
    apply Nat.eqb_eq in Ea, Eb. subst a b. inversion Ha; inversion Hb; subst.
    rewrite !xorb_nilpotent. reflexivity.
  - apply andb_true_iff in Ea. destruct Ea as [_ Ea]. apply Nat.eqb_eq in Ea. subst a. inversion Ha; subst ca.
    rewrite xorb_comm, (xorb_comm (f v)). exact (Hv f Hp b cb Hb (wconn_sym _ _ _ Hab)).
  - apply andb_true_iff in Eb. destruct Eb as [_ Eb]. apply Nat.eqb_eq in Eb. subst b. inversion Hb; subst cb.
    exact (Hv f Hp a ca Ha Hab).
  - eapply Hc; eauto.
Qed.

Lemma consistent_extend g col node cn v :
  consistent g col -> getc col node = Some cn -> In v (row g node) ->
  consistent g (setc col v (Some (negb cn))).
Proof.
  intros Hc Hn Hedge. apply consistent_set; [exact Hc|]. intros f Hp a ca Ha Hav.
  assert (Hfv : f v = negb (f node)) by (eapply proper_edge; eauto).
  assert (Hvn : wconn g v node) by (apply wconn_sym, reach_one; left; exact Hedge).
  assert (H := Hc f Hp a node ca cn Ha Hn (reach_trans _ _ _ _ Hav Hvn)).
  rewrite Hfv. destruct ca, cn, (f a), (f node); simpl in *; congruence.
Qed.

Lemma consistent_conflict g col node cn v :
  consistent g col -> getc col node = Some cn -> getc col v = Some cn -> In v (row g node) ->
  ~ two_colourable g.
Proof.
  intros Hc Hn Hv Hedge [f Hp].
  assert (Hfv : f v = negb (f node)) by (eapply proper_edge; eauto).
  assert (H := Hc f Hp node v cn cn Hn Hv (reach_one _ _ _ (or_introl Hedge))).
  rewrite xorb_nilpotent, Hfv in H. destruct (f node); simpl in H; discriminate.
Qed.

(** One scan, seen from inside: the popped node (colour [cn]) still counts as waiting, and each of its
    neighbours is either still to be scanned or already has the opposite colour. *)
Lemma bip_scan_inv g node cn : wf_graph g -> forall nbrs col stack rem,
  binv g col (node :: stack) rem -> consistent g col -> getc col node = Some cn ->
  (forall v, In v nbrs -> In v (row g node)) ->
  (forall v, In v (row g node) -> In v nbrs \/ getc col v = Some (negb cn)) ->
  match bip_scan node nbrs col stack rem with
  | Conflict => ~ two_colourable g
  | Cont col' stack' rem' =>
      binv g col' stack' rem' /\ consistent g col' /\
      2 * count_none col' + length stack' <= 2 * count_none col + length stack
  end.
Proof.
  intros Hwf. induction nbrs as [|v t IH]; intros col stack rem Hinv Hc Hn Hsub Hd;
    destruct Hinv as [Hlen Hrem Hst Hdone].
  - simpl. split; [|split; [exact Hc | lia]]. constructor; auto.
    + intros u Hu. apply Hst. right. exact Hu.
    + intros u c Hu. destruct (Hdone u c Hu) as [[E|Hin]|H]; auto. subst u. right. intros w Hw.
      assert (c = cn) by congruence. subst c. destruct (Hd w Hw) as [[]|H]; exact H.
  - cbn [bip_scan]. assert (Hvr : In v (row g node)) by (apply Hsub; left; reflexivity).
    assert (Hsub' : forall x, In x t -> In x (row g node)) by (intros x Hx; apply Hsub; right; exact Hx).
    rewrite Hn. destruct (getc col v) as [c|] eqn:Ev.
    + destruct (color_eqb (Some c) (Some cn)) eqn:Eq.
      * apply color_eqb_eq in Eq. inversion Eq; subst c. exact (consistent_conflict g col node cn v Hc Hn Ev Hvr).
      * apply IH; auto; [constructor; assumption|].
        intros w Hw. destruct (Hd w Hw) as [[E|Hin]|H]; auto. subst w. right. rewrite Ev.
        destruct c, cn; simpl in Eq; try discriminate; reflexivity.
    + cbn [option_map]. set (col1 := setc col v (Some (negb cn))).
      assert (Hvl : v < length col) by (rewrite Hlen; eapply Hwf; eauto).
      assert (Hmono : forall w c, getc col w = Some c -> getc col1 w = Some c).
      { intros w c Hw. unfold col1. rewrite getc_setc_other; auto. intros E; subst; congruence. }
      pose proof (count_none_setc col v (negb cn) Ev Hvl) as Hcnt. fold col1 in Hcnt.
      assert (Hv1 : getc col1 v = Some (negb cn)) by (apply getc_setc_same; exact Hvl).
      assert (Hinv1 : binv g col1 (node :: v :: stack) (rem - 1)).
      { constructor.
        - unfold col1. rewrite setc_length. exact Hlen.
        - lia.
        - intros u Hu. destruct (Nat.eq_dec u v) as [->|Ne]; [split; [lia | rewrite Hv1; discriminate]|].
          destruct (Hst u) as [A B]; [destruct Hu as [E|[E|Hu]]; [left; exact E | congruence | right; exact Hu]|].
          split; [exact A|]. destruct (getc col u) as [c|] eqn:E; [|congruence]. rewrite (Hmono u c E). discriminate.
        - intros u c Hu. destruct (Nat.eq_dec u v) as [->|Ne]; [left; right; left; reflexivity|].
          unfold col1 in Hu. rewrite getc_setc_other in Hu by exact Ne.
          destruct (Hdone u c Hu) as [[E|Hin]|H]; [left; left; exact E | left; right; right; exact Hin|].
          right. intros w Hw. apply Hmono. apply H. exact Hw. }
      assert (Hd1 : forall w, In w (row g node) -> In w t \/ getc col1 w = Some (negb cn)).
      { intros w Hw. destruct (Hd w Hw) as [[E|Hin]|H];
          [subst w; right; exact Hv1 | left; exact Hin | right; apply Hmono; exact H]. }
      specialize (IH col1 (v :: stack) (rem - 1) Hinv1 (consistent_extend g col node cn v Hc Hn Hvr)
                    (Hmono _ _ Hn) Hsub' Hd1).
      destruct (bip_scan node t col1 (v :: stack) (rem - 1)) as [|col' stack' rem']; [exact IH|].
      destruct IH as [A [B C]]. split; [exact A|]. split; [exact B|]. cbn [length] in C. lia.
Qed.

(** Closedness: with an empty stack, the coloured set is closed under (symmetric) adjacency. *)
Lemma closed_reach g col :
  (forall u v, In v (row g u) -> In u (row g v)) ->
  (forall u c, getc col u = Some c -> forall v, In v (row g u) -> getc col v = Some (negb c)) ->
  forall u v, wconn g u v -> getc col u <> None -> getc col v <> None.
Proof.
  intros Hsym Hcl u v H. induction H as [u|u x v Hux Hxv IH]; auto.
  intros Hu. apply IH. destruct (getc col u) as [c|] eqn:E; [|congruence].
  destruct Hux as [Hux|Hux]; [|apply Hsym in Hux]; rewrite (Hcl u c E x Hux); discriminate.
Qed.

Lemma binv_closed g col rem : binv g col [] rem ->
  forall u c, getc col u = Some c -> forall v, In v (row g u) -> getc col v = Some (negb c).
Proof. intros Hinv u c Hu. destruct (binv_done _ _ _ _ Hinv u c Hu) as [[]|H]; exact H. Qed.

(** One iteration with an empty stack and nodes left: a new source is coloured 0; no coloured node is joined to it. *)
Lemma new_source_inv g col rem src :
  (forall u v, In v (row g u) -> In u (row g v)) ->
  binv g col [] rem -> consistent g col -> src < length col -> getc col src = None ->
  binv g (setc col src (Some false)) [src] (rem - 1) /\ consistent g (setc col src (Some false)).
Proof.
  intros Hsym Hinv Hc Hsl Hsn. pose proof (binv_closed g col rem Hinv) as Hcl. destruct Hinv as [Hlen Hrem _ _].
  pose proof (count_none_setc col src false Hsn Hsl) as Hcnt. split.
  - constructor.
    + rewrite setc_length. exact Hlen.
    + lia.
    + intros u [Hu|[]]. subst u. split; [lia|]. rewrite getc_setc_same by exact Hsl. discriminate.
    + intros u c Hu. destruct (Nat.eq_dec u src) as [E|E]; [left; left; auto|].
      right. rewrite getc_setc_other in Hu by exact E. intros v Hv.
      rewrite getc_setc_other; [exact (Hcl u c Hu v Hv)|].
      intros Ev; subst v. rewrite (Hcl u c Hu _ Hv) in Hsn. discriminate.
  - apply consistent_set; [exact Hc|]. intros f Hp a ca Ha Hav. exfalso.
    apply (closed_reach g col Hsym Hcl a src Hav); congruence.
Qed.

(** What the colouring loop answers: there is no proper 2-colouring, or here is a complete one. *)
Definition bip_post (g : graph) (res : option (list color)) : Prop :=
  match res with
  | None => ~ two_colourable g
  | Some colf =>
      length colf = length g /\
      (forall u, u < length g -> exists c, getc colf u = Some c) /\
      (forall u c, getc colf u = Some c -> forall v, In v (row g u) -> getc colf v = Some (negb c))
  end.

(** The loop returns: 2 * (uncoloured) + (stack length) decreases at every iteration, and an uncoloured
    node is always found while [exists_remaining] is positive (neither OutOfFuel nor IndexError); and its
    answer is right. *)
Lemma bip_loop_correct g :
  wf_graph g -> (forall u v, In v (row g u) -> In u (row g v)) ->
  forall fuel col stack rem,
  binv g col stack rem -> consistent g col ->
  2 * count_none col + length stack < fuel ->
  exists res, bip_loop fuel g col stack rem = Ok res /\ bip_post g res.
Proof.
  intros Hwf Hsym. induction fuel as [|fuel IH]; intros col stack rem Hinv Hc Hf; [lia|].
  simpl. destruct stack as [|node st].
  - pose proof (binv_rem _ _ _ _ Hinv) as Hrem. destruct (rem =? 0) eqn:Erem.
    + exists (Some col). split; [reflexivity|]. apply Nat.eqb_eq in Erem.
      split; [apply (binv_len _ _ _ _ Hinv)|]. split.
      * intros u Hu. rewrite Hrem in Erem.
        pose proof (count_none_zero col Erem u) as H. rewrite (binv_len _ _ _ _ Hinv) in H.
        specialize (H Hu). destruct (getc col u) as [c|]; [exists c; reflexivity | congruence].
      * exact (binv_closed g col rem Hinv).
    + apply Nat.eqb_neq in Erem. destruct (first_none col 0) as [src|] eqn:Esrc.
      * apply first_none_spec in Esrc. rewrite Nat.sub_0_r in Esrc. destruct Esrc as [_ [Hsl Hsn]].
        destruct (new_source_inv g col rem src Hsym Hinv Hc Hsl Hsn) as [H1 H2].
        pose proof (count_none_setc col src false Hsn Hsl). apply IH; auto. cbn [length] in *. lia.
      * apply first_none_none in Esrc. lia.
  - destruct (binv_stack _ _ _ _ Hinv node (or_introl eq_refl)) as [_ Hnc].
    destruct (getc col node) as [cn|] eqn:En; [|congruence].
    pose proof (bip_scan_inv g node cn Hwf (row g node) col st rem Hinv Hc En (fun v H => H)
                  (fun v H => or_introl H)) as Hs.
    destruct (bip_scan node (row g node) col st rem) as [|col' stack' rem'].
    + exists None. split; [reflexivity | exact Hs].
    + destruct Hs as [H1 [H2 K]]. apply IH; auto. cbn [length] in Hf. lia.
Qed.

(** * is_bipartite: total and sound *)

Lemma color_is_spec col c u : color_is col c u = true <-> getc col u = Some c.
Proof. unfold color_is. apply color_eqb_eq. Qed.

Lemma bip_loop_runs g :
  wf_graph g -> is_symmetric g = true ->
  exists res, bip_loop (2 * length g + 1) g (repeat None (length g)) [] (length g) = Ok res /\ bip_post g res.
Proof.
  intros Hwf Hsym. apply bip_loop_correct; auto.
  - apply is_symmetric_spec. exact Hsym.
  - constructor; [apply repeat_length | rewrite count_none_repeat; reflexivity | intros u [] |].
    intros u c H. rewrite getc_repeat in H. discriminate.
  - intros f _ u v cu cv H. rewrite getc_repeat in H. discriminate.
  - rewrite count_none_repeat. simpl. lia.
Qed.

Theorem is_bipartite_total g :
  wf_graph g ->
  (is_symmetric g = false -> is_bipartite g = Err ValueError) /\
  (is_symmetric g = true -> exists b x, is_bipartite g = Ok (b, x)).
Proof.
  intros Hwf. unfold is_bipartite. split; intros Hs; rewrite Hs; cbn [negb]; [reflexivity|].
  destruct (has_loops g); [eexists; eexists; reflexivity|].
  destruct (bip_loop_runs g Hwf Hs) as [res [Hres _]]. rewrite Hres.
  destruct res; eexists; eexists; reflexivity.
Qed.

Theorem is_bipartite_sound_lemma g x :
  wf_graph g -> is_bipartite g = Ok (true, x) ->
  exists m rws cls, x = Some (m, rws, cls) /\
    (forall u, ~ In u (row g u)) /\
    (forall u, u < length g -> (In u rws /\ ~ In u cls) \/ (In u cls /\ ~ In u rws)) /\
    (forall u, In u rws \/ In u cls -> u < length g) /\
    NoDup rws /\ NoDup cls /\
    (forall u v, In v (row g u) -> (In u rws /\ In v cls) \/ (In u cls /\ In v rws)) /\
    p_nrow m = length rws /\ p_ncol m = length cls /\
    (forall a b, a < length rws -> b < length cls ->
       (In b (row (p_rows m) a) <-> In (nthn cls b) (row g (nthn rws a)))).
Proof.
  intros Hwf. unfold is_bipartite.
  destruct (is_symmetric g) eqn:Hs; cbn [negb]; [|discriminate].
  destruct (has_loops g) eqn:Hl; [discriminate|].
  destruct (bip_loop_runs g Hwf Hs) as [[col|] [Hrun Hpost]]; rewrite Hrun; [|discriminate].
  destruct Hpost as [Hlen [Hall Hopp]].
  intros H. inversion H; subst x. clear H.
  eexists; eexists; eexists. split; [reflexivity|].
  assert (Hcol : forall c u, In u (filter (color_is col c) (seq 0 (length g))) <-> u < length g /\ getc col u = Some c).
  { intros c u. rewrite filter_In, in_seq, color_is_spec. split; intros [A B]; split; auto; lia. }
  split; [apply has_loops_false; exact Hl|].
  split.
  { intros u Hu. destruct (Hall u Hu) as [[|] Hc]; [right|left]; rewrite !Hcol; split; auto;
      intros [_ H]; congruence. }
  split; [intros u [H|H]; apply Hcol in H; tauto|].
  split; [apply NoDup_filter; apply seq_NoDup|].
  split; [apply NoDup_filter; apply seq_NoDup|].
  split.
  { intros u v Huv. assert (Hu : u < length g) by (eapply row_nonempty_lt; eauto).
    assert (Hv : v < length g) by (eapply Hwf; eauto).
    destruct (Hall u Hu) as [c Hc]. pose proof (Hopp u c Hc v Huv) as Hvc.
    rewrite !Hcol. destruct c; simpl in Hvc; [right|left]; auto. }
  split; [exact (proj1 (submatrix_shape _ _ _))|]. split; [exact (proj2 (submatrix_shape _ _ _))|].
  intros a b Ha Hb. rewrite submatrix_entry by assumption. reflexivity.
Qed.

(** true  =>  a proper 2-colouring exists (the returned classes), in [proper] form. *)
Corollary is_bipartite_true_two_colourable g x :
  wf_graph g -> is_bipartite g = Ok (true, x) -> (forall u, ~ In u (row g u)) /\ two_colourable g.
Proof.
  intros Hwf H. destruct (is_bipartite_sound_lemma g x Hwf H) as
    [m [rws [cls [_ [Hl [Hpart [Hlt [_ [_ [Hedge _]]]]]]]]]].
  split; [exact Hl|].
  assert (Hr : forall a, In a rws -> memn a cls = false).
  { intros a Ha. apply memn_false. destruct (Hpart a (Hlt a (or_introl Ha))); tauto. }
  exists (fun u => memn u cls). intros u v Hu Huv.
  destruct (Hedge u v Huv) as [[A B]|[A B]].
  - rewrite (Hr u A), (proj2 (memn_In v cls) B). discriminate.
  - rewrite (Hr v B), (proj2 (memn_In u cls) A). discriminate.
Qed.

(** * is_connected: helper lemmas (the statement is in Props/C12.v) *)
Lemma n_labels_one (l : list nat) :
  n_labels l = 1 <-> l <> [] /\ forall x y, In x l -> In y l -> x = y.
Proof.
  unfold n_labels. split.
  - intros H. destruct (nodup Nat.eq_dec l) as [|a [|b t]] eqn:E; simpl in H; try lia.
    split.
    + intros El. subst l. simpl in E. discriminate.
    + intros x y Hx Hy. apply (nodup_In Nat.eq_dec) in Hx, Hy. rewrite E in Hx, Hy.
      destruct Hx as [Hx|[]], Hy as [Hy|[]]. congruence.
  - intros [Hne Heq]. destruct l as [|a t]; [congruence|].
    assert (Hincl : incl (nodup Nat.eq_dec (a :: t)) [a]).
    { intros x Hx. apply nodup_In in Hx. left. apply Heq; [left; reflexivity | exact Hx]. }
    pose proof (NoDup_incl_length (NoDup_nodup Nat.eq_dec (a :: t)) Hincl) as Hle.
    assert (Hin : In a (nodup Nat.eq_dec (a :: t))) by (apply nodup_In; left; reflexivity).
    remember (nodup Nat.eq_dec (a :: t)) as nd eqn:End. clear End.
    destruct nd; [destruct Hin | cbn [length] in *; lia].
Qed.

Lemma nthn_In (l : list nat) (i : nat) : i < length l -> In (nthn l i) l.
Proof. intros H. unfold nthn. apply nth_In. exact H. Qed.

Lemma In_nthn (l : list nat) (x : nat) : In x l -> exists i, i < length l /\ nthn l i = x.
Proof. intros H. destruct (In_nth l x 0 H) as [i [Hi E]]. exists i. split; auto. Qed.

(** * get_largest_connected_component *)
(** The running maximum over the values [val i], [val (i+1)], ... : the result is the old best or a later
    index, and no value seen is larger than the one it points to. *)
Lemma argmax_aux_spec (val : nat -> nat) : forall n i besti,
  let r := argmax_aux (map val (seq i n)) i besti (val besti) in
  (r = besti \/ i <= r < i + n) /\ val besti <= val r /\ forall k, i <= k < i + n -> val k <= val r.
Proof.
  induction n as [|n IH]; intros i besti; simpl; [split; [lia|]; split; [lia | intros k Hk; lia]|].
  destruct (val besti <? val i) eqn:E.
  - apply Nat.ltb_lt in E. destruct (IH (S i) i) as [A [B C]].
    split; [lia|]. split; [lia|]. intros k Hk. destruct (Nat.eq_dec k i) as [->|Ne]; [lia | apply C; lia].
  - apply Nat.ltb_ge in E. destruct (IH (S i) besti) as [A [B C]].
    split; [lia|]. split; [lia|]. intros k Hk. destruct (Nat.eq_dec k i) as [->|Ne]; [lia | apply C; lia].
Qed.

Lemma argmax_spec (l : list nat) (d : nat) :
  l <> [] -> argmax l < length l /\ forall k, k < length l -> nth k l d <= nth (argmax l) l d.
Proof.
  destruct l as [|x t]; [congruence|]. intros _. unfold argmax. set (val := fun k => nth k (x :: t) d).
  assert (Et : map val (seq 1 (length t)) = t).
  { rewrite <- seq_shift, map_map. apply (map_nth_seq t d). }
  destruct (argmax_aux_spec val (length t) 1 0) as [A [B C]]. cbv zeta in A, B, C. rewrite Et in A, B, C.
  change (val 0) with x in A, B, C.
  split; [simpl; lia|]. intros [|k] Hk; [exact B | apply C; simpl in Hk; lia].
Qed.

Lemma np_unique_In l x : In x (np_unique l) <-> In x l.
Proof.
  unfold np_unique. rewrite filter_In, in_seq, memn_In. split; [tauto|].
  intros H. split; auto. split; [lia|].
  pose proof (proj1 (list_max_le l (list_max l)) (Nat.le_refl _)) as Hf.
  rewrite Forall_forall in Hf. specialize (Hf x H). lia.
Qed.

Lemma count_zero l x : ~ In x l -> count l x = 0.
Proof.
  unfold count. intros H. rewrite filter_none; auto.
  intros y Hy. apply Nat.eqb_neq. intros E; subst; contradiction.
Qed.

Lemma largest_label_spec (labels : list nat) :
  labels <> [] ->
  In (largest_label labels) labels /\ forall x, count labels x <= count labels (largest_label labels).
Proof.
  intros Hne. unfold largest_label. set (u := np_unique labels).
  assert (Hu : u <> []).
  { destruct labels as [|a t]; [congruence|]. intros E.
    assert (In a u) by (apply np_unique_In; left; reflexivity). rewrite E in H. destruct H. }
  assert (Hm : map (count labels) u <> []) by (destruct u; [congruence | discriminate]).
  destruct (argmax_spec (map (count labels) u) 0 Hm) as [Hlt Hmax].
  rewrite map_length in Hlt, Hmax.
  split.
  - apply np_unique_In. apply nthn_In. exact Hlt.
  - intros x. destruct (in_dec Nat.eq_dec x labels) as [Hin|Hout].
    + apply np_unique_In in Hin. apply In_nthn in Hin. destruct Hin as [k [Hk Ek]].
      specialize (Hmax k Hk). rewrite (nth_map_lt (count labels) u k 0 0) in Hmax by exact Hk.
      rewrite (nth_map_lt (count labels) u _ 0 0) in Hmax by exact Hlt.
      unfold nthn in *. fold u in Ek. rewrite Ek in Hmax. exact Hmax.
    + rewrite count_zero by exact Hout. lia.
Qed.

(** The returned index is one class of the labelling, it is a largest class, and (with the
    contract) a connected component; the returned matrix is the sub-matrix on it. *)
Theorem largest_component_lemma (m : pmat) (fb strong : bool) (comp : list nat) out index :
  components_contract (cc_adjacency m fb) strong comp ->
  get_largest_connected_component m fb comp = Ok (out, index) ->
  let g := cc_adjacency m fb in
  let bip := snd (get_adjacency m fb) in
  let l := largest_label comp in
  let inclass := fun u => nthn comp u = l in
  (* a non-empty class, which is exactly one connected component *)
  (exists u0, u0 < length g /\ inclass u0) /\
  (forall u v, u < length g -> v < length g -> inclass u ->
      (inclass v <-> if strong then sconn g u v else wconn g u v)) /\
  (* of maximum size *)
  (forall x, count comp x <= count comp l) /\
  (* the index lists the class in increasing order (rows, then columns for a biadjacency input)
     and the matrix is the input restricted to it, rows then columns *)
  exists ir ic,
    out = submatrix m ir ic /\
    (bip = false -> ir = filter (fun u => nthn comp u =? l) (seq 0 (length g)) /\ ic = ir /\ index = ir) /\
    (bip = true -> ir = filter (fun i => nthn comp i =? l) (seq 0 (p_nrow m)) /\
                   ic = filter (fun j => nthn comp (p_nrow m + j) =? l) (seq 0 (length g - p_nrow m)) /\
                   index = ir ++ ic) /\
    (forall a b, a < length ir -> b < length ic ->
       (In b (row (p_rows out) a) <-> In (nthn ic b) (row (p_rows m) (nthn ir a)))).
Proof.
  intros [Hlen Hc] H g bip l inclass. fold g in Hlen, Hc.
  unfold get_largest_connected_component in H.
  destruct (nnz (p_rows m) =? 0) eqn:Ennz; [discriminate|].
  assert (Hg : 0 < length g).
  { unfold g, cc_adjacency, get_adjacency. cbn [fst].
    assert (Hp : 0 < p_nrow m).
    { unfold p_nrow. destruct (p_rows m); [simpl in Ennz; discriminate | simpl; lia]. }
    destruct (fb || negb (p_nrow m =? p_ncol m)); [|exact Hp].
    unfold block_undirected. rewrite app_length, map_length. unfold p_nrow in Hp. lia. }
  assert (Hne : comp <> []) by (intros E; subst comp; simpl in Hlen; lia).
  destruct (largest_label_spec comp Hne) as [Hin Hmax]. fold l in Hin, Hmax.
  split.
  { apply In_nthn in Hin. destruct Hin as [i [Hi Ei]]. exists i. split; [lia | exact Ei]. }
  split.
  { intros u v Hu Hv Hcu. unfold inclass in *. rewrite <- Hcu. rewrite <- (Hc u v Hu Hv).
    split; intros E; congruence. }
  split; [exact Hmax|].
  fold bip in H. fold l in H. destruct bip eqn:Eb.
  - inversion H; subst out index. eexists; eexists. split; [reflexivity|].
    split; [discriminate|]. split.
    + intros _. rewrite Hlen. auto.
    + intros a b Ha Hb. apply submatrix_entry; assumption.
  - inversion H; subst out index. eexists; eexists. split; [reflexivity|].
    split.
    + intros _. rewrite Hlen. auto.
    + split; [discriminate|]. intros a b Ha Hb. apply submatrix_entry; assumption.
Qed.
