(** MinHeap (minheap.pyx) and compute_core (core.pyx), level L0: full specifications of
    insert_key, decrease_key and pop_min / min_heapify on the array-level model of Model/Topology.v under the
    heap invariant [heap_ok] ([insert_key_spec], [decrease_key_spec], [pop_min_spec]: the invariant is preserved
    - stated separately as C11.heap_ok_insert_key / heap_ok_pop_min -, pop_min returns a live node of minimum
    score and removes exactly it), and compute_core refines the set-level peeling [peel] (level L1), hence
    returns the core numbers. *)
From Coq Require Import Lia ZArith List.
From SKN Require Import Base.Util Model.Bfs Model.Topology Proofs.BfsProofs Proofs.TopologyProofs.
Local Open Scope nat_scope. (* scope : nat *)

(** * Index arithmetic: [par i] = (i - 1) // 2 (Proofs/TopologyProofs.v) undoes [left] and [right] *)

Lemma par_left i : par (2 * i + 1) = i.
Proof. pose proof (par_spec (2 * i + 1) ltac:(lia)). lia. Qed.

Lemma par_right i : par (2 * i + 2) = i.
Proof. pose proof (par_spec (2 * i + 2) ltac:(lia)). lia. Qed.

(** * The structural part of the invariant, live nodes, frames *)

Definition perm_ok (h : heap) : Prop :=
  h_size h <= length (h_val h) /\
  forall i, i < h_size h ->
    nthn (h_val h) i < length (h_pos h) /\ nthn (h_pos h) (nthn (h_val h) i) = i.

(** [v] is in the heap: it is stored at a live position. *)
Definition live (h : heap) (v : nat) : Prop := exists i, i < h_size h /\ nthn (h_val h) i = v.

(** What an operation that neither inserts nor removes leaves unchanged: array lengths, size, the
    set of live nodes, and the [pos] entry of every node that is not live (stale entries included). *)
Definition hframe (h h' : heap) : Prop :=
  length (h_val h') = length (h_val h) /\ length (h_pos h') = length (h_pos h) /\
  h_size h' = h_size h /\
  (forall v, live h' v <-> live h v) /\
  (forall v, ~ live h v -> nthn (h_pos h') v = nthn (h_pos h) v).

Lemma heap_ok_perm h s : heap_ok h s -> perm_ok h.
Proof. intros [A [B _]]. split; assumption. Qed.

Lemma perm_ok_inj h i j :
  perm_ok h -> i < h_size h -> j < h_size h -> nthn (h_val h) i = nthn (h_val h) j -> i = j.
Proof.
  intros [_ P] Hi Hj E. destruct (P i Hi) as [_ Pi]. destruct (P j Hj) as [_ Pj].
  rewrite E in Pi. lia.
Qed.

Lemma live_pos h v : perm_ok h -> live h v ->
  nthn (h_pos h) v < h_size h /\ nthn (h_val h) (nthn (h_pos h) v) = v.
Proof.
  intros [_ P] [i [Hi E]]. destruct (P i Hi) as [_ Pi]. rewrite E in Pi. rewrite Pi. split; assumption.
Qed.

Lemma hframe_refl h : hframe h h.
Proof. repeat split; auto. Qed.

Lemma hframe_trans h1 h2 h3 : hframe h1 h2 -> hframe h2 h3 -> hframe h1 h3.
Proof.
  intros [A1 [B1 [C1 [D1 E1]]]] [A2 [B2 [C2 [D2 E2]]]].
  split; [lia|]. split; [lia|]. split; [lia|]. split.
  - intros v. rewrite D2. apply D1.
  - intros v Hv. rewrite E2; [apply E1; exact Hv|]. rewrite D1. exact Hv.
Qed.

Lemma swap_size h x y : h_size (swap h x y) = h_size h.
Proof. reflexivity. Qed.

Lemma swap_val h x y q : x < length (h_val h) -> y < length (h_val h) ->
  nthn (h_val (swap h x y)) q =
  if q =? y then nthn (h_val h) x else if q =? x then nthn (h_val h) y else nthn (h_val h) q.
Proof. intros Hx Hy. unfold swap. cbn [h_val]. apply swap_list_nth; assumption. Qed.

Lemma swap_val_length h x y : length (h_val (swap h x y)) = length (h_val h).
Proof. unfold swap. cbn [h_val]. rewrite !upd_length. reflexivity. Qed.

Lemma swap_pos_length h x y : length (h_pos (swap h x y)) = length (h_pos h).
Proof. unfold swap. cbn [h_pos]. rewrite !upd_length. reflexivity. Qed.

Lemma swap_pos h x y v : perm_ok h -> x < h_size h -> y < h_size h -> x <> y ->
  nthn (h_pos (swap h x y)) v =
  if v =? nthn (h_val h) x then y else if v =? nthn (h_val h) y then x else nthn (h_pos h) v.
Proof.
  intros Hp Hx Hy Ne. pose proof Hp as [Hlen P].
  unfold swap. cbn [h_pos h_val].
  rewrite !swap_list_nth by lia. rewrite Nat.eqb_refl.
  destruct (Nat.eqb_spec x y) as [E|_]; [contradiction|]. rewrite Nat.eqb_refl.
  destruct (P x Hx) as [Lx _]. destruct (P y Hy) as [Ly _].
  destruct (Nat.eqb_spec v (nthn (h_val h) x)) as [->|Nx].
  - apply nthn_upd_same. rewrite upd_length. exact Lx.
  - rewrite nthn_upd_other by lia.
    destruct (Nat.eqb_spec v (nthn (h_val h) y)) as [->|Nyv].
    + apply nthn_upd_same. exact Ly.
    + apply nthn_upd_other. lia.
Qed.

Lemma swap_score h s x y q : x < length (h_val h) -> y < length (h_val h) ->
  score_at (swap h x y) s q =
  if q =? y then score_at h s x else if q =? x then score_at h s y else score_at h s q.
Proof.
  intros Hx Hy. unfold score_at. rewrite swap_val by assumption.
  destruct (q =? y); [reflexivity|]. destruct (q =? x); reflexivity.
Qed.

Lemma swap_perm_ok h x y : perm_ok h -> x < h_size h -> y < h_size h -> x <> y -> perm_ok (swap h x y).
Proof.
  intros Hp Hx Hy Ne. pose proof Hp as [Hlen P]. split.
  - rewrite swap_val_length, swap_size. exact Hlen.
  - intros i Hi. rewrite swap_size in Hi. rewrite swap_pos_length.
    rewrite swap_val by lia. rewrite swap_pos by assumption.
    destruct (Nat.eqb_spec i y) as [->|Niy].
    + rewrite Nat.eqb_refl. split; [apply (P x Hx)|reflexivity].
    + destruct (Nat.eqb_spec i x) as [->|Nix].
      * destruct (Nat.eqb_spec (nthn (h_val h) y) (nthn (h_val h) x)) as [E|_].
        -- exfalso. apply Ne. symmetry. apply (perm_ok_inj h y x Hp Hy Hx E).
        -- rewrite Nat.eqb_refl. split; [apply (P y Hy)|reflexivity].
      * destruct (Nat.eqb_spec (nthn (h_val h) i) (nthn (h_val h) x)) as [E|_].
        { exfalso. apply Nix. apply (perm_ok_inj h i x Hp Hi Hx E). }
        destruct (Nat.eqb_spec (nthn (h_val h) i) (nthn (h_val h) y)) as [E|_].
        { exfalso. apply Niy. apply (perm_ok_inj h i y Hp Hi Hy E). }
        apply (P i Hi).
Qed.

Lemma swap_live h x y v : perm_ok h -> x < h_size h -> y < h_size h -> live (swap h x y) v <-> live h v.
Proof.
  intros [Hlen _] Hx Hy. unfold live. rewrite swap_size. split.
  - intros [i [Hi E]]. rewrite swap_val in E by lia.
    destruct (Nat.eqb_spec i y) as [->|Niy]; [exists x; auto|].
    destruct (Nat.eqb_spec i x) as [->|Nix]; [exists y; auto|]. exists i; auto.
  - intros [i [Hi E]].
    destruct (Nat.eq_dec i x) as [->|Nix].
    + exists y. split; [exact Hy|]. rewrite swap_val by lia. rewrite Nat.eqb_refl. exact E.
    + destruct (Nat.eq_dec i y) as [->|Niy].
      * exists x. split; [exact Hx|]. rewrite swap_val by lia.
        destruct (Nat.eqb_spec x y) as [->|_]; [exact E|]. rewrite Nat.eqb_refl. exact E.
      * exists i. split; [exact Hi|]. rewrite swap_val by lia.
        destruct (Nat.eqb_spec i y) as [?|_]; [contradiction|].
        destruct (Nat.eqb_spec i x) as [?|_]; [contradiction|]. exact E.
Qed.

Lemma swap_hframe h x y : perm_ok h -> x < h_size h -> y < h_size h -> x <> y -> hframe h (swap h x y).
Proof.
  intros Hp Hx Hy Ne. split; [apply swap_val_length|]. split; [apply swap_pos_length|].
  split; [reflexivity|]. split; [intros v; apply swap_live; assumption|].
  intros v Hv. rewrite swap_pos by assumption.
  destruct (Nat.eqb_spec v (nthn (h_val h) x)) as [->|_]; [exfalso; apply Hv; exists x; auto|].
  destruct (Nat.eqb_spec v (nthn (h_val h) y)) as [->|_]; [exfalso; apply Hv; exists y; auto|].
  reflexivity.
Qed.

(** * Sift-up: the loop shared by insert_key and decrease_key *)

Lemma heap_ok_par h s :
  heap_ok h s <->
  perm_ok h /\ forall j, 0 < j -> j < h_size h -> (score_at h s (par j) <= score_at h s j)%Z.
Proof. unfold heap_ok, perm_ok, par. tauto. Qed.

(** [insert_key]'s guard [p >= 0] and [decrease_key]'s guard [pos != 0] coincide when p = parent pos. *)
Lemma insert_decrease_loop fuel s : forall h i,
  insert_loop fuel h s i (parent i) = decrease_loop fuel h s i (parent i).
Proof.
  induction fuel as [|f IH]; intros h i; [reflexivity|].
  cbn [insert_loop decrease_loop].
  destruct (Nat.eqb_spec i 0) as [->|Ne]; [reflexivity|].
  assert (H : (0 <=? parent i)%Z = true).
  { apply Z.leb_le. unfold parent. apply Z.div_pos; lia. }
  rewrite H. cbn [negb andb]. rewrite IH. reflexivity.
Qed.

(** The heap order holds everywhere except possibly between [i] and its parent, and the children of
    [i] are at least the parent of [i]. *)
Definition up_inv (h : heap) (s : list Z) (i : nat) : Prop :=
  perm_ok h /\ i < h_size h /\
  (forall j, 0 < j -> j < h_size h -> j <> i -> (score_at h s (par j) <= score_at h s j)%Z) /\
  (forall j, 0 < j -> j < h_size h -> par j = i -> 0 < i ->
             (score_at h s (par i) <= score_at h s j)%Z).

Lemma sift_up_spec s : forall fuel h i,
  up_inv h s i -> i < fuel ->
  heap_ok (decrease_loop fuel h s i (parent i)) s /\ hframe h (decrease_loop fuel h s i (parent i)).
Proof.
  induction fuel as [|f IH]; intros h i Hinv Hf; [lia|].
  destruct Hinv as [Hp [Hi [Hord Hgp]]]. pose proof Hp as [Hlen _].
  cbn [decrease_loop]. fold (par i).
  destruct (Nat.eqb_spec i 0) as [E0|Ne]; cbn [negb andb].
  - split; [|apply hframe_refl]. apply heap_ok_par. split; [exact Hp|].
    intros j Hj0 Hj. apply Hord; lia.
  - rewrite Z.gtb_ltb.
    destruct (Z.ltb_spec (score_at h s i) (score_at h s (par i))) as [Lt|Ge].
    + pose proof (par_lt i ltac:(lia)) as Hpl.
      assert (Hinv' : up_inv (swap h i (par i)) s (par i)).
      { split; [apply swap_perm_ok; try assumption; lia|]. split; [rewrite swap_size; lia|]. split.
        - intros j Hj0 Hj Njp. rewrite swap_size in Hj. rewrite !swap_score by lia.
          destruct (Nat.eqb_spec j (par i)) as [?|_]; [contradiction|].
          destruct (Nat.eqb_spec j i) as [->|Nji].
          + rewrite Nat.eqb_refl. lia.
          + destruct (Nat.eqb_spec (par j) (par i)) as [Ep|Np].
            * pose proof (Hord j Hj0 Hj Nji) as H1. rewrite Ep in H1. lia.
            * destruct (Nat.eqb_spec (par j) i) as [Ei|Ni].
              -- apply (Hgp j Hj0 Hj Ei). lia.
              -- apply Hord; assumption.
        - intros j Hj0 Hj Ejp Hp0. rewrite swap_size in Hj. rewrite !swap_score by lia.
          pose proof (par_lt (par i) Hp0) as Hpp. pose proof (par_lt j Hj0) as Hpj.
          destruct (Nat.eqb_spec (par (par i)) (par i)) as [?|_]; [lia|].
          destruct (Nat.eqb_spec (par (par i)) i) as [?|_]; [lia|].
          destruct (Nat.eqb_spec j (par i)) as [?|_]; [lia|].
          pose proof (Hord (par i) Hp0 ltac:(lia) ltac:(lia)) as H1.
          destruct (Nat.eqb_spec j i) as [->|Nji]; [exact H1|].
          pose proof (Hord j Hj0 Hj Nji) as H2. rewrite Ejp in H2. lia. }
      destruct (IH (swap h i (par i)) (par i) Hinv' ltac:(lia)) as [Hok Hfr].
      split; [exact Hok|]. eapply hframe_trans; [|exact Hfr].
      apply swap_hframe; try assumption; lia.
    + split; [|apply hframe_refl]. apply heap_ok_par. split; [exact Hp|].
      intros j Hj0 Hj. destruct (Nat.eq_dec j i) as [->|Nj]; [lia|]. apply Hord; lia.
Qed.

(** * Sift-down: min_heapify *)

(** The heap order holds everywhere except possibly between [i] and its children, and the children
    of [i] are at least the parent of [i]. *)
Definition down_inv (h : heap) (s : list Z) (i : nat) : Prop :=
  perm_ok h /\ i < h_size h /\
  (forall j, 0 < j -> j < h_size h -> par j <> i -> (score_at h s (par j) <= score_at h s j)%Z) /\
  (forall j, 0 < j -> j < h_size h -> par j = i -> 0 < i ->
             (score_at h s (par i) <= score_at h s j)%Z).

Lemma sift_down_spec s : forall fuel h i,
  down_inv h s i -> h_size h < fuel + i ->
  heap_ok (min_heapify fuel h i s) s /\ hframe h (min_heapify fuel h i s).
Proof.
  induction fuel as [|f IH]; intros h i Hinv Hf.
  - destruct Hinv as [_ [Hi _]]. lia.
  - destruct Hinv as [Hp [Hi [Hord Hgp]]]. pose proof Hp as [Hlen _].
    cbn [min_heapify]. unfold left, right.
    remember (2 * i + 1) as l eqn:El. remember (2 * i + 2) as r eqn:Er.
    set (m1 := if (l <? h_size h) && (score_at h s l <? score_at h s i)%Z then l else i).
    set (m := if (r <? h_size h) && (score_at h s r <? score_at h s m1)%Z then r else m1).
    assert (F : (m = i \/ (m = l /\ l < h_size h) \/ (m = r /\ r < h_size h)) /\
                (score_at h s m <= score_at h s i)%Z /\
                (l < h_size h -> (score_at h s m <= score_at h s l)%Z) /\
                (r < h_size h -> (score_at h s m <= score_at h s r)%Z) /\
                (m <> i -> (score_at h s m < score_at h s i)%Z)).
    { subst m m1.
      destruct (Nat.ltb_spec l (h_size h)) as [Ll|Ll]; cbn [andb];
        [destruct (Z.ltb_spec (score_at h s l) (score_at h s i)) as [Sl|Sl]|];
        (destruct (Nat.ltb_spec r (h_size h)) as [Lr|Lr]; cbn [andb];
         [match goal with |- context[(?a <? ?b)%Z] => destruct (Z.ltb_spec a b) as [Sr|Sr] end|]);
        repeat split; try lia. }
    clearbody m. clear m1. destruct F as [F1 [F2 [F3 [F4 F5]]]].
    destruct (Nat.eqb_spec m i) as [Em|Nm]; cbn [negb].
    + split; [|apply hframe_refl]. apply heap_ok_par. split; [exact Hp|]. intros j Hj0 Hj.
      destruct (Nat.eq_dec (par j) i) as [Ej|Nj]; [|apply Hord; assumption].
      rewrite Ej. rewrite Em in F3, F4.
      destruct (par_spec j Hj0) as [E|E]; rewrite Ej in E.
      * assert (Hjl : j = l) by lia. clear E. subst j. apply F3. exact Hj.
      * assert (Hjr : j = r) by lia. clear E. subst j. apply F4. exact Hj.
    + assert (Hpm : par m = i).
      { destruct F1 as [?|[[-> _]|[-> _]]]; [contradiction|subst l; apply par_left|subst r; apply par_right]. }
      assert (Him : i < m) by (destruct F1 as [?|[[-> _]|[-> _]]]; lia).
      assert (Hm : m < h_size h) by (destruct F1 as [?|[[-> ?]|[-> ?]]]; lia).
      specialize (F5 Nm).
      assert (Hinv' : down_inv (swap h i m) s m).
      { split; [apply swap_perm_ok; try assumption; lia|]. split; [rewrite swap_size; lia|]. split.
        - intros j Hj0 Hj Npj. rewrite swap_size in Hj. rewrite !swap_score by lia.
          pose proof (par_lt j Hj0) as Hpj.
          destruct (Nat.eqb_spec (par j) m) as [?|_]; [contradiction|].
          destruct (Nat.eqb_spec (par j) i) as [Ei|Ni].
          + destruct (Nat.eqb_spec j m) as [->|Njm]; [lia|].
            destruct (Nat.eqb_spec j i) as [?|_]; [lia|].
            destruct (par_spec j Hj0) as [E|E]; rewrite Ei in E.
            * assert (Hjl : j = l) by lia. clear E. subst j. apply F3. exact Hj.
            * assert (Hjr : j = r) by lia. clear E. subst j. apply F4. exact Hj.
          + destruct (Nat.eqb_spec j m) as [->|Njm]; [contradiction|].
            destruct (Nat.eqb_spec j i) as [->|Nji].
            * apply Hgp; try assumption; lia.
            * apply Hord; assumption.
        - intros j Hj0 Hj Ejm Hm0. rewrite swap_size in Hj. rewrite !swap_score by lia.
          pose proof (par_lt j Hj0) as Hpj. rewrite Hpm.
          destruct (Nat.eqb_spec i m) as [?|_]; [lia|]. rewrite Nat.eqb_refl.
          destruct (Nat.eqb_spec j m) as [?|_]; [lia|].
          destruct (Nat.eqb_spec j i) as [?|_]; [lia|].
          pose proof (Hord j Hj0 Hj ltac:(lia)) as H1. rewrite Ejm in H1. exact H1. }
      destruct (IH (swap h i m) m Hinv' ltac:(rewrite swap_size; lia)) as [Hok Hfr].
      split; [exact Hok|]. eapply hframe_trans; [|exact Hfr].
      apply swap_hframe; try assumption; lia.
Qed.

Theorem insert_key_spec (h : heap) (k : nat) (s : list Z) :
  heap_ok h s -> h_size h < length (h_val h) -> k < length (h_pos h) -> ~ live h k ->
  let h' := insert_key h k s in
  heap_ok h' s /\ h_size h' = S (h_size h) /\
  length (h_val h') = length (h_val h) /\ length (h_pos h') = length (h_pos h) /\
  (forall v, live h' v <-> live h v \/ v = k) /\
  (forall v, ~ live h v -> v <> k -> nthn (h_pos h') v = nthn (h_pos h) v).
Proof.
  intros Hok Hsz Hk Hnl. cbv zeta. unfold insert_key. rewrite insert_decrease_loop.
  match goal with |- context[decrease_loop _ ?x _ _ _] => set (h1 := x) end.
  assert (Sz1 : h_size h1 = S (h_size h)) by reflexivity.
  assert (Pos1 : h_pos h1 = upd (h_pos h) k (h_size h)) by reflexivity.
  assert (Val1 : h_val h1 = upd (h_val h) (h_size h) k) by reflexivity.
  clearbody h1.
  apply heap_ok_par in Hok. destruct Hok as [Hp Hord]. pose proof Hp as [Hlen P].
  assert (V1 : forall i, i < h_size h -> nthn (h_val h1) i = nthn (h_val h) i).
  { intros i Hi. rewrite Val1. apply nthn_upd_other. lia. }
  assert (V2 : nthn (h_val h1) (h_size h) = k).
  { rewrite Val1. apply nthn_upd_same. exact Hsz. }
  assert (L1 : forall v, live h1 v <-> live h v \/ v = k).
  { intros v. unfold live. rewrite Sz1. split.
    - intros [i [Hi Ev]]. destruct (Nat.eq_dec i (h_size h)) as [->|Ni].
      + right. rewrite V2 in Ev. auto.
      + left. exists i. rewrite V1 in Ev by lia. split; [lia|exact Ev].
    - intros [[i [Hi Ev]]| ->].
      + exists i. rewrite V1 by lia. split; [lia|exact Ev].
      + exists (h_size h). split; [lia|exact V2]. }
  assert (Hinv : up_inv h1 s (h_size h)).
  { split; [|split; [|split]].
    - split; [rewrite Sz1, Val1, upd_length; lia|].
      intros i Hi. rewrite Sz1 in Hi. rewrite Pos1, upd_length.
      destruct (Nat.eq_dec i (h_size h)) as [->|Ni].
      + rewrite V2. split; [exact Hk|]. apply nthn_upd_same. exact Hk.
      + rewrite V1 by lia. destruct (P i ltac:(lia)) as [A B]. split; [exact A|].
        rewrite nthn_upd_other; [exact B|]. intros E. apply Hnl. exists i. split; [lia|].
        symmetry. exact E.
    - rewrite Sz1. lia.
    - intros j Hj0 Hj Nj. rewrite Sz1 in Hj. pose proof (par_lt j Hj0) as Hpj.
      unfold score_at. rewrite !V1 by lia. apply (Hord j Hj0). lia.
    - intros j Hj0 Hj Ej _. rewrite Sz1 in Hj. pose proof (par_lt j Hj0). lia. }
  destruct (sift_up_spec s (S (h_size h)) h1 (h_size h) Hinv ltac:(lia)) as [Hok' Hfr].
  destruct Hfr as [A [B [C [D E]]]].
  split; [exact Hok'|]. split; [rewrite C; exact Sz1|].
  split; [rewrite A, Val1, upd_length; reflexivity|].
  split; [rewrite B, Pos1, upd_length; reflexivity|]. split.
  - intros v. rewrite D. apply L1.
  - intros v Hv Nk. rewrite E.
    + rewrite Pos1. apply nthn_upd_other. lia.
    + rewrite L1. tauto.
Qed.

(** * decrease_key. [s] are the scores at the last heap operation, [s'] the current ones: only
    the score of [j] changed, and it did not increase. Nothing is assumed about [j] being live: if it
    is not (popped node, stale [pos]), the live scores are unchanged and the loop finds nothing to do. *)

Lemma heap_ok_scores h s s' : heap_ok h s -> (forall v, live h v -> nthz s' v = nthz s v) -> heap_ok h s'.
Proof.
  intros Hok E. apply heap_ok_par in Hok. destruct Hok as [Hp Hord]. apply heap_ok_par. split; [exact Hp|].
  intros q Hq0 Hq. pose proof (par_lt q Hq0). unfold score_at.
  rewrite !E by (eexists; split; [|reflexivity]; lia). apply Hord; assumption.
Qed.

Lemma heap_ok_up_inv h s i : heap_ok h s -> i < h_size h -> up_inv h s i.
Proof.
  intros Hok Hi. apply heap_ok_par in Hok. destruct Hok as [Hp Hord].
  split; [exact Hp|]. split; [exact Hi|]. split.
  - intros q Hq0 Hq _. apply Hord; assumption.
  - intros q Hq0 Hq Eq Hi0. pose proof (Hord i Hi0 Hi) as H1. pose proof (Hord q Hq0 Hq) as H2.
    rewrite Eq in H2. lia.
Qed.

Theorem decrease_key_spec (h : heap) (j : nat) (s s' : list Z) :
  heap_ok h s -> (forall v, v <> j -> nthz s' v = nthz s v) -> (nthz s' j <= nthz s j)%Z ->
  heap_ok (decrease_key h j s') s' /\ hframe h (decrease_key h j s').
Proof.
  intros Hok Hoth Hdec. pose proof (heap_ok_perm h s Hok) as Hp.
  (* unless [j] sits at its recorded position, it is not live and no live score has changed *)
  assert (Hstale : ~ live h j -> heap_ok h s').
  { intros Hn. apply (heap_ok_scores h s s' Hok). intros v Hv. apply Hoth. intros ->. exact (Hn Hv). }
  unfold decrease_key. set (p := nthn (h_pos h) j).
  destruct (Nat.ltb_spec p (h_size h)) as [Lp|Gp].
  2:{ split; [|apply hframe_refl]. apply Hstale. intros Hl. destruct (live_pos h j Hp Hl) as [H _]. fold p in H. lia. }
  apply sift_up_spec; [|lia].
  destruct (Nat.eq_dec (nthn (h_val h) p) j) as [Ev|Nv].
  2:{ apply heap_ok_up_inv; [|exact Lp]. apply Hstale. intros Hl. apply Nv. apply (live_pos h j Hp Hl). }
  apply heap_ok_par in Hok. destruct Hok as [_ Hord].
  assert (Sle : forall q, (score_at h s' q <= score_at h s q)%Z).
  { intros q. unfold score_at. destruct (Nat.eq_dec (nthn (h_val h) q) j) as [->|N]; [exact Hdec|].
    rewrite Hoth by exact N. lia. }
  assert (Seq : forall q, q < h_size h -> q <> p -> score_at h s' q = score_at h s q).
  { intros q Hq Nq. unfold score_at. apply Hoth. intros E. apply Nq.
    apply (perm_ok_inj h q p Hp Hq Lp). rewrite E, Ev. reflexivity. }
  split; [exact Hp|]. split; [exact Lp|]. split.
  - intros q Hq0 Hqs Nqp. rewrite (Seq q) by assumption.
    specialize (Sle (par q)). specialize (Hord q Hq0 Hqs). lia.
  - intros q Hq0 Hqs Eq Hp0. pose proof (par_lt q Hq0) as Hpq. pose proof (par_lt p Hp0) as Hpp.
    rewrite (Seq q), (Seq (par p)) by lia.
    pose proof (Hord p Hp0 Lp) as H1. pose proof (Hord q Hq0 Hqs) as H2. rewrite Eq in H2. lia.
Qed.

Theorem heap_ok_decrease_key (h : heap) (j : nat) (s s' : list Z) :
  heap_ok h s -> (forall v, v <> j -> nthz s' v = nthz s v) -> (nthz s' j <= nthz s j)%Z ->
  heap_ok (decrease_key h j s') s'.
Proof. intros H1 H2 H3. apply (decrease_key_spec h j s s' H1 H2 H3). Qed.

Theorem pop_min_spec (h : heap) (s : list Z) :
  heap_ok h s -> 0 < h_size h ->
  let m := fst (pop_min h s) in
  let h' := snd (pop_min h s) in
  m = nthn (h_val h) 0 /\ heap_ok h' s /\ h_size h' = h_size h - 1 /\
  length (h_val h') = length (h_val h) /\ length (h_pos h') = length (h_pos h) /\
  (forall v, live h' v <-> live h v /\ v <> m) /\
  (forall v, ~ live h' v -> nthn (h_pos h') v = nthn (h_pos h) v).
Proof.
  intros Hok Hs. cbv zeta. apply heap_ok_par in Hok. destruct Hok as [Hp Hord]. pose proof Hp as [Hlen P].
  unfold pop_min. destruct (Nat.eqb_spec (h_size h) 1) as [E1|N1]; cbn [fst snd].
  - split; [reflexivity|]. split.
    { apply heap_ok_par. split; [split|]; cbn [h_size h_val h_pos]; intros; lia. }
    cbn [h_size h_val h_pos]. split; [lia|]. split; [reflexivity|]. split; [reflexivity|]. split.
    + intros v. unfold live. cbn [h_size h_val]. split.
      * intros [i [Hi _]]. lia.
      * intros [[i [Hi Ev]] Nv]. assert (i = 0) by lia. subst i. exfalso. apply Nv. symmetry. exact Ev.
    + intros v _. reflexivity.
  - match goal with |- context[min_heapify _ ?x 0 s] => set (h1 := x) end.
    assert (Sz1 : h_size h1 = h_size h - 1) by reflexivity.
    assert (Val1 : h_val h1 = upd (h_val h) 0 (nthn (h_val h) (h_size h - 1))) by reflexivity.
    assert (Pos1 : h_pos h1 = upd (h_pos h) (nthn (h_val h) (h_size h - 1)) 0).
    { unfold h1. cbn [h_pos]. rewrite nthn_upd_same by lia. reflexivity. }
    clearbody h1.
    assert (V0 : nthn (h_val h1) 0 = nthn (h_val h) (h_size h - 1)).
    { rewrite Val1. apply nthn_upd_same. lia. }
    assert (Vi : forall i, i <> 0 -> nthn (h_val h1) i = nthn (h_val h) i).
    { intros i Hi. rewrite Val1. apply nthn_upd_other. lia. }
    assert (Inj : forall a b, a < h_size h -> b < h_size h -> a <> b -> nthn (h_val h) a <> nthn (h_val h) b).
    { intros a b Ha Hb Nab E. apply Nab. apply (perm_ok_inj h a b Hp Ha Hb E). }
    assert (L1 : forall v, live h1 v <-> live h v /\ v <> nthn (h_val h) 0).
    { intros v. unfold live. rewrite Sz1. split.
      - intros [i [Hi Ev]]. destruct (Nat.eq_dec i 0) as [->|Ni].
        + rewrite V0 in Ev. subst v. split; [exists (h_size h - 1); split; [lia|reflexivity]|].
          apply Inj; lia.
        + rewrite Vi in Ev by exact Ni. subst v. split; [exists i; split; [lia|reflexivity]|].
          apply Inj; lia.
      - intros [[i [Hi Ev]] Nv]. subst v.
        destruct (Nat.eq_dec i (h_size h - 1)) as [->|Ni].
        + exists 0. split; [lia|exact V0].
        + exists i. assert (i <> 0) by (intros ->; apply Nv; reflexivity).
          split; [lia|]. apply Vi. assumption. }
    assert (Hinv : down_inv h1 s 0).
    { split; [|split; [|split]].
      - split; [rewrite Sz1, Val1, upd_length; lia|].
        intros i Hi. rewrite Sz1 in Hi. rewrite Pos1, upd_length.
        destruct (P (h_size h - 1) ltac:(lia)) as [A0 B0].
        destruct (Nat.eq_dec i 0) as [->|Ni].
        + rewrite V0. split; [exact A0|]. apply nthn_upd_same. exact A0.
        + rewrite Vi by exact Ni. destruct (P i ltac:(lia)) as [A B]. split; [exact A|].
          rewrite nthn_upd_other; [exact B|]. apply Inj; lia.
      - rewrite Sz1. lia.
      - intros j Hj0 Hj Nj. rewrite Sz1 in Hj. unfold score_at. rewrite !Vi by lia.
        apply (Hord j Hj0). lia.
      - intros; lia. }
    destruct (sift_down_spec s (S (h_size h)) h1 0 Hinv ltac:(rewrite Sz1; lia)) as [Hok' Hfr].
    destruct Hfr as [A [B [C [D E]]]].
    split; [reflexivity|]. split; [exact Hok'|]. split; [rewrite C; exact Sz1|].
    split; [rewrite A, Val1, upd_length; reflexivity|].
    split; [rewrite B, Pos1, upd_length; reflexivity|]. split.
    + intros v. rewrite D. apply L1.
    + intros v Hv. rewrite E by (rewrite <- D; exact Hv). rewrite Pos1. apply nthn_upd_other.
      intros Ev. apply Hv. apply D. exists 0. split; [rewrite Sz1; lia|]. rewrite V0. exact Ev.
Qed.

(** pop_min returns a live node of minimum score, removes exactly it, keeps the invariant, and the
    popped node is left with the stale position 0. *)
Theorem pop_min_returns_min (h : heap) (s : list Z) :
  heap_ok h s -> 0 < h_size h ->
  let m := fst (pop_min h s) in
  let h' := snd (pop_min h s) in
  live h m /\ (forall v, live h v -> (nthz s m <= nthz s v)%Z) /\
  heap_ok h' s /\ h_size h' = h_size h - 1 /\
  (forall v, live h' v <-> live h v /\ v <> m) /\
  nthn (h_pos h') m = 0.
Proof.
  intros Hok Hs. cbv zeta.
  destruct (pop_min_spec h s Hok Hs) as [Em [Hok' [Hsz [_ [_ [Hl Hst]]]]]].
  destruct (heap_pop_is_min_partial h s Hok Hs) as [_ Hmin].
  split; [rewrite Em; exists 0; auto|]. split.
  - intros v [i [Hi Ev]]. subst v. apply Hmin. exact Hi.
  - split; [exact Hok'|]. split; [exact Hsz|]. split; [exact Hl|].
    rewrite Hst by (rewrite Hl; tauto). rewrite Em.
    destruct Hok as [_ [P _]]. apply (P 0 Hs).
Qed.

(** * compute_core (L0) refines peel (L1) *)

(** The sequence of nodes popped by compute_core: same loop as [core_loop], recording [min_node]. *)
Fixpoint core_trace (fuel : nat) (g : graph) (degrees : list Z) (mh : heap) : list nat :=
  if heap_empty mh then []
  else match fuel with
       | O => []
       | S f =>
           let (min_node, mh1) := pop_min mh degrees in
           let (degrees', mh2) := core_inner g min_node (degrees, mh1) in
           min_node :: core_trace f g degrees' mh2
       end.

Definition core_pop_sequence (g : graph) : list nat :=
  let n := length g in
  let degrees := map (fun r => Z.of_nat (length r)) g in
  let mh := fold_left (fun mh i => insert_key mh i degrees) (seq 0 n) (heap_init n) in
  core_trace n g degrees mh.

Lemma map_upd {A B} (f : A -> B) (l : list A) i x : map f (upd l i x) = upd (map f l) i (f x).
Proof.
  unfold upd. rewrite map_app, firstn_map, skipn_map. destruct (skipn i l); reflexivity.
Qed.

Lemma memn_remove x m s : memn x (remove Nat.eq_dec m s) = memn x s && negb (x =? m).
Proof.
  induction s as [|a t IH]; [reflexivity|]. cbn [remove]. rewrite memn_cons.
  destruct (Nat.eq_dec m a) as [->|N].
  - rewrite IH. destruct (Nat.eqb_spec x a); cbn [orb negb andb].
    + rewrite andb_false_r. reflexivity.
    + reflexivity.
  - rewrite memn_cons, IH. destruct (Nat.eqb_spec x a) as [->|Nx]; cbn [orb].
    + destruct (Nat.eqb_spec a m) as [E|_]; [congruence|]. reflexivity.
    + reflexivity.
Qed.

Lemma filter_remove_count (l s : list nat) m : NoDup l ->
  length (filter (fun w => memn w s) l) =
  length (filter (fun w => memn w (remove Nat.eq_dec m s)) l) + (if memn m l && memn m s then 1 else 0).
Proof.
  induction l as [|a t IH]; intros Hnd; [reflexivity|].
  inversion Hnd as [|? ? Hna Hnt]; subst. specialize (IH Hnt).
  cbn [filter]. rewrite memn_remove, memn_cons.
  destruct (Nat.eqb_spec m a) as [->|Nma].
  - rewrite (proj2 (memn_false a t) Hna) in IH. cbn [andb] in IH. rewrite Nat.eqb_refl. cbn [negb orb andb].
    rewrite andb_false_r. destruct (memn a s); cbn [length]; lia.
  - cbn [orb]. destruct (Nat.eqb_spec a m) as [E|_]; [congruence|]. cbn [negb]. rewrite andb_true_r.
    destruct (memn a s); cbn [length]; lia.
Qed.

Lemma deg_in_remove g alive m v : NoDup (row g v) ->
  deg_in g alive v =
  deg_in g (remove Nat.eq_dec m alive) v + (if memn m (row g v) && memn m alive then 1 else 0).
Proof. intros H. unfold deg_in. apply filter_remove_count. exact H. Qed.

(** The inner loop of compute_core over the (duplicate-free) neighbour list of the popped node. *)
Lemma core_inner_spec (js : list nat) : forall d mh,
  NoDup js -> (forall j, In j js -> j < length d) -> heap_ok mh d ->
  let st := fold_left (fun (st : list Z * heap) (j : nat) =>
                         let (degrees, mh) := st in
                         let degrees' := upd degrees j (nthz degrees j - 1)%Z in
                         (degrees', decrease_key mh j degrees')) js (d, mh) in
  heap_ok (snd st) (fst st) /\ hframe mh (snd st) /\ length (fst st) = length d /\
  forall v, nthz (fst st) v = if memn v js then (nthz d v - 1)%Z else nthz d v.
Proof.
  induction js as [|j t IH]; intros d mh Hnd Hlt Hok; cbv zeta.
  - cbn [fold_left fst snd]. split; [exact Hok|]. split; [apply hframe_refl|]. split; [reflexivity|].
    intros v. reflexivity.
  - cbn [fold_left]. inversion Hnd as [|? ? Hnj Hnt]; subst.
    assert (Hj : j < length d) by (apply Hlt; left; reflexivity).
    set (d1 := upd d j (nthz d j - 1)%Z).
    assert (Hoth : forall v, v <> j -> nthz d1 v = nthz d v).
    { intros v N. unfold d1. apply nth_upd_other. lia. }
    assert (Hdec : nthz d1 j = (nthz d j - 1)%Z).
    { unfold d1. apply nth_upd_same. exact Hj. }
    destruct (decrease_key_spec mh j d d1 Hok Hoth ltac:(lia)) as [Hok1 Hfr1].
    assert (Hlt1 : forall j', In j' t -> j' < length d1).
    { intros j' Hj'. unfold d1. rewrite upd_length. apply Hlt. right. exact Hj'. }
    specialize (IH d1 (decrease_key mh j d1) Hnt Hlt1 Hok1). cbv zeta in IH.
    destruct IH as [A [B [C D]]].
    split; [exact A|]. split; [eapply hframe_trans; eassumption|].
    split; [rewrite C; unfold d1; apply upd_length|].
    intros v. rewrite D. rewrite memn_cons.
    destruct (Nat.eqb_spec v j) as [->|N]; cbn [orb].
    + rewrite (proj2 (memn_false j t) Hnj). exact Hdec.
    + rewrite Hoth by exact N. reflexivity.
Qed.

(** Building the heap: after inserting 0 .. k-1 the invariant holds and exactly these nodes are live. *)
Lemma build_heap_spec (s : list Z) (n : nat) : forall k, k <= n ->
  let mh := fold_left (fun mh i => insert_key mh i s) (seq 0 k) (heap_init n) in
  heap_ok mh s /\ h_size mh = k /\ length (h_val mh) = n /\ length (h_pos mh) = n /\
  forall v, live mh v <-> v < k.
Proof.
  induction k as [|k IH]; intros Hk; cbv zeta.
  - cbn [seq fold_left]. unfold heap_init, heap_ok, live. cbn [h_size h_val h_pos].
    rewrite !repeat_length. split.
    { split; [lia|]. split; intros; lia. }
    split; [reflexivity|]. split; [reflexivity|]. split; [reflexivity|].
    intros v. split; [intros [i [Hi _]]; lia|lia].
  - specialize (IH ltac:(lia)). cbv zeta in IH. destruct IH as [Hok [Hsz [Hlv [Hlp Hlive]]]].
    rewrite seq_S, fold_left_app. cbn [fold_left plus].
    set (mh := fold_left (fun mh i => insert_key mh i s) (seq 0 k) (heap_init n)) in *.
    assert (Hnl : ~ live mh k) by (rewrite Hlive; lia).
    destruct (insert_key_spec mh k s Hok ltac:(lia) ltac:(lia) Hnl) as [A [B [C [D [E _]]]]].
    split; [exact A|]. split; [lia|]. split; [lia|]. split; [lia|].
    intros v. rewrite E, Hlive. lia.
Qed.

Section Refinement.
  Context (g : graph).
  Context (Hnd : forall u, NoDup (row g u)).
  Context (Hsym : forall u v, In v (row g u) -> In u (row g v)).

  Lemma sym_wf : wf_graph g.
  Proof.
    intros u v H. apply Hsym in H. destruct (Nat.lt_ge_cases v (length g)) as [L|L]; [exact L|].
    rewrite row_overflow in H by exact L. contradiction.
  Qed.

  Lemma memn_sym u v : memn v (row g u) = memn u (row g v).
  Proof.
    apply Bool.eq_true_iff_eq. rewrite !memn_In. split; apply Hsym.
  Qed.

  (** Refinement invariant: the heap invariant holds w.r.t. the current [degrees]; the live nodes are
      the nodes not yet removed; the [degrees] entry of every live node is its remaining degree. *)
  Lemma core_loop_refines : forall fuel degrees mh cv labels alive c labN,
    heap_ok mh degrees ->
    (forall v, In v alive <-> live mh v) ->
    (forall v, live mh v -> nthz degrees v = Z.of_nat (deg_in g alive v)) ->
    length degrees = length g ->
    h_size mh <= fuel ->
    cv = Z.of_nat c -> labels = map Z.of_nat labN ->
    exists outN,
      core_loop fuel g degrees mh cv labels = Some (map Z.of_nat outN) /\
      peel_run g (core_trace fuel g degrees mh) alive c labN = Some outN.
  Proof.
    induction fuel as [|f IH]; intros degrees mh cv labels alive c labN Hok Hal Hdeg Hlen Hfuel Hcv Hlab;
      cbn [core_loop core_trace]; destruct (heap_empty mh) eqn:Em.
    1, 3: (exists labN; unfold heap_empty in Em; apply Nat.eqb_eq in Em;
           destruct alive as [|a t];
           [cbn [peel_run]; subst labels; auto
           |exfalso; destruct (proj1 (Hal a) (or_introl eq_refl)) as [i [Hi _]]; lia]).
    - unfold heap_empty in Em. apply Nat.eqb_neq in Em. lia.
    - unfold heap_empty in Em. apply Nat.eqb_neq in Em.
      pose proof (pop_min_returns_min mh degrees Hok ltac:(lia)) as Hpop. cbv zeta in Hpop.
      destruct (pop_min mh degrees) as [m mh1] eqn:Epop. cbn [fst snd] in Hpop.
      destruct Hpop as [Hlm [Hmin [Hok1 [Hsz1 [Hl1 _]]]]].
      pose proof sym_wf as Hwf.
      pose proof (core_inner_spec (row g m) degrees mh1 (Hnd m)) as Hin.
      specialize (Hin ltac:(intros j Hj; rewrite Hlen; apply (Hwf m j Hj)) Hok1). cbv zeta in Hin.
      unfold core_inner.
      match type of Hin with context[fold_left ?F ?L ?S] => destruct (fold_left F L S) as [d' mh2] eqn:Einner end.
      cbn [fst snd] in Hin. destruct Hin as [Hok2 [Hfr [Hlen2 Hd']]].
      destruct Hfr as [_ [_ [Hsz2 [Hl2 _]]]].
      assert (Hma : In m alive) by (apply Hal; exact Hlm).
      assert (Hguard : memn m alive && forallb (fun u => deg_in g alive m <=? deg_in g alive u) alive = true).
      { apply andb_true_iff. split; [apply memn_In; exact Hma|]. apply forallb_forall. intros u Hu.
        apply Nat.leb_le. apply Hal in Hu. pose proof (Hmin u Hu) as H1.
        rewrite (Hdeg m Hlm), (Hdeg u Hu) in H1. lia. }
      cbn [peel_run]. rewrite Hguard.
      apply IH.
      + exact Hok2.
      + intros v. rewrite Hl2, Hl1, <- Hal. split.
        * intros H. apply in_remove in H. exact H.
        * intros [H1 H2]. apply in_in_remove; assumption.
      + intros v Hv. apply Hl2, Hl1 in Hv. destruct Hv as [Hv Nvm].
        rewrite Hd', (Hdeg v Hv), (deg_in_remove g alive m v (Hnd v)).
        rewrite (memn_sym m v). rewrite (proj2 (memn_In m alive) Hma), andb_true_r.
        destruct (memn m (row g v)); lia.
      + lia.
      + lia.
      + rewrite (Hdeg m Hlm), Hcv. symmetry. apply Nat2Z.inj_max.
      + rewrite Hlab, map_upd. rewrite (Hdeg m Hlm), Hcv, <- Nat2Z.inj_max. reflexivity.
  Qed.

  (** compute_core, as coded, pops the nodes in an order that is admissible for [peel] (every popped
      node is alive and has minimum remaining degree: otherwise [peel] returns [None]) and writes the
      labels [peel] computes on that order. *)
  Theorem compute_core_refines_peel :
    exists labels, peel g (core_pop_sequence g) = Some labels /\
                   compute_core g = Some (map Z.of_nat labels).
  Proof.
    unfold peel, compute_core, core_pop_sequence. cbv zeta.
    set (n := length g). set (degrees := map (fun r => Z.of_nat (length r)) g).
    destruct (build_heap_spec degrees n n (le_n n)) as [Hok [Hsz [_ [_ Hlive]]]].
    set (mh := fold_left (fun mh i => insert_key mh i degrees) (seq 0 n) (heap_init n)) in *.
    destruct (core_loop_refines n degrees mh 0%Z (repeat 0%Z n) (seq 0 n) 0 (repeat 0 n)) as [out [H1 H2]].
    - exact Hok.
    - intros v. rewrite Hlive, in_seq. lia.
    - intros v Hv. apply Hlive in Hv. unfold degrees, nthz.
      change 0%Z with ((fun r : list nat => Z.of_nat (length r)) []). rewrite map_nth. f_equal.
      unfold deg_in. fold (row g v). rewrite filter_all; [reflexivity|].
      intros w Hw. apply memn_seq. apply (sym_wf v w Hw).
    - unfold degrees. apply map_length.
    - lia.
    - reflexivity.
    - clear. induction n as [|n IHn]; [reflexivity|]. cbn [repeat map]. rewrite IHn. reflexivity.
    - exists out. split; assumption.
  Qed.

  (** Hence the L0 model returns the core numbers ([core_number]: the independent specification). *)
  Theorem compute_core_exact :
    exists labels, compute_core g = Some (map Z.of_nat labels) /\
                   length labels = length g /\
                   forall v, v < length g -> core_number g v (nthn labels v).
  Proof.
    destruct compute_core_refines_peel as [labels [Hp Hc]]. exists labels. split; [exact Hc|].
    apply (peel_is_core_number g (core_pop_sequence g) labels Hp).
  Qed.
End Refinement.
