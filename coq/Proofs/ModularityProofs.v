(** Proofs about Model/Modularity.v: finite sums over Q, and get_modularity = its specification. *)
From SKN Require Import Base.Util Model.Modularity.
From Coq Require Import Lqa Setoid Morphisms.

Local Open Scope Q_scope.

Lemma qsum_ext n f g : (forall i, (i < n)%nat -> f i == g i) -> qsum n f == qsum n g.
Proof.
  induction n as [|n IH]; intros H; simpl; [reflexivity|].
  rewrite IH by (intros i Hi; apply H; lia). rewrite (H n) by lia. reflexivity.
Qed.

Lemma qsum_zero n f : (forall i, (i < n)%nat -> f i == 0) -> qsum n f == 0.
Proof.
  induction n as [|n IH]; intros H; simpl; [reflexivity|].
  rewrite IH by (intros i Hi; apply H; lia). rewrite (H n) by lia. ring.
Qed.

Lemma qsum_plus n f g : qsum n (fun i => f i + g i) == qsum n f + qsum n g.
Proof. induction n as [|n IH]; cbn [qsum]; [ring|]. rewrite IH. ring. Qed.

Lemma qsum_minus n f g : qsum n (fun i => f i - g i) == qsum n f - qsum n g.
Proof. induction n as [|n IH]; cbn [qsum]; [ring|]. rewrite IH. ring. Qed.

Lemma qsum_scal n c f : qsum n (fun i => c * f i) == c * qsum n f.
Proof. induction n as [|n IH]; cbn [qsum]; [ring|]. rewrite IH. ring. Qed.

Lemma qsum_scal_r n c f : qsum n (fun i => f i * c) == qsum n f * c.
Proof. induction n as [|n IH]; cbn [qsum]; [ring|]. rewrite IH. ring. Qed.

Lemma qsum_swap n m (f : nat -> nat -> Q) :
  qsum n (fun i => qsum m (fun j => f i j)) == qsum m (fun j => qsum n (fun i => f i j)).
Proof.
  induction n as [|n IH]; simpl.
  - symmetry. apply qsum_zero. intros; reflexivity.
  - rewrite IH. rewrite <- qsum_plus. reflexivity.
Qed.

Definition qsum2 (n m : nat) (f : nat -> nat -> Q) : Q := qsum n (fun i => qsum m (fun j => f i j)).

Lemma qsum2_ext n m f g :
  (forall i j, (i < n)%nat -> (j < m)%nat -> f i j == g i j) -> qsum2 n m f == qsum2 n m g.
Proof. intros H. unfold qsum2. apply qsum_ext. intros i Hi. apply qsum_ext. intros j Hj. apply H; assumption. Qed.

Lemma qsum2_scal n m c f : qsum2 n m (fun i j => c * f i j) == c * qsum2 n m f.
Proof.
  unfold qsum2. rewrite <- qsum_scal. apply qsum_ext. intros i _. apply qsum_scal.
Qed.

Lemma qsum2_minus n m f g : qsum2 n m (fun i j => f i j - g i j) == qsum2 n m f - qsum2 n m g.
Proof.
  unfold qsum2. rewrite <- qsum_minus. apply qsum_ext. intros i _. apply qsum_minus.
Qed.

Lemma qsum2_plus n m f g : qsum2 n m (fun i j => f i j + g i j) == qsum2 n m f + qsum2 n m g.
Proof.
  unfold qsum2. rewrite <- qsum_plus. apply qsum_ext. intros i _. apply qsum_plus.
Qed.

Lemma qsum_le n f g : (forall i, (i < n)%nat -> f i <= g i) -> qsum n f <= qsum n g.
Proof.
  induction n as [|n IH]; intros H; simpl; [lra|].
  assert (H1 : qsum n f <= qsum n g) by (apply IH; intros i Hi; apply H; lia).
  assert (H2 : f n <= g n) by (apply H; lia). lra.
Qed.

Lemma qsum2_le n m f g :
  (forall i j, (i < n)%nat -> (j < m)%nat -> f i j <= g i j) -> qsum2 n m f <= qsum2 n m g.
Proof.
  intros H. unfold qsum2. apply qsum_le. intros i Hi. apply qsum_le. intros j Hj. apply H; assumption.
Qed.

Lemma qsum2_nonneg n m f : (forall i j, (i < n)%nat -> (j < m)%nat -> 0 <= f i j) -> 0 <= qsum2 n m f.
Proof.
  intros H. setoid_replace 0 with (qsum2 n m (fun i j => 0 * f i j)) by (rewrite qsum2_scal; ring).
  apply qsum2_le. intros i j Hi Hj. specialize (H i j Hi Hj). lra.
Qed.

Lemma ind_true b : b = true -> ind b = 1.
Proof. intros ->; reflexivity. Qed.
Lemma ind_false b : b = false -> ind b = 0.
Proof. intros ->; reflexivity. Qed.

Lemma ind_sq b : ind b * ind b == ind b.
Proof. destruct b; simpl; ring. Qed.

Lemma qsum_ind_ge n i h : (n <= i)%nat -> qsum n (fun j => ind (Nat.eqb j i) * h j) == 0.
Proof.
  intros H. apply qsum_zero. intros j Hj.
  rewrite ind_false by (apply Nat.eqb_neq; lia). ring.
Qed.

Lemma qsum_ind n i h : (i < n)%nat -> qsum n (fun j => ind (Nat.eqb j i) * h j) == h i.
Proof.
  induction n as [|n IH]; intros H; [lia|]. simpl.
  destruct (Nat.eq_dec i n) as [->|Hne].
  - rewrite qsum_ind_ge by lia. rewrite Nat.eqb_refl. simpl. ring.
  - rewrite IH by lia. rewrite ind_false by (apply Nat.eqb_neq; lia). ring.
Qed.

Lemma qsum_ind' n i h : (i < n)%nat -> qsum n (fun j => ind (Nat.eqb i j) * h j) == h i.
Proof.
  intros H. rewrite <- (qsum_ind n i h H). apply qsum_ext. intros j _.
  rewrite Nat.eqb_sym. reflexivity.
Qed.

Lemma sumq_app l1 l2 : sumq (l1 ++ l2) == sumq l1 + sumq l2.
Proof. induction l1 as [|a t IH]; simpl; [ring|]. rewrite IH. ring. Qed.

Lemma sumq_map_seq n f : sumq (map f (seq 0 n)) == qsum n f.
Proof.
  induction n as [|n IH]; [reflexivity|].
  rewrite seq_S, map_app, sumq_app, IH. simpl. ring.
Qed.

(** Partition of a sum by labels: if every label is below k,
    sum_c sum_i [l_i = c] X i c = sum_i X i l_i. *)
Lemma qsum_by_label k n (l : nat -> nat) (X : nat -> nat -> Q) :
  (forall i, (i < n)%nat -> (l i < k)%nat) ->
  qsum k (fun c => qsum n (fun i => ind (Nat.eqb (l i) c) * X i c)) == qsum n (fun i => X i (l i)).
Proof.
  intros H. rewrite qsum_swap. apply qsum_ext. intros i Hi.
  rewrite <- (qsum_ind' k (l i) (fun c => X i c)) by (apply H; exact Hi). reflexivity.
Qed.

Lemma rsum_ext r h h' : (forall j w, In (j, w) r -> h j == h' j) -> rsum r h == rsum r h'.
Proof.
  induction r as [|[j w] t IH]; intros H; simpl; [reflexivity|].
  rewrite IH by (intros j' w' Hin; apply (H j' w'); right; exact Hin).
  rewrite (H j w) by (left; reflexivity). reflexivity.
Qed.

Lemma rsum_plus r h h' : rsum r (fun j => h j + h' j) == rsum r h + rsum r h'.
Proof. induction r as [|[j w] t IH]; simpl; [ring|]. rewrite IH. ring. Qed.

Lemma rsum_scal r c h : rsum r (fun j => c * h j) == c * rsum r h.
Proof. induction r as [|[j w] t IH]; simpl; [ring|]. rewrite IH. ring. Qed.

Lemma rsum_scal_r r c h : rsum r (fun j => h j * c) == rsum r h * c.
Proof. induction r as [|[j w] t IH]; simpl; [ring|]. rewrite IH. ring. Qed.

Lemma rsum_app r1 r2 h : rsum (r1 ++ r2) h == rsum r1 h + rsum r2 h.
Proof. induction r1 as [|[j w] t IH]; simpl; [ring|]. rewrite IH. ring. Qed.

Lemma rsum_zero r h : (forall j w, In (j, w) r -> h j == 0) -> rsum r h == 0.
Proof.
  induction r as [|[j w] t IH]; intros H; simpl; [reflexivity|].
  rewrite IH by (intros j' w' Hin; apply (H j' w'); right; exact Hin).
  rewrite (H j w) by (left; reflexivity). ring.
Qed.

Lemma rsum_entries n r h :
  (forall j w, In (j, w) r -> (j < n)%nat) ->
  rsum r h == qsum n (fun j => rsum r (fun j' => ind (Nat.eqb j' j)) * h j).
Proof.
  induction r as [|[j w] t IH]; intros H; simpl.
  - symmetry. apply qsum_zero. intros; ring.
  - rewrite IH by (intros j' w' Hin; apply (H j' w'); right; exact Hin).
    assert (Hj : (j < n)%nat) by (apply (H j w); left; reflexivity).
    rewrite <- (qsum_ind' n j (fun j0 => w * h j0) Hj).
    rewrite <- qsum_plus. apply qsum_ext. intros j0 _. ring.
Qed.

Lemma wrow_of_In_wf g i j w : wf_wgraph g -> In (j, w) (wrow_of g i) -> (j < length g)%nat.
Proof. intros H Hin. exact (H i j w Hin). Qed.

Lemma rsum_row_entries g i h :
  wf_wgraph g -> rsum (wrow_of g i) h == qsum (length g) (fun j => entry g i j * h j).
Proof.
  intros H. unfold entry. apply rsum_entries. intros j w Hin. exact (H i j w Hin).
Qed.

Lemma out_deg_spec g i : wf_wgraph g -> out_deg g i == spec_out_deg g i.
Proof.
  intros H. unfold out_deg, spec_out_deg. rewrite (rsum_row_entries g i _ H).
  apply qsum_ext. intros j _. ring.
Qed.

Lemma data_sum_spec g : wf_wgraph g -> data_sum g == total_weight g.
Proof.
  intros H. unfold data_sum, total_weight. apply qsum_ext. intros i _.
  rewrite (out_deg_spec g i H). reflexivity.
Qed.

Lemma in_deg_total g : qsum (length g) (in_deg g) == total_weight g.
Proof. unfold in_deg, total_weight. rewrite qsum_swap. reflexivity. Qed.

Lemma wf_wgraphb_ok g : wf_wgraphb g = true -> wf_wgraph g.
Proof.
  unfold wf_wgraphb, wf_wgraph, wrow_of. intros H i j w Hin.
  rewrite forallb_forall in H.
  destruct (Nat.lt_ge_cases i (length g)) as [Hi|Hi].
  - specialize (H (nth i g []) (nth_In g [] Hi)). rewrite forallb_forall in H.
    specialize (H (j, w) Hin). apply Nat.ltb_lt in H. exact H.
  - rewrite nth_overflow in Hin by exact Hi. destruct Hin.
Qed.

Lemma fold_max_ge (labels : list nat) x : In x labels -> (x <= fold_right Nat.max 0%nat labels)%nat.
Proof.
  induction labels as [|a t IH]; simpl; intros H; [destruct H|].
  destruct H as [->|H]; [lia|]. specialize (IH H). lia.
Qed.

Lemma lab_lt_n_labels labels i : (i < length labels)%nat -> (lab labels i < n_labels labels)%nat.
Proof.
  intros H. unfold lab, nthn, n_labels.
  assert (Hle := fold_max_ge labels (nth i labels 0%nat) (nth_In labels 0%nat H)). lia.
Qed.

Lemma fit_num_spec g labels :
  wf_wgraph g -> length labels = length g ->
  qsum (n_labels labels)
       (fun c => membership_T_dot (length g) labels (fun i => adj_dot_membership g labels i c) c)
  == qsum (length g) (fun i => qsum (length g) (fun j => entry g i j * delta labels i j)).
Proof.
  intros Hwf Hlen. unfold membership_T_dot.
  rewrite (qsum_by_label (n_labels labels) (length g) (lab labels)
             (fun i c => adj_dot_membership g labels i c))
    by (intros i Hi; apply lab_lt_n_labels; lia).
  apply qsum_ext. intros i _. unfold adj_dot_membership.
  rewrite (rsum_row_entries g i _ Hwf). apply qsum_ext. intros j _.
  unfold delta. rewrite (Nat.eqb_sym (lab labels j)). reflexivity.
Qed.

Lemma div_spec n labels (pr pc : nat -> Q) :
  length labels = n ->
  qsum (n_labels labels)
       (fun c => membership_T_dot n labels pc c * membership_T_dot n labels pr c)
  == qsum n (fun i => qsum n (fun j => pr i * pc j * delta labels i j)).
Proof.
  intros Hlen. unfold membership_T_dot.
  transitivity (qsum (n_labels labels) (fun c => qsum n (fun i => ind (Nat.eqb (lab labels i) c) *
                  (pr i * qsum n (fun j => ind (Nat.eqb (lab labels j) c) * pc j))))).
  - apply qsum_ext. intros c _.
    rewrite Qmult_comm. rewrite <- qsum_scal_r. apply qsum_ext. intros i _. ring.
  - rewrite (qsum_by_label (n_labels labels) n (lab labels)
               (fun i c => pr i * qsum n (fun j => ind (Nat.eqb (lab labels j) c) * pc j)))
      by (intros i Hi; apply lab_lt_n_labels; lia).
    apply qsum_ext. intros i _. rewrite <- qsum_scal. apply qsum_ext. intros j _.
    unfold delta. rewrite (Nat.eqb_sym (lab labels j)). ring.
Qed.

Lemma Qle_bool_false x y : Qle_bool x y = false <-> y < x.
Proof.
  split; intros H.
  - destruct (Qlt_le_dec y x) as [Hlt|Hle]; [exact Hlt|]. apply Qle_bool_iff in Hle. congruence.
  - destruct (Qle_bool x y) eqn:E; [|reflexivity]. apply Qle_bool_iff in E. lra.
Qed.

Lemma get_probs_of_ok ws ps :
  get_probs_of ws = MOk ps ->
  (forall x, In x ws -> 0 <= x) /\ 0 < sumq ws /\ ps = map (fun x => Qred (x / sumq ws)) ws.
Proof.
  unfold get_probs_of. intros H.
  destruct (existsb (fun x => negb (Qle_bool 0 x)) ws || Qle_bool (sumq ws) 0) eqn:E; [discriminate|].
  apply orb_false_iff in E. destruct E as [En Es].
  injection H as <-. split; [|split; [|reflexivity]].
  - intros x Hx. apply Qle_bool_iff. destruct (Qle_bool 0 x) eqn:Ex; [reflexivity|].
    rewrite <- En. apply existsb_exists. exists x. rewrite Ex. auto.
  - apply Qle_bool_false. exact Es.
Qed.

Lemma get_probs_length ws ps : get_probs_of ws = MOk ps -> length ps = length ws.
Proof. intros H. apply get_probs_of_ok in H. destruct H as [_ [_ ->]]. apply map_length. Qed.
Lemma get_probs_nonempty ws ps : get_probs_of ws = MOk ps -> (0 < length ws)%nat.
Proof.
  intros H. apply get_probs_of_ok in H. destruct H as [_ [Hpos _]].
  destruct ws; [simpl in Hpos; lra|simpl; lia].
Qed.
Lemma make_weights_out_length wk g : length (make_weights_out wk g) = length g.
Proof. destruct wk; simpl; [rewrite map_length, seq_length|rewrite repeat_length]; reflexivity. Qed.
Lemma make_weights_in_length wk g : length (make_weights_in wk g) = length g.
Proof. destruct wk; simpl; [rewrite map_length, seq_length|rewrite repeat_length]; reflexivity. Qed.

Lemma nthq_map_seq (f : nat -> Q) n i : (i < n)%nat -> nthq (map f (seq 0 n)) i = f i.
Proof.
  intros H. unfold nthq. rewrite (nth_indep _ 0 (f 0%nat)) by (rewrite map_length, seq_length; exact H).
  rewrite map_nth. rewrite seq_nth by exact H. reflexivity.
Qed.

Lemma nthq_map (f : Q -> Q) l i : (i < length l)%nat -> nthq (map f l) i = f (nthq l i).
Proof.
  intros H. unfold nthq. rewrite (nth_indep _ 0 (f 0)) by (rewrite map_length; exact H).
  apply map_nth.
Qed.

Lemma nthq_repeat x n i : (i < n)%nat -> nthq (repeat x n) i = x.
Proof.
  unfold nthq. revert i; induction n as [|n IH]; intros i H; [lia|].
  destruct i; simpl; [reflexivity|]. apply IH. lia.
Qed.

Lemma sumq_repeat_1 n : sumq (repeat 1 n) == inject_Z (Z.of_nat n).
Proof.
  induction n as [|n IH]; [reflexivity|].
  change (repeat 1 (S n)) with (1 :: repeat 1 n). simpl sumq. rewrite IH.
  rewrite Nat2Z.inj_succ. unfold Z.succ. rewrite inject_Z_plus. ring.
Qed.

Definition is_square (m : wmat) : Prop := w_nrow m = w_ncol m.

Lemma MOk_triple_inj (a b c a' b' c' : Q) :
  @MOk (Q * Q * Q) (a, b, c) = MOk (a', b', c') -> a = a' /\ b = b' /\ c = c'.
Proof. intros H. repeat split; congruence. Qed.

Lemma get_modularity_square_inv m labels lc wk gamma md ft dv :
  is_square m ->
  get_modularity m labels lc wk gamma = MOk (md, ft, dv) ->
  let g := w_rows m in
  length labels = length g /\
  exists pr pc, get_probs_of (make_weights_out wk g) = MOk pr /\
                get_probs_of (make_weights_in wk g) = MOk pc /\
                ft == fit_term g labels /\
                dv == div_term (length g) labels pr pc /\
                md == ft - gamma * dv.
Proof.
  intros Hsq H. unfold get_modularity in H.
  destruct (Nat.eqb (nnz (w_rows m)) 0); [discriminate|].
  unfold get_adjacency_default in H. unfold is_square in Hsq.
  rewrite Hsq, Nat.eqb_refl in H.
  destruct (negb (Nat.eqb (length labels) (length (w_rows m)))) eqn:El; [discriminate|].
  apply negb_false_iff, Nat.eqb_eq in El.
  destruct (get_probs_of (make_weights_out wk (w_rows m))) as [pr|e] eqn:Epr;
    [|destruct (get_probs_of (make_weights_in wk (w_rows m))); discriminate].
  destruct (get_probs_of (make_weights_in wk (w_rows m))) as [pc|e] eqn:Epc; [|discriminate].
  apply MOk_triple_inj in H. destruct H as [Hmd [Hft Hdv]]. simpl. split; [exact El|].
  exists pr, pc. split; [exact Epr|]. split; [exact Epc|]. split; [|split].
  - rewrite <- Hft. apply Qred_correct.
  - rewrite <- Hdv. apply Qred_correct.
  - rewrite <- Hmd, <- Hft, <- Hdv. apply Qred_correct.
Qed.

(** returned modularity = fit - resolution * diversity; fit = its definition. *)
Lemma modularity_fit_minus_div_square m labels lc wk gamma md ft dv :
  is_square m -> wf_wgraph (w_rows m) ->
  get_modularity m labels lc wk gamma = MOk (md, ft, dv) ->
  md == ft - gamma * dv /\ ft == spec_fit (w_rows m) labels.
Proof.
  intros Hsq Hwf H.
  destruct (get_modularity_square_inv _ _ _ _ _ _ _ _ Hsq H) as [Hlen [pr [pc [_ [_ [Hft [_ Hmd]]]]]]].
  split; [exact Hmd|].
  rewrite Hft. unfold fit_term, spec_fit.
  rewrite (fit_num_spec _ _ Hwf Hlen). rewrite (data_sum_spec _ Hwf). reflexivity.
Qed.

Lemma degree_probs_out g pr i :
  wf_wgraph g -> get_probs_of (make_weights_out Degree g) = MOk pr -> (i < length g)%nat ->
  0 < total_weight g /\ nthq pr i == spec_out_deg g i / total_weight g.
Proof.
  intros Hwf H Hi. apply get_probs_of_ok in H. destruct H as [_ [Hpos ->]].
  simpl make_weights_out in *. rewrite sumq_map_seq in Hpos. fold (data_sum g) in Hpos.
  rewrite (data_sum_spec g Hwf) in Hpos. split; [exact Hpos|].
  rewrite nthq_map by (rewrite map_length, seq_length; exact Hi).
  rewrite nthq_map_seq by exact Hi. rewrite Qred_correct.
  rewrite sumq_map_seq. fold (data_sum g). rewrite (data_sum_spec g Hwf), (out_deg_spec g i Hwf).
  reflexivity.
Qed.

Lemma degree_probs_in g pc j :
  get_probs_of (make_weights_in Degree g) = MOk pc -> (j < length g)%nat ->
  0 < total_weight g /\ nthq pc j == spec_in_deg g j / total_weight g.
Proof.
  intros H Hj. apply get_probs_of_ok in H. destruct H as [_ [Hpos ->]].
  simpl make_weights_in in *. rewrite sumq_map_seq in Hpos. rewrite in_deg_total in Hpos.
  split; [exact Hpos|].
  rewrite nthq_map by (rewrite map_length, seq_length; exact Hj).
  rewrite nthq_map_seq by exact Hj. rewrite Qred_correct.
  rewrite sumq_map_seq, in_deg_total. reflexivity.
Qed.

Lemma uniform_probs (g : wgraph) ps i :
  get_probs_of (repeat 1 (length g)) = MOk ps -> (i < length g)%nat ->
  nthq ps i == 1 / inject_Z (Z.of_nat (length g)).
Proof.
  intros H Hi. apply get_probs_of_ok in H. destruct H as [_ [Hpos ->]].
  rewrite nthq_map by (rewrite repeat_length; exact Hi).
  rewrite nthq_repeat by exact Hi. rewrite Qred_correct. rewrite sumq_repeat_1. reflexivity.
Qed.

(** fit - gamma * diversity as one double sum, [P i j] being the product of the node probabilities. *)
Lemma fit_minus_div n (e pp P d : nat -> nat -> Q) w gamma :
  (forall i j, (i < n)%nat -> (j < n)%nat -> pp i j == P i j) ->
  qsum2 n n (fun i j => e i j * d i j) / w - gamma * qsum2 n n (fun i j => pp i j * d i j)
  == qsum2 n n (fun i j => (e i j / w - gamma * P i j) * d i j).
Proof.
  intros H. unfold Qdiv. rewrite (Qmult_comm _ (/ w)), <- !qsum2_scal, <- qsum2_minus.
  apply qsum2_ext. intros i j Hi Hj. rewrite (H i j Hi Hj). ring.
Qed.

(** Main theorem for square matrices (directed form; undirected = wsymmetric special case). *)
Lemma modularity_def_square m labels lc wk gamma md ft dv :
  is_square m -> wf_wgraph (w_rows m) ->
  get_modularity m labels lc wk gamma = MOk (md, ft, dv) ->
  md == spec_of wk (w_rows m) labels gamma.
Proof.
  intros Hsq Hwf H.
  destruct (get_modularity_square_inv _ _ _ _ _ _ _ _ Hsq H) as [Hlen [pr [pc [Hpr [Hpc [Hft [Hdv Hmd]]]]]]].
  set (g := w_rows m) in *. set (n := length g) in *.
  assert (Hn : (0 < n)%nat).
  { unfold n. rewrite <- (make_weights_out_length wk g). exact (get_probs_nonempty _ _ Hpr). }
  rewrite Hmd, Hft, Hdv. unfold fit_term, div_term.
  rewrite (fit_num_spec _ _ Hwf Hlen), (div_spec n labels (nthq pr) (nthq pc) Hlen), (data_sum_spec _ Hwf).
  fold n. set (w := total_weight g).
  fold (qsum2 n n (fun i j => entry g i j * delta labels i j)).
  fold (qsum2 n n (fun i j => nthq pr i * nthq pc j * delta labels i j)).
  destruct wk; simpl spec_of.
  - unfold spec_modularity. fold n w.
    assert (Hw0 : ~ w == 0).
    { pose proof (proj1 (degree_probs_out g pr 0%nat Hwf Hpr Hn)) as Hw. fold w in Hw. intros E. rewrite E in Hw. lra. }
    rewrite (fit_minus_div n _ _ (fun i j => spec_out_deg g i * spec_in_deg g j / (w * w))).
    2:{ intros i j Hi Hj.
        rewrite (proj2 (degree_probs_out g pr i Hwf Hpr Hi)), (proj2 (degree_probs_in g pc j Hpc Hj)).
        fold w. field. exact Hw0. }
    etransitivity; [|apply qsum2_scal]. apply qsum2_ext. intros i j _ _. field. exact Hw0.
  - unfold spec_modularity_uniform. fold n w. set (nq := inject_Z (Z.of_nat n)).
    assert (Hnq : ~ nq == 0) by (unfold nq, Qeq; simpl; lia).
    rewrite (fit_minus_div n _ _ (fun _ _ => 1 / (nq * nq))).
    2:{ intros i j Hi Hj. simpl make_weights_out in Hpr. simpl make_weights_in in Hpc.
        rewrite (uniform_probs g pr i Hpr Hi), (uniform_probs g pc j Hpc Hj). fold n nq. field. exact Hnq. }
    apply qsum2_ext. intros i j _ _. unfold Qdiv. ring.
Qed.

Lemma modularity_def_square_match m labels lc wk gamma md ft dv :
  w_nrow m = w_ncol m -> wf_wgraph (w_rows m) ->
  get_modularity m labels lc wk gamma = MOk (md, ft, dv) ->
  md == match wk with
        | Degree => spec_modularity (w_rows m) labels gamma
        | Uniform => spec_modularity_uniform (w_rows m) labels gamma
        end.
Proof. destruct wk; exact (modularity_def_square m labels lc _ gamma md ft dv). Qed.

(** Undirected reading: for a wsymmetric matrix the in- and out-degrees coincide, so the formula is
    1/w sum (A_ij - gamma d_i d_j / w) delta. *)
Definition wsymmetric (g : wgraph) : Prop :=
  forall i j, (i < length g)%nat -> (j < length g)%nat -> entry g i j == entry g j i.

Definition spec_modularity_undirected (g : wgraph) (labels : list nat) (gamma : Q) : Q :=
  let n := length g in
  let w := total_weight g in
  1 / w * qsum n (fun i => qsum n (fun j =>
     (entry g i j - gamma * spec_out_deg g i * spec_out_deg g j / w) * delta labels i j)).

Definition wsymmetricb (g : wgraph) : bool :=
  forallb (fun i => forallb (fun j => Qeq_bool (entry g i j) (entry g j i)) (seq 0 (length g)))
          (seq 0 (length g)).
Lemma wsymmetricb_ok g : wsymmetricb g = true -> wsymmetric g.
Proof.
  unfold wsymmetricb. rewrite forallb_forall. intros H i j Hi Hj.
  specialize (H i). rewrite in_seq in H. specialize (H (conj (Nat.le_0_l i) Hi)).
  rewrite forallb_forall in H. specialize (H j). rewrite in_seq in H.
  apply Qeq_bool_iff. apply H. lia.
Qed.

(** * Bipartite form: get_modularity on a non-square matrix = the square case on the block matrix *)

Lemma rsum_map_fst r (f : nat -> nat) h :
  rsum (map (fun p : nat * Q => (f (fst p), snd p)) r) h == rsum r (fun j => h (f j)).
Proof. induction r as [|[j w] t IH]; simpl; [reflexivity|]. rewrite IH. reflexivity. Qed.

(** The entries of column [j] found in a row [r], listed under the index [i]. *)
Lemma rsum_col_part r (i j : nat) h :
  rsum (map (fun p : nat * Q => (i, snd p)) (filter (fun p => Nat.eqb (fst p) j) r)) h
  == h i * rsum r (fun j' => ind (Nat.eqb j' j)).
Proof.
  induction r as [|[j' w] t IH]; simpl; [ring|].
  destruct (Nat.eqb j' j); simpl; rewrite IH; ring.
Qed.

Lemma rsum_concat_seq (F : nat -> wrow) n h :
  rsum (concat (map F (seq 0 n))) h == qsum n (fun i => rsum (F i) h).
Proof.
  induction n as [|n IH]; [reflexivity|].
  rewrite seq_S, map_app, concat_app, rsum_app, IH. simpl. rewrite app_nil_r. reflexivity.
Qed.

Lemma block_length m : length (block_undirected m) = (w_nrow m + w_ncol m)%nat.
Proof. unfold block_undirected. rewrite app_length, !map_length, seq_length. reflexivity. Qed.

Lemma wrow_block_top m a :
  (a < w_nrow m)%nat ->
  wrow_of (block_undirected m) a = map (fun p => ((w_nrow m + fst p)%nat, snd p)) (wrow_of (w_rows m) a).
Proof.
  intros H. unfold wrow_of, block_undirected. rewrite app_nth1 by (rewrite map_length; exact H).
  exact (map_nth (fun r => map (fun p : nat * Q => ((w_nrow m + fst p)%nat, snd p)) r) (w_rows m) [] a).
Qed.

Lemma wrow_block_bottom m a :
  (w_nrow m <= a)%nat -> (a < w_nrow m + w_ncol m)%nat ->
  wrow_of (block_undirected m) a = col_of m (a - w_nrow m).
Proof.
  intros H1 H2. unfold wrow_of, block_undirected. unfold w_nrow in *.
  rewrite app_nth2 by (rewrite map_length; exact H1). rewrite map_length.
  assert (Hlt : (a - length (w_rows m) < w_ncol m)%nat) by lia.
  rewrite (nth_indep _ [] (col_of m 0)) by (rewrite map_length, seq_length; exact Hlt).
  rewrite map_nth. rewrite seq_nth by exact Hlt. reflexivity.
Qed.

Lemma entry_block m a b :
  (a < w_nrow m + w_ncol m)%nat -> (b < w_nrow m + w_ncol m)%nat ->
  entry (block_undirected m) a b == block_entry m a b.
Proof.
  intros Ha Hb. unfold entry, block_entry.
  destruct (Nat.ltb a (w_nrow m)) eqn:Ea.
  - apply Nat.ltb_lt in Ea. rewrite (wrow_block_top m a Ea). rewrite rsum_map_fst.
    destruct (Nat.ltb b (w_nrow m)) eqn:Eb.
    + apply Nat.ltb_lt in Eb. apply rsum_zero. intros j w _.
      rewrite ind_false by (apply Nat.eqb_neq; lia). reflexivity.
    + apply Nat.ltb_ge in Eb. unfold bentry. apply rsum_ext. intros j w _.
      destruct (Nat.eqb_spec (w_nrow m + j) b) as [E|E]; destruct (Nat.eqb_spec j (b - w_nrow m)) as [E'|E'];
        try reflexivity; exfalso; lia.
  - apply Nat.ltb_ge in Ea. rewrite (wrow_block_bottom m a Ea Ha). unfold col_of.
    rewrite rsum_concat_seq.
    transitivity (qsum (w_nrow m) (fun i => ind (Nat.eqb i b) * bentry m i (a - w_nrow m))).
    + apply qsum_ext. intros i _. apply rsum_col_part.
    + destruct (Nat.ltb b (w_nrow m)) eqn:Eb.
      * apply Nat.ltb_lt in Eb. exact (qsum_ind (w_nrow m) b (fun i => bentry m i (a - w_nrow m)) Eb).
      * apply Nat.ltb_ge in Eb. exact (qsum_ind_ge (w_nrow m) b (fun i => bentry m i (a - w_nrow m)) Eb).
Qed.

Lemma wf_block m : wf_wmat m -> wf_wgraph (block_undirected m).
Proof.
  intros Hwf i j w Hin. rewrite block_length.
  destruct (Nat.lt_ge_cases i (w_nrow m)) as [Hi|Hi].
  - rewrite (wrow_block_top m i Hi) in Hin. apply in_map_iff in Hin.
    destruct Hin as [[j' w'] [E Hin]]. simpl in E. injection E as <- <-.
    specialize (Hwf i j' w' Hin). lia.
  - destruct (Nat.lt_ge_cases i (w_nrow m + w_ncol m)) as [Hi2|Hi2].
    + rewrite (wrow_block_bottom m i Hi Hi2) in Hin. unfold col_of in Hin.
      apply in_concat in Hin. destruct Hin as [r [Hr Hin]].
      apply in_map_iff in Hr. destruct Hr as [i' [<- Hi']]. apply in_seq in Hi'.
      apply in_map_iff in Hin. destruct Hin as [[j' w'] [E _]]. simpl in E. injection E as <- <-. lia.
    + unfold wrow_of in Hin. rewrite nth_overflow in Hin by (rewrite block_length; exact Hi2). destruct Hin.
Qed.

Lemma sumn_app l1 l2 : sumn (l1 ++ l2) = (sumn l1 + sumn l2)%nat.
Proof. induction l1 as [|a t IH]; simpl; [reflexivity|]. rewrite IH. lia. Qed.

Lemma nnz_block m :
  nnz (block_undirected m) = (nnz (w_rows m) + nnz (map (col_of m) (seq 0 (w_ncol m))))%nat.
Proof.
  unfold nnz, block_undirected. rewrite map_app, sumn_app. f_equal.
  rewrite map_map. f_equal. apply map_ext. intros r. apply map_length.
Qed.

Definition block_wmat (m : wmat) : wmat :=
  {| w_ncol := w_nrow m + w_ncol m; w_rows := block_undirected m |}.

Lemma get_modularity_bipartite_block m lr lc wk gamma x :
  w_nrow m <> w_ncol m ->
  get_modularity m lr (Some lc) wk gamma = MOk x ->
  get_modularity (block_wmat m) (lr ++ lc) None wk gamma = MOk x.
Proof.
  intros Hns. unfold get_modularity.
  destruct (Nat.eqb (nnz (w_rows m)) 0) eqn:E0; [discriminate|].
  apply Nat.eqb_neq in E0. simpl w_rows.
  assert (E1 : Nat.eqb (nnz (block_undirected m)) 0 = false) by (apply Nat.eqb_neq; rewrite nnz_block; lia).
  rewrite E1.
  unfold get_adjacency_default. apply Nat.eqb_neq in Hns. rewrite Hns.
  assert (Esq : Nat.eqb (w_nrow (block_wmat m)) (w_ncol (block_wmat m)) = true).
  { unfold w_nrow, block_wmat. simpl. rewrite block_length. apply Nat.eqb_refl. }
  rewrite Esq. exact (fun H => H).
Qed.

Lemma block_entry_sym m a b : block_entry m a b = block_entry m b a.
Proof.
  unfold block_entry. destruct (Nat.ltb a (w_nrow m)), (Nat.ltb b (w_nrow m)); reflexivity.
Qed.

Lemma spec_block_eq m lr lc gamma :
  spec_modularity (block_undirected m) (lr ++ lc) gamma == spec_modularity_bipartite m lr lc gamma.
Proof.
  unfold spec_modularity, spec_modularity_bipartite, total_weight, spec_out_deg, spec_in_deg.
  rewrite block_length. set (n := (w_nrow m + w_ncol m)%nat).
  assert (Hrow : forall a, (a < n)%nat ->
            qsum n (fun j => entry (block_undirected m) a j) == qsum n (fun b => block_entry m a b)).
  { intros a Ha. apply qsum_ext. intros j Hj. apply entry_block; assumption. }
  assert (Hcol : forall b, (b < n)%nat ->
            qsum n (fun i => entry (block_undirected m) i b) == qsum n (fun b0 => block_entry m b b0)).
  { intros b Hb. apply qsum_ext. intros i Hi. rewrite (entry_block m i b Hi Hb), block_entry_sym. reflexivity. }
  pose proof (qsum_ext n _ _ Hrow) as Ew. cbv beta in Ew.
  rewrite Ew. apply Qmult_comp; [reflexivity|].
  apply qsum_ext. intros a Ha. apply qsum_ext. intros b Hb.
  rewrite (entry_block m a b Ha Hb), (Hrow a Ha), (Hcol b Hb), Ew. reflexivity.
Qed.

Lemma modularity_def_bipartite_block m lr lc wk gamma md ft dv :
  w_nrow m <> w_ncol m -> wf_wmat m ->
  get_modularity m lr (Some lc) wk gamma = MOk (md, ft, dv) ->
  md == spec_of wk (block_undirected m) (lr ++ lc) gamma /\ md == ft - gamma * dv.
Proof.
  intros Hns Hwf H. apply (get_modularity_bipartite_block m lr lc wk gamma _ Hns) in H.
  assert (Hsq : is_square (block_wmat m)).
  { unfold is_square, w_nrow. simpl. apply block_length. }
  assert (Hwfb : wf_wgraph (w_rows (block_wmat m))) by (simpl; apply wf_block; exact Hwf).
  split.
  - exact (modularity_def_square _ _ _ _ _ _ _ _ Hsq Hwfb H).
  - exact (proj1 (modularity_fit_minus_div_square _ _ _ _ _ _ _ _ Hsq Hwfb H)).
Qed.

(** Uniform weights on a biadjacency matrix: Potts form on the block matrix. *)
Lemma modularity_def_bipartite_uniform m lr lc gamma md ft dv :
  w_nrow m <> w_ncol m -> wf_wmat m ->
  get_modularity m lr (Some lc) Uniform gamma = MOk (md, ft, dv) ->
  md == spec_modularity_uniform (block_undirected m) (lr ++ lc) gamma /\ md == ft - gamma * dv.
Proof. exact (modularity_def_bipartite_block m lr lc Uniform gamma md ft dv). Qed.
