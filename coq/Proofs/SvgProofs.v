(** Proofs/SvgProofs.v — the sanitiser yields character data for every input; every templater of
    Model/Svg.v yields a well-formed element for all names and all safe fields; the assembled
    documents are well-formed with root svg; element counts; a necessary condition of well-formedness
    ([wf_document_lt_ok]) and the definition of a dendrogram document ([refuting_dendrogram], label site whose
    replacement list lacks the less-than sign) that Props/C20.v shows to fail it. *)
From SKN Require Import Model.Xml Proofs.XmlProofs Model.Svg.
From Coq Require Import String Ascii List Bool Arith Lia.
Import ListNotations.
Open Scope string_scope.

(** Break a conjunction of booleans in hypothesis [H] into its atoms. *)
Ltac brk H :=
  repeat match type of H with
         | (_ && _) = true => let H' := fresh "S" in apply andb_true_iff in H as [H H']
         end.

Lemma replace_char_app c r a b :
  replace_char c r (a ++ b) = replace_char c r a ++ replace_char c r b.
Proof.
  induction a as [|x a IH]; simpl; [reflexivity|].
  destruct (Ascii.eqb x c); rewrite IH; [now rewrite sapp_assoc | reflexivity].
Qed.

Lemma replace_char_id c r e : no_char c e = true -> replace_char c r e = e.
Proof.
  induction e as [|x e IH]; simpl; [reflexivity|]. intros H.
  apply andb_true_iff in H as [H1 H2]. apply negb_true_iff in H1. now rewrite H1, (IH H2).
Qed.

Lemma no_char_replace d c r s :
  no_char d r = true -> Ascii.eqb c d = true \/ no_char d s = true -> no_char d (replace_char c r s) = true.
Proof.
  intros Hr. induction s as [|x s IH]; simpl; [reflexivity|]. intros H.
  assert (H' : Ascii.eqb c d = true \/ no_char d s = true).
  { destruct H as [H|H]; [now left | right]. now apply andb_true_iff in H as [_ H]. }
  destruct (Ascii.eqb x c) eqn:E; [now rewrite no_char_app, Hr, IH|].
  unfold no_char in *. simpl. rewrite (IH H'), andb_true_r.
  destruct H as [H|H]; [|now apply andb_true_iff in H as [H _]].
  apply Ascii.eqb_eq in H. subst d. now rewrite E.
Qed.

Lemma amp_ok_replace_amp r s : amp_ok r = true -> amp_ok (replace_char "&" r s) = true.
Proof.
  intros Hr. induction s as [|x s IH]; simpl; [reflexivity|].
  destruct (Ascii.eqb x "&") eqn:E.
  - now apply amp_ok_app.
  - simpl. now rewrite E, IH.
Qed.

Lemma entity_prefix_replace c r t :
  is_entity_char c = false -> entity_prefix t = true -> entity_prefix (replace_char c r t) = true.
Proof.
  unfold is_entity_char, entity_prefix. intros Hc H.
  apply negb_false_iff in Hc. rewrite forallb_forall in Hc.
  apply existsb_exists in H as [e [He Hs]]. apply starts_spec in Hs as [t' ->].
  apply existsb_exists. exists e. split; [exact He|].
  rewrite replace_char_app, (replace_char_id _ _ _ (Hc _ He)). apply starts_refl_app.
Qed.

Lemma amp_ok_replace_other c r s :
  Ascii.eqb c "&" = false -> is_entity_char c = false -> amp_ok r = true -> amp_ok s = true ->
  amp_ok (replace_char c r s) = true.
Proof.
  intros Hc He Hr. induction s as [|x s IH]; simpl; [reflexivity|]. intros H.
  apply andb_true_iff in H as [H1 H2]. specialize (IH H2).
  destruct (Ascii.eqb x c) eqn:E.
  - now apply amp_ok_app.
  - simpl. rewrite IH, andb_true_r.
    destruct (Ascii.eqb x "&"); [now apply entity_prefix_replace | reflexivity].
Qed.

Definition san_inv (amp lt gt : bool) (s : string) : Prop :=
  (amp = true -> amp_ok s = true) /\ (lt = true -> no_char "<" s = true) /\ (gt = true -> no_char ">" s = true).

(** One step of the condition: the replacement string is harmless, a character of an entity name is not
    rewritten once the ampersand has been handled, and the rest is accepted from the updated state. *)
Lemma sanitiser_ok_step amp lt gt c r tl :
  sanitiser_ok_from amp lt gt ((c, r) :: tl) = true ->
  (no_char "<" r = true /\ no_char ">" r = true /\ amp_ok r = true) /\
  (Ascii.eqb c "&" = false -> amp = true -> is_entity_char c = false) /\
  sanitiser_ok_from (amp || Ascii.eqb c "&") (lt || Ascii.eqb c "<") (gt || Ascii.eqb c ">") tl = true.
Proof.
  cbn [sanitiser_ok_from]. intros H. apply andb_true_iff in H as [H Hrest]. brk H.
  split; [auto|]. destruct (Ascii.eqb c "&") eqn:Ec.
  - split; [discriminate|]. apply Ascii.eqb_eq in Ec. subst c.
    cbn [Ascii.eqb Bool.eqb]. now rewrite !orb_false_r, orb_true_r.
  - apply andb_true_iff in Hrest as [Hent Hrest]. split; [|now rewrite orb_false_r].
    intros _ ->. now apply negb_true_iff in Hent.
Qed.

Lemma sanitise_from_ok l : forall amp lt gt s,
  sanitiser_ok_from amp lt gt l = true -> san_inv amp lt gt s -> text_ok (sanitise l s) = true.
Proof.
  induction l as [|[c r] l IH]; intros amp lt gt s H (Ia & Il & Ig).
  - simpl in H. apply andb_true_iff in H as [H Hg]. apply andb_true_iff in H as [Ha Hl].
    simpl. unfold text_ok. now rewrite (Il Hl), (Ia Ha), (no_gt_no_cdata_end _ (Ig Hg)).
  - apply sanitiser_ok_step in H as ((Hrl & Hrg & Hra) & Hent & Hrest).
    unfold sanitise. cbn [fold_left fst snd]. fold (sanitise l (replace_char c r s)).
    apply (IH _ _ _ _ Hrest). repeat split; intros E.
    + destruct (Ascii.eqb c "&") eqn:Ec.
      * apply Ascii.eqb_eq in Ec. subst c. now apply amp_ok_replace_amp.
      * rewrite orb_false_r in E. apply amp_ok_replace_other; auto.
    + apply no_char_replace; [exact Hrl|]. apply orb_true_iff in E as [E|E]; auto.
    + apply no_char_replace; [exact Hrg|]. apply orb_true_iff in E as [E|E]; auto.
Qed.

(** For EVERY string [s]: the sanitised text is character data. *)
Theorem sanitised_text_ok l s : sanitiser_ok l = true -> text_ok (sanitise l s) = true.
Proof.
  intros H. apply (sanitise_from_ok l false false false); [exact H|].
  repeat split; discriminate.
Qed.

Theorem sanitised_text_safe l s :
  sanitiser_ok l = true ->
  no_char "<" (sanitise l s) = true /\ amp_ok (sanitise l s) = true /\ no_cdata_end (sanitise l s) = true.
Proof.
  intros H. pose proof (sanitised_text_ok l s H) as T. unfold text_ok in T.
  apply andb_true_iff in T as [T T3]. apply andb_true_iff in T as [T1 T2]. now repeat split.
Qed.

(** The condition implies what the obligation asks for: the three characters are replaced. *)
Lemma sanitiser_ok_from_replaces l : forall amp lt gt,
  sanitiser_ok_from amp lt gt l = true ->
  (amp || replaces "&" l) && (lt || replaces "<" l) && (gt || replaces ">" l) = true.
Proof.
  induction l as [|[c r] l IH]; intros amp lt gt H.
  - simpl in *. now rewrite !orb_false_r.
  - apply sanitiser_ok_step in H as (_ & _ & H). apply IH in H.
    unfold replaces in *. cbn [existsb fst]. now rewrite !orb_assoc.
Qed.

Lemma safe_attr v : safe_field v = true -> attr_value_ok v = true.
Proof.
  intros H. unfold attr_value_ok.
  now rewrite (all_chars_no_char _ "<" _ eq_refl H), (all_chars_no_char _ """" _ eq_refl H),
    (no_amp_amp_ok _ (all_chars_no_char _ "&" _ eq_refl H)).
Qed.

Lemma safe_values l : Forall (fun p => safe_field p = true) (flat_map pieces l) -> values_ok l.
Proof. apply Forall_impl, safe_attr. Qed.

Lemma text_anchor_safe p : safe_field (text_anchor p) = true.
Proof.
  unfold text_anchor.
  destruct (String.eqb p "left"); [reflexivity|].
  destruct (String.eqb p "above"); [reflexivity|].
  destruct (String.eqb p "below"); reflexivity.
Qed.

(** [elem_nl tag s]: [s] is one element with tag [tag] followed by a newline. *)
Definition elem_nl (tag s : string) : Prop := exists e, s = e ++ nl /\ wf_elem tag e.

(** [pre_content s]: [s] may be put in front of any content. *)
Definition pre_content (s : string) : Prop := forall c, wf_content c -> wf_content (s ++ c).

Lemma pre_content_nil : pre_content "".
Proof. intros c Hc. exact Hc. Qed.

Lemma pre_content_app a b : pre_content a -> pre_content b -> pre_content (a ++ b).
Proof. intros Ha Hb c Hc. rewrite sapp_assoc. apply Ha, Hb, Hc. Qed.

Lemma pre_content_elem n e : wf_elem n e -> pre_content e.
Proof. intros He c Hc. now apply wf_content_elem with (n := n). Qed.

Lemma pre_content_ws w : ws_ok w = true -> pre_content w.
Proof. intros Hw c Hc. now apply wf_content_ws. Qed.

Lemma pre_content_elem_nl tag s : elem_nl tag s -> pre_content s.
Proof.
  intros (e & -> & He). apply pre_content_app; [now apply pre_content_elem with (n := tag)|].
  now apply pre_content_ws.
Qed.

Lemma pre_content_wf s : pre_content s -> wf_content s.
Proof. intros H. rewrite <- (sapp_nil_r s). apply H, wf_content_nil. Qed.

Definition vec4 : Type := (nat * nat * nat * nat)%type.

Definition cv (s : string) : vec4 :=
  (count_starts P_text s, count_starts P_circle s, count_starts P_edge s, count_starts P_wedge s).

Definition vadd (a b : vec4) : vec4 :=
  let '(a1, a2, a3, a4) := a in let '(b1, b2, b3, b4) := b in (a1 + b1, a2 + b2, a3 + b3, a4 + b4).

Definition vzero : vec4 := (0, 0, 0, 0).

Lemma vec4_eq (a b c d a' b' c' d' : nat) :
  a = a' -> b = b' -> c = c' -> d = d' -> (a, b, c, d) = (a', b', c', d').
Proof. now intros -> -> -> ->. Qed.

(** [pc s v]: whatever follows [s], the four counts of the whole are [v] plus those of what follows: no
    pattern starts in [s] and ends beyond it. *)
Definition pc (s : string) (v : vec4) : Prop := forall r, cv (s ++ r) = vadd v (cv r).

Lemma pc_app a b va vb : pc a va -> pc b vb -> pc (a ++ b) (vadd va vb).
Proof.
  intros Ha Hb r. rewrite sapp_assoc, Ha, Hb.
  destruct va as [[[a1 a2] a3] a4], vb as [[[b1 b2] b3] b4], (cv r) as [[[r1 r2] r3] r4].
  apply vec4_eq; apply Nat.add_assoc.
Qed.

Lemma pc_nil : pc "" vzero.
Proof. intros r. reflexivity. Qed.

(** For a literal [l] the hypothesis holds by computation as soon as no pattern can start in [l] and end
    beyond it. *)
Lemma pc_lit l : (forall r, cv (l ++ r) = vadd (cv l) (cv r)) -> pc l (cv l).
Proof. exact (fun H => H). Qed.

Lemma no_lt_count q v r :
  no_char "<" v = true -> count_starts (String "<" q) (v ++ r) = count_starts (String "<" q) r.
Proof.
  induction v as [|c v IH]; [reflexivity|]. intros H.
  unfold no_char in H. cbn [all_chars] in H. apply andb_true_iff in H as [H1 H2].
  apply negb_true_iff in H1. rewrite Ascii.eqb_sym in H1.
  cbn [append count_starts starts]. now rewrite H1, (IH H2).
Qed.

Lemma pc_nolt v : no_char "<" v = true -> pc v vzero.
Proof.
  intros H r. unfold cv, P_text, P_circle, P_edge, P_wedge. now rewrite !(no_lt_count _ v r H).
Qed.

Lemma pc_safe v : safe_field v = true -> pc v vzero.
Proof. intros H. exact (pc_nolt v (all_chars_no_char safe_char "<" v eq_refl H)). Qed.

Lemma ws_no_lt w : ws_ok w = true -> no_char "<" w = true.
Proof. exact (all_chars_no_char is_ws "<" w eq_refl). Qed.

Lemma pc_eq s v v' : pc s v -> v = v' -> pc s v'.
Proof. now intros H <-. Qed.

Lemma pc_counts s a b c d :
  pc s (a, b, c, d) ->
  count_starts P_text s = a /\ count_starts P_circle s = b /\ count_starts P_edge s = c /\ count_starts P_wedge s = d.
Proof. intros H. specialize (H ""). rewrite sapp_nil_r in H. injection H. lia. Qed.

(** A template is a chain of appends in which literals and fields alternate: [pc_tpl] splits it with [pc_app];
    a field counts nothing (it has no less-than sign), a literal counts what it computes to. *)
Ltac pc_leaf :=
  first [ apply pc_safe; first [assumption | apply text_anchor_safe]
        | apply pc_nolt; assumption
        | apply pc_lit; intros r; reflexivity ].
Ltac pc_tpl :=
  eapply pc_eq;
  [ repeat lazymatch goal with |- pc (_ ++ _) _ => eapply pc_app; [pc_leaf|] end; pc_leaf | reflexivity ].

(** [piece s v]: [s] may be put in front of any content, and its counts are [v] whatever follows it. *)
Definition piece (s : string) (v : vec4) : Prop := pre_content s /\ pc s v.

Lemma piece_nil : piece "" vzero.
Proof. split; [apply pre_content_nil | apply pc_nil]. Qed.

Lemma piece_app a b va vb : piece a va -> piece b vb -> piece (a ++ b) (vadd va vb).
Proof. intros [Pa Ca] [Pb Cb]. split; [now apply pre_content_app | now apply pc_app]. Qed.

Lemma piece_eq s v v' : piece s v -> v = v' -> piece s v'.
Proof. now intros H <-. Qed.

(** [counted P v s]: [s] is a [P] whose counts are [v]. *)
Definition counted (P : string -> Prop) (v : vec4) (s : string) : Prop := P s /\ pc s v.

Lemma counted_shape P v l : Forall (counted P v) l -> Forall P l.
Proof. apply Forall_impl. now intros s [H _]. Qed.

(** Elements of one kind [P], each with the same counts: as many copies of the vector as the list is long. *)
Lemma pieces_const (P : string -> Prop) a b c d l :
  (forall s, P s -> pre_content s) -> Forall (counted P (a, b, c, d)) l ->
  piece (sconcat l) (length l * a, length l * b, length l * c, length l * d).
Proof.
  intros HP. induction 1 as [|s l [Hs Hc] _ IH]; [apply piece_nil|].
  exact (piece_app s (sconcat l) (a, b, c, d) _ (conj (HP s Hs) Hc) IH).
Qed.

Lemma Forall_map_if {A} (ok : A -> bool) (P : string -> Prop) (f : A -> string) l :
  (forall x, ok x = true -> P (f x)) -> forallb ok l = true -> Forall P (map f l).
Proof.
  intros H Hl. rewrite forallb_forall in Hl. apply Forall_forall. intros s Hs.
  apply in_map_iff in Hs as [x [<- Hx]]. auto.
Qed.

(** An edge path: starts with the edge template, one path element, newline. *)
Definition edge_path (s : string) : Prop := starts "<path stroke-width=" s = true /\ elem_nl "path" s.
(** A pie-chart wedge. *)
Definition wedge_path (s : string) : Prop := starts "<path d=" s = true /\ elem_nl "path" s.
(** A node shape: one circle, or a non-empty group of wedges. *)
Definition node_shape (s : string) : Prop :=
  elem_nl "circle" s \/ exists ws, ws <> [] /\ s = sconcat ws /\ Forall wedge_path ws.
(** A line of a dendrogram (no trailing newline). *)
Definition line_path (s : string) : Prop := starts "<path stroke-width=" s = true /\ wf_elem "path" s.

(** In each well-formedness proof below the template is convertible with the element written out by
    [empty_then] or [open_then]; the pieces of the attribute values are literals and safe fields. *)
Ltac safe_pieces := apply safe_values; repeat constructor; assumption.

Section Node.
  Context (x y size color sw sc : string)
          (Hx : safe_field x = true) (Hy : safe_field y = true) (Hs : safe_field size = true)
          (Hc : safe_field color = true) (Hw : safe_field sw = true) (Hk : safe_field sc = true).

  Lemma svg_node_wf : elem_nl "circle" (svg_node x y size color sw sc).
  Proof.
    apply (empty_then_wf "circle" [(" ", "cx", [x]); (" ", "cy", [y]); (" ", "r", [size]);
                                   (" ", "style", ["fill:"; color; ";stroke:"; sc; ";stroke-width:"; sw])] "" nl);
      [reflexivity | safe_pieces].
  Qed.

  Lemma svg_node_pc : pc (svg_node x y size color sw sc) (0, 1, 0, 0).
  Proof. unfold svg_node. pc_tpl. Qed.
End Node.

Section Wedge.
  Context (x y size sw sc : string) (w : wedge)
          (Hx : safe_field x = true) (Hy : safe_field y = true) (Hs : safe_field size = true)
          (Hw : safe_field sw = true) (Hk : safe_field sc = true) (Hwd : wedge_safe w = true).

  Lemma svg_wedge_wf :
    elem_nl "path" (svg_wedge x y size sw sc w) /\ starts "<path d=" (svg_wedge x y size sw sc w) = true.
  Proof.
    unfold wedge_safe in Hwd. brk Hwd. split; [|reflexivity].
    apply (empty_then_wf "path"
             [(" ", "d", ["M "; w_x0 w; " "; w_y0 w; " A "; size; " "; size; " 0 "; w_large w;
                          " 1 "; w_x1 w; " "; w_y1 w; " L "; x; " "; y]);
              (" ", "style", ["fill:"; w_color w; ";stroke:"; sc; ";stroke-width:"; sw])] " " nl);
      [reflexivity | safe_pieces].
  Qed.

  Lemma svg_wedge_pc : pc (svg_wedge x y size sw sc w) (0, 0, 0, 1).
  Proof. unfold wedge_safe in Hwd. brk Hwd. unfold svg_wedge. pc_tpl. Qed.
End Wedge.

Section Edge.
  Context (x1 y1 x2 y2 ew ec : string)
          (H1 : safe_field x1 = true) (H2 : safe_field y1 = true) (H3 : safe_field x2 = true)
          (H4 : safe_field y2 = true) (H5 : safe_field ew = true) (H6 : safe_field ec = true).

  Lemma svg_edge_wf :
    elem_nl "path" (svg_edge x1 y1 x2 y2 ew ec) /\ starts "<path stroke-width=" (svg_edge x1 y1 x2 y2 ew ec) = true.
  Proof.
    split; [|reflexivity].
    apply (empty_then_wf "path" [(" ", "stroke-width", [ew]); (" ", "stroke", [ec]);
                                 (" ", "d", ["M "; x1; " "; y1; " "; x2; " "; y2])] "" nl);
      [reflexivity | safe_pieces].
  Qed.

  Lemma svg_edge_directed_wf :
    elem_nl "path" (svg_edge_directed true x1 y1 x2 y2 ew ec) /\
    starts "<path stroke-width=" (svg_edge_directed true x1 y1 x2 y2 ew ec) = true /\
    svg_edge_directed false x1 y1 x2 y2 ew ec = "".
  Proof.
    split; [|split; reflexivity].
    apply (empty_then_wf "path" [(" ", "stroke-width", [ew]); (" ", "stroke", [ec]);
                                 (" ", "d", ["M "; x1; " "; y1; " "; x2; " "; y2]);
                                 (" ", "marker-end", ["url(#arrow-"; ec; ")"])] "" nl);
      [reflexivity | safe_pieces].
  Qed.

  Lemma svg_edge_pc : pc (svg_edge x1 y1 x2 y2 ew ec) (0, 0, 1, 0).
  Proof. unfold svg_edge. pc_tpl. Qed.

  Lemma svg_edge_directed_pc : pc (svg_edge_directed true x1 y1 x2 y2 ew ec) (0, 0, 1, 0).
  Proof. unfold svg_edge_directed. pc_tpl. Qed.
End Edge.

(** svg_text: for ALL names, all positions, all safe fields. *)
Section Text.
  Context (repl : list (ascii * string)) (x y text fs pos : string)
          (Hr : sanitiser_ok repl = true) (Hx : safe_field x = true) (Hy : safe_field y = true)
          (Hf : safe_field fs = true).

  Lemma svg_text_wf : wf_elem "text" (svg_text_with repl x y text fs pos).
  Proof.
    pose proof (text_anchor_safe pos) as Ha. apply followed_by_nil.
    apply (open_then_wf "text" [(" ", "text-anchor", [text_anchor pos]); (" ", "x", [x]); (" ", "y", [y]);
                                (" ", "font-size", [fs])] "" (sanitise repl text) "" "");
      [reflexivity | safe_pieces | apply wc_last; now apply sanitised_text_ok | reflexivity].
  Qed.

  Lemma svg_text_pc : pc (svg_text_with repl x y text fs pos) (1, 0, 0, 0).
  Proof.
    destruct (sanitised_text_safe repl text Hr) as [Hs _]. unfold svg_text_with. pc_tpl.
  Qed.
End Text.

Section Marker.
  Context (color : string) (Hc : safe_field color = true).

  (** The path, inside the marker, inside defs. *)
  Lemma svg_marker_wf : elem_nl "defs" (svg_marker color).
  Proof.
    apply (open_then_child_wf "defs" [] "" "" "marker" _ "" nl); [reflexivity | constructor | reflexivity | reflexivity |].
    apply (open_then_child_wf "marker"
             [(" ", "id", ["arrow-"; color]); (" ", "markerWidth", ["10"]); (" ", "markerHeight", ["10"]);
              (" ", "refX", ["9"]); (" ", "refY", ["3"]); (nl ++ "                ", "orient", ["auto"])]
             " " nl "path" _ "" ("</defs>" ++ nl));
      [reflexivity | safe_pieces | reflexivity | reflexivity |].
    apply (empty_then_wf "path" [(" ", "d", ["M0,0 L0,6 L9,3 z"]); (" ", "fill", [color])] "");
      [reflexivity | safe_pieces].
  Qed.

  Lemma svg_marker_pc : pc (svg_marker color) vzero.
  Proof. unfold svg_marker. pc_tpl. Qed.
End Marker.

Section Line.
  Context (lw color x1 y1 x2 y2 : string)
          (H1 : safe_field lw = true) (H2 : safe_field color = true) (H3 : safe_field x1 = true)
          (H4 : safe_field y1 = true) (H5 : safe_field x2 = true) (H6 : safe_field y2 = true).

  Lemma svg_line_ok : counted line_path (0, 0, 1, 0) (svg_line lw color x1 y1 x2 y2).
  Proof.
    split; [split; [reflexivity|] | unfold svg_line; pc_tpl]. apply followed_by_nil.
    apply (empty_then_wf "path" [(" ", "stroke-width", [lw]); (" ", "stroke", [color]);
                                 (" ", "d", ["M "; x1; " "; y1; " "; x2; " "; y2])] " " "");
      [reflexivity | safe_pieces].
  Qed.
End Line.

Section DendrogramText.
  Context (repl : list (ascii * string)) (fs : string) (t : label)
          (Hr : sanitiser_ok repl = true) (Hf : safe_field fs = true) (Ht : label_safe t = true).

  Lemma dendrogram_text_top_ok rn : counted (wf_elem "text") (1, 0, 0, 0) (dendrogram_text_top repl rn fs t).
  Proof.
    unfold label_safe in Ht. brk Ht. destruct (sanitised_text_safe repl (t_name t) Hr) as [Hs _].
    pose proof (wc_last _ (sanitised_text_ok repl (t_name t) Hr)) as Hc.
    split; [apply followed_by_nil | unfold dendrogram_text_top; destruct rn; pc_tpl]. destruct rn.
    - apply (open_then_wf "text" [(" ", "x", [t_x t]); (" ", "y", [t_y t]);
                                  ("  ", "transform", ["rotate(60, "; t_x t; ", "; t_y t; ")"]);
                                  (" ", "font-size", [fs])] "" (sanitise repl (t_name t)) "" "");
        [reflexivity | safe_pieces | exact Hc | reflexivity].
    - apply (open_then_wf "text" [(" ", "x", [t_x t]); (" ", "y", [t_y t]); ("  ", "font-size", [fs])] ""
                          (sanitise repl (t_name t)) "" "");
        [reflexivity | safe_pieces | exact Hc | reflexivity].
  Qed.

  Lemma dendrogram_text_left_ok : counted (wf_elem "text") (1, 0, 0, 0) (dendrogram_text_left repl fs t).
  Proof.
    unfold label_safe in Ht. brk Ht. destruct (sanitised_text_safe repl (t_name t) Hr) as [Hs _].
    split; [apply followed_by_nil | unfold dendrogram_text_left; pc_tpl].
    apply (open_then_wf "text" [(" ", "x", [t_x t]); (" ", "y", [t_y t]); (" ", "font-size", [fs])] ""
                        (sanitise repl (t_name t)) "" "");
      [reflexivity | safe_pieces | apply wc_last; now apply sanitised_text_ok | reflexivity].
  Qed.
End DendrogramText.

Lemma draw_edge_drawn directed e :
  edge_safe e = true -> drawn directed e = true -> counted edge_path (0, 0, 1, 0) (draw_edge directed e).
Proof.
  intros He Hd. unfold edge_safe in He. brk He. unfold draw_edge, drawn in *. destruct directed.
  - simpl in Hd. rewrite Hd. split; [|now apply svg_edge_directed_pc].
    destruct (svg_edge_directed_wf (e_x1 e) (e_y1 e) (e_x2 e) (e_y2 e) (e_width e) (e_color e)) as (A & B & _); auto.
    now split.
  - split; [|now apply svg_edge_pc]. apply and_comm, svg_edge_wf; assumption.
Qed.

Lemma draw_edge_not_drawn directed e : drawn directed e = false -> draw_edge directed e = "".
Proof.
  unfold drawn, draw_edge. destruct directed; simpl; [|discriminate]. now intros ->.
Qed.

Lemma sconcat_draw_edges directed l :
  sconcat (map (draw_edge directed) l) = sconcat (map (draw_edge directed) (filter (drawn directed) l)).
Proof.
  induction l as [|e l IH]; simpl; [reflexivity|].
  destruct (drawn directed e) eqn:E; simpl; [now rewrite IH|].
  now rewrite (draw_edge_not_drawn _ _ E), IH.
Qed.

Lemma edge_paths directed l :
  forallb edge_safe l = true ->
  Forall (counted edge_path (0, 0, 1, 0)) (map (draw_edge directed) (filter (drawn directed) l)).
Proof.
  intros H. rewrite forallb_forall in H. apply Forall_forall. intros s Hs.
  apply in_map_iff in Hs as [e [<- He]]. apply filter_In in He as [He Hd].
  apply draw_edge_drawn; auto.
Qed.

Lemma filter_drawn_false l : filter (drawn false) l = l.
Proof. induction l as [|e l IH]; [reflexivity|]. simpl. now rewrite IH. Qed.

Lemma edge_path_pre s : edge_path s -> pre_content s.
Proof. intros [_ H]. now apply pre_content_elem_nl with (tag := "path"). Qed.

Definition node_vec (nd : node) : vec4 := (0, if is_circle_node nd then 1 else 0, 0, n_wedges nd).

Lemma circle_shape s : elem_nl "circle" s -> pc s (0, 1, 0, 0) -> node_shape s /\ piece s (0, 1, 0, 0).
Proof.
  intros W C. split; [now left | split; [now apply pre_content_elem_nl with (tag := "circle") | exact C]].
Qed.

Lemma draw_node_shape nd :
  node_safe nd = true -> node_shape (draw_node nd) /\ piece (draw_node nd) (node_vec nd).
Proof.
  intros H. unfold node_safe in H. brk H. unfold draw_node, node_vec, is_circle_node, n_wedges.
  destruct (n_shape nd) as [color | zs ws]; simpl in *.
  { apply circle_shape; [apply svg_node_wf | apply svg_node_pc]; auto. }
  brk S. unfold svg_pie_chart_node. destruct zs.
  { apply circle_shape; [apply svg_node_wf | apply svg_node_pc]; auto. }
  assert (W : Forall (counted wedge_path (0, 0, 0, 1))
                     (map (svg_wedge (n_x nd) (n_y nd) (n_size nd) (n_width nd) "black") ws)).
  { revert S. apply Forall_map_if. intros w Hw.
    split; [apply and_comm, svg_wedge_wf | apply svg_wedge_pc]; auto. }
  split.
  - right. eexists. split; [|split; [reflexivity | exact (counted_shape _ _ _ W)]].
    destruct ws; discriminate.
  - eapply piece_eq; [revert W; apply pieces_const; intros s [_ Hs]; now apply pre_content_elem_nl with (tag := "path")|].
    rewrite map_length. apply vec4_eq; lia.
Qed.

Definition total_wedges (nodes : list node) : nat := fold_right (fun nd acc => n_wedges nd + acc) 0 nodes.

Lemma total_wedges_app a b : total_wedges (a ++ b) = total_wedges a + total_wedges b.
Proof. induction a as [|nd a IH]; simpl; [reflexivity | rewrite IH; lia]. Qed.

Lemma node_shapes l :
  forallb node_safe l = true ->
  Forall node_shape (map draw_node l) /\
  piece (sconcat (map draw_node l)) (0, length (filter is_circle_node l), 0, total_wedges l).
Proof.
  induction l as [|nd l IH]; intros H; [split; [constructor | apply piece_nil]|].
  simpl in H. apply andb_true_iff in H as [Hn Hl].
  destruct (IH Hl) as [IS IP]. destruct (draw_node_shape nd Hn) as [S P].
  split; [now constructor|].
  eapply piece_eq; [exact (piece_app _ _ _ _ P IP)|].
  cbn [filter total_wedges fold_right]. unfold node_vec. destruct (is_circle_node nd); reflexivity.
Qed.

(** The text elements of the names, whichever templater [f] draws them. *)
Definition texts (f : label -> string) (names : option (list label)) : list string :=
  match names with None => [] | Some l => map f l end.

Lemma sconcat_texts f names : match names with None => "" | Some l => sconcat (map f l) end = sconcat (texts f names).
Proof. now destruct names. Qed.

Lemma texts_length f names : length (texts f names) = n_labels names.
Proof. destruct names; [apply map_length | reflexivity]. Qed.

Lemma texts_ok (P : string -> Prop) f names :
  labels_safe names = true -> (forall t, label_safe t = true -> P (f t)) -> Forall P (texts f names).
Proof. intros Hn Hf. destruct names; [now apply (Forall_map_if label_safe) | constructor]. Qed.

Lemma labels_wf repl fs pos names :
  sanitiser_ok repl = true -> safe_field fs = true -> labels_safe names = true ->
  Forall (counted (wf_elem "text") (1, 0, 0, 0)) (texts (draw_label repl fs pos) names).
Proof.
  intros Hr Hf Hn. apply texts_ok; [exact Hn|]. intros t H.
  unfold label_safe in H. brk H. unfold draw_label. split; [apply svg_text_wf | apply svg_text_pc]; auto.
Qed.

Lemma texts_piece l : Forall (counted (wf_elem "text") (1, 0, 0, 0)) l ->
  piece (sconcat l) (length l * 1, length l * 0, length l * 0, length l * 0).
Proof. apply pieces_const. intros s. apply pre_content_elem. Qed.

(** The root element around the pieces [ps] of the body: one or two spaces [sp] before xmlns, white space
    [w0] after the start tag and [rest] after the end tag. *)
Definition svg_doc (sp width height w0 : string) (ps : list string) (rest : string) : string :=
  ("<svg width=""" ++ width ++ """ height=""" ++ height ++ """" ++ sp ++ "xmlns=""http://www.w3.org/2000/svg"">" ++ w0) ++
  fold_right append ("</svg>" ++ rest) ps.

Lemma svg_document sp width height w0 ps vs rest :
  (sp = " " \/ sp = "  ") -> safe_field width = true -> safe_field height = true ->
  ws_ok w0 = true -> Forall2 piece ps vs -> ws_ok rest = true ->
  wf_document_root "svg" (svg_doc sp width height w0 ps rest) /\
  pc (svg_doc sp width height w0 ps rest) (fold_right vadd vzero vs).
Proof.
  intros Hsp Hw Hh H0 Hps Hr.
  assert (Hb : piece (sconcat ps) (fold_right vadd vzero vs)).
  { induction Hps; [apply piece_nil | now apply piece_app]. }
  destruct Hb as [Hpre Hpc]. unfold svg_doc. rewrite fold_right_append.
  pose proof (ws_no_lt _ H0) as L0. pose proof (ws_no_lt _ Hr) as Lr.
  assert (Ls : no_char "<" sp = true) by (destruct Hsp as [-> | ->]; reflexivity). split.
  - apply followed_by_ws_root with (w := rest); [|exact Hr].
    replace (_ ++ _)
      with (open_then "svg" [(" ", "width", [width]); (" ", "height", [height]);
                             (sp, "xmlns", ["http://www.w3.org/2000/svg"])] "" (w0 ++ sconcat ps) "" rest)
      by (unfold open_then; cbn [attrs_then fold_right]; now rewrite !sapp_assoc).
    assert (Hc : wf_content (w0 ++ sconcat ps)).
    { apply pre_content_wf, pre_content_app; [now apply pre_content_ws | exact Hpre]. }
    destruct Hsp as [-> | ->]; (apply open_then_wf; [reflexivity | | exact Hc | reflexivity]); safe_pieces.
  - eapply pc_eq.
    + eapply pc_app; [pc_tpl|]. eapply pc_app; [exact Hpc | pc_tpl].
    + destruct (fold_right vadd vzero vs) as [[[a b] c] d]. cbn. apply vec4_eq; lia.
Qed.

(** A drawing of a graph or bigraph: what precedes the edges ([pre]: the marker definitions, or a newline),
    the edge paths, the node shapes, the text elements. *)
Lemma drawing_document doc sp width height w0 pre E nodes T :
  doc = svg_doc sp width height w0 [pre; sconcat E; sconcat (map draw_node nodes); sconcat T] nl ->
  (sp = " " \/ sp = "  ") -> safe_field width = true -> safe_field height = true -> ws_ok w0 = true ->
  piece pre vzero -> Forall (counted edge_path (0, 0, 1, 0)) E ->
  forallb node_safe nodes = true -> Forall (counted (wf_elem "text") (1, 0, 0, 0)) T ->
  wf_document_root "svg" doc /\
  pc doc (length T, length (filter is_circle_node nodes), length E, total_wedges nodes).
Proof.
  intros -> Hsp Hw Hh H0 Hpre HE HN HT.
  destruct (svg_document sp width height w0 _ _ nl Hsp Hw Hh H0
              (Forall2_cons _ _ Hpre
                 (Forall2_cons _ _ (pieces_const edge_path 0 0 1 0 E edge_path_pre HE)
                    (Forall2_cons _ _ (proj2 (node_shapes nodes HN))
                       (Forall2_cons _ _ (texts_piece T HT) (Forall2_nil _))))) eq_refl) as [W C].
  split; [exact W|]. eapply pc_eq; [exact C|]. cbn. apply vec4_eq; lia.
Qed.

Section Graph.
  Context (repl : list (ascii * string)) (width height : string) (display_edges directed : bool)
            (markers : list string) (edges residual : list edge) (nodes : list node)
            (names : option (list label)) (font_size name_position : string).
  Context (Hrepl : sanitiser_ok repl = true)
          (Hwidth : safe_field width = true)
          (Hheight : safe_field height = true)
          (Hfont : safe_field font_size = true)
          (Hmarkers : forallb safe_field markers = true)
          (Hedges : forallb edge_safe edges = true)
          (Hresidual : forallb edge_safe residual = true)
          (Hnodes : forallb node_safe nodes = true)
          (Hnames : labels_safe names = true).

  Let doc := visualize_graph_with repl width height display_edges directed markers edges residual nodes
                                  names font_size name_position.
  Let defs := if display_edges && directed then sconcat (map svg_marker markers) else "".
  Let E := if display_edges then map (draw_edge directed) (filter (drawn directed) (edges ++ residual)) else [].
  Let N := map draw_node nodes.
  Let T := texts (draw_label repl font_size name_position) names.

  Lemma graph_decomposition :
    doc = svg_header width height ++ defs ++ sconcat E ++ sconcat N ++ sconcat T ++ "</svg>" ++ nl.
  Proof.
    unfold doc, visualize_graph_with, defs, E, N, T. rewrite sconcat_texts. f_equal.
    destruct display_edges; cbn [andb]; [|reflexivity].
    rewrite <- sconcat_draw_edges, map_app, sconcat_app, !sapp_assoc. now destruct directed.
  Qed.

  Lemma graph_E : Forall (counted edge_path (0, 0, 1, 0)) E.
  Proof.
    unfold E. destruct display_edges; [|constructor]. apply edge_paths.
    rewrite forallb_app. now rewrite Hedges, Hresidual.
  Qed.

  Lemma graph_E_length : length E = if display_edges then length (filter (drawn directed) (edges ++ residual)) else 0.
  Proof. unfold E. destruct display_edges; [apply map_length | reflexivity]. Qed.

  Lemma graph_T : Forall (counted (wf_elem "text") (1, 0, 0, 0)) T.
  Proof. now apply labels_wf. Qed.

  Lemma graph_defs : piece defs vzero.
  Proof.
    unfold defs. destruct (display_edges && directed); [|apply piece_nil].
    eapply piece_eq; [apply (pieces_const (elem_nl "defs") 0 0 0 0); [apply pre_content_elem_nl|] | apply vec4_eq; lia].
    revert Hmarkers. apply Forall_map_if. intros c Hc. split; [now apply svg_marker_wf | now apply svg_marker_pc].
  Qed.

  Lemma graph_document :
    wf_document_root "svg" doc /\
    pc doc (length T, length (filter is_circle_node nodes), length E, total_wedges nodes).
  Proof.
    apply (drawing_document doc " " width height nl defs E nodes T graph_decomposition);
      auto using graph_defs, graph_E, graph_T.
  Qed.

  Theorem visualize_graph_wf : wf_document_root "svg" doc.
  Proof. apply graph_document. Qed.

  (** One edge path per displayed edge (all stored and residual entries of an undirected drawing,
      those between distinct positions of a directed one), one node shape per node, one text
      element per name — and nothing else but the marker definitions. *)
  Theorem visualize_graph_counts :
    exists defs E N T,
      doc = svg_header width height ++ defs ++ sconcat E ++ sconcat N ++ sconcat T ++ "</svg>" ++ nl /\
      defs = (if display_edges && directed then sconcat (map svg_marker markers) else "") /\
      Forall edge_path E /\
      length E = (if display_edges then length (filter (drawn directed) (edges ++ residual)) else 0) /\
      Forall node_shape N /\ length N = length nodes /\
      Forall (wf_elem "text") T /\ length T = n_labels names.
  Proof.
    exists defs, E, N, T. split; [apply graph_decomposition|]. split; [reflexivity|].
    split; [eapply counted_shape, graph_E|]. split; [apply graph_E_length|].
    split; [now apply node_shapes|]. split; [apply map_length|].
    split; [eapply counted_shape, graph_T | apply texts_length].
  Qed.

  (** Counts on the string: occurrences of the text / circle / edge-path / wedge openings in the whole
      document, names included. *)
  Theorem visualize_graph_string_counts :
    count_starts P_text doc = n_labels names /\
    count_starts P_circle doc = length (filter is_circle_node nodes) /\
    count_starts P_edge doc = (if display_edges then length (filter (drawn directed) (edges ++ residual)) else 0) /\
    count_starts P_wedge doc = total_wedges nodes.
  Proof.
    rewrite <- graph_E_length, <- (texts_length (draw_label repl font_size name_position) names).
    apply pc_counts, graph_document.
  Qed.
End Graph.

Section Bigraph.
  Context (repl : list (ascii * string)) (width height : string) (display_edges : bool)
            (edges residual : list edge) (nodes_row nodes_col : list node)
            (names_row names_col : option (list label)) (font_size : string).
  Context (Hrepl : sanitiser_ok repl = true)
          (Hwidth : safe_field width = true)
          (Hheight : safe_field height = true)
          (Hfont : safe_field font_size = true)
          (Hedges : forallb edge_safe edges = true)
          (Hresidual : forallb edge_safe residual = true)
          (Hrow : forallb node_safe nodes_row = true)
          (Hcol : forallb node_safe nodes_col = true)
          (Hnr : labels_safe names_row = true)
          (Hnc : labels_safe names_col = true).

  Let doc := visualize_bigraph_with repl width height display_edges edges residual nodes_row nodes_col
                                    names_row names_col font_size.
  Let E := if display_edges then map (draw_edge false) (edges ++ residual) else [].
  Let N := map draw_node (nodes_row ++ nodes_col).
  Let T := (texts (draw_label repl font_size "left") names_row ++
            texts (draw_label repl font_size "right") names_col)%list.

  Lemma bigraph_decomposition :
    doc = svg_header2 width height ++ nl ++ sconcat E ++ sconcat N ++ sconcat T ++ "</svg>" ++ nl.
  Proof.
    unfold doc, visualize_bigraph_with, E, N, T. rewrite !sconcat_texts. do 2 f_equal.
    destruct display_edges; now rewrite ?map_app, ?sconcat_app, ?sapp_assoc.
  Qed.

  Lemma bigraph_E : Forall (counted edge_path (0, 0, 1, 0)) E.
  Proof.
    unfold E. destruct display_edges; [|constructor].
    rewrite <- (filter_drawn_false (edges ++ residual)). apply edge_paths.
    rewrite forallb_app. now rewrite Hedges, Hresidual.
  Qed.

  Lemma bigraph_E_length : length E = if display_edges then length edges + length residual else 0.
  Proof. unfold E. destruct display_edges; [now rewrite map_length, app_length | reflexivity]. Qed.

  Lemma bigraph_nodes : forallb node_safe (nodes_row ++ nodes_col) = true.
  Proof. rewrite forallb_app. now rewrite Hrow, Hcol. Qed.

  Lemma bigraph_T : Forall (counted (wf_elem "text") (1, 0, 0, 0)) T.
  Proof. apply Forall_app. split; now apply labels_wf. Qed.

  Lemma bigraph_T_length : length T = n_labels names_row + n_labels names_col.
  Proof. unfold T. now rewrite app_length, !texts_length. Qed.

  Lemma bigraph_document :
    wf_document_root "svg" doc /\
    pc doc (length T, length (filter is_circle_node (nodes_row ++ nodes_col)), length E,
            total_wedges (nodes_row ++ nodes_col)).
  Proof.
    apply (drawing_document doc "  " width height "" nl E (nodes_row ++ nodes_col) T bigraph_decomposition);
      auto using bigraph_E, bigraph_T, bigraph_nodes.
    split; [now apply pre_content_ws | apply (pc_lit nl); intros r; reflexivity].
  Qed.

  Theorem visualize_bigraph_wf : wf_document_root "svg" doc.
  Proof. apply bigraph_document. Qed.

  Theorem visualize_bigraph_counts :
    exists E N T,
      doc = svg_header2 width height ++ nl ++ sconcat E ++ sconcat N ++ sconcat T ++ "</svg>" ++ nl /\
      Forall edge_path E /\
      length E = (if display_edges then length edges + length residual else 0) /\
      Forall node_shape N /\ length N = length nodes_row + length nodes_col /\
      Forall (wf_elem "text") T /\ length T = n_labels names_row + n_labels names_col.
  Proof.
    exists E, N, T. split; [apply bigraph_decomposition|].
    split; [eapply counted_shape, bigraph_E|]. split; [apply bigraph_E_length|].
    split; [apply node_shapes, bigraph_nodes|]. split; [unfold N; now rewrite map_length, app_length|].
    split; [eapply counted_shape, bigraph_T | apply bigraph_T_length].
  Qed.

  Theorem visualize_bigraph_string_counts :
    count_starts P_text doc = n_labels names_row + n_labels names_col /\
    count_starts P_circle doc = length (filter is_circle_node (nodes_row ++ nodes_col)) /\
    count_starts P_edge doc = (if display_edges then length edges + length residual else 0) /\
    count_starts P_wedge doc = total_wedges nodes_row + total_wedges nodes_col.
  Proof.
    rewrite <- bigraph_T_length, <- bigraph_E_length, <- total_wedges_app. apply pc_counts, bigraph_document.
  Qed.
End Bigraph.

(** The three lines of one merge, in either orientation. *)
Definition merge_lines (rotate : bool) (lw : string) (m : merge) : list string :=
  if rotate then
    [svg_line lw (m_color m) (m_x1 m) (m_y1 m) (m_x m) (m_y1 m);
     svg_line lw (m_color m) (m_x2 m) (m_y2 m) (m_x m) (m_y2 m);
     svg_line lw (m_color m) (m_x m) (m_y1 m) (m_x m) (m_y2 m)]
  else
    [svg_line lw (m_color m) (m_x1 m) (m_y1 m) (m_x1 m) (m_y m);
     svg_line lw (m_color m) (m_x2 m) (m_y2 m) (m_x2 m) (m_y m);
     svg_line lw (m_color m) (m_x1 m) (m_y m) (m_x2 m) (m_y m)].

Lemma merge_lines_draw rotate lw m :
  sconcat (merge_lines rotate lw m) = (if rotate then merge_left else merge_top) lw m.
Proof. destruct rotate; cbn [merge_lines sconcat]; now rewrite sapp_nil_r. Qed.

Lemma merge_lines_ok rotate lw m :
  safe_field lw = true -> merge_safe m = true ->
  Forall (counted line_path (0, 0, 1, 0)) (merge_lines rotate lw m).
Proof.
  intros Hl Hm. unfold merge_safe in Hm. brk Hm.
  destruct rotate; repeat (apply Forall_cons; [now apply svg_line_ok|]); apply Forall_nil.
Qed.

Lemma sconcat_flat_map {A} (f : A -> list string) l :
  sconcat (flat_map f l) = sconcat (map (fun x => sconcat (f x)) l).
Proof. induction l as [|x l IH]; simpl; [reflexivity | now rewrite sconcat_app, IH]. Qed.

Lemma length_flat_map3 {A} (f : A -> list string) l :
  (forall x, length (f x) = 3) -> length (flat_map f l) = 3 * length l.
Proof. intros H. induction l as [|x l IH]; simpl; [reflexivity|]. rewrite app_length, H, IH. lia. Qed.

Section Dendrogram.
  Context (repl_top repl_left : list (ascii * string)) (rotate : bool) (width height : string)
            (names : option (list label)) (rotate_names : bool) (font_size line_width : string)
            (merges : list merge).
  (** The replacement list of the site that is used. *)
  Context (Hrepl : sanitiser_ok (if rotate then repl_left else repl_top) = true)
          (Hwidth : safe_field width = true)
          (Hheight : safe_field height = true)
          (Hfont : safe_field font_size = true)
          (Hline : safe_field line_width = true)
          (Hnames : labels_safe names = true)
          (Hmerges : forallb merge_safe merges = true).

  Let doc := visualize_dendrogram_with repl_top repl_left rotate width height names rotate_names
                                       font_size line_width merges.
  Let T := texts (if rotate then dendrogram_text_left repl_left font_size
                  else dendrogram_text_top repl_top rotate_names font_size) names.
  Let P := flat_map (merge_lines rotate line_width) merges.

  Lemma dendrogram_decomposition :
    doc = svg_header2 width height ++ sconcat T ++ sconcat P ++ "</svg>".
  Proof.
    unfold doc, visualize_dendrogram_with, svg_dendrogram_left_with, svg_dendrogram_top_with, T, P.
    rewrite sconcat_flat_map, (map_ext _ _ (merge_lines_draw rotate line_width)).
    destruct rotate; now rewrite sconcat_texts.
  Qed.

  Lemma dendrogram_T : Forall (counted (wf_elem "text") (1, 0, 0, 0)) T.
  Proof.
    apply texts_ok; [exact Hnames|]. intros t Ht.
    destruct rotate; [now apply dendrogram_text_left_ok | now apply dendrogram_text_top_ok].
  Qed.

  Lemma dendrogram_P : Forall (counted line_path (0, 0, 1, 0)) P.
  Proof.
    rewrite forallb_forall in Hmerges. apply Forall_flat_map, Forall_forall.
    intros m Hm. apply merge_lines_ok; auto.
  Qed.

  Lemma dendrogram_P_length : length P = 3 * length merges.
  Proof. apply length_flat_map3. intros m. now destruct rotate. Qed.

  Lemma dendrogram_document :
    wf_document_root "svg" doc /\ pc doc (n_labels names, 0, 3 * length merges, 0).
  Proof.
    rewrite dendrogram_decomposition.
    assert (HP : piece (sconcat P) (length P * 0, length P * 0, length P * 1, length P * 0)).
    { apply (pieces_const line_path); [|exact dendrogram_P].
      intros s [_ H]. now apply pre_content_elem with (n := "path"). }
    destruct (svg_document "  " width height "" [sconcat T; sconcat P] _ ""
                (or_intror eq_refl) Hwidth Hheight eq_refl
                (Forall2_cons _ _ (texts_piece T dendrogram_T) (Forall2_cons _ _ HP (Forall2_nil _))) eq_refl)
      as [W C].
    split; [exact W|]. eapply pc_eq; [exact C|].
    rewrite dendrogram_P_length. unfold T. rewrite texts_length. cbn. apply vec4_eq; lia.
  Qed.

  Theorem visualize_dendrogram_wf : wf_document_root "svg" doc.
  Proof. apply dendrogram_document. Qed.

  (** One text element per name, three paths per merge, nothing else. *)
  Theorem visualize_dendrogram_counts :
    exists T P,
      doc = svg_header2 width height ++ sconcat T ++ sconcat P ++ "</svg>" /\
      Forall (wf_elem "text") T /\ length T = n_labels names /\
      Forall line_path P /\ length P = 3 * length merges.
  Proof.
    exists T, P. split; [apply dendrogram_decomposition|].
    split; [eapply counted_shape, dendrogram_T|]. split; [apply texts_length|].
    split; [eapply counted_shape, dendrogram_P | apply dendrogram_P_length].
  Qed.

  Theorem visualize_dendrogram_string_counts :
    count_starts P_text doc = n_labels names /\
    count_starts P_circle doc = 0 /\
    count_starts P_edge doc = 3 * length merges /\
    count_starts P_wedge doc = 0.
  Proof. apply pc_counts, dendrogram_document. Qed.
End Dendrogram.

(** Necessary condition of well-formedness: every less-than sign is followed by a name-start character or a slash. *)
Fixpoint lt_ok (s : string) : bool :=
  match s with
  | EmptyString => true
  | String c r =>
      (if Ascii.eqb c "<" then
         match r with
         | String d _ => is_name_start d || Ascii.eqb d "/"
         | EmptyString => false
         end
       else true) && lt_ok r
  end.

Lemma lt_ok_app a b : lt_ok a = true -> lt_ok b = true -> lt_ok (a ++ b) = true.
Proof.
  intros Ha Hb. induction a as [|c a IH]; [exact Hb|].
  cbn [lt_ok] in Ha. apply andb_true_iff in Ha as [H1 H2].
  cbn [append lt_ok]. rewrite (IH H2), andb_true_r.
  destruct (Ascii.eqb c "<"); [|reflexivity].
  destruct a as [|d a]; [discriminate | exact H1].
Qed.

Lemma no_lt_lt_ok s : no_char "<" s = true -> lt_ok s = true.
Proof.
  induction s as [|c s IH]; [reflexivity|]. intros H.
  unfold no_char in H. cbn [all_chars] in H. apply andb_true_iff in H as [H1 H2].
  apply negb_true_iff in H1. cbn [lt_ok]. now rewrite H1, (IH H2).
Qed.

Lemma name_no_lt n : name_ok n = true -> no_char "<" n = true.
Proof.
  destruct n as [|c r]; [discriminate|]. simpl. intros H. apply andb_true_iff in H as [H1 H2].
  apply (all_chars_no_char is_name_char); [reflexivity|]. simpl. unfold is_name_char at 1. now rewrite H1, H2.
Qed.

Lemma attrs_no_lt a ns : wf_attrs a ns -> no_char "<" a = true.
Proof.
  induction 1 as [|w n v rest ns _ Hw Hn Hv _ IH]; [reflexivity|].
  unfold attr_value_ok in Hv. brk Hv.
  rewrite !no_char_app, (ws_no_lt _ Hw), (name_no_lt _ Hn), Hv, IH. reflexivity.
Qed.

Lemma text_no_lt t : text_ok t = true -> no_char "<" t = true.
Proof. unfold text_ok. intros H. brk H. exact H. Qed.

(** A tag up to the white space after its attributes: the name starts with a name-start character, and no
    less-than sign follows before [rest]. *)
Lemma lt_ok_tag_open n a ns w rest :
  name_ok n = true -> wf_attrs a ns -> ws_ok w = true -> lt_ok rest = true ->
  lt_ok ("<" ++ n ++ a ++ w ++ rest) = true.
Proof.
  intros Hn Ha Hw Hr. destruct n as [|c r]; [discriminate|].
  pose proof (name_no_lt _ Hn) as Hl.
  simpl in Hn. apply andb_true_iff in Hn as [Hc _].
  cbn [append lt_ok]. rewrite Ascii.eqb_refl, Hc. cbn [orb andb].
  change (lt_ok (String c r ++ a ++ w ++ rest) = true).
  apply lt_ok_app; [now apply no_lt_lt_ok|].
  apply lt_ok_app; [now apply no_lt_lt_ok, attrs_no_lt with (ns := ns)|].
  apply lt_ok_app; [now apply no_lt_lt_ok, ws_no_lt | exact Hr].
Qed.

Scheme wf_elem_mut := Induction for wf_elem Sort Prop
  with wf_content_mut := Induction for wf_content Sort Prop.

Lemma wf_elem_lt_ok n e : wf_elem n e -> lt_ok e = true.
Proof.
  revert n e.
  apply (wf_elem_mut (fun n e _ => lt_ok e = true) (fun c _ => lt_ok c = true)).
  - intros n a ns w Hn Ha Hd Hw. now apply lt_ok_tag_open with (ns := ns).
  - intros n a ns w c w2 Hn Ha Hd Hw Hc IHc Hw2. apply lt_ok_tag_open with (ns := ns); auto.
    apply (lt_ok_app ">"); [reflexivity|]. apply lt_ok_app; [exact IHc|].
    change (lt_ok (String "<" (String "/" (n ++ w2 ++ ">"))) = true).
    cbn [lt_ok]. rewrite Ascii.eqb_refl. cbn.
    apply lt_ok_app; [now apply no_lt_lt_ok, name_no_lt|].
    apply lt_ok_app; [now apply no_lt_lt_ok, ws_no_lt | reflexivity].
  - intros t Ht. now apply no_lt_lt_ok, text_no_lt.
  - intros t n e c Ht He IHe Hc IHc.
    apply lt_ok_app; [now apply no_lt_lt_ok, text_no_lt | now apply lt_ok_app].
Qed.

Theorem wf_document_lt_ok s : wf_document s -> lt_ok s = true.
Proof.
  intros (root & w0 & e & w1 & -> & H0 & He & H1).
  apply lt_ok_app; [now apply no_lt_lt_ok, ws_no_lt|].
  apply lt_ok_app; [now apply wf_elem_lt_ok with (n := root) | now apply no_lt_lt_ok, ws_no_lt].
Qed.

(** A replacement list for the dendrogram label sites that lacks the less-than sign (it replaces the ampersand only). *)
Definition legacy_dendrogram_repl : list (ascii * string) := [("&"%char, " ")].

Definition refuting_dendrogram (rotate : bool) : string :=
  visualize_dendrogram_with legacy_dendrogram_repl legacy_dendrogram_repl rotate "420" "355.0"
    (Some [ {| t_x := "5.0"; t_y := "315"; t_name := "1<2" |}; {| t_x := "205.0"; t_y := "315"; t_name := "c" |} ])
    true "12" "2"
    [ {| m_color := "black"; m_x1 := "10.0"; m_y1 := "310"; m_x2 := "210.0"; m_y2 := "310"; m_x := "110.0"; m_y := "10.0" |} ].
