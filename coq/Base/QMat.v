(** Small dense linear algebra over [Q]: vectors are [list Q], matrices are lists of rows.
    Equality is pointwise [Qeq] ([veq], [meq]).  Shapes are explicit ([wf_mat r c M]); a matrix with
    no row has no intrinsic column count, so [transpose_n] and [mat_mul] take the column count as an
    argument ([transpose], [mat_mul'] read it from the first row).  Everything is proved, no axiom. *)
From SKN Require Import Base.Util.
From Coq Require Import QArith Lqa Psatz Setoid Morphisms.

Notation vec := (list Q) (only parsing).
Notation mat := (list (list Q)) (only parsing).

Definition veq : vec -> vec -> Prop := Forall2 Qeq.
Definition meq : mat -> mat -> Prop := Forall2 veq.
Infix "=v" := veq (at level 70, no associativity).
Infix "=m" := meq (at level 70, no associativity).

(** [veq] and [meq] are both a [Forall2]: what holds of every [Forall2 R] is proved once. *)
Lemma Forall2_equiv {A} (R : A -> A -> Prop) : Equivalence R -> Equivalence (Forall2 R).
Proof.
  intros E. split.
  - intros l. induction l; constructor; [reflexivity | assumption].
  - intros l l' H. induction H; constructor; [symmetry|]; assumption.
  - intros l1 l2 l3 H. revert l3. induction H as [|a b l1 l2 Hab _ IH]; intros l3 H'; inversion H'; subst; constructor.
    + etransitivity; eassumption.
    + apply IH; assumption.
Qed.
Lemma Forall2_len {A B} (R : A -> B -> Prop) u v : Forall2 R u v -> length u = length v.
Proof. induction 1; simpl; auto. Qed.
Lemma Forall2_nth_intro {A} (R : A -> A -> Prop) d u v :
  length u = length v -> (forall i, (i < length u)%nat -> R (nth i u d) (nth i v d)) -> Forall2 R u v.
Proof.
  revert v; induction u as [|a u IH]; intros [|b v] HL H; simpl in *; try discriminate; constructor.
  - apply (H 0%nat); lia.
  - apply IH; [lia|]. intros i Hi. apply (H (S i)); lia.
Qed.
Lemma Forall2_nth_elim {A} (R : A -> A -> Prop) d u v i : R d d -> Forall2 R u v -> R (nth i u d) (nth i v d).
Proof. intros Hd H; revert i; induction H; intros [|i]; simpl; auto. Qed.
Lemma Forall2_map {A B} (R : A -> A -> Prop) (S : B -> B -> Prop) (f g : A -> B) u v :
  (R ==> S)%signature f g -> Forall2 R u v -> Forall2 S (map f u) (map g v).
Proof. intros Hf H. induction H; simpl; constructor; auto. Qed.
Lemma Forall2_map_ext {A B} (R : B -> B -> Prop) (f g : A -> B) l :
  (forall a, In a l -> R (f a) (g a)) -> Forall2 R (map f l) (map g l).
Proof.
  induction l as [|a l IH]; intros H; simpl; constructor.
  - apply H; left; reflexivity.
  - apply IH. intros b Hb. apply H; right; exact Hb.
Qed.
Lemma Forall2_map2 {A B C} (R : A -> A -> Prop) (S : B -> B -> Prop) (T : C -> C -> Prop) (f g : A -> B -> C) u u' v v' :
  (R ==> S ==> T)%signature f g -> Forall2 R u u' -> Forall2 S v v' -> Forall2 T (map2 f u v) (map2 g u' v').
Proof.
  intros Hf H; revert v v'; induction H; intros v v' Hv; simpl; [constructor|]. inversion Hv; subst; constructor; auto.
  apply Hf; assumption.
Qed.
Lemma Forall2_repeat {A} (R : A -> A -> Prop) a b n : R a b -> Forall2 R (repeat a n) (repeat b n).
Proof. intros H. induction n; simpl; constructor; assumption. Qed.

Global Instance veq_equiv : Equivalence veq.
Proof. apply Forall2_equiv, Q_Setoid. Qed.
Global Instance meq_equiv : Equivalence meq.
Proof. apply Forall2_equiv, veq_equiv. Qed.

Lemma veq_length u v : u =v v -> length u = length v.
Proof. apply Forall2_len. Qed.
Lemma meq_length A B : A =m B -> length A = length B.
Proof. apply Forall2_len. Qed.

Lemma veq_nthq u v i : u =v v -> nthq u i == nthq v i.
Proof. apply Forall2_nth_elim. reflexivity. Qed.
Lemma veq_nth u v : length u = length v -> (forall i, (i < length u)%nat -> nthq u i == nthq v i) -> u =v v.
Proof. apply Forall2_nth_intro. Qed.
Lemma meq_nth A B : length A = length B -> (forall i, (i < length A)%nat -> nth i A [] =v nth i B []) -> A =m B.
Proof. apply Forall2_nth_intro. Qed.
Lemma meq_nth_row A B i : A =m B -> nth i A [] =v nth i B [].
Proof. apply Forall2_nth_elim. reflexivity. Qed.

Global Instance nthq_proper : Proper (veq ==> eq ==> Qeq) nthq.
Proof. intros u v H i j <-. apply veq_nthq; exact H. Qed.

Global Instance sumq_proper : Proper (veq ==> Qeq) sumq.
Proof. intros u v H. induction H as [|a b u v Hab Huv IH]; simpl; [reflexivity|]. rewrite Hab, IH. reflexivity. Qed.

Global Instance cons_veq_proper : Proper (Qeq ==> veq ==> veq) (@cons Q).
Proof. intros a b H u v Huv. constructor; auto. Qed.

Global Instance app_veq_proper : Proper (veq ==> veq ==> veq) (@app Q).
Proof. intros u v H u' v' H'. induction H; simpl; auto. constructor; auto. Qed.

Lemma sumq_app u v : sumq (u ++ v) == sumq u + sumq v.
Proof. induction u as [|a u IH]; simpl; [ring|]. rewrite IH. ring. Qed.

Lemma map_veq (f g : Q -> Q) u v : (forall a b, a == b -> f a == g b) -> u =v v -> map f u =v map g v.
Proof. apply Forall2_map. Qed.
Lemma map_ext_veq {A} (f g : A -> Q) l : (forall a, In a l -> f a == g a) -> map f l =v map g l.
Proof. apply Forall2_map_ext. Qed.
Lemma map_ext_meq {A} (f g : A -> vec) l : (forall a, In a l -> f a =v g a) -> map f l =m map g l.
Proof. apply Forall2_map_ext. Qed.
Lemma map2_veq (f : Q -> Q -> Q) u u' v v' :
  Proper (Qeq ==> Qeq ==> Qeq) f -> u =v u' -> v =v v' -> map2 f u v =v map2 f u' v'.
Proof. apply Forall2_map2. Qed.

Lemma nth_map_gen {A B} (f : A -> B) (l : list A) d d' i : (i < length l)%nat -> nth i (map f l) d' = f (nth i l d).
Proof.
  intros H. rewrite (nth_indep (map f l) d' (f d)) by (rewrite map_length; exact H). apply map_nth.
Qed.
Lemma nthq_map_gen {A} (f : A -> Q) (l : list A) d i : (i < length l)%nat -> nthq (map f l) i = f (nth i l d).
Proof. apply nth_map_gen. Qed.
Lemma nthq_map (f : Q -> Q) u i : (i < length u)%nat -> nthq (map f u) i = f (nthq u i).
Proof. apply nthq_map_gen. Qed.

Lemma nthq_map2 (f : Q -> Q -> Q) u v i : (i < length u)%nat -> (i < length v)%nat -> nthq (map2 f u v) i = f (nthq u i) (nthq v i).
Proof. intros; unfold nthq; apply nth_map2; assumption. Qed.

Lemma nthq_overflow u i : (length u <= i)%nat -> nthq u i = 0.
Proof. intros; unfold nthq; apply nth_overflow; assumption. Qed.

Lemma nth_repeat_lt {A} (a d : A) n i : (i < n)%nat -> nth i (repeat a n) d = a.
Proof. revert i; induction n as [|n IH]; intros [|i] H; simpl; try lia; auto. apply IH; lia. Qed.
Lemma nthq_repeat q n i : (i < n)%nat -> nthq (repeat q n) i = q.
Proof. apply nth_repeat_lt. Qed.
Lemma map_repeat {A B} (f : A -> B) a n : map f (repeat a n) = repeat (f a) n.
Proof. induction n; simpl; congruence. Qed.

Lemma nth_seq_map {A} (f : nat -> A) n i d : (i < n)%nat -> nth i (map f (seq 0 n)) d = f i.
Proof.
  intros H. rewrite (nth_map_gen f (seq 0 n) 0%nat d) by (rewrite seq_length; exact H).
  rewrite seq_nth by exact H. reflexivity.
Qed.

Lemma nthq_seq_map (f : nat -> Q) n i : (i < n)%nat -> nthq (map f (seq 0 n)) i = f i.
Proof. intros; unfold nthq; apply nth_seq_map; assumption. Qed.

Definition vzero (n : nat) : vec := repeat 0 n.
Definition vones (n : nat) : vec := repeat 1 n.
Definition vconst (n : nat) (q : Q) : vec := repeat q n.
Definition vadd (u v : vec) : vec := map2 Qplus u v.
Definition vsub (u v : vec) : vec := map2 Qminus u v.
Definition vmul (u v : vec) : vec := map2 Qmult u v.
Definition vscale (c : Q) (u : vec) : vec := map (Qmult c) u.
Definition vneg (u : vec) : vec := map Qopp u.
Definition dot (u v : vec) : Q := sumq (map2 Qmult u v).
(** [unit n i]: i-th vector of the canonical basis of Q^n. *)
Definition unit (n i : nat) : vec := map (fun j => if Nat.eqb i j then 1 else 0) (seq 0 n).
(** sum of a list of vectors of length n *)
Definition vsum (n : nat) (l : list vec) : vec := fold_right vadd (vzero n) l.

Global Instance vadd_proper : Proper (veq ==> veq ==> veq) vadd.
Proof. intros u u' H v v' H'. apply map2_veq; [apply Qplus_comp | exact H | exact H']. Qed.
Global Instance vsub_proper : Proper (veq ==> veq ==> veq) vsub.
Proof. intros u u' H v v' H'. apply map2_veq; [apply Qminus_comp | exact H | exact H']. Qed.
Global Instance vmul_proper : Proper (veq ==> veq ==> veq) vmul.
Proof. intros u u' H v v' H'. apply map2_veq; [apply Qmult_comp | exact H | exact H']. Qed.
Global Instance vconst_proper : Proper (eq ==> Qeq ==> veq) vconst.
Proof. intros n n' <- q q' E. apply Forall2_repeat; exact E. Qed.
Global Instance vscale_proper : Proper (Qeq ==> veq ==> veq) vscale.
Proof. intros c c' E u u' H. apply map_veq; auto. intros a b E'. rewrite E, E'. reflexivity. Qed.
Global Instance vneg_proper : Proper (veq ==> veq) vneg.
Proof. intros u u' H. apply map_veq; auto. intros a b E'. rewrite E'. reflexivity. Qed.
Global Instance dot_proper : Proper (veq ==> veq ==> Qeq) dot.
Proof. intros u u' H v v' H'. unfold dot. apply sumq_proper. apply vmul_proper; auto. Qed.

Lemma vzero_length n : length (vzero n) = n. Proof. apply repeat_length. Qed.
Lemma vones_length n : length (vones n) = n. Proof. apply repeat_length. Qed.
Lemma vconst_length n q : length (vconst n q) = n. Proof. apply repeat_length. Qed.
Lemma vadd_length u v : length (vadd u v) = Nat.min (length u) (length v). Proof. apply map2_length. Qed.
Lemma vsub_length u v : length (vsub u v) = Nat.min (length u) (length v). Proof. apply map2_length. Qed.
Lemma vmul_length u v : length (vmul u v) = Nat.min (length u) (length v). Proof. apply map2_length. Qed.
Lemma vscale_length c u : length (vscale c u) = length u. Proof. apply map_length. Qed.
Lemma vneg_length u : length (vneg u) = length u. Proof. apply map_length. Qed.
Lemma unit_length n i : length (unit n i) = n. Proof. unfold unit. rewrite map_length, seq_length. reflexivity. Qed.

Lemma map2_length_eq {A B C} (f : A -> B -> C) n u v : length u = n -> length v = n -> length (map2 f u v) = n.
Proof. intros; rewrite map2_length; lia. Qed.

Lemma nthq_vadd u v i : (i < length u)%nat -> (i < length v)%nat -> nthq (vadd u v) i = nthq u i + nthq v i.
Proof. apply nthq_map2. Qed.
Lemma nthq_vsub u v i : (i < length u)%nat -> (i < length v)%nat -> nthq (vsub u v) i = nthq u i - nthq v i.
Proof. apply nthq_map2. Qed.
Lemma nthq_vmul u v i : (i < length u)%nat -> (i < length v)%nat -> nthq (vmul u v) i = nthq u i * nthq v i.
Proof. apply nthq_map2. Qed.
Lemma nthq_vscale c u i : (i < length u)%nat -> nthq (vscale c u) i = c * nthq u i.
Proof. apply nthq_map. Qed.
Lemma nthq_vneg u i : (i < length u)%nat -> nthq (vneg u) i = - nthq u i.
Proof. apply nthq_map. Qed.
Lemma nthq_vzero n i : nthq (vzero n) i = 0.
Proof.
  destruct (Nat.lt_ge_cases i n) as [H|H].
  - apply nthq_repeat; exact H.
  - apply nthq_overflow. rewrite vzero_length. exact H.
Qed.
Lemma nthq_vones n i : (i < n)%nat -> nthq (vones n) i = 1.
Proof. apply nthq_repeat. Qed.
Lemma nthq_vconst n q i : (i < n)%nat -> nthq (vconst n q) i = q.
Proof. apply nthq_repeat. Qed.
Lemma nthq_unit n i j : (j < n)%nat -> nthq (unit n i) j = if Nat.eqb i j then 1 else 0.
Proof. intros H. unfold unit. rewrite nthq_seq_map by exact H. reflexivity. Qed.

Lemma vsum_length n l : Forall (fun v => length v = n) l -> length (vsum n l) = n.
Proof.
  induction 1 as [|v l Hv Hl IH]; simpl; [apply vzero_length|]. apply map2_length_eq; auto.
Qed.

Lemma vadd_comm u v : vadd u v =v vadd v u.
Proof. revert v; induction u as [|a u IH]; intros [|b v]; simpl; constructor; [apply Qplus_comm | apply IH]. Qed.
Lemma vadd_assoc u v w : vadd (vadd u v) w =v vadd u (vadd v w).
Proof. revert v w; induction u as [|a u IH]; intros [|b v] [|c w]; simpl; constructor; [ring | apply IH]. Qed.
Lemma vadd_vzero_r n u : length u = n -> vadd u (vzero n) =v u.
Proof. intros <-. induction u as [|a u IH]; simpl; constructor; [ring | exact IH]. Qed.
Lemma vadd_vzero_l n u : length u = n -> vadd (vzero n) u =v u.
Proof. intros H. rewrite vadd_comm. apply vadd_vzero_r; exact H. Qed.
Lemma vscale_vadd c u v : vscale c (vadd u v) =v vadd (vscale c u) (vscale c v).
Proof. revert v; induction u as [|a u IH]; intros [|b v]; simpl; constructor; [ring | apply IH]. Qed.
Lemma vscale_vscale c d u : vscale c (vscale d u) =v vscale (c * d) u.
Proof. induction u as [|a u IH]; simpl; constructor; [ring | exact IH]. Qed.
Lemma vscale_vzero c n : vscale c (vzero n) =v vzero n.
Proof. induction n as [|n IH]; simpl; constructor; [ring | exact IH]. Qed.
Lemma vscale_1 u : vscale 1 u =v u.
Proof. induction u as [|a u IH]; simpl; constructor; [ring | exact IH]. Qed.
Lemma vscale_0 u : vscale 0 u =v vzero (length u).
Proof. induction u as [|a u IH]; simpl; constructor; [ring | exact IH]. Qed.
Lemma vneg_vscale u : vneg u =v vscale (-(1)) u.
Proof. induction u as [|a u IH]; simpl; constructor; [ring | exact IH]. Qed.
Lemma vsub_vadd_vneg u v : vsub u v =v vadd u (vneg v).
Proof. revert v; induction u as [|a u IH]; intros [|b v]; simpl; constructor; [ring | apply IH]. Qed.
Lemma vscale_add_l c d u : vscale (c + d) u =v vadd (vscale c u) (vscale d u).
Proof. induction u as [|a u IH]; simpl; constructor; [ring | exact IH]. Qed.
Lemma vmul_vscale_r c u v : vmul u (vscale c v) =v vscale c (vmul u v).
Proof. revert v; induction u as [|a u IH]; intros [|b v]; simpl; constructor; [ring | apply IH]. Qed.
Lemma vmul_vadd_r u v w : length v = length w -> vmul u (vadd v w) =v vadd (vmul u v) (vmul u w).
Proof.
  revert v w; induction u as [|a u IH]; intros [|b v] [|c w] H; simpl in *; try discriminate; constructor; [ring | apply IH; lia].
Qed.
Lemma vconst_map (f : Q -> Q) n q : map f (vconst n q) = vconst n (f q).
Proof. apply map_repeat. Qed.
Lemma vscale_vconst c n q : vscale c (vconst n q) = vconst n (c * q).
Proof. apply vconst_map. Qed.
Lemma vscale_vones c n : vscale c (vones n) =v vconst n c.
Proof. change (vones n) with (vconst n 1). rewrite vscale_vconst. apply vconst_proper; [reflexivity | ring]. Qed.
Lemma vadd_vconst u q : vadd u (vconst (length u) q) =v map (fun a => a + q) u.
Proof. induction u as [|a u IH]; simpl; constructor; [reflexivity | exact IH]. Qed.
Lemma vsub_vconst u q : vsub u (vconst (length u) q) =v map (fun a => a - q) u.
Proof. induction u as [|a u IH]; simpl; constructor; [reflexivity | exact IH]. Qed.

Lemma dot_nil_l v : dot [] v = 0. Proof. reflexivity. Qed.
Lemma dot_nil_r u : dot u [] = 0. Proof. destruct u; reflexivity. Qed.
Lemma dot_cons a u b v : dot (a :: u) (b :: v) = a * b + dot u v. Proof. reflexivity. Qed.

Lemma dot_comm u v : dot u v == dot v u.
Proof.
  revert v; induction u as [|a u IH]; intros [|b v]; try reflexivity.
  rewrite !dot_cons, IH. ring.
Qed.

Lemma dot_vscale_l c u v : dot (vscale c u) v == c * dot u v.
Proof. unfold dot, vscale. revert v; induction u as [|a u IH]; intros [|b v]; simpl; try ring. rewrite IH. ring. Qed.
Lemma dot_vscale_r c u v : dot u (vscale c v) == c * dot u v.
Proof. rewrite dot_comm, dot_vscale_l, dot_comm. reflexivity. Qed.

Lemma dot_vadd_l u u' v : length u = length u' -> dot (vadd u u') v == dot u v + dot u' v.
Proof.
  unfold dot, vadd. revert u' v; induction u as [|a u IH]; intros [|a' u'] [|b v] H; simpl in *; try discriminate; try ring.
  rewrite IH by lia. ring.
Qed.
Lemma dot_vadd_r u v v' : length v = length v' -> dot u (vadd v v') == dot u v + dot u v'.
Proof. intros H. rewrite dot_comm, dot_vadd_l by exact H. rewrite (dot_comm v), (dot_comm v'). reflexivity. Qed.

Lemma dot_vneg_l u v : dot (vneg u) v == - dot u v.
Proof. rewrite vneg_vscale, dot_vscale_l. ring. Qed.
Lemma dot_vsub_l u u' v : length u = length u' -> dot (vsub u u') v == dot u v - dot u' v.
Proof. intros H. rewrite vsub_vadd_vneg, dot_vadd_l, dot_vneg_l by (rewrite vneg_length; exact H). ring. Qed.

Lemma dot_vzero_l n v : dot (vzero n) v == 0.
Proof. unfold dot, vzero. revert v; induction n as [|n IH]; intros [|b v]; simpl; try ring. rewrite IH. ring. Qed.
Lemma dot_vzero_r n u : dot u (vzero n) == 0.
Proof. rewrite dot_comm. apply dot_vzero_l. Qed.

Lemma dot_vconst_l u q : dot (vconst (length u) q) u == q * sumq u.
Proof. unfold dot, vconst. induction u as [|a u IH]; simpl; [ring|]. rewrite IH. ring. Qed.
Lemma dot_vones_l u : dot (vones (length u)) u == sumq u.
Proof. change (vones (length u)) with (vconst (length u) 1). rewrite dot_vconst_l. ring. Qed.
Lemma dot_vones_r u : dot u (vones (length u)) == sumq u.
Proof. rewrite dot_comm. apply dot_vones_l. Qed.

Lemma unit_S n i : unit (S n) (S i) = 0 :: unit n i.
Proof.
  unfold unit. simpl. f_equal. rewrite <- seq_shift, map_map. reflexivity.
Qed.
Lemma map_const_seq (q : Q) m k : map (fun _ : nat => q) (seq k m) = repeat q m.
Proof. revert k; induction m; intros; simpl; f_equal; auto. Qed.
Lemma unit_0 n : unit (S n) 0 = 1 :: vzero n.
Proof. unfold unit. simpl. f_equal. rewrite <- seq_shift, map_map. simpl. apply map_const_seq. Qed.

Lemma dot_unit_l n i x : (i < n)%nat -> length x = n -> dot (unit n i) x == nthq x i.
Proof.
  revert i x; induction n as [|n IH]; intros i x Hi Hx; [lia|].
  destruct x as [|b x]; simpl in Hx; [discriminate|].
  destruct i as [|i].
  - rewrite unit_0, dot_cons, dot_vzero_l. unfold nthq; simpl. ring.
  - rewrite unit_S, dot_cons, IH by lia. unfold nthq; simpl. ring.
Qed.

Definition wf_mat (r c : nat) (M : mat) : Prop := length M = r /\ Forall (fun row => length row = c) M.
Definition ncols (M : mat) : nat := match M with [] => 0 | r :: _ => length r end.
Definition dims (M : mat) : nat * nat := (length M, ncols M).
Definition mget (M : mat) (i j : nat) : Q := nthq (nth i M []) j.
Definition col (j : nat) (M : mat) : vec := map (fun r => nthq r j) M.

Definition mzero (r c : nat) : mat := repeat (vzero c) r.
Definition mconst (r c : nat) (q : Q) : mat := repeat (vconst c q) r.
Definition identity (n : nat) : mat := map (unit n) (seq 0 n).
Definition diag (d : vec) : mat := map (fun i => vscale (nthq d i) (unit (length d) i)) (seq 0 (length d)).
Definition madd (A B : mat) : mat := map2 vadd A B.
Definition msub (A B : mat) : mat := map2 vsub A B.
Definition mscale (c : Q) (A : mat) : mat := map (vscale c) A.
Definition mneg (A : mat) : mat := map vneg A.
Definition outer (x y : vec) : mat := map (fun xi => vscale xi y) x.
(** diag(d) * M and M * diag(d) *)
Definition row_scale (d : vec) (M : mat) : mat := map2 vscale d M.
Definition col_scale (M : mat) (d : vec) : mat := map (fun r => vmul r d) M.
Definition mat_vec (M : mat) (x : vec) : vec := map (fun r => dot r x) M.
(** [vec_mat p r B] = r^T B (a linear combination of the rows of B, which have length p) *)
Definition vec_mat (p : nat) (r : vec) (B : mat) : vec := vsum p (map2 vscale r B).
Definition mat_mul (p : nat) (A B : mat) : mat := map (fun ra => vec_mat p ra B) A.
Definition transpose_n (c : nat) (M : mat) : mat := map (fun j => col j M) (seq 0 c).
Definition transpose (M : mat) : mat := transpose_n (ncols M) M.
Definition mat_mul' (A B : mat) : mat := mat_mul (ncols B) A B.
Definition row_sums (M : mat) : vec := map sumq M.
Definition col_sums (c : nat) (M : mat) : vec := map (fun j => sumq (col j M)) (seq 0 c).
Definition total (M : mat) : Q := sumq (row_sums M).
Fixpoint mat_pow (n : nat) (A : mat) (k : nat) : mat :=
  match k with O => identity n | S k' => mat_mul n A (mat_pow n A k') end.
Definition msymmetric (n : nat) (A : mat) : Prop := forall i j, (i < n)%nat -> (j < n)%nat -> mget A i j == mget A j i.
(** block matrix [[A, B]; [C, D]] (A and B have the same number of rows, C and D too) *)
Definition block (A B C D : mat) : mat := map2 (@app Q) A B ++ map2 (@app Q) C D.

Lemma wf_mat_row r c M i : wf_mat r c M -> (i < r)%nat -> length (nth i M []) = c.
Proof.
  intros [HL HF] Hi. rewrite Forall_forall in HF. apply HF. apply nth_In. lia.
Qed.
Lemma wf_mat_length r c M : wf_mat r c M -> length M = r. Proof. intros [H _]; exact H. Qed.
Lemma wf_mat_rows r c M : wf_mat r c M -> Forall (fun row => length row = c) M. Proof. intros [_ H]; exact H. Qed.
Lemma wf_mat_cons r c a M : length a = c -> wf_mat r c M -> wf_mat (S r) c (a :: M).
Proof. intros Ha [HL HF]. split; simpl; auto. Qed.
Lemma wf_mat_inv r c a M : wf_mat r c (a :: M) -> length a = c /\ wf_mat (pred r) c M.
Proof. intros [HL HF]. inversion HF; subst. split; auto. split; simpl in *; auto. Qed.
Lemma wf_mat_nil c : wf_mat 0 c []. Proof. split; auto. Qed.

Lemma wf_mat_meq r c A B : A =m B -> wf_mat r c A -> wf_mat r c B.
Proof.
  intros H [HL HF]. split; [rewrite <- (meq_length _ _ H); exact HL|].
  clear HL. induction H as [|a b A B Hab HAB IH]; constructor; inversion HF; subst.
  - rewrite <- (veq_length _ _ Hab). reflexivity.
  - apply IH; assumption.
Qed.

Lemma wf_map_seq r c (f : nat -> vec) : (forall i, (i < r)%nat -> length (f i) = c) -> wf_mat r c (map f (seq 0 r)).
Proof.
  intros H. split; [rewrite map_length, seq_length; reflexivity|].
  rewrite Forall_forall. intros x Hx. rewrite in_map_iff in Hx. destruct Hx as [i [<- Hi]].
  apply in_seq in Hi. apply H. lia.
Qed.

Lemma wf_map r c c' (f : vec -> vec) M : (forall row, length row = c -> length (f row) = c') -> wf_mat r c M -> wf_mat r c' (map f M).
Proof.
  intros Hf [HL HF]. split; [rewrite map_length; exact HL|].
  rewrite Forall_forall in *. intros x Hx. rewrite in_map_iff in Hx. destruct Hx as [row [<- Hr]]. auto.
Qed.

Lemma wf_map2 r c1 c2 c (f : vec -> vec -> vec) A B :
  (forall a b, length a = c1 -> length b = c2 -> length (f a b) = c) -> wf_mat r c1 A -> wf_mat r c2 B -> wf_mat r c (map2 f A B).
Proof.
  intros Hf [HA FA] [HB FB]. split; [rewrite map2_length; lia|]. clear HA HB.
  revert B FB; induction FA as [|a A Ha FA IH]; intros [|b B] FB; simpl; constructor; inversion FB; subst; auto.
Qed.
Lemma wf_mat_app r1 r2 c A B : wf_mat r1 c A -> wf_mat r2 c B -> wf_mat (r1 + r2) c (A ++ B).
Proof. intros [HA FA] [HB FB]. split; [rewrite app_length; lia | apply Forall_app; split; assumption]. Qed.
Lemma wf_repeat r c v : length v = c -> wf_mat r c (repeat v r).
Proof. intros H. split; [apply repeat_length|]. rewrite Forall_forall. intros x Hx. rewrite (repeat_spec _ _ _ Hx). exact H. Qed.

Lemma mzero_wf r c : wf_mat r c (mzero r c).
Proof. apply wf_repeat, vzero_length. Qed.
Lemma mconst_wf r c q : wf_mat r c (mconst r c q).
Proof. apply wf_repeat, vconst_length. Qed.
Lemma identity_wf n : wf_mat n n (identity n).
Proof. apply wf_map_seq. intros; apply unit_length. Qed.
Lemma diag_wf d : wf_mat (length d) (length d) (diag d).
Proof. apply wf_map_seq. intros. rewrite vscale_length. apply unit_length. Qed.
Lemma madd_wf r c A B : wf_mat r c A -> wf_mat r c B -> wf_mat r c (madd A B).
Proof. apply wf_map2. apply map2_length_eq. Qed.
Lemma msub_wf r c A B : wf_mat r c A -> wf_mat r c B -> wf_mat r c (msub A B).
Proof. apply wf_map2. apply map2_length_eq. Qed.
Lemma mscale_wf r c q A : wf_mat r c A -> wf_mat r c (mscale q A).
Proof. apply wf_map. intros; rewrite vscale_length; assumption. Qed.
Lemma mneg_wf r c A : wf_mat r c A -> wf_mat r c (mneg A).
Proof. apply wf_map. intros; rewrite vneg_length; assumption. Qed.
Lemma outer_wf x y : wf_mat (length x) (length y) (outer x y).
Proof.
  split; [apply map_length|]. rewrite Forall_forall. intros r Hr. apply in_map_iff in Hr.
  destruct Hr as [xi [<- _]]. apply vscale_length.
Qed.
Lemma row_scale_wf r c d M : length d = r -> wf_mat r c M -> wf_mat r c (row_scale d M).
Proof.
  intros Hd [HL HF]. split; [unfold row_scale; rewrite map2_length; lia|]. clear HL Hd r.
  revert d; induction HF as [|a M Ha HF IH]; intros [|q d]; simpl; constructor; auto. rewrite vscale_length; exact Ha.
Qed.
Lemma col_scale_wf r c d M : length d = c -> wf_mat r c M -> wf_mat r c (col_scale M d).
Proof. intros Hd. apply wf_map. intros; apply map2_length_eq; assumption. Qed.
Lemma mat_vec_length M x : length (mat_vec M x) = length M. Proof. apply map_length. Qed.
Lemma transpose_n_wf r c M : length M = r -> wf_mat c r (transpose_n c M).
Proof. intros H. apply wf_map_seq. intros. unfold col. rewrite map_length. exact H. Qed.
Lemma vec_mat_length p r B : Forall (fun row => length row = p) B -> length (vec_mat p r B) = p.
Proof.
  intros HF. unfold vec_mat. apply vsum_length. revert r; induction HF as [|a B Ha HF IH]; intros [|q r]; simpl; constructor; auto.
  rewrite vscale_length; exact Ha.
Qed.
Lemma mat_mul_wf r q p A B : wf_mat r q A -> wf_mat q p B -> wf_mat r p (mat_mul p A B).
Proof.
  intros [HA FA] [HB FB]. split; [unfold mat_mul; rewrite map_length; exact HA|].
  rewrite Forall_forall. intros x Hx. apply in_map_iff in Hx. destruct Hx as [ra [<- _]]. apply vec_mat_length; exact FB.
Qed.
Lemma mat_pow_wf n A k : wf_mat n n A -> wf_mat n n (mat_pow n A k).
Proof. intros H. induction k as [|k IH]; simpl; [apply identity_wf | eapply mat_mul_wf; eauto]. Qed.
Lemma row_sums_length M : length (row_sums M) = length M. Proof. apply map_length. Qed.
Lemma col_sums_length c M : length (col_sums c M) = c. Proof. unfold col_sums. rewrite map_length, seq_length. reflexivity. Qed.
Lemma col_length j M : length (col j M) = length M. Proof. apply map_length. Qed.

Lemma block_wf r1 r2 c1 c2 A B C D :
  wf_mat r1 c1 A -> wf_mat r1 c2 B -> wf_mat r2 c1 C -> wf_mat r2 c2 D -> wf_mat (r1 + r2)%nat (c1 + c2)%nat (block A B C D).
Proof.
  intros WA WB WC WD. apply wf_mat_app; apply (wf_map2 _ c1 c2); auto; intros a b <- <-; apply app_length.
Qed.
Lemma diag_row_sums_wf r c M : wf_mat r c M -> wf_mat r r (diag (row_sums M)).
Proof. intros [<- _]. rewrite <- (row_sums_length M). apply diag_wf. Qed.
Lemma outer_wf' r c x y : length x = r -> length y = c -> wf_mat r c (outer x y).
Proof. intros <- <-. apply outer_wf. Qed.

(** [eauto with wf] finds the shape of a matrix expression. *)
Create HintDb wf.
Global Hint Resolve mzero_wf mconst_wf identity_wf madd_wf msub_wf mscale_wf mneg_wf mat_mul_wf
  row_scale_wf col_scale_wf outer_wf' diag_row_sums_wf wf_mat_rows : wf.

Lemma meq_mget r c A B :
  wf_mat r c A -> wf_mat r c B -> (forall i j, (i < r)%nat -> (j < c)%nat -> mget A i j == mget B i j) -> A =m B.
Proof.
  intros WA WB H. apply meq_nth; [rewrite (wf_mat_length _ _ _ WA), (wf_mat_length _ _ _ WB); reflexivity|].
  intros i Hi. rewrite (wf_mat_length _ _ _ WA) in Hi. apply veq_nth.
  - rewrite (wf_mat_row _ _ _ _ WA Hi), (wf_mat_row _ _ _ _ WB Hi). reflexivity.
  - intros j Hj. rewrite (wf_mat_row _ _ _ _ WA Hi) in Hj. apply H; assumption.
Qed.

Global Instance mget_proper : Proper (meq ==> eq ==> eq ==> Qeq) mget.
Proof. intros A B H i i' <- j j' <-. unfold mget. apply veq_nthq. apply meq_nth_row; exact H. Qed.

Lemma nth_map2_mat (f : vec -> vec -> vec) A B i : (i < length A)%nat -> (i < length B)%nat ->
  nth i (map2 f A B) [] = f (nth i A []) (nth i B []).
Proof. intros; apply nth_map2; assumption. Qed.

Lemma mget_madd r c A B i j : wf_mat r c A -> wf_mat r c B -> (i < r)%nat -> (j < c)%nat -> mget (madd A B) i j = mget A i j + mget B i j.
Proof.
  intros WA WB Hi Hj. unfold mget, madd. rewrite nth_map2_mat by (rewrite ?(wf_mat_length _ _ _ WA), ?(wf_mat_length _ _ _ WB); exact Hi).
  apply nthq_vadd; rewrite ?(wf_mat_row _ _ _ _ WA Hi), ?(wf_mat_row _ _ _ _ WB Hi); exact Hj.
Qed.
Lemma mget_msub r c A B i j : wf_mat r c A -> wf_mat r c B -> (i < r)%nat -> (j < c)%nat -> mget (msub A B) i j = mget A i j - mget B i j.
Proof.
  intros WA WB Hi Hj. unfold mget, msub. rewrite nth_map2_mat by (rewrite ?(wf_mat_length _ _ _ WA), ?(wf_mat_length _ _ _ WB); exact Hi).
  apply nthq_vsub; rewrite ?(wf_mat_row _ _ _ _ WA Hi), ?(wf_mat_row _ _ _ _ WB Hi); exact Hj.
Qed.
Lemma mget_mscale r c q A i j : wf_mat r c A -> (i < r)%nat -> (j < c)%nat -> mget (mscale q A) i j = q * mget A i j.
Proof.
  intros WA Hi Hj. unfold mget, mscale. rewrite (nth_map_gen (vscale q) A [] []) by (rewrite (wf_mat_length _ _ _ WA); exact Hi).
  apply nthq_vscale. rewrite (wf_mat_row _ _ _ _ WA Hi); exact Hj.
Qed.
Lemma mget_mneg r c A i j : wf_mat r c A -> (i < r)%nat -> (j < c)%nat -> mget (mneg A) i j = - mget A i j.
Proof.
  intros WA Hi Hj. unfold mget, mneg. rewrite (nth_map_gen vneg A [] []) by (rewrite (wf_mat_length _ _ _ WA); exact Hi).
  apply nthq_vneg. rewrite (wf_mat_row _ _ _ _ WA Hi); exact Hj.
Qed.
Lemma mget_outer x y i j : (i < length x)%nat -> (j < length y)%nat -> mget (outer x y) i j = nthq x i * nthq y j.
Proof.
  intros Hi Hj. unfold mget, outer. rewrite (nth_map_gen (fun xi => vscale xi y) x 0 []) by exact Hi.
  rewrite nthq_vscale by exact Hj. reflexivity.
Qed.
Lemma mget_identity n i j : (i < n)%nat -> (j < n)%nat -> mget (identity n) i j = if Nat.eqb i j then 1 else 0.
Proof. intros Hi Hj. unfold mget, identity. rewrite nth_seq_map by exact Hi. apply nthq_unit; exact Hj. Qed.
Lemma mget_diag d i j : (i < length d)%nat -> (j < length d)%nat -> mget (diag d) i j == if Nat.eqb i j then nthq d i else 0.
Proof.
  intros Hi Hj. unfold mget, diag. rewrite nth_seq_map by exact Hi. rewrite nthq_vscale by (rewrite unit_length; exact Hj).
  rewrite nthq_unit by exact Hj. destruct (Nat.eqb i j); ring.
Qed.
Lemma mget_mconst r c q i j : (i < r)%nat -> (j < c)%nat -> mget (mconst r c q) i j = q.
Proof.
  intros Hi Hj. unfold mget, mconst. rewrite nth_repeat_lt by exact Hi. apply nthq_vconst; exact Hj.
Qed.
Lemma mget_mzero r c i j : mget (mzero r c) i j = 0.
Proof.
  unfold mget, mzero. destruct (Nat.lt_ge_cases i r) as [Hi|Hi].
  - rewrite nth_repeat_lt by exact Hi. apply nthq_vzero.
  - rewrite nth_overflow by (rewrite repeat_length; exact Hi). destruct j; reflexivity.
Qed.
Lemma mget_row_scale r c d M i j : length d = r -> wf_mat r c M -> (i < r)%nat -> (j < c)%nat -> mget (row_scale d M) i j = nthq d i * mget M i j.
Proof.
  intros Hd WM Hi Hj. unfold mget, row_scale.
  rewrite (nth_map2 vscale d M i 0 [] []) by (rewrite ?(wf_mat_length _ _ _ WM); lia).
  apply nthq_vscale. rewrite (wf_mat_row _ _ _ _ WM Hi); exact Hj.
Qed.
Lemma mget_col_scale r c d M i j : length d = c -> wf_mat r c M -> (i < r)%nat -> (j < c)%nat -> mget (col_scale M d) i j = mget M i j * nthq d j.
Proof.
  intros Hd WM Hi Hj. unfold mget, col_scale.
  rewrite (nth_map_gen (fun r => vmul r d) M [] []) by (rewrite (wf_mat_length _ _ _ WM); exact Hi).
  apply nthq_vmul; rewrite ?(wf_mat_row _ _ _ _ WM Hi); lia.
Qed.
Lemma nthq_col j M i : (i < length M)%nat -> nthq (col j M) i = mget M i j.
Proof. intros Hi. unfold col, mget. rewrite (nthq_map_gen (fun r => nthq r j) M []) by exact Hi. reflexivity. Qed.
Lemma mget_transpose_n c M i j : (j < c)%nat -> (i < length M)%nat -> mget (transpose_n c M) j i = mget M i j.
Proof.
  intros Hj Hi. unfold transpose_n. unfold mget at 1. rewrite nth_seq_map by exact Hj. apply nthq_col; exact Hi.
Qed.
Lemma nth_transpose_n c M j : (j < c)%nat -> nth j (transpose_n c M) [] = col j M.
Proof. intros Hj. unfold transpose_n. apply (nth_seq_map (fun j => col j M)); exact Hj. Qed.

Lemma mget_block_11 A B C D i j : (i < length A)%nat -> (i < length B)%nat -> (j < length (nth i A []))%nat ->
  mget (block A B C D) i j = mget A i j.
Proof.
  intros HA HB Hj. unfold mget, block. rewrite app_nth1 by (rewrite map2_length; lia).
  rewrite (nth_map2 (@app Q) A B i [] [] []) by assumption. unfold nthq. apply app_nth1; exact Hj.
Qed.
Lemma mget_block_12 A B C D i j c1 : (i < length A)%nat -> (i < length B)%nat -> length (nth i A []) = c1 ->
  mget (block A B C D) i (c1 + j)%nat = mget B i j.
Proof.
  intros HA HB Hc. unfold mget, block. rewrite app_nth1 by (rewrite map2_length; lia).
  rewrite (nth_map2 (@app Q) A B i [] [] []) by assumption. unfold nthq. rewrite app_nth2 by lia. f_equal. lia.
Qed.
Lemma mget_block_21 A B C D i j r1 : length A = r1 -> length B = r1 -> (i < length C)%nat -> (i < length D)%nat -> (j < length (nth i C []))%nat ->
  mget (block A B C D) (r1 + i)%nat j = mget C i j.
Proof.
  intros HA HB HC HD Hj. unfold mget, block. rewrite app_nth2 by (rewrite map2_length; lia).
  rewrite map2_length, HA, HB, Nat.min_id. replace (r1 + i - r1)%nat with i by lia.
  rewrite (nth_map2 (@app Q) C D i [] [] []) by assumption. unfold nthq. apply app_nth1; exact Hj.
Qed.
Lemma mget_block_22 A B C D i j r1 c1 : length A = r1 -> length B = r1 -> (i < length C)%nat -> (i < length D)%nat -> length (nth i C []) = c1 ->
  mget (block A B C D) (r1 + i)%nat (c1 + j)%nat = mget D i j.
Proof.
  intros HA HB HC HD Hc. unfold mget, block. rewrite app_nth2 by (rewrite map2_length; lia).
  rewrite map2_length, HA, HB, Nat.min_id. replace (r1 + i - r1)%nat with i by lia.
  rewrite (nth_map2 (@app Q) C D i [] [] []) by assumption. unfold nthq. rewrite app_nth2 by lia. f_equal. lia.
Qed.

Global Instance madd_proper : Proper (meq ==> meq ==> meq) madd.
Proof. intros A A' HA B B' HB. eapply Forall2_map2; [apply vadd_proper | exact HA | exact HB]. Qed.
Global Instance msub_proper : Proper (meq ==> meq ==> meq) msub.
Proof. intros A A' HA B B' HB. eapply Forall2_map2; [apply vsub_proper | exact HA | exact HB]. Qed.
Global Instance mscale_proper : Proper (Qeq ==> meq ==> meq) mscale.
Proof. intros c c' E A A' H. eapply Forall2_map; [apply vscale_proper; exact E | exact H]. Qed.
Global Instance mneg_proper : Proper (meq ==> meq) mneg.
Proof. intros A A' H. eapply Forall2_map; [apply vneg_proper | exact H]. Qed.
Global Instance outer_proper : Proper (veq ==> veq ==> meq) outer.
Proof. intros x x' H y y' H'. eapply Forall2_map; [|exact H]. intros a b E. apply vscale_proper; assumption. Qed.
Global Instance mat_vec_proper : Proper (meq ==> veq ==> veq) mat_vec.
Proof. intros A A' H x x' Hx. eapply Forall2_map; [|exact H]. intros a b E. apply dot_proper; assumption. Qed.
Global Instance row_scale_proper : Proper (veq ==> meq ==> meq) row_scale.
Proof. intros d d' Hd B B' HB. eapply Forall2_map2; [apply vscale_proper | exact Hd | exact HB]. Qed.
Global Instance col_scale_proper : Proper (meq ==> veq ==> meq) col_scale.
Proof. intros A A' H d d' Hd. eapply Forall2_map; [|exact H]. intros a b E. apply vmul_proper; assumption. Qed.
Global Instance col_proper : Proper (eq ==> meq ==> veq) col.
Proof. intros j j' <- A A' H. eapply Forall2_map; [|exact H]. intros a b E. apply veq_nthq; exact E. Qed.
Global Instance transpose_n_proper : Proper (eq ==> meq ==> meq) transpose_n.
Proof.
  intros c c' <- A A' H. unfold transpose_n. apply map_ext_meq. intros j _. apply col_proper; auto.
Qed.
Global Instance vsum_proper : Proper (eq ==> meq ==> veq) vsum.
Proof. intros n n' <- A A' H. induction H; simpl; [reflexivity|]. apply vadd_proper; auto. Qed.
Global Instance vec_mat_proper : Proper (eq ==> veq ==> meq ==> veq) vec_mat.
Proof. intros p p' <- r r' Hr B B' HB. unfold vec_mat. apply vsum_proper; auto. apply row_scale_proper; auto. Qed.
Global Instance mat_mul_proper : Proper (eq ==> meq ==> meq ==> meq) mat_mul.
Proof. intros p p' <- A A' HA B B' HB. eapply Forall2_map; [|exact HA]. intros a b E. apply vec_mat_proper; auto. Qed.
Global Instance row_sums_proper : Proper (meq ==> veq) row_sums.
Proof. intros A A' H. eapply Forall2_map; [apply sumq_proper | exact H]. Qed.
Global Instance col_sums_proper : Proper (eq ==> meq ==> veq) col_sums.
Proof. intros c c' <- A A' H. unfold col_sums. apply map_ext_veq. intros j _. apply sumq_proper. apply col_proper; auto. Qed.
Global Instance total_proper : Proper (meq ==> Qeq) total.
Proof. intros A A' H. unfold total. rewrite H. reflexivity. Qed.
Global Instance diag_proper : Proper (veq ==> meq) diag.
Proof.
  intros d d' H. unfold diag. rewrite (veq_length _ _ H). apply map_ext_meq. intros i _. rewrite H. reflexivity.
Qed.
Global Instance block_proper : Proper (meq ==> meq ==> meq ==> meq ==> meq) block.
Proof.
  intros A A' HA B B' HB C C' HC D D' HD. apply Forall2_app; eapply Forall2_map2; try eassumption; apply app_veq_proper.
Qed.
Global Instance mconst_proper : Proper (eq ==> eq ==> Qeq ==> meq) mconst.
Proof. intros r r' <- c c' <- q q' E. apply Forall2_repeat, vconst_proper; auto. Qed.

Lemma nthq_mat_vec M x i : (i < length M)%nat -> nthq (mat_vec M x) i = dot (nth i M []) x.
Proof. intros Hi. unfold mat_vec. rewrite (nthq_map_gen (fun r => dot r x) M []) by exact Hi. reflexivity. Qed.

Lemma mat_vec_vadd M x y : length x = length y -> mat_vec M (vadd x y) =v vadd (mat_vec M x) (mat_vec M y).
Proof.
  intros H. induction M as [|r M IH]; simpl; [constructor|]. constructor; [|exact IH]. apply dot_vadd_r; exact H.
Qed.
Lemma mat_vec_vscale M c x : mat_vec M (vscale c x) =v vscale c (mat_vec M x).
Proof. induction M as [|r M IH]; simpl; constructor; auto. apply dot_vscale_r. Qed.
Lemma mat_vec_vzero M n : mat_vec M (vzero n) =v vzero (length M).
Proof. induction M as [|r M IH]; simpl; constructor; auto. apply dot_vzero_r. Qed.
Lemma mat_vec_madd r c A B x : wf_mat r c A -> wf_mat r c B -> mat_vec (madd A B) x =v vadd (mat_vec A x) (mat_vec B x).
Proof.
  intros [HA FA] [HB FB]. clear HA HB. revert B FB; induction FA as [|a A Ha FA IH]; intros [|b B] FB; simpl; try constructor.
  - inversion FB; subst. apply dot_vadd_l. lia.
  - inversion FB; subst. apply IH; assumption.
Qed.
Lemma mat_vec_mscale c A x : mat_vec (mscale c A) x =v vscale c (mat_vec A x).
Proof. induction A as [|a A IH]; simpl; constructor; auto. apply dot_vscale_l. Qed.
Lemma mat_vec_mneg A x : mat_vec (mneg A) x =v vneg (mat_vec A x).
Proof. induction A as [|a A IH]; simpl; constructor; auto. apply dot_vneg_l. Qed.
Lemma msub_madd_mneg A B : msub A B =m madd A (mneg B).
Proof. revert B; induction A as [|a A IH]; intros [|b B]; simpl; constructor; [apply vsub_vadd_vneg | apply IH]. Qed.
Lemma mat_vec_msub r c A B x : wf_mat r c A -> wf_mat r c B -> mat_vec (msub A B) x =v vsub (mat_vec A x) (mat_vec B x).
Proof.
  intros WA WB. rewrite msub_madd_mneg, (mat_vec_madd r c), mat_vec_mneg, <- vsub_vadd_vneg by auto with wf. reflexivity.
Qed.
Lemma mat_vec_outer x y v : mat_vec (outer x y) v =v vscale (dot y v) x.
Proof. induction x as [|a x IH]; simpl; constructor; auto. rewrite dot_vscale_l. ring. Qed.
Lemma mat_vec_row_scale d M x : mat_vec (row_scale d M) x =v vmul d (mat_vec M x).
Proof.
  revert M; induction d as [|q d IH]; intros [|r M]; simpl; try constructor; [apply dot_vscale_l | apply IH].
Qed.
Lemma dot_vmul_l r d x : dot (vmul r d) x == dot r (vmul d x).
Proof. unfold dot, vmul. revert d x; induction r as [|a r IH]; intros [|b d] [|c x]; simpl; try ring. rewrite IH. ring. Qed.
Lemma mat_vec_col_scale M d x : mat_vec (col_scale M d) x =v mat_vec M (vmul d x).
Proof. induction M as [|r M IH]; simpl; constructor; auto. apply dot_vmul_l. Qed.
Lemma mat_vec_identity n x : length x = n -> mat_vec (identity n) x =v x.
Proof.
  intros H. apply veq_nth; [rewrite mat_vec_length; unfold identity; rewrite map_length, seq_length; lia|].
  intros i Hi. rewrite mat_vec_length in Hi. unfold identity in *. rewrite map_length, seq_length in Hi.
  rewrite nthq_mat_vec by (rewrite map_length, seq_length; exact Hi). rewrite nth_seq_map by exact Hi.
  apply dot_unit_l; assumption.
Qed.
Lemma mat_vec_diag d x : length x = length d -> mat_vec (diag d) x =v vmul d x.
Proof.
  intros H. apply veq_nth; [rewrite mat_vec_length, vmul_length; unfold diag; rewrite map_length, seq_length; lia|].
  intros i Hi. rewrite mat_vec_length in Hi. unfold diag in *. rewrite map_length, seq_length in Hi.
  rewrite nthq_mat_vec by (rewrite map_length, seq_length; exact Hi). rewrite nth_seq_map by exact Hi.
  rewrite dot_vscale_l, dot_unit_l by lia. rewrite nthq_vmul by lia. reflexivity.
Qed.
Lemma mat_vec_mconst r c q x : length x = c -> mat_vec (mconst r c q) x =v vconst r (q * sumq x).
Proof.
  intros H. unfold mconst, vconst. induction r as [|r IH]; simpl; constructor; auto. subst c. apply dot_vconst_l.
Qed.
Lemma mat_vec_mzero r c x : mat_vec (mzero r c) x =v vzero r.
Proof. unfold mzero, vzero. induction r as [|r IH]; simpl; constructor; auto. apply dot_vzero_l. Qed.
Lemma mat_vec_vones r c M : wf_mat r c M -> mat_vec M (vones c) =v row_sums M.
Proof.
  intros [_ HF]. induction HF as [|a M Ha HF IH]; simpl; constructor; auto. subst c. apply dot_vones_r.
Qed.
Lemma mat_vec_transpose_vones c M : mat_vec (transpose_n c M) (vones (length M)) =v col_sums c M.
Proof.
  unfold transpose_n, col_sums, mat_vec. rewrite map_map. apply map_ext_veq. intros j _.
  rewrite <- (col_length j M). apply dot_vones_r.
Qed.

Lemma vec_mat_nil_l p B : vec_mat p [] B = vzero p. Proof. reflexivity. Qed.
Lemma vec_mat_nil_r p r : vec_mat p r [] = vzero p. Proof. destruct r; reflexivity. Qed.
Lemma vec_mat_cons p a r b B : vec_mat p (a :: r) (b :: B) = vadd (vscale a b) (vec_mat p r B). Proof. reflexivity. Qed.

Lemma nthq_vec_mat p r B j : Forall (fun row => length row = p) B -> (j < p)%nat -> nthq (vec_mat p r B) j == dot r (col j B).
Proof.
  intros HF Hj. revert r; induction HF as [|b B Hb HF IH]; intros r.
  - rewrite vec_mat_nil_r, nthq_vzero. simpl. rewrite dot_nil_r. reflexivity.
  - destruct r as [|a r]; [rewrite vec_mat_nil_l, nthq_vzero; reflexivity|].
    rewrite vec_mat_cons. rewrite nthq_vadd by (rewrite ?vscale_length, ?vec_mat_length; auto; lia).
    rewrite nthq_vscale by lia. rewrite IH. simpl. rewrite dot_cons. reflexivity.
Qed.

Lemma mget_mat_mul r q p A B i j : wf_mat r q A -> wf_mat q p B -> (i < r)%nat -> (j < p)%nat ->
  mget (mat_mul p A B) i j == dot (nth i A []) (col j B).
Proof.
  intros WA WB Hi Hj. unfold mget, mat_mul.
  rewrite (nth_map_gen (fun ra => vec_mat p ra B) A [] []) by (rewrite (wf_mat_length _ _ _ WA); exact Hi).
  apply nthq_vec_mat; [apply (wf_mat_rows _ _ _ WB) | exact Hj].
Qed.

Lemma dot_vec_mat p r B x : Forall (fun row => length row = p) B -> dot (vec_mat p r B) x == dot r (mat_vec B x).
Proof.
  intros HF. revert r; induction HF as [|b B Hb HF IH]; intros r.
  - rewrite vec_mat_nil_r. simpl. rewrite dot_nil_r. apply dot_vzero_l.
  - destruct r as [|a r]; [rewrite vec_mat_nil_l; apply dot_vzero_l|].
    rewrite vec_mat_cons. rewrite dot_vadd_l by (rewrite vscale_length, vec_mat_length; auto).
    rewrite dot_vscale_l, IH. simpl. rewrite dot_cons. reflexivity.
Qed.

Lemma mat_vec_mat_mul p A B x : Forall (fun row => length row = p) B -> mat_vec (mat_mul p A B) x =v mat_vec A (mat_vec B x).
Proof. intros HF. induction A as [|a A IH]; simpl; constructor; auto. apply dot_vec_mat; exact HF. Qed.

Lemma vec_mat_transpose r c M x : wf_mat r c M -> vec_mat c x M =v mat_vec (transpose_n c M) x.
Proof.
  intros WM. apply veq_nth.
  - rewrite vec_mat_length by apply (wf_mat_rows _ _ _ WM). rewrite mat_vec_length. unfold transpose_n. rewrite map_length, seq_length. reflexivity.
  - intros j Hj. rewrite vec_mat_length in Hj by apply (wf_mat_rows _ _ _ WM).
    rewrite nthq_vec_mat by (auto; apply (wf_mat_rows _ _ _ WM)).
    rewrite nthq_mat_vec by (unfold transpose_n; rewrite map_length, seq_length; exact Hj).
    rewrite nth_transpose_n by exact Hj. apply dot_comm.
Qed.

Lemma dot_mat_vec_transpose r c M x y : wf_mat r c M -> dot y (mat_vec M x) == dot (mat_vec (transpose_n c M) y) x.
Proof. intros WM. rewrite <- (vec_mat_transpose r c M y WM). symmetry. apply dot_vec_mat. apply (wf_mat_rows _ _ _ WM). Qed.

(** a row vector times B is B^T times the vector: linearity on the left follows from that of [mat_vec] *)
Lemma vec_mat_vadd_l p u v B : length u = length v -> Forall (fun row => length row = p) B ->
  vec_mat p (vadd u v) B =v vadd (vec_mat p u B) (vec_mat p v B).
Proof. intros H HF. erewrite !vec_mat_transpose by (split; auto). apply mat_vec_vadd; exact H. Qed.
Lemma vec_mat_vscale_l p c u B : Forall (fun row => length row = p) B -> vec_mat p (vscale c u) B =v vscale c (vec_mat p u B).
Proof. intros HF. erewrite !vec_mat_transpose by (split; auto). apply mat_vec_vscale. Qed.
Lemma vec_mat_vzero_l p n B : Forall (fun row => length row = p) B -> vec_mat p (vzero n) B =v vzero p.
Proof.
  intros HF. erewrite vec_mat_transpose, mat_vec_vzero by (split; auto).
  unfold transpose_n. rewrite map_length, seq_length. reflexivity.
Qed.
Lemma vec_mat_unit q p i B : wf_mat q p B -> (i < q)%nat -> vec_mat p (unit q i) B =v nth i B [].
Proof.
  intros WB Hi. apply veq_nth; [rewrite vec_mat_length, (wf_mat_row _ _ _ _ WB Hi); auto; apply (wf_mat_rows _ _ _ WB)|].
  intros j Hj. rewrite vec_mat_length in Hj by apply (wf_mat_rows _ _ _ WB).
  rewrite nthq_vec_mat by (auto; apply (wf_mat_rows _ _ _ WB)).
  rewrite dot_unit_l by (rewrite ?col_length, ?(wf_mat_length _ _ _ WB); auto).
  rewrite nthq_col by (rewrite (wf_mat_length _ _ _ WB); exact Hi). reflexivity.
Qed.

Lemma mat_mul_mscale_l p c A B : Forall (fun row => length row = p) B -> mat_mul p (mscale c A) B =m mscale c (mat_mul p A B).
Proof. intros HF. induction A as [|a A IH]; simpl; constructor; auto. apply vec_mat_vscale_l; exact HF. Qed.
Lemma mat_mul_outer_l (c p : nat) x y B : wf_mat c p B -> length y = c ->
  mat_mul p (outer x y) B =m outer x (vec_mat p y B).
Proof.
  intros WB Hy. induction x as [|a x IH]; simpl; constructor; auto. apply vec_mat_vscale_l. apply (wf_mat_rows _ _ _ WB).
Qed.
Lemma mat_mul_row_scale_l p d A B : Forall (fun row => length row = p) B -> mat_mul p (row_scale d A) B =m row_scale d (mat_mul p A B).
Proof.
  intros HF. revert A; induction d as [|q d IH]; intros [|a A]; simpl; try constructor; [apply vec_mat_vscale_l; exact HF | apply IH].
Qed.

(** two matrices that act alike on every vector are equal: matrix identities follow from those of [mat_vec] *)
Lemma meq_mat_vec r c M N : wf_mat r c M -> wf_mat r c N ->
  (forall x, length x = c -> mat_vec M x =v mat_vec N x) -> M =m N.
Proof.
  intros WM WN H. apply (meq_mget r c); try assumption. intros i j Hi Hj.
  assert (E : forall A, wf_mat r c A -> mget A i j == nthq (mat_vec A (unit c j)) i).
  { intros A WA. rewrite nthq_mat_vec by (rewrite (wf_mat_length _ _ _ WA); exact Hi).
    rewrite dot_comm, dot_unit_l by (auto; apply (wf_mat_row _ _ _ _ WA Hi)). reflexivity. }
  rewrite (E M WM), (E N WN), H by apply unit_length. reflexivity.
Qed.
Lemma mat_mul_assoc r q p s A B C : wf_mat r q A -> wf_mat q p B -> wf_mat p s C ->
  mat_mul s (mat_mul p A B) C =m mat_mul s A (mat_mul s B C).
Proof.
  intros WA WB WC. apply (meq_mat_vec r s); eauto with wf. intros x _.
  rewrite !mat_vec_mat_mul by eauto with wf. reflexivity.
Qed.
Lemma mat_mul_mzero_r r q p A : wf_mat r q A -> mat_mul p A (mzero q p) =m mzero r p.
Proof.
  intros WA. apply (meq_mat_vec r p); eauto with wf. intros x _.
  rewrite mat_vec_mat_mul, !mat_vec_mzero, mat_vec_vzero, (wf_mat_length _ _ _ WA) by eauto with wf. reflexivity.
Qed.
Lemma mat_mul_madd_l r q p A A' B : wf_mat r q A -> wf_mat r q A' -> wf_mat q p B ->
  mat_mul p (madd A A') B =m madd (mat_mul p A B) (mat_mul p A' B).
Proof.
  intros WA WA' WB. apply (meq_mat_vec r p); eauto with wf. intros x _.
  erewrite mat_vec_madd, !mat_vec_mat_mul, mat_vec_madd by eauto with wf. reflexivity.
Qed.
Lemma mat_mul_madd_r r q p A B B' : wf_mat r q A -> wf_mat q p B -> wf_mat q p B' ->
  mat_mul p A (madd B B') =m madd (mat_mul p A B) (mat_mul p A B').
Proof.
  intros WA WB WB'. apply (meq_mat_vec r p); eauto with wf. intros x _.
  erewrite mat_vec_madd, !mat_vec_mat_mul, mat_vec_madd by eauto with wf.
  apply mat_vec_vadd. rewrite !mat_vec_length, (wf_mat_length _ _ _ WB), (wf_mat_length _ _ _ WB'). reflexivity.
Qed.
Lemma mat_mul_mscale_r r q p c A B : wf_mat r q A -> wf_mat q p B -> mat_mul p A (mscale c B) =m mscale c (mat_mul p A B).
Proof.
  intros WA WB. apply (meq_mat_vec r p); eauto with wf. intros x _.
  rewrite mat_vec_mscale, !mat_vec_mat_mul, mat_vec_mscale, mat_vec_vscale by eauto with wf. reflexivity.
Qed.
Lemma mat_mul_msub_l r q p A A' B : wf_mat r q A -> wf_mat r q A' -> wf_mat q p B ->
  mat_mul p (msub A A') B =m msub (mat_mul p A B) (mat_mul p A' B).
Proof.
  intros WA WA' WB. apply (meq_mat_vec r p); eauto with wf. intros x _.
  erewrite mat_vec_msub, !mat_vec_mat_mul, mat_vec_msub by eauto with wf. reflexivity.
Qed.
Lemma mat_mul_outer_r r q p A x y : wf_mat r q A -> length x = q -> length y = p ->
  mat_mul p A (outer x y) =m outer (mat_vec A x) y.
Proof.
  intros WA Hx Hy. apply (meq_mat_vec r p); eauto with wf.
  - apply outer_wf'; [rewrite mat_vec_length; apply (wf_mat_length _ _ _ WA) | exact Hy].
  - intros v _. rewrite mat_vec_mat_mul, !mat_vec_outer, mat_vec_vscale by eauto with wf. reflexivity.
Qed.
Lemma mat_mul_identity_l n p B : wf_mat n p B -> mat_mul p (identity n) B =m B.
Proof.
  intros WB. apply (meq_mat_vec n p); eauto with wf. intros x _.
  rewrite mat_vec_mat_mul, mat_vec_identity by (eauto with wf; rewrite mat_vec_length; apply (wf_mat_length _ _ _ WB)). reflexivity.
Qed.
Lemma mat_mul_identity_r r n A : wf_mat r n A -> mat_mul n A (identity n) =m A.
Proof.
  intros WA. apply (meq_mat_vec r n); eauto with wf. intros x Hx.
  rewrite mat_vec_mat_mul, mat_vec_identity by eauto with wf. reflexivity.
Qed.
Lemma mat_mul_diag_r r M d : wf_mat r (length d) M -> mat_mul (length d) M (diag d) =m col_scale M d.
Proof.
  intros WM. pose proof (diag_wf d) as WD. apply (meq_mat_vec r (length d)); eauto with wf. intros x Hx.
  rewrite mat_vec_mat_mul, mat_vec_diag, mat_vec_col_scale by eauto with wf. reflexivity.
Qed.
Lemma mat_mul_col_scale r q p M d X : wf_mat r q M -> length d = q -> wf_mat q p X ->
  mat_mul p (col_scale M d) X =m mat_mul p M (row_scale d X).
Proof.
  intros WM Hd WX. apply (meq_mat_vec r p); eauto with wf. intros x _.
  rewrite !mat_vec_mat_mul, mat_vec_col_scale, mat_vec_row_scale by eauto with wf. reflexivity.
Qed.

(** [N] is the transpose of [M] as soon as it has the transposed shape and the transposed entries. *)
Lemma meq_transpose r c M N : wf_mat r c M -> wf_mat c r N ->
  (forall i j, (i < r)%nat -> (j < c)%nat -> mget N j i == mget M i j) -> transpose_n c M =m N.
Proof.
  intros [HM _] WN H. apply (meq_mget c r); [apply transpose_n_wf; exact HM | exact WN |].
  intros j i Hj Hi. rewrite mget_transpose_n by (rewrite ?HM; assumption). symmetry. apply H; assumption.
Qed.
Lemma transpose_wf r c M : wf_mat r c M -> wf_mat c r (transpose_n c M).
Proof. intros [H _]. apply transpose_n_wf; exact H. Qed.
Global Hint Resolve transpose_wf : wf.
Lemma mget_transpose r c M i j : wf_mat r c M -> (i < r)%nat -> (j < c)%nat -> mget (transpose_n c M) j i = mget M i j.
Proof. intros [H _] Hi Hj. apply mget_transpose_n; [exact Hj | rewrite H; exact Hi]. Qed.

Lemma transpose_madd r c A B : wf_mat r c A -> wf_mat r c B -> transpose_n c (madd A B) =m madd (transpose_n c A) (transpose_n c B).
Proof.
  intros WA WB. apply (meq_transpose r c); auto with wf.
  intros i j Hi Hj. rewrite (mget_madd c r), (mget_madd r c), !(mget_transpose r c) by auto with wf. reflexivity.
Qed.
Lemma transpose_mscale r c q A : wf_mat r c A -> transpose_n c (mscale q A) =m mscale q (transpose_n c A).
Proof.
  intros WA. apply (meq_transpose r c); auto with wf.
  intros i j Hi Hj. rewrite (mget_mscale c r), (mget_mscale r c), (mget_transpose r c) by auto with wf. reflexivity.
Qed.
Lemma transpose_mneg r c A : wf_mat r c A -> transpose_n c (mneg A) =m mneg (transpose_n c A).
Proof.
  intros WA. apply (meq_transpose r c); auto with wf.
  intros i j Hi Hj. rewrite (mget_mneg c r), (mget_mneg r c), (mget_transpose r c) by auto with wf. reflexivity.
Qed.
Lemma transpose_outer x y : transpose_n (length y) (outer x y) =m outer y x.
Proof.
  apply (meq_transpose (length x) (length y)); try apply outer_wf.
  intros i j Hi Hj. rewrite !mget_outer by assumption. ring.
Qed.
Lemma transpose_transpose r c M : wf_mat r c M -> transpose_n r (transpose_n c M) =m M.
Proof.
  intros WM. apply (meq_transpose c r); auto with wf.
  intros j i Hj Hi. rewrite (mget_transpose r c) by assumption. reflexivity.
Qed.
Lemma col_transpose_n r c M i : wf_mat r c M -> (i < r)%nat -> col i (transpose_n c M) =v nth i M [].
Proof.
  intros WM Hi. pose proof (wf_mat_length _ _ _ (transpose_wf r c M WM)) as HT.
  apply veq_nth; [rewrite col_length, HT, (wf_mat_row _ _ _ _ WM Hi); reflexivity|].
  intros j Hj. rewrite col_length, HT in Hj. rewrite nthq_col by (rewrite HT; exact Hj).
  rewrite (mget_transpose r c) by assumption. reflexivity.
Qed.
Lemma transpose_mat_mul r q p A B : wf_mat r q A -> wf_mat q p B ->
  transpose_n p (mat_mul p A B) =m mat_mul r (transpose_n p B) (transpose_n q A).
Proof.
  intros WA WB. apply (meq_transpose r p); eauto with wf.
  intros i j Hi Hj. rewrite (mget_mat_mul r q p), (mget_mat_mul p q r) by auto with wf.
  rewrite nth_transpose_n by exact Hj. rewrite (col_transpose_n r q) by assumption. apply dot_comm.
Qed.
Lemma transpose_identity n : transpose_n n (identity n) =m identity n.
Proof.
  apply (meq_transpose n n); try apply identity_wf.
  intros i j Hi Hj. rewrite !mget_identity by assumption. rewrite (Nat.eqb_sym i j). reflexivity.
Qed.
Lemma transpose_symmetric n A : wf_mat n n A -> msymmetric n A -> transpose_n n A =m A.
Proof. intros WA HS. apply (meq_transpose n n); try assumption. intros i j Hi Hj. apply HS; assumption. Qed.
Lemma transpose_row_scale r c d M : length d = r -> wf_mat r c M -> transpose_n c (row_scale d M) =m col_scale (transpose_n c M) d.
Proof.
  intros Hd WM. apply (meq_transpose r c); auto with wf.
  intros i j Hi Hj. rewrite (mget_row_scale r c), (mget_col_scale c r), (mget_transpose r c) by auto with wf. ring.
Qed.
Lemma transpose_col_scale r c d M : length d = c -> wf_mat r c M -> transpose_n c (col_scale M d) =m row_scale d (transpose_n c M).
Proof.
  intros Hd WM. apply (meq_transpose r c); auto with wf.
  intros i j Hi Hj. rewrite (mget_row_scale c r), (mget_col_scale r c), (mget_transpose r c) by auto with wf. ring.
Qed.
Lemma transpose_mconst r c q : transpose_n c (mconst r c q) =m mconst c r q.
Proof.
  apply (meq_transpose r c); try apply mconst_wf. intros i j Hi Hj. rewrite !mget_mconst by assumption. reflexivity.
Qed.

Lemma outer_vconst r c a b : outer (vconst r a) (vconst c b) =m mconst r c (a * b).
Proof.
  unfold outer, mconst. change (vconst r a) with (repeat a r). rewrite map_repeat, vscale_vconst. reflexivity.
Qed.
Lemma row_scale_diag n p d M : length d = n -> wf_mat n p M -> row_scale d M =m mat_mul p (diag d) M.
Proof.
  intros Hd WM. pose proof (diag_wf d) as WD. rewrite Hd in WD. apply (meq_mat_vec n p); eauto with wf. intros x _.
  rewrite mat_vec_row_scale, mat_vec_mat_mul, mat_vec_diag by (eauto with wf; rewrite mat_vec_length, Hd; apply (wf_mat_length _ _ _ WM)).
  reflexivity.
Qed.
Lemma madd_mzero_r r c A : wf_mat r c A -> madd A (mzero r c) =m A.
Proof.
  intros [<- FA]. induction FA as [|a A Ha FA IH]; simpl; constructor; [apply vadd_vzero_r; exact Ha | exact IH].
Qed.
Lemma mscale_0 r c A : wf_mat r c A -> mscale 0 A =m mzero r c.
Proof.
  intros [<- FA]. induction FA as [|a A Ha FA IH]; simpl; constructor; [rewrite vscale_0, Ha; reflexivity | exact IH].
Qed.
Lemma mscale_mscale c d A : mscale c (mscale d A) =m mscale (c * d) A.
Proof. induction A as [|a A IH]; simpl; constructor; auto. apply vscale_vscale. Qed.
Lemma mscale_mconst q r c p : mscale q (mconst r c p) = mconst r c (q * p).
Proof. unfold mscale, mconst. rewrite map_repeat, vscale_vconst. reflexivity. Qed.
Lemma outer_vscale_r p x y : outer x (vscale p y) =m mscale p (outer x y).
Proof.
  unfold outer, mscale. rewrite map_map. apply map_ext_meq. intros a _. rewrite !vscale_vscale.
  apply vscale_proper; [ring | reflexivity].
Qed.
Lemma map_map_div q A : map (map (fun a => a / q)) A =m mscale (/ q) A.
Proof. apply map_ext_meq. intros u _. apply map_ext_veq. intros a _. unfold Qdiv. ring. Qed.
Lemma mneg_mscale A : mneg A =m mscale (-(1)) A.
Proof. induction A; simpl; constructor; auto. apply vneg_vscale. Qed.
Lemma madd_comm A B : madd A B =m madd B A.
Proof. revert B; induction A as [|a A IH]; intros [|b B]; simpl; constructor; [apply vadd_comm | apply IH]. Qed.
Lemma madd_assoc A B C : madd (madd A B) C =m madd A (madd B C).
Proof. revert B C; induction A as [|a A IH]; intros [|b B] [|c C]; simpl; constructor; [apply vadd_assoc | apply IH]. Qed.
Lemma mscale_madd q A B : mscale q (madd A B) =m madd (mscale q A) (mscale q B).
Proof. revert B; induction A as [|a A IH]; intros [|b B]; simpl; constructor; [apply vscale_vadd | apply IH]. Qed.
Lemma mscale_outer q x y : mscale q (outer x y) =m outer (vscale q x) y.
Proof. induction x as [|a x IH]; simpl; constructor; auto. apply vscale_vscale. Qed.
Lemma mneg_outer x y : mneg (outer x y) =m outer (vneg x) y.
Proof. rewrite mneg_mscale, mscale_outer, <- vneg_vscale. reflexivity. Qed.

Lemma madd_mzero_l r c A : wf_mat r c A -> madd (mzero r c) A =m A.
Proof. intros WA. rewrite madd_comm. apply madd_mzero_r; exact WA. Qed.
Lemma madd_shuffle A B C : madd (madd A B) C =m madd (madd A C) B.
Proof. rewrite !madd_assoc. apply madd_proper; [reflexivity | apply madd_comm]. Qed.
Lemma madd_4 A B C D : madd (madd A B) (madd C D) =m madd (madd A C) (madd B D).
Proof. rewrite madd_assoc, <- (madd_assoc B), (madd_comm B C), !madd_assoc. reflexivity. Qed.
Lemma mscale_mzero q r c : mscale q (mzero r c) =m mzero r c.
Proof. unfold mscale, mzero. rewrite map_repeat. apply Forall2_repeat, vscale_vzero. Qed.
Lemma mneg_mzero r c : mneg (mzero r c) =m mzero r c.
Proof. rewrite mneg_mscale. apply mscale_mzero. Qed.
Lemma mneg_madd A B : mneg (madd A B) =m madd (mneg A) (mneg B).
Proof. rewrite !mneg_mscale. apply mscale_madd. Qed.
Lemma transpose_mzero r c : transpose_n c (mzero r c) =m mzero c r.
Proof. apply (meq_transpose r c); auto with wf. intros i j _ _. rewrite !mget_mzero. reflexivity. Qed.
Lemma mat_mul_mzero_l q p r B : wf_mat q p B -> mat_mul p (mzero r q) B =m mzero r p.
Proof.
  intros WB. unfold mat_mul, mzero. rewrite map_repeat. apply Forall2_repeat, vec_mat_vzero_l, (wf_mat_rows _ _ _ WB).
Qed.

Lemma row_sums_total_col_sums r c M : wf_mat r c M -> sumq (col_sums c M) == total M.
Proof.
  intros WM. unfold total.
  assert (E1 : sumq (row_sums M) == dot (vones r) (mat_vec M (vones c))).
  { rewrite (mat_vec_vones r c M WM). rewrite <- (wf_mat_length _ _ _ WM), <- (row_sums_length M). symmetry. apply dot_vones_l. }
  rewrite E1, (dot_mat_vec_transpose r c M _ _ WM).
  assert (E : mat_vec (transpose_n c M) (vones r) =v col_sums c M).
  { rewrite <- (wf_mat_length _ _ _ WM). apply mat_vec_transpose_vones. }
  rewrite E.
  assert (E2 := dot_vones_r (col_sums c M)). rewrite col_sums_length in E2. symmetry; exact E2.
Qed.
