(** Shared definitions and lemmas on lists ([nthb] / [nthn] / [nthz] / [nthq], [memn], [map2], [nth_map_seq] ...)
    and on finite sums ([sumn] over nat, [sumz] over Z, [sumq] over Q).  Only the standard library is used. *)
From Coq Require Export List Arith ZArith QArith Bool Lia.
From Coq Require Import Permutation.
Export ListNotations.
Close Scope Q_scope.
Open Scope nat_scope.

(** [nth] with explicit default names, used for vectors of booleans / integers. *)
Definition nthb (l : list bool) (i : nat) : bool := nth i l false.
Definition nthn (l : list nat) (i : nat) : nat := nth i l 0.
Definition nthz (l : list Z) (i : nat) : Z := nth i l 0%Z.
Definition nthq (l : list Q) (i : nat) : Q := nth i l 0%Q.

Definition memn (x : nat) (l : list nat) : bool := existsb (Nat.eqb x) l.

Fixpoint map2 {A B C} (f : A -> B -> C) (l1 : list A) (l2 : list B) : list C :=
  match l1, l2 with
  | a :: t1, b :: t2 => f a b :: map2 f t1 t2
  | _, _ => []
  end.

Definition sumn (l : list nat) : nat := fold_right Nat.add 0 l.
Definition sumz (l : list Z) : Z := fold_right Z.add 0%Z l.
Definition sumq (l : list Q) : Q := fold_right Qplus 0%Q l.

Lemma memn_In x l : memn x l = true <-> In x l.
Proof.
  unfold memn. rewrite existsb_exists. split.
  - intros [y [Hy E]]. apply Nat.eqb_eq in E. subst. exact Hy.
  - intros H. exists x. split; [exact H | apply Nat.eqb_refl].
Qed.

Lemma map2_length {A B C} (f : A -> B -> C) l1 l2 :
  length (map2 f l1 l2) = Nat.min (length l1) (length l2).
Proof. revert l2; induction l1 as [|a t IH]; intros [|b t2]; simpl; auto. Qed.

Lemma nth_map2 {A B C} (f : A -> B -> C) l1 l2 i da db dc :
  i < length l1 -> i < length l2 ->
  nth i (map2 f l1 l2) dc = f (nth i l1 da) (nth i l2 db).
Proof.
  revert l2 i; induction l1 as [|a t IH]; intros [|b t2] [|i]; simpl; intros H1 H2; try lia; auto.
  apply IH; lia.
Qed.

Lemma memn_false x l : memn x l = false <-> ~ In x l.
Proof. rewrite <- memn_In. destruct (memn x l); intuition congruence. Qed.

(** * Lists *)

Lemma nth_map_seq {B} (f : nat -> B) (n i : nat) (d : B) : i < n -> nth i (map f (seq 0 n)) d = f i.
Proof.
  intros H. rewrite (nth_indep _ d (f 0)) by (rewrite map_length, seq_length; exact H).
  rewrite map_nth, seq_nth by exact H. reflexivity.
Qed.

Lemma map_nth_seq {A} (l : list A) (d : A) : map (fun i => nth i l d) (seq 0 (length l)) = l.
Proof.
  apply nth_ext with (d := d) (d' := d); rewrite map_length, seq_length; [reflexivity|].
  intros i H. apply (nth_map_seq (fun i => nth i l d)). exact H.
Qed.

Lemma filter_map_comm {A B} (p : B -> bool) (f : A -> B) (l : list A) :
  filter p (map f l) = map f (filter (fun x => p (f x)) l).
Proof. induction l as [|a l IH]; simpl; [reflexivity|]. destruct (p (f a)); simpl; rewrite IH; reflexivity. Qed.

Lemma NoDup_snoc {A} (l : list A) x : NoDup l -> ~ In x l -> NoDup (l ++ [x]).
Proof.
  induction l as [|a l IH]; intros Hl Hx; simpl; [constructor; [intros []|constructor]|].
  inversion Hl as [|? ? Ha Hl']; subst. constructor.
  - rewrite in_app_iff. intros [H|[H|[]]]; [exact (Ha H)|]. apply Hx. left. symmetry. exact H.
  - apply IH; [exact Hl'|]. intros H. apply Hx. right. exact H.
Qed.

Lemma NoDup_app_l {A} (l l' : list A) : NoDup (l ++ l') -> NoDup l.
Proof.
  induction l as [|a l IH]; simpl; intros H; [constructor|]. inversion H as [|x xs Hx Hxs]; subst.
  constructor; [intros I; apply Hx; apply in_or_app; left; exact I | apply IH; exact Hxs].
Qed.

Lemma map_fst_combine {A B} (a : list A) (b : list B) : length a = length b -> map fst (combine a b) = a.
Proof.
  revert b. induction a as [|x a IH]; intros [|y b]; simpl; intros E; try discriminate; [reflexivity|].
  f_equal. apply IH. lia.
Qed.

Lemma map_snd_combine {A B} (a : list A) (b : list B) : length a = length b -> map snd (combine a b) = b.
Proof.
  revert b. induction a as [|x a IH]; intros [|y b]; simpl; intros E; try discriminate; [reflexivity|].
  f_equal. apply IH. lia.
Qed.

(** * Sums *)

Lemma sumn_app l1 l2 : sumn (l1 ++ l2) = sumn l1 + sumn l2.
Proof. induction l1 as [|a t IH]; simpl; [reflexivity|]. rewrite IH. lia. Qed.

Lemma sumn_perm l1 l2 : Permutation l1 l2 -> sumn l1 = sumn l2.
Proof. induction 1; simpl; lia. Qed.

Lemma sumq_cons x l : sumq (x :: l) = (x + sumq l)%Q.
Proof. reflexivity. Qed.

Lemma sumq_app l1 l2 : (sumq (l1 ++ l2) == sumq l1 + sumq l2)%Q.
Proof. induction l1 as [|a t IH]; simpl; [ring|]. rewrite IH. ring. Qed.

Lemma sumq_ext {A} (f g : A -> Q) l :
  (forall x, In x l -> (f x == g x)%Q) -> (sumq (map f l) == sumq (map g l))%Q.
Proof.
  induction l as [|a l IH]; intros H; simpl; [reflexivity|].
  rewrite (H a (or_introl eq_refl)), IH; [reflexivity|]. intros x Hx. apply H. right. exact Hx.
Qed.

Lemma sumq_zero {A} (f : A -> Q) l : (forall x, In x l -> (f x == 0)%Q) -> (sumq (map f l) == 0)%Q.
Proof.
  intros H. rewrite (sumq_ext f (fun _ => 0%Q) l H). clear H.
  induction l as [|a l IH]; simpl; [reflexivity|]. rewrite IH. ring.
Qed.

Lemma sumq_nonneg l : (forall x, In x l -> (0 <= x)%Q) -> (0 <= sumq l)%Q.
Proof.
  induction l as [|a l IH]; intros H; simpl; [apply Qle_refl|].
  rewrite <- (Qplus_0_l 0). apply Qplus_le_compat; [apply H; left; reflexivity|].
  apply IH. intros x Hx. apply H. right. exact Hx.
Qed.
